(* PushSubmit: PUSH hands messages to the transports in the order the application SUBMITTED
   them (DESIGN 11.8: order laws are stated over what the application did, not over what the
   implementation chose to accept).

   pend s   = the send buffer, then the blocked senders in queue order
   entered  = the message of a send that was not refused on the spot
   Every step of push_step_r fr (and of the guarded step push_step_g fc fr that is run against the
   code) satisfies      pend s ++ entered o outs = txs outs ++ pend s'
   unless it removes submitted messages on purpose (sub_loss: a cancelled / timed-out blocked send
   leaves with exactly its own message, a buffer shrink drops the excess, the socket close fails
   the waiters), in which case the right-hand side is an in-order sub-sequence and the multisets
   differ by exactly sub_loss.  The law needs QInv (a blocked sender => the buffer is full); the
   pinned push0_set_send_buf_len breaks QInv when the buffer grows under blocked senders, and the
   law is then FALSE (push_submission_order_refuted_pinned: sends 1 2 3 arrive as 3 1 2 -- finding
   push-resize-overtakes-blocked).  With the repaired resize (fr = true) it holds for every step.

   Also here: the repaired resize keeps PInv / conservation / the descriptor mirror
   (push_step_r_law, push_r_writable_mirror), and a pipe the protocol refuses at start takes
   nothing (push_rejected_pipe_takes_nothing). *)
From Coq Require Import List Arith NArith Bool Lia.
From NngV Require Import Gen.Consts Proto.Common Proto.PushModel Proto.PushGuard Proto.PushProofs.
From NngV Require Base.ListX.
Import ListNotations.

Inductive sublist {A} : list A -> list A -> Prop :=
| sl_nil : sublist [] []
| sl_skip x l1 l2 : sublist l1 l2 -> sublist l1 (x :: l2)
| sl_keep x l1 l2 : sublist l1 l2 -> sublist (x :: l1) (x :: l2).
Lemma sublist_refl {A} (l : list A) : sublist l l.
Proof. induction l; [apply sl_nil|apply sl_keep; assumption]. Qed.
Lemma sublist_nil_l {A} (l : list A) : sublist [] l.
Proof. induction l; [apply sl_nil|apply sl_skip; assumption]. Qed.
Lemma sublist_app {A} (a b c d : list A) : sublist a b -> sublist c d -> sublist (a ++ c) (b ++ d).
Proof. induction 1; cbn; intros; [assumption|apply sl_skip; auto|apply sl_keep; auto]. Qed.
Lemma sublist_trans {A} (l1 l2 l3 : list A) : sublist l1 l2 -> sublist l2 l3 -> sublist l1 l3.
Proof.
  intros H12 H23. revert l1 H12. induction H23; intros l0 H12.
  - exact H12.
  - apply sl_skip, IHsublist, H12.
  - inversion H12; subst; [apply sl_skip|apply sl_keep]; apply IHsublist; assumption.
Qed.
Lemma sublist_firstn {A} n (l : list A) : sublist (firstn n l) l.
Proof. revert n. induction l; intros [|n]; cbn; [apply sl_nil|apply sl_nil|apply sublist_nil_l|apply sl_keep; apply IHl]. Qed.
Lemma sublist_app_l {A} (a b : list A) : sublist a (a ++ b).
Proof. rewrite <- (app_nil_r a) at 1. apply sublist_app; [apply sublist_refl|apply sublist_nil_l]. Qed.
Lemma sublist_app_r {A} (a b : list A) : sublist b (a ++ b).
Proof. induction a; cbn; [apply sublist_refl|apply sl_skip; assumption]. Qed.
Lemma sublist_map {A B} (f : A -> B) a b : sublist a b -> sublist (map f a) (map f b).
Proof. induction 1; cbn; [apply sl_nil|apply sl_skip; auto|apply sl_keep; auto]. Qed.
Lemma sublist_filter {A} (f : A -> bool) l : sublist (filter f l) l.
Proof. induction l; cbn; [apply sl_nil|]. destruct (f a); [apply sl_keep|apply sl_skip]; auto. Qed.
Lemma sublist_ok : sub_ok (@sublist pmsg).
Proof. exact (conj sublist_refl (conj sublist_nil_l (conj sublist_app sublist_trans))). Qed.
Lemma sublist_cnt (a b : list pmsg) x : sublist a b -> cnt x a <= cnt x b.
Proof. induction 1; rewrite ?cnt_cons; cbn; lia. Qed.
Lemma sublist_length {A} (a b : list A) : sublist a b -> length a <= length b.
Proof. induction 1; cbn; lia. Qed.

(* a decision procedure (greedy matching), complete for sublist: used for the refutation *)
Fixpoint sublistb (a b : list pmsg) : bool :=
  match a, b with
  | [], _ => true
  | _ :: _, [] => false
  | x :: a', y :: b' => if pmsg_eq_dec x y then sublistb a' b' else sublistb a b'
  end.
Lemma sublistb_tail x a b : sublistb (x :: a) b = true -> sublistb a b = true.
Proof.
  revert x a. induction b as [|y b IH]; intros x a H; [discriminate|].
  cbn [sublistb] in H. destruct (pmsg_eq_dec x y) as [E|E].
  - destruct a as [|z a']; [reflexivity|]. cbn [sublistb]. destruct (pmsg_eq_dec z y); [eapply IH; eauto|exact H].
  - destruct a as [|z a']; [reflexivity|]. cbn [sublistb]. destruct (pmsg_eq_dec z y); [|eapply IH; eauto].
    apply IH in H. eapply IH; eauto.
Qed.
Lemma sublistb_complete a b : sublist a b -> sublistb a b = true.
Proof.
  induction 1 as [|y l1 l2 H IH|y l1 l2 H IH].
  - reflexivity.
  - destruct l1 as [|x l1']; [reflexivity|]. cbn [sublistb]. destruct (pmsg_eq_dec x y); [|exact IH].
    eapply sublistb_tail; eauto.
  - cbn [sublistb]. destruct (pmsg_eq_dec y y); [exact IH|congruence].
Qed.

Lemma map_skipn {A B} (f : A -> B) n l : map f (skipn n l) = skipn n (map f l).
Proof. revert n. induction l; intros [|n]; cbn; auto. Qed.
Lemma txs_completes {A} (f : A -> aioid) (l : list A) : txs (map (fun x => Complete (f x) E_OK None) l) = [].
Proof. induction l; cbn; auto. Qed.
Lemma freed_completes {A} (f : A -> aioid) (l : list A) : freed (map (fun x => Complete (f x) E_OK None) l) = [].
Proof. induction l; cbn; auto. Qed.

(* the completions of the repaired resize accept exactly the letin senders' messages *)
Lemma accepted_completes s o (l : list (aioid * pmsg)) :
  (forall c a nb m, o <> PSend c a nb m) -> NoDup (map fst (ps_aq s)) -> (forall x, In x l -> In x (ps_aq s)) ->
  accepted s o (map (fun x => Complete (fst x) E_OK None) l) = map snd l.
Proof.
  intros Ho ND. induction l as [|[a m] l IH]; intros Hin; [reflexivity|].
  cbn [map accepted fst snd]. change (E_OK =? 0)%N with true. cbn iota.
  assert (L: lookup_aq a (ps_aq s) = [m]) by (apply lookup_in_nodup; [exact ND|apply Hin; now left]).
  rewrite IH by (intros; apply Hin; now right).
  destruct o; try (rewrite L; reflexivity). exfalso. eapply Ho. reflexivity.
Qed.

Theorem push_step_r_law fr s o s' outs :
  PInv s -> op_ok s o -> push_step_r fr s o = (s', outs) ->
  PInv s' /\ forall x, cnt x (owned s ++ accepted s o outs ++ arrived o) = cnt x (owned s' ++ wire s o ++ freed outs).
Proof.
  intros HI Hok H.
  destruct (is_resize o) eqn:R; [|rewrite push_step_r_other in H by exact R; eapply push_step_law; eauto].
  destruct o as [| | | | | | |c op| | | |]; try discriminate. destruct op; try discriminate. cbn [push_step_r] in H.
  destruct (fr && negb (8192 <? N.of_nat n)%N); [|eapply push_step_law; eauto].
  pose proof HI as (I1 & I2 & I3 & I4 & I5 & I6). unfold push_resize_takein in H. injection H as <- <-.
  set (wq1 := firstn n (ps_wq s)). set (room := n - length wq1). split.
  - pinv6; simp_p; auto.
    + intros Hne. destruct (I1 Hne) as [W A]. unfold wq1. rewrite W, A, firstn_nil, firstn_nil, skipn_nil. split; reflexivity.
    + rewrite app_length, map_length, firstn_length. unfold room. assert (length wq1 <= n) by (unfold wq1; rewrite firstn_length; lia). lia.
    + rewrite map_skipn. now apply ListX.NoDup_skipn.
  - intros x. unfold owned, held. cbn [wire arrived]. simp_p.
    rewrite accepted_app, accepted_map_Free, accepted_app. cbn [accepted].
    rewrite (accepted_completes s _ (firstn room (ps_aq s))); [|intros; discriminate|exact I4|intros y Hy; eapply ListX.in_firstn; eauto].
    rewrite !freed_app, freed_map_Free, freed_completes. cbn [freed].
    rewrite <- (firstn_skipn n (ps_wq s)) at 1. fold wq1. cnt_simp. lia.
Qed.

Theorem push_r_writable_mirror fr s o s' outs :
  PInv s -> WInv s -> push_step_r fr s o = (s', outs) -> WInv s'.
Proof.
  intros HI W H.
  destruct (is_resize o) eqn:R; [|rewrite push_step_r_other in H by exact R; eapply push_writable_mirror; eauto].
  destruct o as [| | | | | | |c op| | | |]; try discriminate. destruct op; try discriminate. cbn [push_step_r] in H.
  destruct (fr && negb (8192 <? N.of_nat n)%N); [|eapply push_writable_mirror; eauto].
  unfold push_resize_takein in H. injection H as <- <-.
  unfold WInv, can_accept, wq_full in *. simp_p.
  match goal with |- context [n <=? ?L] => destruct (n <=? L) end; cbn [negb orb] in *.
  - destruct (ps_pl s) eqn:PL; cbn in *; auto.
  - destruct (ps_pl s); reflexivity.
Qed.

(* submitted and not yet handed to a transport, oldest first *)
Definition pend (s : push) : list pmsg := ps_wq s ++ map snd (ps_aq s).
(* the call was refused on the spot: its aio completes with an error in the very step that submits it *)
Definition refused_now (a : aioid) (outs : list pout) : bool :=
  existsb (fun x => match x with Complete a' rv _ => N.eqb a' a && negb (N.eqb rv 0) | _ => false end) outs.
(* the message a send submits -- unless the call is refused on the spot (NNG_EAGAIN for a non-blocking
   send that cannot be taken): then the message stays with the caller and never entered *)
Definition entered (o : pop) (outs : list pout) : list pmsg :=
  match o with PSend _ a _ m => if refused_now a outs then [] else [m] | _ => [] end.
(* submitted messages that leave without being transmitted, on purpose: the message of a cancelled /
   timed-out blocked send (exactly that one), the excess of a buffer shrink, the waiters at socket close *)
Definition sub_loss (s : push) (o : pop) : list pmsg :=
  match o with
  | PSetOpt _ (OSendBuf n) => if (8192 <? N.of_nat n)%N then [] else skipn n (ps_wq s)
  | PCancel a _ => lookup_aq a (ps_aq s)
  | PSockClose => map snd (ps_aq s)
  | _ => []
  end.
(* a blocked sender => the send buffer is full *)
Definition QInv (s : push) : Prop := ps_aq s <> [] -> wq_full s = true.

Definition SubLaw (s : push) (o : pop) (s' : push) (outs : list pout) : Prop :=
  QInv s' /\
  (sub_loss s o = [] -> pend s ++ entered o outs = txs outs ++ pend s') /\
  sublist (txs outs ++ pend s') (pend s ++ entered o outs) /\
  (forall x, cnt x (pend s ++ entered o outs) = cnt x (txs outs ++ pend s' ++ sub_loss s o)).

Ltac nonil := let X := fresh in intros X; exfalso; apply X; reflexivity.

Lemma sub_exact s o s' outs :
  QInv s' -> sub_loss s o = [] -> pend s ++ entered o outs = txs outs ++ pend s' -> SubLaw s o s' outs.
Proof. intros Q L E. split; [exact Q|]. rewrite L. now apply (Flow_exact _ sublist_ok). Qed.
Lemma sub_same s o s' outs :
  QInv s -> ps_wq s' = ps_wq s -> ps_aq s' = ps_aq s -> ps_cap s' = ps_cap s ->
  txs outs = [] -> entered o outs = [] -> sub_loss s o = [] -> SubLaw s o s' outs.
Proof.
  intros Q A B C T S L. apply sub_exact; auto.
  - unfold QInv, wq_full in *. now rewrite A, B, C.
  - unfold pend. now rewrite S, T, A, B, app_nil_r.
Qed.

(* push0_pipe_ready: the head of pend goes to the pipe, the rest keeps its order *)
Lemma ready_pend s p s' outs :
  QInv s -> push_pipe_ready s p = (s', outs) -> pend s = txs outs ++ pend s' /\ QInv s'.
Proof.
  intros Q H. unfold push_pipe_ready in H. unfold pend, QInv, wq_full in *.
  destruct (ps_wq s) as [|m rest] eqn:EW; destruct (ps_aq s) as [|[a m2] aqr] eqn:EA;
    injection H as <- <-; simp_p; cbn [map snd txs app length] in *.
  - split; [reflexivity|]. intros X. exfalso. now apply X.
  - split; [reflexivity|]. intros _. apply Q. discriminate.
  - split; [reflexivity|]. intros X. exfalso. now apply X.
  - split; [now rewrite <- app_assoc|]. intros _. specialize (Q ltac:(discriminate)).
    rewrite app_length. cbn [length]. apply Nat.leb_le in Q. apply Nat.leb_le. lia.
Qed.

Lemma refused_ok a r : refused_now a (Complete a E_OK None :: r) = refused_now a r.
Proof. unfold refused_now. cbn [existsb]. rewrite N.eqb_refl. reflexivity. Qed.

Theorem push_submission_step fr s o s' outs :
  PInv s -> QInv s -> op_ok s o -> (fr = true \/ is_resize o = false) ->
  push_step_r fr s o = (s', outs) -> SubLaw s o s' outs.
Proof.
  intros HI Q Hok Hfr H. pose proof HI as (I1 & I2 & I3 & I4 & I5 & I6).
  destruct o as [c a nb m|c a nb|a rv|p peer|p|p rv|p rv m| c op|c|c| |now]; cbn [push_step_r push_step op_ok] in *.
  - destruct (ps_pl s) as [|p rest] eqn:PL.
    + destruct (wq_full s) eqn:F; cbn [negb] in H.
      * destruct nb; injection H as <- <-.
        -- (* refused: NNG_EAGAIN, nothing entered *)
           apply sub_same; auto. cbn [entered]. unfold refused_now. cbn [existsb]. rewrite N.eqb_refl. reflexivity.
        -- (* blocked: joins the tail of the wait list *)
           apply sub_exact; [unfold QInv, wq_full in *; simp_p; intros _; exact F|reflexivity|].
           unfold pend. simp_p. cbn [entered refused_now existsb txs app]. rewrite map_app. cbn [map snd]. now rewrite app_assoc.
      * (* room in the buffer: no sender can be blocked (QInv), so the message joins the tail of pend *)
        assert (AQ: ps_aq s = []) by (destruct (ps_aq s) eqn:E; auto; exfalso; unfold QInv in Q; rewrite E in Q; specialize (Q ltac:(discriminate)); congruence).
        injection H as <- <-. apply sub_exact; [unfold QInv; simp_p; rewrite AQ; nonil|reflexivity|].
        unfold pend. simp_p. rewrite AQ. cbn [entered txs map app]. rewrite refused_ok. cbn. now rewrite !app_nil_r.
    + destruct I1 as [W A]; [congruence|]. injection H as <- <-. apply sub_exact; [unfold QInv; simp_p; rewrite A; nonil|reflexivity|].
      unfold pend. simp_p. rewrite W, A. cbn [entered txs map app]. rewrite refused_ok. reflexivity.
  - injection H as <- <-. apply sub_same; auto.
  - (* PCancel: exactly the cancelled sender's message leaves *)
    destruct (has_aio a (ps_aq s)) eqn:EA; injection H as <- <-.
    + unfold SubLaw, QInv, pend, sub_loss, entered, wq_full in *. simp_p. cbn [txs app]. rewrite !app_nil_r.
      split; [|split; [|split]].
      * intros Hne. apply Q. intros E. rewrite E in Hne. apply Hne. reflexivity.
      * intros E. f_equal. symmetry. now apply remove_none.
      * apply sublist_app; [apply sublist_refl|]. apply sublist_map. apply sublist_filter.
      * intros x. unfold lookup_aq, remove_aio. pose proof (cnt_partition x a (ps_aq s)) as P. cnt_simp. lia.
    + apply sub_same; auto. cbn [sub_loss]. now apply lookup_notin.
  - destruct (negb (peer =? PROTO_PULL)%N); [injection H as <- <-; apply sub_same; auto|].
    destruct (push_pipe_ready s p) as [s1 o1] eqn:R. injection H as <- <-.
    destruct (ready_pend _ _ _ _ Q R) as [E Q']. apply sub_exact; auto. cbn [entered txs]. now rewrite app_nil_r.
  - destruct (has_id p (ps_pl s)); injection H as <- <-; apply sub_same; auto.
  - destruct (N.eqb_spec rv 0) as [->|Hrv]; cbn [negb] in H.
    + destruct (ready_pend (sent s p) p s' outs Q H) as [E Q']. apply sub_exact; auto. cbn [entered]. rewrite app_nil_r. exact E.
    + injection H as <- <-. apply sub_same; auto. rewrite txs_app, txs_map_Free. reflexivity.
  - destruct (negb (rv =? 0)%N); injection H as <- <-; apply sub_same; auto.
  - destruct op; try (injection H as <- <-; apply sub_same; auto; fail).
    destruct Hfr as [->|Hfr]; [|discriminate]. cbn [andb] in H.
    destruct (8192 <? N.of_nat n)%N eqn:EB; cbn [negb] in H.
    { injection H as <- <-. apply sub_same; auto. cbn [sub_loss]. now rewrite EB. }
    unfold push_resize_takein in H. injection H as <- <-.
    set (wq1 := firstn n (ps_wq s)). set (room := n - length wq1).
    unfold SubLaw, QInv, pend, sub_loss, entered, wq_full. simp_p. rewrite EB.
    rewrite !txs_app, txs_map_Free, txs_completes. cbn [txs app]. rewrite !app_nil_r.
    assert (RW: map snd (firstn room (ps_aq s)) ++ map snd (skipn room (ps_aq s)) = map snd (ps_aq s))
      by (rewrite <- map_app; now rewrite firstn_skipn).
    assert (LW: length wq1 <= n) by (unfold wq1; rewrite firstn_length; lia).
    split; [|split; [|split]].
    + intros Hne. apply Nat.leb_le. rewrite app_length, map_length, firstn_length.
      assert (room < length (ps_aq s)).
      { destruct (Nat.lt_ge_cases room (length (ps_aq s))); auto. exfalso. apply Hne. now apply skipn_all2. }
      unfold room in *. lia.
    + intros E. rewrite <- app_assoc, RW. rewrite <- (firstn_skipn n (ps_wq s)) at 1. fold wq1. now rewrite E, app_nil_r.
    + rewrite <- app_assoc, RW. apply sublist_app; [apply sublist_firstn|apply sublist_refl].
    + intros x. rewrite <- (firstn_skipn n (ps_wq s)) at 1. fold wq1. rewrite <- RW. cnt_simp. lia.
  - injection H as <- <-; apply sub_same; auto.
  - injection H as <- <-; apply sub_same; auto.
  - (* PSockClose: the waiters fail with NNG_ECLOSED, their messages stay with the callers *)
    injection H as <- <-. unfold SubLaw, QInv, pend, sub_loss, entered. simp_p.
    rewrite txs_fail. cbn [app map]. rewrite !app_nil_r.
    split; [nonil|]. split; [intros E; now rewrite E, app_nil_r|]. split; [apply sublist_app_l|]. intros x. reflexivity.
  - injection H as <- <-; apply sub_same; auto.
Qed.

(* the guarded step (the one run against the code): same law, invariants kept *)
Lemma guard_stale_pinv s p : PInv s -> PInv (mkPush (ps_pl s) (ps_wq s) (ps_cap s) (ps_aq s) (set_sending s p None) (ps_writable s)).
Proof. apply sent_inv. Qed.

Theorem push_submission_step_g fc fr g o g' outs :
  PInv (pg_s g) -> QInv (pg_s g) -> op_ok (pg_s g) o -> (fr = true \/ is_resize o = false) ->
  push_step_g fc fr g o = (g', outs) ->
  SubLaw (pg_s g) o (pg_s g') outs /\ PInv (pg_s g').
Proof.
  intros HI Q Hok Hfr H. destruct (stale_done g o) eqn:ST.
  - (* the late completion of a closed pipe: with the guard nothing moves *)
    destruct o; try discriminate. cbn [stale_done] in ST. cbn [push_step_g] in H. destruct fc; cbn [andb] in H.
    + rewrite ST in H. injection H as <- <-. cbn [pg_s]. split; [apply sub_same; auto|now apply guard_stale_pinv].
    + destruct (push_step_r fr (pg_s g) (PSendDone p rv)) as [s1 o1] eqn:E. injection H as <- <-. cbn [pg_s].
      split; [eapply push_submission_step; eauto|exact (proj1 (push_step_r_law _ _ _ _ _ HI Hok E))].
  - destruct (PushGuard_contract_r fc fr g o ST) as [A B]. rewrite H in A, B. cbn [fst snd] in A, B.
    destruct (push_step_r fr (pg_s g) o) as [s1 o1] eqn:E. cbn [fst snd] in A, B. subst o1. rewrite A.
    split; [eapply push_submission_step; eauto|exact (proj1 (push_step_r_law _ _ _ _ _ HI Hok E))].
Qed.

Definition gtrace := list (pop * push * list pout).
Fixpoint push_run_gt (fc fr : bool) (g : pushg) (ops : list pop) : pushg * gtrace :=
  match ops with
  | [] => (g, [])
  | o :: r => let (g1, outs) := push_step_g fc fr g o in
              let (g2, tr) := push_run_gt fc fr g1 r in (g2, (o, pg_s g, outs) :: tr)
  end.
Fixpoint ops_ok_g (fc fr : bool) (g : pushg) (ops : list pop) : Prop :=
  match ops with
  | [] => True
  | o :: r => op_ok (pg_s g) o /\ ops_ok_g fc fr (fst (push_step_g fc fr g o)) r
  end.
Fixpoint tr_tx (tr : gtrace) : list pmsg := match tr with [] => [] | (o, s, outs) :: r => txs outs ++ tr_tx r end.
Fixpoint tr_entered (tr : gtrace) : list pmsg := match tr with [] => [] | (o, s, outs) :: r => entered o outs ++ tr_entered r end.
Fixpoint tr_subloss (tr : gtrace) : list pmsg := match tr with [] => [] | (o, s, outs) :: r => sub_loss s o ++ tr_subloss r end.
(* what one connection carries *)
Fixpoint txs_on (p : pid) (outs : list pout) : list pmsg :=
  match outs with [] => [] | TranSend q m :: r => if N.eqb q p then m :: txs_on p r else txs_on p r | _ :: r => txs_on p r end.
Fixpoint tr_tx_on (p : pid) (tr : gtrace) : list pmsg := match tr with [] => [] | (o, s, outs) :: r => txs_on p outs ++ tr_tx_on p r end.
Definition no_resize (ops : list pop) : Prop := forall o, In o ops -> is_resize o = false.

Lemma txs_on_sub p outs : sublist (txs_on p outs) (txs outs).
Proof.
  induction outs as [|x r IH]; cbn; [apply sl_nil|]. destruct x; auto.
  destruct (p0 =? p)%N; [apply sl_keep|apply sl_skip]; auto.
Qed.
Lemma tr_tx_on_sub p tr : sublist (tr_tx_on p tr) (tr_tx tr).
Proof. induction tr as [|[[o s] outs] r IH]; cbn; [apply sl_nil|]. apply sublist_app; [apply txs_on_sub|exact IH]. Qed.

(* every history: what reached the transports (all pipes together, in hand-over order), then the
   buffer, then the blocked senders, is an in-order sub-sequence of the messages in the order
   their sends were SUBMITTED (refused calls excepted); it is all of them -- the transmitted
   sequence is a prefix of the submitted one -- when nothing was removed on purpose (cancel /
   timeout of a blocked send, buffer shrink, socket close); as multisets the difference is
   exactly what was removed *)
Theorem push_submission_order_law fc fr ops : forall g,
  (fr = true \/ no_resize ops) -> PInv (pg_s g) -> QInv (pg_s g) -> ops_ok_g fc fr g ops ->
  let (g', tr) := push_run_gt fc fr g ops in
  PInv (pg_s g') /\ QInv (pg_s g') /\
  sublist (tr_tx tr ++ pend (pg_s g')) (pend (pg_s g) ++ tr_entered tr) /\
  (tr_subloss tr = [] -> tr_tx tr ++ pend (pg_s g') = pend (pg_s g) ++ tr_entered tr) /\
  (forall x, cnt x (pend (pg_s g) ++ tr_entered tr) = cnt x (tr_tx tr ++ pend (pg_s g') ++ tr_subloss tr)).
Proof.
  induction ops as [|o r IH]; intros g Hfr HI Q Hok; cbn [push_run_gt].
  - split; [exact HI|split; [exact Q|]]. apply Flow_run, (Flow_exact _ sublist_ok), app_nil_r.
  - cbn [ops_ok_g] in Hok. destruct Hok as [Ho Hr]. destruct (push_step_g fc fr g o) as [g1 outs] eqn:S. cbn [fst] in Hr.
    assert (Hfr1: fr = true \/ is_resize o = false) by (destruct Hfr as [E|E]; [now left|right; apply E; now left]).
    assert (Hfrr: fr = true \/ no_resize r) by (destruct Hfr as [E|E]; [now left|right; intros x Hx; apply E; now right]).
    destruct (push_submission_step_g _ _ _ _ _ _ HI Q Ho Hfr1 S) as ((Q1 & F1) & HI1).
    specialize (IH g1 Hfrr HI1 Q1 Hr). destruct (push_run_gt fc fr g1 r) as [g2 tr]. destruct IH as (HI2 & Q2 & F2).
    split; [exact HI2|split; [exact Q2|]]. apply Flow_run. apply Flow_run in F2.
    exact (Flow_trans _ sublist_ok _ _ _ _ _ _ _ _ _ F1 F2).
Qed.

(* per connection -- the property's clause: what one pipe carries is an in-order sub-sequence of
   the application's sends in submission order *)
Theorem push_per_pipe_submission_order fc fr ops p : forall g,
  (fr = true \/ no_resize ops) -> PInv (pg_s g) -> QInv (pg_s g) -> ops_ok_g fc fr g ops ->
  sublist (tr_tx_on p (snd (push_run_gt fc fr g ops))) (pend (pg_s g) ++ tr_entered (snd (push_run_gt fc fr g ops))).
Proof.
  intros g Hfr HI Q Hok. pose proof (push_submission_order_law fc fr ops g Hfr HI Q Hok) as L.
  destruct (push_run_gt fc fr g ops) as [g' tr]. cbn [snd]. destruct L as (_ & _ & L & _).
  eapply sublist_trans; [apply tr_tx_on_sub|]. eapply sublist_trans; [apply sublist_app_l|exact L].
Qed.

Lemma push_init_qinv : QInv push_init.
Proof. unfold QInv, push_init. simp_p. congruence. Qed.

(* a cancelled (or timed-out: the expire thread calls the same cancel function with NNG_ETIMEDOUT)
   blocked send leaves with exactly its own message; everything else keeps its place *)
Theorem push_cancel_removes_only_that s a rv m :
  PInv s -> In (a, m) (ps_aq s) -> rv <> 0%N ->
  exists s', push_step s (PCancel a rv) = (s', [Complete a rv None]) /\
    ps_wq s' = ps_wq s /\ ps_aq s' = remove_aio a (ps_aq s) /\ sub_loss s (PCancel a rv) = [m] /\
    sublist (pend s') (pend s) /\ forall x, cnt x (pend s) = cnt x (pend s') + cnt x [m].
Proof.
  intros (I1 & I2 & I3 & I4 & I5 & I6) Hin Hrv. cbn [push_step].
  assert (HA: has_aio a (ps_aq s) = true).
  { unfold has_aio. apply existsb_exists. exists (a, m). split; [exact Hin|apply N.eqb_refl]. }
  rewrite HA. eexists. split; [reflexivity|]. simp_p. cbn [sub_loss].
  assert (L: lookup_aq a (ps_aq s) = [m]) by (apply lookup_in_nodup; auto).
  repeat split; auto.
  - unfold pend. simp_p. apply sublist_app; [apply sublist_refl|]. apply sublist_map. apply sublist_filter.
  - intros x. unfold pend. simp_p. unfold remove_aio. pose proof (cnt_partition x a (ps_aq s)) as P.
    unfold lookup_aq in L. rewrite L in P. cnt_simp. lia.
Qed.

(* push0_pipe_start: a peer that is not a PULL socket is refused before the receive is armed and before
   push0_pipe_ready can hand the pipe a message: state untouched, nothing transmitted, no completion *)
Theorem push_rejected_pipe_takes_nothing_step s p peer :
  peer <> PROTO_PULL -> push_step s (PPipeStart p peer) = (s, [Reject E_PROTO]).
Proof. intros H. cbn [push_step]. destruct (N.eqb_spec peer PROTO_PULL); [contradiction|reflexivity]. Qed.
Theorem push_rejected_pipe_takes_nothing fc fr g p peer :
  peer <> PROTO_PULL -> push_step_g fc fr g (PPipeStart p peer) = (g, [Reject E_PROTO]).
Proof.
  intros H. cbn [push_step_g push_step_r]. rewrite push_rejected_pipe_takes_nothing_step by exact H. now destruct g.
Qed.
Theorem push_consts_match :
  PROTO_PULL = C06_PUSH_PEER /\ PROTO_PUSH = C06_PUSH_SELF /\ C06_PUSH_BUF_MAX = 8192%N /\
  C06_PUSH_START_CHECKS_PEER_FIRST = true /\ C06_PUSH_WAITERS_FIFO = true.
Proof. repeat split; reflexivity. Qed.

Definition m_ (k : N) : pmsg := mkPmsg [] [k].
(* several senders blocked at once, then one puller taking the messages one at a time *)
Definition blocked_witness : list pop :=
  [PSetOpt None (OSendBuf 1);
   PSend None 1%N false (m_ 1); PSend None 2%N false (m_ 2); PSend None 3%N false (m_ 3); PSend None 4%N false (m_ 4);
   PPipeStart 1%N PROTO_PULL; PSendDone 1%N 0%N; PSendDone 1%N 0%N; PSendDone 1%N 0%N; PSendDone 1%N 0%N].
Theorem push_submission_order_on_blocked_witness fc fr :
  ops_ok_g fc fr pushg_init blocked_witness /\
  let (g, tr) := push_run_gt fc fr pushg_init blocked_witness in
  tr_entered tr = [m_ 1; m_ 2; m_ 3; m_ 4] /\ tr_tx tr = [m_ 1; m_ 2; m_ 3; m_ 4] /\ tr_tx_on 1%N tr = tr_tx tr /\
  tr_subloss tr = [] /\ pend (pg_s g) = [].
Proof. destruct fc; destruct fr; vm_compute; (split; [intuition discriminate|]); repeat split; reflexivity. Qed.

(* the pinned push0_set_send_buf_len (fr = false): unbuffered socket, no peer, sends 1 and 2 block;
   the buffer grows to 2 -- the blocked senders stay on the wait list; send 3 finds room in the
   buffer and goes ahead of them: the one connection carries 3 1 2 *)
Definition resize_witness : list pop :=
  [PSend None 1%N false (m_ 1); PSend None 2%N false (m_ 2);
   PSetOpt None (OSendBuf 2);
   PSend None 3%N false (m_ 3);
   PPipeStart 1%N PROTO_PULL; PSendDone 1%N 0%N; PSendDone 1%N 0%N; PSendDone 1%N 0%N].
Theorem push_submission_order_refuted_pinned fc :
  ops_ok_g fc false pushg_init resize_witness /\
  let (g, tr) := push_run_gt fc false pushg_init resize_witness in
  tr_entered tr = [m_ 1; m_ 2; m_ 3] /\ tr_tx tr = [m_ 3; m_ 1; m_ 2] /\ tr_tx_on 1%N tr = tr_tx tr /\
  tr_subloss tr = [] /\ pend (pg_s g) = [] /\
  ~ sublist (tr_tx_on 1%N tr) (pend push_init ++ tr_entered tr).
Proof.
  destruct fc; vm_compute; (split; [intuition discriminate|]); repeat split; try reflexivity;
    intros S; apply sublistb_complete in S; vm_compute in S; discriminate.
Qed.
(* ... and right after the resize senders are blocked although the buffer has room *)
Theorem push_blocked_sender_not_full_refuted_pinned fc :
  let s := pg_s (fst (push_run_gt fc false pushg_init (firstn 3 resize_witness))) in
  ps_aq s <> [] /\ wq_full s = false /\ ps_writable s = true.
Proof. destruct fc; vm_compute; (split; [discriminate|split; reflexivity]). Qed.
Theorem push_submission_order_on_resize_witness fc :
  ops_ok_g fc true pushg_init resize_witness /\
  let (g, tr) := push_run_gt fc true pushg_init resize_witness in
  tr_tx tr = [m_ 1; m_ 2; m_ 3] /\ tr_entered tr = tr_tx tr /\ tr_subloss tr = [].
Proof. destruct fc; vm_compute; (split; [intuition discriminate|]); repeat split; reflexivity. Qed.

(* a cancel in the middle of the queue: 1 buffered, 2 3 4 blocked, 3 cancelled -> the wire carries 1 2 4 *)
Definition cancel_witness : list pop :=
  [PSetOpt None (OSendBuf 1);
   PSend None 1%N false (m_ 1); PSend None 2%N false (m_ 2); PSend None 3%N false (m_ 3); PSend None 4%N false (m_ 4);
   PCancel 3%N E_CANCELED;
   PPipeStart 1%N PROTO_PULL; PSendDone 1%N 0%N; PSendDone 1%N 0%N; PSendDone 1%N 0%N].
Theorem push_submission_order_on_cancel_witness fc fr :
  ops_ok_g fc fr pushg_init cancel_witness /\
  let (g, tr) := push_run_gt fc fr pushg_init cancel_witness in
  tr_entered tr = [m_ 1; m_ 2; m_ 3; m_ 4] /\ tr_tx tr = [m_ 1; m_ 2; m_ 4] /\ tr_subloss tr = [m_ 3] /\ pend (pg_s g) = [].
Proof. destruct fc; destruct fr; vm_compute; (split; [intuition discriminate|]); repeat split; reflexivity. Qed.

(* buffered and blocked messages, two wrong-protocol peers, then a puller: everything comes out, in order *)
Definition reject_witness : list pop :=
  [PSetOpt None (OSendBuf 2);
   PSend None 1%N true (m_ 1); PSend None 2%N true (m_ 2); PSend None 3%N false (m_ 3);
   PPipeStart 1%N PROTO_PUSH; PPipeStart 2%N 49%N;
   PPipeStart 3%N PROTO_PULL; PSendDone 3%N 0%N; PSendDone 3%N 0%N; PSendDone 3%N 0%N].
Theorem push_rejected_pipe_witness fc fr :
  ops_ok_g fc fr pushg_init reject_witness /\
  let (g, tr) := push_run_gt fc fr pushg_init reject_witness in
  tr_tx_on 1%N tr = [] /\ tr_tx_on 2%N tr = [] /\ tr_tx_on 3%N tr = [m_ 1; m_ 2; m_ 3] /\ tr_entered tr = [m_ 1; m_ 2; m_ 3].
Proof. destruct fc; destruct fr; vm_compute; (split; [intuition discriminate|]); repeat split; reflexivity. Qed.
