(* PubSubProofs: SUB -- the prefix decision, delivery per context, independence of
   contexts, the unsubscribe purge, drop rules, subscription bookkeeping, the
   queue invariant, non-blocking receive and the poll-descriptor mirror. *)
From Coq Require Import List Arith NArith Bool Lia.
From NngV Require Import Proto.Common Proto.PushProofs Proto.SubModel Proto.KeyedList.
From NngV Require Base.ListX.
Import ListNotations.

Ltac simp_c := cbn [sc_id sc_topics sc_lmq sc_cap sc_rq sc_prefnew set_lmq set_rq set_topics] in *.
Ltac simp_s := cbn [sb_ctxs sb_recvbuf sb_prefnew sb_readable] in *.

Definition is_prefix (t b : list N) : Prop := exists r, b = t ++ r.

Lemma bytes_eqb_eq a : forall b, bytes_eqb a b = true <-> a = b.
Proof.
  induction a as [|x a IH]; destruct b as [|y b]; cbn; split; intros H; try reflexivity; try discriminate.
  - apply andb_true_iff in H as [H1 H2]. apply N.eqb_eq in H1. apply IH in H2. congruence.
  - injection H as <- <-. rewrite N.eqb_refl. cbn. now apply IH.
Qed.

Lemma topic_matches_prefix t b : topic_matches t b = true <-> is_prefix t b.
Proof.
  unfold topic_matches, is_prefix. destruct (length b <? length t) eqn:L.
  - apply Nat.ltb_lt in L. split; [discriminate|]. intros [r ->]. rewrite app_length in L. lia.
  - apply Nat.ltb_ge in L. split.
    + intros H. apply orb_true_iff in H as [H|H].
      * apply Nat.eqb_eq in H. destruct t; [|discriminate]. exists b. reflexivity.
      * apply bytes_eqb_eq in H. exists (skipn (length t) b). rewrite H at 1. symmetry. apply firstn_skipn.
    + intros [r ->]. apply orb_true_iff. right. apply bytes_eqb_eq.
      rewrite firstn_app, Nat.sub_diag, firstn_all. cbn. now rewrite app_nil_r.
Qed.

Theorem matches_correct topics body :
  sub0_matches topics body = true <-> exists t, In t topics /\ is_prefix t body.
Proof.
  unfold sub0_matches. rewrite existsb_exists. split; intros (t & Hin & H); exists t; split; auto; now apply topic_matches_prefix.
Qed.

Lemma matches_empty_topic topics body : In [] topics -> sub0_matches topics body = true.
Proof. intros H. apply matches_correct. exists []. split; auto. exists body. reflexivity. Qed.
Lemma matches_no_topic body : sub0_matches [] body = false.
Proof. reflexivity. Qed.
Lemma matches_longer_never topics body :
  (forall t, In t topics -> length body < length t) -> sub0_matches topics body = false.
Proof.
  intros H. destruct (sub0_matches topics body) eqn:E; [|reflexivity].
  apply matches_correct in E as (t & Hin & r & ->). specialize (H t Hin). rewrite app_length in H. lia.
Qed.

Definition subscribed (c : sctx) (m : pmsg) : Prop := exists t, In t (sc_topics c) /\ is_prefix t (pm_body m).
Definition has_room (c : sctx) : Prop := sc_prefnew c = true \/ length (sc_lmq c) < sc_cap c.

Lemma ctx_accepts_iff c m : ctx_accepts c m = true <-> subscribed c m /\ has_room c.
Proof.
  unfold ctx_accepts, subscribed, has_room, lmq_full. rewrite andb_true_iff, matches_correct, negb_true_iff, andb_false_iff, negb_false_iff.
  rewrite Nat.leb_gt. tauto.
Qed.
Lemma ctx_accepts_false c m : ctx_accepts c m = false <-> ~ (subscribed c m /\ has_room c).
Proof. rewrite <- ctx_accepts_iff. destruct (ctx_accepts c m); split; congruence. Qed.

(* what one arrival does to one context, in the property's words *)
Definition arrival_spec (c : sctx) (m : pmsg) (c' : sctx) (compl : list pout) (dropped : list pmsg) : Prop :=
  (~ (subscribed c m /\ has_room c) -> c' = c /\ compl = [] /\ dropped = []) /\
  (subscribed c m -> has_room c ->
     (forall a r, sc_rq c = a :: r -> c' = set_rq c r /\ compl = [Complete a E_OK (Some m)] /\ dropped = []) /\
     (sc_rq c = [] -> length (sc_lmq c) < sc_cap c -> c' = set_lmq c (sc_lmq c ++ [m]) /\ compl = [] /\ dropped = []) /\
     (sc_rq c = [] -> sc_cap c <= length (sc_lmq c) -> forall old r, sc_lmq c = old :: r ->
        c' = set_lmq c (r ++ [m]) /\ compl = [] /\ dropped = [old])).

Lemma ctx_arrival c m : arrival_spec c m (ctx_after c m) (ctx_compl c m) (ctx_dropped c m).
Proof.
  unfold arrival_spec, ctx_after, ctx_compl, ctx_dropped. split.
  - intros H. apply ctx_accepts_false in H. rewrite H. auto.
  - intros H1 H2. assert (A: ctx_accepts c m = true) by (apply ctx_accepts_iff; auto). rewrite A.
    split; [|split].
    + intros a r E. rewrite E. auto.
    + intros E L. rewrite E. unfold lmq_full. apply Nat.leb_gt in L. rewrite L. auto.
    + intros E L old r Q. rewrite E. unfold lmq_full. apply Nat.leb_le in L. rewrite L, Q. auto.
Qed.

(* the same as a case analysis: refused; handed to the oldest waiting receiver; appended;
   appended after dropping the oldest; capacity 0 (not reachable), the message itself dropped *)
Inductive arrival (c : sctx) (m : pmsg) : bool -> sctx -> list pout -> list pmsg -> Prop :=
| arr_refused : arrival c m false c [] []
| arr_waiter a r : sc_rq c = a :: r -> arrival c m true (set_rq c r) [Complete a E_OK (Some m)] []
| arr_append : sc_rq c = [] -> length (sc_lmq c) < sc_cap c -> arrival c m true (set_lmq c (sc_lmq c ++ [m])) [] []
| arr_push old r : sc_rq c = [] -> sc_cap c <= length (sc_lmq c) -> sc_lmq c = old :: r ->
    arrival c m true (set_lmq c (r ++ [m])) [] [old]
| arr_cap0 : sc_rq c = [] -> sc_cap c <= length (sc_lmq c) -> sc_lmq c = [] -> arrival c m true c [] [m].
Lemma ctx_arrival_cases c m : arrival c m (ctx_accepts c m) (ctx_after c m) (ctx_compl c m) (ctx_dropped c m).
Proof.
  unfold ctx_after, ctx_compl, ctx_dropped. destruct (ctx_accepts c m); [|constructor].
  destruct (sc_rq c) eqn:R; [|econstructor; eauto]. unfold lmq_full.
  destruct (Nat.leb_spec (sc_cap c) (length (sc_lmq c))); [|now constructor].
  destruct (sc_lmq c) eqn:Q; [apply arr_cap0|eapply arr_push]; rewrite ?Q; auto.
Qed.
Lemma ctx_after_id c m : sc_id (ctx_after c m) = sc_id c.
Proof. destruct (ctx_arrival_cases c m); reflexivity. Qed.

Theorem sub_arrival_law fixed s p m s' outs :
  sub_step fixed s (PRecvDone p 0 m) = (s', outs) ->
  sb_ctxs s' = map (fun c => ctx_after c m) (sb_ctxs s) /\
  (forall a rv x, In (Complete a rv x) outs <-> exists c, In c (sb_ctxs s) /\ In (Complete a rv x) (ctx_compl c m)) /\
  (forall c, In c (sb_ctxs s) -> arrival_spec c m (ctx_after c m) (ctx_compl c m) (ctx_dropped c m)).
Proof.
  intros H. cbn in H. injection H as <- <-. simp_s. split; [reflexivity|]. split; [|intros; apply ctx_arrival].
  intros a rv x. rewrite !in_app_iff. split.
  - intros [H|[H|[H|H]]].
    + apply in_map_iff in H as (? & ? & _). discriminate.
    + destruct (_ || _); cbn in H; [destruct H as [H|[]]; discriminate|destruct H].
    + apply in_flat_map in H. exact H.
    + destruct H as [H|[]]. discriminate.
  - intros (c & Hin & Hc). right. right. left. apply in_flat_map. eauto.
Qed.

(* the result for one context depends on that context and the message only *)
Theorem sub_arrival_independent fixed s1 s2 p1 p2 m i j c :
  nth_error (sb_ctxs s1) i = Some c -> nth_error (sb_ctxs s2) j = Some c ->
  nth_error (sb_ctxs (fst (sub_step fixed s1 (PRecvDone p1 0 m)))) i =
  nth_error (sb_ctxs (fst (sub_step fixed s2 (PRecvDone p2 0 m)))) j.
Proof.
  intros H1 H2. cbn. rewrite !nth_error_map, H1, H2. reflexivity.
Qed.

(* full buffer: exactly one message goes per arrival *)
Theorem sub_full_law c m :
  subscribed c m -> sc_rq c = [] -> sc_cap c <= length (sc_lmq c) -> 1 <= sc_cap c ->
  (sc_prefnew c = true ->
     exists old r, sc_lmq c = old :: r /\ ctx_after c m = set_lmq c (r ++ [m]) /\ ctx_dropped c m = [old] /\
                   length (sc_lmq (ctx_after c m)) = length (sc_lmq c)) /\
  (sc_prefnew c = false -> ctx_after c m = c /\ ctx_compl c m = [] /\ ctx_dropped c m = [] /\ ctx_accepts c m = false).
Proof.
  intros Hs Hr Hf Hc. split; intros Hp.
  - destruct (ctx_arrival c m) as [_ A]. destruct (A Hs (or_introl Hp)) as (_ & _ & A3).
    destruct (sc_lmq c) as [|old r] eqn:Q; [cbn in Hf; lia|].
    destruct (A3 Hr Hf old r eq_refl) as (E1 & _ & E3). exists old, r. repeat split; auto.
    rewrite E1. simp_c. rewrite app_length. cbn. lia.
  - assert (N: ~ (subscribed c m /\ has_room c)).
    { intros [_ [H|H]]; [congruence|lia]. }
    destruct (ctx_arrival c m) as [A _]. destruct (A N) as (E1 & E2 & E3). repeat split; auto.
    now apply ctx_accepts_false.
Qed.

Lemma cid_eqb_eq a b : cid_eqb a b = true <-> a = b.
Proof.
  destruct a, b; cbn; split; intros H; try discriminate; try reflexivity.
  - apply N.eqb_eq in H. congruence.
  - inversion H. apply N.eqb_refl.
Qed.
Lemma cid_eqb_refl a : cid_eqb a a = true. Proof. now apply cid_eqb_eq. Qed.
Lemma cid_eqb_neq a b : cid_eqb a b = false <-> a <> b.
Proof. rewrite <- cid_eqb_eq. destruct (cid_eqb a b); split; congruence. Qed.

(* find_ctx / upd_ctx are findk / updk over sc_id *)
Lemma find_ctx_some k cs c : find_ctx k cs = Some c -> In c cs /\ sc_id c = k.
Proof. apply (findk_some sc_id _ cid_eqb_eq). Qed.
Lemma find_ctx_none k cs : find_ctx k cs = None -> ~ In k (map sc_id cs).
Proof. apply (findk_none sc_id _ cid_eqb_eq). Qed.
Lemma find_ctx_app k cs1 cs2 : find_ctx k (cs1 ++ cs2) = match find_ctx k cs1 with Some c => Some c | None => find_ctx k cs2 end.
Proof. apply findk_app. Qed.
Lemma find_map_same k (f : sctx -> sctx) cs : (forall c, sc_id (f c) = sc_id c) ->
  find_ctx k (map f cs) = option_map f (find_ctx k cs).
Proof. apply findk_map. Qed.
Lemma upd_ctx_ids k f cs : (forall c, sc_id (f c) = sc_id c) -> map sc_id (upd_ctx k f cs) = map sc_id cs.
Proof. apply updk_keys. Qed.
Lemma find_upd k k' f cs : (forall c, sc_id (f c) = sc_id c) ->
  find_ctx k' (upd_ctx k f cs) = if cid_eqb k' k then option_map f (find_ctx k' cs) else find_ctx k' cs.
Proof. apply (findk_updk sc_id _ cid_eqb_eq). Qed.
Lemma find_upd_same k f cs c :
  (forall c, sc_id (f c) = sc_id c) -> find_ctx k cs = Some c -> find_ctx k (upd_ctx k f cs) = Some (f c).
Proof. intros Hf F. now rewrite find_upd, cid_eqb_refl, F. Qed.
Lemma find_others k k' cs : k' <> k -> find_ctx k' (filter (fun c => negb (cid_eqb (sc_id c) k)) cs) = find_ctx k' cs.
Proof. apply (findk_restk sc_id _ cid_eqb_eq). Qed.
Lemma others_upd k f cs : (forall c, sc_id (f c) = sc_id c) ->
  filter (fun c => negb (cid_eqb (sc_id c) k)) (upd_ctx k f cs) = filter (fun c => negb (cid_eqb (sc_id c) k)) cs.
Proof. apply restk_updk. Qed.
Lemma in_upd k f cs c' : In c' (upd_ctx k f cs) -> exists c, In c cs /\ (c' = c \/ (sc_id c = k /\ c' = f c)).
Proof. apply (in_updk sc_id _ cid_eqb_eq). Qed.
Lemma ctx_split k cs c : NoDup (map sc_id cs) -> find_ctx k cs = Some c ->
  exists l1 l2, cs = l1 ++ c :: l2 /\ (forall f, upd_ctx k f cs = l1 ++ f c :: l2) /\
                filter (fun c => negb (cid_eqb (sc_id c) k)) cs = l1 ++ l2.
Proof. apply (findk_split sc_id _ cid_eqb_eq). Qed.
Lemma forall_upd (P : sctx -> Prop) k f cs c : NoDup (map sc_id cs) -> find_ctx k cs = Some c ->
  Forall P cs -> (P c -> P (f c)) -> Forall P (upd_ctx k f cs).
Proof. apply (Forall_updk sc_id _ cid_eqb_eq). Qed.

(* operations addressed to context k leave every other context alone *)
Definition targets (o : pop) (k : option ctxid) : Prop :=
  match o with
  | PRecv k' _ _ | PSetOpt k' _ => k' = k
  | PCtxOpen c | PCtxClose c => Some c = k
  | PSockClose => None = k
  | _ => False
  end.
Theorem sub_targeted_independent fixed s o k s' outs :
  targets o k -> sub_step fixed s o = (s', outs) ->
  filter (fun c => negb (cid_eqb (sc_id c) k)) (sb_ctxs s') = filter (fun c => negb (cid_eqb (sc_id c) k)) (sb_ctxs s).
Proof.
  intros T H. destruct o; cbn [targets] in T; try contradiction; subst; cbn [sub_step] in H.
  - destruct (find_ctx k (sb_ctxs s)) as [c|]; [|injection H as <- <-; reflexivity].
    destruct (sc_lmq c); [destruct nb|]; injection H as <- <-; simp_s; auto; now apply others_upd.
  - destruct (find_ctx k (sb_ctxs s)) as [c|]; [|injection H as <- <-; reflexivity].
    destruct o; try (injection H as <- <-; reflexivity).
    + destruct k; [|destruct (_ <? _)%N]; injection H as <- <-; reflexivity.
    + destruct (_ || _); injection H as <- <-; simp_s; auto; now apply others_upd.
    + injection H as <- <-; simp_s. now apply others_upd.
    + destruct (has_topic t (sc_topics c)); injection H as <- <-; simp_s; auto; now apply others_upd.
    + destruct (negb (has_topic t (sc_topics c))); injection H as <- <-; simp_s; auto; now apply others_upd.
  - injection H as <- <-; simp_s. rewrite filter_app. cbn. rewrite N.eqb_refl. cbn. now rewrite app_nil_r.
  - destruct (find_ctx (Some c) (sb_ctxs s)); inversion H; subst; simp_s; auto. clear H.
    induction (sb_ctxs s) as [|x l IH]; cbn; [reflexivity|].
    destruct (cid_eqb (sc_id x) (Some c)) eqn:E; cbn; [exact IH|]. rewrite E. cbn. now rewrite IH.
  - destruct (find_ctx None (sb_ctxs s)); injection H as <- <-; simp_s; auto. now apply others_upd.
Qed.

Lemma has_topic_in t ts : has_topic t ts = true <-> In t ts.
Proof.
  unfold has_topic. rewrite existsb_exists. split.
  - intros (x & Hin & H). apply andb_true_iff in H as [_ H]. apply bytes_eqb_eq in H. now subst.
  - intros H. exists t. split; auto. rewrite Nat.eqb_refl. cbn. now apply bytes_eqb_eq.
Qed.
Lemma has_topic_false t ts : has_topic t ts = false <-> ~ In t ts.
Proof. rewrite <- has_topic_in. destruct (has_topic t ts); split; congruence. Qed.

Lemma remove_topic_spec t ts :
  NoDup ts -> NoDup (remove_topic t ts) /\ forall x, In x (remove_topic t ts) <-> In x ts /\ x <> t.
Proof.
  unfold remove_topic. induction ts as [|y ts IH]; intros ND.
  - split; [constructor|]. intros x. cbn. tauto.
  - inversion ND; subst. cbn. destruct ((length y =? length t) && bytes_eqb y t) eqn:E.
    + apply andb_true_iff in E as [_ E]. apply bytes_eqb_eq in E. subst y. split; auto.
      intros x. split.
      * intros Hin. split; [now right|]. intros ->. contradiction.
      * intros [[->|Hin] Hne]; [congruence|auto].
    + assert (Hy: y <> t).
      { intros ->. rewrite Nat.eqb_refl in E. cbn in E. assert (bytes_eqb t t = true) by now apply bytes_eqb_eq. congruence. }
      destruct (IH H2) as [ND' S]. split.
      * constructor; auto. intros Hin. apply S in Hin. tauto.
      * intros x. cbn. rewrite S. split.
        -- intros [->|[A B]]; auto.
        -- intros [[->|A] B]; auto.
Qed.

(* subscribing to a topic already present changes nothing *)
Theorem sub_subscribe_duplicate fixed s k c t :
  find_ctx k (sb_ctxs s) = Some c -> In t (sc_topics c) ->
  sub_step fixed s (PSetOpt k (OSub t)) = (s, [OptRv E_OK]).
Proof. intros F Hin. cbn. rewrite F. apply has_topic_in in Hin. now rewrite Hin. Qed.

Theorem sub_subscribe_new fixed s k c t :
  find_ctx k (sb_ctxs s) = Some c -> ~ In t (sc_topics c) ->
  exists s', sub_step fixed s (PSetOpt k (OSub t)) = (s', [OptRv E_OK]) /\
    find_ctx k (sb_ctxs s') = Some (set_topics c (sc_topics c ++ [t])) /\ sb_readable s' = sb_readable s.
Proof.
  intros F Hin. cbn. rewrite F. apply has_topic_false in Hin. rewrite Hin. eexists. split; [reflexivity|]. simp_s. split; auto.
  apply (find_upd_same k (fun c => set_topics c (sc_topics c ++ [t]))); auto.
Qed.

(* unsubscribing from a topic that is not there: NNG_ENOENT, nothing changes *)
Theorem sub_unsubscribe_unknown fixed s k c t :
  find_ctx k (sb_ctxs s) = Some c -> ~ In t (sc_topics c) ->
  sub_step fixed s (PSetOpt k (OUnsub t)) = (s, [OptRv E_NOENT]).
Proof. intros F Hin. cbn. rewrite F. apply has_topic_false in Hin. now rewrite Hin. Qed.

(* the purge: what stays is exactly what still matches, in the old order; the rest is freed *)
Theorem sub_unsubscribe_law fixed s k c t s' outs :
  find_ctx k (sb_ctxs s) = Some c -> In t (sc_topics c) -> NoDup (sc_topics c) ->
  sub_step fixed s (PSetOpt k (OUnsub t)) = (s', outs) ->
  exists c', find_ctx k (sb_ctxs s') = Some c' /\
    (forall x, In x (sc_topics c') <-> In x (sc_topics c) /\ x <> t) /\ NoDup (sc_topics c') /\
    sc_lmq c' = filter (fun m => sub0_matches (sc_topics c') (pm_body m)) (sc_lmq c) /\
    (forall m, In m (sc_lmq c') -> subscribed c' m) /\
    (forall m, In m (sc_lmq c) -> subscribed c' m -> In m (sc_lmq c')) /\
    freed outs = filter (fun m => negb (sub0_matches (sc_topics c') (pm_body m))) (sc_lmq c) /\
    In (OptRv E_OK) outs /\
    sc_id c' = sc_id c /\ sc_cap c' = sc_cap c /\ sc_rq c' = sc_rq c /\ sc_prefnew c' = sc_prefnew c.
Proof.
  intros F Hin ND H. cbn in H. rewrite F in H. apply has_topic_in in Hin. rewrite Hin in H. cbn [negb] in H.
  injection H as <- <-. simp_s.
  set (ts := remove_topic t (sc_topics c)).
  exists (set_lmq (set_topics c ts) (filter (fun m => sub0_matches ts (pm_body m)) (sc_lmq c))).
  destruct (remove_topic_spec t (sc_topics c) ND) as [ND' S].
  split; [apply (find_upd_same k (fun c0 => set_lmq (set_topics c0 ts) (filter (fun m => sub0_matches ts (pm_body m)) (sc_lmq c)))); auto|].
  simp_c. split; [intros x; apply S|]. split; [exact ND'|]. split; [reflexivity|].
  split; [|split; [|split; [|split; [|repeat split; auto]]]].
  - intros m Hm. apply filter_In in Hm as [_ Hm]. apply matches_correct in Hm. exact Hm.
  - intros m Hm Hs. apply filter_In. split; auto. apply matches_correct. exact Hs.
  - rewrite freed_app, freed_map_Free. cbn. now rewrite app_nil_r.
  - apply in_or_app. right. now left.
Qed.

Definition ctx_ok (c : sctx) : Prop :=
  (forall m, In m (sc_lmq c) -> sub0_matches (sc_topics c) (pm_body m) = true) /\
  (sc_rq c <> [] -> sc_lmq c = []) /\
  length (sc_lmq c) <= sc_cap c /\ 1 <= sc_cap c /\ NoDup (sc_topics c).
Definition SInv (s : sub) : Prop :=
  Forall ctx_ok (sb_ctxs s) /\ NoDup (map sc_id (sb_ctxs s)) /\ 1 <= sb_recvbuf s.

Lemma matches_mono ts t b : sub0_matches ts b = true -> sub0_matches (ts ++ [t]) b = true.
Proof. unfold sub0_matches. rewrite existsb_app. intros ->. reflexivity. Qed.

Lemma ctx_after_ok c m : ctx_ok c -> ctx_ok (ctx_after c m).
Proof.
  intros (I1 & I2 & I3 & I4 & I5).
  assert (A: ctx_accepts c m = true -> forall x, In x (sc_lmq c ++ [m]) -> sub0_matches (sc_topics c) (pm_body x) = true).
  { intros A x Hx. apply andb_true_iff in A as [_ A]. apply in_app_or in Hx as [Hx|[<-|[]]]; auto. }
  revert A. destruct (ctx_arrival_cases c m) as [|a r R|R L|old r R L Q|R L Q]; intros A; unfold ctx_ok; simp_c.
  - repeat split; auto.
  - repeat split; auto. intros _. apply I2. congruence.
  - rewrite R. repeat split; auto; [congruence|]. rewrite app_length. cbn. lia.
  - rewrite R. repeat split; auto; [|congruence|].
    + intros x Hx. apply A; auto. rewrite Q. apply in_app_or in Hx as [Hx|Hx]; apply in_or_app; [left; now right|auto].
    + rewrite Q in I3. rewrite app_length. cbn in *. lia.
  - repeat split; auto.
Qed.

Definition sub_op_ok (s : sub) (o : pop) : Prop :=
  match o with
  | PCtxOpen k => ~ In (Some k) (map sc_id (sb_ctxs s))
  | _ => True
  end.

(* one context is rewritten by f *)
Lemma sinv_upd s s' k c f : SInv s -> find_ctx k (sb_ctxs s) = Some c -> sb_ctxs s' = upd_ctx k f (sb_ctxs s) ->
  (forall c, sc_id (f c) = sc_id c) -> 1 <= sb_recvbuf s' -> (ctx_ok c -> ctx_ok (f c)) -> SInv s'.
Proof.
  intros (I1 & I2 & I3) F E Hf Hb Hok. unfold SInv. rewrite E, upd_ctx_ids by auto. repeat split; auto. eapply forall_upd; eauto.
Qed.

Theorem sub_step_inv fixed s o s' outs :
  SInv s -> sub_op_ok s o -> sub_step fixed s o = (s', outs) -> SInv s'.
Proof.
  intros HI Hok H. pose proof HI as (I1 & I2 & I3). unfold SInv.
  destruct o as [k a nb m|k a nb|a rv|p peer|p|p rv|p rv m|k op|k|k| |now]; cbn [sub_step sub_op_ok] in *.
  - injection H as <- <-; auto.
  - destruct (find_ctx k (sb_ctxs s)) as [c|] eqn:F; [|injection H as <- <-; auto].
    destruct (sc_lmq c) as [|m rest] eqn:Q.
    + destruct nb; injection H as <- <-; auto. eapply sinv_upd; [exact HI|exact F|reflexivity|auto|simp_s; auto|].
      intros (A & B & C & D & G). unfold ctx_ok. simp_c. repeat split; auto.
    + injection H as <- <-. eapply sinv_upd; [exact HI|exact F|reflexivity|auto|simp_s; auto|].
      intros (A & B & C & D & G). unfold ctx_ok. simp_c. rewrite Q in *. repeat split; auto.
      * intros x Hx. apply A. now right.
      * intros Hr. specialize (B Hr). discriminate.
      * cbn in C. lia.
  - destruct (existsb _ _); injection H as <- <-; simp_s; auto. repeat split; auto.
    + apply Forall_forall. intros c' Hin. apply in_map_iff in Hin as (c & <- & Hin).
      pose proof (proj1 (Forall_forall _ _) I1 c Hin) as (A & B & C & D & G). unfold ctx_ok. simp_c. repeat split; auto.
      intros Hr. apply B. intros E. rewrite E in Hr. apply Hr. reflexivity.
    + rewrite map_map. cbn. exact I2.
  - destruct (negb _); injection H as <- <-; auto.
  - injection H as <- <-; auto.
  - injection H as <- <-; auto.
  - destruct (negb (rv =? 0)%N); injection H as <- <-; simp_s; auto. repeat split; auto.
    + apply Forall_forall. intros c' Hin. apply in_map_iff in Hin as (c & <- & Hin). apply ctx_after_ok.
      eapply Forall_forall; eauto.
    + rewrite map_map. erewrite map_ext; [exact I2|]. intros c. apply ctx_after_id.
  - destruct (find_ctx k (sb_ctxs s)) as [c|] eqn:F; [|injection H as <- <-; auto].
    destruct op; try (injection H as <- <-; auto; fail).
    + destruct k; [|destruct (_ <? _)%N]; injection H as <- <-; auto.
    + destruct (_ || _) eqn:R; injection H as <- <-; auto.
      apply orb_false_iff in R as [R1 R2]. apply N.ltb_ge in R1. unfold SUB_RECVBUF_MIN in R1.
      eapply sinv_upd; [exact HI|exact F|reflexivity|auto|simp_s; destruct (is_master c); lia|].
      intros (A & B & C & D & G). unfold ctx_ok. simp_c. repeat split; auto.
      * intros x Hx. apply A. eapply ListX.in_firstn; eauto.
      * intros Hr. rewrite (B Hr). now rewrite firstn_nil.
      * rewrite firstn_length. lia.
      * lia.
    + injection H as <- <-. eapply sinv_upd; [exact HI|exact F|reflexivity|auto|simp_s; auto|]. auto.
    + destruct (has_topic t (sc_topics c)) eqn:HT; injection H as <- <-; auto. eapply sinv_upd; [exact HI|exact F|reflexivity|auto|simp_s; auto|].
      intros (A & B & C & D & G). unfold ctx_ok. simp_c. repeat split; auto.
      * intros x Hx. apply matches_mono. auto.
      * apply has_topic_false in HT. now apply ListX.nodup_snoc.
    + destruct (negb (has_topic t (sc_topics c))) eqn:HT; injection H as <- <-; auto. eapply sinv_upd; [exact HI|exact F|reflexivity|auto|simp_s; auto|].
      intros (A & B & C & D & G). unfold ctx_ok. simp_c.
      destruct (remove_topic_spec t (sc_topics c) G) as [ND' _]. repeat split; auto.
      * intros x Hx. apply filter_In in Hx as [_ Hx]. exact Hx.
      * intros Hr. rewrite (B Hr). reflexivity.
      * pose proof (ListX.filter_len_le (fun m => sub0_matches (remove_topic t (sc_topics c)) (pm_body m)) (sc_lmq c)). lia.
  - injection H as <- <-; simp_s. repeat split; auto.
    + apply Forall_app. split; auto. constructor; [|constructor]. unfold ctx_ok. simp_c. repeat split; auto; try (cbn; lia); try constructor.
    + rewrite map_app. cbn. now apply ListX.nodup_snoc.
  - destruct (find_ctx (Some k) (sb_ctxs s)) as [c|]; injection H as <- <-; simp_s; auto. repeat split; auto.
    + apply Forall_forall. intros c' Hin. apply filter_In in Hin as [Hin _]. eapply Forall_forall; eauto.
    + clear - I2. induction (sb_ctxs s) as [|x l IH]; cbn; [constructor|]. inversion I2; subst.
      destruct (negb _); cbn; auto. constructor; auto. intros Hin. apply H1.
      apply in_map_iff in Hin as (c & E & Hin). apply filter_In in Hin as [Hin _]. rewrite <- E. now apply in_map.
  - destruct (find_ctx None (sb_ctxs s)) as [c|] eqn:F; injection H as <- <-; auto. eapply sinv_upd; [exact HI|exact F|reflexivity|auto|simp_s; auto|].
    intros (A & B & C & D & G). unfold ctx_ok. simp_c. repeat split; auto; try (cbn; lia).
  - injection H as <- <-; auto.
Qed.

Lemma sub_init_inv : SInv sub_init.
Proof.
  unfold SInv, sub_init. simp_s. repeat split.
  - constructor; [|constructor]. unfold ctx_ok, master_init. simp_c. repeat split; try (cbn; lia); try (unfold SUB_DEFAULT_RECV_BUF; lia); try constructor; try (intros x []).
  - cbn. constructor; [tauto|constructor].
  - unfold SUB_DEFAULT_RECV_BUF. lia.
Qed.

(* every queued body matches a current topic of its own context, in every reachable state *)
Corollary queued_matches s c m : SInv s -> In c (sb_ctxs s) -> In m (sc_lmq c) -> subscribed c m.
Proof.
  intros (I1 & _) Hc Hm. pose proof (proj1 (Forall_forall _ _) I1 c Hc) as (A & _). apply matches_correct. auto.
Qed.

Theorem sub_nb_recv fixed s k a s' outs :
  sub_step fixed s (PRecv k a true) = (s', outs) ->
  exists rv x, outs = [Complete a rv x] /\
    (forall c, In c (sb_ctxs s') -> ~ In a (sc_rq c) \/ exists c0, In c0 (sb_ctxs s) /\ In a (sc_rq c0)) /\
    (rv = E_AGAIN -> s' = s /\ x = None /\ exists c, find_ctx k (sb_ctxs s) = Some c /\ sc_lmq c = []) /\
    (rv = E_OK -> exists c m rest, find_ctx k (sb_ctxs s) = Some c /\ sc_lmq c = m :: rest /\ x = Some m /\
                  find_ctx k (sb_ctxs s') = Some (set_lmq c rest)) /\
    (rv = E_AGAIN \/ rv = E_OK \/ (rv = E_CLOSED /\ find_ctx k (sb_ctxs s) = None /\ s' = s)).
Proof.
  intros H. cbn in H. destruct (find_ctx k (sb_ctxs s)) as [c|] eqn:F.
  - destruct (sc_lmq c) as [|m rest] eqn:Q; injection H as <- <-.
    + exists E_AGAIN, None. repeat split; auto; try discriminate.
      * intros c0 Hc. destruct (in_dec N.eq_dec a (sc_rq c0)); [right; eauto|left; auto].
      * eauto.
    + exists E_OK, (Some m). simp_s. repeat split; auto; try discriminate.
      * intros c0 Hc. apply in_upd in Hc as (c1 & Hc1 & [->|[_ ->]]); simp_c;
          (destruct (in_dec N.eq_dec a (sc_rq c1)); [right; eauto|left; auto]).
      * intros _. exists c, m, rest. repeat split; auto.
        apply (find_upd_same k (fun c => set_lmq c rest)); auto.
  - injection H as <- <-. exists E_CLOSED, None. repeat split; auto; try discriminate.
    intros c0 Hc. destruct (in_dec N.eq_dec a (sc_rq c0)); [right; eauto|left; auto].
Qed.

(* the blocking form is queued exactly when the non-blocking form answers NNG_EAGAIN *)
Theorem sub_blocking_queues_iff fixed s k a c :
  find_ctx k (sb_ctxs s) = Some c ->
  (sc_lmq c = [] <-> snd (sub_step fixed s (PRecv k a false)) = []) /\
  (sc_lmq c = [] <-> snd (sub_step fixed s (PRecv k a true)) = [Complete a E_AGAIN None]).
Proof.
  intros F. cbn. rewrite F. destruct (sc_lmq c); cbn; split; split; intros H; auto; try discriminate.
Qed.

Definition master_nonempty (s : sub) : bool :=
  match find_ctx None (sb_ctxs s) with Some c => negb (lmq_empty c) | None => false end.
(* raised <-> a non-blocking receive on the socket would not answer NNG_EAGAIN *)
Definition RInv (s : sub) : Prop := sb_readable s = master_nonempty s.
(* the half that holds even without the repair: no missed wake-up *)
Definition RInvHalf (s : sub) : Prop := master_nonempty s = true -> sb_readable s = true.

Lemma master_nonempty_recv fixed s a :
  master_nonempty s = true <-> exists m, snd (sub_step fixed s (PRecv None a true)) = [Complete a E_OK (Some m)].
Proof.
  unfold master_nonempty. cbn. destruct (find_ctx None (sb_ctxs s)) as [c|].
  - unfold lmq_empty. destruct (sc_lmq c); cbn; split; intros H; try discriminate; eauto. destruct H; discriminate.
  - cbn. split; [discriminate|]. intros [m H]. discriminate.
Qed.

Lemma existsb_master (f : sctx -> bool) cs :
  NoDup (map sc_id cs) ->
  existsb (fun c => is_master c && f c) cs = match find_ctx None cs with Some c => f c | None => false end.
Proof.
  unfold find_ctx, is_master. induction cs as [|x cs IH]; cbn; intros ND; [reflexivity|]. inversion ND; subst.
  destruct (cid_eqb (sc_id x) None) eqn:E; cbn.
  - destruct (f x); [reflexivity|]. cbn.
    apply cid_eqb_eq in E. clear - E H1. induction cs as [|y l IH]; cbn; [reflexivity|].
    destruct (cid_eqb (sc_id y) None) eqn:F.
    + apply cid_eqb_eq in F. exfalso. apply H1. left. congruence.
    + cbn. apply IH. intros Hin. apply H1. now right.
  - now apply IH.
Qed.

(* an update of context k keeps both forms of the mirror if, when k is the master, it either
   keeps emptiness and the flag, or empties the queue and lowers the flag (the unrepaired
   form may leave it) *)
Lemma readable_upd fixed s s' k c f :
  find_ctx k (sb_ctxs s) = Some c -> sb_ctxs s' = upd_ctx k f (sb_ctxs s) -> (forall c, sc_id (f c) = sc_id c) ->
  (is_master c = true -> (lmq_empty (f c) = lmq_empty c /\ sb_readable s' = sb_readable s) \/
                         (lmq_empty (f c) = true /\ (sb_readable s' = false \/ (fixed = false /\ sb_readable s' = sb_readable s)))) ->
  (is_master c = false -> sb_readable s' = sb_readable s) ->
  (RInvHalf s -> RInvHalf s') /\ (fixed = true -> RInv s -> RInv s').
Proof.
  intros F E Hf HM HN. pose proof (find_ctx_some _ _ _ F) as [_ Fid]. unfold is_master in *. rewrite Fid in *.
  unfold RInvHalf, RInv, master_nonempty. rewrite E, find_upd by auto. destruct k; cbn [cid_eqb] in *.
  - rewrite (HN eq_refl). tauto.
  - rewrite F. cbn [option_map].
    destruct (HM eq_refl) as [[X ->]|[X [->|[-> ->]]]]; rewrite X; cbn; split; intros; try discriminate; try reflexivity; tauto.
Qed.

Theorem sub_readable_step fixed s o s' outs :
  SInv s -> sub_step fixed s o = (s', outs) ->
  (RInvHalf s -> RInvHalf s') /\ (fixed = true -> RInv s -> RInv s').
Proof.
  intros (I1 & I2 & I3) H.
  assert (KEEP: sb_ctxs s' = sb_ctxs s -> sb_readable s' = sb_readable s -> (RInvHalf s -> RInvHalf s') /\ (fixed = true -> RInv s -> RInv s')).
  { intros E1 E2. unfold RInvHalf, RInv, master_nonempty. rewrite E1, E2. tauto. }
  destruct o as [k a nb m|k a nb|a rv|p peer|p|p rv|p rv m|k op|k|k| |now]; cbn [sub_step] in H;
    try (injection H as <- <-; apply KEEP; reflexivity).
  - destruct (find_ctx k (sb_ctxs s)) as [c|] eqn:F; [|injection H as <- <-; apply KEEP; reflexivity].
    destruct (sc_lmq c) as [|m rest] eqn:Q.
    + destruct nb; injection H as <- <-; [apply KEEP; reflexivity|]. eapply readable_upd; [exact F|reflexivity|auto..].
    + injection H as <- <-. eapply readable_upd; [exact F|reflexivity|auto| |]; simp_s; intros M; rewrite M.
      * unfold lmq_empty. simp_c. rewrite Q. destruct rest; cbn; auto.
      * now rewrite andb_false_r.
  - destruct (existsb _ _); injection H as <- <-; [|apply KEEP; reflexivity].
    unfold RInvHalf, RInv, master_nonempty. simp_s. rewrite find_map_same by auto.
    destruct (find_ctx None (sb_ctxs s)); cbn; unfold lmq_empty; simp_c; tauto.
  - destruct (negb _); injection H as <- <-; apply KEEP; reflexivity.
  - destruct (negb (rv =? 0)%N); injection H as <- <-; [apply KEEP; reflexivity|].
    unfold RInvHalf, RInv, master_nonempty. simp_s. rewrite find_map_same, existsb_master by (auto; intros; apply ctx_after_id).
    destruct (find_ctx None (sb_ctxs s)) as [c|] eqn:F; cbn [option_map].
    + pose proof (find_ctx_some _ _ _ F) as [Fin _].
      pose proof (proj1 (Forall_forall _ _) I1 c Fin) as (A & B & C & D & G).
      unfold ctx_queued, lmq_empty. destruct (ctx_arrival_cases c m) as [|a r R|R L|old r R L Q|R L Q]; rewrite ?R; simp_c; cbn [andb orb].
      * tauto.
      * rewrite B by congruence. tauto.
      * destruct (sc_lmq c ++ [m]) eqn:X; [destruct (sc_lmq c); discriminate|]. tauto.
      * destruct (r ++ [m]) eqn:X; [destruct r; discriminate|]. tauto.
      * rewrite Q in L. cbn in L. lia.
    + cbn. tauto.
  - destruct (find_ctx k (sb_ctxs s)) as [c|] eqn:F; [|injection H as <- <-; apply KEEP; reflexivity].
    destruct op; try (injection H as <- <-; apply KEEP; reflexivity).
    + destruct k; [|destruct (_ <? _)%N]; injection H as <- <-; apply KEEP; reflexivity.
    + destruct (_ || _) eqn:R; injection H as <- <-; [apply KEEP; reflexivity|].
      apply orb_false_iff in R as [R1 R2]. apply N.ltb_ge in R1. unfold SUB_RECVBUF_MIN in R1.
      eapply readable_upd; [exact F|reflexivity|auto..]. intros _. left. split; auto. unfold lmq_empty. simp_c.
      destruct (sc_lmq c); [now rewrite firstn_nil|]. destruct n; [lia|reflexivity].
    + injection H as <- <-. eapply readable_upd; [exact F|reflexivity|auto..].
    + destruct (has_topic t (sc_topics c)); injection H as <- <-; [apply KEEP; reflexivity|].
      eapply readable_upd; [exact F|reflexivity|auto..].
    + destruct (negb (has_topic t (sc_topics c))); injection H as <- <-; [apply KEEP; reflexivity|].
      eapply readable_upd; [exact F|reflexivity|auto| |]; simp_s; intros M; rewrite M.
      * rewrite andb_true_r. unfold lmq_empty. simp_c. destruct (filter _ (sc_lmq c)) eqn:X.
        -- right. split; auto. destruct fixed; cbn; auto.
        -- left. split; [|destruct fixed; reflexivity]. destruct (sc_lmq c); [discriminate|reflexivity].
      * now rewrite andb_false_r.
  - injection H as <- <-. unfold RInvHalf, RInv, master_nonempty. simp_s. rewrite find_ctx_app.
    destruct (find_ctx None (sb_ctxs s)); cbn; tauto.
  - destruct (find_ctx (Some k) (sb_ctxs s)); injection H as <- <-; [|apply KEEP; reflexivity].
    unfold RInvHalf, RInv, master_nonempty. simp_s. rewrite find_others by discriminate. tauto.
  - destruct (find_ctx None (sb_ctxs s)) as [c|] eqn:F; injection H as <- <-; [|apply KEEP; reflexivity].
    eapply readable_upd; [exact F|reflexivity|auto| |]; simp_s; auto.
    apply find_ctx_some in F as [_ F]. unfold is_master. now rewrite F.
Qed.

Lemma sub_init_rinv : RInv sub_init /\ RInvHalf sub_init.
Proof. split; [reflexivity|]. intros H. discriminate. Qed.

Fixpoint sub_run (fixed : bool) (s : sub) (ops : list pop) : sub * list (pop * sub * list pout) :=
  match ops with
  | [] => (s, [])
  | o :: r => let (s1, outs) := sub_step fixed s o in
              let (s2, tr) := sub_run fixed s1 r in (s2, (o, s, outs) :: tr)
  end.
Fixpoint sub_ops_ok (fixed : bool) (s : sub) (ops : list pop) : Prop :=
  match ops with
  | [] => True
  | o :: r => sub_op_ok s o /\ sub_ops_ok fixed (fst (sub_step fixed s o)) r
  end.

Theorem sub_run_inv fixed ops : forall s, SInv s -> sub_ops_ok fixed s ops ->
  let s' := fst (sub_run fixed s ops) in
  SInv s' /\ (RInvHalf s -> RInvHalf s') /\ (fixed = true -> RInv s -> RInv s') /\
  (forall o st outs, In (o, st, outs) (snd (sub_run fixed s ops)) -> SInv st).
Proof.
  induction ops as [|o r IH]; intros s HI Hok; cbn [sub_run].
  - cbn. split; [exact HI|]. split; [auto|]. split; [auto|]. intros o st outs [].
  - cbn [sub_ops_ok] in Hok. destruct Hok as [Ho Hr]. destruct (sub_step fixed s o) as [s1 outs] eqn:S. cbn [fst] in Hr.
    pose proof (sub_step_inv _ _ _ _ _ HI Ho S) as HI1. destruct (sub_readable_step _ _ _ _ _ HI S) as [R1 R2].
    specialize (IH s1 HI1 Hr). destruct (sub_run fixed s1 r) as [s2 tr]. cbn [fst snd] in *.
    destruct IH as (A & B & C & D). split; [exact A|]. split; [auto|]. split; [auto|].
    intros o0 st outs0 [E|Hin]; [inversion E; subst; auto|eauto].
Qed.

(* the pinned form of sub0_ctx_unsubscribe breaks the mirror: a reachable state with the
   descriptor raised in which a non-blocking receive answers NNG_EAGAIN *)
Definition refute_ops : list pop :=
  [PPipeStart 1%N PROTO_PUB; PSetOpt None (OSub [97%N]); PRecvDone 1%N 0%N (mkPmsg [] [97%N; 98%N; 99%N]);
   PSetOpt None (OUnsub [97%N])].
Theorem sub_mirror_refuted_witness :
  sub_ops_ok false sub_init refute_ops /\
  let s := fst (sub_run false sub_init refute_ops) in
  poll_r (sub_poll s) = Some true /\ snd (sub_step false s (PRecv None 9%N true)) = [Complete 9%N E_AGAIN None].
Proof. split; [cbn; tauto|]. vm_compute. split; reflexivity. Qed.
(* ... and the repaired form does not, on the same history *)
Theorem sub_mirror_fixed_same_history :
  poll_r (sub_poll (fst (sub_run true sub_init refute_ops))) = Some false.
Proof. vm_compute. reflexivity. Qed.
