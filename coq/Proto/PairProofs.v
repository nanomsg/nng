(* PairProofs: invariants, one-peer rule, conservation, FIFO both directions,
   back-pressure / non-blocking laws, poll mirror, hop rules for PairModel.
   Generic lemmas on multisets of messages (cnt, txs, freed ...) come from PushProofs. *)
From Coq Require Import List Arith NArith Bool Lia.
From NngV Require Import Proto.Common Proto.PairModel Proto.PushProofs.
From NngV Require Base.ListX.
Import ListNotations.

Ltac simp_r := cbn [pr_p pr_ttl pr_wmq pr_wcap pr_waq pr_rmq pr_rcap pr_raq pr_rd pr_wr pr_sending pr_readable pr_writable] in *.

Inductive sublist {A} : list A -> list A -> Prop :=
| sl_nil : sublist [] []
| sl_skip x l1 l2 : sublist l1 l2 -> sublist l1 (x :: l2)
| sl_keep x l1 l2 : sublist l1 l2 -> sublist (x :: l1) (x :: l2).
Lemma sublist_refl {A} (l : list A) : sublist l l.
Proof. induction l; [apply sl_nil|apply sl_keep; assumption]. Qed.
Lemma sublist_nil_l {A} (l : list A) : sublist [] l.
Proof. induction l; [apply sl_nil|apply sl_skip; assumption]. Qed.
Lemma sublist_app {A} (a b c d : list A) : sublist a b -> sublist c d -> sublist (a ++ c) (b ++ d).
Proof. intros H1 H2. induction H1; cbn; [assumption|apply sl_skip; assumption|apply sl_keep; assumption]. Qed.
Lemma sublist_trans {A} (l1 l2 l3 : list A) : sublist l1 l2 -> sublist l2 l3 -> sublist l1 l3.
Proof.
  intros H12 H23. revert l1 H12. induction H23; intros l0 H12.
  - inversion H12; constructor.
  - apply sl_skip, IHsublist, H12.
  - inversion H12; subst; [apply sl_skip|apply sl_keep]; apply IHsublist; assumption.
Qed.
Lemma sublist_firstn {A} n (l : list A) : sublist (firstn n l) l.
Proof. revert n. induction l; intros [|n]; cbn; [apply sl_nil|apply sl_nil|apply sublist_nil_l|apply sl_keep; apply IHl]. Qed.
Lemma sublist_app_r {A} (a b : list A) : sublist b (a ++ b).
Proof. induction a; cbn; [apply sublist_refl|apply sl_skip; assumption]. Qed.
Lemma sublist_map {A B} (f : A -> B) a b : sublist a b -> sublist (map f a) (map f b).
Proof. induction 1; cbn; [apply sl_nil|apply sl_skip; auto|apply sl_keep; auto]. Qed.
Lemma sublist_filter {A} (f : A -> bool) l : sublist (filter f l) l.
Proof. induction l; cbn; [apply sl_nil|]. destruct (f a); [apply sl_keep|apply sl_skip]; auto. Qed.
Lemma sublist_ok : sub_ok (@sublist pmsg).
Proof. exact (conj sublist_refl (conj sublist_nil_l (conj sublist_app sublist_trans))). Qed.
Lemma sublist_cnt (a b : list pmsg) x : sublist a b -> cnt x a <= cnt x b.
Proof. induction 1; rewrite ?cnt_cons, ?cnt_nil; lia. Qed.

Definition byte_ok (b : N) : Prop := (b < 256)%N.
Lemma be32_word a b c d : byte_ok a -> byte_ok b -> byte_ok c -> byte_ok d -> be32 (word32 a b c d) = [a; b; c; d].
Proof.
  unfold byte_ok, be32, word32. intros Ha Hb Hc Hd.
  (* Horner form: each division by 256 strips one byte *)
  assert (S: forall x e, (e < 256 -> (x * 256 + e) / 256 = x /\ (x * 256 + e) mod 256 = e)%N).
  { intros x e He. split; symmetry; [apply N.div_unique with e|apply N.mod_unique with x]; lia. }
  replace (a * 16777216 + b * 65536 + c * 256 + d)%N with (((a * 256 + b) * 256 + c) * 256 + d)%N by lia.
  change 16777216%N with (256 * 256 * 256)%N. change 65536%N with (256 * 256)%N. rewrite <- !N.div_div by discriminate.
  destruct (S ((a * 256 + b) * 256 + c)%N d Hd) as [-> ->]. destruct (S (a * 256 + b)%N c Hc) as [-> ->].
  destruct (S a b Hb) as [-> ->]. now rewrite (N.mod_small a) by exact Ha.
Qed.
Lemma be32_small v : (v <= 255)%N -> be32 v = [0; 0; 0; v]%N.
Proof.
  intros H. unfold be32. rewrite !N.div_small by lia. rewrite (N.mod_small v) by lia. reflexivity.
Qed.
Lemma word32_lt a b c d : byte_ok a -> byte_ok b -> byte_ok c -> byte_ok d -> (word32 a b c d < 4294967296)%N.
Proof. unfold byte_ok, word32. intros. lia. Qed.

Section Pair.
Variable k : pkind.
Variable fx : bool.
Variable fr : bool.

Definition rdl (s : pair) : list pmsg := match pr_rd s with Some h => [h] | None => [] end.
(* received and not yet delivered, in arrival order *)
Definition inq (s : pair) : list pmsg := pr_rmq s ++ rdl s.
Definition sendingl (s : pair) : list pmsg := map snd (pr_sending s).
Definition optl {A} (o : option A) : list A := match o with Some x => [x] | None => [] end.
(* the messages (in the normalised form sock_send gives them) of the senders whose send
   completes with success in this step *)
Fixpoint pacc (aq : list (aioid * pmsg)) (o : pop) (outs : list pout) : list pmsg :=
  match outs with
  | [] => []
  | Complete a rv None :: r =>
      (if N.eqb rv 0 then
         match o with
         | PSend _ a' _ m => if N.eqb a a' then optl (norm_send k m) else lookup_aq a aq
         | _ => lookup_aq a aq
         end
       else []) ++ pacc aq o r
  | _ :: r => pacc aq o r
  end.
Definition paccepted (s : pair) (o : pop) (outs : list pout) : list pmsg := pacc (pr_waq s) o outs.
Fixpoint pdelivered (outs : list pout) : list pmsg :=
  match outs with
  | [] => []
  | Complete _ rv (Some m) :: r => if N.eqb rv 0 then m :: pdelivered r else pdelivered r
  | _ :: r => pdelivered r
  end.
(* a wire message taken from the peer that the hop rules let in, in decoded form; one they reject *)
Definition arrived_ok (s : pair) (o : pop) : list pmsg :=
  match o with
  | PRecvDone _ rv m => if N.eqb rv 0 then match rx_decode k (pr_ttl s) m with RxOk m' => [m'] | _ => [] end else []
  | _ => []
  end.
Definition rx_rejected (s : pair) (o : pop) : list pmsg :=
  match o with
  | PRecvDone _ rv m => if N.eqb rv 0 then match rx_decode k (pr_ttl s) m with RxOk _ => [] | _ => [m] end else []
  | _ => []
  end.
(* the message attached to a transport send that failed *)
Definition snd_freed (s : pair) (o : pop) : list pmsg :=
  match o with PSendDone p rv => if N.eqb rv 0 then [] else snd_of (pr_sending s) p | _ => [] end.
(* what the transport took off the pipe in this step *)
Definition wire_taken (s : pair) (o : pop) : list pmsg :=
  match o with PSendDone p rv => if N.eqb rv 0 then snd_of (pr_sending s) p else [] | _ => [] end.
(* the explicit losses: buffer shrink, socket close; the parked message of a connection that goes down *)
Definition wloss (s : pair) (o : pop) : list pmsg :=
  match o with
  | PSetOpt _ (OSendBuf n) => if (PAIR_BUF_MAX <? N.of_nat n)%N then [] else skipn n (pr_wmq s)
  | PSockClose => pr_wmq s
  | _ => []
  end.
Definition attached (s : pair) (p : pid) : bool := match pr_p s with Some q => N.eqb q p | None => false end.
Definition rloss (s : pair) (o : pop) : list pmsg :=
  match o with
  | PSetOpt _ (ORecvBuf n) => if (PAIR_BUF_MAX <? N.of_nat n)%N then [] else skipn n (pr_rmq s)
  | PSockClose => pr_rmq s
  | PPipeClose p => if attached s p then rdl s else []
  | _ => []
  end.

Definition can_send (s : pair) : bool := pr_wr s || negb (lmq_full (pr_wmq s) (pr_wcap s)).
Definition can_recv (s : pair) : bool := negb (isnil (pr_rmq s)) || match pr_rd s with Some _ => true | None => false end.
(* PushProofs has a WInv, PInv, op_ok, sent and ops_ok of its own, for PUSH; below, and in every file
   that imports PairProofs after PushProofs, the names are PAIR's *)
Definition RInv (s : pair) : Prop := pr_readable s = can_recv s.
Definition WInv (s : pair) : Prop := pr_writable s = can_send s.
(* a blocked sender => the send buffer is full *)
Definition QInv (s : pair) : Prop := pr_waq s <> [] -> lmq_full (pr_wmq s) (pr_wcap s) = true.

Definition PInv (s : pair) : Prop :=
  (pr_wr s = true -> match pr_p s with Some p => ~ In p (map fst (pr_sending s)) | None => False end /\ pr_wmq s = [] /\ pr_waq s = []) /\
  (pr_rd s <> None -> pr_p s <> None /\ pr_raq s = []) /\
  (pr_raq s <> [] -> pr_rmq s = []) /\
  length (pr_wmq s) <= pr_wcap s /\ length (pr_rmq s) <= pr_rcap s /\
  NoDup (map fst (pr_waq s)) /\ NoDup (map fst (pr_sending s)).

(* the environment's side: pipe ids are fresh; a completion belongs to an operation in
   flight; successful completions are delivered before the pipe's pipe_stop section (the
   transport fails what is pending at close); an aio is submitted once at a time *)
Definition op_ok (s : pair) (o : pop) : Prop :=
  match o with
  | PPipeStart p _ => ~ In p (map fst (pr_sending s))
  | PSendDone p rv => In p (map fst (pr_sending s)) /\ (rv = 0%N -> pr_p s = Some p)
  | PRecvDone p rv _ => rv = 0%N -> pr_p s = Some p /\ pr_rd s = None
  | PSend _ a _ _ => ~ In a (map fst (pr_waq s))
  | PCancel _ rv => rv <> 0%N
  | _ => True
  end.

Lemma pair_init_inv : PInv pair_init /\ RInv pair_init /\ WInv pair_init.
Proof.
  unfold PInv, RInv, WInv, pair_init. simp_r. cbn. repeat split; try discriminate; try congruence; auto; constructor.
Qed.

Lemma lmq_full_false q cap : length q < cap -> lmq_full q cap = false.
Proof. intros H. now apply Nat.leb_gt. Qed.
Lemma lmq_full_length q q' cap : length q = length q' -> lmq_full q cap = lmq_full q' cap.
Proof. unfold lmq_full. now intros ->. Qed.
Lemma lmq_put_ok q cap m : length q < cap -> lmq_put q cap m = q ++ [m].
Proof. intros H. unfold lmq_put. now rewrite lmq_full_false. Qed.
Lemma set_snd_some_fresh l p x : ~ In p (map fst l) -> set_snd l p (Some x) = (p, x) :: l.
Proof. intros H. unfold set_snd. now rewrite ListX.filter_keep_notin. Qed.
Lemma set_snd_none_fresh l p : ~ In p (map fst l) -> set_snd l p None = l.
Proof. intros H. unfold set_snd. now rewrite ListX.filter_keep_notin. Qed.
Lemma snd_of_fresh l p : ~ In p (map fst l) -> snd_of l p = [].
Proof. intros H. unfold snd_of. now rewrite ListX.filter_eq_notin. Qed.
Lemma set_snd_none_notin l p : ~ In p (map fst (set_snd l p None)).
Proof. unfold set_snd. apply ListX.notin_filter_self. Qed.
Lemma notin_set_snd_none l p q : ~ In q (map fst l) -> ~ In q (map fst (set_snd l p None)).
Proof. unfold set_snd. intros H Hin. apply H. eapply ListX.in_map_filter; eauto. Qed.
Lemma set_snd_none_nodup l p : NoDup (map fst l) -> NoDup (map fst (set_snd l p None)).
Proof. unfold set_snd. apply ListX.nodup_filter. Qed.
Lemma cnt_set_snd_none x l p : cnt x (map snd l) = cnt x (snd_of l p) + cnt x (map snd (set_snd l p None)).
Proof. unfold snd_of, set_snd. apply cnt_partition. Qed.

Opaque set_snd snd_of.

Lemma pacc_app aq o a b : pacc aq o (a ++ b) = pacc aq o a ++ pacc aq o b.
Proof. induction a as [|x a IH]; cbn; [reflexivity|]. destruct x; rewrite ?IH; auto. destruct m; rewrite ?app_assoc; auto. Qed.
Lemma pacc_map_Free aq o l : pacc aq o (map Free l) = [].
Proof. induction l; cbn; auto. Qed.
Lemma pacc_fail aq o rv l : rv <> 0%N -> pacc aq o (fail_aios rv l) = [].
Proof. intros H. induction l as [|a l IH]; cbn; [reflexivity|]. destruct (N.eqb_spec rv 0); [contradiction|]. exact IH. Qed.
Lemma pdelivered_app a b : pdelivered (a ++ b) = pdelivered a ++ pdelivered b.
Proof. induction a as [|x a IH]; cbn; [reflexivity|]. destruct x; rewrite ?IH; auto. destruct m; auto. destruct (rv =? 0)%N; cbn; congruence. Qed.
Lemma pdelivered_map_Free l : pdelivered (map Free l) = [].
Proof. induction l; cbn; auto. Qed.
Lemma pdelivered_fail rv l : pdelivered (fail_aios rv l) = [].
Proof. induction l; cbn; auto. Qed.

Definition StepLaw (s : pair) (o : pop) (s' : pair) (outs : list pout) : Prop :=
  PInv s' /\
  (* C1 outbound, as sequences: accepted messages reach the transport in acceptance order *)
  map (wire_form k) (pr_wmq s ++ paccepted s o outs) = txs outs ++ map (wire_form k) (pr_wmq s' ++ wloss s o) /\
  (* C2 in flight *)
  (forall x, cnt x (sendingl s ++ txs outs) = cnt x (sendingl s' ++ wire_taken s o ++ snd_freed s o)) /\
  (* C3 inbound, as multisets and (when nothing is explicitly dropped) as sequences: the three
     clauses of Flow sublist (inq s) (arrived_ok s o) (pdelivered outs) (inq s') (rloss s o) *)
  (forall x, cnt x (inq s ++ arrived_ok s o) = cnt x (pdelivered outs ++ inq s' ++ rloss s o)) /\
  (rloss s o = [] -> inq s ++ arrived_ok s o = pdelivered outs ++ inq s') /\
  sublist (pdelivered outs ++ inq s') (inq s ++ arrived_ok s o) /\
  (* C4 every Free is one of the named losses *)
  (forall x, cnt x (freed outs) = cnt x (rx_rejected s o ++ rloss s o ++ wloss s o ++ snd_freed s o)) /\
  (* all traffic goes to the attached peer *)
  (forall q m, In (TranSend q m) outs -> pr_p s' = Some q) /\
  (forall q, In (TranRecv q) outs -> pr_p s' = Some q).

(* The law is proved one side at a time: the send side of the state with C1 and C2, the
   receive side with C3; an operation that leaves a side alone gets that half from a frame lemma. *)
Definition sside (s : pair) := (pr_p s, pr_wr s, pr_wmq s, pr_wcap s, pr_waq s, pr_sending s).
Definition vside (s : pair) := (pr_rmq s, pr_rcap s, pr_raq s, pr_rd s).
Definition SInv (s : pair) : Prop :=
  (pr_wr s = true -> match pr_p s with Some p => ~ In p (map fst (pr_sending s)) | None => False end /\ pr_wmq s = [] /\ pr_waq s = []) /\
  length (pr_wmq s) <= pr_wcap s /\ NoDup (map fst (pr_waq s)) /\ NoDup (map fst (pr_sending s)).
Definition VInv (s : pair) : Prop :=
  (pr_rd s <> None -> pr_p s <> None /\ pr_raq s = []) /\ (pr_raq s <> [] -> pr_rmq s = []) /\ length (pr_rmq s) <= pr_rcap s.
Lemma PInv_sides s : PInv s <-> SInv s /\ VInv s.
Proof. unfold PInv, SInv, VInv. tauto. Qed.

Definition OutLaw (s : pair) (o : pop) (s' : pair) (outs : list pout) : Prop :=
  SInv s' /\
  map (wire_form k) (pr_wmq s ++ paccepted s o outs) = txs outs ++ map (wire_form k) (pr_wmq s' ++ wloss s o) /\
  (forall x, cnt x (sendingl s ++ txs outs) = cnt x (sendingl s' ++ wire_taken s o ++ snd_freed s o)).
Definition InLaw (s : pair) (o : pop) (s' : pair) (outs : list pout) : Prop :=
  VInv s' /\ Flow sublist (inq s) (arrived_ok s o) (pdelivered outs) (inq s') (rloss s o).
(* the pipes a step's outputs address *)
Definition talks (outs : list pout) : list pid :=
  flat_map (fun x => match x with TranSend q _ | TranRecv q => [q] | _ => [] end) outs.
Lemma talks_app a b : talks (a ++ b) = talks a ++ talks b.
Proof. apply flat_map_app. Qed.
Lemma talks_map_Free l : talks (map Free l) = [].
Proof. induction l; cbn; auto. Qed.
Lemma talks_fail rv l : talks (fail_aios rv l) = [].
Proof. induction l; cbn; auto. Qed.

Lemma step_law_intro s o s' outs :
  OutLaw s o s' outs -> InLaw s o s' outs ->
  (forall x, cnt x (freed outs) = cnt x (rx_rejected s o ++ rloss s o ++ wloss s o ++ snd_freed s o)) ->
  Forall (fun q => pr_p s' = Some q) (talks outs) -> StepLaw s o s' outs.
Proof.
  intros (S & C1 & C2) (V & C3s & C3l & C3) F T. unfold StepLaw. rewrite Forall_forall in T.
  split; [apply PInv_sides; auto|]. repeat (split; [assumption|]).
  split; intros; apply T; apply in_flat_map; eexists; (split; [eassumption|]); now left.
Qed.

(* a block l of buffered messages is dropped, the others keep their order *)
Lemma in_cut s o s' outs a l b :
  VInv s' -> inq s ++ arrived_ok s o = pdelivered outs ++ a ++ l ++ b -> inq s' = a ++ b -> rloss s o = l -> InLaw s o s' outs.
Proof. intros V E E' <-. split; [exact V|]. exact (Flow_cut _ sublist_ok _ _ _ _ _ _ _ E E'). Qed.
Lemma in_exact s o s' outs :
  VInv s' -> rloss s o = [] -> inq s ++ arrived_ok s o = pdelivered outs ++ inq s' -> InLaw s o s' outs.
Proof. intros V L E. apply (in_cut s o s' outs (inq s') [] []); auto; now rewrite app_nil_r. Qed.
Lemma in_frame s o s' outs :
  VInv s -> vside s' = vside s -> (pr_p s <> None -> pr_p s' <> None) ->
  arrived_ok s o = [] -> rloss s o = [] -> pdelivered outs = [] -> InLaw s o s' outs.
Proof.
  intros (I2 & I3 & I5) E P A L D. injection E as E1 E2 E3 E4. apply in_exact; auto.
  - unfold VInv. rewrite E1, E2, E3, E4. split; [|auto]. intros R. destruct (I2 R). auto.
  - unfold inq, rdl. now rewrite A, D, E1, E4, app_nil_r.
Qed.
Lemma out_exact s o s' outs :
  SInv s' -> wloss s o = [] -> wire_taken s o = [] -> snd_freed s o = [] ->
  map (wire_form k) (pr_wmq s ++ paccepted s o outs) = txs outs ++ map (wire_form k) (pr_wmq s') ->
  (forall x, cnt x (sendingl s ++ txs outs) = cnt x (sendingl s')) -> OutLaw s o s' outs.
Proof. intros S L W F C1 C2. unfold OutLaw. rewrite L, W, F, !app_nil_r. auto. Qed.
(* nothing is handed to the transport *)
Lemma out_buffered s o s' outs :
  SInv s' -> wloss s o = [] -> wire_taken s o = [] -> snd_freed s o = [] -> txs outs = [] -> pr_sending s' = pr_sending s ->
  pr_wmq s ++ paccepted s o outs = pr_wmq s' -> OutLaw s o s' outs.
Proof. intros S L W F T E C1. apply out_exact; auto; unfold sendingl; rewrite T, ?C1, ?E, ?app_nil_r; auto. Qed.
Lemma out_frame s o s' outs :
  SInv s -> sside s' = sside s ->
  txs outs = [] -> paccepted s o outs = [] -> wloss s o = [] -> wire_taken s o = [] -> snd_freed s o = [] -> OutLaw s o s' outs.
Proof.
  intros S E T A L W F. injection E as E1 E2 E3 E4 E5 E6. apply out_buffered; auto.
  - unfold SInv. now rewrite E1, E2, E3, E4, E5, E6.
  - now rewrite A, E3, app_nil_r.
Qed.

(* a step that changes nothing and moves no message *)
Lemma law_quiet s o outs : PInv s ->
  wloss s o = [] -> rloss s o = [] -> wire_taken s o = [] -> snd_freed s o = [] -> arrived_ok s o = [] ->
  txs outs = [] -> pdelivered outs = [] -> paccepted s o outs = [] ->
  (forall x, cnt x (freed outs) = cnt x (rx_rejected s o)) -> talks outs = [] ->
  StepLaw s o s outs.
Proof.
  intros HI E1 E2 E3 E4 E5 T D A F NT. apply PInv_sides in HI as [S V].
  apply step_law_intro; [apply out_frame|apply in_frame| |rewrite NT; constructor]; auto.
  rewrite E1, E2, E4, !app_nil_r. exact F.
Qed.

(* pairX_send_sched, entered with a peer attached whose aio_send is idle and wr_ready not set (both call sites) *)
Definition SchedLaw (s : pair) (p : pid) (o : pop) (s' : pair) (outs : list pout) : Prop :=
  SInv s' /\
  map (wire_form k) (pr_wmq s ++ paccepted s o outs) = txs outs ++ map (wire_form k) (pr_wmq s') /\
  sendingl s' = txs outs ++ sendingl s /\
  (pr_p s' = Some p /\ vside s' = vside s /\ (RInv s -> RInv s')) /\
  freed outs = [] /\ pdelivered outs = [] /\ Forall (fun q => pr_p s' = Some q) (talks outs) /\
  (WInv s -> WInv s') /\
  (* the waiters it takes in are the oldest, and a blocked sender still means a full buffer *)
  map snd (pr_waq s) = paccepted s o outs ++ map snd (pr_waq s') /\ (QInv s -> QInv s').
Lemma pacc_waiter a m2 aqr o p w :
  (forall c a nb m, o <> PSend c a nb m) -> NoDup (map fst ((a, m2) :: aqr)) ->
  pacc ((a, m2) :: aqr) o [TranSend p w; Complete a E_OK None] = [m2].
Proof.
  intros Ho Hnd. cbn [pacc]. change (E_OK =? 0)%N with true. cbn iota. rewrite app_nil_r.
  destruct o; try (now apply lookup_head_nodup). exfalso; eapply Ho; reflexivity.
Qed.

Lemma sched_law s p o s' outs :
  (forall c a nb m, o <> PSend c a nb m) ->
  pr_p s = Some p -> ~ In p (map fst (pr_sending s)) -> pr_wr s = false -> SInv s ->
  pair_send_sched k s = (s', outs) -> SchedLaw s p o s' outs.
Proof.
  intros Ho Hp Hfr Hwr (_ & Hlen & Hnd & Hns) H. unfold pair_send_sched in H. rewrite Hp in H.
  assert (Hns1: NoDup (p :: map fst (pr_sending s))) by (constructor; assumption).
  unfold SchedLaw, SInv, paccepted, sendingl, vside, RInv, WInv, QInv, can_recv, can_send.
  destruct (pr_wmq s) as [|m rest] eqn:EW; destruct (pr_waq s) as [|[a m2] aqr] eqn:EA; injection H as <- <-; simp_r;
    rewrite ?(set_snd_some_fresh _ _ _ Hfr), ?EW, ?EA, ?Hp, ?Hwr; rewrite ?pacc_waiter by assumption;
    cbn [map fst snd app pacc txs freed pdelivered talks flat_map]; rewrite ?app_nil_r; cbn [length] in Hlen.
  - (* nothing to send: wr_ready stays set *)
    repeat split; auto. intros _. now rewrite orb_true_r.
  - (* unbuffered, a sender was waiting *)
    inversion Hnd; subst.
    split; [split; [discriminate|auto]|]. repeat split; auto.
    + cbn [orb]. intros ->. now destruct (lmq_full [] (pr_wcap s)).
    + intros Q _. apply Q. discriminate.
  - (* buffered message goes out, nobody waiting *)
    split; [split; [discriminate|split; [lia|auto]]|]. repeat split; auto.
    intros _. rewrite lmq_full_false by lia. reflexivity.
  - (* buffered message goes out, the oldest waiter's message takes its place *)
    inversion Hnd; subst. rewrite lmq_put_ok by lia.
    rewrite (lmq_full_length (rest ++ [m2]) (m :: rest)) by (rewrite app_length; cbn; lia).
    split; [split; [discriminate|split; [rewrite app_length; cbn; lia|auto]]|]. repeat split; auto.
    + cbn [orb]. intros ->. now destruct (lmq_full (m :: rest) (pr_wcap s)).
    + intros Q _. apply Q. discriminate.
Qed.

(* the states pair_send_sched is entered with: by pipe_send_cb after its bookkeeping, by pipe_start with p attached *)
Definition sent (s : pair) (p : pid) : pair :=
  mkPair (pr_p s) (pr_ttl s) (pr_wmq s) (pr_wcap s) (pr_waq s) (pr_rmq s) (pr_rcap s) (pr_raq s) (pr_rd s) (pr_wr s)
         (set_snd (pr_sending s) p None) (pr_readable s) (pr_writable s).
Definition joined (s : pair) (p : pid) : pair :=
  mkPair (Some p) (pr_ttl s) (pr_wmq s) (pr_wcap s) (pr_waq s) (pr_rmq s) (pr_rcap s) (pr_raq s) None (pr_wr s)
         (pr_sending s) (pr_readable s) (pr_writable s).

Lemma PInv_no_peer s : PInv s -> pr_p s = None -> pr_wr s = false /\ pr_rd s = None.
Proof.
  intros (I1 & I2 & _) P. split.
  - destruct (pr_wr s); auto. destruct (I1 eq_refl) as (A & _). rewrite P in A. contradiction.
  - destruct (pr_rd s); auto. destruct I2 as [A _]; [discriminate|contradiction].
Qed.
Lemma send_done_sched s p s' outs :
  PInv s -> op_ok s (PSendDone p 0) -> pair_send_sched k (sent s p) = (s', outs) ->
  SchedLaw (sent s p) p (PSendDone p 0) s' outs.
Proof.
  intros (I1 & _ & _ & I4 & _ & I6 & I7) [Hin HP] H. specialize (HP eq_refl).
  assert (WR: pr_wr s = false).
  { destruct (pr_wr s); auto. destruct (I1 eq_refl) as (A & _). rewrite HP in A. contradiction. }
  apply sched_law; auto; try discriminate; [apply set_snd_none_notin|].
  unfold SInv, sent; simp_r. rewrite WR. split; [discriminate|]. auto using set_snd_none_nodup.
Qed.
Lemma pipe_start_sched s p peer s' outs :
  PInv s -> pr_p s = None -> op_ok s (PPipeStart p peer) -> pair_send_sched k (joined s p) = (s', outs) ->
  SchedLaw (joined s p) p (PPipeStart p peer) s' outs.
Proof.
  intros HI P Hok H. destruct (PInv_no_peer s HI P) as [WR _]. destruct HI as (_ & _ & _ & I4 & _ & I6 & I7).
  apply sched_law; auto; try discriminate.
  unfold SInv, joined; simp_r. rewrite WR. split; [discriminate|]. auto.
Qed.

Lemma law_PSend s c a nb m s' outs :
  PInv s -> op_ok s (PSend c a nb m) -> pair_step k fx fr s (PSend c a nb m) = (s', outs) -> StepLaw s (PSend c a nb m) s' outs.
Proof.
  intros HI Hok H. cbn [pair_step] in H. pose proof (proj1 (PInv_sides s) HI) as [HS HV]. pose proof HS as (I1 & I4 & I6 & I7).
  destruct (norm_send k m) as [m'|] eqn:EN; [|injection H as <- <-; apply law_quiet; auto].
  assert (IN: forall s' outs, vside s' = vside s -> pr_p s' = pr_p s -> pdelivered outs = [] -> InLaw s (PSend c a nb m) s' outs).
  { intros. apply in_frame; auto. congruence. }
  destruct (pr_wr s) eqn:W.
  - destruct (I1 eq_refl) as (A & B & C). destruct (pr_p s) as [p|] eqn:P; [|contradiction].
    injection H as <- <-. apply step_law_intro; [apply out_exact|apply IN| |]; auto.
    + unfold SInv; simp_r. rewrite (set_snd_some_fresh _ _ _ A). split; [discriminate|]. split; [exact I4|]. split; [exact I6|]. constructor; assumption.
    + unfold paccepted. rewrite B. cbn [pacc]. change (E_OK =? 0)%N with true; cbn iota. rewrite N.eqb_refl, EN. reflexivity.
    + intros x. unfold sendingl; simp_r. rewrite (set_snd_some_fresh _ _ _ A). apply cnt_snoc.
    + repeat constructor.
  - destruct (lmq_full (pr_wmq s) (pr_wcap s)) eqn:F; cbn [negb] in H; [destruct nb|]; injection H as <- <-.
    + apply law_quiet; auto.
    + (* the sender blocks *)
      apply step_law_intro; [apply out_buffered|apply IN| |constructor]; auto; [|apply app_nil_r].
      unfold SInv; simp_r. split; [discriminate|]. split; [exact I4|]. split; [|exact I7].
      rewrite map_app. apply ListX.nodup_snoc; auto.
    + apply Nat.leb_gt in F.
      apply step_law_intro; [apply out_buffered|apply IN| |constructor]; auto.
      * unfold SInv; simp_r. split; [discriminate|]. split; [|auto]. rewrite app_length. cbn. lia.
      * unfold paccepted. cbn [pacc]. change (E_OK =? 0)%N with true; cbn iota. rewrite N.eqb_refl, EN. now rewrite app_nil_r.
Qed.

Lemma parked_peer s h : VInv s -> pr_rd s = Some h -> exists p, pr_p s = Some p /\ pr_raq s = [].
Proof. intros (I2 & _) R. destruct I2 as [P Q]; [congruence|]. destruct (pr_p s) as [p|]; [eauto|congruence]. Qed.

Lemma law_PRecv s c a nb s' outs :
  PInv s -> pair_step k fx fr s (PRecv c a nb) = (s', outs) -> StepLaw s (PRecv c a nb) s' outs.
Proof.
  intros HI H. cbn [pair_step] in H. pose proof (proj1 (PInv_sides s) HI) as [HS HV]. pose proof HV as (I2 & I3 & I5).
  assert (OUT: forall s' outs, sside s' = sside s -> txs outs = [] -> paccepted s (PRecv c a nb) outs = [] -> OutLaw s (PRecv c a nb) s' outs).
  { intros. apply out_frame; auto. }
  destruct (pr_rmq s) as [|m rest] eqn:RQ; destruct (pr_rd s) as [h|] eqn:RD.
  - (* the parked message is delivered, the receive re-armed *)
    destruct (parked_peer s h HV RD) as (p & EP & R). rewrite EP in H.
    injection H as <- <-. rewrite <- EP. apply step_law_intro; [apply OUT|apply in_exact| |repeat constructor]; auto.
    + unfold VInv; simp_r. split; [congruence|]. split; [auto|cbn; lia].
    + unfold inq, rdl; simp_r. now rewrite RQ, RD.
  - destruct nb; injection H as <- <-; [apply law_quiet; auto|].
    (* the receiver blocks *)
    apply step_law_intro; [apply OUT|apply in_exact| |constructor]; auto.
    + unfold VInv; simp_r. split; [congruence|]. split; [auto|cbn; lia].
    + unfold inq, rdl; simp_r. now rewrite RQ, RD.
  - destruct (parked_peer s h HV RD) as (p & EP & R). rewrite EP in H.
    cbn [length] in I5. rewrite lmq_put_ok in H by lia.
    injection H as <- <-. rewrite <- EP. apply step_law_intro; [apply OUT|apply in_exact| |repeat constructor]; auto.
    + unfold VInv; simp_r. split; [congruence|]. split; [congruence|]. rewrite app_length. cbn. lia.
    + unfold inq, rdl; simp_r. rewrite RQ, RD. cbn. now rewrite app_nil_r.
  - cbn [length] in I5. injection H as <- <-. apply step_law_intro; [apply OUT|apply in_exact| |constructor]; auto.
    + unfold VInv; simp_r. split; [congruence|]. split; [|lia]. intros R. discriminate (I3 R).
    + unfold inq, rdl; simp_r. rewrite RQ, RD. cbn. now rewrite !app_nil_r.
Qed.

Lemma law_PCancel s a rv s' outs :
  PInv s -> rv <> 0%N -> pair_step k fx fr s (PCancel a rv) = (s', outs) -> StepLaw s (PCancel a rv) s' outs.
Proof.
  intros HI Hrv H. cbn [pair_step] in H. pose proof (proj1 (PInv_sides s) HI) as [HS HV].
  assert (RV: (rv =? 0)%N = false) by now apply N.eqb_neq.
  destruct (has_aio a (pr_waq s)); [|destruct (has_id a (pr_raq s))]; injection H as <- <-.
  - apply step_law_intro; [apply out_buffered|apply in_frame| |constructor]; auto.
    + destruct HS as (I1 & I4 & I6 & I7). unfold SInv; simp_r.
      split; [intros W; destruct (I1 W) as (A & B & C); rewrite C; auto|]. split; [auto|]. split; [|auto]. now apply ListX.nodup_filter.
    + unfold paccepted. cbn [pacc]. rewrite RV. apply app_nil_r.
  - apply step_law_intro; [apply out_frame|apply in_exact| |constructor]; auto.
    + unfold paccepted. cbn [pacc]. now rewrite RV.
    + destruct HV as (I2 & I3 & I5). unfold VInv; simp_r.
      split; [intros R; destruct (I2 R) as [P Q]; rewrite Q; auto|]. split; [|auto].
      intros R. apply I3. intros E. rewrite E in R. now apply R.
    + apply app_nil_r.
  - apply law_quiet; auto.
Qed.

Lemma law_PPipeClose s p s' outs :
  PInv s -> pair_step k fx fr s (PPipeClose p) = (s', outs) -> StepLaw s (PPipeClose p) s' outs.
Proof.
  intros HI H. cbn [pair_step] in H. pose proof HI as (I1 & I2 & I3 & I4 & I5 & I6 & I7).
  assert (Q: attached s p = false -> StepLaw s (PPipeClose p) s []).
  { intros E. apply law_quiet; auto. cbn [rloss]. now rewrite E. }
  assert (L: attached s p = true -> rloss s (PPipeClose p) = rdl s) by (intros E; cbn [rloss]; now rewrite E).
  unfold attached in Q, L. destruct (pr_p s) as [q|]; [destruct (q =? p)%N|]; injection H as <- <-; auto.
  (* the peer goes: a parked message is freed with it *)
  specialize (L eq_refl).
  apply step_law_intro.
  - apply out_buffered; auto.
    + unfold SInv; simp_r. split; [discriminate|auto].
    + unfold rdl. now destruct (pr_rd s).
    + cbn [paccepted pacc]. unfold rdl. destruct (pr_rd s); apply app_nil_r.
  - apply (in_cut _ _ _ _ (pr_rmq s) (rdl s) []); auto.
    + unfold VInv; simp_r. split; [congruence|auto].
    + unfold inq, rdl. destruct (pr_rd s); now rewrite !app_nil_r.
  - rewrite L. unfold rdl. destruct (pr_rd s); reflexivity.
  - destruct (pr_rd s); constructor.
Qed.

Lemma law_PSockClose s s' outs :
  PInv s -> pair_step k fx fr s PSockClose = (s', outs) -> StepLaw s PSockClose s' outs.
Proof.
  intros HI H. cbn [pair_step] in H. pose proof HI as (I1 & I2 & I3 & I4 & I5 & I6 & I7). injection H as <- <-.
  apply step_law_intro.
  - unfold OutLaw, SInv, paccepted, sendingl; simp_r.
    rewrite !pacc_app, !txs_app, !pacc_fail, !txs_fail, !pacc_map_Free, !txs_map_Free by discriminate. cbn [wloss wire_taken snd_freed app].
    split; [|now rewrite !app_nil_r].
    split; [intros W; now destruct (I1 W)|]. split; [cbn; lia|]. split; [constructor|exact I7].
  - apply (in_cut _ _ _ _ [] (pr_rmq s) (rdl s)); auto.
    + unfold VInv; simp_r. split; [intros R; now destruct (I2 R)|]. split; [auto|cbn; lia].
    + rewrite !pdelivered_app, !pdelivered_fail, !pdelivered_map_Free. apply app_nil_r.
  - intros x. rewrite !freed_app, !freed_fail, !freed_map_Free. cbn. now rewrite app_nil_r.
  - rewrite !talks_app, !talks_fail, !talks_map_Free. constructor.
Qed.

Lemma law_PRecvDone s p rv m s' outs :
  PInv s -> op_ok s (PRecvDone p rv m) -> pair_step k fx fr s (PRecvDone p rv m) = (s', outs) -> StepLaw s (PRecvDone p rv m) s' outs.
Proof.
  intros HI Hok H. cbn [pair_step] in H. pose proof (proj1 (PInv_sides s) HI) as [HS HV]. pose proof HV as (I2 & I3 & I5).
  destruct (N.eqb_spec rv 0) as [->|Hrv]; cbn [negb] in H.
  2:{ apply N.eqb_neq in Hrv. injection H as <- <-. apply law_quiet; cbn [arrived_ok rx_rejected]; rewrite ?Hrv; auto. }
  destruct (Hok eq_refl) as [HP HR]. clear Hok.
  assert (RD: rdl s = []) by (unfold rdl; now rewrite HR).
  destruct (rx_decode k (pr_ttl s) m) as [| |m'] eqn:ED.
  - injection H as <- <-. apply law_quiet; cbn [arrived_ok rx_rejected N.eqb]; rewrite ?ED; auto.
  - injection H as <- <-.
    apply step_law_intro; [apply out_frame|apply in_frame| |repeat constructor]; cbn [arrived_ok rx_rejected N.eqb]; rewrite ?ED; auto.
  - assert (AR: arrived_ok s (PRecvDone p 0 m) = [m']) by (cbn [arrived_ok N.eqb]; now rewrite ED).
    assert (FR: forall x, cnt x [] = cnt x (rx_rejected s (PRecvDone p 0 m) ++ [])) by (cbn [rx_rejected N.eqb]; now rewrite ED).
    destruct (pr_raq s) as [|a rest] eqn:RA; [destruct (lmq_full (pr_rmq s) (pr_rcap s)) eqn:F; cbn [negb] in H|]; injection H as <- <-.
    + (* no room: the message stays parked in the pipe's aio *)
      apply step_law_intro; [apply out_frame|apply in_exact| |constructor]; auto.
      * unfold VInv; simp_r. split; [intros _; split; [congruence|reflexivity]|]. split; [congruence|exact I5].
      * unfold inq at 2, rdl at 1; simp_r. unfold inq. now rewrite AR, RD, app_nil_r.
    + apply Nat.leb_gt in F.
      apply step_law_intro; [apply out_frame|apply in_exact| |repeat constructor]; auto.
      * unfold VInv; simp_r. rewrite HR. split; [congruence|]. split; [congruence|]. rewrite app_length. cbn. lia.
      * unfold inq, rdl; simp_r. now rewrite AR, HR, !app_nil_r.
    + (* a receiver was waiting *)
      assert (RQ: pr_rmq s = []) by (apply I3; discriminate).
      apply step_law_intro; [apply out_frame|apply in_exact| |repeat constructor]; auto.
      * unfold VInv; simp_r. rewrite HR, RQ. split; [congruence|]. split; [reflexivity|cbn; lia].
      * unfold inq, rdl; simp_r. now rewrite AR, HR, RQ.
Qed.

Lemma law_PSendDone s p rv s' outs :
  PInv s -> op_ok s (PSendDone p rv) -> pair_step k fx fr s (PSendDone p rv) = (s', outs) -> StepLaw s (PSendDone p rv) s' outs.
Proof.
  intros HI Hok H. cbn [pair_step] in H. pose proof (proj1 (PInv_sides s) HI) as [HS HV].
  pose proof (fun x => cnt_set_snd_none x (pr_sending s) p) as CS.
  destruct (N.eqb_spec rv 0) as [->|Hrv]; cbn [negb] in H.
  - (* success: the transport consumed the message; send_sched *)
    destruct (send_done_sched s p s' outs HI Hok H) as (S' & C1 & C2 & (F1 & F3 & F4) & FR & DL & TK & _).
    apply step_law_intro.
    + split; [exact S'|]. cbn [wloss wire_taken snd_freed N.eqb]. rewrite !app_nil_r. split; [exact C1|].
      intros x. rewrite C2, !cnt_app. unfold sendingl, sent; simp_r. specialize (CS x). lia.
    + apply in_frame; auto. congruence.
    + now rewrite FR.
    + exact TK.
  - (* failure: the message is freed, the pipe closed; no socket state is touched *)
    apply N.eqb_neq in Hrv. injection H as <- <-. destruct HS as (I1 & I4 & I6 & I7).
    apply step_law_intro.
    + unfold OutLaw, SInv, paccepted, sendingl; simp_r. cbn [wloss wire_taken snd_freed]. rewrite Hrv.
      rewrite pacc_app, txs_app, pacc_map_Free, txs_map_Free. cbn [pacc txs app]. rewrite !app_nil_r. split; [|split; [reflexivity|]].
      * split; [|auto using set_snd_none_nodup]. intros W. destruct (I1 W) as (A & B & C). split; [|auto].
        destruct (pr_p s); auto. now apply notin_set_snd_none.
      * intros x. specialize (CS x). rewrite !cnt_app. lia.
    + apply in_frame; auto. now rewrite pdelivered_app, pdelivered_map_Free.
    + intros x. rewrite freed_app, freed_map_Free. cbn [rx_rejected rloss wloss snd_freed freed app]. now rewrite Hrv, app_nil_r.
    + rewrite talks_app, talks_map_Free. constructor.
Qed.

Lemma law_PPipeStart s p peer s' outs :
  PInv s -> op_ok s (PPipeStart p peer) -> pair_step k fx fr s (PPipeStart p peer) = (s', outs) -> StepLaw s (PPipeStart p peer) s' outs.
Proof.
  intros HI Hok H. cbn [pair_step] in H.
  destruct (negb (peer =? pair_peer k)%N); [injection H as <- <-; apply law_quiet; auto|].
  destruct (pr_p s) as [q|] eqn:EP; [injection H as <- <-; apply law_quiet; auto|].
  destruct (PInv_no_peer s HI EP) as [_ RD]. pose proof (proj2 (proj1 (PInv_sides s) HI)) as HV.
  destruct (pair_send_sched k _) as [s2 o2] eqn:SS in H. injection H as <- <-.
  destruct (pipe_start_sched s p peer s2 o2 HI EP Hok SS) as (S' & C1 & C2 & (F1 & F3 & F4) & FR & DL & TK & _).
  apply step_law_intro.
  - split; [exact S'|]. cbn [wloss wire_taken snd_freed]. unfold paccepted. rewrite pacc_app, txs_app. cbn [pacc txs]. rewrite !app_nil_r.
    split; [exact C1|]. intros x. rewrite C2, !cnt_app. apply Nat.add_comm.
  - apply in_frame; auto; try congruence.
    + rewrite F3. unfold vside, joined; simp_r. now rewrite RD.
    + now rewrite pdelivered_app, DL.
  - now rewrite freed_app, FR.
  - rewrite talks_app. apply Forall_app. split; [exact TK|]. rewrite F1. repeat constructor.
Qed.

(* set_send_buf_len's admission loop *)
Lemma takein_spec cap : forall q w,
  takein_waiters cap w q =
  (w ++ map snd (firstn (cap - length w) q), skipn (cap - length w) q, map fst (firstn (cap - length w) q)).
Proof.
  induction q as [|[a m] r IH]; intros w; cbn [takein_waiters].
  - rewrite firstn_nil, skipn_nil. cbn. now rewrite app_nil_r.
  - unfold lmq_full. destruct (Nat.leb_spec cap (length w)).
    + replace (cap - length w) with 0 by lia. cbn. now rewrite app_nil_r.
    + rewrite IH. rewrite app_length. cbn [length]. replace (cap - length w) with (S (cap - (length w + 1))) by lia.
      cbn [firstn skipn map fst snd]. rewrite <- app_assoc. reflexivity.
Qed.
Definition completes (l : list aioid) : list pout := map (fun a => Complete a E_OK None) l.
Lemma txs_completes l : txs (completes l) = [].
Proof. induction l; cbn; auto. Qed.
Lemma freed_completes l : freed (completes l) = [].
Proof. induction l; cbn; auto. Qed.
Lemma pdelivered_completes l : pdelivered (completes l) = [].
Proof. induction l; cbn; auto. Qed.
Lemma talks_completes l : talks (completes l) = [].
Proof. induction l; cbn; auto. Qed.
Lemma pacc_completes aq c op l : pacc aq (PSetOpt c op) (completes l) = flat_map (fun a => lookup_aq a aq) l.
Proof. induction l as [|a l IH]; cbn [completes map pacc flat_map]; [reflexivity|]. change (E_OK =? 0)%N with true. cbn iota. now rewrite <- IH. Qed.
Lemma lookup_all (aq l : list (aioid * pmsg)) : NoDup (map fst aq) -> incl l aq ->
  flat_map (fun a => lookup_aq a aq) (map fst l) = map snd l.
Proof.
  intros ND. induction l as [|[a m] l IH]; intros Hin; [reflexivity|]. cbn [map fst snd flat_map].
  rewrite (lookup_in_nodup a m aq ND) by (apply Hin; now left). rewrite IH; [reflexivity|]. intros x Hx. apply Hin. now right.
Qed.

Lemma law_PSetOpt s c op s' outs :
  PInv s -> pair_step k fx fr s (PSetOpt c op) = (s', outs) -> StepLaw s (PSetOpt c op) s' outs.
Proof.
  intros HI H. cbn [pair_step] in H. pose proof (proj1 (PInv_sides s) HI) as [HS HV].
  destruct op; try (injection H as <- <-; apply law_quiet; auto; fail).
  - (* send buffer *)
    destruct (PAIR_BUF_MAX <? N.of_nat n)%N eqn:EB.
    { injection H as <- <-. apply law_quiet; auto. cbn [wloss]. now rewrite EB. }
    (* fr = false: nobody is admitted; fr = true: the blocked senders move into the resized queue while there is room *)
    set (room := if fr then n - length (firstn n (pr_wmq s)) else 0).
    assert (E: (if fr then takein_waiters n (firstn n (pr_wmq s)) (pr_waq s) else (firstn n (pr_wmq s), pr_waq s, [])) =
               (firstn n (pr_wmq s) ++ map snd (firstn room (pr_waq s)), skipn room (pr_waq s), map fst (firstn room (pr_waq s)))).
    { unfold room. destruct fr; [apply takein_spec|]. cbn. now rewrite app_nil_r. }
    rewrite E in H. clear E. injection H as <- <-. fold (completes (map fst (firstn room (pr_waq s)))).
    assert (SK: skipn n (pr_wmq s) = [] \/ room = 0).
    { destruct (Nat.le_gt_cases (length (pr_wmq s)) n) as [L|L]; [left; now apply skipn_all2|right].
      unfold room. rewrite firstn_length. destruct fr; lia. }
    assert (RM: room <= n - length (firstn n (pr_wmq s))) by (unfold room; destruct fr; lia).
    destruct HS as (I1 & I4 & I6 & I7).
    apply step_law_intro.
    + unfold OutLaw, SInv, paccepted, sendingl; simp_r. cbn [wloss wire_taken snd_freed]. rewrite EB.
      rewrite !pacc_app, !txs_app, pacc_map_Free, txs_map_Free, pacc_completes, txs_completes.
      rewrite (lookup_all _ _ I6) by (intros x; apply ListX.in_firstn). cbn [pacc txs app]. rewrite !app_nil_r. split; [|split; [|reflexivity]].
      * split; [intros W; destruct (I1 W) as (A & -> & ->); split; [exact A|]; now rewrite !firstn_nil, skipn_nil|].
        split; [rewrite app_length, map_length; pose proof (firstn_le_length room (pr_waq s)); pose proof (firstn_le_length n (pr_wmq s)); lia|].
        split; [rewrite <- skipn_map; now apply ListX.NoDup_skipn|exact I7].
      * f_equal. destruct SK as [E|E].
        -- rewrite <- (firstn_skipn n (pr_wmq s)) at 1. now rewrite E, !app_nil_r.
        -- rewrite E. cbn [firstn map]. now rewrite !app_nil_r, firstn_skipn.
    + apply in_frame; auto. now rewrite !pdelivered_app, pdelivered_map_Free, pdelivered_completes.
    + intros x. rewrite !freed_app, freed_map_Free, freed_completes. cbn [rx_rejected rloss wloss snd_freed freed app]. now rewrite EB, !app_nil_r.
    + rewrite !talks_app, talks_map_Free, talks_completes. constructor.
  - (* receive buffer *)
    destruct (PAIR_BUF_MAX <? N.of_nat n)%N eqn:EB.
    { injection H as <- <-. apply law_quiet; auto. cbn [rloss]. now rewrite EB. }
    injection H as <- <-. destruct HV as (I2 & I3 & I5).
    apply step_law_intro.
    + apply out_frame; auto. now rewrite txs_app, txs_map_Free.
      unfold paccepted. now rewrite pacc_app, pacc_map_Free.
    + apply (in_cut _ _ _ _ (firstn n (pr_rmq s)) (skipn n (pr_rmq s)) (rdl s)).
      * unfold VInv; simp_r. split; [exact I2|]. split; [intros R; rewrite (I3 R); apply firstn_nil|]. rewrite firstn_length. lia.
      * rewrite pdelivered_app, pdelivered_map_Free. cbn [arrived_ok pdelivered app]. unfold inq. now rewrite app_nil_r, app_assoc, firstn_skipn.
      * reflexivity.
      * cbn [rloss]. now rewrite EB.
    + intros x. rewrite freed_app, freed_map_Free. cbn [rx_rejected rloss wloss snd_freed freed app]. now rewrite EB, !app_nil_r.
    + rewrite talks_app, talks_map_Free. constructor.
  - (* ttl *)
    destruct k; [injection H as <- <-; apply law_quiet; auto|].
    destruct ((n <? PAIR_TTL_MIN) || (PAIR_TTL_MAX <? n)); injection H as <- <-; [apply law_quiet; auto|].
    apply step_law_intro; [apply out_frame|apply in_frame| |constructor]; auto.
Qed.

Theorem pair_step_law s o s' outs :
  PInv s -> op_ok s o -> pair_step k fx fr s o = (s', outs) -> StepLaw s o s' outs.
Proof.
  intros HI Hok H.
  destruct o as [c a nb m|c a nb|a rv|p peer|p|p rv|p rv m| c op|c|c| |now].
  - eapply law_PSend; eauto.
  - eapply law_PRecv; eauto.
  - eapply law_PCancel; eauto.
  - eapply law_PPipeStart; eauto.
  - eapply law_PPipeClose; eauto.
  - eapply law_PSendDone; eauto.
  - eapply law_PRecvDone; eauto.
  - eapply law_PSetOpt; eauto.
  - injection H as <- <-. apply law_quiet; auto.
  - injection H as <- <-. apply law_quiet; auto.
  - eapply law_PSockClose; eauto.
  - injection H as <- <-. apply law_quiet; auto.
Qed.
Ltac inv H := injection H as <- <-.
Ltac open_flags s :=
  destruct s as [p0 ttl wmq wcap waq rmq rcap raq rd wr sn rdb wrb];
  unfold PInv, RInv, WInv, can_recv, can_send, op_ok in *; simp_r.

(* both descriptors, one case analysis *)
Lemma pair_flags_mirror s o s' outs :
  PInv s -> op_ok s o -> o <> PSockClose -> pair_step k fx fr s o = (s', outs) ->
  (RInv s -> RInv s') /\ ((fx = true \/ forall p, o <> PPipeClose p) -> WInv s -> WInv s').
Proof.
  intros HI Hok Hns H. pose proof HI as (I1 & I2 & I3 & I4 & I5 & I6 & I7).
  destruct o as [c a nb m|c a nb|a rv|p peer|p|p rv|p rv m| c op|c|c| |now]; cbn [pair_step] in H; try (inv H; now split).
  - (* PSend: receive side untouched *)
    destruct (norm_send k m) as [m'|]; [|inv H; now split].
    open_flags s. destruct wr.
    + destruct (I1 eq_refl) as (A & B & C). subst. destruct p0; [|contradiction]. inv H; simp_r. split; [auto|intros _ HW].
      unfold lmq_full in *. cbn [length] in *. destruct (wcap <=? 0); cbn in *; auto.
    + destruct (lmq_full wmq wcap) eqn:F; cbn [negb] in H.
      * destruct nb; inv H; simp_r; rewrite ?F; now split.
      * inv H; simp_r. split; [auto|intros _ HW]. rewrite ?F in HW. cbn in *. destruct (lmq_full (wmq ++ [m']) wcap); cbn; auto.
  - (* PRecv: send side untouched *)
    open_flags s. destruct rmq as [|m rest].
    + destruct rd; [|destruct nb]; inv H; simp_r; auto.
    + destruct rd as [h|].
      * cbn [length] in I5. rewrite lmq_put_ok in H by lia. inv H; simp_r. split; [|auto].
        destruct rest; cbn in *; auto.
      * inv H; simp_r. split; [|auto]. destruct rest; cbn in *; auto.
  - open_flags s. destruct (has_aio a waq); [|destruct (has_id a raq)]; inv H; simp_r; now split.
  - destruct (negb (peer =? pair_peer k)%N); [inv H; now split|].
    destruct (pr_p s) eqn:EP; [inv H; now split|].
    destruct (PInv_no_peer s HI EP) as [_ RD].
    destruct (pair_send_sched k _) as [s2 o2] eqn:SS in H. inv H.
    destruct (pipe_start_sched s p peer s2 o2 HI EP Hok SS) as (_ & _ & _ & (_ & _ & R) & _ & _ & _ & W & _).
    split; [intros HR; apply R|intros _; exact W].
    unfold RInv, can_recv, joined in *; simp_r. now rewrite HR, RD.
  - open_flags s. destruct p0 as [q|]; [destruct (q =? p)%N eqn:EQ|]; inv H; simp_r; try (now split). split.
    + intros HR. destruct rmq; cbn in *; auto; destruct rd; auto.
    + intros Hfx HW. destruct wr; [|exact HW]. destruct Hfx as [->|Hn]; [|exfalso; eapply Hn; reflexivity].
      cbn. destruct (I1 eq_refl) as (A & B & C). subst. destruct (lmq_full [] wcap) eqn:F; cbn; auto; try (rewrite HW; cbn; reflexivity).
  - destruct (negb (rv =? 0)%N) eqn:ER.
    + open_flags s. inv H; simp_r; now split.
    + destruct (N.eqb_spec rv 0) as [->|]; [|discriminate].
      destruct (send_done_sched s p s' outs HI Hok H) as (_ & _ & _ & (_ & _ & R) & _ & _ & _ & W & _).
      split; [exact R|intros _; exact W].
  - (* PRecvDone: send side untouched *)
    open_flags s. destruct (negb (rv =? 0)%N); [inv H; now split|].
    destruct (rx_decode k ttl m); try (inv H; now split).
    destruct raq as [|a rest].
    + destruct (lmq_full rmq rcap); cbn [negb] in H; inv H; simp_r; (split; [intros _|auto]); destruct rmq; reflexivity.
    + assert (RQ: rmq = []) by (apply I3; discriminate). inv H; simp_r. now split.
  - open_flags s. destruct op; try (inv H; now split).
    + destruct (PAIR_BUF_MAX <? N.of_nat n)%N; [inv H; simp_r; now split|].
      destruct fr; [rewrite takein_spec in H|]; inv H; simp_r; (split; [auto|intros _ HW]);
        match goal with |- context[lmq_full ?q n] => destruct (lmq_full q n) end; cbn; try (now rewrite orb_true_r);
        destruct wr; cbn; auto; try (rewrite HW; reflexivity).
    + destruct (PAIR_BUF_MAX <? N.of_nat n)%N; inv H; simp_r; [now split|]. split; [intros HR|auto].
      destruct (firstn n rmq); cbn; auto. destruct rd; auto. rewrite HR. now rewrite orb_true_r.
    + destruct k; [inv H; now split|].
      destruct ((n <? PAIR_TTL_MIN) || (PAIR_TTL_MAX <? n)); inv H; simp_r; now split.
Qed.

Theorem pair_readable_mirror s o s' outs :
  PInv s -> op_ok s o -> o <> PSockClose -> RInv s -> pair_step k fx fr s o = (s', outs) -> RInv s'.
Proof. intros HI Hok Hns HR H. now apply (pair_flags_mirror s o s' outs HI Hok Hns H). Qed.

(* the send descriptor: every step keeps it equal to "a non-blocking send would not get
   NNG_EAGAIN", except -- in the pinned source (fx = false) -- pipe_stop *)
Theorem pair_writable_mirror s o s' outs :
  PInv s -> op_ok s o -> o <> PSockClose -> (fx = true \/ forall p, o <> PPipeClose p) ->
  WInv s -> pair_step k fx fr s o = (s', outs) -> WInv s'.
Proof. intros HI Hok Hns Hfx HW H. now apply (pair_flags_mirror s o s' outs HI Hok Hns H). Qed.

Theorem pair_second_peer_rejected s q p peer :
  pr_p s = Some q ->
  pair_step k fx fr s (PPipeStart p peer) = (s, [Reject (if N.eqb peer (pair_peer k) then E_BUSY else E_PROTO)]).
Proof. intros HP. cbn [pair_step]. destruct (peer =? pair_peer k)%N; cbn [negb]; [rewrite HP|]; reflexivity. Qed.

Theorem pair_wrong_peer_rejected s p peer :
  peer <> pair_peer k -> pair_step k fx fr s (PPipeStart p peer) = (s, [Reject E_PROTO]).
Proof. intros Hne. cbn [pair_step]. destruct (N.eqb_spec peer (pair_peer k)); [contradiction|]. reflexivity. Qed.

Ltac in_cases H := repeat (destruct H as [H|H]; [inversion H; subst; auto|]); try (destruct H).

Lemma sched_no_reject s s' outs : pair_send_sched k s = (s', outs) -> pr_p s' = pr_p s /\ forall rv, ~ In (Reject rv) outs.
Proof.
  unfold pair_send_sched. destruct (pr_p s) as [p|] eqn:EP.
  - destruct (pr_wmq s) as [|m rest]; destruct (pr_waq s) as [|[a m2] aqr]; intros H; injection H as <- <-; simp_r;
      (split; [auto|]); intros rv HH; in_cases HH.
  - intros H; injection H as <- <-. split; auto.
Qed.

Theorem pair_peer_released_then_accepted s q s1 o1 :
  pr_p s = Some q -> pair_step k fx fr s (PPipeClose q) = (s1, o1) ->
  pr_p s1 = None /\
  forall p s2 o2, pair_step k fx fr s1 (PPipeStart p (pair_peer k)) = (s2, o2) ->
    pr_p s2 = Some p /\ In (TranRecv p) o2 /\ forall rv, ~ In (Reject rv) o2.
Proof.
  intros HP H. cbn [pair_step] in H. rewrite HP, N.eqb_refl in H. injection H as <- <-; simp_r.
  split; [reflexivity|]. intros p s2 o2 H2. cbn [pair_step] in H2. rewrite N.eqb_refl in H2. cbn [negb] in H2. simp_r.
  match type of H2 with (let (_, _) := pair_send_sched k ?s1 in _) = _ => destruct (pair_send_sched k s1) as [s3 o3] eqn:SS end.
  inversion H2; subst; clear H2. destruct (sched_no_reject _ _ _ SS) as [A B]. simp_r.
  split; [exact A|]. split; [apply in_or_app; right; left; reflexivity|].
  intros rv Hin. apply in_app_or in Hin as [Hin|[E|[]]]; [eapply B; eauto|inversion E].
Qed.

Theorem pair_send_nonblocking s c a m s' outs :
  pair_step k fx fr s (PSend c a true m) = (s', outs) ->
  exists rv rest, outs = Complete a rv None :: rest /\ pr_waq s' = pr_waq s /\ (forall x, ~ In (Free x) outs) /\
    (rv = E_AGAIN <-> (norm_send k m <> None /\ can_send s = false)) /\
    (rv = E_PROTO <-> norm_send k m = None) /\
    (rv <> E_OK -> s' = s /\ rest = []) /\
    (rv = E_OK \/ rv = E_AGAIN \/ rv = E_PROTO).
Proof.
  intros H. cbn [pair_step] in H. unfold can_send.
  destruct (norm_send k m) as [m'|] eqn:EN.
  - destruct (pr_wr s) eqn:W.
    + destruct (pr_p s) as [p|]; injection H as <- <-; simp_r.
      * exists E_OK, [TranSend p (wire_form k m')]. repeat split; auto; try discriminate; try (intros ? HH; in_cases HH); try (intros [? ?]; discriminate); try congruence.
      * exists E_OK, []. repeat split; auto; try discriminate; try (intros ? HH; in_cases HH); try (intros [? ?]; discriminate); try congruence.
    + destruct (lmq_full (pr_wmq s) (pr_wcap s)) eqn:F; cbn [negb] in H; injection H as <- <-; simp_r.
      * exists E_AGAIN, []. repeat split; auto; try discriminate; try (intros ? HH; in_cases HH); try congruence.
      * exists E_OK, []. repeat split; auto; try discriminate; try (intros ? HH; in_cases HH); try (intros [? ?]; discriminate); try congruence.
  - injection H as <- <-. exists E_PROTO, []. repeat split; auto; try discriminate; try (intros ? HH; in_cases HH); try (intros [? ?]; congruence); try congruence.
Qed.

Theorem pair_send_blocks_not_drops s c a m m' :
  norm_send k m = Some m' -> can_send s = false ->
  pair_step k fx fr s (PSend c a false m) =
    (mkPair (pr_p s) (pr_ttl s) (pr_wmq s) (pr_wcap s) (pr_waq s ++ [(a, m')]) (pr_rmq s) (pr_rcap s) (pr_raq s)
            (pr_rd s) (pr_wr s) (pr_sending s) (pr_readable s) (pr_writable s), []).
Proof.
  unfold can_send. intros EN HC. cbn [pair_step]. rewrite EN. apply orb_false_iff in HC as [W F]. rewrite W.
  apply negb_false_iff in F. rewrite F. reflexivity.
Qed.

(* a send (blocking or not) that can be taken is taken at once *)
Theorem pair_send_accepts_when_possible s c a nb m s' outs :
  PInv s -> norm_send k m <> None -> can_send s = true ->
  pair_step k fx fr s (PSend c a nb m) = (s', outs) -> exists rest, outs = Complete a E_OK None :: rest /\ pr_waq s' = pr_waq s.
Proof.
  unfold can_send. intros HI EN HC H. cbn [pair_step] in H. destruct (norm_send k m) as [m'|]; [|congruence].
  destruct (pr_wr s) eqn:W.
  - destruct (pr_p s); injection H as <- <-; simp_r; eauto.
  - cbn in HC. rewrite HC in H. injection H as <- <-; simp_r; eauto.
Qed.

Theorem pair_recv_nonblocking s c a s' outs :
  PInv s -> pair_step k fx fr s (PRecv c a true) = (s', outs) ->
  exists rv mo rest, outs = Complete a rv mo :: rest /\ pr_raq s' = pr_raq s /\ (forall x, ~ In (Free x) outs) /\
    (rv = E_AGAIN <-> can_recv s = false) /\
    (rv = E_AGAIN -> s' = s /\ mo = None /\ rest = []) /\
    (rv <> E_AGAIN -> rv = E_OK /\ exists x, mo = Some x /\ hd_error (inq s) = Some x).
Proof.
  intros HI H. cbn [pair_step] in H. unfold can_recv, inq, rdl.
  destruct (pr_rmq s) as [|m rest] eqn:ER.
  - destruct (pr_rd s) as [h|] eqn:ED; injection H as <- <-; simp_r.
    + eexists E_OK, (Some h), _. repeat split; auto; try discriminate; try (intros ? HH; destruct (pr_p s); in_cases HH); eauto.
    + exists E_AGAIN, None, []. repeat split; auto; try discriminate; try (intros ? HH; in_cases HH); try congruence.
  - match type of H with (let '(_, _) := ?X in _) = _ => destruct X as [rmq' rearm] eqn:EX end.
    injection H as <- <-; simp_r.
    eexists E_OK, (Some m), _. repeat split; auto; try discriminate; eauto.
    intros x HH. destruct HH as [HH|HH]; [inversion HH|].
    destruct (pr_rd s); inversion EX; subst; [destruct (pr_p s)|]; in_cases HH.
Qed.

Theorem pair_recv_blocks s c a :
  can_recv s = false ->
  pair_step k fx fr s (PRecv c a false) =
    (mkPair (pr_p s) (pr_ttl s) (pr_wmq s) (pr_wcap s) (pr_waq s) [] (pr_rcap s) (pr_raq s ++ [a])
            None (pr_wr s) (pr_sending s) (pr_readable s) (pr_writable s), []).
Proof.
  unfold can_recv. intros HC. cbn [pair_step]. destruct (pr_rmq s); [|discriminate]. destruct (pr_rd s); [discriminate|]. reflexivity.
Qed.

Definition ptrace := list (pop * pair * list pout).
Fixpoint pair_run (s : pair) (ops : list pop) : pair * ptrace :=
  match ops with
  | [] => (s, [])
  | o :: r => let (s1, outs) := pair_step k fx fr s o in
              let (s2, tr) := pair_run s1 r in (s2, (o, s, outs) :: tr)
  end.
Fixpoint ops_ok (s : pair) (ops : list pop) : Prop :=
  match ops with
  | [] => True
  | o :: r => op_ok s o /\ ops_ok (fst (pair_step k fx fr s o)) r
  end.
Fixpoint tr_acc (tr : ptrace) : list pmsg := match tr with [] => [] | (o, s, outs) :: r => paccepted s o outs ++ tr_acc r end.
Fixpoint tr_tx (tr : ptrace) : list pmsg := match tr with [] => [] | (o, s, outs) :: r => txs outs ++ tr_tx r end.
Fixpoint tr_wloss (tr : ptrace) : list pmsg := match tr with [] => [] | (o, s, outs) :: r => wloss s o ++ tr_wloss r end.
Fixpoint tr_arr (tr : ptrace) : list pmsg := match tr with [] => [] | (o, s, outs) :: r => arrived_ok s o ++ tr_arr r end.
Fixpoint tr_dlv (tr : ptrace) : list pmsg := match tr with [] => [] | (o, s, outs) :: r => pdelivered outs ++ tr_dlv r end.
Fixpoint tr_rloss (tr : ptrace) : list pmsg := match tr with [] => [] | (o, s, outs) :: r => rloss s o ++ tr_rloss r end.

Theorem pair_run_law ops : forall s, PInv s -> ops_ok s ops ->
  let (s', tr) := pair_run s ops in
  PInv s' /\
  (* outbound: what reached the transport, plus what is still buffered, is an in-order
     sub-sequence of what was accepted -- all of it when nothing was explicitly dropped *)
  sublist (tr_tx tr ++ map (wire_form k) (pr_wmq s')) (map (wire_form k) (pr_wmq s ++ tr_acc tr)) /\
  (tr_wloss tr = [] -> tr_tx tr ++ map (wire_form k) (pr_wmq s') = map (wire_form k) (pr_wmq s ++ tr_acc tr)) /\
  (forall x, cnt x (map (wire_form k) (pr_wmq s ++ tr_acc tr)) = cnt x (tr_tx tr ++ map (wire_form k) (pr_wmq s' ++ tr_wloss tr))) /\
  (* inbound: the same for what was delivered to the application *)
  sublist (tr_dlv tr ++ inq s') (inq s ++ tr_arr tr) /\
  (tr_rloss tr = [] -> tr_dlv tr ++ inq s' = inq s ++ tr_arr tr) /\
  (forall x, cnt x (inq s ++ tr_arr tr) = cnt x (tr_dlv tr ++ inq s' ++ tr_rloss tr)).
Proof.
  induction ops as [|o r IH]; intros s HI Hok; cbn [pair_run].
  - cbn [tr_tx tr_acc tr_wloss tr_arr tr_dlv tr_rloss app]. rewrite !app_nil_r.
    split; [exact HI|]. repeat split; auto; try apply sublist_refl.
  - cbn [ops_ok] in Hok. destruct Hok as [Ho Hr]. destruct (pair_step k fx fr s o) as [s1 outs] eqn:S. cbn [fst] in Hr.
    destruct (pair_step_law _ _ _ _ HI Ho S) as (HI1 & C1 & C2 & C3 & C3s & C3l & C4 & _).
    specialize (IH s1 HI1 Hr). destruct (pair_run s1 r) as [s2 tr]. destruct IH as (A & O1 & O2 & O3 & N).
    cbn [tr_tx tr_acc tr_wloss tr_arr tr_dlv tr_rloss].
    split; [exact A|]. split; [|split; [|split]].
    + rewrite !app_assoc. rewrite map_app. rewrite C1. rewrite map_app in *. rewrite <- !app_assoc.
      apply sublist_app; [apply sublist_refl|]. eapply sublist_trans; [exact O1|].
      apply sublist_app; [apply sublist_refl|apply sublist_app_r].
    + intros E. apply app_eq_nil in E as [E1 E2]. rewrite E1, app_nil_r in C1.
      rewrite !app_assoc. rewrite map_app. rewrite C1. rewrite <- !app_assoc. f_equal. rewrite O2 by exact E2. now rewrite map_app.
    + intros x. specialize (O3 x). apply (f_equal (cnt x)) in C1. revert C1 O3. rewrite !map_app. rewrite !cnt_app. lia.
    + apply Flow_run. apply Flow_run in N. exact (Flow_trans _ sublist_ok _ _ _ _ _ _ _ _ _ (conj C3s (conj C3l C3)) N).
Qed.

(* the descriptors along a history that does not close the socket *)
Theorem pair_run_mirror ops : forall s, PInv s -> ops_ok s ops -> ~ In PSockClose ops ->
  RInv s -> (fx = true \/ forall p, ~ In (PPipeClose p) ops) -> WInv s ->
  RInv (fst (pair_run s ops)) /\ ((fx = true \/ forall p, ~ In (PPipeClose p) ops) -> WInv (fst (pair_run s ops))).
Proof.
  induction ops as [|o r IH]; intros s HI Hok Hnc HR Hfx HW; cbn [pair_run].
  - cbn. auto.
  - cbn [ops_ok] in Hok. destruct Hok as [Ho Hr]. destruct (pair_step k fx fr s o) as [s1 outs] eqn:S. cbn [fst] in Hr.
    destruct (pair_step_law _ _ _ _ HI Ho S) as (HI1 & _).
    assert (Hno: o <> PSockClose) by (intros ->; apply Hnc; now left).
    assert (Hfx1: fx = true \/ forall p, o <> PPipeClose p).
    { destruct Hfx as [E|E]; [now left|right]. intros p ->. eapply E. left. reflexivity. }
    assert (Hfxr: fx = true \/ forall p, ~ In (PPipeClose p) r).
    { destruct Hfx as [E|E]; [now left|right]. intros p Hin. eapply E. right. exact Hin. }
    destruct (pair_flags_mirror _ _ _ _ HI Ho Hno S) as [FR FW].
    specialize (IH s1 HI1 Hr (fun Hin => Hnc (or_intror Hin)) (FR HR) Hfxr (FW Hfx1 HW)).
    destruct (pair_run s1 r) as [s2 tr]. cbn [fst] in *. destruct IH as [A B]. split; [exact A|]. intros _. apply B. exact Hfxr.
Qed.

(* submitted and not yet handed to the transport, oldest first: the buffer, then the blocked senders *)
Definition pend (s : pair) : list pmsg := pr_wmq s ++ map snd (pr_waq s).
(* the message a PSend submits -- unless the call is refused on the spot (NNG_EPROTO, or
   NNG_EAGAIN for a non-blocking send that cannot be taken) *)
Definition submitted (s : pair) (o : pop) : list pmsg :=
  match o with
  | PSend _ _ nb m => match norm_send k m with None => [] | Some m' => if nb && negb (can_send s) then [] else [m'] end
  | _ => []
  end.
(* submitted messages that leave without being transmitted: buffer shrink, a cancelled blocked send, socket close *)
Definition sub_loss (s : pair) (o : pop) : list pmsg :=
  match o with
  | PSetOpt _ (OSendBuf n) => if (PAIR_BUF_MAX <? N.of_nat n)%N then [] else skipn n (pr_wmq s)
  | PCancel a _ => lookup_aq a (pr_waq s)
  | PSockClose => pend s
  | _ => []
  end.
Lemma pair_init_qinv : QInv pair_init.
Proof. intros H. now destruct H. Qed.

Definition SubLaw (s : pair) (o : pop) (s' : pair) (outs : list pout) : Prop :=
  QInv s' /\
  (sub_loss s o = [] -> map (wire_form k) (pend s ++ submitted s o) = txs outs ++ map (wire_form k) (pend s')) /\
  sublist (txs outs ++ map (wire_form k) (pend s')) (map (wire_form k) (pend s ++ submitted s o)) /\
  (forall x, cnt x (map (wire_form k) (pend s ++ submitted s o)) = cnt x (txs outs ++ map (wire_form k) (pend s' ++ sub_loss s o))).

Lemma cnt_partition_wire x (a : aioid) (l : list (aioid * pmsg)) :
  cnt x (map (wire_form k) (map snd l)) =
  cnt x (map (wire_form k) (map snd (filter (fun y => N.eqb (fst y) a) l))) +
  cnt x (map (wire_form k) (map snd (filter (fun y => negb (N.eqb (fst y) a)) l))).
Proof.
  induction l as [|[a0 v] l IH]; cbn [filter map fst snd]; [reflexivity|].
  destruct (N.eqb a0 a); cbn [negb map snd]; rewrite ?cnt_cons, IH; lia.
Qed.

Lemma sub_exact s o s' outs :
  QInv s' -> sub_loss s o = [] ->
  map (wire_form k) (pend s ++ submitted s o) = txs outs ++ map (wire_form k) (pend s') -> SubLaw s o s' outs.
Proof.
  intros Q L E. unfold SubLaw. rewrite L, E, app_nil_r. repeat split; auto. apply sublist_refl.
Qed.
Lemma sub_same s o s' outs :
  QInv s -> pr_wmq s' = pr_wmq s -> pr_waq s' = pr_waq s -> pr_wcap s' = pr_wcap s ->
  txs outs = [] -> submitted s o = [] -> sub_loss s o = [] -> SubLaw s o s' outs.
Proof.
  intros Q A B C T S L. apply sub_exact; auto.
  - unfold QInv in *. now rewrite A, B, C.
  - unfold pend. now rewrite S, T, A, B, app_nil_r.
Qed.

Lemma sched_pend s p o s' outs :
  SchedLaw s p o s' outs -> QInv s -> map (wire_form k) (pend s) = txs outs ++ map (wire_form k) (pend s') /\ QInv s'.
Proof.
  intros (_ & C1 & _ & _ & _ & _ & _ & _ & WQ & Q') Q. split; [|exact (Q' Q)].
  unfold pend. now rewrite WQ, app_assoc, map_app, C1, map_app, app_assoc.
Qed.

Theorem pair_submission_step s o s' outs :
  fr = true -> PInv s -> QInv s -> op_ok s o -> pair_step k fx fr s o = (s', outs) -> SubLaw s o s' outs.
Proof.
  intros Hfr HI Q Hok H. subst fr. pose proof HI as (I1 & I2 & I3 & I4 & I5 & I6 & I7).
  destruct o as [c a nb m|c a nb|a rv|p peer|p|p rv|p rv m| c op|c|c| |now]; cbn [pair_step] in H.
  - destruct (norm_send k m) as [m'|] eqn:EN.
    2:{ injection H as <- <-. apply sub_same; auto. cbn [submitted]. now rewrite EN. }
    destruct s as [p0 ttl wmq wcap waq rmq rcap raq rd wr sn rdb wrb]. pose proof Q as Q0. unfold QInv, PInv in Q, I1. simp_r.
    destruct wr.
    + destruct (I1 eq_refl) as (A & B & C). subst wmq waq. destruct p0 as [p|]; [|contradiction].
      injection H as <- <-. apply sub_exact; cbn [submitted]; unfold QInv, pend, can_send; simp_r; rewrite ?EN; auto.
      rewrite andb_false_r. reflexivity.
    + destruct (lmq_full wmq wcap) eqn:F; cbn [negb] in H.
      * destruct nb; injection H as <- <-.
        -- apply sub_same; auto. cbn [submitted]. unfold can_send. simp_r. now rewrite EN, F.
        -- apply sub_exact; cbn [submitted]; unfold QInv, pend, can_send; simp_r; rewrite ?EN; auto.
           cbn [andb txs app]. rewrite (map_app snd). cbn [map snd]. now rewrite <- app_assoc.
      * assert (WQ: waq = []) by (destruct waq; auto; exfalso; specialize (Q ltac:(discriminate)); congruence). subst waq.
        injection H as <- <-. apply sub_exact; cbn [submitted]; unfold QInv, pend, can_send; simp_r; rewrite ?EN, ?F; auto.
        rewrite andb_false_r. cbn [map app]. now rewrite !app_nil_r.
  - destruct (pr_rmq s) as [|m rest]; [destruct (pr_rd s); [|destruct nb]|destruct (pr_rd s)]; injection H as <- <-; apply sub_same; auto;
      cbn [txs]; try reflexivity; destruct (pr_p s); reflexivity.
  - destruct s as [p0 ttl wmq wcap waq rmq rcap raq rd wr sn rdb wrb]. pose proof Q as Q0. unfold QInv in Q. simp_r.
    destruct (has_aio a waq) eqn:EA; [|destruct (has_id a raq)]; injection H as <- <-.
    + unfold SubLaw, QInv, pend, sub_loss, submitted, lookup_aq, remove_aio. simp_r. cbn [txs app]. rewrite !app_nil_r.
      split; [|split; [|split]].
      * intros Hne. apply Q. intros E. subst. apply Hne. reflexivity.
      * intros E. f_equal. f_equal. symmetry. now apply remove_none.
      * apply sublist_map. apply sublist_app; [apply sublist_refl|]. apply sublist_map. apply sublist_filter.
      * intros x. pose proof (cnt_partition_wire x a waq) as P. rewrite !map_app, !cnt_app. lia.
    + apply sub_same; auto. now apply lookup_notin.
    + apply sub_same; auto. now apply lookup_notin.
  - destruct (negb (peer =? pair_peer k)%N); [injection H as <- <-; apply sub_same; auto|].
    destruct (pr_p s) eqn:EP; [injection H as <- <-; apply sub_same; auto|].
    destruct (pair_send_sched k _) as [s2 o2] eqn:SS in H. injection H as <- <-.
    destruct (sched_pend _ _ _ _ _ (pipe_start_sched s p peer s2 o2 HI EP Hok SS) Q) as [E Q'].
    apply sub_exact; auto. cbn [submitted]. rewrite app_nil_r, txs_app. cbn [txs]. rewrite app_nil_r. exact E.
  - destruct (pr_p s) as [q|]; [destruct (q =? p)%N|]; injection H as <- <-; apply sub_same; auto. destruct (pr_rd s); reflexivity.
  - destruct (N.eqb_spec rv 0) as [->|Hrv]; cbn [negb] in H.
    + destruct (sched_pend _ _ _ _ _ (send_done_sched s p s' outs HI Hok H) Q) as [E Q'].
      apply sub_exact; auto. cbn [submitted]. rewrite app_nil_r. exact E.
    + injection H as <- <-. apply sub_same; auto. rewrite txs_app, txs_map_Free. reflexivity.
  - destruct (negb (rv =? 0)%N); [injection H as <- <-; apply sub_same; auto|].
    destruct (rx_decode k (pr_ttl s) m); try (injection H as <- <-; apply sub_same; auto; fail).
    destruct (pr_raq s); [destruct (lmq_full (pr_rmq s) (pr_rcap s)); cbn [negb] in H|]; injection H as <- <-; apply sub_same; auto.
  - destruct op; try (injection H as <- <-; apply sub_same; auto; fail).
    + destruct (PAIR_BUF_MAX <? N.of_nat n)%N eqn:EB.
      { injection H as <- <-. apply sub_same; auto. cbn [sub_loss]. now rewrite EB. }
      destruct s as [p0 ttl wmq wcap waq rmq rcap raq rd wr sn rdb wrb]. simp_r.
      rewrite takein_spec in H. set (room := n - length (firstn n wmq)) in *.
      injection H as <- <-.
      unfold SubLaw, QInv, pend, sub_loss, submitted. simp_r. rewrite EB.
      rewrite !txs_app, txs_map_Free. fold (completes (map fst (firstn room waq))). rewrite txs_completes. cbn [txs app]. rewrite !app_nil_r.
      assert (RW: map snd (firstn room waq) ++ map snd (skipn room waq) = map snd waq) by (rewrite <- map_app; now rewrite firstn_skipn).
      split; [|split; [|split]].
      * intros Hne. unfold lmq_full. apply Nat.leb_le. rewrite app_length, map_length, !firstn_length.
        assert (room < length waq).
        { destruct (Nat.lt_ge_cases room (length waq)); auto. exfalso. apply Hne. now apply skipn_all2. }
        unfold room in *. rewrite firstn_length in *. lia.
      * intros E. rewrite <- app_assoc, RW. rewrite <- (firstn_skipn n wmq) at 1. now rewrite E, app_nil_r.
      * rewrite <- app_assoc, RW. apply sublist_map. apply sublist_app; [apply sublist_firstn|apply sublist_refl].
      * intros x. rewrite <- (firstn_skipn n wmq) at 1. rewrite <- RW. rewrite !map_app, !cnt_app. lia.
    + destruct (PAIR_BUF_MAX <? N.of_nat n)%N; injection H as <- <-; apply sub_same; auto.
      rewrite txs_app, txs_map_Free. reflexivity.
    + destruct k; [injection H as <- <-; apply sub_same; auto|].
      destruct ((n <? PAIR_TTL_MIN) || (PAIR_TTL_MAX <? n)); injection H as <- <-; apply sub_same; auto.
  - injection H as <- <-; apply sub_same; auto.
  - injection H as <- <-; apply sub_same; auto.
  - injection H as <- <-. unfold SubLaw, QInv, pend, sub_loss, submitted. simp_r.
    rewrite !txs_app, !txs_fail, !txs_map_Free. cbn [app map]. rewrite !app_nil_r.
    split; [congruence|]. split; [intros E; unfold pend in E; now rewrite E|]. split; [apply sublist_nil_l|]. intros x. reflexivity.
  - injection H as <- <-; apply sub_same; auto.
Qed.

Fixpoint tr_sub (tr : ptrace) : list pmsg := match tr with [] => [] | (o, s, outs) :: r => submitted s o ++ tr_sub r end.
Fixpoint tr_subloss (tr : ptrace) : list pmsg := match tr with [] => [] | (o, s, outs) :: r => sub_loss s o ++ tr_subloss r end.

(* every history: what reached the transport, then the buffer, then the blocked senders, is an
   in-order sub-sequence of the messages in the order their sends were SUBMITTED (refused calls
   excepted) -- all of them, i.e. the transmitted sequence is a prefix of the submitted one,
   when nothing was dropped by a shrink, a cancel or the socket close *)
Theorem pair_submission_order_law ops : forall s, fr = true -> PInv s -> QInv s -> ops_ok s ops ->
  let (s', tr) := pair_run s ops in
  QInv s' /\
  sublist (tr_tx tr ++ map (wire_form k) (pend s')) (map (wire_form k) (pend s ++ tr_sub tr)) /\
  (tr_subloss tr = [] -> tr_tx tr ++ map (wire_form k) (pend s') = map (wire_form k) (pend s ++ tr_sub tr)) /\
  (forall x, cnt x (map (wire_form k) (pend s ++ tr_sub tr)) = cnt x (tr_tx tr ++ map (wire_form k) (pend s' ++ tr_subloss tr))).
Proof.
  induction ops as [|o r IH]; intros s Hfr HI Q Hok; cbn [pair_run].
  - cbn [tr_tx tr_sub tr_subloss app]. rewrite !app_nil_r. repeat split; auto. apply sublist_refl.
  - cbn [ops_ok] in Hok. destruct Hok as [Ho Hr]. destruct (pair_step k fx fr s o) as [s1 outs] eqn:S. cbn [fst] in Hr.
    destruct (pair_step_law _ _ _ _ HI Ho S) as (HI1 & _).
    destruct (pair_submission_step _ _ _ _ Hfr HI Q Ho S) as (Q1 & E1 & L1 & C1).
    specialize (IH s1 Hfr HI1 Q1 Hr). destruct (pair_run s1 r) as [s2 tr]. destruct IH as (Q2 & L2 & E2 & C2).
    cbn [tr_tx tr_sub tr_subloss]. split; [exact Q2|]. split; [|split].
    + rewrite (app_assoc (pend s)), map_app, <- app_assoc.
      eapply sublist_trans; [apply sublist_app; [apply sublist_refl|exact L2]|].
      rewrite map_app, app_assoc. apply sublist_app; [exact L1|apply sublist_refl].
    + intros E. apply app_eq_nil in E as [Ea Eb]. rewrite (app_assoc (pend s)), map_app, (E1 Ea), <- !app_assoc. f_equal.
      rewrite (E2 Eb). now rewrite map_app.
    + intros x. specialize (C1 x). specialize (C2 x). revert C1 C2. rewrite !map_app, !cnt_app. lia.
Qed.

End Pair.

(* a wire message of at least four bytes from the peer; v = its first 32-bit word, ANY value *)
Theorem pair1_hop_rules_law raw fx fr s p hdr b0 b1 b2 b3 rest :
  let m := mkPmsg hdr (b0 :: b1 :: b2 :: b3 :: rest) in
  let v := word32 b0 b1 b2 b3 in
  (* more than 0xff: malformed -- freed, sender disconnected, nothing else changes *)
  ((255 < v)%N -> pair_step (K1 raw) fx fr s (PRecvDone p 0 m) = (s, [Free m; ClosePipe p])) /\
  (* a valid count above the limit: freed, the receive re-armed, the connection kept *)
  ((v <= 255)%N -> (N.of_nat (pr_ttl s) < v)%N -> pair_step (K1 raw) fx fr s (PRecvDone p 0 m) = (s, [Free m; TranRecv p])) /\
  (* otherwise: letin, with the hop count as header and the four bytes trimmed *)
  ((v <= 255)%N -> (v <= N.of_nat (pr_ttl s))%N ->
     rx_decode (K1 raw) (pr_ttl s) m = RxOk (mkPmsg (hdr ++ [0; 0; 0; v]%N) rest) /\
     arrived_ok (K1 raw) s (PRecvDone p 0 m) = [mkPmsg (hdr ++ [0; 0; 0; v]%N) rest] /\
     rx_rejected (K1 raw) s (PRecvDone p 0 m) = []).
Proof.
  intros m v. unfold m, v. cbn [pair_step N.eqb negb rx_decode get32 pm_body pm_hdr arrived_ok rx_rejected].
  (* rx_decode compares the word with 0xff, then with the limit: in each of the three cases a
     clause either contradicts the case or holds by computation *)
  destruct (N.ltb_spec 255 (word32 b0 b1 b2 b3)); [|destruct (N.ltb_spec (N.of_nat (pr_ttl s)) (word32 b0 b1 b2 b3))];
    repeat split; intros; try lia; rewrite ?be32_small by assumption; reflexivity.
Qed.

(* shorter than four bytes: malformed as well *)
Theorem pair1_short_message_law raw fx fr s p m :
  length (pm_body m) < 4 -> pair_step (K1 raw) fx fr s (PRecvDone p 0 m) = (s, [Free m; ClosePipe p]).
Proof.
  intros H. cbn [pair_step N.eqb negb rx_decode]. destruct m as [h b]. cbn [pm_body] in *.
  destruct b as [|b0 [|b1 [|b2 [|b3 r]]]]; cbn in H; try lia; reflexivity.
Qed.

(* for well-formed bytes the letin header is exactly the four bytes received *)
Lemma word32_small_bytes b0 b1 b2 b3 : byte_ok b0 -> byte_ok b1 -> byte_ok b2 -> byte_ok b3 ->
  (word32 b0 b1 b2 b3 <= 255)%N -> [0; 0; 0; word32 b0 b1 b2 b3]%N = [b0; b1; b2; b3].
Proof. unfold byte_ok, word32. intros A B C D H. assert (E: (b0 = 0 /\ b1 = 0 /\ b2 = 0)%N) by lia. now destruct E as (-> & -> & ->). Qed.

(* outgoing: pipe_send adds one to the 32-bit header word *)
Theorem pair1_bump_law b0 b1 b2 b3 body :
  bump (mkPmsg [b0; b1; b2; b3] body) = mkPmsg (be32 ((word32 b0 b1 b2 b3 + 1) mod 4294967296)) body.
Proof. unfold bump. cbn [get32 pm_hdr pm_body]. now rewrite app_nil_r. Qed.
Theorem pair1_bump_small v body : (v <= 254)%N -> bump (mkPmsg [0; 0; 0; v]%N body) = mkPmsg [0; 0; 0; v + 1]%N body.
Proof.
  intros H. rewrite pair1_bump_law. unfold word32. cbn [N.mul]. rewrite !N.add_0_l.
  rewrite N.mod_small by lia. now rewrite be32_small by lia.
Qed.

(* sock_send: cooked sockets start every message at hop 0 (so it leaves with 1); raw sockets
   accept exactly a four-byte header below 0xff and refuse everything else with NNG_EPROTO,
   leaving state and message alone *)
Theorem pair1_cooked_send_header m : norm_send (K1 false) m = Some (mkPmsg [0; 0; 0; 0]%N (pm_body m)).
Proof. reflexivity. Qed.
Theorem pair1_raw_send_header m :
  (forall m', norm_send (K1 true) m = Some m' -> m' = m /\ exists b0 b1 b2 b3, pm_hdr m = [b0; b1; b2; b3] /\ (word32 b0 b1 b2 b3 < 255)%N) /\
  (forall b0 b1 b2 b3, pm_hdr m = [b0; b1; b2; b3] -> (word32 b0 b1 b2 b3 < 255)%N -> norm_send (K1 true) m = Some m) /\
  (forall fx fr s c a nb, norm_send (K1 true) m = None -> pair_step (K1 true) fx fr s (PSend c a nb m) = (s, [Complete a E_PROTO None])).
Proof.
  split; [|split].
  - intros m' H. unfold norm_send in H. destruct (pm_hdr m) as [|b0 [|b1 [|b2 [|b3 [|x r]]]]]; cbn [get32] in H; try discriminate.
    destruct (N.leb_spec 255 (word32 b0 b1 b2 b3)); [discriminate|]. split; [congruence|]. exists b0, b1, b2, b3. split; [reflexivity|lia].
  - intros b0 b1 b2 b3 E Hlt. unfold norm_send. rewrite E. cbn [get32]. destruct (N.leb_spec 255 (word32 b0 b1 b2 b3)); [lia|reflexivity].
  - intros fx fr s c a nb E. cbn [pair_step]. now rewrite E.
Qed.

(* every header the model puts on the wire for PAIRv1 is four bytes: the NNI_ASSERT of pipe_send holds *)
Lemma norm_hdr4 raw m m' : norm_send (K1 raw) m = Some m' -> length (pm_hdr m') = 4.
Proof.
  destruct raw; [|intros H; inversion H; reflexivity].
  intros H. destruct (proj1 (pair1_raw_send_header m) m' H) as (-> & b0 & b1 & b2 & b3 & E & _). now rewrite E.
Qed.

(* the send descriptor misses a wake-up: with room in the send buffer and the peer gone,
   pipe_stop (pinned form, fx = false) leaves the descriptor cleared although a non-blocking
   send succeeds *)
Definition poll_w_witness (k : pkind) : list pop :=
  [PSetOpt None (OSendBuf 2); PPipeStart 1%N (pair_peer k); PPipeClose 1%N].
Theorem pair_poll_w_mirror_refuted_pinned k fr :
  let s := fst (pair_run k false fr pair_init (poll_w_witness k)) in
  ops_ok k false fr pair_init (poll_w_witness k) /\
  pr_writable s = false /\ can_send s = true /\
  exists s' rest, pair_step k false fr s (PSend None 7%N true (mkPmsg [0; 0; 0; 0]%N [1%N])) = (s', Complete 7%N E_OK None :: rest).
Proof.
  destruct fr; destruct k as [|[]]; vm_compute; (split; [tauto|]); (split; [reflexivity|]); (split; [reflexivity|]); eexists _, _; reflexivity.
Qed.
Theorem pair_poll_w_mirror_repaired_on_witness k fr :
  let s := fst (pair_run k true fr pair_init (poll_w_witness k)) in pr_writable s = can_send s.
Proof. destruct fr; destruct k as [|[]]; vm_compute; reflexivity. Qed.

(* why op_ok demands that a successful send completion belongs to the attached pipe:
   pipe_send_cb calls send_sched(s) for whatever pipe is attached NOW.  If the callback of a
   pipe that has meanwhile been stopped runs after a new peer was attached (it was queued
   before the close; pipe_stop waits for it only after its critical section), send_sched
   hands a second message to the new pipe's busy aio_send: the first one is overwritten. *)
Definition stale_witness : list pop :=
  [PSetOpt None (OSendBuf 4);
   PSend None 1%N true (mkPmsg [] [1%N]); PSend None 2%N true (mkPmsg [] [2%N]); PSend None 3%N true (mkPmsg [] [3%N]);
   PPipeStart 1%N PROTO_PAIR0;                 (* message 1 goes to pipe 1 *)
   PPipeClose 1%N;                             (* pipe 1 is reaped; its successful completion is still queued *)
   PPipeStart 2%N PROTO_PAIR0;                 (* message 2 goes to pipe 2 *)
   PSendDone 1%N 0%N].                         (* the stale callback: message 3 replaces message 2 on pipe 2 *)
Theorem pair_stale_send_completion_refuted fx fr :
  let (s, tr) := pair_run K0 fx fr pair_init stale_witness in
  tr_acc K0 tr = [mkPmsg [] [1%N]; mkPmsg [] [2%N]; mkPmsg [] [3%N]] /\
  tr_tx tr = [mkPmsg [] [1%N]; mkPmsg [] [2%N]; mkPmsg [] [3%N]] /\
  pr_p s = Some 2%N /\ sendingl s = [mkPmsg [] [3%N]] /\ tr_wloss tr = [].
Proof. destruct fx; destruct fr; vm_compute; repeat split; reflexivity. Qed.

(* the pinned set_send_buf_len (fr = false): unbuffered socket, the peer not taking: sends 1 2 3
   (2 and 3 block), the send buffer grows to 2 -- the blocked senders are left on the wait list --, send 4 finds room in the buffer and
   overtakes them: the transport gets 1 4 2 3 *)
Definition resize_witness : list pop :=
  [PPipeStart 1%N PROTO_PAIR0;
   PSend None 1%N false (mkPmsg [] [1%N]); PSend None 2%N false (mkPmsg [] [2%N]); PSend None 3%N false (mkPmsg [] [3%N]);
   PSetOpt None (OSendBuf 2);
   PSend None 4%N false (mkPmsg [] [4%N]);
   PSendDone 1%N 0%N; PSendDone 1%N 0%N; PSendDone 1%N 0%N; PSendDone 1%N 0%N].
Theorem pair_submission_order_refuted_pinned fx :
  ops_ok K0 fx false pair_init resize_witness /\
  let (s, tr) := pair_run K0 fx false pair_init resize_witness in
  tr_sub K0 tr = [mkPmsg [] [1%N]; mkPmsg [] [2%N]; mkPmsg [] [3%N]; mkPmsg [] [4%N]] /\
  tr_tx tr = [mkPmsg [] [1%N]; mkPmsg [] [4%N]; mkPmsg [] [2%N]; mkPmsg [] [3%N]] /\
  tr_subloss tr = [] /\ pend s = [].
Proof. destruct fx; vm_compute; (split; [intuition discriminate|]); repeat split; reflexivity. Qed.
(* ... and right after the resize a sender is blocked although the buffer has room *)
Theorem pair_blocked_sender_not_full_refuted_pinned fx :
  let s := fst (pair_run K0 fx false pair_init (firstn 5 resize_witness)) in
  pr_waq s <> [] /\ lmq_full (pr_wmq s) (pr_wcap s) = false.
Proof. destruct fx; vm_compute; (split; [discriminate|reflexivity]). Qed.
Theorem pair_submission_order_on_witness fx :
  let (s, tr) := pair_run K0 fx true pair_init resize_witness in
  tr_tx tr = [mkPmsg [] [1%N]; mkPmsg [] [2%N]; mkPmsg [] [3%N]; mkPmsg [] [4%N]] /\ tr_sub K0 tr = tr_tx tr.
Proof. destruct fx; vm_compute; split; reflexivity. Qed.
