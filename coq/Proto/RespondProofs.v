(* RespondProofs: cooked RESPONDENT (RespondModel): the response goes to the origin of the survey most
   recently received by the context, once; ESTATE; the NONBLOCK send and the descriptor mirror (refuted on the
   pinned source, witnesses by computation). *)
From Coq Require Import List NArith Bool.
From NngV Require Import Proto.Common Proto.SurveyBacktrace Proto.SurveyModel Proto.RespondModel Proto.SurveyProofs.
Import ListNotations.

Definition rget_ctx (s : resp) (c : option ctxid) : option rctx := kget (ckey c) (rs_ctxs s).
Fixpoint rtxs (outs : list pout) : list (pid * pmsg) :=
  match outs with [] => [] | TranSend p m :: r => (p, m) :: rtxs r | _ :: r => rtxs r end.
Definition rrun (fx : resp_fix) (ops : list pop) : resp := fold_left (fun s o => fst (resp_step fx s o)) ops resp_init.

(* send with no pending survey: NNG_ESTATE (blocking form; for the NONBLOCK form see the resp_nb_send theorems) *)
Theorem resp_send_estate fx s c a m cx s' outs :
  rget_ctx s c = Some cx -> rc_bt cx = [] ->
  resp_step fx s (PSend c a false m) = (s', outs) ->
  outs = [Complete a E_STATE None] /\ rs_ctxs s' = rs_ctxs s /\ rs_pipes s' = rs_pipes s.
Proof.
  unfold rget_ctx. intros G B St. cbn [resp_step] in St. rewrite G, B in St. cbn [andb] in St.
  destruct (N.eqb (ckey c) 0 && negb (rf_nb fx)); inversion St; subst; auto.
Qed.

(* a second receive on a context that already has one pending (and no survey is waiting): NNG_ESTATE, as coded *)
Theorem resp_second_recv_estate fx s c a cx a0 :
  rget_ctx s c = Some cx -> rc_raio cx = Some a0 -> rs_recvpipes s = [] ->
  resp_step fx s (PRecv c a false) = (s, [Complete a E_STATE None]).
Proof. unfold rget_ctx. intros G R P. cbn [resp_step]. now rewrite G, P, R. Qed.

(* receiving a survey records its origin: pipe and backtrace (both delivery paths) *)
Theorem resp_recv_records_origin_direct fx s c a nb cx p rest x msg tl s' outs :
  rget_ctx s c = Some cx -> rs_recvpipes s = p :: rest -> kget p (rs_pipes s) = Some x -> rp_rmsg x = msg :: tl ->
  resp_step fx s (PRecv c a nb) = (s', outs) ->
  outs = [TranRecv p; Complete a E_OK (Some (mkPmsg [] (pm_body msg)))] /\
  exists cx', rget_ctx s' c = Some cx' /\ rc_pipe cx' = p /\ rc_bt cx' = pm_hdr msg.
Proof.
  unfold rget_ctx. intros G P X M St. cbn [resp_step] in St. rewrite G, P, X, M in St. inversion St; subst.
  split; [reflexivity|]. cbn [rs_ctxs]. eexists. split; [apply kget_kset_eq|]. cbn. auto.
Qed.
Theorem resp_recv_records_origin_cb fx s p m hdr body x k rest c a s' outs :
  pm_hdr m = [] -> resp_recv (rs_ttl s) (pm_body m) = BtDeliver hdr body ->
  live_pipe p (rs_pipes s) = Some x -> rs_recvq s = k :: rest -> kget k (rs_ctxs s) = Some c -> rc_raio c = Some a ->
  resp_step fx s (PRecvDone p 0 m) = (s', outs) ->
  outs = [TranRecv p; Complete a E_OK (Some (mkPmsg [] body))] /\
  exists c', kget k (rs_ctxs s') = Some c' /\ rc_pipe c' = p /\ rc_bt c' = hdr /\ rc_raio c' = None.
Proof.
  intros H0 R L Q G A St. cbn [resp_step N.eqb negb] in St. rewrite R, L, Q, G, A, H0 in St. cbn [app pm_hdr] in St.
  inversion St; subst. split; [reflexivity|]. cbn [rs_ctxs]. eexists. split; [apply kget_kset_eq|]. cbn. auto.
Qed.

(* the response: to the pipe the survey came from and to no other, with the survey's backtrace, and the
   context's record is consumed, so that a second send fails with NNG_ESTATE.  Three outcomes: sent at once
   (pipe idle), discarded (pipe gone), queued on that pipe (busy) -- then it is transmitted on that pipe by
   resp_send_done_takes_queued below *)
Theorem resp_to_origin_once fx s c a m cx s' outs :
  rget_ctx s c = Some cx -> rc_bt cx <> [] -> (rf_sbusy fx = true -> rc_saio cx = None) ->
  resp_step fx s (PSend c a false m) = (s', outs) ->
  (exists cx', rget_ctx s' c = Some cx' /\ rc_bt cx' = [] /\ rc_pipe cx' = 0%N) /\
  (forall q w, In (q, w) (rtxs outs) -> q = rc_pipe cx /\ w = mkPmsg (rc_bt cx) (pm_body m)) /\
  length (rtxs outs) <= 1 /\
  match live_pipe (rc_pipe cx) (rs_pipes s) with
  | None => outs = [Complete a E_OK None; Free (mkPmsg (rc_bt cx) (pm_body m))]
  | Some x => if rp_busy x
              then outs = [] /\ exists cx', rget_ctx s' c = Some cx' /\ rc_saio cx' = Some (a, mkPmsg (rc_bt cx) (pm_body m))
              else outs = [TranSend (rc_pipe cx) (mkPmsg (rc_bt cx) (pm_body m)); Complete a E_OK None]
  end.
Proof.
  unfold rget_ctx. intros G B SB St. cbn [resp_step] in St. rewrite G in St. cbn [andb] in St.
  destruct (rc_bt cx) as [|b0 bt] eqn:BT; [congruence|].
  set (s0 := if (ckey c =? 0)%N && negb (rf_nb fx) then rset_w s false else s) in *.
  assert (P0: rs_pipes s0 = rs_pipes s /\ rs_ctxs s0 = rs_ctxs s) by (unfold s0; destruct (_ && _); auto).
  destruct P0 as [P0 C0]. rewrite P0 in St.
  assert (SB2: (rf_sbusy fx && match rc_saio cx with Some _ => true | None => false end) = false).
  { destruct (rf_sbusy fx); [rewrite SB; auto|auto]. }
  rewrite SB2, andb_false_r in St. cbn [andb] in St.
  destruct (live_pipe (rc_pipe cx) (rs_pipes s)) as [x|] eqn:LP; [destruct (rp_busy x) eqn:BU; cbn [negb] in St|].
  - match type of St with (?st, ?o) = _ => assert (E: s' = st /\ outs = o) by (inversion St; auto) end.
    destruct E as [-> ->]. cbn [rtxs length rs_ctxs rset_ctxs rset_pipes].
    split; [eexists; split; [apply kget_kset_eq|]; cbn; auto|]. split; [intros q w []|]. split; [auto|].
    split; [reflexivity|]. eexists. split; [apply kget_kset_eq|reflexivity].
  - match type of St with (?st, ?o) = _ => assert (E: s' = st /\ outs = o) by (inversion St; auto) end.
    destruct E as [-> ->]. cbn [rtxs length rs_ctxs rset_ctxs rset_pipes].
    split; [eexists; split; [apply kget_kset_eq|]; cbn; auto|]. split; [intros q w [H|[]]; inversion H; auto|]. split; [auto|]. reflexivity.
  - match type of St with (?st, ?o) = _ => assert (E: s' = st /\ outs = o) by (inversion St; auto) end.
    destruct E as [-> ->]. cbn [rtxs length rs_ctxs rset_ctxs rset_pipes].
    split; [eexists; split; [apply kget_kset_eq|]; cbn; auto|]. split; [intros q w []|]. split; [auto|]. reflexivity.
Qed.

(* a queued response leaves on the pipe it was queued on when that pipe's previous transmission completes *)
Theorem resp_send_done_takes_queued fx s p x k rest c a m s' outs :
  kget p (rs_pipes s) = Some x -> rp_sendq x = k :: rest -> kget k (rs_ctxs s) = Some c -> rc_saio c = Some (a, m) ->
  resp_step fx s (PSendDone p 0) = (s', outs) ->
  outs = [TranSend p m; Complete a E_OK None].
Proof. intros X Q G A St. cbn [resp_step N.eqb negb] in St. rewrite X, Q, G, A in St. now inversion St. Qed.

Definition resp_send_would_wait (s : resp) (c : option ctxid) : bool :=
  match rget_ctx s c with
  | Some cx => match rc_bt cx with
               | [] => false
               | _ => match rc_saio cx with
                      | Some _ => false
                      | None => match live_pipe (rc_pipe cx) (rs_pipes s) with Some x => rp_busy x | None => false end
                      end
               end
  | None => false
  end.
(* with all repairs: immediate completion, EAGAIN exactly when the blocking form would queue, state unchanged *)
Theorem resp_nb_send_immediate s c a m s' outs :
  resp_step rfix_all s (PSend c a true m) = (s', outs) ->
  exists rv, In (Complete a rv None) outs /\
    (rv = E_AGAIN <-> resp_send_would_wait s c = true) /\ (rv = E_AGAIN -> s' = s /\ outs = [Complete a E_AGAIN None]) /\
    (forall k cx', In (k, cx') (rs_ctxs s') -> forall w, rc_saio cx' = Some (a, w) -> exists cx, In (k, cx) (rs_ctxs s) /\ rc_saio cx = Some (a, w)).
Proof.
  intros St. cbn [resp_step rfix_all rf_nb rf_sbusy rf_wother negb andb] in St. unfold resp_send_would_wait, rget_ctx.
  rewrite andb_false_r in St. cbn [andb] in St.
  destruct (kget (ckey c) (rs_ctxs s)) as [cx|] eqn:G.
  2:{ inversion St; subst. exists E_CLOSED. repeat split; try discriminate; [now left|]. intros. eauto. }
  destruct (rc_bt cx) as [|b0 bt] eqn:BT.
  { inversion St; subst. exists E_STATE. repeat split; try discriminate; [now left|]. intros. eauto. }
  destruct (rc_saio cx) as [[a1 w1]|] eqn:SA.
  { inversion St; subst. exists E_STATE. repeat split; try discriminate; [now left|]. intros. eauto. }
  destruct (live_pipe (rc_pipe cx) (rs_pipes s)) as [x|] eqn:LP.
  - destruct (rp_busy x) eqn:BU; cbn [negb andb] in St.
    + inversion St; subst. exists E_AGAIN. repeat split; auto; [now left|]. intros. eauto.
    + match type of St with (?st, ?o) = _ => assert (E: s' = st /\ outs = o) by (inversion St; auto) end.
      destruct E as [-> ->]. exists E_OK. repeat split; try discriminate; [right; now left|].
      cbn [rs_ctxs rset_ctxs rset_pipes]. intros k cx' H w Hw.
      match type of H with In _ (kset _ _ (rs_ctxs ?z)) => assert (Z: rs_ctxs z = rs_ctxs s) by (destruct (_ || _); reflexivity) end.
      rewrite Z in H. apply in_kset_weak in H as [->|H]; [cbn in Hw; congruence|eauto].
  - match type of St with (?st, ?o) = _ => assert (E: s' = st /\ outs = o) by (inversion St; auto) end.
    destruct E as [-> ->]. exists E_OK. repeat split; try discriminate; [now left|].
    cbn [rs_ctxs rset_ctxs]. intros k cx' H w Hw.
    match type of H with In _ (kset _ _ (rs_ctxs ?z)) => assert (Z: rs_ctxs z = rs_ctxs s) by (destruct (_ || _); reflexivity) end.
    rewrite Z in H. apply in_kset_weak in H as [->|H]; [cbn in Hw; congruence|eauto].
Qed.

(* the pinned source (nni_aio_start first): a survey is pending, its pipe idle, the descriptor raised --
   and the NONBLOCK send fails with NNG_EAGAIN, clears the descriptor, while the blocking send succeeds *)
Definition resp_w1 : resp :=
  fst (resp_step rfix_none (fst (resp_step rfix_none (fst (resp_step rfix_none resp_init (PPipeStart 1%N PROTO_SURVEYOR)))
        (PRecvDone 1%N 0%N (mkPmsg [] [128%N; 0%N; 0%N; 1%N; 7%N])))) (PRecv None 1%N true)).
Theorem resp_nb_send_refuted :
  resp_poll resp_w1 = mkPoll (Some false) (Some true) /\ resp_send_would_wait resp_w1 None = false /\
  snd (resp_step rfix_none resp_w1 (PSend None 2%N true (mkPmsg [] [9%N]))) = [Complete 2%N E_AGAIN None] /\
  resp_poll (fst (resp_step rfix_none resp_w1 (PSend None 2%N true (mkPmsg [] [9%N])))) = mkPoll (Some false) (Some false) /\
  snd (resp_step rfix_none resp_w1 (PSend None 2%N false (mkPmsg [] [9%N]))) =
    [TranSend 1%N (mkPmsg [128%N; 0%N; 0%N; 1%N] [9%N]); Complete 2%N E_OK None].
Proof. repeat split; vm_compute; reflexivity. Qed.

(* descriptor mirror, refuted on the source as pinned at round 0 (each repaired since; the flags follow the source):
   (1) send descriptor raised although the survey's pipe is busy (resp0_ctx_recv raised it unconditionally);
   (2) receive descriptor raised although no survey waits (resp0_pipe_close did not clear it);
   (3) a second send while the first is queued enters the context twice in the pipe's list (the C panics) *)
Definition resp_w_busy : list pop :=
  [PPipeStart 1%N PROTO_SURVEYOR; PRecvDone 1%N 0%N (mkPmsg [] [128%N; 0%N; 0%N; 1%N; 7%N]); PRecv None 1%N true;
   PSend None 2%N false (mkPmsg [] [9%N]); PRecvDone 1%N 0%N (mkPmsg [] [128%N; 0%N; 0%N; 2%N; 8%N]); PRecv None 3%N true].
Theorem resp_poll_w_mirror_refuted :
  resp_poll (rrun rfix_none resp_w_busy) = mkPoll (Some false) (Some true) /\ resp_send_would_wait (rrun rfix_none resp_w_busy) None = true /\
  resp_poll (rrun rfix_all resp_w_busy) = mkPoll (Some false) (Some false).
Proof. repeat split; vm_compute; reflexivity. Qed.
Definition resp_r_close : list pop :=
  [PPipeStart 1%N PROTO_SURVEYOR; PRecvDone 1%N 0%N (mkPmsg [] [128%N; 0%N; 0%N; 1%N; 7%N]); PPipeClose 1%N].
Theorem resp_poll_r_mirror_refuted :
  resp_poll (rrun rfix_none resp_r_close) = mkPoll (Some true) (Some false) /\
  snd (resp_step rfix_none (rrun rfix_none resp_r_close) (PRecv None 5%N true)) = [Complete 5%N E_AGAIN None] /\
  resp_poll (rrun rfix_all resp_r_close) = mkPoll (Some false) (Some false).
Proof. repeat split; vm_compute; reflexivity. Qed.
Definition resp_two_sends : list pop :=
  resp_w_busy ++ [PSend None 4%N false (mkPmsg [] [10%N]); PRecvDone 1%N 0%N (mkPmsg [] [128%N; 0%N; 0%N; 3%N; 8%N]); PRecv None 5%N true;
                  PSend None 6%N false (mkPmsg [] [11%N])].
Theorem resp_second_queued_send_refuted :
  (exists x, kget 1%N (rs_pipes (rrun rfix_none resp_two_sends)) = Some x /\ rp_sendq x = [0%N; 0%N]) /\
  (exists x, kget 1%N (rs_pipes (rrun rfix_all resp_two_sends)) = Some x /\ rp_sendq x = [0%N]) /\
  snd (resp_step rfix_all (rrun rfix_all (removelast resp_two_sends)) (PSend None 6%N false (mkPmsg [] [11%N]))) = [Complete 6%N E_STATE None].
Proof. split; [|split]; [eexists; split; vm_compute; reflexivity..|vm_compute; reflexivity]. Qed.
