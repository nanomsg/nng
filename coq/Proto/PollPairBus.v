(* PollPairBus: the C15 instances for BUS (bus0/bus.c, cooked and raw) and PAIR
   (pair0/pair.c; pair1/pair.c cooked and raw).

   BUS.  The receive side holds at full strength whatever the repair flags.  The
   send descriptor is constantly raised.  With fixed = true (since fix 6c6b12b
   nni_aio_start does not refuse the zero timeout of a start without a cancel
   function, which is how bus0_sock_send starts its aio) a send never waits and
   every clause holds at full strength.  With fixed = false (the tree before that
   fix) a NONBLOCK send always answers NNG_EAGAIN: C15_nb_possible, C15_mirror
   (hence _exact, _iff) and C15_nb_strict are refuted from the initial state; C15_inv, C15_nb_immediate
   (keep = true: the refused send keeps its message), C15_mirror_r (also the exact
   and iff forms of the receive half), C15_nb_recv_possible still hold.

   PAIR.  With the pipe_stop repair present (fx = true) every clause holds at full
   strength for every kind (pair0, pair1 cooked, pair1 raw) and either value of the
   stale-completion guard fs.  With fx = false (the tree as first pinned) C15_mirror
   is refuted. *)
From Coq Require Import List NArith Bool.
From NngV Require Import Proto.Common Proto.PairModel Proto.PairGuard Proto.BusModel Proto.PollModel Proto.PollProofs.
From NngV Require Gen.Consts Proto.PairProofs Proto.PairGuardProofs Proto.BusProofs.
Import ListNotations.

Definition bus_ok (s : bus) (o : pop) : Prop :=
  BusProofs.op_ok s o /\ match o with PSend _ a _ _ => ~ In a (bs_wait s) | _ => True end.
Definition M_bus (fixed keep raw : bool) : pmodel :=
  mkPM bus (bus_init raw) (bus_step_k fixed keep) bus_poll bus_ok BusProofs.BInv (fun s => bs_wait s) (fun _ => true).

(* bus_step_k is bus_step with the ghost field kept *)
Definition keep_lost (keep : bool) (s s' : bus) : bus :=
  if keep then mkBus (bs_raw s') (bs_pipes s') (bs_rq s') (bs_rcap s') (bs_wait s') (bs_sendbuf s') (bs_sending s')
                     (bs_readable s') (bs_lost s)
  else s'.
Lemma bus_step_k_eq fixed keep s o :
  bus_step_k fixed keep s o = (keep_lost keep s (fst (bus_step fixed s o)), snd (bus_step fixed s o)).
Proof. unfold bus_step_k, keep_lost. destruct (bus_step fixed s o); reflexivity. Qed.
Lemma keep_wait keep s s' : bs_wait (keep_lost keep s s') = bs_wait s'.
Proof. destruct keep; reflexivity. Qed.
Lemma keep_rq keep s s' : bs_rq (keep_lost keep s s') = bs_rq s'.
Proof. destruct keep; reflexivity. Qed.
Lemma keep_readable keep s s' : bs_readable (keep_lost keep s s') = bs_readable s'.
Proof. destruct keep; reflexivity. Qed.
(* the invariant does not look at the ghost field *)
Lemma keep_inv keep s s' : BusProofs.BInv s' -> BusProofs.BInv (keep_lost keep s s').
Proof.
  destruct keep; [|auto]. unfold keep_lost, BusProofs.BInv, BusProofs.pipe_ids, BusProofs.pipe_ok.
  cbn [bs_raw bs_pipes bs_rq bs_rcap bs_wait bs_sendbuf bs_sending bs_readable bs_lost]. auto.
Qed.
Lemma keep_self s : keep_lost true s s = s.
Proof. destruct s; reflexivity. Qed.

Theorem bus_c15_inv fixed keep raw : C15_inv (M_bus fixed keep raw).
Proof.
  apply reachable_inv; [exact (BusProofs.bus_init_inv raw)|]. unM M_bus. intros s o HI [Hok _] _.
  rewrite bus_step_k_eq. cbn [fst]. apply keep_inv. exact (BusProofs.bus_step_inv _ _ _ _ _ HI Hok (surjective_pairing _)).
Qed.

Lemma compl_of_offer a raw sender m l : compl_of a (flat_map (offer_outs raw sender m) l) = [].
Proof.
  induction l as [|bp l IH]; [reflexivity|]. cbn [flat_map]. rewrite compl_of_app, IH, app_nil_r.
  unfold offer_outs. destruct (offer_kind raw sender bp); reflexivity.
Qed.
Lemma compl_of_bus_send a raw sender m l :
  compl_of a (flat_map (offer_outs raw sender m) l ++ [Free m; Complete a E_OK None]) = [(E_OK, None)].
Proof. rewrite compl_of_app, compl_of_offer, compl_of_cons, compl_of_Free, compl_of_self. reflexivity. Qed.

(* a message is queued and taken whatever the flag; or none is: NNG_EAGAIN / the aio waits *)
Lemma bus_recv_shape fixed keep raw s c a :
  pm_ok (M_bus fixed keep raw) s (PRecv c a true) -> recv_shape (M_bus fixed keep raw) true s c a.
Proof.
  intros [Hok _]. cbn [BusProofs.op_ok] in Hok. destruct (bs_rq s) as [|x r] eqn:Q.
  - apply RsAgain; unM M_bus; rewrite !bus_step_k_eq; cbn [bus_step]; rewrite Q; cbn [fst snd]; rewrite ?keep_wait.
    + apply compl_of_self.
    + exact Hok.
    + split; [reflexivity|]. cbn [bs_wait]. apply in_or_app. right. now left.
  - apply (RsSame E_OK (Some x)); unM M_bus; rewrite ?bus_step_k_eq; cbn [bus_step]; rewrite ?Q; cbn [fst snd]; rewrite ?keep_wait.
    + reflexivity.
    + apply compl_of_self.
    + auto with errs.
    + split; [reflexivity|discriminate].
    + exact Hok.
Qed.
Lemma bus_recv_clauses fixed keep raw s :
  nb_recv_immediate_at (M_bus fixed keep raw) s /\ nb_recv_possible_at (M_bus fixed keep raw) s /\
  nb_recv_eagain_queues_at (M_bus fixed keep raw) s.
Proof. destruct (recv_shape_clauses _ true s (bus_recv_shape fixed keep raw s)) as (A & B & C). auto. Qed.
Lemma bus_mirror_r fixed keep raw s : pm_inv (M_bus fixed keep raw) s ->
  mirror_r_exact_at (M_bus fixed keep raw) s /\ mirror_r_iff_at (M_bus fixed keep raw) s.
Proof.
  (* I7, the last conjunct of BusProofs.BInv: bs_readable s = negb (is_nil (bs_rq s)) *)
  intros (_ & _ & _ & _ & _ & _ & I7). apply (mirror_r_of_rv _ s (negb (is_nil (bs_rq s)))).
  - unM M_bus. cbn [bus_poll poll_r]. now rewrite I7.
  - intros a _. unfold rv_recv. unM M_bus. rewrite bus_step_k_eq. cbn [bus_step snd]. destruct (bs_rq s); apply result_of_single.
Qed.

Theorem bus_c15_nb_recv_immediate fixed keep raw : C15_nb_recv_immediate (M_bus fixed keep raw).
Proof. intros s _. apply bus_recv_clauses. Qed.
Theorem bus_c15_nb_recv_possible fixed keep raw : C15_nb_recv_possible (M_bus fixed keep raw).
Proof. intros s _. apply bus_recv_clauses. Qed.
Theorem bus_c15_nb_recv_strict fixed keep raw :
  forall s, reachable (M_bus fixed keep raw) s -> nb_recv_eagain_queues_at (M_bus fixed keep raw) s.
Proof. intros s _. apply bus_recv_clauses. Qed.
Theorem bus_c15_mirror_r_iff fixed keep raw :
  forall s, reachable (M_bus fixed keep raw) s -> mirror_r_iff_at (M_bus fixed keep raw) s.
Proof. intros s R. apply bus_mirror_r, (bus_c15_inv _ _ _ s R). Qed.
Theorem bus_c15_mirror_r fixed keep raw : C15_mirror_r (M_bus fixed keep raw).
Proof. intros s R. apply mirror_r_exact_weaken. apply bus_mirror_r, (bus_c15_inv _ _ _ s R). Qed.

(* unless the defect strikes (fixed = false and NONBLOCK) a send is offered to every pipe and completes in its step *)
Lemma bus_send_ok fixed keep raw s c a nb m : negb fixed && nb = false ->
  compl_of a (snd (pm_step (M_bus fixed keep raw) s (PSend c a nb m))) = [(E_OK, None)] /\
  pm_busy (M_bus fixed keep raw) (fst (pm_step (M_bus fixed keep raw) s (PSend c a nb m))) = bs_wait s.
Proof.
  intros E. unM M_bus. rewrite bus_step_k_eq. cbn [bus_step]. rewrite E. cbn [fst snd]. rewrite keep_wait.
  split; [apply compl_of_bus_send|reflexivity].
Qed.
Lemma bus_send_shape_fixed keep raw s c a m :
  pm_ok (M_bus true keep raw) s (PSend c a true m) -> send_shape (M_bus true keep raw) true s c a m.
Proof.
  intros [_ Hok]. destruct (bus_send_ok true keep raw s c a true m eq_refl) as [C W]. apply (SsSame E_OK); rewrite ?W; auto with errs.
  intros X. now elim X.
Qed.
Lemma bus_send_clauses_fixed keep raw s :
  nb_send_immediate_at (M_bus true keep raw) s /\ nb_send_possible_at (M_bus true keep raw) s /\
  nb_send_eagain_queues_at (M_bus true keep raw) s.
Proof. destruct (send_shape_clauses _ true s (bus_send_shape_fixed keep raw s)) as (A & B & C). auto. Qed.
Lemma bus_mirror_w_fixed keep raw s : mirror_w_exact_at (M_bus true keep raw) s /\ mirror_w_iff_at (M_bus true keep raw) s.
Proof.
  apply (mirror_w_of_rv _ s true); [reflexivity|]. intros a m _ _. exact (result_of_compl _ _ _ _ (proj1 (bus_send_ok true keep raw s None a true m eq_refl))).
Qed.

Theorem bus_c15_nb_immediate keep raw : C15_nb_immediate (M_bus true keep raw).
Proof. intros s _. split; [apply bus_send_clauses_fixed|apply bus_recv_clauses]. Qed.
Theorem bus_c15_nb_possible keep raw : C15_nb_possible (M_bus true keep raw).
Proof. intros s _. split; [apply bus_send_clauses_fixed|apply bus_recv_clauses]. Qed.
Theorem bus_c15_nb_strict keep raw : C15_nb_strict (M_bus true keep raw).
Proof. intros s _. split; [apply bus_send_clauses_fixed|apply bus_recv_clauses]. Qed.
Theorem bus_c15_mirror_exact keep raw : C15_mirror_exact (M_bus true keep raw).
Proof. intros s R. split; [apply bus_mirror_r, (bus_c15_inv _ _ _ s R)|apply bus_mirror_w_fixed]. Qed.
Theorem bus_c15_mirror_iff keep raw : C15_mirror_iff (M_bus true keep raw).
Proof. intros s R. split; [apply bus_mirror_r, (bus_c15_inv _ _ _ s R)|apply bus_mirror_w_fixed]. Qed.
Theorem bus_c15_mirror keep raw : C15_mirror (M_bus true keep raw).
Proof. exact (C15_mirror_of_exact _ (bus_c15_mirror_exact keep raw)). Qed.

(* fixed = false (before fix 6c6b12b): a NONBLOCK send always answers NNG_EAGAIN; with keep = true the refused
   send changes nothing at all, whatever the message *)
Lemma bus_refused_send_unfixed s c a m :
  bus_step_k false true s (PSend c a true m) = (s, [Complete a E_AGAIN None]).
Proof.
  rewrite bus_step_k_eq. cbn [bus_step negb andb fst snd]. unfold keep_lost.
  cbn [bs_raw bs_pipes bs_rq bs_rcap bs_wait bs_sendbuf bs_sending bs_readable bs_lost]. destruct s; reflexivity.
Qed.
Lemma bus_nb_send_immediate_unfixed raw s : nb_send_immediate_at (M_bus false true raw) s.
Proof.
  intros c a m s' outs [_ Hok] H. unM M_bus. rewrite bus_refused_send_unfixed in H. inversion H; subst; clear H.
  exists E_AGAIN. rewrite compl_of_self. repeat split; auto. intros _ m2 _. apply bus_refused_send_unfixed.
Qed.
Theorem bus_c15_nb_immediate_unfixed raw : C15_nb_immediate (M_bus false true raw).
Proof. intros s _. split; [apply bus_nb_send_immediate_unfixed|apply bus_recv_clauses]. Qed.
Theorem bus_c15_nb_immediate_keep fixed raw : C15_nb_immediate (M_bus fixed true raw).
Proof. destruct fixed; [apply bus_c15_nb_immediate|apply bus_c15_nb_immediate_unfixed]. Qed.

Definition bus_wit_msg : pmsg := mkPmsg [] [7%N].
Lemma bus_wit_ok fixed keep raw : pm_ok (M_bus fixed keep raw) (bus_init raw) (PSend None 5%N true bus_wit_msg).
Proof. unM M_bus. split; [exact I|]. cbn. tauto. Qed.

(* witness: the initial state; a blocking send succeeds at once, the NONBLOCK one answers NNG_EAGAIN *)
Theorem bus_c15_nb_send_possible_refuted_unfixed raw : ~ C15_nb_send_possible (M_bus false true raw).
Proof.
  intros H. destruct (bus_send_ok false true raw (bus_init raw) None 5%N false bus_wit_msg eq_refl) as [C _].
  specialize (H _ (reachable_init _) None 5%N bus_wit_msg (bus_wit_ok _ _ _) (result_of_compl _ _ _ _ C)).
  unM M_bus. rewrite <- H, bus_refused_send_unfixed in C. cbn [snd] in C. rewrite compl_of_self in C. discriminate.
Qed.
Theorem bus_c15_nb_possible_refuted_unfixed raw : ~ C15_nb_possible (M_bus false true raw).
Proof. intros H. apply (bus_c15_nb_send_possible_refuted_unfixed raw). intros s R. apply H. exact R. Qed.

Lemma bus_mirror_w_refuted_at_init raw : ~ mirror_w_at (M_bus false true raw) (bus_init raw).
Proof.
  intros H. specialize (H 5%N bus_wit_msg (bus_wit_ok _ _ _) eq_refl). unfold rv_send in H. unM M_bus.
  rewrite bus_refused_send_unfixed in H. cbn [bus_poll poll_w snd] in H. rewrite result_of_single in H.
  destruct H as [_ H]. now apply H.
Qed.
Theorem bus_c15_mirror_w_refuted_unfixed raw : ~ C15_mirror_w (M_bus false true raw).
Proof. intros H. exact (bus_mirror_w_refuted_at_init raw (H _ (reachable_init _))). Qed.
Theorem bus_c15_mirror_refuted_unfixed raw : ~ C15_mirror (M_bus false true raw).
Proof. intros H. apply (bus_c15_mirror_w_refuted_unfixed raw). intros s R. apply H. exact R. Qed.
Theorem bus_c15_mirror_exact_refuted_unfixed raw : ~ C15_mirror_exact (M_bus false true raw).
Proof.
  intros H. apply (bus_mirror_w_refuted_at_init raw). apply mirror_w_exact_weaken. apply H. apply reachable_init.
Qed.
Theorem bus_c15_mirror_iff_refuted_unfixed raw : ~ C15_mirror_iff (M_bus false true raw).
Proof.
  intros H. apply (bus_mirror_w_refuted_at_init raw). apply mirror_w_iff_weaken. apply H. apply reachable_init.
Qed.
(* the strict reading fails the same way: NNG_EAGAIN although the blocking send is not queued *)
Theorem bus_c15_nb_strict_refuted_unfixed raw : ~ C15_nb_strict (M_bus false true raw).
Proof.
  intros H. destruct (H _ (reachable_init _)) as [H1 _]. specialize (H1 None 5%N bus_wit_msg (bus_wit_ok _ _ _)).
  destruct (bus_send_ok false true raw (bus_init raw) None 5%N false bus_wit_msg eq_refl) as [C _].
  apply result_of_compl in C. unM M_bus. rewrite C, bus_refused_send_unfixed in H1. cbn [snd] in H1.
  rewrite result_of_single in H1. destruct (H1 eq_refl) as [E _]. discriminate.
Qed.

(* the flag-dependent forms: [fixed] = Gen.Consts.BUS_SEND_NO_AIO_START *)
Theorem bus_c15_mirror_by_flag (fixed raw : bool) :
  if fixed then C15_mirror (M_bus true true raw) else ~ C15_mirror (M_bus false true raw).
Proof. destruct fixed; [apply bus_c15_mirror|apply bus_c15_mirror_refuted_unfixed]. Qed.
Theorem bus_c15_nb_possible_by_flag (fixed raw : bool) :
  if fixed then C15_nb_possible (M_bus true true raw) else ~ C15_nb_possible (M_bus false true raw).
Proof. destruct fixed; [apply bus_c15_nb_possible|apply bus_c15_nb_possible_refuted_unfixed]. Qed.
Theorem bus_c15_mirror_exact_by_flag (fixed raw : bool) :
  if fixed then C15_mirror_exact (M_bus true true raw) else ~ C15_mirror_exact (M_bus false true raw).
Proof. destruct fixed; [apply bus_c15_mirror_exact|apply bus_c15_mirror_exact_refuted_unfixed]. Qed.
Theorem bus_c15_mirror_iff_by_flag (fixed raw : bool) :
  if fixed then C15_mirror_iff (M_bus true true raw) else ~ C15_mirror_iff (M_bus false true raw).
Proof. destruct fixed; [apply bus_c15_mirror_iff|apply bus_c15_mirror_iff_refuted_unfixed]. Qed.
Theorem bus_c15_nb_strict_by_flag (fixed raw : bool) :
  if fixed then C15_nb_strict (M_bus true true raw) else ~ C15_nb_strict (M_bus false true raw).
Proof. destruct fixed; [apply bus_c15_nb_strict|apply bus_c15_nb_strict_refuted_unfixed]. Qed.

(* the tree as first pinned (fixed = false, keep = false): the refused send had already taken the message
   out of the aio -- the step depends on the message through the ghost record *)
Theorem bus_c15_nb_immediate_refuted_pinned raw : ~ C15_nb_immediate (M_bus false false raw).
Proof.
  intros H. destruct (H _ (reachable_init _)) as [H1 _].
  destruct (bus_step_k false false (bus_init raw) (PSend None 5%N true bus_wit_msg)) as [s' outs] eqn:E.
  destruct (H1 None 5%N bus_wit_msg s' outs (bus_wit_ok _ _ _) E) as (rv & C & _ & D).
  assert (rv = E_AGAIN) as ->.
  { revert C. injection E as <- <-. destruct raw; vm_compute; congruence. }
  specialize (D ltac:(unfold_errs; discriminate) (mkPmsg [] [8%N]) eq_refl). unM M_bus. rewrite <- D in E.
  apply (f_equal (fun x => bs_lost (fst x))) in E. destruct raw; vm_compute in E; discriminate.
Qed.

Example bus_reachable_r_raised fixed keep raw :
  exists s, reachable (M_bus fixed keep raw) s /\ poll_r (pm_poll (M_bus fixed keep raw) s) = Some true.
Proof.
  exists (fst (bus_step_k fixed keep (fst (bus_step_k fixed keep (bus_init raw) (PPipeStart 1%N PROTO_BUS)))
                         (PRecvDone 1%N 0%N (mkPmsg [] [1%N])))).
  split; [|destruct fixed, keep, raw; reflexivity].
  apply (reachable_step (M_bus fixed keep raw)); [|split; exact I|discriminate].
  apply (reachable_step (M_bus fixed keep raw)); [apply reachable_init| |discriminate].
  unM M_bus. split; [|exact I]. cbn. repeat split; auto; try discriminate; tauto.
Qed.
Example bus_reachable_r_lowered fixed keep raw :
  reachable (M_bus fixed keep raw) (bus_init raw) /\ poll_r (pm_poll (M_bus fixed keep raw) (bus_init raw)) = Some false.
Proof. split; [apply (reachable_init (M_bus fixed keep raw))|reflexivity]. Qed.
Example bus_reachable_w_raised fixed keep raw :
  reachable (M_bus fixed keep raw) (bus_init raw) /\ poll_w (pm_poll (M_bus fixed keep raw) (bus_init raw)) = Some true.
Proof. split; [apply (reachable_init (M_bus fixed keep raw))|reflexivity]. Qed.

Definition pair_busy (s : pair) : list aioid := map fst (pr_waq s) ++ pr_raq s.
Definition pair_ok (s : pair) (o : pop) : Prop :=
  PairProofs.op_ok s o /\ match o with PSend _ a _ _ | PRecv _ a _ => ~ In a (pair_busy s) | _ => True end.
(* pairX_sock_send validates the message before it takes the lock (raw PAIRv1 only can refuse) *)
Definition pair_cls (k : pkind) (m : pmsg) : bool := match norm_send k m with Some _ => true | None => false end.
Definition pair_inv (s : pair) : Prop := PairProofs.PInv s /\ PairProofs.RInv s /\ PairProofs.WInv s.
Definition M_pair (k : pkind) (fx fr fs : bool) : pmodel :=
  mkPM pair pair_init (pair_step_g k fx fr fs) pair_poll pair_ok pair_inv pair_busy (pair_cls k).

(* the structural invariant and the receive descriptor are kept whatever the flags; the send descriptor needs the
   pipe_stop repair *)
Lemma pair_rinv_step k fx fr fs s o :
  PairProofs.PInv s /\ PairProofs.RInv s -> pair_ok s o -> o <> PSockClose ->
  PairProofs.PInv (fst (pair_step_g k fx fr fs s o)) /\ PairProofs.RInv (fst (pair_step_g k fx fr fs s o)).
Proof.
  intros (HI & HR) [Hok _] Hns. rewrite (PairGuardProofs.pair_step_g_contract k fx fr fs s o Hok).
  destruct (pair_step k fx fr s o) as [s' outs] eqn:E. cbn [fst].
  split; [exact (proj1 (PairProofs.pair_step_law k fx fr _ _ _ _ HI Hok E))|exact (PairProofs.pair_readable_mirror k fx fr _ _ _ _ HI Hok Hns HR E)].
Qed.
Theorem pair_c15_inv k fr fs : C15_inv (M_pair k true fr fs).
Proof.
  apply reachable_inv; [exact PairProofs.pair_init_inv|]. unM M_pair. intros s o (HI & HR & HW) Hok Hns.
  destruct (pair_rinv_step k true fr fs s o (conj HI HR) Hok Hns) as [HI' HR']. split; [exact HI'|split; [exact HR'|]].
  destruct Hok as [Hok _]. rewrite (PairGuardProofs.pair_step_g_contract k true fr fs s o Hok).
  exact (PairProofs.pair_writable_mirror k true fr _ _ _ _ HI Hok Hns (or_introl eq_refl) HW (surjective_pairing _)).
Qed.

Lemma compl_of_rearm a (po : option pid) : compl_of a (match po with Some p => [TranRecv p] | None => [] end) = [].
Proof. destruct po; reflexivity. Qed.

(* pairX_sock_send: an ill-formed header is refused; else the message goes to the pipe or into the send buffer
   whatever the flag; or the buffer is full: NNG_EAGAIN / the aio waits *)
Lemma pair_send_shape k fx fr fs s c a m :
  pm_ok (M_pair k fx fr fs) s (PSend c a true m) -> send_shape (M_pair k fx fr fs) true s c a m.
Proof.
  intros [_ Hb].
  assert (OK: forall s' o, (forall nb, pair_step_g k fx fr fs s (PSend c a nb m) = (s', o)) -> compl_of a o = [(E_OK, None)] ->
              pair_busy s' = pair_busy s -> send_shape (M_pair k fx fr fs) true s c a m).
  { intros s' o E C B. apply (SsSame E_OK); unM M_pair; rewrite ?E; cbn [fst snd]; auto with errs; [now rewrite B|intros X; now elim X]. }
  destruct (norm_send k m) as [m'|] eqn:EN.
  2:{ apply (SsSame E_PROTO); unM M_pair; cbn [pair_step_g pair_step]; rewrite ?EN; cbn [fst snd]; auto with errs; [apply compl_of_self|].
      intros _ m2 Hc. unfold pair_cls in Hc. rewrite EN in Hc. destruct (norm_send k m2); [discriminate|reflexivity]. }
  destruct (pr_wr s) eqn:W; [destruct (pr_p s) as [p|] eqn:P|destruct (lmq_full (pr_wmq s) (pr_wcap s)) eqn:F].
  - eapply OK; [intros nb; cbn [pair_step_g pair_step]; rewrite EN, W, P; reflexivity|now rewrite compl_of_cons, compl_of_self|reflexivity].
  - eapply OK; [intros nb; cbn [pair_step_g pair_step]; rewrite EN, W, P; reflexivity|apply compl_of_self|reflexivity].
  - apply SsAgain; unM M_pair; cbn [pair_step_g pair_step]; rewrite EN, W, F; cbn [negb fst snd].
    + apply compl_of_self.
    + exact Hb.
    + intros m2 Hc. unfold pair_cls in Hc. rewrite EN in Hc. destruct (norm_send k m2); [reflexivity|discriminate].
    + split; [reflexivity|]. unfold pair_busy. cbn [pr_waq pr_raq]. rewrite map_app. apply in_or_app. left. apply in_or_app. right. now left.
  - eapply OK; [intros nb; cbn [pair_step_g pair_step]; rewrite EN, W, F; reflexivity|apply compl_of_self|reflexivity].
Qed.
(* pairX_sock_recv: a message is buffered (or parked in the pipe's aio) and taken whatever the flag; or none is:
   NNG_EAGAIN / the aio waits *)
Lemma pair_recv_shape k fx fr fs s c a :
  pm_ok (M_pair k fx fr fs) s (PRecv c a true) -> recv_shape (M_pair k fx fr fs) true s c a.
Proof.
  intros [_ Hb].
  assert (OK: forall s' o x, (forall nb, pair_step_g k fx fr fs s (PRecv c a nb) = (s', o)) -> compl_of a o = [(E_OK, Some x)] ->
              pair_busy s' = pair_busy s -> recv_shape (M_pair k fx fr fs) true s c a).
  { intros s' o x E C B. apply (RsSame E_OK (Some x)); unM M_pair; rewrite ?E; cbn [fst snd]; auto with errs;
      [split; [reflexivity|discriminate]|now rewrite B]. }
  destruct (pr_rmq s) as [|x rest] eqn:RM; destruct (pr_rd s) as [h|] eqn:RD.
  - eapply OK; [intros nb; cbn [pair_step_g pair_step]; rewrite RM, RD; reflexivity|
                now rewrite compl_of_cons, compl_of_self, compl_of_rearm|reflexivity].
  - apply RsAgain; unM M_pair; cbn [pair_step_g pair_step]; rewrite RM, RD; cbn [fst snd].
    + apply compl_of_self.
    + exact Hb.
    + split; [reflexivity|]. unfold pair_busy. cbn [pr_waq pr_raq]. apply in_or_app. right. apply in_or_app. right. now left.
  - eapply OK; [intros nb; cbn [pair_step_g pair_step]; rewrite RM, RD; reflexivity|
                now rewrite compl_of_cons, compl_of_self, compl_of_rearm|reflexivity].
  - eapply OK; [intros nb; cbn [pair_step_g pair_step]; rewrite RM, RD; reflexivity|apply compl_of_self|reflexivity].
Qed.
Lemma pair_clauses k fx fr fs s :
  (nb_send_immediate_at (M_pair k fx fr fs) s /\ nb_send_possible_at (M_pair k fx fr fs) s /\ nb_send_eagain_queues_at (M_pair k fx fr fs) s) /\
  (nb_recv_immediate_at (M_pair k fx fr fs) s /\ nb_recv_possible_at (M_pair k fx fr fs) s /\ nb_recv_eagain_queues_at (M_pair k fx fr fs) s).
Proof.
  destruct (send_shape_clauses _ true s (pair_send_shape k fx fr fs s)) as (A & B & C).
  destruct (recv_shape_clauses _ true s (pair_recv_shape k fx fr fs s)) as (D & E & F).
  exact (conj (conj A (conj B (C eq_refl))) (conj D (conj E (F eq_refl)))).
Qed.

(* the descriptors are the two "would not wait" conditions (PairProofs.RInv, WInv) *)
Lemma pair_rv_send k fx fr fs s a m : pair_cls k m = true ->
  rv_send (M_pair k fx fr fs) s a m = Some (if PairProofs.can_send s then E_OK else E_AGAIN).
Proof.
  unfold pair_cls, rv_send, PairProofs.can_send. unM M_pair. cbn [pair_step_g pair_step]. destruct (norm_send k m); [intros _|discriminate].
  destruct (pr_wr s); [destruct (pr_p s); apply result_of_self|]. destruct (lmq_full _ _); apply result_of_self.
Qed.
Lemma pair_rv_recv k fx fr fs s a : rv_recv (M_pair k fx fr fs) s a = Some (if PairProofs.can_recv s then E_OK else E_AGAIN).
Proof.
  unfold rv_recv, PairProofs.can_recv. unM M_pair. cbn [pair_step_g pair_step].
  destruct (pr_rmq s); destruct (pr_rd s); apply result_of_self.
Qed.
Lemma pair_mirror_w k fx fr fs s : PairProofs.WInv s -> mirror_w_exact_at (M_pair k fx fr fs) s /\ mirror_w_iff_at (M_pair k fx fr fs) s.
Proof.
  intros HW. apply (mirror_w_of_rv (M_pair k fx fr fs) s (PairProofs.can_send s)); [unM M_pair; cbn [pair_poll poll_w]; now rewrite HW|].
  intros a m _ Hc. now apply pair_rv_send.
Qed.
Lemma pair_mirror_r k fx fr fs s : PairProofs.RInv s -> mirror_r_exact_at (M_pair k fx fr fs) s /\ mirror_r_iff_at (M_pair k fx fr fs) s.
Proof.
  intros HR. apply (mirror_r_of_rv (M_pair k fx fr fs) s (PairProofs.can_recv s)); [unM M_pair; cbn [pair_poll poll_r]; now rewrite HR|].
  intros a _. apply pair_rv_recv.
Qed.

Lemma pair_nb_send_immediate k fx fr fs s : nb_send_immediate_at (M_pair k fx fr fs) s.
Proof. apply pair_clauses. Qed.
Lemma pair_nb_recv_immediate k fx fr fs s : nb_recv_immediate_at (M_pair k fx fr fs) s.
Proof. apply pair_clauses. Qed.
Theorem pair_c15_nb_immediate k fx fr fs : C15_nb_immediate (M_pair k fx fr fs).
Proof. intros s _. split; [apply pair_nb_send_immediate|apply pair_nb_recv_immediate]. Qed.
Theorem pair_c15_nb_possible k fx fr fs : C15_nb_possible (M_pair k fx fr fs).
Proof. intros s _. split; apply pair_clauses. Qed.
Theorem pair_c15_nb_strict k fx fr fs : C15_nb_strict (M_pair k fx fr fs).
Proof. intros s _. split; apply pair_clauses. Qed.
Theorem pair_c15_mirror_exact k fr fs : C15_mirror_exact (M_pair k true fr fs).
Proof. intros s R. destruct (pair_c15_inv k fr fs s R) as (_ & HR & HW). split; [now apply pair_mirror_r|now apply pair_mirror_w]. Qed.
Theorem pair_c15_mirror_iff k fr fs : C15_mirror_iff (M_pair k true fr fs).
Proof. intros s R. destruct (pair_c15_inv k fr fs s R) as (_ & HR & HW). split; [now apply pair_mirror_r|now apply pair_mirror_w]. Qed.
Theorem pair_c15_mirror k fr fs : C15_mirror (M_pair k true fr fs).
Proof. exact (C15_mirror_of_exact _ (pair_c15_mirror_exact k fr fs)). Qed.

(* the tree as first pinned (fx = false): pipe_stop cleared the send descriptor unconditionally;
   witness (PairProofs.poll_w_witness): send buffer 2, a peer attaches and goes away; the descriptor stays
   lowered although a NONBLOCK send succeeds (a missed wake-up) *)
Definition pair_wit_msg : pmsg := mkPmsg [0; 0; 0; 0]%N [1%N].   (* a 4-byte header, hop count 0: norm_send of every kind accepts it *)
Lemma pair_wit_reachable k fr fs :
  reachable (M_pair k false fr fs) (prun (M_pair k false fr fs) pair_init (PairProofs.poll_w_witness k)).
Proof.
  exists (PairProofs.poll_w_witness k). split; [|reflexivity].
  destruct k as [|[]]; destruct fr; destruct fs; vm_compute; repeat split; try exact I; try discriminate; tauto.
Qed.
Theorem pair_c15_mirror_w_refuted_pinned k fr fs : ~ C15_mirror_w (M_pair k false fr fs).
Proof.
  intros H. specialize (H _ (pair_wit_reachable k fr fs) 7%N pair_wit_msg).
  set (s := prun (M_pair k false fr fs) pair_init (PairProofs.poll_w_witness k)) in H.
  assert (Hok : pm_ok (M_pair k false fr fs) s (PSend None 7%N true pair_wit_msg)) by (destruct k as [|[]], fr, fs; vm_compute; tauto).
  assert (Hc : pm_cls (M_pair k false fr fs) pair_wit_msg = true) by (destruct k as [|[]]; reflexivity).
  assert (X : poll_w (pm_poll (M_pair k false fr fs) s) = Some false) by (destruct k as [|[]], fr, fs; reflexivity).
  assert (Y : rv_send (M_pair k false fr fs) s 7%N pair_wit_msg = Some E_OK) by (destruct k as [|[]], fr, fs; vm_compute; reflexivity).
  specialize (H Hok Hc). rewrite X in H. destruct H as [H _]. specialize (H Y). discriminate.
Qed.
Theorem pair_c15_mirror_refuted_pinned k fr fs : ~ C15_mirror (M_pair k false fr fs).
Proof. intros H. apply (pair_c15_mirror_w_refuted_pinned k fr fs). intros s R. apply H. exact R. Qed.
(* the flag-dependent form: [fx] = Gen.Consts.C08_PAIR0_STOP_WRITABLE_FIXED / C08_PAIR1_STOP_WRITABLE_FIXED *)
Theorem pair_c15_mirror_by_flag (k : pkind) (fx fr fs : bool) :
  if fx then C15_mirror (M_pair k true fr fs) else ~ C15_mirror (M_pair k false fr fs).
Proof. destruct fx; [apply pair_c15_mirror|apply pair_c15_mirror_refuted_pinned]. Qed.
(* the receive descriptor does not depend on that repair: its exact and iff forms for every flag value *)
Theorem pair_c15_mirror_r_any k fx fr fs :
  forall s, reachable (M_pair k fx fr fs) s -> mirror_r_exact_at (M_pair k fx fr fs) s /\ mirror_r_iff_at (M_pair k fx fr fs) s.
Proof.
  intros s R. apply pair_mirror_r. revert s R.
  apply (reachable_ind (M_pair k fx fr fs) (fun s => PairProofs.PInv s /\ PairProofs.RInv s)); [split; apply PairProofs.pair_init_inv|].
  intros s o H Hok Hns. now apply pair_rinv_step.
Qed.
Theorem pair_c15_mirror_r k fx fr fs : C15_mirror_r (M_pair k fx fr fs).
Proof. intros s R. apply mirror_r_exact_weaken. now apply pair_c15_mirror_r_any. Qed.

(* non-vacuity: reachable PAIR states with each descriptor raised and lowered (every kind) *)
Definition pair_rx_msg : pmsg := mkPmsg [] [0; 0; 0; 1; 9]%N.   (* hop count 1, one byte of payload *)
Example pair_reachable_lowered k fx fr fs :
  reachable (M_pair k fx fr fs) pair_init /\ pm_poll (M_pair k fx fr fs) pair_init = mkPoll (Some false) (Some false).
Proof. split; [apply (reachable_init (M_pair k fx fr fs))|reflexivity]. Qed.
Example pair_reachable_w_raised k fx fr fs :
  exists s, reachable (M_pair k fx fr fs) s /\ poll_w (pm_poll (M_pair k fx fr fs) s) = Some true.
Proof.
  exists (prun (M_pair k fx fr fs) pair_init [PPipeStart 1%N (pair_peer k)]). split.
  - exists [PPipeStart 1%N (pair_peer k)]. split; [|reflexivity].
    destruct k as [|[]]; vm_compute; repeat split; try exact I; try discriminate; tauto.
  - destruct k as [|[]]; destruct fx, fs; reflexivity.
Qed.
Example pair_reachable_r_raised k fx fr fs :
  exists s, reachable (M_pair k fx fr fs) s /\ poll_r (pm_poll (M_pair k fx fr fs) s) = Some true.
Proof.
  exists (prun (M_pair k fx fr fs) pair_init [PPipeStart 1%N (pair_peer k); PRecvDone 1%N 0%N pair_rx_msg]). split.
  - exists [PPipeStart 1%N (pair_peer k); PRecvDone 1%N 0%N pair_rx_msg]. split; [|reflexivity].
    destruct k as [|[]]; destruct fx, fs; vm_compute; repeat split; try exact I; try discriminate; tauto.
  - destruct k as [|[]]; destruct fx, fs; reflexivity.
Qed.
(* the initial state: descriptor lowered and the NONBLOCK send answers NNG_EAGAIN *)
Example pair_init_eagain k fx fr fs :
  rv_send (M_pair k fx fr fs) pair_init 7%N pair_wit_msg = Some E_AGAIN /\ pm_cls (M_pair k fx fr fs) pair_wit_msg = true.
Proof. destruct k as [|[]]; vm_compute; auto. Qed.
(* raw PAIRv1 refuses an ill-formed header with NNG_EPROTO although the descriptor is raised (outside the
   mirror clauses: pm_cls = false) *)
Example pair_raw_eproto fx fr fs :
  exists s, reachable (M_pair (K1 true) fx fr fs) s /\ poll_w (pm_poll (M_pair (K1 true) fx fr fs) s) = Some true /\
    rv_send (M_pair (K1 true) fx fr fs) s 7%N (mkPmsg [] [1%N]) = Some E_PROTO /\ pm_cls (M_pair (K1 true) fx fr fs) (mkPmsg [] [1%N]) = false.
Proof.
  exists (prun (M_pair (K1 true) fx fr fs) pair_init [PPipeStart 1%N PROTO_PAIR1]). split; [|destruct fx, fr, fs; vm_compute; auto].
  exists [PPipeStart 1%N PROTO_PAIR1]. split; [|reflexivity].
  vm_compute; repeat split; try exact I; try discriminate; tauto.
Qed.

(* the packs whose step is what the model daemon of this property runs (PollModel.c15_*_step) *)
Lemma pair0_cur_step :
  pm_step (M_pair K0 Gen.Consts.C08_PAIR0_STOP_WRITABLE_FIXED Gen.Consts.C08_PAIR0_RESIZE_ADMITS_FIXED Gen.Consts.C08_PAIR0_STALE_FIXED) = c15_pair0_step.
Proof. reflexivity. Qed.
Lemma pair1_cur_step :
  pm_step (M_pair (K1 false) Gen.Consts.C08_PAIR1_STOP_WRITABLE_FIXED Gen.Consts.C08_PAIR1_RESIZE_ADMITS_FIXED Gen.Consts.C08_PAIR1_STALE_FIXED) = c15_pair1_step.
Proof. reflexivity. Qed.
Lemma pair1raw_cur_step :
  pm_step (M_pair (K1 true) Gen.Consts.C08_PAIR1_STOP_WRITABLE_FIXED Gen.Consts.C08_PAIR1_RESIZE_ADMITS_FIXED Gen.Consts.C08_PAIR1_STALE_FIXED) = c15_pair1raw_step.
Proof. reflexivity. Qed.
Lemma bus_cur_step raw :
  pm_step (M_bus Gen.Consts.BUS_SEND_NO_AIO_START Gen.Consts.C03_BUS_START_BEFORE_DETACH raw) = c15_bus_step.
Proof. reflexivity. Qed.
