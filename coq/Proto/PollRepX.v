(* PollRepX: the C15 instances for cooked REP (reqrep0/rep.c), raw REQ (xreq.c) and raw REP
   (xrep.c; both over the upper queues of src/core/msgqueue.c).

   Cooked REP, M_rep pf.  The invariant rep_inv says: context keys are distinct and the socket's
   own context (key 0) exists; pipe id 0 was never started, busy pipes were started, a held request
   sits on a live pipe and has a non-empty backtrace; every entry of a pipe's send queue names a
   context whose reply is pending, each context at most once; the send descriptor is raised exactly
   when the socket's own context holds a request and its pipe is gone or not busy (RW -- this is
   what the repair pf_wbusy restores); the receive descriptor is raised exactly when some pipe
   holds a request (RepProofs.rep_rinv).  With pf_rclose, pf_saio and pf_wbusy the invariant is
   inductive and C15_mirror holds; the NONBLOCK clauses hold for every pf.  The strict reading of
   NNG_EAGAIN, the iff form and the exact form of the send descriptor are refuted by witnesses
   (state errors); without pf_wbusy C15_mirror itself is refuted.

   Raw REQ / raw REP, M_xreq mf / M_xrep mf.  The invariant is mq_ok of the upper queues: waiting
   getters imply an empty queue and no putters, waiting putters imply a full queue (what mf_getput
   restores).  With all three repairs every clause holds including the exact and iff forms;
   without mf_getput C15_mirror is refuted for raw REQ. *)
From Coq Require Import List Arith NArith Bool Lia.
From NngV Require Import Proto.Common Proto.ReqRepBacktrace Proto.ReqModel Proto.RepModel Proto.XReqModel Proto.XRepModel
  Proto.ReqRepProofs Proto.RepProofs Proto.XReqRepProofs Proto.PollModel Proto.PollProofs.
From NngV Require Base.ListX.
Import ListNotations.

Section Okb.
  Variable M : pmodel.
  Variable okb : pm_st M -> pop -> bool.
  Hypothesis okb_sound : forall s o, okb s o = true -> pm_ok M s o.
  Definition not_close (o : pop) : bool := match o with PSockClose => false | _ => true end.
  Fixpoint pops_okb (s : pm_st M) (ops : list pop) : bool :=
    match ops with
    | [] => true
    | o :: r => okb s o && not_close o && pops_okb (fst (pm_step M s o)) r
    end.
  Lemma pops_okb_sound : forall ops s, pops_okb s ops = true -> pops_ok M s ops.
  Proof.
    induction ops as [|o r IH]; intros s H; cbn [pops_ok]; [exact I|]. cbn [pops_okb] in H.
    apply andb_true_iff in H as [H H3]. apply andb_true_iff in H as [H1 H2].
    split; [now apply okb_sound|]. split; [intros ->; discriminate|now apply IH].
  Qed.
  Lemma reachable_okb ops : pops_okb (pm_init M) ops = true -> reachable M (prun M (pm_init M) ops).
  Proof. intros H. exists ops. split; [now apply pops_okb_sound|reflexivity]. Qed.
End Okb.

Lemma fst_let {A B C D} (p : A * B) (f : A -> B -> C * D) : fst (let '(a, b) := p in f a b) = fst (f (fst p) (snd p)).
Proof. now destruct p. Qed.
Lemma keys_assoc_set {A} k (v : A) l : In k (map fst l) -> map fst (assoc_set k v l) = map fst l.
Proof.
  intros H. destruct (lookup k l) eqn:E; [exact (map_fst_assoc_set_present _ _ _ _ E)|now apply lookup_none_notin in E].
Qed.
Lemma has_id_app a l1 l2 : has_id a (l1 ++ l2) = has_id a l1 || has_id a l2.
Proof. unfold has_id. apply existsb_app. Qed.
Lemma has_id_remove_other a b l : a <> b -> has_id a (remove_id b l) = has_id a l.
Proof.
  intros H. destruct (has_id a l) eqn:E.
  - apply has_id_true. apply in_remove_id. split; [now apply has_id_true|exact H].
  - apply has_id_false. intros X. apply in_remove_id in X as [X _]. apply has_id_false in E. contradiction.
Qed.
Lemma has_id_remove_same a l : has_id a (remove_id a l) = false.
Proof. apply has_id_false. intros X. apply in_remove_id in X as [_ X]. congruence. Qed.
Lemma has_id_single a b : has_id a [b] = N.eqb a b.
Proof. unfold has_id. cbn. apply orb_false_r. Qed.
Lemma find_pctx_in f l k c : find_pctx f l = Some (k, c) -> In (k, c) l /\ f c = true.
Proof.
  induction l as [|[k' c'] l IH]; cbn [find_pctx]; [discriminate|].
  destruct (f c') eqn:E; intros H.
  - inversion H; subst. split; [now left|exact E].
  - destruct (IH H). split; [now right|assumption].
Qed.
Lemma find_pctx_none f l k c : find_pctx f l = None -> In (k, c) l -> f c = false.
Proof.
  induction l as [|[k' c'] l IH]; cbn [find_pctx]; [intros _ []|].
  destruct (f c') eqn:E; [discriminate|]. intros H [X|X]; [inversion X; subst; exact E|auto].
Qed.

Lemma bt_loop_hdr n : forall hdr body m, bt_loop n hdr body = BtDeliver m -> pm_hdr m <> [].
Proof.
  induction n as [|n IH]; intros hdr body m; cbn [bt_loop]; [discriminate|].
  destruct (length body <? 4) eqn:EL; [discriminate|]. destruct (BT_HEADER_MAX <? length hdr + 4); [discriminate|].
  destruct (high_bit (firstn 4 body)).
  - intros H. inversion H; subst. cbn [pm_hdr]. apply Nat.ltb_ge in EL.
    destruct body as [|b body]; [cbn in EL; lia|]. cbn [firstn]. intros X. apply app_eq_nil in X as [_ X]. discriminate.
  - apply IH.
Qed.
Lemma rep_recv_hdr ttl w m : rep_recv ttl w = BtDeliver m -> pm_hdr m <> [].
Proof. apply bt_loop_hdr. Qed.

(* the projections of a rep state and of a context, through the setters (rcbn: through rp_put as well) *)
Ltac rsimp := cbn [rp_ctxs rp_pipes rp_busy rp_pclosed rp_holding rp_recvq rp_sendq rp_sending rp_readable rp_writable rp_ttl
                   rp_set_ctxs rp_set_pipes rp_set_holding rp_set_recvq rp_set_sendq rp_set_sending rp_set_readable
                   rp_set_writable rp_set_ttl rc_pipe rc_bt rc_saio rc_raio fst snd] in *.
Ltac rcbn := unfold rp_put; rsimp.

Definition caios (c : pctx) : list aioid :=
  (match rc_raio c with Some a => [a] | None => [] end) ++ (match rc_saio c with Some (a, _) => [a] | None => [] end).
Definition rep_busy (s : rep) : list aioid := flat_map (fun x => caios (snd x)) (rp_ctxs s).
Definition keys (s : rep) : list N := map fst (rp_ctxs s).
Definition started (s : rep) (p : pid) : Prop := In p (rp_pipes s) \/ In p (rp_pclosed s).

Definition rep_ok (s : rep) (o : pop) : Prop :=
  match o with
  | PSend _ a _ _ | PRecv _ a _ => ~ In a (rep_busy s)
  | PPipeStart p _ => p <> 0%N /\ ~ started s p
  | PPipeClose p => p <> 0%N
  | PSendDone p _ => In p (rp_busy s)
  | PRecvDone p _ _ => started s p
  | PCtxOpen k => ~ In (k + 1)%N (keys s)
  | _ => True
  end.

Lemma get_put s k c k' : rp_get (rp_put s k c) k' = if N.eqb k' k then Some c else rp_get s k'.
Proof. apply lookup_assoc_set. Qed.
Lemma keys_put s k c : In k (keys s) -> keys (rp_put s k c) = keys s.
Proof. unfold keys, rp_put. rsimp. apply keys_assoc_set. Qed.
Lemma get_in_keys s k c : rp_get s k = Some c -> In k (keys s).
Proof. apply lookup_key_in. Qed.

Lemma busy_in s k c a : rp_get s k = Some c -> In a (caios c) -> In a (rep_busy s).
Proof. intros H Ha. apply lookup_in in H. unfold rep_busy. apply in_flat_map. exists (k, c). auto. Qed.
Lemma busy_assoc_set a k c' l :
  In a (flat_map (fun x : N * pctx => caios (snd x)) (assoc_set k c' l)) ->
  In a (caios c') \/ In a (flat_map (fun x : N * pctx => caios (snd x)) l).
Proof.
  induction l as [|[k' v'] l IH]; cbn [assoc_set flat_map snd].
  - rewrite app_nil_r. auto.
  - destruct (N.eqb k' k); cbn [flat_map snd]; rewrite !in_app_iff; intros [H|H]; auto. destruct (IH H); auto.
Qed.
Lemma busy_put s k c' a : In a (rep_busy (rp_put s k c')) -> In a (caios c') \/ In a (rep_busy s).
Proof. unfold rep_busy, rp_put. rsimp. apply busy_assoc_set. Qed.

(* case split on the condition of an if in the goal *)
Ltac brk1 := match goal with |- context [if ?b then _ else _] => destruct b eqn:? end.

(* rep_inv in four parts, each reading its own view of the state: RK the context keys (keys), RP the pipe lists and
   the held requests (pv), RS the pipes' send queue and which contexts have a reply pending (rp_sendq, sv), RW what the
   send descriptor depends on (wv).  A step that leaves a view as it was keeps the part that reads it. *)
Definition RK (s : rep) : Prop := NoDup (keys s) /\ In 0%N (keys s).

Lemma rep_c0 s : RK s -> exists c0, rp_get s 0%N = Some c0.
Proof. intros [_ H]. destruct (rp_get s 0%N) eqn:E; [eauto|]. now apply lookup_none_notin in E. Qed.

Definition pv (s : rep) := (rp_pipes s, rp_busy s, rp_pclosed s, rp_holding s).
Definition RP (s : rep) : Prop :=
  ~ started s 0%N /\ (forall p, In p (rp_busy s) -> started s p) /\
  (forall p m, In (p, m) (rp_holding s) -> In p (rp_pipes s) /\ pm_hdr m <> []).
Lemma rp_pv s s' : pv s' = pv s -> RP s -> RP s'.
Proof. unfold pv, RP, started. intros E. inversion E as [[E1 E2 E3 E4]]. now rewrite E1, E2, E3, E4. Qed.

Definition sv (s : rep) (k : N) : bool := match rp_get s k with Some c => saio_pending c | None => false end.
Definition RS (s : rep) : Prop := (forall p k, In (p, k) (rp_sendq s) -> sv s k = true) /\ NoDup (map snd (rp_sendq s)).
Lemma rs_same s s' : rp_sendq s' = rp_sendq s -> (forall k, sv s k = true -> sv s' k = true) -> RS s -> RS s'.
Proof. intros E H [H1 H2]. unfold RS. rewrite E. split; [|exact H2]. intros p k Hi. apply H. eapply H1; eauto. Qed.
Definition c0sig (s : rep) : option (N * list N) :=
  match rp_get s 0%N with Some c => Some (rc_pipe c, rc_bt c) | None => None end.
Definition wexp2 (s : rep) (q : N) (bt : list N) : bool :=
  negb (is_nil bt) && (negb (has_id q (rp_pipes s)) || negb (has_id q (rp_busy s))).
Definition RW (s : rep) : Prop :=
  forall q bt, c0sig s = Some (q, bt) ->
    (bt = [] -> q = 0%N) /\ (bt <> [] -> started s q) /\ rp_writable s = wexp2 s q bt.
Definition wv (s : rep) := (c0sig s, rp_pipes s, rp_busy s, rp_pclosed s, rp_writable s).
Lemma rw_wv s s' : wv s' = wv s -> RW s -> RW s'.
Proof. unfold wv, RW, started, wexp2. intros E. inversion E as [[E1 E2 E3 E4 E5]]. now rewrite E1, E2, E3, E4, E5. Qed.
(* opens wv down to lookups in an updated context list *)
Ltac wvs := unfold wv, c0sig, master_pipe, rp_get; rcbn; rewrite ?lookup_assoc_set.

Lemma sv_put s k c' k' : sv (rp_put s k c') k' = if N.eqb k' k then saio_pending c' else sv s k'.
Proof. unfold sv. rewrite get_put. now destruct (N.eqb k' k). Qed.
Lemma sv_put_other s k c' k' : k' <> k -> sv (rp_put s k c') k' = sv s k'.
Proof. intros H. rewrite sv_put. now destruct (N.eqb_spec k' k). Qed.
Lemma sv_put_same s k c p bt ra : rp_get s k = Some c -> forall k', sv (rp_put s k (mkPctx p bt (rc_saio c) ra)) k' = sv s k'.
Proof. intros Hg k'. rewrite sv_put. destruct (N.eqb_spec k' k) as [->|]; [|reflexivity]. unfold sv. now rewrite Hg. Qed.
Lemma c0sig_put_same s k c sa ra : rp_get s k = Some c -> c0sig (rp_put s k (mkPctx (rc_pipe c) (rc_bt c) sa ra)) = c0sig s.
Proof. intros Hg. unfold c0sig. rewrite get_put. destruct (N.eqb_spec 0 k) as [<-|]; [now rewrite Hg|reflexivity]. Qed.
Lemma wv_put_same s k c sa ra : rp_get s k = Some c -> wv (rp_put s k (mkPctx (rc_pipe c) (rc_bt c) sa ra)) = wv s.
Proof. intros Hg. unfold wv. now rewrite c0sig_put_same. Qed.

Lemma keys_send pf s k c a nb m : rp_get s k = Some c -> keys (fst (rep_ctx_send pf s k c a nb m)) = keys s.
Proof.
  intros H. apply get_in_keys in H. unfold rep_ctx_send. cbv zeta. repeat brk1; unfold keys, rp_put in *; rsimp; repeat (rewrite keys_assoc_set); auto.
Qed.
(* rep0_ctx_close and the loop of rep0_pipe_close over a pipe's send queue, seen through the four views *)
Lemma rep_ctx_close_frame s k c : rp_get s k = Some c ->
  keys (fst (rep_ctx_close s k c)) = keys s /\ pv (fst (rep_ctx_close s k c)) = pv s /\ wv (fst (rep_ctx_close s k c)) = wv s /\
  rp_sendq (fst (rep_ctx_close s k c)) = (if saio_pending c then plist_del k (rp_sendq s) else rp_sendq s) /\
  forall k', sv (fst (rep_ctx_close s k c)) k' = if N.eqb k' k then false else sv s k'.
Proof.
  intros Hg. unfold rep_ctx_close, saio_pending.
  destruct (rc_saio c) as [[sa sm]|]; destruct (rc_raio c); cbn [fst];
    (split; [exact (keys_put _ _ _ (get_in_keys _ _ _ Hg))|]); (split; [reflexivity|]);
    (split; [now rewrite wv_put_same by exact Hg|]); (split; [reflexivity|]); intros k'; rewrite sv_put; reflexivity.
Qed.
Lemma close_sendq_frame ks : forall s,
  keys (fst (close_sendq s ks)) = keys s /\ pv (fst (close_sendq s ks)) = pv s /\
  rp_sendq (fst (close_sendq s ks)) = rp_sendq s /\ wv (fst (close_sendq s ks)) = wv s /\
  forall k', ~ In k' ks -> sv (fst (close_sendq s ks)) k' = sv s k'.
Proof.
  induction ks as [|k ks IH]; intros s; cbn [close_sendq]; [repeat split|].
  assert (Hskip : keys (fst (close_sendq s ks)) = keys s /\ pv (fst (close_sendq s ks)) = pv s /\
                  rp_sendq (fst (close_sendq s ks)) = rp_sendq s /\ wv (fst (close_sendq s ks)) = wv s /\
                  forall k', ~ In k' (k :: ks) -> sv (fst (close_sendq s ks)) k' = sv s k').
  { destruct (IH s) as (A & B & C & D & F). repeat split; auto. intros k' Hn. apply F. intros X. apply Hn. now right. }
  destruct (rp_get s k) as [c|] eqn:E; [|exact Hskip]. destruct (rc_saio c) as [[a m]|] eqn:ES; [|exact Hskip]. clear Hskip.
  match goal with |- context [close_sendq ?X ks] => specialize (IH X); destruct (close_sendq X ks) as [s1 outs] end.
  cbn [fst] in *. destruct IH as (A & B & C & D & F).
  split; [rewrite A; apply keys_put; eapply get_in_keys; eauto|]. split; [rewrite B; reflexivity|]. split; [rewrite C; reflexivity|].
  split; [now rewrite D, wv_put_same by exact E|].
  intros k' Hn. rewrite F, sv_put by (intros X; apply Hn; now right).
  destruct (N.eqb_spec k' k) as [->|]; [|reflexivity]. exfalso. apply Hn. now left.
Qed.

(* rep0_ctx_send lowers the send descriptor only for the socket's own context; written as one setter the state
   it goes on with shows its other fields by computation *)
Lemma lower_if (b : bool) s w : (if b then rp_set_writable s w else s) = rp_set_writable s (if b then w else rp_writable s).
Proof. destruct b; [reflexivity|now destruct s]. Qed.
Lemma pv_send pf s k c a nb m :
  pv (fst (rep_ctx_send pf s k c a nb m)) = pv s \/
  (has_id (rc_pipe c) (rp_pipes s) = true /\
   pv (fst (rep_ctx_send pf s k c a nb m)) = (rp_pipes s, rp_busy s ++ [rc_pipe c], rp_pclosed s, rp_holding s)).
Proof.
  unfold rep_ctx_send. cbv zeta. rewrite lower_if.
  destruct (pf_saio pf && _); [now left|].
  destruct (is_nil (rc_bt c)); [now left|].
  destruct (has_id (rc_pipe c) (rp_pipes _)); cbn [negb]; [|now left].
  destruct (has_id (rc_pipe c) (rp_busy _)); cbn [negb].
  - left. destruct nb; [destruct (pf_nbsend pf)|]; reflexivity.
  - (* the reply goes out at once: the pipe is there and becomes busy *)
    right. split; [reflexivity|]. destruct (pf_wbusy pf && _); reflexivity.
Qed.

Lemma rs_del s s' k : rp_sendq s' = plist_del k (rp_sendq s) -> (forall k', k' <> k -> sv s' k' = sv s k') -> RS s -> RS s'.
Proof.
  intros E H [H1 H2]. unfold RS. rewrite E. split; [|apply ListX.nodup_filter; exact H2].
  intros p k' Hi. apply in_plist_del in Hi as [Hi Hn]. cbn [snd] in Hn. rewrite H by exact Hn. eapply H1; eauto.
Qed.
Lemma nodup_snd_inj (l : list (pid * N)) p p' k : NoDup (map snd l) -> In (p, k) l -> In (p', k) l -> p = p'.
Proof.
  induction l as [|[q k'] l IH]; cbn [map snd]; [intros _ []|]. intros Hn [E1|H1] [E2|H2].
  - congruence.
  - inversion E1; subst. inversion Hn; subst. exfalso. apply (in_map snd) in H2. auto.
  - inversion E2; subst. inversion Hn; subst. exfalso. apply (in_map snd) in H1. auto.
  - inversion Hn; subst. auto.
Qed.

Lemma sv_send pf s k c a nb m : pf_saio pf = true -> rp_get s k = Some c ->
  let s' := fst (rep_ctx_send pf s k c a nb m) in
  (rp_sendq s' = rp_sendq s /\ forall k', sv s' k' = sv s k') \/
  (sv s k = false /\ rp_sendq s' = rp_sendq s ++ [(rc_pipe c, k)] /\ forall k', sv s' k' = if N.eqb k' k then true else sv s k').
Proof.
  intros Hf Hg. cbv zeta. unfold rep_ctx_send. rewrite Hf, lower_if. cbn [andb]. cbv zeta.
  (* clearing the reply slot leaves sv as it was *)
  pose proof (sv_put_same s k c 0%N [] (rc_raio c) Hg) as S1.
  destruct (rc_saio c) as [[sa sm]|] eqn:ES; [left; split; reflexivity|].
  destruct (is_nil (rc_bt c)); [left; split; [reflexivity|exact S1]|].
  destruct (has_id (rc_pipe c) (rp_pipes _)); cbn [negb]; [|left; split; [reflexivity|exact S1]].
  destruct (has_id (rc_pipe c) (rp_busy _)); cbn [negb].
  - destruct nb; [destruct (pf_nbsend pf)|].
    + (* the refused reply is given back *)
      left. split; [reflexivity|]. intros k'. cbn [fst]. rewrite sv_put.
      destruct (N.eqb_spec k' k) as [->|]; [unfold sv; now rewrite Hg|apply S1].
    + left. split; [reflexivity|exact S1].
    + (* the reply is queued behind the busy pipe *)
      right. split; [unfold sv; rewrite Hg; unfold saio_pending; now rewrite ES|]. split; [reflexivity|].
      intros k'. cbn [fst]. change (sv (rp_set_sendq ?x _) k') with (sv x k'). rewrite sv_put.
      destruct (k' =? k)%N; [reflexivity|apply S1].
  - left. destruct (pf_wbusy pf && _); (split; [reflexivity|exact S1]).
Qed.
Lemma rs_gen s s' : RS s -> NoDup (map snd (rp_sendq s')) ->
  (forall p k, In (p, k) (rp_sendq s') -> In (p, k) (rp_sendq s) /\ (sv s k = true -> sv s' k = true)) -> RS s'.
Proof. intros [H1 H2] Hn H. split; [|exact Hn]. intros p k Hi. destruct (H p k Hi) as [A B]. apply B. eapply H1; eauto. Qed.

Lemma views_same s s' : keys s' = keys s -> pv s' = pv s -> rp_sendq s' = rp_sendq s -> (forall k, sv s' k = sv s k) ->
  RK s -> RP s -> RS s -> RW s' -> RK s' /\ RP s' /\ RS s' /\ RW s'.
Proof.
  intros EK EP EQ ES HK HP HS HW. split; [unfold RK; now rewrite EK|]. split; [exact (rp_pv _ _ EP HP)|].
  split; [|exact HW]. apply (rs_same s); auto. intros k. now rewrite ES.
Qed.
(* a context takes a parsed request from a live pipe (rep0_ctx_recv with a request held, rep0_pipe_recv_cb with a
   receive pending): only the socket's own context moves the send descriptor *)
Lemma rep_take_views pf s k c p m r : pf_wbusy pf = true -> rp_get s k = Some c -> pm_hdr m <> [] -> In p (rp_pipes s) ->
  RK s -> RP s -> RS s -> RW s ->
  RK (rep_take pf s k c p m r) /\ RP (rep_take pf s k c p m r) /\ RS (rep_take pf s k c p m r) /\ RW (rep_take pf s k c p m r).
Proof.
  intros Hf Hg Hh Hp HK HP HS HW. pose proof (keys_put s k (mkPctx p (pm_hdr m) (rc_saio c) r) (get_in_keys _ _ _ Hg)) as EK.
  pose proof (sv_put_same s k c p (pm_hdr m) r Hg) as ES. apply has_id_true in Hp.
  unfold rep_take. cbv zeta. rewrite Hf. destruct (N.eqb_spec k 0) as [->|Hk].
  - destruct (has_id p (rp_busy s)) eqn:EB; cbn [negb]; (apply (views_same s); auto);
      intros q bt; unfold started, wexp2; wvs; cbn [N.eqb]; intros E; inversion E; subst q bt;
      (split; [intros; contradiction|]); (split; [intros _; left; now apply has_id_true|]); rewrite Hp, EB;
      destruct (pm_hdr m); (contradiction || reflexivity).
  - apply (views_same s); auto. apply (rw_wv s); [|exact HW].
    unfold wv, c0sig. rewrite get_put. destruct (N.eqb_spec 0 k); [congruence|reflexivity].
Qed.
Lemma rw_none s : c0sig s = Some (0%N, []) -> rp_writable s = false -> RW s.
Proof. intros E Ew q bt Eq. rewrite E in Eq. inversion Eq; subst. repeat split; auto; intros; contradiction. Qed.
(* rp_put changes neither rp_pipes nor rp_busy *)
Ltac putsimp := rsimp; repeat match goal with
  | |- context [rp_pipes (rp_put ?s ?k ?c)] => change (rp_pipes (rp_put s k c)) with (rp_pipes s)
  | |- context [rp_busy (rp_put ?s ?k ?c)] => change (rp_busy (rp_put s k c)) with (rp_busy s)
  end.
Lemma c0sig_master s q bt : c0sig s = Some (q, bt) -> master_pipe s = q.
Proof. unfold c0sig, master_pipe. destruct (rp_get s 0%N); intros E; inversion E; reflexivity. Qed.
Lemma master_c0sig s s' : c0sig s' = c0sig s -> master_pipe s' = master_pipe s.
Proof. unfold c0sig, master_pipe. destruct (rp_get s' 0%N), (rp_get s 0%N); intros E; inversion E; reflexivity. Qed.
(* the socket's own context keeps its request: RW is about the lists of pipes and the descriptor alone *)
Lemma rw_keep s s' : RW s -> c0sig s' = c0sig s -> (forall q, started s q -> started s' q) ->
  (forall q bt, c0sig s = Some (q, bt) -> (bt = [] -> q = 0%N) -> (bt <> [] -> started s q) -> rp_writable s = wexp2 s q bt ->
     rp_writable s' = wexp2 s' q bt) -> RW s'.
Proof. intros HW E Hs H q bt Eq. rewrite E in Eq. destruct (HW _ _ Eq) as (W1 & W2 & W3). auto. Qed.
Lemma has_id_snoc_other q l p : q <> p -> has_id q (l ++ [p]) = has_id q l.
Proof. intros H. rewrite has_id_app, has_id_single. destruct (N.eqb_spec q p); [contradiction|apply orb_false_r]. Qed.
Lemma rw_send pf s k c a nb m : pf_wbusy pf = true -> RW s -> rp_get s k = Some c ->
  RW (fst (rep_ctx_send pf s k c a nb m)).
Proof.
  intros Hf HW Hg. unfold rep_ctx_send. cbv zeta. rewrite Hf. cbn [andb].
  destruct (pf_saio pf && _); [exact HW|].
  destruct (N.eqb_spec k 0).
  - subst k. assert (E0 : c0sig s = Some (rc_pipe c, rc_bt c)) by (unfold c0sig; now rewrite Hg).
    destruct (HW _ _ E0) as (W1 & W2 & W3). unfold started, wexp2 in *.
    destruct (rc_bt c) as [|b0 bt0] eqn:EB; cbn [is_nil].
    { apply rw_none; [wvs|]; reflexivity. }
    putsimp. destruct (has_id (rc_pipe c) (rp_pipes s)) eqn:EP; cbn [negb].
    2:{ apply rw_none; [wvs|]; reflexivity. }
    destruct (has_id (rc_pipe c) (rp_busy s)) eqn:EBU; cbn [negb].
    + destruct nb; [destruct (pf_nbsend pf)|]; try (apply rw_none; [wvs|]; reflexivity).
      (* the refused reply is given back: its pipe is there and busy *)
      cbn [fst]. intros q bt. unfold started, wexp2. wvs. cbn [N.eqb]. intros E. inversion E; subst q bt.
      rewrite EB. split; [discriminate|]. split; [exact W2|]. now rewrite EP, EBU.
    + brk1; (apply rw_none; [wvs|]; reflexivity).
  - assert (N0 : (0 =? k)%N = false) by (apply N.eqb_neq; congruence). apply (rw_keep s _ HW).
    + repeat brk1; cbn [fst]; unfold c0sig, rp_get, rp_put; rsimp; rewrite ?lookup_assoc_set, ?N0; reflexivity.
    + intros q Hq. repeat brk1; exact Hq.
    + (* only a reply that goes out at once is seen: its pipe becomes busy *)
      intros q bt Eq _ _ W3. destruct (is_nil (rc_bt c)); [exact W3|]. putsimp.
      destruct (has_id (rc_pipe c) (rp_pipes s)) eqn:EP; cbn [negb]; [|exact W3].
      destruct (has_id (rc_pipe c) (rp_busy s)) eqn:EBU; cbn [negb]; [destruct nb; [destruct (pf_nbsend pf)|]; exact W3|].
      assert (EM : master_pipe (rp_put s k (mkPctx 0 [] (rc_saio c) (rc_raio c))) = q).
      { apply (c0sig_master _ _ bt). unfold c0sig. now rewrite get_put, N0. }
      rewrite EM. cbn [fst]. unfold wexp2, rp_put in *. destruct (N.eqb_spec (rc_pipe c) q) as [<-|Nq]; rsimp.
      * rewrite has_id_app, EP, has_id_single, N.eqb_refl, orb_true_r. cbn. now rewrite andb_false_r.
      * now rewrite W3, has_id_snoc_other by congruence.
Qed.

Lemma has_id_readd q p l : In p l -> has_id q (remove_id p l ++ [p]) = has_id q l.
Proof.
  intros H. rewrite has_id_app, has_id_single. destruct (N.eqb_spec q p) as [->|Hn].
  - rewrite orb_true_r. symmetry. now apply has_id_true.
  - rewrite orb_false_r. now apply has_id_remove_other.
Qed.
(* a pipe leaves the pipes (rep0_pipe_close) or stops being busy (rep0_pipe_send_cb with nothing queued): the send
   descriptor is raised if it is the pipe of the socket's own request, otherwise nothing is seen of it *)
Lemma rw_release s s' p : RW s -> p <> 0%N -> c0sig s' = c0sig s -> (forall q, started s q -> started s' q) ->
  (rp_pipes s' = remove_id p (rp_pipes s) /\ rp_busy s' = rp_busy s \/ rp_pipes s' = rp_pipes s /\ rp_busy s' = remove_id p (rp_busy s)) ->
  rp_writable s' = (if N.eqb p (master_pipe s) then true else rp_writable s) -> RW s'.
Proof.
  intros HW Hp E Hs Hl Ew. apply (rw_keep s); auto. intros q bt Eq W1 W2 W3.
  rewrite Ew, (c0sig_master _ _ _ Eq). unfold wexp2 in *. destruct (N.eqb_spec p q) as [->|Hn].
  - destruct bt; [elim Hp; now apply W1|]. cbn [is_nil negb andb].
    destruct Hl as [[-> ->]|[-> ->]]; rewrite has_id_remove_same; [reflexivity|now rewrite orb_true_r].
  - rewrite W3. destruct Hl as [[-> ->]|[-> ->]]; rewrite has_id_remove_other by congruence; reflexivity.
Qed.
(* rep0_pipe_close, after its loop over the pipe's send queue has led to [s2] *)
Lemma pipe_close_views s s2 p : RK s -> RP s -> RS s -> RW s -> p <> 0%N ->
  keys s2 = keys s -> pv s2 = (rp_pipes s, rp_busy s, rp_pclosed s ++ [p], assoc_del p (rp_holding s)) ->
  rp_sendq s2 = assoc_del p (rp_sendq s) ->
  (forall k, ~ In k (map snd (filter (fun x : N * N => (fst x =? p)%N) (rp_sendq s))) -> sv s2 k = sv s k) ->
  wv s2 = (c0sig s, rp_pipes s, rp_busy s, rp_pclosed s ++ [p], rp_writable s) ->
  let s3 := if N.eqb p (master_pipe s2) then rp_set_writable s2 true else s2 in
  let s' := rp_set_pipes s3 (remove_id p (rp_pipes s3)) (rp_busy s3) (rp_pclosed s3) in
  RK s' /\ RP s' /\ RS s' /\ RW s'.
Proof.
  intros HK HP HS HW Hp0 EK EP EQ ES EW. pose proof HP as (Hz & Hb & Hh). pose proof HS as [HS1 HS2].
  injection EP as P1 P2 P3 P4. injection EW as W0 _ _ _ W5. cbv zeta. rewrite (master_c0sig _ _ W0).
  assert (St : forall q, started s q -> In q (remove_id p (rp_pipes s)) \/ In q (rp_pclosed s ++ [p])).
  { intros q [H|H]; [|right; apply in_or_app; now left].
    destruct (N.eq_dec q p) as [->|Hn]; [right; apply in_or_app; right; now left|left; now apply in_remove_id]. }
  apply (views_same (rp_set_pipes s2 (remove_id p (rp_pipes s2)) (rp_busy s2) (rp_pclosed s2)));
    try (destruct (p =? master_pipe s)%N; reflexivity).
  - unfold RK in *. rewrite <- EK in HK. exact HK.
  - unfold RP, started. rsimp. rewrite P1, P2, P3, P4. split; [|split].
    + intros [H|H]; [apply in_remove_id in H as [H _]; apply Hz; now left|].
      apply in_app_or in H as [H|[H|[]]]; [apply Hz; now right|congruence].
    + intros q Hq. apply St. now apply Hb.
    + intros q x Hq. apply in_assoc_del in Hq as [Hq Hn]. cbn [fst] in Hn. destruct (Hh q x Hq). split; [apply in_remove_id; auto|assumption].
  - apply (rs_gen s); [exact HS|rsimp; rewrite EQ; apply ListX.nodup_filter; exact HS2|]. intros q k Hi. rsimp. rewrite EQ in Hi.
    apply in_assoc_del in Hi as [Hi Hq]. cbn [fst] in Hq. split; [exact Hi|]. intros Hs. rewrite <- Hs. apply ES.
    intros Hx. apply in_map_iff in Hx as [[q' k'] [Ek Hx]]. cbn [snd] in Ek. subst k'.
    apply filter_In in Hx as [Hx Hp]. cbn [fst] in Hp. apply N.eqb_eq in Hp. subst q'. apply Hq. eapply nodup_snd_inj; eauto.
  - apply (rw_release s _ p); auto.
    + destruct (p =? master_pipe s)%N; exact W0.
    + intros q Hq. unfold started. destruct (p =? master_pipe s)%N; rsimp; rewrite P1, P3; now apply St.
    + left. destruct (p =? master_pipe s)%N; rsimp; now rewrite P1, P2.
    + destruct (p =? master_pipe s)%N; [reflexivity|exact W5].
Qed.
(* one step keeps the four invariants; [X] disposes of the cases that change none of the views *)
Lemma rep_views_step pf s o : pf_saio pf = true -> pf_wbusy pf = true ->
  RK s -> RP s -> RS s -> RW s -> rep_ok s o -> o <> PSockClose ->
  RK (fst (rep_step pf s o)) /\ RP (fst (rep_step pf s o)) /\ RS (fst (rep_step pf s o)) /\ RW (fst (rep_step pf s o)).
Proof.
  intros Hfs Hfw HK HP HS HW Hok Hnc.
  pose proof HK as [Hnd Hk0]. pose proof HP as (Hz & Hb & Hh). pose proof HS as [HS1 HS2].
  assert (XK : forall s', keys s' = keys s -> RK s') by (intros s' E; unfold RK; now rewrite E).
  pose proof (fun s' E => rp_pv s s' E HP) as XP.
  assert (XS : forall s', rp_sendq s' = rp_sendq s -> (forall k, sv s' k = sv s k) -> RS s').
  { intros s' E1 E2. apply (rs_same s); auto. intros k. now rewrite E2. }
  pose proof (fun s' E => rw_wv s s' E HW) as XW.
  pose proof (fun s' ek ep eq es ew => views_same s s' ek ep eq es HK HP HS (XW s' ew)) as X.
  destruct o; cbn [rep_step].
  - (* PSend: rep0_ctx_send *)
    destruct (rp_get s (ckey c)) as [cx|] eqn:E; [|apply X; intros; reflexivity].
    split; [apply XK, keys_send; exact E|]. split; [|split; [|apply rw_send; auto]].
    + destruct (pv_send pf s (ckey c) cx a nb m) as [E1|[E0' E1]]; [exact (XP _ E1)|].
      unfold pv in E1. inversion E1 as [[E2 E3 E4 E5]]. unfold RP, started. rewrite E2, E3, E4, E5.
      split; [exact Hz|]. split; [|exact Hh]. intros q Hq. apply in_app_or in Hq as [Hq|[Hq|[]]]; [now apply Hb|].
      subst q. left. now apply has_id_true.
    + destruct (sv_send pf s (ckey c) cx a nb m Hfs E) as [[E1 E2]|[E0' [E1 E2]]]; [apply XS; assumption|].
      split.
      * intros p k Hi. rewrite E1 in Hi. rewrite E2. destruct (N.eqb_spec k (ckey c)); [reflexivity|].
        apply in_app_or in Hi as [Hi|[Hi|[]]]; [eapply HS1; eauto|]. inversion Hi; subst. contradiction.
      * rewrite E1, map_app. cbn [map snd]. apply ListX.nodup_snoc; [exact HS2|]. intros Hi.
        apply in_map_iff in Hi as [[p k] [Ek Hi]]. cbn [snd] in Ek. subst k. rewrite (HS1 _ _ Hi) in E0'. discriminate.
  - (* PRecv: rep0_ctx_recv *)
    destruct (rp_get s (ckey c)) as [cx|] eqn:E; [|apply X; intros; reflexivity]. unfold rep_ctx_recv.
    destruct (rp_holding s) as [|[p m] rest] eqn:EH.
    + destruct nb; [apply X; intros; reflexivity|]. destruct (rc_raio cx); [apply X; intros; reflexivity|]. cbn [fst].
      apply X; try reflexivity;
        [exact (keys_put _ _ _ (get_in_keys _ _ _ E))|exact (sv_put_same _ _ _ _ _ _ E)|exact (wv_put_same _ _ _ _ _ E)].
    + cbv zeta. cbn [fst]. destruct (Hh p m (or_introl eq_refl)) as [Hp Hm].
      apply rep_take_views; auto; try (brk1; auto; fail).
      unfold RP, started. brk1; rsimp; (split; [exact Hz|]; split; [exact Hb|]; intros q x Hq; apply Hh; now right).
  - destruct (find_pctx (saio_is a) (rp_ctxs s)) as [[k c]|] eqn:E1.
    + apply find_pctx_in in E1 as [E1 _]. pose proof (in_map fst _ _ E1) as Ek. apply (nodup_in_lookup _ _ _ Hnd) in E1. cbn [fst].
      split; [exact (XK _ (keys_put _ _ _ Ek))|]. split; [exact (XP _ eq_refl)|]. split.
      * apply (rs_del s _ k); [reflexivity|intros k' Hn; exact (sv_put_other _ _ _ _ Hn)|exact HS].
      * exact (XW _ (wv_put_same _ _ _ _ _ E1)).
    + destruct (find_pctx (fun c => opt_is a (rc_raio c)) (rp_ctxs s)) as [[k c]|] eqn:E2; [|apply X; intros; reflexivity].
      apply find_pctx_in in E2 as [E2 _]. pose proof (in_map fst _ _ E2) as Ek. apply (nodup_in_lookup _ _ _ Hnd) in E2. cbn [fst].
      apply X; try reflexivity; [exact (keys_put _ _ _ Ek)|exact (sv_put_same _ _ _ _ _ _ E2)|exact (wv_put_same _ _ _ _ _ E2)].
  - brk1; [apply X; intros; reflexivity|]. cbn [fst]. destruct Hok as [Hp0 Hps].
    split; [apply XK; reflexivity|]. split; [|split; [apply XS; intros; reflexivity|]].
    + unfold RP, started in *. rsimp. split; [|split].
      * intros [H|H]; [apply in_app_or in H as [H|[H|[]]]|]; [apply Hz; now left|congruence|apply Hz; now right].
      * intros q Hq. destruct (Hb q Hq); [left; apply in_or_app; now left|now right].
      * intros q x Hq. destruct (Hh q x Hq). split; [apply in_or_app; now left|assumption].
    + apply (rw_keep s); auto.
      * intros q [H|H]; [left; apply in_or_app; now left|now right].
      * intros q bt _ _ W2 W3. unfold wexp2 in *. rsimp. rewrite W3. destruct bt; [reflexivity|].
        rewrite has_id_snoc_other; [reflexivity|]. intros ->. apply Hps, W2. discriminate.
  - (* PPipeClose: rep0_pipe_close *)
    cbn in Hok. cbv zeta. match goal with |- context [if ?b then rp_set_readable _ false else _] => destruct b end.
    all: match goal with |- context [close_sendq ?A ?B] =>
           destruct (close_sendq_frame B A) as (EK & EP & EQ & EW & ES); destruct (close_sendq A B) as [s2 outs] end.
    all: cbn [fst] in *; apply (pipe_close_views s); auto.
  - (* PSendDone: rep0_pipe_send_cb *)
    cbv zeta. cbn in Hok. brk1; [apply X; intros; reflexivity|]. rsimp.
    destruct (first_on p (rp_sendq s)) as [k|] eqn:EF.
    + (* the oldest reply queued on the pipe goes out: its context is there and holds it *)
      match goal with |- context [rp_get ?A k] => change (rp_get A k) with (rp_get s k) end.
      apply first_on_in in EF. apply HS1 in EF. unfold sv in EF. destruct (rp_get s k) as [c|] eqn:E; [|discriminate].
      unfold saio_pending in EF. destruct (rc_saio c) as [[a m]|]; [|discriminate]. cbn [fst].
      split; [exact (XK _ (keys_put _ _ _ (get_in_keys _ _ _ E)))|]. split; [|split].
      * unfold RP, started. rsimp. split; [exact Hz|]. split; [|exact Hh]. intros q Hq.
        apply in_app_or in Hq as [Hq|[<-|[]]]; [apply in_remove_id in Hq as [Hq _]|]; now apply Hb.
      * apply (rs_del s _ k); [reflexivity|intros k' Hn; exact (sv_put_other _ _ _ _ Hn)|exact HS].
      * apply (rw_keep s); auto; [exact (c0sig_put_same _ _ _ _ _ E)|]. intros q bt _ _ _ W. unfold wexp2 in *. unfold rp_put. rsimp.
        now rewrite W, has_id_readd by exact Hok.
    + split; [apply XK; brk1; reflexivity|]. split; [|split; [apply XS; brk1; reflexivity|]].
      * unfold RP, started. brk1; rsimp; (split; [exact Hz|]; split; [|exact Hh]; intros q Hq; apply in_remove_id in Hq as [Hq _]; now apply Hb).
      * apply (rw_release s _ p); auto; try (brk1; auto; fail).
        -- intros ->. apply Hz. now apply Hb.
        -- change (master_pipe (rp_set_pipes _ _ _ _)) with (master_pipe s). brk1; reflexivity.
  - (* PRecvDone: rep0_pipe_recv_cb *)
    brk1; [apply X; intros; reflexivity|].
    destruct (rep_recv (rp_ttl s) (pm_body m)) as [m'| |] eqn:ER; try (apply X; intros; reflexivity).
    destruct (has_id p (rp_pclosed s)) eqn:EC; [apply X; intros; reflexivity|].
    assert (Hp : In p (rp_pipes s)) by (destruct Hok as [H|H]; [exact H|]; apply has_id_false in EC; contradiction).
    destruct (rp_recvq s) as [|k rest].
    + cbn [fst]. split; [apply XK; reflexivity|]. split; [|split; [apply XS; intros; reflexivity|apply XW; reflexivity]].
      unfold RP, started. rsimp. split; [exact Hz|]. split; [exact Hb|]. intros q x Hq.
      apply in_app_or in Hq as [Hq|[Hq|[]]]; [now apply Hh|]. inversion Hq; subst q x. split; [exact Hp|eapply rep_recv_hdr; eauto].
    + destruct (rp_get s k) as [c|] eqn:E; [|apply X; intros; reflexivity]. destruct (rc_raio c); [|apply X; intros; reflexivity].
      cbn [fst]. apply rep_take_views; auto. eapply rep_recv_hdr; eauto.
  - destruct c; [apply X; intros; reflexivity|]. destruct o; try (apply X; intros; reflexivity); brk1; apply X; intros; reflexivity.
  - cbn [fst]. split; [|split; [exact (XP _ eq_refl)|split]].
    + unfold RK, keys in *. rsimp. rewrite map_app. cbn [map fst]. split; [apply ListX.nodup_snoc; assumption|apply in_or_app; now left].
    + apply (rs_same s); [reflexivity| |exact HS]. intros k. unfold sv, rp_get. rsimp.
      destruct (lookup k (rp_ctxs s)) as [cx|] eqn:E; [|discriminate]. now rewrite (lookup_app_some _ _ _ _ E).
    + destruct (rep_c0 s HK) as [c0 G0]. apply XW. unfold rp_get in G0. wvs. now rewrite (lookup_app_some _ _ _ _ G0), G0.
  - (* PCtxClose: rep0_ctx_close *)
    destruct (rp_get s (c + 1)%N) as [cx|] eqn:E; [|apply X; intros; reflexivity].
    destruct (rep_ctx_close_frame s (c + 1)%N cx E) as (EK & EP' & EW & E1 & E2).
    destruct (rep_ctx_close s (c + 1)%N cx) as [s1 outs]. cbn [fst] in *.
    split; [|split; [apply XP; rewrite <- EP'; reflexivity|split]].
    + unfold RK, keys in *. rsimp. rewrite <- EK in Hnd, Hk0. split; [apply ListX.nodup_filter; exact Hnd|].
      apply in_map_iff in Hk0 as [[k0 cc] [Ek Hk0]]. cbn [fst] in Ek. subst k0. apply in_map_iff. exists (0%N, cc). split; [reflexivity|].
      apply in_assoc_del. split; [exact Hk0|]. cbn [fst]. lia.
    + assert (E3 : forall k', k' <> (c + 1)%N -> sv (rp_set_ctxs s1 (assoc_del (c + 1)%N (rp_ctxs s1))) k' = sv s k').
      { intros k' Hn. specialize (E2 k'). destruct (N.eqb_spec k' (c + 1)%N); [contradiction|]. rewrite <- E2.
        unfold sv, rp_get. rsimp. now rewrite lookup_assoc_del_other. }
      destruct (saio_pending cx) eqn:EP.
      * apply (rs_del s _ (c + 1)%N); [exact E1|exact E3|exact HS].
      * apply (rs_gen s); [exact HS|rsimp; rewrite E1; exact HS2|]. intros q k Hi. rsimp. rewrite E1 in Hi. split; [exact Hi|].
        intros Hs. rewrite E3; [exact Hs|]. intros ->. unfold sv in Hs. rewrite E, EP in Hs. discriminate.
    + apply XW. rewrite <- EW. wvs. rewrite lookup_assoc_del_other by lia. reflexivity.
  - contradiction.
  - apply X; intros; reflexivity.
Qed.

Definition rep_inv (s : rep) : Prop := RK s /\ RP s /\ RS s /\ RW s /\ rep_rinv s.
Definition M_rep (pf : pfix) : pmodel := mkPM rep rep_init (rep_step pf) rep_poll rep_ok rep_inv rep_busy (fun _ => true).

Lemma pf_all pf : pf_rclose pf = true -> pf_nbsend pf = true -> pf_saio pf = true -> pf_wbusy pf = true -> pf = pf_repaired.
Proof. destruct pf; cbn; intros; subst; reflexivity. Qed.

Lemma rep_inv_init pf : pm_inv (M_rep pf) (pm_init (M_rep pf)).
Proof.
  unM M_rep. unfold rep_inv. split; [|split; [|split; [|split]]].
  - split; [repeat constructor; intros []|now left].
  - split; [intros [[]|[]]|]. split; [intros p []|intros p m []].
  - split; [intros p k []|constructor].
  - intros q bt E. inversion E; subst. repeat split; intros; try contradiction.
  - exact rep_rinv_init.
Qed.
Lemma rep_inv_step pf s o : pf_rclose pf = true -> pf_saio pf = true -> pf_wbusy pf = true ->
  pm_inv (M_rep pf) s -> pm_ok (M_rep pf) s o -> o <> PSockClose -> pm_inv (M_rep pf) (fst (pm_step (M_rep pf) s o)).
Proof.
  intros F1 F3 F4. unM M_rep. intros (HK & HP & HS & HW & HR) Hok Hnc.
  destruct (rep_views_step pf s o F3 F4 HK HP HS HW Hok Hnc) as (A & B & C & D).
  split; [exact A|]. split; [exact B|]. split; [exact C|]. split; [exact D|now apply rep_rinv_step].
Qed.

Lemma rep_mirror_r_exact pf s : pm_inv (M_rep pf) s -> mirror_r_exact_at (M_rep pf) s.
Proof.
  intros (HK & _ & _ & _ & HR) a _. unM M_rep. unfold rv_recv. unM M_rep. cbn [rep_poll poll_r rep_step ckey].
  destruct (rep_c0 s HK) as [c0 E0]. rewrite E0. unfold rep_ctx_recv. rewrite HR.
  destruct (rp_holding s) as [|[p m] rest]; cbn [is_nil negb snd].
  - rewrite result_of_single. unfold_errs. split; intros X; congruence.
  - rewrite result_of_skip by reflexivity. rewrite result_of_self. split; auto.
Qed.
Lemma rep_mirror_w pf s : pm_inv (M_rep pf) s -> mirror_w_at (M_rep pf) s.
Proof.
  intros (HK & _ & _ & HW & _) a m _ _. unM M_rep. unfold rv_send. unM M_rep. cbn [rep_poll poll_w rep_step ckey].
  destruct (rep_c0 s HK) as [c0 E0]. rewrite E0.
  assert (E1 : c0sig s = Some (rc_pipe c0, rc_bt c0)) by (unfold c0sig; now rewrite E0).
  destruct (HW _ _ E1) as (_ & _ & W3). rewrite W3. unfold wexp2, rep_ctx_send. cbv zeta. rewrite N.eqb_refl.
  destruct (pf_saio pf && _).
  { cbn [snd]. rewrite result_of_single. unfold_errs. split; intros; congruence. }
  destruct (rc_bt c0) as [|b0 bt0]; cbn [is_nil negb andb].
  { cbn [snd]. rewrite result_of_single. unfold_errs. split; intros; congruence. }
  putsimp. destruct (has_id (rc_pipe c0) (rp_pipes s)); cbn [negb orb].
  { destruct (has_id (rc_pipe c0) (rp_busy s)); cbn [negb].
    - destruct (pf_nbsend pf); cbn [snd]; rewrite result_of_single; unfold_errs; split; intros; congruence.
    - cbn [snd]. rewrite result_of_skip by reflexivity. rewrite result_of_self. split; auto. intros _. unfold_errs. congruence. }
  cbn [snd]. rewrite result_of_self. split; auto. intros _. unfold_errs. congruence.
Qed.

(* rep_busy opened to the flat_map over the (updated) context list *)
Ltac bsimp := unfold rep_busy; rcbn.
Lemma busy_assoc_set_in a k c' l :
  In a (caios c') -> In a (flat_map (fun x : N * pctx => caios (snd x)) (assoc_set k c' l)).
Proof.
  intros H. induction l as [|[k' v'] l IH]; cbn [assoc_set flat_map snd].
  - rewrite app_nil_r. exact H.
  - destruct (N.eqb k' k); cbn [flat_map snd]; apply in_or_app; [now left|now right].
Qed.
Lemma busy_send_nb pf s k c a m x : rp_get s k = Some c ->
  In x (rep_busy (fst (rep_ctx_send pf s k c a true m))) -> In x (rep_busy s).
Proof.
  intros Hg. assert (HC : forall c', caios c' = caios c -> In x (caios c') -> In x (rep_busy s)).
  { intros c' E H. rewrite E in H. eapply busy_in; eauto. }
  unfold rep_ctx_send. cbv zeta. repeat brk1; cbn [fst]; bsimp; intros Hx; try exact Hx.
  all: repeat (apply busy_assoc_set in Hx; destruct Hx as [Hx|Hx]; [revert Hx; apply HC; reflexivity|]); exact Hx.
Qed.
(* rep0_ctx_send looks at the flag in one place only: the reply's pipe is there and busy.  Everywhere else the two
   forms do the same and complete the aio; there the NONBLOCK form answers NNG_EAGAIN and the other queues the reply *)
Lemma rep_ctx_send_nb_cases pf s k c a m :
  let t := rep_ctx_send pf s k c a true m in let f := rep_ctx_send pf s k c a false m in
  (exists rv, t = f /\ compl_of a (snd t) = [(rv, None)] /\ rv <> E_AGAIN /\
     (rv <> E_OK -> forall m2, rep_ctx_send pf s k c a true m2 = t)) \/
  (compl_of a (snd t) = [(E_AGAIN, None)] /\ (forall m2, rep_ctx_send pf s k c a true m2 = t) /\
   snd f = [] /\ In a (rep_busy (fst f))).
Proof.
  (* the case analysis is made once, on the function of the flag and the message *)
  cbv zeta. remember (rep_ctx_send pf s k c a) as R eqn:HR. unfold rep_ctx_send in HR. cbv zeta in HR.
  repeat match type of HR with _ = (fun nb m0 => if ?b then _ else _) => destruct b end; subst R; cbv beta.
  - left. exists E_STATE. cbn [snd]. rewrite compl_of_self. auto with errs.
  - left. exists E_STATE. cbn [snd]. rewrite compl_of_self. auto with errs.
  - left. exists E_OK. cbn [snd]. rewrite compl_of_cons, compl_of_self. repeat split; auto with errs. intros X. now elim X.
  - left. exists E_OK. cbn [snd]. rewrite compl_of_cons, compl_of_TranSend, compl_of_self. repeat split; auto with errs. intros X. now elim X.
  - right. cbn [fst snd]. rewrite compl_of_self. repeat split. bsimp. apply busy_assoc_set_in. unfold caios. rsimp.
    apply in_or_app. right. now left.
Qed.
Lemma rep_send_shape pf s c a m : pm_ok (M_rep pf) s (PSend c a true m) -> send_shape (M_rep pf) true s c a m.
Proof.
  intros Hok. destruct (rp_get s (ckey c)) as [cx|] eqn:E.
  2:{ apply (refused_send _ _ _ _ _ _ E_CLOSED); auto with errs. intros nb m2. cbn. now rewrite E. }
  assert (Hb : ~ In a (rep_busy (fst (rep_ctx_send pf s (ckey c) cx a true m)))).
  { intros Hx. apply Hok. exact (busy_send_nb pf s (ckey c) cx a m a E Hx). }
  destruct (rep_ctx_send_nb_cases pf s (ckey c) cx a m) as [(rv & Eq & C & Hrv & K)|(C & K & F & B)].
  - apply (SsSame rv); unM M_rep; cbn [rep_step]; rewrite ?E; auto.
  - apply SsAgain; unM M_rep; cbn [rep_step]; rewrite ?E; auto.
    split; [now rewrite F|exact B].
Qed.
Lemma busy_take pf s k c p m x : rp_get s k = Some c ->
  In x (rep_busy (rep_take pf s k c p m (rc_raio c))) -> In x (rep_busy s).
Proof.
  intros Hg. unfold rep_take. cbv zeta. repeat brk1; bsimp; intros Hx.
  all: apply busy_assoc_set in Hx; destruct Hx as [Hx|Hx]; [|exact Hx]; eapply busy_in; eauto.
Qed.
(* a receive takes the oldest request held; with none held the NONBLOCK form answers NNG_EAGAIN before anything else
   is looked at, while the other form refuses a second receive on the context (NNG_ESTATE) or waits *)
Lemma rep_recv_shape pf s c a : pm_ok (M_rep pf) s (PRecv c a true) -> recv_shape (M_rep pf) false s c a.
Proof.
  intros Hok. destruct (rp_get s (ckey c)) as [cx|] eqn:E.
  2:{ apply (refused_recv _ _ _ _ _ E_CLOSED); auto with errs. intros nb. cbn. now rewrite E. }
  assert (St : forall nb, pm_step (M_rep pf) s (PRecv c a nb) = rep_ctx_recv pf s (ckey c) cx a nb).
  { intros nb. unM M_rep. cbn [rep_step]. now rewrite E. }
  unfold rep_ctx_recv in St. destruct (rp_holding s) as [|[p m] rest] eqn:EH.
  - apply RsAgain.
    + rewrite St. apply compl_of_self.
    + rewrite St. exact Hok.
    + rewrite St. destruct (rc_raio cx); cbn [snd]; [rewrite result_of_single|]; discriminate.
  - apply (RsSame E_OK (Some (rep_deliver m))).
    + now rewrite !St.
    + rewrite St. cbv zeta. cbn [snd]. now rewrite compl_of_cons, compl_of_self.
    + exact ok_neq_again.
    + split; [reflexivity|discriminate].
    + rewrite St. cbv zeta. cbn [fst]. intros Hx. apply Hok. apply busy_take in Hx; [|destruct (is_nil rest); exact E].
      destruct (is_nil rest); exact Hx.
Qed.

Section RepLift.
  Variable pf : pfix.
  Hypothesis F1 : pf_rclose pf = true.
  Hypothesis F3 : pf_saio pf = true.
  Hypothesis F4 : pf_wbusy pf = true.

  Theorem rep_c15_inv : C15_inv (M_rep pf).
  Proof. exact (reachable_ind _ _ (rep_inv_init pf) (fun s o => rep_inv_step pf s o F1 F3 F4)). Qed.
  Theorem rep_c15_mirror_r_exact : forall s, reachable (M_rep pf) s -> mirror_r_exact_at (M_rep pf) s.
  Proof. intros s R. apply rep_mirror_r_exact. now apply rep_c15_inv. Qed.
  Theorem rep_c15_mirror : C15_mirror (M_rep pf).
  Proof.
    intros s R. split; [now apply mirror_r_exact_weaken, rep_c15_mirror_r_exact|]. apply rep_mirror_w. now apply rep_c15_inv.
  Qed.
End RepLift.
Theorem rep_c15_nb_immediate pf : C15_nb_immediate (M_rep pf).
Proof. intros s _. split; [apply (send_shape_clauses _ true s (rep_send_shape pf s))|apply (recv_shape_clauses _ false s (rep_recv_shape pf s))]. Qed.
Theorem rep_c15_nb_possible pf : C15_nb_possible (M_rep pf).
Proof. intros s _. split; [apply (send_shape_clauses _ true s (rep_send_shape pf s))|apply (recv_shape_clauses _ false s (rep_recv_shape pf s))]. Qed.
(* the strict reading of NNG_EAGAIN holds for sends only *)
Theorem rep_c15_nb_send_strict pf : forall s, reachable (M_rep pf) s -> nb_send_eagain_queues_at (M_rep pf) s.
Proof. intros s _. now apply (send_shape_clauses _ true s (rep_send_shape pf s)). Qed.

Definition rep_okb (s : rep) (o : pop) : bool :=
  match o with
  | PSend _ a _ _ | PRecv _ a _ => negb (has_id a (rep_busy s))
  | PPipeStart p _ => negb (N.eqb p 0) && negb (has_id p (rp_pipes s)) && negb (has_id p (rp_pclosed s))
  | PPipeClose p => negb (N.eqb p 0)
  | PSendDone p _ => has_id p (rp_busy s)
  | PRecvDone p _ _ => has_id p (rp_pipes s) || has_id p (rp_pclosed s)
  | PCtxOpen k => negb (has_id (k + 1)%N (keys s))
  | _ => true
  end.
Lemma rep_okb_sound pf s o : rep_okb s o = true -> pm_ok (M_rep pf) s o.
Proof.
  unM M_rep. destruct o; cbn [rep_okb rep_ok]; try (intros; exact I).
  - intros H. apply negb_true_iff in H. now apply has_id_false.
  - intros H. apply negb_true_iff in H. now apply has_id_false.
  - intros H. apply andb_true_iff in H as [H H3]. apply andb_true_iff in H as [H1 H2].
    apply negb_true_iff in H1, H2, H3. apply N.eqb_neq in H1. apply has_id_false in H2, H3. split; [exact H1|]. intros [X|X]; contradiction.
  - intros H. apply negb_true_iff in H. now apply N.eqb_neq.
  - apply has_id_true.
  - intros H. apply orb_true_iff in H as [H|H]; apply has_id_true in H; [now left|now right].
  - intros H. apply negb_true_iff in H. now apply has_id_false.
Qed.
Definition rep_reach pf ops := reachable_okb (M_rep pf) rep_okb (rep_okb_sound pf) ops.

(* a request as a pipe delivers it: one backtrace word with the high bit set (the ids used below are 2^31 + 1, ...),
   then one byte of body *)
Definition rq (id : N) (b : N) : pmsg := mkPmsg [] (be32 id ++ [b]).

(* the strict reading of NNG_EAGAIN fails for receives: a context with a receive already pending *)
Definition w_rep_strict : list pop := [PRecv None 1%N false].
Theorem rep_c15_nb_strict_refuted pf : ~ C15_nb_strict (M_rep pf).
Proof.
  intros H. destruct (H _ (rep_reach pf w_rep_strict eq_refl)) as [_ Hr].
  assert (Hok : pm_ok (M_rep pf) (prun (M_rep pf) (pm_init (M_rep pf)) w_rep_strict) (PRecv None 2%N true)).
  { apply rep_okb_sound. reflexivity. }
  destruct (Hr None 2%N Hok eq_refl) as [Hx _]. vm_compute in Hx. discriminate.
Qed.
(* E_STATE is neither NNG_EAGAIN nor advertised *)
Theorem rep_c15_mirror_iff_refuted pf : ~ C15_mirror_iff (M_rep pf).
Proof.
  intros H. destruct (H _ (reachable_init (M_rep pf))) as [_ Hw].
  assert (Hok : pm_ok (M_rep pf) (pm_init (M_rep pf)) (PSend None 1%N true (mkPmsg [] []))) by (apply rep_okb_sound; reflexivity).
  specialize (Hw 1%N (mkPmsg [] []) Hok eq_refl).
  assert (E : rv_send (M_rep pf) (pm_init (M_rep pf)) 1%N (mkPmsg [] []) = Some E_STATE).
  { unfold rv_send. cbn. unfold rep_ctx_send. cbn. now destruct (pf_saio pf). }
  rewrite E in Hw. change (false = true <-> Some E_STATE <> Some E_AGAIN) in Hw. destruct Hw as [_ Hw].
  assert (X : false = true) by (apply Hw; discriminate). discriminate.
Qed.
(* the socket's previous reply still waits behind a busy pipe; it then takes a request from an idle pipe *)
Definition w_rep_exact : list pop :=
  [PCtxOpen 0%N; PPipeStart 1%N PROTO_REQ; PPipeStart 2%N PROTO_REQ;
   PRecvDone 1%N 0%N (rq 2147483649 1); PRecv (Some 0%N) 9%N true;
   PRecvDone 1%N 0%N (rq 2147483650 2); PRecv None 9%N true;
   PSend (Some 0%N) 9%N true (mkPmsg [] [3%N]);
   PSend None 8%N false (mkPmsg [] [4%N]);
   PRecvDone 2%N 0%N (rq 2147483651 5); PRecv None 9%N true].
Theorem rep_c15_mirror_exact_refuted : ~ C15_mirror_exact (M_rep pf_repaired).
Proof.
  intros H. destruct (H _ (rep_reach pf_repaired w_rep_exact eq_refl)) as [_ Hw].
  assert (Hok : pm_ok (M_rep pf_repaired) (prun (M_rep pf_repaired) (pm_init (M_rep pf_repaired)) w_rep_exact) (PSend None 7%N true (mkPmsg [] [6%N]))).
  { apply rep_okb_sound. reflexivity. }
  specialize (Hw 7%N (mkPmsg [] [6%N]) Hok eq_refl). vm_compute in Hw. destruct Hw as [Hw _].
  specialize (Hw eq_refl). discriminate.
Qed.
(* without the repair pf_wbusy: another context replies on the pipe the socket would reply on *)
Theorem rep_c15_mirror_refuted_without_wbusy : ~ C15_mirror (M_rep (mkPfix true true true false)).
Proof.
  set (pf := mkPfix true true true false).
  intros H. destruct (H _ (rep_reach pf w_rep_wbusy eq_refl)) as [_ Hw].
  assert (Hok : pm_ok (M_rep pf) (prun (M_rep pf) (pm_init (M_rep pf)) w_rep_wbusy) (PSend None 9%N true (mkPmsg [] [4%N]))).
  { apply rep_okb_sound. reflexivity. }
  specialize (Hw 9%N (mkPmsg [] [4%N]) Hok eq_refl). vm_compute in Hw. destruct Hw as [_ Hw].
  apply (Hw eq_refl). reflexivity.
Qed.
Example rep_reachable_readable : exists s, reachable (M_rep pf_repaired) s /\ poll_r (pm_poll (M_rep pf_repaired) s) = Some true.
Proof.
  eexists. split; [exact (rep_reach pf_repaired [PPipeStart 1%N PROTO_REQ; PRecvDone 1%N 0%N (rq 2147483649 1)] eq_refl)|reflexivity].
Qed.
Example rep_reachable_writable : exists s, reachable (M_rep pf_repaired) s /\ poll_w (pm_poll (M_rep pf_repaired) s) = Some true.
Proof.
  eexists. split; [exact (rep_reach pf_repaired [PPipeStart 1%N PROTO_REQ; PRecvDone 1%N 0%N (rq 2147483649 1); PRecv None 9%N true] eq_refl)|reflexivity].
Qed.
Example rep_reachable_lowered : reachable (M_rep pf_repaired) rep_init /\ pm_poll (M_rep pf_repaired) rep_init = mkPoll (Some false) (Some false).
Proof. split; [apply (reachable_init (M_rep pf_repaired))|reflexivity]. Qed.

Section MqInv.
  Variables G T : Type.
  Notation mqt := (mq G T).
  Definition mq_ok (q : mqt) : Prop :=
    (mq_getq q = [] \/ (mq_q q = [] /\ mq_putq q = [])) /\ (mq_putq q = [] \/ mq_cap q <= length (mq_q q)).
  Definition is_evput (e : mqev G T) : Prop := match e with EvPut _ => True | EvGot _ _ => False end.

  Lemma run_putq_ok : forall fuel (q : mqt), (mq_getq q = [] \/ mq_q q = []) -> length (mq_putq q) <= fuel ->
    mq_ok (fst (mq_run_putq G T fuel q)) /\ mq_cap (fst (mq_run_putq G T fuel q)) = mq_cap q.
  Proof.
    unfold mq_ok. induction fuel as [|f IH]; intros q Hpre Hl; cbn [mq_run_putq].
    - cbn [fst]. split; [|reflexivity]. destruct (mq_putq q); [|cbn in Hl; lia]. split; [|now left].
      destruct Hpre; [now left|right; auto].
    - destruct (mq_putq q) as [|[t m] pr] eqn:EP.
      { cbn [fst]. split; [|reflexivity]. split; [|now left]. destruct Hpre; [now left|right; auto]. }
      cbn [length] in Hl. destruct (mq_getq q) as [|g gr] eqn:EG.
      + destruct (length (mq_q q) <? mq_cap q) eqn:EL.
        * rewrite fst_let. apply (IH (mkMq (mq_q q ++ [m]) (mq_cap q) [] pr)); cbn [mq_getq mq_putq]; [now left|lia].
        * cbn [fst]. split; [|reflexivity]. apply Nat.ltb_ge in EL. split; [now left|now right].
      + rewrite fst_let. apply (IH (mkMq (mq_q q) (mq_cap q) gr pr)); cbn [mq_getq mq_putq mq_q]; [|lia].
        destruct Hpre as [X|X]; [discriminate|now right].
  Qed.
  Lemma run_putq_nog : forall fuel (q : mqt), mq_getq q = [] ->
    mq_getq (fst (mq_run_putq G T fuel q)) = [] /\ Forall is_evput (snd (mq_run_putq G T fuel q)).
  Proof.
    induction fuel as [|f IH]; intros q Hg; cbn [mq_run_putq]; [split; [exact Hg|constructor]|].
    destruct (mq_putq q) as [|[t m] pr]; [split; [exact Hg|constructor]|]. rewrite Hg.
    destruct (length (mq_q q) <? mq_cap q); [|split; [exact Hg|constructor]].
    specialize (IH (mkMq (mq_q q ++ [m]) (mq_cap q) [] pr) eq_refl).
    destruct (mq_run_putq G T f _) as [q' ev]. cbn [fst snd] in *. destruct IH. split; [assumption|]. constructor; [exact I|assumption].
  Qed.
  Lemma run_getq_post : forall fuel (q : mqt), length (mq_getq q) <= fuel ->
    (mq_getq (fst (mq_run_getq G T fuel q)) = [] \/ mq_q (fst (mq_run_getq G T fuel q)) = []) /\
    mq_cap (fst (mq_run_getq G T fuel q)) = mq_cap q.
  Proof.
    induction fuel as [|f IH]; intros q Hl; cbn [mq_run_getq].
    - cbn [fst]. split; [|reflexivity]. left. destruct (mq_getq q); [reflexivity|cbn in Hl; lia].
    - destruct (mq_getq q) as [|g gr] eqn:EG; [cbn [fst]; rewrite EG; auto|]. cbn [length] in Hl.
      destruct (mq_q q) as [|m rest] eqn:EQ.
      + destruct (mq_putq q) as [|[t m] pr] eqn:EP; [cbn [fst]; rewrite EQ; auto|].
        rewrite fst_let. apply (IH (mkMq [] (mq_cap q) gr pr)). cbn [mq_getq]. lia.
      + rewrite fst_let. apply (IH (mkMq rest (mq_cap q) gr (mq_putq q))). cbn [mq_getq]. lia.
  Qed.
  Lemma run_getq_id fuel (q : mqt) : mq_ok q -> mq_run_getq G T fuel q = (q, []).
  Proof.
    unfold mq_ok. intros [[H|[H1 H2]] _]; destruct fuel as [|f]; cbn [mq_run_getq]; try reflexivity.
    - now rewrite H.
    - destruct (mq_getq q); [reflexivity|]. now rewrite H1, H2.
  Qed.

  Lemma mq_put_ok (q : mqt) t m : mq_ok q -> mq_ok (fst (mq_put q t m)) /\ mq_cap (fst (mq_put q t m)) = mq_cap q.
  Proof.
    intros [H1 H2]. apply (run_putq_ok _ (mkMq (mq_q q) (mq_cap q) (mq_getq q) (mq_putq q ++ [(t, m)]))).
    - cbn [mq_getq mq_q]. destruct H1 as [H1|[H1 _]]; auto.
    - cbn [mq_putq]. rewrite app_length. cbn. lia.
  Qed.
  Lemma mq_get_ok (q : mqt) g : mq_ok (fst (mq_get true q g)) /\ mq_cap (fst (mq_get true q g)) = mq_cap q.
  Proof.
    unfold mq_get.
    match goal with |- context [mq_run_getq G T ?f ?X] => pose proof (run_getq_post f X) as A; destruct (mq_run_getq G T f X) as [q1 e1] end.
    pose proof (run_putq_ok (S (length (mq_putq q1))) q1) as C. destruct (mq_run_putq G T _ q1) as [q2 e2]. cbn [fst] in *.
    destruct A as [A B]; [cbn [mq_getq]; rewrite app_length; cbn; lia|]. cbn [mq_cap] in B. rewrite <- B. apply C; [exact A|lia].
  Qed.
  Lemma mq_resize_ok (q : mqt) n : mq_ok q -> mq_ok (fst (mq_rerun (fst (mq_resize q n)))).
  Proof.
    intros [H1 H2]. unfold mq_resize. cbn [fst]. unfold mq_rerun.
    match goal with |- context [mq_run_putq G T ?f ?X] =>
      assert (A : mq_ok (fst (mq_run_putq G T f X))); [apply run_putq_ok|destruct (mq_run_putq G T f X) as [q1 e1]] end.
    - cbn [mq_getq mq_q]. destruct H1 as [H1|[H1 _]]; [now left|right]. rewrite H1. apply skipn_nil.
    - cbn [mq_putq]. lia.
    - cbn [fst] in *. rewrite (run_getq_id _ q1 A). exact A.
  Qed.
  Lemma mq_ok_del_get (q : mqt) f : mq_ok q -> mq_ok (mkMq (mq_q q) (mq_cap q) (filter f (mq_getq q)) (mq_putq q)).
  Proof.
    intros [H1 H2]. split; cbn [mq_getq mq_q mq_putq mq_cap]; [|exact H2].
    destruct H1 as [H1|H1]; [left; now rewrite H1|now right].
  Qed.
  Lemma mq_ok_del_put (q : mqt) f : mq_ok q -> mq_ok (mkMq (mq_q q) (mq_cap q) (mq_getq q) (filter f (mq_putq q))).
  Proof.
    intros [H1 H2]. split; cbn [mq_getq mq_q mq_putq mq_cap].
    - destruct H1 as [H1|[H1 H3]]; [now left|right]. split; [exact H1|]. now rewrite H3.
    - destruct H2 as [H2|H2]; [left; now rewrite H2|now right].
  Qed.
End MqInv.
Arguments mq_ok {G T}.  Arguments is_evput {G T}.

Section MqOps.
  Variables G T : Type.
  Notation mqt := (mq G T).
  Lemma mq_put_nowait (q : mqt) t m : mq_put_waits q = false ->
    mq_put q t m = match mq_getq q with
                   | g :: gr => (mkMq (mq_q q) (mq_cap q) gr [], [EvGot g m; EvPut t])
                   | [] => (mkMq (mq_q q ++ [m]) (mq_cap q) [] [], [EvPut t])
                   end.
  Proof.
    unfold mq_put_waits, mq_put. intros H. apply orb_false_iff in H. destruct H as [H1 H2].
    destruct (mq_putq q) eqn:EP; [|discriminate]. cbn [app length mq_run_putq mq_getq mq_q mq_putq mq_cap].
    destruct (mq_getq q) as [|g gr] eqn:EG; [|reflexivity].
    cbn [is_nil andb] in H2. apply Nat.leb_gt in H2. apply Nat.ltb_lt in H2. now rewrite H2.
  Qed.
  Lemma mq_put_wait (q : mqt) t m : mq_ok q -> mq_put_waits q = true ->
    mq_put q t m = (mkMq (mq_q q) (mq_cap q) (mq_getq q) (mq_putq q ++ [(t, m)]), []).
  Proof.
    unfold mq_ok, mq_put_waits, mq_put. intros [H1 H2] H.
    assert (HG : mq_getq q = [] /\ mq_cap q <= length (mq_q q)).
    { destruct (mq_putq q) as [|x pr] eqn:EP.
      - cbn [is_nil negb orb] in H. apply andb_true_iff in H as [Ha Hb]. apply Nat.leb_le in Hb.
        destruct (mq_getq q); [auto|discriminate].
      - destruct H2 as [H2|H2]; [discriminate|]. destruct H1 as [H1|[_ H1]]; [auto|discriminate]. }
    destruct HG as [HG HC]. apply Nat.ltb_ge in HC.
    cbn [mq_run_putq mq_putq mq_getq mq_q mq_cap]. rewrite HG, HC.
    destruct (mq_putq q ++ [(t, m)]) as [|[t0 m0] pr] eqn:E; [reflexivity|reflexivity].
  Qed.
  Lemma mq_get_wait (q : mqt) g : mq_ok q -> mq_get_waits q = true ->
    mq_get true q g = (mkMq (mq_q q) (mq_cap q) (mq_getq q ++ [g]) (mq_putq q), []).
  Proof.
    unfold mq_ok, mq_get_waits, mq_get. intros [H1 H2] H.
    assert (HQ : mq_q q = [] /\ mq_putq q = []).
    { destruct (mq_getq q) as [|x gr] eqn:EG.
      - cbn [is_nil negb orb] in H. apply andb_true_iff in H as [Ha Hb].
        destruct (mq_q q); [|discriminate]. destruct (mq_putq q); [auto|discriminate].
      - destruct H1 as [H1|H1]; [discriminate|exact H1]. }
    destruct HQ as [HQ HP]. cbn [mq_run_getq mq_putq mq_getq mq_q mq_cap]. rewrite HQ, HP.
    destruct (mq_getq q ++ [g]) as [|g0 gr] eqn:E; cbn [mq_run_putq mq_putq length]; reflexivity.
  Qed.
  Lemma mq_get_nowait (q : mqt) g : mq_get_waits q = false ->
    exists m q' pre ev, mq_get true q g = (q', pre ++ EvGot g m :: ev) /\ mq_getq q' = [] /\
      Forall is_evput pre /\ Forall is_evput ev.
  Proof.
    unfold mq_get_waits, mq_get. intros H. apply orb_false_iff in H. destruct H as [H1 H2].
    destruct (mq_getq q) eqn:EG; [|discriminate]. cbn [app length mq_run_getq mq_getq mq_q mq_putq].
    destruct (mq_q q) as [|m rest] eqn:EQ; [destruct (mq_putq q) as [|[t m] pr] eqn:EP; [discriminate|]|].
    all: match goal with |- context [mq_run_putq G T ?f ?X] => destruct (run_putq_nog G T f X eq_refl) as [A B]; destruct (mq_run_putq G T f X) as [q2 e2] end.
    all: cbn [fst snd] in *.
    - exists m, q2, [EvPut t], e2. repeat split; auto. constructor; [exact I|constructor].
    - exists m, q2, [], e2. repeat split; auto.
  Qed.
End MqOps.

Definition xreq_busy (s : xreq) : list aioid := map fst (mq_putq (xq_uwq s)) ++ mq_getq (xq_urq s).
Definition xreq_ok (s : xreq) (o : pop) : Prop :=
  match o with PSend _ a _ _ | PRecv _ a _ => ~ In a (xreq_busy s) | _ => True end.
Definition xreq_inv (s : xreq) : Prop := mq_ok (xq_uwq s) /\ mq_ok (xq_urq s).
Definition M_xreq (mf : mqfix) : pmodel :=
  mkPM xreq xreq_init (xreq_step mf) xreq_poll xreq_ok xreq_inv xreq_busy (fun _ => true).

Lemma xreq_inv_init mf : pm_inv (M_xreq mf) (pm_init (M_xreq mf)).
Proof. unM M_xreq. split; (split; [now left|now left]). Qed.

Lemma xreq_inv_step mf s o : mf_resize mf = true -> mf_getput mf = true ->
  pm_inv (M_xreq mf) s -> pm_ok (M_xreq mf) s o -> o <> PSockClose -> pm_inv (M_xreq mf) (fst (pm_step (M_xreq mf) s o)).
Proof.
  intros F2 F3. unM M_xreq. intros [HW HR] _ Hnc. unfold xreq_inv.
  destruct o; cbn [xreq_step]; rewrite ?F2, ?F3; try (split; assumption).
  - destruct (nb_refused mf nb _); [split; assumption|]. rewrite fst_let. split; [apply mq_put_ok|]; assumption.
  - destruct (nb_refused mf nb _); [split; assumption|]. rewrite fst_let. split; [|apply mq_get_ok]; assumption.
  - cbv zeta. destruct (has_aio a (mq_putq (xq_uwq s))); [|destruct (has_id a (mq_getq (xq_urq s)))]; cbn [fst xq_uwq xq_urq];
      (split; [try apply mq_ok_del_put|try apply mq_ok_del_get]; assumption).
  - destruct (negb (peer =? PROTO_REP)%N); [split; assumption|]. rewrite fst_let. split; [apply mq_get_ok|]; assumption.
  - split; [apply mq_ok_del_get|apply mq_ok_del_put]; assumption.
  - cbv zeta. destruct (negb (rv =? 0)%N); [split; assumption|]. rewrite fst_let. split; [apply mq_get_ok|]; assumption.
  - destruct (negb (rv =? 0)%N); [split; assumption|]. destruct (xreq_recv (pm_body m)) as [m'| |]; try (split; assumption).
    rewrite fst_let. split; [|apply mq_put_ok]; assumption.
  - destruct c; [split; assumption|]. destruct o; try (split; assumption); brk1; try (split; assumption); rewrite !fst_let.
    + split; [apply mq_resize_ok|]; assumption.
    + split; [|apply mq_resize_ok]; assumption.
  - contradiction.
Qed.

Lemma mq_sendable_waits {G T} (q : mq G T) : mq_ok q -> mq_sendable q = negb (mq_put_waits q).
Proof.
  unfold mq_ok, mq_sendable, mq_put_waits. intros [H1 H2].
  destruct (mq_getq q) as [|g gr]; cbn [is_nil negb andb orb].
  - rewrite orb_false_r. destruct (mq_putq q) as [|x pr]; cbn [is_nil negb orb].
    + destruct (Nat.ltb_spec (length (mq_q q)) (mq_cap q)); destruct (Nat.leb_spec (mq_cap q) (length (mq_q q))); try lia; reflexivity.
    + destruct H2 as [H2|H2]; [discriminate|]. apply Nat.ltb_ge in H2. now rewrite H2.
  - destruct H1 as [H1|[_ H1]]; [discriminate|]. rewrite H1. cbn. apply orb_true_r.
Qed.
Lemma mq_recvable_waits {G T} (q : mq G T) : mq_ok q -> mq_recvable q = negb (mq_get_waits q).
Proof.
  unfold mq_ok, mq_recvable, mq_get_waits. intros [H1 _].
  destruct (mq_getq q) as [|g gr]; cbn [is_nil negb andb orb].
  - destruct (mq_q q); destruct (mq_putq q); reflexivity.
  - destruct H1 as [H1|[H1 H3]]; [discriminate|]. now rewrite H1, H3.
Qed.
Lemma compl_of_urq_puts a (ev : list (mqev aioid pid)) : Forall is_evput ev -> compl_of a (map urq_out ev) = [].
Proof.
  induction 1 as [|e ev H _ IH]; [reflexivity|]. cbn [map]. rewrite compl_of_cons, IH, app_nil_r.
  destruct e; [destruct H|reflexivity].
Qed.
Lemma urq_get_compl (q : urq) a : mq_get_waits q = false ->
  exists m, compl_of a (map urq_out (snd (mq_get true q a))) = [(E_OK, Some m)] /\ mq_getq (fst (mq_get true q a)) = [].
Proof.
  intros EW. destruct (mq_get_nowait _ _ q a EW) as (m & q' & pre & ev & E & Hg & Hpre & Hev). rewrite E. exists m.
  cbn [fst snd]. split; [|exact Hg]. rewrite map_app, compl_of_app, (compl_of_urq_puts _ _ Hpre). cbn [map urq_out app].
  now rewrite compl_of_cons, compl_of_self, (compl_of_urq_puts _ _ Hev).
Qed.
(* a receive served by an upper read queue [q] of the state, [setq] putting the queue back: the queue decides *)
Lemma urq_recv_shape (M : pmodel) s c a (q : urq) (setq : urq -> pm_st M) :
  mq_ok q -> ~ In a (pm_busy M s) ->
  (forall nb, pm_step M s (PRecv c a nb) =
     if nb && mq_get_waits q then (s, [Complete a E_AGAIN None])
     else (setq (fst (mq_get true q a)), map urq_out (snd (mq_get true q a)))) ->
  (forall q', mq_getq q' = [] -> ~ In a (pm_busy M (setq q'))) ->
  (forall q', In a (mq_getq q') -> In a (pm_busy M (setq q'))) ->
  recv_shape M true s c a.
Proof.
  intros HR Hb E B0 B1. destruct (mq_get_waits q) eqn:EW.
  - apply RsAgain; rewrite !E, ?EW; cbn [andb fst snd]; [apply compl_of_self|exact Hb|].
    rewrite (mq_get_wait _ _ _ a HR EW). split; [reflexivity|]. apply B1. apply in_or_app. right. now left.
  - destruct (urq_get_compl q a EW) as (m & C & Hg).
    apply (RsSame E_OK (Some m)); rewrite ?E, ?EW, ?andb_false_r; cbn [fst snd]; auto with errs. split; [reflexivity|discriminate].
Qed.
Lemma urq_rv_recv (M : pmodel) s a (q : urq) (setq : urq -> pm_st M) :
  pm_step M s (PRecv None a true) =
    (if mq_get_waits q then (s, [Complete a E_AGAIN None])
     else (setq (fst (mq_get true q a)), map urq_out (snd (mq_get true q a)))) ->
  rv_recv M s a = Some (if negb (mq_get_waits q) then E_OK else E_AGAIN).
Proof.
  intros E. unfold rv_recv. rewrite E. destruct (mq_get_waits q) eqn:EW; [apply result_of_single|].
  destruct (urq_get_compl q a EW) as (m & C & _). exact (result_of_compl _ _ _ _ C).
Qed.

Section XreqClauses.
  Variable mf : mqfix.
  Hypothesis F1 : mf_nb mf = true.
  Hypothesis F3 : mf_getput mf = true.
  Notation M := (M_xreq mf).

  Lemma xreq_recv_eq s c a nb : pm_step M s (PRecv c a nb) =
    if nb && mq_get_waits (xq_urq s) then (s, [Complete a E_AGAIN None])
    else (mkXreq (xq_uwq s) (fst (mq_get true (xq_urq s) a)) (xq_sending s) (xq_ttl s) (xq_closed s),
          map urq_out (snd (mq_get true (xq_urq s) a))).
  Proof. unM M_xreq. cbn [xreq_step]. unfold nb_refused. rewrite F1, F3. now destruct (mq_get true (xq_urq s) a). Qed.
  Lemma xreq_recv_shape s c a : pm_inv M s -> pm_ok M s (PRecv c a true) -> recv_shape M true s c a.
  Proof.
    intros [_ HR] Hok.
    apply (urq_recv_shape M s c a (xq_urq s) (fun q => mkXreq (xq_uwq s) q (xq_sending s) (xq_ttl s) (xq_closed s))); auto.
    - intros nb. apply xreq_recv_eq.
    - intros q' Hg X. apply Hok. cbn in X |- *. unfold xreq_busy in *. cbn [xq_uwq xq_urq] in X.
      rewrite Hg, app_nil_r in X. apply in_or_app. now left.
    - intros q' Hg. cbn. unfold xreq_busy. apply in_or_app. now right.
  Qed.
  (* a send: the upper write queue takes it (a pipe waiting there gets it at once) or is full *)
  Lemma xreq_send_shape s c a m : pm_inv M s -> pm_ok M s (PSend c a true m) -> send_shape M true s c a m.
  Proof.
    intros [HW _] Hok. assert (Hb : ~ In a (mq_getq (xq_urq s))) by (intros X; apply Hok; apply in_or_app; now right).
    assert (E : forall nb m2, pm_step M s (PSend c a nb m2) =
              if nb && mq_put_waits (xq_uwq s) then (s, [Complete a E_AGAIN None])
              else (mkXreq (fst (mq_put (xq_uwq s) a m2)) (xq_urq s) (uwq_sent (snd (mq_put (xq_uwq s) a m2)) ++ xq_sending s)
                           (xq_ttl s) (xq_closed s), flat_map uwq_out (snd (mq_put (xq_uwq s) a m2)))).
    { intros nb m2. unM M_xreq. cbn [xreq_step]. unfold nb_refused. rewrite F1. now destruct (mq_put (xq_uwq s) a m2). }
    destruct (mq_put_waits (xq_uwq s)) eqn:EW.
    - apply SsAgain.
      + rewrite E. apply compl_of_self.
      + rewrite E. exact Hok.
      + intros m2 _. now rewrite !E.
      + rewrite E. cbn [andb fst snd]. rewrite (mq_put_wait _ _ _ a m HW EW). split; [reflexivity|].
        cbn. unfold xreq_busy. cbn [xq_uwq mq_putq]. apply in_or_app. left. rewrite map_app. apply in_or_app. right. now left.
    - apply (SsSame E_OK).
      + now rewrite !E, !andb_false_r.
      + rewrite E, andb_false_r. cbn [snd]. rewrite (mq_put_nowait _ _ _ a m EW).
        destruct (mq_getq (xq_uwq s)); cbn; now rewrite N.eqb_refl.
      + exact ok_neq_again.
      + rewrite E, andb_false_r. cbn [fst]. rewrite (mq_put_nowait _ _ _ a m EW).
        destruct (mq_getq (xq_uwq s)); exact Hb.
      + intros X. now elim X.
  Qed.
  Lemma xreq_rv_send s a m : rv_send M s a m = Some (if negb (mq_put_waits (xq_uwq s)) then E_OK else E_AGAIN).
  Proof.
    unfold rv_send. unM M_xreq. cbn [xreq_step]. unfold nb_refused. rewrite F1. cbn [negb orb andb].
    destruct (mq_put_waits (xq_uwq s)) eqn:EW; [apply result_of_single|].
    rewrite (mq_put_nowait _ _ _ a m EW). destruct (mq_getq (xq_uwq s)); cbn [snd flat_map uwq_out app].
    - apply result_of_single.
    - rewrite result_of_skip by reflexivity. apply result_of_self.
  Qed.
  Lemma xreq_mirror_r s : pm_inv M s -> mirror_r_exact_at M s /\ mirror_r_iff_at M s.
  Proof.
    intros [_ HR]. eapply mirror_r_of_rv; [cbn; now rewrite (mq_recvable_waits _ HR)|]. intros a _.
    apply (urq_rv_recv M s a (xq_urq s) (fun q => mkXreq (xq_uwq s) q (xq_sending s) (xq_ttl s) (xq_closed s))).
    apply xreq_recv_eq.
  Qed.
  Lemma xreq_mirror_w s : pm_inv M s -> mirror_w_exact_at M s /\ mirror_w_iff_at M s.
  Proof.
    intros [HW _]. eapply mirror_w_of_rv; [cbn; now rewrite (mq_sendable_waits _ HW)|]. intros a m _ _. apply xreq_rv_send.
  Qed.
End XreqClauses.

Section XreqLift.
  Variable mf : mqfix.
  Hypothesis F1 : mf_nb mf = true.
  Hypothesis F2 : mf_resize mf = true.
  Hypothesis F3 : mf_getput mf = true.
  Notation M := (M_xreq mf).

  Theorem xreq_c15_inv : C15_inv M.
  Proof. exact (reachable_ind M _ (xreq_inv_init mf) (fun s o => xreq_inv_step mf s o F2 F3)). Qed.
  Lemma xreq_c15_nb : C15_nb_immediate M /\ C15_nb_possible M /\ C15_nb_strict M.
  Proof. exact (C15_nb_of_shapes M xreq_c15_inv (xreq_send_shape mf F1) (xreq_recv_shape mf F1 F3)). Qed.
  Theorem xreq_c15_nb_immediate : C15_nb_immediate M.
  Proof. exact (proj1 xreq_c15_nb). Qed.
  Theorem xreq_c15_nb_possible : C15_nb_possible M.
  Proof. exact (proj1 (proj2 xreq_c15_nb)). Qed.
  Theorem xreq_c15_nb_strict : C15_nb_strict M.
  Proof. exact (proj2 (proj2 xreq_c15_nb)). Qed.
  Theorem xreq_c15_mirror_exact : C15_mirror_exact M.
  Proof. exact (reachable_both_of_inv M _ _ xreq_c15_inv (fun s H => proj1 (xreq_mirror_r mf F1 F3 s H)) (fun s H => proj1 (xreq_mirror_w mf F1 s H))). Qed.
  Theorem xreq_c15_mirror_iff : C15_mirror_iff M.
  Proof. exact (reachable_both_of_inv M _ _ xreq_c15_inv (fun s H => proj2 (xreq_mirror_r mf F1 F3 s H)) (fun s H => proj2 (xreq_mirror_w mf F1 s H))). Qed.
  Theorem xreq_c15_mirror : C15_mirror M.
  Proof. exact (C15_mirror_of_exact M xreq_c15_mirror_exact). Qed.
End XreqLift.

Definition xreq_okb (s : xreq) (o : pop) : bool :=
  match o with PSend _ a _ _ | PRecv _ a _ => negb (has_id a (xreq_busy s)) | _ => true end.
Lemma xreq_okb_sound mf s o : xreq_okb s o = true -> pm_ok (M_xreq mf) s o.
Proof.
  unM M_xreq. destruct o; cbn [xreq_okb xreq_ok]; try (intros; exact I); intros H; apply negb_true_iff in H; now apply has_id_false.
Qed.
Definition xreq_reach mf ops := reachable_okb (M_xreq mf) xreq_okb (xreq_okb_sound mf) ops.

(* a message with a request id (high bit set) as its header and one byte of body *)
Definition xm (id b : N) : pmsg := mkPmsg (be32 id) [b].
(* without the repair mf_getput: a pipe takes a buffered message, there is room, a writer still waits *)
Definition w_xreq_getput : list pop :=
  [PSetOpt None (OSendBuf 2); PSend None 1%N false (xm 2147483649 5); PSend None 2%N false (xm 2147483650 6);
   PSend None 3%N false (xm 2147483651 7); PPipeStart 1%N PROTO_REP].
Theorem xreq_c15_mirror_refuted_without_getput : ~ C15_mirror (M_xreq (mkMqfix true true false)).
Proof.
  set (mf := mkMqfix true true false).
  intros H. destruct (H _ (xreq_reach mf w_xreq_getput eq_refl)) as [_ Hw].
  assert (Hok : pm_ok (M_xreq mf) (prun (M_xreq mf) (pm_init (M_xreq mf)) w_xreq_getput) (PSend None 9%N true (xm 2147483652 8))).
  { apply xreq_okb_sound. reflexivity. }
  specialize (Hw 9%N (xm 2147483652 8) Hok eq_refl). vm_compute in Hw. destruct Hw as [_ Hw].
  apply (Hw eq_refl). reflexivity.
Qed.
Example xreq_reachable_raised : exists s, reachable (M_xreq mf_repaired) s /\ poll_w (pm_poll (M_xreq mf_repaired) s) = Some true.
Proof. eexists. split; [exact (xreq_reach mf_repaired [PPipeStart 1%N PROTO_REP] eq_refl)|reflexivity]. Qed.
Example xreq_reachable_lowered : reachable (M_xreq mf_repaired) xreq_init /\ poll_w (pm_poll (M_xreq mf_repaired) xreq_init) = Some false.
Proof. split; [apply (reachable_init (M_xreq mf_repaired))|reflexivity]. Qed.
Example xreq_reachable_readable : exists s, reachable (M_xreq mf_repaired) s /\ poll_r (pm_poll (M_xreq mf_repaired) s) = Some true.
Proof.
  eexists. split; [exact (xreq_reach mf_repaired [PPipeStart 1%N PROTO_REP; PRecvDone 1%N 0%N (mkPmsg [] (be32 2147483649 ++ [7%N]))] eq_refl)|reflexivity].
Qed.

Definition xrep_busy (s : xrep) : list aioid := mq_getq (xp_urq s).
Definition xrep_ok (s : xrep) (o : pop) : Prop :=
  match o with PSend _ a _ _ | PRecv _ a _ => ~ In a (xrep_busy s) | _ => True end.
Definition xrep_inv (s : xrep) : Prop := mq_ok (xp_urq s) /\ xp_closed s = false.
Definition M_xrep (mf : mqfix) : pmodel :=
  mkPM xrep xrep_init (xrep_step mf) xrep_poll xrep_ok xrep_inv xrep_busy (fun _ => true).

Lemma xrep_route_frame s m :
  xp_urq (fst (xrep_route s m)) = xp_urq s /\ xp_closed (fst (xrep_route s m)) = xp_closed s /\
  forall a, compl_of a (snd (xrep_route s m)) = [].
Proof.
  unfold xrep_route. destruct (xrep_send m) as [[p m']|]; [|repeat split].
  destruct (negb (has_id p (xp_pipes s))); [repeat split|]. destruct (has_id p (xp_idle s)); [repeat split|].
  destruct (pipe_qlen s p <? XREP_PIPE_SENDQ_CAP); repeat split.
Qed.
Lemma xrep_inv_init mf : pm_inv (M_xrep mf) (pm_init (M_xrep mf)).
Proof. unM M_xrep. split; [split; now left|reflexivity]. Qed.
Lemma xrep_inv_step mf s o : mf_resize mf = true -> mf_getput mf = true ->
  pm_inv (M_xrep mf) s -> pm_ok (M_xrep mf) s o -> o <> PSockClose -> pm_inv (M_xrep mf) (fst (pm_step (M_xrep mf) s o)).
Proof.
  intros F2 F3. unM M_xrep. intros [HR HC] _ Hnc. unfold xrep_inv.
  destruct o; cbn [xrep_step]; rewrite ?F2, ?F3; try (split; assumption).
  - destruct (nb_refused mf nb false); [split; assumption|].
    destruct (xrep_route_frame s m) as (A & B & _). rewrite fst_let. cbn [fst]. rewrite A, B. split; assumption.
  - destruct (nb_refused mf nb _); [split; assumption|]. rewrite fst_let. split; [apply mq_get_ok|assumption].
  - cbv zeta. destruct (has_id a (mq_getq (xp_urq s))); cbn [fst xp_urq xp_closed xp_set_urq]; [|split; assumption].
    split; [apply mq_ok_del_get|]; assumption.
  - destruct (negb (peer =? PROTO_REQ)%N); split; assumption.
  - split; [apply mq_ok_del_put|]; assumption.
  - cbv zeta. destruct (negb (rv =? 0)%N); [split; assumption|]. destruct (first_msg p (xp_sendq s)); split; assumption.
  - destruct (negb (rv =? 0)%N); [split; assumption|]. destruct (xrep_recv p (xp_ttl s) (pm_body m)) as [m'| |]; try (split; assumption).
    rewrite fst_let. split; [apply mq_put_ok|]; assumption.
  - destruct c; [split; assumption|]. destruct o; try (split; assumption); brk1; try (split; assumption).
    rewrite !fst_let. split; [apply mq_resize_ok|]; assumption.
  - contradiction.
Qed.

Section XrepClauses.
  Variable mf : mqfix.
  Hypothesis F1 : mf_nb mf = true.
  Hypothesis F3 : mf_getput mf = true.
  Notation M := (M_xrep mf).

  Lemma xrep_recv_eq s c a nb : pm_step M s (PRecv c a nb) =
    if nb && mq_get_waits (xp_urq s) then (s, [Complete a E_AGAIN None])
    else (xp_set_urq s (fst (mq_get true (xp_urq s) a)), map urq_out (snd (mq_get true (xp_urq s) a))).
  Proof. unM M_xrep. cbn [xrep_step]. unfold nb_refused. rewrite F1, F3. now destruct (mq_get true (xp_urq s) a). Qed.
  Lemma xrep_recv_shape s c a : pm_inv M s -> pm_ok M s (PRecv c a true) -> recv_shape M true s c a.
  Proof.
    intros [HR _] Hok. apply (urq_recv_shape M s c a (xp_urq s) (xp_set_urq s)); auto.
    - intros nb. apply xrep_recv_eq.
    - intros q' Hg. cbn. unfold xrep_busy. cbn [xp_urq xp_set_urq]. now rewrite Hg.
  Qed.
  (* a send never waits: the message is routed (or dropped) and the aio completes *)
  Lemma xrep_send_shape s c a m : pm_ok M s (PSend c a true m) -> send_shape M true s c a m.
  Proof.
    intros Hok. destruct (xrep_route_frame s m) as (A & _ & C).
    assert (E : forall nb, pm_step M s (PSend c a nb m) = (fst (xrep_route s m), Complete a E_OK None :: snd (xrep_route s m))).
    { intros nb. unM M_xrep. cbn [xrep_step]. unfold nb_refused. rewrite F1, andb_false_r. now destruct (xrep_route s m). }
    apply (SsSame E_OK).
    - now rewrite !E.
    - rewrite E. cbn [snd]. now rewrite compl_of_cons, compl_of_self, C.
    - exact ok_neq_again.
    - rewrite E. cbn [fst]. unM M_xrep. unfold xrep_busy in *. now rewrite A.
    - intros X. now elim X.
  Qed.
  Lemma xrep_rv_send s a m : rv_send M s a m = Some E_OK.
  Proof.
    unfold rv_send. cbn. unfold nb_refused. rewrite F1. cbn. destruct (xrep_route s m) as [s1 o1]. apply result_of_self.
  Qed.
  Lemma xrep_mirror_r s : pm_inv M s -> mirror_r_exact_at M s /\ mirror_r_iff_at M s.
  Proof.
    intros [HR _]. eapply mirror_r_of_rv; [cbn; now rewrite (mq_recvable_waits _ HR)|]. intros a _.
    apply (urq_rv_recv M s a (xp_urq s) (xp_set_urq s)). apply xrep_recv_eq.
  Qed.
  Lemma xrep_mirror_w s : pm_inv M s -> mirror_w_exact_at M s /\ mirror_w_iff_at M s.
  Proof. intros [_ HC]. apply (mirror_w_of_rv M s true); [cbn; now rewrite HC|]. intros a m _ _. apply xrep_rv_send. Qed.
End XrepClauses.

Section XrepLift.
  Variable mf : mqfix.
  Hypothesis F1 : mf_nb mf = true.
  Hypothesis F2 : mf_resize mf = true.
  Hypothesis F3 : mf_getput mf = true.
  Notation M := (M_xrep mf).

  Theorem xrep_c15_inv : C15_inv M.
  Proof. exact (reachable_ind M _ (xrep_inv_init mf) (fun s o => xrep_inv_step mf s o F2 F3)). Qed.
  Lemma xrep_c15_nb : C15_nb_immediate M /\ C15_nb_possible M /\ C15_nb_strict M.
  Proof. exact (C15_nb_of_shapes M xrep_c15_inv (fun s c a m _ => xrep_send_shape mf F1 s c a m) (xrep_recv_shape mf F1 F3)). Qed.
  Theorem xrep_c15_nb_immediate : C15_nb_immediate M.
  Proof. exact (proj1 xrep_c15_nb). Qed.
  Theorem xrep_c15_nb_possible : C15_nb_possible M.
  Proof. exact (proj1 (proj2 xrep_c15_nb)). Qed.
  Theorem xrep_c15_nb_strict : C15_nb_strict M.
  Proof. exact (proj2 (proj2 xrep_c15_nb)). Qed.
  Theorem xrep_c15_mirror_exact : C15_mirror_exact M.
  Proof. exact (reachable_both_of_inv M _ _ xrep_c15_inv (fun s H => proj1 (xrep_mirror_r mf F1 F3 s H)) (fun s H => proj1 (xrep_mirror_w mf F1 s H))). Qed.
  Theorem xrep_c15_mirror_iff : C15_mirror_iff M.
  Proof. exact (reachable_both_of_inv M _ _ xrep_c15_inv (fun s H => proj2 (xrep_mirror_r mf F1 F3 s H)) (fun s H => proj2 (xrep_mirror_w mf F1 s H))). Qed.
  Theorem xrep_c15_mirror : C15_mirror M.
  Proof. exact (C15_mirror_of_exact M xrep_c15_mirror_exact). Qed.
End XrepLift.

Definition xrep_okb (s : xrep) (o : pop) : bool :=
  match o with PSend _ a _ _ | PRecv _ a _ => negb (has_id a (xrep_busy s)) | _ => true end.
Lemma xrep_okb_sound mf s o : xrep_okb s o = true -> pm_ok (M_xrep mf) s o.
Proof.
  unM M_xrep. destruct o; cbn [xrep_okb xrep_ok]; try (intros; exact I); intros H; apply negb_true_iff in H; now apply has_id_false.
Qed.
Definition xrep_reach mf ops := reachable_okb (M_xrep mf) xrep_okb (xrep_okb_sound mf) ops.
Example xrep_reachable_readable : exists s, reachable (M_xrep mf_repaired) s /\ poll_r (pm_poll (M_xrep mf_repaired) s) = Some true.
Proof.
  eexists. split; [exact (xrep_reach mf_repaired [PPipeStart 1%N PROTO_REQ; PRecvDone 1%N 0%N (mkPmsg [] (be32 2147483649 ++ [7%N]))] eq_refl)|reflexivity].
Qed.
Example xrep_reachable_lowered : reachable (M_xrep mf_repaired) xrep_init /\ poll_r (pm_poll (M_xrep mf_repaired) xrep_init) = Some false.
Proof. split; [apply (reachable_init (M_xrep mf_repaired))|reflexivity]. Qed.

Theorem rep_c15_mirror_repaired : C15_mirror (M_rep pf_repaired).
Proof. apply rep_c15_mirror; reflexivity. Qed.
Theorem rep_c15_inv_repaired : C15_inv (M_rep pf_repaired).
Proof. apply rep_c15_inv; reflexivity. Qed.
Theorem xreq_c15_mirror_exact_repaired : C15_mirror_exact (M_xreq mf_repaired).
Proof. apply xreq_c15_mirror_exact; reflexivity. Qed.
Theorem xrep_c15_mirror_exact_repaired : C15_mirror_exact (M_xrep mf_repaired).
Proof. apply xrep_c15_mirror_exact; reflexivity. Qed.
