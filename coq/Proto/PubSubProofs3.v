(* PubSubProofs3: PUB (send never blocks, fan-out, per-pipe FIFO, drop-oldest,
   conservation), raw SUB (no filtering, through the upper read queue,
   non-blocking receive and the descriptor, conservation; stated per step only), and at the
   end the theorems about SUB histories that follow from PubSubProofs.sub_run_inv. *)
From Coq Require Import List Arith NArith Bool Lia.
From NngV Require Import Proto.Common Proto.PushProofs Proto.SubModel Proto.PubModel Proto.XsubModel
  Proto.KeyedList Proto.PubSubProofs Proto.PubSubProofs2.
From NngV Require Base.ListX.
Import ListNotations.

(* shadows PushProofs.simp_p (PUSH's projections) in this file and in those that import it last *)
Ltac simp_p := cbn [pp_id pp_closed pp_busy pp_q pp_cap pp_tx pb_pipes pb_sendbuf] in *.
Ltac simp_x := cbn [xs_q xs_cap xs_rq xs_closed xs_recvable run_notify] in *.

(* a send completes in the same step with success, whatever the flags; the state has no
   place where a user aio could wait *)
Theorem pub_send_immediate s c a nb m :
  exists pre, pub_step s (PSend c a nb m) =
    (mkPub (map (fun p => fst (pipe_send p m)) (pb_pipes s)) (pb_sendbuf s), pre ++ [Free m; Complete a E_OK None]) /\
    (forall a' rv x, ~ In (Complete a' rv x) pre) /\
    pub_step s (PSend c a true m) = pub_step s (PSend c a false m).
Proof.
  exists (flat_map snd (map (fun p => pipe_send p m) (pb_pipes s))). cbn [pub_step]. rewrite map_map. repeat split; auto.
  intros a' rv x Hin. apply in_flat_map in Hin as (y & Hy & Hin). apply in_map_iff in Hy as (p & <- & _).
  unfold pipe_send in Hin. destruct (pp_closed p); [destruct Hin|]. destruct (pp_busy p); [destruct (pq_full p); [destruct (pp_q p)|]|];
    cbn in Hin; try tauto; destruct Hin as [Hin|[]]; discriminate.
Qed.

(* what a send does to one pipe, in the property's words *)
Definition fanout_spec (p : ppipe) (m : pmsg) (p' : ppipe) (o : list pout) : Prop :=
  (pp_closed p = true -> p' = p /\ o = []) /\
  (pp_closed p = false -> pp_busy p = false ->
     p' = mkPpipe (pp_id p) false true (pp_q p) (pp_cap p) (Some m) /\ o = [TranSend (pp_id p) m]) /\
  (pp_closed p = false -> pp_busy p = true -> length (pp_q p) < pp_cap p ->
     p' = mkPpipe (pp_id p) false true (pp_q p ++ [m]) (pp_cap p) (pp_tx p) /\ o = []) /\
  (pp_closed p = false -> pp_busy p = true -> pp_cap p <= length (pp_q p) -> forall old r, pp_q p = old :: r ->
     p' = mkPpipe (pp_id p) false true (r ++ [m]) (pp_cap p) (pp_tx p) /\ o = [Free old]).
Theorem pub_fanout_law p m : fanout_spec p m (fst (pipe_send p m)) (snd (pipe_send p m)).
Proof.
  unfold fanout_spec, pipe_send, pq_full. repeat split; intros.
  - now rewrite H.
  - now rewrite H.
  - now rewrite H, H0.
  - now rewrite H, H0.
  - rewrite H, H0. apply Nat.leb_gt in H1. now rewrite H1.
  - rewrite H, H0. apply Nat.leb_gt in H1. now rewrite H1.
  - rewrite H, H0. apply Nat.leb_le in H1. now rewrite H1, H2.
  - rewrite H, H0. apply Nat.leb_le in H1. now rewrite H1, H2.
Qed.

Definition pipe_ok (p : ppipe) : Prop :=
  (pp_busy p = false -> pp_q p = [] /\ pp_tx p = None) /\ length (pp_q p) <= pp_cap p /\ 1 <= pp_cap p /\
  (pp_closed p = true -> pp_q p = []).
Definition PubInv (s : pub) : Prop :=
  Forall pipe_ok (pb_pipes s) /\ NoDup (map pp_id (pb_pipes s)) /\ 1 <= pb_sendbuf s.
Definition pub_op_ok (s : pub) (o : pop) : Prop :=
  match o with PPipeStart p _ => ~ In p (map pp_id (pb_pipes s)) | _ => True end.

(* find_pipe / upd_pipe are findk / updk over pp_id *)
Lemma find_pipe_some id l p : find_pipe id l = Some p -> In p l /\ pp_id p = id.
Proof. apply (findk_some pp_id _ N.eqb_eq). Qed.
Lemma upd_pipe_ids id f l : (forall p, pp_id (f p) = pp_id p) -> map pp_id (upd_pipe id f l) = map pp_id l.
Proof. apply updk_keys. Qed.
Lemma find_upd_pipe p id f l : (forall y, pp_id (f y) = pp_id y) ->
  find_pipe p (upd_pipe id f l) = if N.eqb p id then option_map f (find_pipe p l) else find_pipe p l.
Proof. apply (findk_updk pp_id _ N.eqb_eq). Qed.
Lemma pipe_split id l x : NoDup (map pp_id l) -> find_pipe id l = Some x ->
  exists l1 l2, l = l1 ++ x :: l2 /\ forall f, upd_pipe id f l = l1 ++ f x :: l2.
Proof. intros ND F. destruct (findk_split pp_id _ N.eqb_eq _ _ _ ND F) as (l1 & l2 & E & U & _). eauto. Qed.
Lemma forall_upd_pipe id f l x : NoDup (map pp_id l) -> find_pipe id l = Some x ->
  Forall pipe_ok l -> (pipe_ok x -> pipe_ok (f x)) -> Forall pipe_ok (upd_pipe id f l).
Proof. apply (Forall_updk pp_id _ N.eqb_eq). Qed.
Lemma pipe_send_ok p m : pipe_ok p -> pipe_ok (fst (pipe_send p m)).
Proof.
  intros (A & B & C & D). unfold pipe_send, pq_full. destruct (pp_closed p) eqn:CL.
  { cbn [fst]. unfold pipe_ok. rewrite CL. auto. }
  destruct (pp_busy p) eqn:BS.
  - destruct (pp_cap p <=? length (pp_q p)) eqn:L.
    + destruct (pp_q p) as [|old r] eqn:Q; cbn [fst]; unfold pipe_ok; simp_p.
      * rewrite Q, BS, CL. split; [discriminate|]. split; [cbn; lia|]. split; [lia|discriminate].
      * split; [discriminate|]. split; [|split; [lia|discriminate]]. cbn in B. rewrite app_length. cbn. lia.
    + apply Nat.leb_gt in L. cbn [fst]. unfold pipe_ok. simp_p.
      split; [discriminate|]. split; [|split; [lia|discriminate]]. rewrite app_length. cbn. lia.
  - cbn [fst]. unfold pipe_ok. simp_p. destruct (A eq_refl) as [Q _]. rewrite Q in *.
    split; [discriminate|]. split; [cbn; lia|]. split; [lia|discriminate].
Qed.
Lemma pipe_send_id p m : pp_id (fst (pipe_send p m)) = pp_id p.
Proof. unfold pipe_send. destruct (pp_closed p); auto. destruct (pp_busy p); auto. destruct (pq_full p); auto. destruct (pp_q p); auto. Qed.

(* what the completion of a pipe's send does to that pipe (pub0_pipe_send_cb) *)
Definition pipe_sent (x : ppipe) (rv : N) : ppipe * list pout :=
  if negb (N.eqb rv 0) then
    (mkPpipe (pp_id x) (pp_closed x) (pp_busy x) (pp_q x) (pp_cap x) None,
     (match pp_tx x with Some m => [Free m] | None => [] end) ++ [ClosePipe (pp_id x)])
  else if pp_closed x then (mkPpipe (pp_id x) true (pp_busy x) (pp_q x) (pp_cap x) None, [])
  else match pp_q x with
       | m :: r => (mkPpipe (pp_id x) false true r (pp_cap x) (Some m), [TranSend (pp_id x) m])
       | [] => (mkPpipe (pp_id x) false false [] (pp_cap x) None, [])
       end.
Lemma pub_send_done s q rv x : find_pipe q (pb_pipes s) = Some x ->
  exists f, pub_step s (PSendDone q rv) = (mkPub (upd_pipe q f (pb_pipes s)) (pb_sendbuf s), snd (pipe_sent x rv)) /\
    (forall y, pp_id (f y) = pp_id y) /\ f x = fst (pipe_sent x rv).
Proof.
  intros F. pose proof (find_pipe_some _ _ _ F) as [_ <-]. cbn [pub_step]. rewrite F. unfold pipe_sent.
  destruct (negb _); [|destruct (pp_closed x); [|destruct (pp_q x)]]; eexists; (split; [reflexivity|]); split; auto.
Qed.
Lemma pipe_sent_ok x rv : pipe_ok x -> pipe_ok (fst (pipe_sent x rv)).
Proof.
  intros (A & B & C & D). unfold pipe_sent, pipe_ok.
  destruct (negb _); [|destruct (pp_closed x) eqn:CL; [|destruct (pp_q x) eqn:Q]]; cbn [fst]; simp_p.
  - split; [intros E; destruct (A E); auto|]. auto.
  - split; [intros E; destruct (A E); auto|]. auto.
  - split; [auto|]. split; [cbn; lia|]. split; [lia|auto].
  - split; [discriminate|]. split; [cbn in B; lia|]. split; [lia|discriminate].
Qed.

Theorem pub_step_inv s o s' outs : PubInv s -> pub_op_ok s o -> pub_step s o = (s', outs) -> PubInv s'.
Proof.
  intros (I1 & I2 & I3) Hok H. unfold PubInv.
  destruct o as [k a nb m|k a nb|a rv|p peer|p|p rv|p rv m|k op|k|k| |now]; cbn [pub_step pub_op_ok] in *;
    try (injection H as <- <-; simp_p; auto; fail).
  - injection H as <- <-; simp_p. repeat split; auto.
    + apply Forall_forall. intros p' Hin. rewrite map_map in Hin. apply in_map_iff in Hin as (p & <- & Hin). apply pipe_send_ok.
      eapply Forall_forall; eauto.
    + rewrite !map_map. erewrite map_ext; [exact I2|]. intros p. apply pipe_send_id.
  - destruct (negb _); injection H as <- <-; simp_p; auto. repeat split; auto.
    + apply Forall_app. split; auto. constructor; [|constructor]. unfold pipe_ok. simp_p. repeat split; auto; try discriminate; cbn; lia.
    + rewrite map_app. cbn. now apply ListX.nodup_snoc.
  - destruct (find_pipe p (pb_pipes s)) as [x|] eqn:F; injection H as <- <-; simp_p; auto. repeat split; auto.
    + eapply forall_upd_pipe; eauto. intros (A & B & C & D). unfold pipe_ok. simp_p.
      split; [intros E; destruct (A E); auto|]. split; [cbn; lia|]. split; auto.
    + rewrite upd_pipe_ids; auto.
  - destruct (find_pipe p (pb_pipes s)) as [x|] eqn:F; [|injection H as <- <-; auto].
    destruct (pub_send_done s p rv x F) as (f & E & Hf & Fx). cbn [pub_step] in E. rewrite F, H in E.
    injection E as -> _. simp_p. repeat split; auto.
    + eapply forall_upd_pipe; eauto. rewrite Fx. apply pipe_sent_ok.
    + rewrite upd_pipe_ids; auto.
  - destruct k; [injection H as <- <-; auto|]. destruct op; try (injection H as <- <-; auto; fail).
    + destruct (_ || _) eqn:R; injection H as <- <-; simp_p; auto.
      apply orb_false_iff in R as [R1 R2]. apply N.ltb_ge in R1. unfold PUB_SENDBUF_MIN in R1.
      repeat split; auto; try lia.
      * apply Forall_forall. intros p' Hin. apply in_map_iff in Hin as (p & <- & Hin).
        pose proof (proj1 (Forall_forall _ _) I1 p Hin) as OK. destruct (pp_closed p) eqn:CL; [exact OK|]. destruct OK as (A & B & C & D).
        unfold pipe_ok. simp_p.
        split; [intros E; destruct (A E) as [Q T]; rewrite Q, firstn_nil; auto|].
        split; [rewrite firstn_length; lia|]. split; [lia|discriminate].
      * rewrite map_map. erewrite map_ext; [exact I2|]. intros p. destruct (pp_closed p); auto.
    + destruct (_ <? _)%N; injection H as <- <-; auto.
Qed.

Lemma pub_init_inv : PubInv pub_init.
Proof. unfold PubInv, pub_init. simp_p. repeat split; try constructor. unfold PUB_DEFAULT_SENDBUF. lia. Qed.

(* per-pipe FIFO: what a pipe's transport is handed, followed by what the pipe still
   queues, is a subsequence of what it queued followed by what the application sent *)
Fixpoint txs_on (p : pid) (outs : list pout) : list pmsg :=
  match outs with
  | [] => []
  | TranSend q m :: r => if N.eqb q p then m :: txs_on p r else txs_on p r
  | _ :: r => txs_on p r
  end.
Lemma txs_on_app p a b : txs_on p (a ++ b) = txs_on p a ++ txs_on p b.
Proof. induction a as [|[] a IH]; cbn; rewrite ?IH; auto. destruct (_ =? _)%N; cbn; now rewrite ?IH. Qed.
Lemma txs_on_map_Free p l : txs_on p (map Free l) = [].
Proof. induction l; cbn; auto. Qed.
Definition q_of (p : pid) (s : pub) : list pmsg := match find_pipe p (pb_pipes s) with Some x => pp_q x | None => [] end.
Definition sent_by_app (o : pop) : list pmsg := match o with PSend _ _ _ m => [m] | _ => [] end.

Lemma pipe_send_txs_other x m p : pp_id x <> p -> txs_on p (snd (pipe_send x m)) = [].
Proof.
  intros E. unfold pipe_send. destruct (pp_closed x); [reflexivity|]. destruct (pp_busy x); [destruct (pq_full x); [destruct (pp_q x)|]|]; cbn; auto.
  destruct (N.eqb_spec (pp_id x) p); [contradiction|reflexivity].
Qed.
Lemma txs_on_other p (l : list ppipe) (m : pmsg) :
  ~ In p (map pp_id l) -> txs_on p (flat_map snd (map (fun x => pipe_send x m) l)) = [].
Proof.
  induction l as [|x l IH]; cbn [map flat_map]; intros Hn; [reflexivity|].
  rewrite txs_on_app, IH, pipe_send_txs_other; auto; intros E; apply Hn; [now left|now right].
Qed.
Lemma pipe_send_fifo x m : pipe_ok x ->
  Sublist (txs_on (pp_id x) (snd (pipe_send x m)) ++ pp_q (fst (pipe_send x m))) (pp_q x ++ [m]).
Proof.
  intros (A & B & C & D). unfold pipe_send, pq_full. destruct (pp_closed x) eqn:CL; [cbn; rewrite (D eq_refl); constructor|].
  destruct (pp_busy x) eqn:BS.
  - destruct (pp_cap x <=? length (pp_q x)).
    + destruct (pp_q x) as [|old r] eqn:Q; cbn [fst snd txs_on app]; simp_p; [rewrite Q; constructor|]. cbn. constructor. apply sl_refl.
    + cbn [fst snd txs_on app]. simp_p. apply sl_refl.
  - cbn [fst snd txs_on]. rewrite N.eqb_refl. simp_p. destruct (A eq_refl) as [Q _]. rewrite Q. cbn. apply sl_refl.
Qed.

(* one pipe is rewritten by f and the application sends nothing *)
Lemma fifo_upd p s s' id x f outs :
  find_pipe id (pb_pipes s) = Some x -> pb_pipes s' = upd_pipe id f (pb_pipes s) -> (forall y, pp_id (f y) = pp_id y) ->
  Sublist (txs_on id outs ++ pp_q (f x)) (pp_q x) -> (p <> id -> txs_on p outs = []) ->
  Sublist (txs_on p outs ++ q_of p s') (q_of p s ++ []).
Proof.
  intros F E Hf HS HO. unfold q_of. rewrite E, find_upd_pipe, app_nil_r by auto. destruct (N.eqb_spec p id) as [->|N].
  - rewrite F. exact HS.
  - rewrite HO by auto. apply sl_refl.
Qed.
Lemma pipe_sent_fifo x rv p :
  Sublist (txs_on (pp_id x) (snd (pipe_sent x rv)) ++ pp_q (fst (pipe_sent x rv))) (pp_q x) /\
  (p <> pp_id x -> txs_on p (snd (pipe_sent x rv)) = []).
Proof.
  unfold pipe_sent. destruct (negb _); [|destruct (pp_closed x); [|destruct (pp_q x)]]; cbn [fst snd]; simp_p.
  - destruct (pp_tx x); cbn; split; auto; apply sl_refl.
  - cbn. split; auto; apply sl_refl.
  - cbn. split; auto; constructor.
  - cbn. rewrite N.eqb_refl. split; [apply sl_refl|]. intros N. apply not_eq_sym, N.eqb_neq in N. now rewrite N.
Qed.

Theorem pub_pipe_fifo_step s o s' outs p :
  PubInv s -> pub_step s o = (s', outs) -> (forall peer, o <> PPipeStart p peer) ->
  Sublist (txs_on p outs ++ q_of p s') (q_of p s ++ sent_by_app o).
Proof.
  intros (I1 & I2 & I3) H Hns.
  assert (SAME: pb_pipes s' = pb_pipes s -> txs_on p outs = [] -> Sublist (txs_on p outs ++ q_of p s') (q_of p s ++ sent_by_app o)).
  { intros E1 E2. unfold q_of. rewrite E1, E2. apply sl_prefix. }
  destruct o as [k a nb m|k a nb|a rv|q peer|q|q rv|q rv m|k op|k|k| |now]; cbn [pub_step sent_by_app] in *;
    try (injection H as <- <-; apply SAME; reflexivity).
  - injection H as <- <-. unfold q_of. simp_p. rewrite txs_on_app. cbn [txs_on]. rewrite app_nil_r.
    clear SAME Hns. revert I1 I2. generalize (pb_pipes s). intros l I1 I2. unfold find_pipe.
    induction l as [|x l IH]; cbn [map flat_map find fst snd]; [constructor|].
    inversion I1; subst. inversion I2; subst. rewrite pipe_send_id. rewrite txs_on_app.
    destruct (N.eqb_spec (pp_id x) p) as [E|E].
    + rewrite txs_on_other by (rewrite <- E; auto). rewrite app_nil_r, <- E. now apply pipe_send_fifo.
    + rewrite pipe_send_txs_other by auto. apply IH; auto.
  - destruct (negb _); injection H as <- <-; [apply SAME; reflexivity|]. unfold q_of. simp_p. cbn [txs_on app]. rewrite app_nil_r.
    assert (E: find_pipe p (pb_pipes s ++ [mkPpipe q false false [] (pb_sendbuf s) None]) = find_pipe p (pb_pipes s) \/
               (find_pipe p (pb_pipes s) = None /\ find_pipe p (pb_pipes s ++ [mkPpipe q false false [] (pb_sendbuf s) None]) = Some (mkPpipe q false false [] (pb_sendbuf s) None))).
    { unfold find_pipe. clear. induction (pb_pipes s) as [|x l IH]; cbn [app find pp_id].
      - destruct (q =? p)%N; auto.
      - destruct (pp_id x =? p)%N; auto. }
    destruct E as [E|[E1 E2]]; [rewrite E; apply sl_refl|rewrite E1, E2; constructor].
  - destruct (find_pipe q (pb_pipes s)) as [x|] eqn:F; injection H as <- <-; [|apply SAME; reflexivity].
    eapply fifo_upd; [exact F|reflexivity|auto|simp_p; rewrite txs_on_map_Free; constructor|intros; apply txs_on_map_Free].
  - destruct (find_pipe q (pb_pipes s)) as [x|] eqn:F; [|injection H as <- <-; apply SAME; reflexivity].
    destruct (pub_send_done s q rv x F) as (f & E & Hf & Fx). cbn [pub_step] in E. rewrite F, H in E. injection E as -> ->.
    pose proof (find_pipe_some _ _ _ F) as [_ <-]. destruct (pipe_sent_fifo x rv p) as [S O].
    eapply fifo_upd; [exact F|reflexivity|auto|now rewrite Fx|auto].
  - injection H as <- <-. apply SAME; auto. destruct (rv =? 0)%N; reflexivity.
  - destruct k; [injection H as <- <-; apply SAME; reflexivity|]. destruct op; try (injection H as <- <-; apply SAME; reflexivity).
    + destruct (_ || _); injection H as <- <-; [apply SAME; reflexivity|]. unfold q_of. simp_p. rewrite txs_on_app, txs_on_map_Free. cbn [txs_on app]. rewrite app_nil_r.
      unfold find_pipe. clear. induction (pb_pipes s) as [|x l IH]; cbn [map find]; [constructor|].
      destruct (pp_closed x) eqn:CL.
      * destruct (pp_id x =? p)%N; [apply sl_refl|exact IH].
      * simp_p. destruct (pp_id x =? p)%N; [simp_p; apply sl_firstn|exact IH].
    + destruct (_ <? _)%N; injection H as <- <-; apply SAME; reflexivity.
Qed.

(* conservation: owned + accepted (or received) + clones = owned' + taken by the transports + freed *)
Definition pheld (p : ppipe) : list pmsg := pp_q p ++ match pp_tx p with Some m => [m] | None => [] end.
Definition pub_owned (s : pub) : list pmsg := flat_map pheld (pb_pipes s).
Definition nopen (s : pub) : nat := length (filter (fun p => negb (pp_closed p)) (pb_pipes s)).
Definition pub_in (s : pub) (o : pop) : list pmsg :=
  match o with
  | PSend _ _ _ m => m :: repeat m (nopen s)                 (* the caller's message and one nni_msg_clone per open pipe *)
  | PRecvDone _ rv m => if N.eqb rv 0 then [m] else []
  | _ => []
  end.
Definition pub_wire (s : pub) (o : pop) : list pmsg :=
  match o with
  | PSendDone p rv => if N.eqb rv 0 then match find_pipe p (pb_pipes s) with Some x => match pp_tx x with Some m => [m] | None => [] end | None => [] end else []
  | _ => []
  end.

Lemma pheld_upd id f l x y : NoDup (map pp_id l) -> find_pipe id l = Some x ->
  cnt y (flat_map pheld (upd_pipe id f l)) + cnt y (pheld x) = cnt y (flat_map pheld l) + cnt y (pheld (f x)).
Proof.
  intros ND F. destruct (pipe_split _ _ _ ND F) as (l1 & l2 & -> & U). rewrite U, !flat_map_app. cbn [flat_map]. cnt_simp. lia.
Qed.

Lemma pipe_send_cnt p m y : pipe_ok p ->
  cnt y (pheld p) + (if pp_closed p then 0 else cnt y [m]) = cnt y (pheld (fst (pipe_send p m))) + cnt y (freed (snd (pipe_send p m))).
Proof.
  intros (A & _). unfold pipe_send, pheld. destruct (pp_closed p); [cbn [fst snd freed]; cnt_simp; lia|].
  destruct (pp_busy p) eqn:BS.
  - destruct (pq_full p).
    + destruct (pp_q p) eqn:Q; cbn [fst snd freed]; simp_p; rewrite ?Q; cnt_simp; lia.
    + cbn [fst snd freed]. simp_p. cnt_simp. lia.
  - cbn [fst snd freed]. simp_p. destruct (A eq_refl) as [Q T]. rewrite Q, T. cnt_simp. lia.
Qed.

Lemma pipe_sent_cnt x rv y :
  cnt y (pheld x) = cnt y (pheld (fst (pipe_sent x rv))) +
                    cnt y (if N.eqb rv 0 then match pp_tx x with Some m => [m] | None => [] end else []) + cnt y (freed (snd (pipe_sent x rv))).
Proof.
  unfold pipe_sent, pheld. destruct (N.eqb_spec rv 0); cbn [negb].
  - destruct (pp_closed x); [|destruct (pp_q x) as [|m r]]; cbn [fst snd freed]; simp_p.
    all: destruct (pp_tx x); cnt_simp; lia.
  - cbn [fst snd]. simp_p. rewrite freed_app. destruct (pp_tx x); cbn [freed]; cnt_simp; lia.
Qed.

Lemma fanout_sum l m y : Forall pipe_ok l ->
  cnt y (flat_map pheld l) + length (filter (fun p => negb (pp_closed p)) l) * cnt y [m] =
  cnt y (flat_map pheld (map fst (map (fun p => pipe_send p m) l))) + cnt y (freed (flat_map snd (map (fun p => pipe_send p m) l))).
Proof.
  induction l as [|p l IH]; intros HF; cbn [flat_map map filter]; [reflexivity|]. inversion HF; subst.
  specialize (IH H2). pose proof (pipe_send_cnt p m y H1) as P. rewrite freed_app. cnt_simp.
  destruct (pp_closed p); cbn [negb length]; destruct (pmsg_eq_dec m y); lia.
Qed.

Theorem pub_conservation_step_law s o s' outs :
  PubInv s -> pub_step s o = (s', outs) ->
  forall y, cnt y (pub_owned s ++ pub_in s o) = cnt y (pub_owned s' ++ pub_wire s o ++ freed outs).
Proof.
  intros (I1 & I2 & I3) H y. unfold pub_owned.
  destruct o as [k a nb m|k a nb|a rv|q peer|q|q rv|q rv m|k op|k|k| |now]; cbn [pub_step pub_in pub_wire] in *;
    try (injection H as <- <-; reflexivity).
  - injection H as <- <-. simp_p. rewrite freed_app. cbn [freed]. pose proof (fanout_sum (pb_pipes s) m y I1) as P.
    unfold nopen. cnt_simp. rewrite cnt_repeat. cnt_simp. destruct (pmsg_eq_dec m y); lia.
  - destruct (negb _); injection H as <- <-; simp_p; cbn [freed]; [cnt_simp; lia|]. rewrite flat_map_app. cbn. cnt_simp. lia.
  - destruct (find_pipe q (pb_pipes s)) as [x|] eqn:F; injection H as <- <-; simp_p; [|cbn [freed]; cnt_simp; lia].
    rewrite freed_map_Free. pose proof (pheld_upd q (fun x => mkPpipe (pp_id x) true (pp_busy x) [] (pp_cap x) (pp_tx x)) _ x y I2 F) as P.
    unfold pheld in P. fold pheld in P. simp_p. cnt_simp. lia.
  - destruct (find_pipe q (pb_pipes s)) as [x|] eqn:F; [|injection H as <- <-; destruct (rv =? 0)%N; reflexivity].
    destruct (pub_send_done s q rv x F) as (f & E & Hf & Fx). cbn [pub_step] in E. rewrite F, H in E. injection E as -> ->. simp_p.
    pose proof (pheld_upd q f _ x y I2 F) as P. rewrite Fx in P. pose proof (pipe_sent_cnt x rv y) as C. cnt_simp. lia.
  - injection H as <- <-. rewrite freed_app. destruct (rv =? 0)%N; cbn [freed]; cnt_simp; lia.
  - destruct k; [injection H as <- <-; reflexivity|]. destruct op; try (injection H as <- <-; reflexivity).
    + destruct (_ || _); injection H as <- <-; simp_p; [cbn [freed]; cnt_simp; lia|].
      rewrite freed_app, freed_map_Free. cbn [freed]. cnt_simp. clear. induction (pb_pipes s) as [|x l IH]; cbn [map flat_map]; [reflexivity|].
      cnt_simp. destruct (pp_closed x); [cnt_simp; lia|]. unfold pheld at 1 3. simp_p. rewrite <- (firstn_skipn n (pp_q x)) at 1. cnt_simp. lia.
    + destruct (_ <? _)%N; injection H as <- <-; reflexivity.
Qed.

Theorem pub_poll_mirror s c a m :
  poll_w (pub_poll s) = Some true /\ In (Complete a E_OK None) (snd (pub_step s (PSend c a true m))) /\
  ~ In (Complete a E_AGAIN None) (snd (pub_step s (PSend c a true m))).
Proof.
  destruct (pub_send_immediate s c a true m) as (pre & E & N & _). rewrite E. cbn [snd]. split; [reflexivity|]. split.
  - apply in_or_app. right. right. now left.
  - intros Hin. apply in_app_or in Hin as [Hin|[Hin|[Hin|[]]]]; try discriminate. eapply N; eauto.
Qed.

Fixpoint pub_run (s : pub) (ops : list pop) : pub * list (pop * pub * list pout) :=
  match ops with
  | [] => (s, [])
  | o :: r => let (s1, outs) := pub_step s o in let (s2, tr) := pub_run s1 r in (s2, (o, s, outs) :: tr)
  end.
Fixpoint pub_ops_ok (s : pub) (ops : list pop) : Prop :=
  match ops with [] => True | o :: r => pub_op_ok s o /\ pub_ops_ok (fst (pub_step s o)) r end.
Fixpoint ptr_in (tr : list (pop * pub * list pout)) : list pmsg :=
  match tr with [] => [] | (o, s, outs) :: r => pub_in s o ++ ptr_in r end.
Fixpoint ptr_out (tr : list (pop * pub * list pout)) : list pmsg :=
  match tr with [] => [] | (o, s, outs) :: r => pub_wire s o ++ freed outs ++ ptr_out r end.
Theorem pub_conservation_run ops : forall s, PubInv s -> pub_ops_ok s ops ->
  let (s', tr) := pub_run s ops in
  PubInv s' /\ forall y, cnt y (pub_owned s ++ ptr_in tr) = cnt y (pub_owned s' ++ ptr_out tr).
Proof.
  induction ops as [|o r IH]; intros s HI Hok; cbn [pub_run].
  - split; auto.
  - cbn [pub_ops_ok] in Hok. destruct Hok as [Ho Hr]. destruct (pub_step s o) as [s1 outs] eqn:S. cbn [fst] in Hr.
    pose proof (pub_step_inv _ _ _ _ HI Ho S) as HI1. pose proof (pub_conservation_step_law _ _ _ _ HI S) as L.
    specialize (IH s1 HI1 Hr). destruct (pub_run s1 r) as [s2 tr]. destruct IH as [A B]. split; auto.
    intros y. cbn [ptr_in ptr_out]. specialize (L y). specialize (B y). cnt_simp. lia.
Qed.

Definition XInv (s : xsub) : Prop := xs_rq s <> [] -> xs_q s = [].
Lemma xsub_init_inv : XInv xsub_init. Proof. intros H. reflexivity. Qed.

Lemma run_getq_nil_q rq : run_getq [] rq = ([], rq, []).
Proof. destruct rq; reflexivity. Qed.
Lemma run_getq_nil_rq q : run_getq q [] = (q, [], []).
Proof. destruct q; reflexivity. Qed.
Lemma run_getq_one q a : run_getq q [a] = match q with m :: q' => (q', [], [Complete a E_OK (Some m)]) | [] => ([], [a], []) end.
Proof. destruct q as [|m q']; cbn; [reflexivity|]. now rewrite run_getq_nil_rq. Qed.

(* no filtering: what happens to an arriving message does not depend on its content *)
Theorem xsub_arrival_law mf rf s p m :
  xs_closed s = false ->
  (forall a r, xs_rq s = a :: r ->
     xsub_step mf rf s (PRecvDone p 0 m) = (run_notify (mkXsub (xs_q s) (xs_cap s) r false (xs_recvable s)), [Complete a E_OK (Some m); TranRecv p])) /\
  (xs_rq s = [] -> length (xs_q s) < xs_cap s ->
     xsub_step mf rf s (PRecvDone p 0 m) = (run_notify (mkXsub (xs_q s ++ [m]) (xs_cap s) [] false (xs_recvable s)), [TranRecv p])) /\
  (xs_rq s = [] -> xs_cap s <= length (xs_q s) ->
     xsub_step mf rf s (PRecvDone p 0 m) = (s, [Free m; TranRecv p])).
Proof.
  intros C. cbn [xsub_step N.eqb negb]. rewrite C. repeat split; intros.
  - now rewrite H.
  - rewrite H. apply Nat.ltb_lt in H0. now rewrite H0.
  - rewrite H. apply Nat.ltb_ge in H0. now rewrite H0.
Qed.

Theorem xsub_step_law mf rf s o s' outs :
  XInv s -> xsub_step mf rf s o = (s', outs) ->
  XInv s' /\
  Sublist (delivered outs ++ xs_q s') (xs_q s ++ arrived o) /\
  (forall x, cnt x (xs_q s ++ arrived o) = cnt x (xs_q s' ++ delivered outs ++ freed outs)).
Proof.
  intros I H. unfold XInv in *.
  assert (SAME: s' = s -> delivered outs = [] -> freed outs = arrived o ->
     (xs_rq s' <> [] -> xs_q s' = []) /\ Sublist (delivered outs ++ xs_q s') (xs_q s ++ arrived o) /\
     (forall x, cnt x (xs_q s ++ arrived o) = cnt x (xs_q s' ++ delivered outs ++ freed outs))).
  { intros -> E1 E2. rewrite E1, E2. cbn [app]. repeat split; auto. apply sl_prefix. }
  destruct o as [k a nb m|k a nb|a rv|p peer|p|p rv|p rv m|k op|k|k| |now]; cbn [xsub_step arrived] in *;
    try (injection H as <- <-; apply SAME; reflexivity).
  - destruct (nb && _) eqn:G; [injection H as <- <-; apply SAME; reflexivity|].
    destruct (xs_rq s) as [|a0 r0] eqn:R.
    + cbn [app] in H. rewrite run_getq_one in H. destruct (xs_q s) as [|m q'] eqn:Q; injection H as <- <-; simp_x.
      * repeat split; auto; try constructor.
      * cbn [delivered freed]. change (E_OK =? 0)%N with true. cbn iota. rewrite app_nil_r. repeat split; try congruence; [apply sl_refl|].
        intros x. cnt_simp. lia.
    + rewrite (I ltac:(congruence)) in *. rewrite run_getq_nil_q in H. injection H as <- <-; simp_x. repeat split; auto; constructor.
  - destruct (has_id a (xs_rq s)); injection H as <- <-; [|apply SAME; reflexivity]. simp_x. cbn [delivered freed].
    rewrite !app_nil_r. repeat split; try apply sl_refl; auto.
    intros Hne. apply I. intros E. rewrite E in Hne. apply Hne. reflexivity.
  - destruct (negb _); injection H as <- <-; apply SAME; reflexivity.
  - destruct (N.eqb_spec rv 0) as [->|Hrv]; cbn [negb] in H.
    2:{ injection H as <- <-. apply SAME; auto. }
    destruct (xs_closed s).
    { injection H as <- <-. apply SAME; auto. }
    destruct (xs_rq s) as [|a r] eqn:R.
    + destruct (length (xs_q s) <? xs_cap s); injection H as <- <-; simp_x; [|apply SAME; auto].
      cbn [delivered freed]. rewrite !app_nil_r. repeat split; auto; try apply sl_refl. intros Hne; congruence.
    + injection H as <- <-; simp_x. cbn [delivered freed]. change (E_OK =? 0)%N with true. cbn iota.
      rewrite (I ltac:(congruence)). cbn. repeat split; auto; try apply sl_refl.
  - destruct k; [injection H as <- <-; apply SAME; reflexivity|]. destruct op; try (injection H as <- <-; apply SAME; reflexivity).
    + destruct (_ <? _)%N; injection H as <- <-; apply SAME; reflexivity.
    + destruct (_ <? _)%N; [injection H as <- <-; apply SAME; reflexivity|].
      set (ex := length (xs_q s) - (n + 1)) in *.
      assert (SK: Sublist (skipn ex (xs_q s)) (xs_q s)).
      { rewrite <- (firstn_skipn ex (xs_q s)) at 2. apply sl_app_skip. apply sl_refl. }
      destruct rf.
      * destruct (xs_rq s) as [|a r] eqn:R.
        -- rewrite run_getq_nil_rq in H. injection H as <- <-; simp_x.
           rewrite !delivered_app, !freed_app, delivered_map_Free, freed_map_Free. cbn [delivered freed app]. rewrite !app_nil_r.
           split; [congruence|]. split; [exact SK|]. intros x. rewrite <- (firstn_skipn ex (xs_q s)) at 1. cnt_simp. lia.
        -- rewrite (I ltac:(congruence)) in *. subst ex. rewrite skipn_nil, firstn_nil, run_getq_nil_q in H.
           injection H as <- <-; simp_x. cbn. repeat split; auto; constructor.
      * injection H as <- <-; simp_x. rewrite !delivered_app, !freed_app, delivered_map_Free, freed_map_Free. cbn [delivered freed app]. rewrite !app_nil_r.
        split; [intros Hne; rewrite (I Hne); now rewrite skipn_nil|]. split; [exact SK|].
        intros x. rewrite <- (firstn_skipn ex (xs_q s)) at 1. cnt_simp. lia.
  - injection H as <- <-; simp_x. rewrite !delivered_app, !freed_app, delivered_map_Free, freed_map_Free, delivered_fail, freed_fail.
    cbn [app]. rewrite !app_nil_r. split; [auto|]. split; [constructor|]. intros x. cnt_simp. lia.
Qed.

(* non-blocking receive, repaired nni_msgq_aio_get: immediate; NNG_EAGAIN exactly when nothing is
   queued, i.e. exactly when the blocking form would have been left waiting *)
Theorem xsub_nb_fixed rf s k a s' outs :
  XInv s -> xsub_step true rf s (PRecv k a true) = (s', outs) ->
  exists rv x, outs = [Complete a rv x] /\ xs_rq s' = xs_rq s /\
    (rv = E_AGAIN <-> xs_q s = []) /\ (rv = E_AGAIN -> s' = s /\ x = None) /\
    (rv <> E_AGAIN -> rv = E_OK /\ exists m r, xs_q s = m :: r /\ x = Some m /\ xs_q s' = r) /\
    (xs_q s = [] <-> snd (xsub_step true rf s (PRecv k a false)) = []) /\
    (poll_r (xsub_poll s) = Some true <-> rv <> E_AGAIN).
Proof.
  intros I H. unfold XInv in I. cbn [xsub_step] in *. cbn [negb orb andb] in *.
  assert (P: poll_r (xsub_poll s) = Some (negb (match xs_q s with [] => true | _ => false end))) by reflexivity.
  rewrite P. clear P.
  destruct (xs_q s) as [|m r] eqn:Q.
  - rewrite orb_true_r in H. injection H as <- <-. exists E_AGAIN, None.
    split; [reflexivity|]. split; [reflexivity|]. split; [tauto|]. split; [auto|].
    split; [intros X; exfalso; apply X; reflexivity|]. split.
    + rewrite run_getq_nil_q. cbn. tauto.
    + cbn. split; [discriminate|]. intros X. exfalso. apply X. reflexivity.
  - destruct (xs_rq s) as [|a0 r0] eqn:R; [|specialize (I ltac:(congruence)); discriminate].
    cbn [negb orb andb app] in *. rewrite run_getq_one in *. injection H as <- <-; simp_x.
    exists E_OK, (Some m).
    split; [reflexivity|]. split; [reflexivity|]. split; [split; intros; discriminate|]. split; [intros; discriminate|].
    split; [intros _; split; [reflexivity|]; exists m, r; auto|]. split.
    + cbn. split; intros; discriminate.
    + cbn. split; [intros _; discriminate|reflexivity].
Qed.

(* the pinned nni_msgq_aio_get: a reachable state with a message queued and the descriptor raised in
   which the non-blocking receive answers NNG_EAGAIN although the blocking form completes at once *)
Definition xrefute_ops : list pop := [PPipeStart 1%N PROTO_PUB; PRecvDone 1%N 0%N (mkPmsg [] [1%N])].
Fixpoint xsub_run (mf rf : bool) (s : xsub) (ops : list pop) : xsub :=
  match ops with [] => s | o :: r => xsub_run mf rf (fst (xsub_step mf rf s o)) r end.
Theorem xsub_nb_pinned_witness :
  let s := xsub_run false false xsub_init xrefute_ops in
  poll_r (xsub_poll s) = Some true /\
  snd (xsub_step false false s (PRecv None 9%N true)) = [Complete 9%N E_AGAIN None] /\
  snd (xsub_step false false s (PRecv None 9%N false)) = [Complete 9%N E_OK (Some (mkPmsg [] [1%N]))].
Proof. vm_compute. repeat split; reflexivity. Qed.
Theorem xsub_nb_fixed_same_history :
  snd (xsub_step true true (xsub_run true true xsub_init xrefute_ops) (PRecv None 9%N true)) = [Complete 9%N E_OK (Some (mkPmsg [] [1%N]))].
Proof. vm_compute. reflexivity. Qed.

Theorem xsub_nb_pinned_refuted :
  exists s, XInv s /\ poll_r (xsub_poll s) = Some true /\
    snd (xsub_step false false s (PRecv None 9%N true)) = [Complete 9%N E_AGAIN None] /\
    snd (xsub_step false false s (PRecv None 9%N false)) <> [].
Proof.
  exists (xsub_run false false xsub_init xrefute_ops). split; [intros H; vm_compute in H; exfalso; apply H; reflexivity|].
  vm_compute. repeat split; auto. discriminate.
Qed.

Theorem sub_mirror_pinned_refuted :
  exists ops, sub_ops_ok false sub_init ops /\ ~ RInv (fst (sub_run false sub_init ops)).
Proof. exists refute_ops. split; [cbn; tauto|]. vm_compute. discriminate. Qed.

Theorem sub_mirror_holds ops :
  sub_ops_ok true sub_init ops ->
  let s := fst (sub_run true sub_init ops) in
  forall a, poll_r (sub_poll s) = Some true <-> exists m, snd (sub_step true s (PRecv None a true)) = [Complete a E_OK (Some m)].
Proof.
  intros Hok s a. destruct (sub_run_inv true ops sub_init sub_init_inv Hok) as (_ & _ & R & _).
  specialize (R eq_refl (proj1 sub_init_rinv)). fold s in R. unfold RInv in R. cbn [sub_poll poll_r]. rewrite R.
  rewrite <- (master_nonempty_recv true s a). split; [intros E; inversion E; reflexivity|intros ->; reflexivity].
Qed.

Theorem sub_no_missed_wakeup fixed ops :
  sub_ops_ok fixed sub_init ops ->
  let s := fst (sub_run fixed sub_init ops) in
  forall a m, snd (sub_step fixed s (PRecv None a true)) = [Complete a E_OK (Some m)] -> poll_r (sub_poll s) = Some true.
Proof.
  intros Hok s a m E. destruct (sub_run_inv fixed ops sub_init sub_init_inv Hok) as (_ & R & _).
  specialize (R (proj2 sub_init_rinv)). fold s in R. cbn [sub_poll poll_r]. f_equal. apply R.
  apply (master_nonempty_recv fixed s a). eauto.
Qed.

Theorem sub_queue_invariant_run fixed ops :
  sub_ops_ok fixed sub_init ops ->
  let s := fst (sub_run fixed sub_init ops) in
  SInv s /\ forall c m, In c (sb_ctxs s) -> In m (sc_lmq c) -> subscribed c m.
Proof.
  intros Hok s. destruct (sub_run_inv fixed ops sub_init sub_init_inv Hok) as (I & _). fold s in I.
  split; auto. intros c m Hc Hm. eapply queued_matches; eauto.
Qed.
