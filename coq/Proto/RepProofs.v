(* RepProofs: cooked REP -- a reply goes to the origin of the request the context
   most recently received, with its backtrace, once (C04); state errors;
   non-blocking and poll-descriptor laws (C15). *)
From Coq Require Import List Arith NArith Bool.
From NngV Require Import Proto.Common Proto.ReqRepBacktrace Proto.ReqModel Proto.RepModel Proto.ReqRepProofs.
Import ListNotations.

Lemma rp_get_put_same s k c : rp_get (rp_put s k c) k = Some c.
Proof. unfold rp_get, rp_put. cbn [rp_ctxs rp_set_ctxs]. apply lookup_assoc_set_same. Qed.

Definition saio_pending (c : pctx) : bool := match rc_saio c with Some _ => true | None => false end.

(* a context that holds no request (nothing received since its last send) cannot send *)
Lemma rep_send_without_request pf s k c a nb m :
  rc_bt c = [] -> exists s', rep_ctx_send pf s k c a nb m = (s', [Complete a E_STATE None]).
Proof.
  intros H. unfold rep_ctx_send. destruct (pf_saio pf && _); [eexists; reflexivity|].
  rewrite H. cbn [is_nil]. eexists. reflexivity.
Qed.

(* the state of rep0_ctx_send once the reply slot of context k is consumed *)
Definition rep_spent (s : rep) (k : N) (c : pctx) : rep :=
  let s1 := rp_put s k (mkPctx 0 [] (rc_saio c) (rc_raio c)) in if N.eqb k 0 then rp_set_writable s1 false else s1.
Lemma rep_spent_get s k c : rp_get (rep_spent s k c) k = Some (mkPctx 0 [] (rc_saio c) (rc_raio c)).
Proof. unfold rep_spent. destruct (k =? 0)%N; apply rp_get_put_same. Qed.

(* the outcomes of rep0_ctx_send: refused (a reply is still queued / no request), reply discarded (pipe gone),
   transmitted (pipe idle), refused with NNG_EAGAIN or queued (pipe busy) *)
Lemma rep_ctx_send_cases pf s k c a nb m s' outs :
  rep_ctx_send pf s k c a nb m = (s', outs) ->
  let s2 := rep_spent s k c in let m' := rep_send (rc_bt c) m in
  outs = [Complete a E_STATE None] \/
  (s' = s2 /\ outs = [Complete a E_OK None; Free m']) \/
  (rc_bt c <> [] /\ rp_get s' k = rp_get s2 k /\ outs = [TranSend (rc_pipe c) m'; Complete a E_OK None]) \/
  (nb = true /\ s' = (if pf_nbsend pf then rp_put s2 k c else s2) /\ outs = [Complete a E_AGAIN None]) \/
  (nb = false /\ s' = rp_set_sendq (rp_put s2 k (mkPctx 0 [] (Some (a, m')) (rc_raio c))) (rp_sendq s2 ++ [(rc_pipe c, k)]) /\ outs = []).
Proof.
  unfold rep_ctx_send. fold (rep_spent s k c). intros H. cbv zeta.
  destruct (pf_saio pf && _); [inversion H; now left|].
  destruct (rc_bt c) as [|b bt] eqn:EB; cbn [is_nil] in H; [inversion H; now left|].
  destruct (negb (has_id _ (rp_pipes _))); [inversion H; subst; right; left; auto|].
  destruct (negb (has_id _ (rp_busy _))).
  - inversion H; subst. right. right. left. split; [discriminate|]. split; [|reflexivity].
    destruct (pf_wbusy pf && _); reflexivity.
  - destruct nb; inversion H; subst.
    + right. right. right. left. auto.
    + right. right. right. right. auto.
Qed.

(* whatever rep0_ctx_send hands to a transport goes to the pipe the context's
   current request came from, carries that request's backtrace as header and the
   caller's body; and the reply slot is consumed by it *)
Lemma rep_send_to_origin pf s k c a nb m s' outs p x :
  rep_ctx_send pf s k c a nb m = (s', outs) -> In (TranSend p x) outs ->
  p = rc_pipe c /\ x = rep_send (rc_bt c) m /\ rc_bt c <> [] /\
  exists c', rp_get s' k = Some c' /\ rc_bt c' = [] /\ rc_pipe c' = 0%N.
Proof.
  intros H Hin.
  destruct (rep_ctx_send_cases _ _ _ _ _ _ _ _ _ H) as [->|[[_ ->]|[(B & G & ->)|[(_ & _ & ->)|(_ & _ & ->)]]]];
    try (cbn in Hin; intuition discriminate).
  destruct Hin as [E|[E|[]]]; [|discriminate]. inversion E; subst. repeat split; auto.
  eexists. split; [rewrite G; apply rep_spent_get|]. split; reflexivity.
Qed.

(* the blocking form behind a busy pipe: the reply is queued on that pipe, built
   from the same origin and backtrace, and the slot is consumed as well *)
Lemma rep_send_queued pf s k c a m s' :
  rep_ctx_send pf s k c a false m = (s', []) ->
  rp_sendq s' = rp_sendq s ++ [(rc_pipe c, k)] /\
  exists c', rp_get s' k = Some c' /\ rc_saio c' = Some (a, rep_send (rc_bt c) m) /\ rc_bt c' = [] /\ rc_pipe c' = 0%N.
Proof.
  intros H. destruct (rep_ctx_send_cases _ _ _ _ _ _ _ _ _ H) as [X|[[_ X]|[(_ & _ & X)|[(X & _)|(_ & -> & _)]]]]; try discriminate.
  split.
  - unfold rep_spent. destruct (k =? 0)%N; reflexivity.
  - eexists. split; [unfold rp_get; cbn [rp_ctxs rp_set_sendq]; apply rp_get_put_same|]. repeat split.
Qed.

(* ... and rep0_pipe_send_cb transmits exactly the stored reply of the first
   context queued on that pipe, on that pipe *)
Lemma rep_senddone_transmits_queued pf s p k c a m :
  first_on p (rp_sendq s) = Some k -> rp_get s k = Some c -> rc_saio c = Some (a, m) ->
  exists s', rep_step pf s (PSendDone p 0) = (s', [TranSend p m; Complete a E_OK None]).
Proof.
  intros H1 H2 H3. unfold rep_step. change (negb (0 =? 0)%N) with false. cbv iota zeta.
  unfold rp_get in *. cbn [rp_ctxs rp_sendq rp_set_pipes rp_set_sending rp_pipes rp_busy rp_pclosed].
  rewrite H1, H2, H3. eexists. reflexivity.
Qed.

(* what a context remembers is exactly the request it received last *)
Lemma rep_recv_records pf s k c a nb p m rest :
  rp_holding s = (p, m) :: rest ->
  exists s', rep_ctx_recv pf s k c a nb = (s', [TranRecv p; Complete a E_OK (Some (rep_deliver m))]) /\
             exists c', rp_get s' k = Some c' /\ rc_pipe c' = p /\ rc_bt c' = pm_hdr m.
Proof.
  intros H. unfold rep_ctx_recv. rewrite H. eexists. split; [reflexivity|].
  unfold rep_take. eexists. split.
  - cbv zeta. repeat match goal with |- context [if ?b then _ else _] => destruct b end;
      unfold rp_get; cbn [rp_ctxs rp_set_writable]; apply rp_get_put_same.
  - split; reflexivity.
Qed.

Lemma rep_second_recv pf s k c a r :
  rp_holding s = [] -> rc_raio c = Some r -> rep_ctx_recv pf s k c a false = (s, [Complete a E_STATE None]).
Proof. intros H1 H2. unfold rep_ctx_recv. now rewrite H1, H2. Qed.

(* non-blocking receive: completes in the same step; EAGAIN exactly when no
   request is held, and then nothing changes *)
Lemma rep_nb_recv pf s k c a :
  (rp_holding s = [] -> rep_ctx_recv pf s k c a true = (s, [Complete a E_AGAIN None])) /\
  (forall p m rest, rp_holding s = (p, m) :: rest ->
     exists s', rep_ctx_recv pf s k c a true = (s', [TranRecv p; Complete a E_OK (Some (rep_deliver m))])).
Proof.
  split.
  - intros H. unfold rep_ctx_recv. now rewrite H.
  - intros p m rest H. unfold rep_ctx_recv. rewrite H. eexists. reflexivity.
Qed.

Fixpoint rep_run (pf : pfix) (s : rep) (ops : list pop) : rep * list (list pout) :=
  match ops with
  | [] => (s, [])
  | o :: r => let '(s1, outs) := rep_step pf s o in let '(s2, tr) := rep_run pf s1 r in (s2, outs :: tr)
  end.
Definition pf_pinned : pfix := mkPfix false false false false.
Definition pf_repaired : pfix := mkPfix true true true true.

(* non-blocking send refused with EAGAIN: the pinned code has already consumed
   the reply slot (the retry fails with ESTATE); the repaired code keeps it *)
Definition w_rep_ops : list pop :=
  [PCtxOpen 0%N; PCtxOpen 1%N; PPipeStart 1%N PROTO_REQ;
   PRecvDone 1%N 0%N (mkPmsg [] (be32 2147483649 ++ [1%N]));
   PRecvDone 1%N 0%N (mkPmsg [] (be32 2147483650 ++ [2%N]));
   PRecv (Some 0%N) 9%N true; PRecv (Some 1%N) 9%N true;
   PSend (Some 0%N) 9%N true (mkPmsg [] [3%N]);
   PSend (Some 1%N) 9%N true (mkPmsg [] [4%N]);      (* pipe busy: EAGAIN *)
   PSendDone 1%N 0%N;
   PSend (Some 1%N) 9%N true (mkPmsg [] [4%N])].     (* the retry *)

Lemma rep_nb_send_keeps_slot_refuted_w :
  nth 8 (snd (rep_run pf_pinned rep_init w_rep_ops)) [] = [Complete 9%N E_AGAIN None] /\
  nth 10 (snd (rep_run pf_pinned rep_init w_rep_ops)) [] = [Complete 9%N E_STATE None].
Proof. vm_compute. split; reflexivity. Qed.
Lemma rep_nb_send_keeps_slot_repaired_w :
  nth 8 (snd (rep_run pf_repaired rep_init w_rep_ops)) [] = [Complete 9%N E_AGAIN None] /\
  exists x, nth 10 (snd (rep_run pf_repaired rep_init w_rep_ops)) [] = [TranSend 1%N x; Complete 9%N E_OK None] /\
            pm_hdr x = be32 2147483650.
Proof. vm_compute. split; [reflexivity|]. eexists. split; reflexivity. Qed.
(* general form for the repaired code: a refused non-blocking send changes no context *)
Lemma rep_nb_send_refused_keeps pf s k c a m s' :
  pf_nbsend pf = true -> rp_get s k = Some c ->
  rep_ctx_send pf s k c a true m = (s', [Complete a E_AGAIN None]) ->
  rp_get s' k = Some c.
Proof.
  intros Hf Hg H. destruct (rep_ctx_send_cases _ _ _ _ _ _ _ _ _ H) as [X|[[_ X]|[(_ & _ & X)|[(_ & -> & _)|(X & _)]]]]; try discriminate.
  rewrite Hf. apply rp_get_put_same.
Qed.

(* poll descriptors.  Pinned: the receive descriptor stays raised when the only
   pipe holding a request closes; repaired: it is cleared *)
Definition w_rep_poll : list pop :=
  [PPipeStart 1%N PROTO_REQ; PRecvDone 1%N 0%N (mkPmsg [] (be32 2147483649 ++ [1%N])); PPipeClose 1%N].
Lemma rep_poll_mirror_refuted_w :
  let s := fst (rep_run pf_pinned rep_init w_rep_poll) in
  poll_r (rep_poll s) = Some true /\ fst (rep_step pf_pinned s (PRecv None 9%N true)) = s /\
  snd (rep_step pf_pinned s (PRecv None 9%N true)) = [Complete 9%N E_AGAIN None].
Proof. vm_compute. repeat split; reflexivity. Qed.
Lemma rep_poll_mirror_repaired_w :
  let s := fst (rep_run pf_repaired rep_init w_rep_poll) in poll_r (rep_poll s) = Some false.
Proof. vm_compute. reflexivity. Qed.

(* the send descriptor and a busy reply pipe.  The socket holds a request from pipe 1;
   another context starts sending on pipe 1.  Pinned: the descriptor stays raised
   although a non-blocking reply is refused; repaired: it is cleared, and raised
   again when the pipe has sent *)
Definition w_rep_wbusy : list pop :=
  [PCtxOpen 0%N; PPipeStart 1%N PROTO_REQ;
   PRecvDone 1%N 0%N (mkPmsg [] (be32 2147483649 ++ [1%N])); PRecv (Some 0%N) 9%N true;
   PRecvDone 1%N 0%N (mkPmsg [] (be32 2147483650 ++ [2%N])); PRecv None 9%N true;
   PSend (Some 0%N) 9%N true (mkPmsg [] [3%N])].
Lemma rep_send_poll_mirror_refuted_w :
  let s := fst (rep_run (mkPfix true true true false) rep_init w_rep_wbusy) in
  poll_w (rep_poll s) = Some true /\
  snd (rep_step (mkPfix true true true false) s (PSend None 9%N true (mkPmsg [] [4%N]))) = [Complete 9%N E_AGAIN None].
Proof. vm_compute. split; reflexivity. Qed.
Lemma rep_send_poll_mirror_repaired_w :
  let s := fst (rep_run pf_repaired rep_init w_rep_wbusy) in
  poll_w (rep_poll s) = Some false /\
  poll_w (rep_poll (fst (rep_step pf_repaired s (PSendDone 1%N 0%N)))) = Some true.
Proof. vm_compute. split; reflexivity. Qed.

(* the receive descriptor mirrors `some pipe holds a parsed request' in every
   reachable state of the repaired code (pf_rclose), hence the non-blocking receive *)
Definition rep_rinv (s : rep) : Prop := rp_readable s = negb (is_nil (rp_holding s)).
Lemma rep_rinv_init : rep_rinv rep_init.
Proof. reflexivity. Qed.

Definition held_readable (s : rep) : list (pid * pmsg) * bool := (rp_holding s, rp_readable s).
Ltac case_ifs := cbv zeta; repeat match goal with |- context [if ?b then _ else _] => destruct b end.

Lemma rep_ctx_send_held_readable pf s k c a nb m : held_readable (fst (rep_ctx_send pf s k c a nb m)) = held_readable s.
Proof. unfold rep_ctx_send. case_ifs; reflexivity. Qed.
Lemma rep_take_held_readable pf s k c p m r : held_readable (rep_take pf s k c p m r) = held_readable s.
Proof. unfold rep_take. case_ifs; reflexivity. Qed.
Lemma rep_ctx_close_held_readable s k c : held_readable (fst (rep_ctx_close s k c)) = held_readable s.
Proof. unfold rep_ctx_close. destruct (rc_saio c) as [[sa x]|]; destruct (rc_raio c); reflexivity. Qed.
Lemma close_sendq_held_readable ks : forall s, held_readable (fst (close_sendq s ks)) = held_readable s.
Proof.
  induction ks as [|k ks IH]; intros s; cbn [close_sendq]; [reflexivity|].
  destruct (rp_get s k) as [c|]; [|apply IH]. destruct (rc_saio c) as [[a m]|]; [|apply IH].
  match goal with |- context [close_sendq ?X ks] => specialize (IH X); destruct (close_sendq X ks) as [s1 outs] end.
  cbn [fst] in *. rewrite IH. reflexivity.
Qed.

Lemma assoc_del_nohit {A} p (l : list (N * A)) :
  filter (fun x => N.eqb (fst x) p) l = [] -> assoc_del p l = l.
Proof.
  unfold assoc_del. induction l as [|[k v] l IH]; cbn [filter fst]; [reflexivity|].
  destruct (N.eqb k p); cbn [negb]; [discriminate|]. intros H. now rewrite IH.
Qed.

Lemma rep_rinv_step pf s o : pf_rclose pf = true -> rep_rinv s -> rep_rinv (fst (rep_step pf s o)).
Proof.
  unfold rep_rinv. intros Hf Hi.
  assert (Hhr : forall s', held_readable s' = held_readable s -> rp_readable s' = negb (is_nil (rp_holding s'))).
  { intros s' E. unfold held_readable in E. inversion E as [[E1 E2]]. now rewrite E1, E2. }
  destruct o as [c a nb m|c a nb|a rv|p peer|p|p rv|p rv m|c op|c|c| |now]; cbn [rep_step].
  - destruct (rp_get s (ckey c)); [apply Hhr, rep_ctx_send_held_readable|exact Hi].
  - destruct (rp_get s (ckey c)) as [cx|]; [|exact Hi]. unfold rep_ctx_recv.
    destruct (rp_holding s) as [|[p m] rest] eqn:EH.
    + destruct nb; [apply Hhr; reflexivity|]. destruct (rc_raio cx); [apply Hhr; reflexivity|]. cbn [fst]. apply Hhr. reflexivity.
    + cbn [fst]. cbv zeta.
      match goal with |- context [rep_take pf ?X _ _ _ _ _] => pose proof (rep_take_held_readable pf X (ckey c) cx p m (rc_raio cx)) as E end.
      unfold held_readable in E. inversion E as [[E1 E2]]. rewrite E1, E2.
      destruct rest; cbn [is_nil rp_holding rp_readable rp_set_holding rp_set_readable negb]; [reflexivity|].
      exact Hi.
  - destruct (find_pctx (saio_is a) (rp_ctxs s)) as [[k c]|]; [exact Hi|].
    destruct (find_pctx (fun c => opt_is a (rc_raio c)) (rp_ctxs s)) as [[k c]|]; exact Hi.
  - destruct (negb (peer =? PROTO_REQ)%N); exact Hi.
  - cbv zeta. rewrite Hf. cbn [andb].
    set (held := map snd (filter (fun x => N.eqb (fst x) p) (rp_holding s))).
    set (s0 := rp_set_holding (rp_set_pipes s (rp_pipes s) (rp_busy s) (rp_pclosed s ++ [p])) (assoc_del p (rp_holding s))).
    set (s1 := if negb (is_nil held) && is_nil (rp_holding s0) then rp_set_readable s0 false else s0).
    assert (H1 : rp_readable s1 = negb (is_nil (rp_holding s1))).
    { subst s1. destruct (is_nil held) eqn:EHeld; cbn [negb andb].
      - assert (EF : filter (fun x => N.eqb (fst x) p) (rp_holding s) = []).
        { subst held. destruct (filter _ (rp_holding s)); [reflexivity|discriminate]. }
        subst s0. cbn [rp_readable rp_holding rp_set_holding rp_set_pipes]. rewrite (assoc_del_nohit _ _ EF). exact Hi.
      - destruct (is_nil (rp_holding s0)) eqn:E0; cbn [rp_readable rp_set_readable rp_holding].
        + now rewrite E0.
        + rewrite E0. subst s0. cbn [rp_readable rp_set_holding rp_set_pipes]. rewrite Hi.
          destruct (rp_holding s); [subst held; discriminate|reflexivity]. }
    match goal with |- context [close_sendq ?X ?K] => pose proof (close_sendq_held_readable K X) as E; destruct (close_sendq X K) as [s2 outs] end.
    cbn [fst] in *. unfold held_readable in E. inversion E as [[E1 E2]]. cbn [rp_holding rp_readable rp_set_sendq] in E1, E2.
    destruct (p =? master_pipe s2)%N; cbn [rp_readable rp_holding rp_set_pipes rp_set_writable]; rewrite E1, E2; exact H1.
  - cbv zeta. destruct (negb (rv =? 0)%N); [exact Hi|].
    match goal with |- context [first_on p ?L] => destruct (first_on p L) as [k|] end.
    + match goal with |- context [rp_get ?X k] => destruct (rp_get X k) as [c|] end; [|exact Hi].
      destruct (rc_saio c) as [[a m]|]; exact Hi.
    + case_ifs; exact Hi.
  - destruct (negb (rv =? 0)%N); [exact Hi|].
    destruct (rep_recv (rp_ttl s) (pm_body m)) as [m'| |]; try exact Hi.
    destruct (has_id p (rp_pclosed s)); [exact Hi|].
    destruct (rp_recvq s) as [|k rest].
    + cbn [fst rp_readable rp_holding rp_set_readable rp_set_holding]. destruct (rp_holding s); reflexivity.
    + destruct (rp_get s k) as [c|]; [|exact Hi]. destruct (rc_raio c); [|exact Hi].
      cbn [fst]. apply Hhr. rewrite rep_take_held_readable. reflexivity.
  - destruct c; [exact Hi|]. destruct op; try exact Hi.
    + destruct (8192 <? N.of_nat n)%N; exact Hi.
    + destruct (8192 <? N.of_nat n)%N; exact Hi.
    + destruct ((n <? BT_TTL_MIN) || (BT_TTL_MAX <? n)); exact Hi.
  - exact Hi.
  - destruct (rp_get s (c + 1)%N) as [cx|]; [|exact Hi].
    pose proof (rep_ctx_close_held_readable s (c + 1)%N cx) as E. destruct (rep_ctx_close s (c + 1)%N cx) as [s1 outs].
    cbn [fst] in *. unfold held_readable in E. inversion E as [[E1 E2]]. cbn [rp_readable rp_holding rp_set_ctxs]. now rewrite E1, E2.
  - destruct (rp_get s 0%N) as [c|]; [|exact Hi]. apply Hhr, rep_ctx_close_held_readable.
  - exact Hi.
Qed.

Lemma rep_rinv_run pf ops : forall s, pf_rclose pf = true -> rep_rinv s -> rep_rinv (fst (rep_run pf s ops)).
Proof.
  induction ops as [|o ops IH]; intros s Hf Hi; cbn [rep_run]; [exact Hi|].
  pose proof (rep_rinv_step pf s o Hf Hi) as H1. destruct (rep_step pf s o) as [s1 outs]. cbn [fst] in H1.
  specialize (IH s1 Hf H1). destruct (rep_run pf s1 ops) as [s2 tr]. exact IH.
Qed.

(* the mirror proper: in every state satisfying the invariant the receive descriptor is raised exactly when a
   non-blocking receive does not return NNG_EAGAIN (on any context), and then it delivers *)
Lemma rep_recv_poll_mirror_inv pf s k c a :
  rep_rinv s ->
  (poll_r (rep_poll s) = Some true <-> snd (rep_ctx_recv pf s k c a true) <> [Complete a E_AGAIN None]) /\
  (poll_r (rep_poll s) = Some true -> exists p m, snd (rep_ctx_recv pf s k c a true) = [TranRecv p; Complete a E_OK (Some (rep_deliver m))]).
Proof.
  unfold rep_rinv, rep_poll, rep_ctx_recv. cbn [poll_r]. intros ->.
  destruct (rp_holding s) as [|[p m] rest]; cbn [is_nil negb snd].
  - split; [split; [discriminate|intros H; exfalso; apply H; reflexivity]|discriminate].
  - split; [split; [intros _; discriminate|reflexivity]|]. intros _. exists p, m. reflexivity.
Qed.
(* ... in particular in every state reached from rep_init by the repaired code *)
Lemma rep_recv_poll_mirror pf ops k c a :
  pf_rclose pf = true ->
  let s := fst (rep_run pf rep_init ops) in
  (poll_r (rep_poll s) = Some true <->
     snd (rep_ctx_recv pf s k c a true) <> [Complete a E_AGAIN None]) /\
  (poll_r (rep_poll s) = Some true -> exists p m, snd (rep_ctx_recv pf s k c a true) = [TranRecv p; Complete a E_OK (Some (rep_deliver m))]).
Proof. intros Hf s. apply rep_recv_poll_mirror_inv. exact (rep_rinv_run pf ops rep_init Hf rep_rinv_init). Qed.

(* rep0_ctx_send starts with nni_msg_header_clear: the header the application
   leaves on the reply plays no part -- the wire header is the saved backtrace *)
Lemma rep_send_clears_app_header bt h b : rep_send bt (mkPmsg h b) = mkPmsg bt b.
Proof. reflexivity. Qed.
Lemma rep_send_header_independent pf s c a nb h h' b :
  rep_step pf s (PSend c a nb (mkPmsg h b)) = rep_step pf s (PSend c a nb (mkPmsg h' b)).
Proof. unfold rep_step. destruct (rp_get s (ckey c)); reflexivity. Qed.
Lemma rep_reply_wire pf s k c a nb h b s' outs p x :
  rep_ctx_send pf s k c a nb (mkPmsg h b) = (s', outs) -> In (TranSend p x) outs ->
  p = rc_pipe c /\ pm_hdr x = rc_bt c /\ pm_body x = b /\ wire_of x = rc_bt c ++ b.
Proof.
  intros H Hin. destruct (rep_send_to_origin _ _ _ _ _ _ _ _ _ _ _ H Hin) as [H1 [H2 _]].
  subst x. split; [exact H1|]. repeat split.
Qed.
(* the queued path: what waits in ctx->saio is already backtrace ++ body *)
Lemma rep_reply_wire_queued pf s k c a h b s' :
  rep_ctx_send pf s k c a false (mkPmsg h b) = (s', []) ->
  exists c', rp_get s' k = Some c' /\ rc_saio c' = Some (a, mkPmsg (rc_bt c) b).
Proof.
  intros H. destruct (rep_send_queued _ _ _ _ _ _ _ H) as [_ [c' [H1 [H2 _]]]]. exists c'. split; [exact H1|exact H2].
Qed.
