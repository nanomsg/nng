(* PollReq: the C15 instance for cooked REQ (reqrep0/req.c).
   The reachable-state invariant of the two poll descriptors (RInv):
     rq_writable s = some pipe is ready                       (W)
     rq_readable s = the socket's own context holds a reply   (R, needs the repair fx_rdclr)
     a ready pipe and a queued request never coexist          (Q)
   plus what the induction needs (every queued context exists and holds a request,
   a waiting receive excludes a stashed reply, context keys are unique).
   Pack M_req fx: C15_inv, C15_nb_immediate, C15_nb_possible, C15_nb_strict, C15_mirror hold for every fx with
   fx_rdclr fx = true (the other three flags are arbitrary); C15_mirror_iff is refuted (NNG_ESTATE);
   C15_mirror fails without fx_rdclr; C15_mirror_exact holds up to NNG_ENOMEM (_partial) and in full for the
   pack M_req_b, whose contract bounds the number of contexts (second invariant JInv: the request-id map).
   Every operation but the send and the opening of a context is a sequence of
   a few moves (mv) on the fields the two invariants read; each invariant is checked against the moves once. *)
From Coq Require Import List Arith NArith Bool ZArith Lia.
From NngV Require Import Proto.Common Proto.ReqRepBacktrace Proto.ReqModel Proto.ReqRepProofs Proto.ReqProofs
  Proto.PollModel Proto.PollProofs.
From NngV Require Base.ListX.
Import ListNotations.

Ltac sv := cbn [rq_ctxs rq_retry rq_tick rq_closed rq_active rq_tickdl rq_ready rq_busy rq_pclosed rq_plist rq_sendq
                rq_retryq rq_ids rq_cursor rq_sending rq_readable rq_writable rq_now rq_ttl
                set_ctxs set_retry set_tick set_closed set_timer set_pipes set_plist set_sendq set_retryq set_ids
                set_sending set_readable set_writable set_now set_ttl ctx_put].
Ltac svin H := revert H; sv; intro H.

(* the state a step ends in when, after its last call (or last two), it only puts outputs together *)
Lemma fst_let3 {A B C B' C'} (x : A * B * C) (g : B -> B') (h : C -> C') :
  fst (fst (let '(a, b, c) := x in (a, g b, h c))) = fst (fst x).
Proof. now destruct x as [[a b] c]. Qed.
Lemma fst_let3_bind {A B C} (x : A * B * C) (F : A -> A * B * C) (g : B -> B -> B) (h : C -> C -> C) :
  fst (fst (let '(a, b, c) := x in let '(a', b', c') := F a in (a', g b b', h c c'))) = fst (fst (F (fst (fst x)))).
Proof. destruct x as [[a b] c]. apply fst_let3. Qed.

Definition is_some {A} (o : option A) : bool := match o with Some _ => true | None => false end.

Lemma lookup_app_one {A} k k' (v c : A) l : lookup k (l ++ [(k', v)]) = Some c -> lookup k l = Some c \/ (lookup k l = None /\ c = v).
Proof.
  destruct (lookup k l) as [c'|] eqn:E.
  - rewrite (lookup_app_some _ _ _ _ E). auto.
  - rewrite (lookup_app_none _ _ _ E). cbn. destruct (N.eqb k' k); [|discriminate]. intros H. inversion H. auto.
Qed.
Lemma remove_id_nil k l : l = [] -> remove_id k l = [].
Proof. now intros ->. Qed.

(* the user aios a socket holds queued, context by context (pm_busy of the packs) *)
Definition opt_list {A} (o : option A) : list A := match o with Some a => [a] | None => [] end.
Definition ctx_aios (c : rctx) : list aioid := opt_list (cx_recv c) ++ opt_list (cx_send c).
Definition busy_of (cs : list (N * rctx)) : list aioid := flat_map (fun kc => ctx_aios (snd kc)) cs.
Definition req_busy (s : req) : list aioid := busy_of (rq_ctxs s).

Lemma busy_of_in a cs : In a (busy_of cs) <-> exists k c, In (k, c) cs /\ In a (ctx_aios c).
Proof.
  unfold busy_of. rewrite in_flat_map. split.
  - intros ([k c] & H1 & H2). exists k, c. auto.
  - intros (k & c & H1 & H2). exists (k, c). auto.
Qed.
Lemma busy_lookup_recv cs k c a : lookup k cs = Some c -> cx_recv c = Some a -> In a (busy_of cs).
Proof.
  intros H E. apply busy_of_in. exists k, c. split; [now apply lookup_in|]. unfold ctx_aios. rewrite E. now left.
Qed.
Lemma busy_lookup_send cs k c a : lookup k cs = Some c -> cx_send c = Some a -> In a (busy_of cs).
Proof.
  intros H E. apply busy_of_in. exists k, c. split; [now apply lookup_in|]. unfold ctx_aios. rewrite E.
  apply in_or_app. right. now left.
Qed.
Lemma busy_assoc_set a k c cs : In a (busy_of (assoc_set k c cs)) -> In a (ctx_aios c) \/ In a (busy_of cs).
Proof.
  intros H. apply busy_of_in in H as (k' & c' & H1 & H2). apply in_assoc_set in H1 as [E|H1].
  - inversion E; subst. auto.
  - right. apply busy_of_in. eauto.
Qed.
Lemma busy_assoc_del a k cs : In a (busy_of (assoc_del k cs)) -> In a (busy_of cs).
Proof.
  intros H. apply busy_of_in in H as (k' & c' & H1 & H2). apply filter_In in H1 as [H1 _]. apply busy_of_in. eauto.
Qed.

Definition CoreV (cl rd : bool) (sq : list N) (cs : list (N * rctx)) : Prop :=
  cl = false /\
  (exists c0, lookup 0%N cs = Some c0 /\ rd = is_some (cx_rep c0)) /\
  (forall k c, lookup k cs = Some c -> cx_recv c <> None -> cx_rep c = None) /\
  (forall k, In k sq -> exists c m, lookup k cs = Some c /\ cx_req c = Some m) /\
  NoDup (map fst cs).
Definition Core (s : req) : Prop := CoreV (rq_closed s) (rq_readable s) (rq_sendq s) (rq_ctxs s).
Definition WV (w : bool) (ready : list pid) : Prop := w = negb (is_nil ready).
Definition QV (ready : list pid) (sq : list N) : Prop := ready = [] \/ sq = [].
(* what req0_run_send_queue may find: W, or one pipe just became ready while requests wait *)
Definition WweakV (w : bool) (ready : list pid) (sq : list N) : Prop :=
  WV w ready \/ (exists p, ready = [p] /\ sq <> [] /\ w = false).
Definition RInv (s : req) : Prop :=
  Core s /\ WV (rq_writable s) (rq_ready s) /\ QV (rq_ready s) (rq_sendq s).
(* the state req0_run_send_queue is entered in; it leaves RInv behind (run_send_queue_inv) *)
Definition RPre (s : req) : Prop :=
  Core s /\ WweakV (rq_writable s) (rq_ready s) (rq_sendq s).

Lemma QV_sub rd sq sq' : QV rd sq -> (forall x, In x sq' -> In x sq) -> QV rd sq'.
Proof. intros [H|H] Hs; [now left|right]. subst sq. exact (incl_l_nil Hs). Qed.

Lemma RInv_RPre s : RInv s -> RPre s.
Proof. intros (A & B & C). split; [exact A|]. now left. Qed.

Lemma coreV_update cl rd sq cs k c c' rd' sq' :
  CoreV cl rd sq cs -> lookup k cs = Some c ->
  (forall x, In x sq' -> x = k \/ In x sq) ->
  (In k sq' -> exists m, cx_req c' = Some m) ->
  rd' = (if N.eqb k 0 then is_some (cx_rep c') else rd) ->
  (cx_recv c' <> None -> cx_rep c' = None) ->
  CoreV cl rd' sq' (assoc_set k c' cs).
Proof.
  intros (Hcl & (c0 & H0 & Hrd) & HC & HS & HN) Hk Hsq Hkq Hrd' Hc'. unfold CoreV. split; [exact Hcl|]. split.
  { destruct (N.eqb_spec k 0) as [->|Hne].
    - exists c'. split; [apply lookup_assoc_set_same|exact Hrd'].
    - exists c0. split; [rewrite lookup_assoc_set_other by congruence; exact H0|]. now rewrite Hrd'. }
  split.
  { intros k2 c2 H2. destruct (N.eq_dec k2 k) as [->|Hne].
    - rewrite lookup_assoc_set_same in H2. inversion H2; subst. exact Hc'.
    - rewrite lookup_assoc_set_other in H2 by exact Hne. now apply HC with k2. }
  split.
  { intros x Hx. destruct (N.eq_dec x k) as [->|Hne].
    - destruct (Hkq Hx) as [m Hm]. exists c', m. split; [apply lookup_assoc_set_same|exact Hm].
    - destruct (Hsq x Hx) as [E|Hin]; [contradiction|]. destruct (HS x Hin) as (c2 & m & A & B).
      exists c2, m. split; [now rewrite lookup_assoc_set_other by exact Hne|exact B]. }
  now rewrite (map_fst_assoc_set_present _ _ _ _ Hk).
Qed.

(* the send queue may shrink, and gain contexts that hold a request *)
Lemma coreV_sq_ext cl rd sq sq' cs : CoreV cl rd sq cs ->
  (forall x, In x sq' -> In x sq \/ exists c m, lookup x cs = Some c /\ cx_req c = Some m) -> CoreV cl rd sq' cs.
Proof.
  intros (Hcl & H0 & HC & HS & HN) Hsq. unfold CoreV. repeat (split; [assumption|]). split; [|exact HN].
  intros x Hx. destruct (Hsq x Hx) as [Hin|Hex]; [now apply HS|exact Hex].
Qed.
Lemma coreV_sq cl rd sq sq' cs : CoreV cl rd sq cs -> (forall x, In x sq' -> In x sq) -> CoreV cl rd sq' cs.
Proof. intros H Hsq. apply (coreV_sq_ext _ _ _ _ _ H). auto. Qed.

(* the fields the two invariants (RInv here, JInv below) read *)
Definition rview (s : req) :=
  (rq_closed s, rq_readable s, rq_writable s, rq_ready s, rq_sendq s, rq_ctxs s, rq_ids s, rq_cursor s).
Lemma rview_eq s s' : rview s' = rview s ->
  rq_closed s' = rq_closed s /\ rq_readable s' = rq_readable s /\ rq_writable s' = rq_writable s /\ rq_ready s' = rq_ready s /\
  rq_sendq s' = rq_sendq s /\ rq_ctxs s' = rq_ctxs s /\ rq_ids s' = rq_ids s /\ rq_cursor s' = rq_cursor s.
Proof. unfold rview. intros E. injection E. intros. repeat split; assumption. Qed.
Lemma view_inv s s' : RInv s -> rview s' = rview s -> RInv s'.
Proof.
  intros H E. apply rview_eq in E as (E1 & E2 & E3 & E4 & E5 & E6 & _). unfold RInv, Core. now rewrite E1, E2, E3, E4, E5, E6.
Qed.

Lemma core_req s k c : Core s -> In k (rq_sendq s) -> lookup k (rq_ctxs s) = Some c -> exists m, cx_req c = Some m.
Proof. intros (_ & _ & _ & HS & _) Hin Hk. destruct (HS k Hin) as (c' & m & A & B). rewrite Hk in A. inversion A; subst. eauto. Qed.
Lemma core_r s c : Core s -> lookup 0%N (rq_ctxs s) = Some c -> rq_readable s = is_some (cx_rep c).
Proof. intros (_ & (c0 & A & B) & _) Hk. rewrite Hk in A. inversion A; subst. exact B. Qed.
Lemma core_c s k c : Core s -> lookup k (rq_ctxs s) = Some c -> cx_recv c <> None -> cx_rep c = None.
Proof. intros (_ & _ & HC & _). apply HC. Qed.

Lemma ctx_reset_fields fx s k c s2 c2 o :
  ctx_reset fx s k c = (s2, c2, o) ->
  rq_ctxs s2 = rq_ctxs s /\ rq_closed s2 = rq_closed s /\ rq_ready s2 = rq_ready s /\ rq_writable s2 = rq_writable s /\
  rq_sendq s2 = remove_id k (rq_sendq s) /\
  rq_readable s2 = (if fx_rdclr fx && N.eqb k 0 && is_some (cx_rep c) then false else rq_readable s) /\
  rq_now s2 = rq_now s /\ rq_active s2 = rq_active s /\
  c2 = mkRctx 0 (cx_recv c) (cx_send c) None None (cx_retry c) (cx_sretry c) (cx_rtime c) false false /\
  (forall a, compl_of a o = []).
Proof.
  unfold ctx_reset. intros H. inversion H; subst; clear H.
  change (match cx_rep c with Some _ => true | None => false end) with (is_some (cx_rep c)).
  destruct (fx_rdclr fx && N.eqb k 0 && is_some (cx_rep c)); destruct (N.eqb (cx_rid c) 0); sv;
    (repeat (split; [reflexivity|])); intros a; rewrite compl_of_app;
    (destruct (cx_req c); [destruct (retry_on fx c)|]); destruct (cx_rep c); reflexivity.
Qed.

Lemma ctx_reset_rep fx s k c s2 c2 o : ctx_reset fx s k c = (s2, c2, o) -> cx_rep c2 = None.
Proof. intros H. apply ctx_reset_fields in H as (_ & _ & _ & _ & _ & _ & _ & _ & -> & _). reflexivity. Qed.

Lemma run_sendq_noready fx f s : rq_ready s = [] -> run_sendq fx f s = (s, [], []).
Proof. intros H. destruct f; cbn [run_sendq]; [reflexivity|]. rewrite H. destruct (rq_sendq s); reflexivity. Qed.
Lemma run_sendq_noqueue fx f s : rq_sendq s = [] -> run_sendq fx f s = (s, [], []).
Proof. intros H. destruct f; cbn [run_sendq]; [reflexivity|]. now rewrite H. Qed.

(* one turn of the loop that does send: the head of the queue goes to the first ready pipe; what the invariant
   reads of the state it continues from *)
Lemma run_sendq_step fx f s k sq p rd c m :
  rq_sendq s = k :: sq -> rq_ready s = p :: rd -> lookup k (rq_ctxs s) = Some c -> cx_req c = Some m ->
  exists s6 c', fst (fst (run_sendq fx (S f) s)) = fst (fst (run_sendq fx f s6)) /\
    rq_closed s6 = rq_closed s /\ rq_readable s6 = rq_readable s /\ rq_sendq s6 = sq /\ rq_ready s6 = rd /\
    rq_writable s6 = (if is_nil rd then false else rq_writable s) /\ rq_ctxs s6 = assoc_set k c' (rq_ctxs s) /\
    cx_recv c' = cx_recv c /\ cx_req c' = Some m /\ cx_rep c' = cx_rep c.
Proof.
  intros ES ER Hk Hm. cbn [run_sendq]. rewrite ES, ER. unfold ctx_get at 1. rewrite Hk, Hm.
  match goal with |- context [run_sendq fx f ?X] => exists X end. match goal with |- context [ctx_put _ k ?C] => exists C end.
  split; [apply fst_let3|].
  destruct (retry_on fx c); destruct (is_nil rd); repeat split.
Qed.

Lemma run_sendq_inv fx : forall f s, length (rq_sendq s) <= f -> RPre s -> RInv (fst (fst (run_sendq fx f s))).
Proof.
  induction f as [|f IH]; intros s Hl [HC HW].
  - cbn [run_sendq fst]. destruct (rq_sendq s) eqn:ES; [|cbn in Hl; lia].
    split; [exact HC|]. split; [|right; exact ES].
    destruct HW as [HW|(p & _ & Hne & _)]; [exact HW|]. now elim Hne.
  - destruct (rq_sendq s) as [|k sq] eqn:ES.
    { rewrite run_sendq_noqueue by exact ES. cbn [fst]. split; [exact HC|]. split; [|right; exact ES].
      destruct HW as [HW|(p & _ & Hne & _)]; [exact HW|]. now elim Hne. }
    destruct (rq_ready s) as [|p rd] eqn:ER.
    { rewrite run_sendq_noready by exact ER. cbn [fst]. split; [exact HC|]. split; [|left; exact ER].
      destruct HW as [HW|(p & Hp & _)]; [rewrite ER; exact HW|]. discriminate. }
    assert (Hk : exists c m, lookup k (rq_ctxs s) = Some c /\ cx_req c = Some m).
    { destruct HC as (_ & _ & _ & HS & _). apply HS. rewrite ES. now left. }
    destruct Hk as (c & m & Hk & Hm).
    destruct (run_sendq_step fx f s k sq p rd c m ES ER Hk Hm) as (s6 & c' & -> & F1 & F2 & F3 & F4 & F5 & F6 & R1 & R2 & R3).
    apply IH; [rewrite F3; cbn in Hl; lia|]. split.
    + unfold Core. rewrite F1, F2, F3, F6. eapply coreV_update; [exact HC|exact Hk| | | |].
      * intros x Hx. right. rewrite ES. now right.
      * intros _. exists m. exact R2.
      * rewrite R3. destruct (N.eqb_spec k 0) as [->|Hne]; [|reflexivity]. exact (core_r s c HC Hk).
      * rewrite R1, R3. exact (core_c s k c HC Hk).
    + left. unfold WV. rewrite F4, F5. destruct rd as [|p2 rd]; [reflexivity|]. cbn [is_nil negb].
      destruct HW as [HW|(q & Hq & _)]; [exact HW|]. discriminate.
Qed.
Lemma run_send_queue_inv fx s : RPre s -> RInv (fst (fst (run_send_queue fx s))).
Proof. intros H. unfold run_send_queue. now apply run_sendq_inv. Qed.

(* req0_ctx_send, in named pieces *)
Definition snd_o1 (c : rctx) : list pout := match cx_recv c with Some ra => [Complete ra E_CANCELED None] | None => [] end.
Definition snd_pre (s : req) (k : N) (c : rctx) : req * rctx * list pout :=
  match cx_send c with
  | Some sa => (set_sendq s (remove_id k (rq_sendq s)),
                mkRctx (cx_rid c) None None None (cx_rep c) (cx_retry c) (cx_sretry c) (cx_rtime c) (cx_creset c) false,
                [Complete sa E_CANCELED None])
  | None => (s, mkRctx (cx_rid c) None None (cx_req c) (cx_rep c) (cx_retry c) (cx_sretry c) (cx_rtime c) (cx_creset c) (cx_owned c), [])
  end.
Definition snd_c3nb (id : N) (c2 : rctx) : rctx :=
  mkRctx id (cx_recv c2) (cx_send c2) None None (cx_retry c2) (cx_sretry c2) (cx_rtime c2) false false.
Definition snd_c3 (s2 : req) (c2 : rctx) (a : aioid) (id : N) (m' : pmsg) : rctx :=
  mkRctx id None (Some a) (Some m') None (cx_retry c2) (cx_retry c2)
         (if (0 <? cx_retry c2)%Z then after (rq_now s2) (cx_retry c2) else cx_rtime c2) false true.
Definition snd_enq (s2 : req) (k : N) (c2 : rctx) (a : aioid) (id cur' : N) (m' : pmsg) : req * list pout :=
  let s3 := set_ids s2 (rq_ids s2 ++ [(id, k)]) cur' in
  let rt := (0 <? cx_retry c2)%Z in
  let c3 := snd_c3 s2 c2 a id m' in
  let s4 := if rt then set_retryq s3 (rq_retryq s3 ++ [k]) else s3 in
  let '(s5, o4) := if rt && negb (rq_active s4)
                   then (set_timer s4 true (tick_deadline (rq_now s4) (rq_tick s4)), arm_out (tick_deadline (rq_now s4) (rq_tick s4)))
                   else (s4, []) in
  (set_sendq (ctx_put s5 k c3) (rq_sendq s5 ++ [k]), o4).
Definition snd_full (s2 : req) : bool := (REQ_ID_MAX - REQ_ID_MIN <? N.of_nat (length (rq_ids s2)))%N.

(* req0_ctx_send once the context is reset; pre puts the completions made so far in front *)
Definition snd_tail fx s2 k c2 a nb m (pre : list pout -> list pout) : req * list pout * list pmsg :=
  if snd_full s2 then (ctx_put s2 k c2, pre [Complete a E_NOMEM None], []) else
  match id_alloc (S (length (rq_ids s2))) (rq_ids s2) (rq_cursor s2) with
  | None => (ctx_put s2 k c2, pre [Complete a E_NOMEM None], [])
  | Some (id, cur') =>
      if is_nil (rq_ready s2) && nb
      then (ctx_put (set_ids s2 (rq_ids s2) cur') k (snd_c3nb id c2), pre [Complete a E_AGAIN None], [])
      else let '(s6, o4) := snd_enq s2 k c2 a id cur' (req_send id m) in
           let '(s7, o5, cl) := run_send_queue fx s6 in
           (s7, pre (o4 ++ o5), cl)
  end.

Lemma req_ctx_send_eq fx s k c a nb m :
  req_ctx_send fx s k c a nb m =
  if rq_closed s then (s, [Complete a E_CLOSED None], []) else
  let '(s1, c1, o2) := snd_pre s k c in
  let '(s2, c2, o3) := ctx_reset fx s1 k c1 in
  snd_tail fx s2 k c2 a nb m (fun tl => snd_o1 c ++ o2 ++ o3 ++ tl).
Proof.
  unfold req_ctx_send, snd_tail. fold (snd_o1 c). fold (snd_pre s k c). destruct (rq_closed s); [reflexivity|].
  destruct (snd_pre s k c) as [[s1 c1] o2]. destruct (ctx_reset fx s1 k c1) as [[s2 c2] o3].
  unfold snd_full. destruct (_ <? _)%N; [reflexivity|].
  destruct (id_alloc (S (length (rq_ids s2))) (rq_ids s2) (rq_cursor s2)) as [[id cur']|]; [|reflexivity].
  destruct (is_nil (rq_ready s2) && nb); [reflexivity|]. unfold snd_enq, snd_c3. cbv zeta.
  destruct (0 <? cx_retry c2)%Z; cbn [andb]; [destruct (rq_active _)|]; reflexivity.
Qed.

Lemma snd_pre_fields s k c s1 c1 o2 :
  snd_pre s k c = (s1, c1, o2) ->
  rview (set_sendq s1 (rq_sendq s)) = rview s /\ (forall x, In x (rq_sendq s1) -> In x (rq_sendq s)) /\
  cx_rid c1 = cx_rid c /\ cx_rep c1 = cx_rep c /\ cx_recv c1 = None /\ cx_send c1 = None /\
  (forall b, cx_send c <> Some b -> compl_of b o2 = []).
Proof.
  unfold snd_pre. destruct (cx_send c) as [sa|]; intros H; inversion H; subst; clear H; cxs; (split; [reflexivity|]).
  - split; [intros x Hx; apply in_remove_id in Hx; apply Hx|]. repeat (split; [reflexivity|]).
    intros b Hb. apply compl_of_other. congruence.
  - split; [auto|]. repeat (split; [reflexivity|]). reflexivity.
Qed.
Lemma snd_o1_compl c b : cx_recv c <> Some b -> compl_of b (snd_o1 c) = [].
Proof. unfold snd_o1. destruct (cx_recv c); [|reflexivity]. intros H. apply compl_of_other. congruence. Qed.

Lemma snd_enq_fields s2 k c2 a id cur' m' s6 o4 :
  snd_enq s2 k c2 a id cur' m' = (s6, o4) ->
  rq_closed s6 = rq_closed s2 /\ rq_readable s6 = rq_readable s2 /\ rq_writable s6 = rq_writable s2 /\
  rq_ready s6 = rq_ready s2 /\ rq_sendq s6 = rq_sendq s2 ++ [k] /\
  rq_ctxs s6 = assoc_set k (snd_c3 s2 c2 a id m') (rq_ctxs s2) /\ rq_ids s6 = rq_ids s2 ++ [(id, k)] /\ rq_cursor s6 = cur' /\
  (forall b, compl_of b o4 = []).
Proof.
  unfold snd_enq. cbv zeta. destruct (0 <? cx_retry c2)%Z; cbn [andb].
  - match goal with |- context [negb ?B] => destruct B end; cbn [negb]; intros H; inversion H; subst; clear H; sv;
      repeat (split; [reflexivity|]); intros b; [reflexivity|].
    unfold arm_out. destruct (tick_deadline _ _); reflexivity.
  - intros H; inversion H; subst; clear H; sv. repeat (split; [reflexivity|]). reflexivity.
Qed.

(* a context is reset, possibly after it left the send queue, and then stored again with no reply *)
Lemma reset_put_pre fx s k c0 cin s1 s2 c2 o c3 s' :
  fx_rdclr fx = true -> RInv s -> lookup k (rq_ctxs s) = Some c0 -> cx_rep cin = cx_rep c0 ->
  rview (set_sendq s1 (rq_sendq s)) = rview s -> (forall x, In x (rq_sendq s1) -> In x (rq_sendq s)) ->
  ctx_reset fx s1 k cin = (s2, c2, o) -> cx_rep c3 = None ->
  rq_closed s' = rq_closed s2 -> rq_readable s' = rq_readable s2 -> rq_writable s' = rq_writable s2 ->
  rq_ready s' = rq_ready s2 -> rq_ctxs s' = assoc_set k c3 (rq_ctxs s2) ->
  (forall x, In x (rq_sendq s') -> x = k \/ In x (rq_sendq s2)) -> (In k (rq_sendq s') -> exists m, cx_req c3 = Some m) ->
  Core s' /\ WV (rq_writable s') (rq_ready s') /\ rq_ready s' = rq_ready s.
Proof.
  intros Hfx (HC & HW & HQ) Hk Hrep V Hsq HR Hc3 F1 F2 F3 F4 F5 Hsq' Hkq.
  apply rview_eq in V. svin V. destruct V as (E1 & E3 & E4 & E5 & _ & E2 & _).
  apply ctx_reset_fields in HR as (G1 & G2 & G3 & G4 & G5 & G6 & _).
  split; [|split].
  - unfold Core. rewrite F1, F2, F5, G1, G2, E1, E2.
    apply coreV_update with (rd := rq_readable s) (sq := rq_sendq s) (c := c0); auto.
    + intros x Hx. destruct (Hsq' x Hx) as [E|Hin]; [now left|]. right. rewrite G5 in Hin.
      apply in_remove_id in Hin as [Hin _]. now apply Hsq.
    + rewrite G6, Hfx, Hc3, E3, Hrep. cbn [andb is_some]. destruct (N.eqb_spec k 0) as [->|Hne]; [|reflexivity].
      destruct (is_some (cx_rep c0)) eqn:E; [reflexivity|]. now rewrite (core_r s c0 HC Hk).
  - now rewrite F3, F4, G3, G4, E4, E5.
  - now rewrite F4, G3, E5.
Qed.

Lemma reset_put_inv fx s k c0 cin s1 s2 c2 o c3 s' :
  fx_rdclr fx = true -> RInv s -> lookup k (rq_ctxs s) = Some c0 -> cx_rep cin = cx_rep c0 ->
  rview (set_sendq s1 (rq_sendq s)) = rview s -> (forall x, In x (rq_sendq s1) -> In x (rq_sendq s)) ->
  ctx_reset fx s1 k cin = (s2, c2, o) -> cx_rep c3 = None ->
  rq_closed s' = rq_closed s2 -> rq_readable s' = rq_readable s2 -> rq_writable s' = rq_writable s2 ->
  rq_ready s' = rq_ready s2 -> rq_ctxs s' = assoc_set k c3 (rq_ctxs s2) -> rq_sendq s' = rq_sendq s2 ->
  RInv s'.
Proof.
  intros Hfx HI Hk Hrep V Hsq HR Hc3 F1 F2 F3 F4 F5 F6.
  assert (G5 : rq_sendq s2 = remove_id k (rq_sendq s1)) by (apply ctx_reset_fields in HR; tauto).
  destruct (reset_put_pre fx s k c0 cin s1 s2 c2 o c3 s') as (A & B & C); auto.
  - intros x Hx. right. now rewrite <- F6.
  - intros Hx. rewrite F6, G5 in Hx. now apply notin_remove_id in Hx.
  - split; [exact A|]. split; [exact B|]. rewrite C, F6, G5. apply (QV_sub _ (rq_sendq s)); [apply HI|].
    intros x Hx. apply in_remove_id in Hx as [Hx _]. now apply Hsq.
Qed.

Lemma stepL_fst fx s o : fst (req_step fx s o) = fst (fst (req_stepL fx s o)).
Proof. unfold req_step. destruct (req_stepL fx s o) as [[s' outs] cl]. reflexivity. Qed.

Lemma inv_send fx : fx_rdclr fx = true -> forall s c a nb m, RInv s -> RInv (fst (fst (req_stepL fx s (PSend c a nb m)))).
Proof.
  intros Hfx s c a nb m HI. cbn [req_stepL]. unfold ctx_get. destruct (lookup (ckey c) (rq_ctxs s)) as [cx|] eqn:Hk; [|exact HI].
  rewrite req_ctx_send_eq. assert (Hcl : rq_closed s = false) by apply HI. rewrite Hcl.
  destruct (snd_pre s (ckey c) cx) as [[s1 c1] o2] eqn:E1.
  apply snd_pre_fields in E1 as (V & Hsq & _ & A7 & _).
  destruct (ctx_reset fx s1 (ckey c) c1) as [[s2 c2] o3] eqn:E2.
  pose proof (ctx_reset_rep _ _ _ _ _ _ _ E2) as Hc2.
  unfold snd_tail. destruct (snd_full s2).
  { cbn [fst]. eapply reset_put_inv with (c3 := c2); eauto. }
  destruct (id_alloc (S (length (rq_ids s2))) (rq_ids s2) (rq_cursor s2)) as [[id cur']|].
  2:{ cbn [fst]. eapply reset_put_inv with (c3 := c2); eauto. }
  destruct (is_nil (rq_ready s2) && nb).
  { cbn [fst]. eapply reset_put_inv with (c3 := snd_c3nb id c2); eauto. }
  destruct (snd_enq s2 (ckey c) c2 a id cur' (req_send id m)) as [s6 o4] eqn:E6.
  apply snd_enq_fields in E6 as (B1 & B2 & B3 & B4 & B5 & B6 & _).
  rewrite fst_let3. apply run_send_queue_inv.
  destruct (reset_put_pre fx s (ckey c) cx c1 s1 s2 c2 o3 (snd_c3 s2 c2 a id (req_send id m)) s6) as (X & Y & _); auto.
  - intros x Hx. rewrite B5 in Hx. apply in_app_or in Hx as [Hx|[Hx|[]]]; auto.
  - intros _. eexists. reflexivity.
  - split; [exact X|]. left. exact Y.
Qed.

Lemma put_inv s k c c' s' :
  RInv s -> lookup k (rq_ctxs s) = Some c ->
  rq_closed s' = rq_closed s -> rq_writable s' = rq_writable s -> rq_ready s' = rq_ready s ->
  rq_ctxs s' = assoc_set k c' (rq_ctxs s) ->
  (forall x, In x (rq_sendq s') -> In x (rq_sendq s)) ->
  (In k (rq_sendq s') -> exists m, cx_req c' = Some m) ->
  rq_readable s' = (if N.eqb k 0 then is_some (cx_rep c') else rq_readable s) ->
  (cx_recv c' <> None -> cx_rep c' = None) -> RInv s'.
Proof.
  intros (HC & HW & HQ) Hk E1 E2 E3 E4 Hsq Hkq E5 Hc'. split; [|split].
  - unfold Core. rewrite E1, E4. eapply coreV_update; eauto.
  - now rewrite E2, E3.
  - rewrite E3. exact (QV_sub _ _ _ HQ Hsq).
Qed.

Lemma inv_ctxopen s k : RInv s -> lookup (k + 1)%N (rq_ctxs s) = None ->
  RInv (set_ctxs s (rq_ctxs s ++ [((k + 1)%N, ctx_init (rq_retry s))])).
Proof.
  intros ((Hcl & (c0 & H0 & Hr) & HC & HS & HN) & HW & HQ) Hk. split; [|split; sv; assumption].
  unfold Core, CoreV. sv. split; [exact Hcl|]. split.
  { exists c0. split; [now apply lookup_app_some|exact Hr]. }
  split.
  { intros k2 c2 H2. apply lookup_app_one in H2 as [H2|[_ ->]]; [now apply HC with k2|reflexivity]. }
  split.
  { intros x Hx. destruct (HS x Hx) as (c2 & m2 & A & B). exists c2, m2. split; [now apply lookup_app_some|exact B]. }
  rewrite map_app. cbn [map fst]. apply ListX.nodup_snoc; [exact HN|]. now apply lookup_none_notin.
Qed.

Lemma retry_scan_false s now ks : forall sq sq', retry_scan s now ks sq = (sq', false) -> sq' = sq.
Proof.
  induction ks as [|k r IH]; intros sq sq' H; cbn [retry_scan] in H; [now inversion H|].
  destruct (ctx_get s k) as [c|]; [|now apply IH].
  destruct (_ || _); [now apply IH|].
  destruct (retry_scan s now r (if has_id k sq then sq else sq ++ [k])) as [sq2 b]. discriminate.
Qed.
Lemma retry_scan_S s now ks : forall sq x, In x (fst (retry_scan s now ks sq)) ->
  In x sq \/ exists c m, ctx_get s x = Some c /\ cx_req c = Some m.
Proof.
  induction ks as [|k r IH]; intros sq x H; cbn [retry_scan] in H; [now left|].
  destruct (ctx_get s k) as [c|] eqn:Hk; [|now apply IH].
  destruct (cx_req c) as [mq|] eqn:Hq.
  2:{ rewrite orb_true_r in H. now apply IH. }
  destruct (_ || _); [now apply IH|].
  destruct (retry_scan s now r (if has_id k sq then sq else sq ++ [k])) as [sq2 b] eqn:E. cbn [fst] in H.
  specialize (IH (if has_id k sq then sq else sq ++ [k]) x). rewrite E in IH. cbn [fst] in IH.
  destruct (IH H) as [Hin|Hex]; [|now right].
  destruct (has_id k sq); [now left|]. apply in_app_or in Hin as [Hin|[<-|[]]]; [now left|]. right. eauto.
Qed.

(* What req0_ctx_recv, req0_ctx_cancel_*, req0_ctx_fini, req0_pipe_recv_cb, the option setters, req0_pipe_start,
   req0_pipe_close, the send completion and req0_retry_cb do to the fields the invariants read (rview) is a
   sequence of moves of eight kinds.  A premise "rview (set_f s1 (rq_f s)) = rview s" says that s1 differs from s
   in field f at most. *)
Inductive mv (fx : rfix) (s : req) : req -> Prop :=
(* what changes, neither invariant reads *)
| Mv_view s' : rview s' = rview s -> mv fx s s'
(* a context is stored with its id, request and reply as they were *)
| Mv_put k c c' s' :
    lookup k (rq_ctxs s) = Some c -> rview s' = rview (ctx_put s k c') ->
    cx_rid c' = cx_rid c -> cx_recv c' = cx_recv c \/ cx_rep c = None -> cx_req c' = cx_req c -> cx_rep c' = cx_rep c ->
    mv fx s s'
(* req0_ctx_recv hands the reply over *)
| Mv_take k c c' s' :
    lookup k (rq_ctxs s) = Some c ->
    rview s' = rview (set_readable (ctx_put s k c') (if N.eqb k 0 then false else rq_readable s)) ->
    cx_rid c' = cx_rid c -> cx_recv c' = None -> cx_req c' = cx_req c -> cx_rep c' = None -> mv fx s s'
(* req0_ctx_reset, possibly after the context left the send queue; the context is stored without a reply *)
| Mv_reset k c cin s1 s2 c2 o c3 s' :
    ctx_reset fx s1 k cin = (s2, c2, o) -> lookup k (rq_ctxs s) = Some c ->
    cx_rid cin = cx_rid c -> cx_rep cin = cx_rep c ->
    rview (set_sendq s1 (rq_sendq s)) = rview s -> rview s' = rview (ctx_put s2 k c3) ->
    (forall x, In x (rq_sendq s1) -> In x (rq_sendq s)) -> cx_rep c3 = None -> mv fx s s'
(* req0_pipe_recv_cb finds the context registered under a reply's id *)
| Mv_match id k c c' rd s' :
    lookup id (rq_ids s) = Some k -> lookup k (rq_ctxs s) = Some c -> cx_rep c = None ->
    rview s' = rview (set_readable (set_ids (set_sendq (ctx_put s k c') (remove_id k (rq_sendq s)))
                                            (assoc_del id (rq_ids s)) (rq_cursor s)) rd) ->
    rd = (if N.eqb k 0 && is_some (cx_rep c') then true else rq_readable s) -> cx_recv c' = None -> mv fx s s'
(* req0_ctx_fini of a context other than the socket's own, which then goes *)
| Mv_close k c cin s2 c2 o s' :
    ctx_reset fx s k cin = (s2, c2, o) -> lookup k (rq_ctxs s) = Some c -> cx_rid cin = cx_rid c -> k <> 0%N ->
    rview s' = rview (set_ctxs s2 (assoc_del k (rq_ctxs s2))) -> mv fx s s'
(* a pipe leaves the ready list; with the last one the send descriptor falls *)
| Mv_unready p s' :
    rview s' = rview (set_writable (set_pipes s (remove_id p (rq_ready s)) (rq_busy s) (rq_pclosed s))
                                   (if is_nil (remove_id p (rq_ready s)) then false else rq_writable s)) -> mv fx s s'
(* req0_run_send_queue, after contexts holding a request were queued or a pipe became ready *)
| Mv_run s1 :
    rq_closed s1 = rq_closed s -> rq_readable s1 = rq_readable s -> rq_ctxs s1 = rq_ctxs s ->
    rq_ids s1 = rq_ids s -> rq_cursor s1 = rq_cursor s ->
    (forall x, In x (rq_sendq s1) -> In x (rq_sendq s) \/ exists c m, lookup x (rq_ctxs s) = Some c /\ cx_req c = Some m) ->
    (rq_ready s1 = rq_ready s /\ rq_writable s1 = rq_writable s \/
     exists p, rq_ready s1 = rq_ready s ++ [p] /\ rq_sendq s1 = rq_sendq s /\
               (rq_writable s1 = true \/ rq_sendq s <> [] /\ rq_writable s1 = rq_writable s)) ->
    mv fx s (fst (fst (run_send_queue fx s1))).

Lemma RInv_mv fx : fx_rdclr fx = true -> forall s s', RInv s -> mv fx s s' -> RInv s'.
Proof.
  intros Hfx s s' HI [s2 E|k c c' s2 Hk E R1 R2 R3 R4|k c c' s2 Hk E R1 R2 R3 R4|k c cin s1 s2 c2 o c3 s3 ER Hk R1 R2 E1 E Hsq Hc3
                      |id k c c' rd s2 _ Hk R4 E -> R6|k c cin s2 c2 o s3 ER Hk _ Hk0 E|p s2 E|s1 E1 E2 E3 _ _ Hsq Hrw].
  - (* Mv_view *) exact (view_inv s s2 HI E).
  - (* Mv_put *) refine (view_inv _ s2 _ E).
    eapply (put_inv s k c c'); [exact HI|exact Hk|reflexivity..|sv; auto| | |]; sv; rewrite ?R3, ?R4.
    + intros Hin. eapply core_req; eauto. apply HI.
    + destruct (N.eqb_spec k 0) as [->|]; [|reflexivity]. apply core_r; [apply HI|exact Hk].
    + destruct R2 as [->|R2]; [apply (core_c s k); [apply HI|exact Hk]|intros _; exact R2].
  - (* Mv_take *) refine (view_inv _ s2 _ E).
    eapply (put_inv s k c c'); [exact HI|exact Hk|reflexivity..|sv; auto| | |]; sv; rewrite ?R3, ?R4; auto.
    intros Hin. eapply core_req; eauto. apply HI.
  - (* Mv_reset *) apply (view_inv (ctx_put s2 k c3)); [|exact E].
    eapply (reset_put_inv fx s k c cin s1 s2 c2 o c3); eauto.
  - (* Mv_match *) refine (view_inv _ s2 _ E). eapply (put_inv s k c c'); [exact HI|exact Hk|reflexivity..| | | |]; sv.
    + intros x Hx. apply in_remove_id in Hx. apply Hx.
    + intros Hx. now apply notin_remove_id in Hx.
    + destruct (N.eqb_spec k 0) as [->|]; [|reflexivity]. cbn [andb]. destruct (is_some (cx_rep c')); [reflexivity|].
      rewrite (core_r s c); [now rewrite R4|apply HI|exact Hk].
    + rewrite R6. intros X. now elim X.
  - (* Mv_close *) refine (view_inv _ s3 _ E). apply ctx_reset_fields in ER as (F1 & F2 & F3 & F4 & F5 & F6 & _).
    apply N.eqb_neq in Hk0. rewrite Hk0, andb_false_r in F6. apply N.eqb_neq in Hk0.
    destruct HI as ((Hcl & (c0 & H0 & Hr) & HC & HS & HN) & HW & HQ). split; [|split; sv].
    + unfold Core, CoreV. sv. rewrite F1, F2, F5, F6. split; [exact Hcl|]. split.
      { exists c0. split; [rewrite lookup_assoc_del_other by congruence; exact H0|exact Hr]. }
      split.
      { intros k2 c2' H2. apply lookup_assoc_del_some in H2 as [_ H2]. now apply HC with k2. }
      split; [|now apply ListX.nodup_filter].
      intros x Hx. apply in_remove_id in Hx as [Hx Hne]. destruct (HS x Hx) as (c2' & m2 & A & B).
      exists c2', m2. split; [now rewrite lookup_assoc_del_other by exact Hne|exact B].
    + rewrite F3, F4. exact HW.
    + rewrite F3, F5. destruct HQ as [HQ|HQ]; [now left|right; now apply remove_id_nil].
  - (* Mv_unready *) refine (view_inv _ s2 _ E). destruct HI as (HC & HW & HQ). split; [unfold Core; sv; exact HC|].
    split; unfold WV, QV in *; sv.
    + destruct (is_nil (remove_id p (rq_ready s))) eqn:En; [reflexivity|]. rewrite HW.
      destruct (rq_ready s); [discriminate En|reflexivity].
    + destruct HQ as [HQ|HQ]; [left; now apply remove_id_nil|now right].
  - (* Mv_run *) apply run_send_queue_inv. destruct HI as (HC & HW & HQ). split.
    + unfold Core. rewrite E1, E2, E3. eapply coreV_sq_ext; [exact HC|exact Hsq].
    + unfold WweakV. destruct Hrw as [[A B]|(p & A & B & C)]; [left; now rewrite A, B|].
      rewrite A, B. destruct C as [C|[Hne C]]; rewrite C.
      * left. unfold WV. now destruct (rq_ready s).
      * right. exists p. destruct HQ as [HQ|HQ]; [|contradiction]. unfold WV in HW. rewrite HQ in *.
        split; [reflexivity|]. split; [exact Hne|exact HW].
Qed.

(* an invariant that survives the moves survives the operations made of them *)
Section Walk.
  Variables (fx : rfix) (P : req -> Prop) (ok : req -> pop -> Prop).
  Hypothesis P_keys : forall s, P s -> NoDup (map fst (rq_ctxs s)).
  Hypothesis P_mv : forall s s', P s -> mv fx s s' -> P s'.

  Lemma P_view s s' : P s -> rview s' = rview s -> P s'.
  Proof. intros H E. exact (P_mv s s' H (Mv_view fx s s' E)). Qed.

  Lemma walk_recv s c a nb : P s -> P (fst (fst (req_stepL fx s (PRecv c a nb)))).
  Proof.
    intros HI. cbn [req_stepL]. unfold ctx_get. destruct (lookup (ckey c) (rq_ctxs s)) as [cx|] eqn:Hk; [|exact HI].
    unfold req_ctx_recv. destruct (_ || _).
    - destruct (cx_creset cx); [|exact HI].
      apply (P_mv s _ HI). eapply Mv_put; [exact Hk|reflexivity|reflexivity|now left|reflexivity|reflexivity].
    - destruct (cx_rep cx) as [mr|] eqn:Er.
      + apply (P_mv s _ HI). eapply Mv_take; [exact Hk|destruct (N.eqb (ckey c) 0); reflexivity|reflexivity..].
      + destruct nb; [exact HI|].
        apply (P_mv s _ HI). eapply Mv_put; [exact Hk|reflexivity|reflexivity|now right|reflexivity|cxs; now rewrite Er].
  Qed.

  Lemma walk_recvdone s p rv m : P s -> P (fst (fst (req_stepL fx s (PRecvDone p rv m)))).
  Proof.
    intros HI. destruct (N.eqb_spec rv 0) as [->|Hne].
    2:{ cbn [req_stepL]. apply N.eqb_neq in Hne. rewrite Hne. exact HI. }
    rewrite recvdone_cases. destruct (req_recv (pm_body m)) as [[id m']|]; [|exact HI].
    destruct (matchable_b s id) eqn:EM; [|exact HI].
    apply matchable_b_true in EM as (k & c & H1 & H2 & H3 & H4). rewrite H1, H2. cbv zeta. apply (P_mv s _ HI).
    (* the fields of the two views are computed before they are compared: unifying the states as they stand is slow *)
    destruct (fx_stash fx); destruct (cx_recv c) as [ra|]; destruct (N.eqb k 0) eqn:Ek;
      (eapply Mv_match; [exact H1|exact H2|exact H4|unfold rview; sv; reflexivity|rewrite Ek; reflexivity|reflexivity]).
  Qed.

  Lemma walk_ctxclose s k : P s -> P (fst (fst (req_stepL fx s (PCtxClose k)))).
  Proof.
    intros HI. cbn [req_stepL]. unfold ctx_get. destruct (lookup (k + 1)%N (rq_ctxs s)) as [c|] eqn:Hk; [|exact HI].
    unfold req_ctx_fini. destruct (cx_send c);
      match goal with |- context [ctx_reset fx s ?K ?C] => destruct (ctx_reset fx s K C) as [[s2 c2] o3] eqn:ER end;
      apply (P_mv s _ HI); (eapply Mv_close; [exact ER|exact Hk|reflexivity|lia|reflexivity]).
  Qed.

  Lemma walk_cancel s a rv : P s -> P (fst (fst (req_stepL fx s (PCancel a rv)))).
  Proof.
    intros HI. cbn [req_stepL]. pose proof (P_keys s HI) as HN.
    destruct (find_ctx (fun c => opt_is a (cx_recv c)) (rq_ctxs s)) as [[k c]|] eqn:F1.
    - apply find_ctx_in in F1 as [Hin _]. pose proof (nodup_in_lookup _ _ _ HN Hin) as Hk.
      unfold req_cancel_recv. destruct (cx_send c) as [sa|];
        match goal with |- context [ctx_reset fx ?S k ?C] => destruct (ctx_reset fx S k C) as [[s2 c2] o2] eqn:ER end;
        cbn [fst]; apply (P_mv s _ HI);
        (eapply Mv_reset; [exact ER|exact Hk|reflexivity|reflexivity|reflexivity|reflexivity| |eapply ctx_reset_rep; exact ER]);
        [intros x Hx; apply in_remove_id in Hx; apply Hx|auto].
    - destruct (find_ctx (fun c => opt_is a (cx_send c)) (rq_ctxs s)) as [[k c]|] eqn:F2; [|exact HI].
      apply find_ctx_in in F2 as [Hin _]. pose proof (nodup_in_lookup _ _ _ HN Hin) as Hk.
      unfold req_cancel_send. destruct (fx_cancel fx);
        match goal with |- context [ctx_reset fx ?S k ?C] => destruct (ctx_reset fx S k C) as [[s2 c2] o2] eqn:ER end;
        cbn [fst]; apply (P_mv s _ HI);
        (eapply Mv_reset; [exact ER|exact Hk|reflexivity|reflexivity|reflexivity|reflexivity|auto|eapply ctx_reset_rep; exact ER]).
  Qed.

  Lemma walk_setopt s c o : P s -> P (fst (fst (req_stepL fx s (PSetOpt c o)))).
  Proof.
    intros HI. destruct o as [n|n|n|ms|ms|ms|b|t|t]; destruct c as [k|]; cbn [req_stepL]; try exact HI.
    - destruct (8192 <? N.of_nat n)%N; exact HI.
    - destruct (8192 <? N.of_nat n)%N; exact HI.
    - destruct (_ || _); [exact HI|]. now apply (P_view s).
    - destruct (ms <? -1)%Z; [exact HI|]. unfold ctx_get.
      destruct (lookup (ckey (Some k)) (rq_ctxs s)) as [cx|] eqn:Hk; [|exact HI].
      apply (P_mv s _ HI). eapply Mv_put; [exact Hk|reflexivity|reflexivity|now left|reflexivity|reflexivity].
    - destruct (ms <? -1)%Z; [exact HI|]. unfold ctx_get.
      destruct (lookup (ckey None) (rq_ctxs s)) as [cx|] eqn:Hk; [|exact HI].
      apply (P_mv s _ HI). eapply Mv_put; [exact Hk|reflexivity|reflexivity|now left|reflexivity|reflexivity].
    - destruct (ms <? -1)%Z; [exact HI|]. now apply (P_view s).
  Qed.

  Lemma walk_pipestart s p peer : P s -> P (fst (fst (req_stepL fx s (PPipeStart p peer)))).
  Proof.
    intros HI. cbn [req_stepL]. destruct (negb (N.eqb peer PROTO_REP)); [exact HI|].
    rewrite fst_let3. apply (P_mv s _ HI), Mv_run; [reflexivity..|now left|right; exists p; sv; auto].
  Qed.

  Lemma walk_senddone s p rv : P s -> P (fst (fst (req_stepL fx s (PSendDone p rv)))).
  Proof.
    intros HI. cbn [req_stepL]. destruct (negb (N.eqb rv 0)); [now apply (P_view s)|].
    destruct (_ || _); [now apply (P_view s)|]. sv.
    apply (P_mv s _ HI). destruct (is_nil (rq_sendq s)) eqn:En;
      (apply Mv_run; [reflexivity..|now left|right; exists p; sv; split; [reflexivity|split; [reflexivity|]]]).
    - now left.
    - right. split; [intros E; rewrite E in En; discriminate|reflexivity].
  Qed.

  Lemma walk_tick s now : P s -> P (fst (fst (req_stepL fx s (PTick now)))).
  Proof.
    intros HI. cbn [req_stepL]. assert (H0 : P (set_now s now)) by now apply (P_view s).
    destruct (_ || _); [exact H0|]. destruct (rq_tickdl (set_now s now)) as [d|]; [|exact H0].
    destruct (negb (d <? now)%N); [exact H0|].
    destruct (retry_scan (set_now s now) now (rq_retryq (set_now s now)) (rq_sendq (set_now s now))) as [sq resched] eqn:ES.
    destruct resched.
    - pose proof (retry_scan_S (set_now s now) now (rq_retryq (set_now s now)) (rq_sendq (set_now s now))) as HS.
      rewrite ES in HS. cbn [fst] in HS.
      destruct (is_nil _); rewrite fst_let3;
        (apply (P_mv s _ HI), Mv_run; [reflexivity..|exact HS|left; split; reflexivity]).
    - apply retry_scan_false in ES. subst sq. destruct (is_nil _); now apply (P_view s).
  Qed.

  Lemma walk_pcl p : forall f s, P s -> P (fst (fst (pipe_close_loop fx f s p))).
  Proof.
    induction f as [|f IH]; intros s HI; cbn [pipe_close_loop]; [exact HI|].
    destruct (first_on p (rq_plist s)) as [k|]; [|exact HI].
    set (s0 := set_plist s (plist_del k (rq_plist s))).
    assert (H0 : P s0) by now apply (P_view s).
    unfold ctx_get at 1. destruct (lookup k (rq_ctxs s0)) as [c|] eqn:Hk; [|now apply IH].
    rewrite fst_let3_bind. apply IH. destruct (negb (retry_on fx c)).
    - destruct (cx_recv c) as [ra|] eqn:Era;
        match goal with |- context [ctx_reset fx ?S k ?C] => destruct (ctx_reset fx S k C) as [[s' c'] o'] eqn:ER end;
        cbn [fst]; apply (P_mv s0 _ H0);
        (eapply Mv_reset; [exact ER|exact Hk|reflexivity|reflexivity|reflexivity|reflexivity|auto|cxs; eapply ctx_reset_rep; exact ER]).
    - destruct (cx_req c) as [mq|] eqn:Eq; [|exact H0].
      set (c1 := mkRctx (cx_rid c) (cx_recv c) (cx_send c) (Some mq) (cx_rep c) (cx_retry c) (cx_sretry c)
                        (after (rq_now s0) (eff_retry fx c)) (cx_creset c) (cx_owned c)).
      assert (H1 : P (ctx_put s0 k c1)).
      { apply (P_mv s0 _ H0). eapply Mv_put; [exact Hk|reflexivity|reflexivity|now left|now rewrite Eq|reflexivity]. }
      destruct (has_id k (rq_sendq (ctx_put s0 k c1))); [exact H1|].
      apply (P_mv _ _ H1), Mv_run; [reflexivity..| |left; split; reflexivity]. sv. intros x Hx.
      apply in_app_or in Hx as [Hx|[<-|[]]]; [now left|]. right. exists c1, mq.
      split; [apply lookup_assoc_set_same|reflexivity].
  Qed.

  Lemma walk_pipeclose s p : P s -> P (fst (fst (req_stepL fx s (PPipeClose p)))).
  Proof.
    intros HI. cbn [req_stepL]. apply walk_pcl, (P_mv s _ HI), (Mv_unready fx s p). sv.
    destruct (is_nil (remove_id p (rq_ready s))); reflexivity.
  Qed.

  (* the other two operations touch the two invariants each in its own way *)
  Hypothesis P_send : forall s c a nb m, P s -> P (fst (fst (req_stepL fx s (PSend c a nb m)))).
  Hypothesis P_ctxopen : forall s k, P s -> ok s (PCtxOpen k) -> P (fst (fst (req_stepL fx s (PCtxOpen k)))).

  Theorem walk s o : P s -> ok s o -> o <> PSockClose -> P (fst (req_step fx s o)).
  Proof.
    intros HI Hok Hc. rewrite stepL_fst.
    destruct o.
    - now apply P_send.
    - now apply walk_recv.
    - now apply walk_cancel.
    - now apply walk_pipestart.
    - now apply walk_pipeclose.
    - now apply walk_senddone.
    - now apply walk_recvdone.
    - now apply walk_setopt.
    - now apply P_ctxopen.
    - now apply walk_ctxclose.
    - now elim Hc.
    - now apply walk_tick.
  Qed.
End Walk.

(* the environment contract: an aio is submitted once at a time; a context is opened once; cancel codes
   are not 0; a pipe is started once, with an id not in use; a transport send completion arrives only
   for a send in flight.  Nothing depends on the NONBLOCK flag. *)
Definition req_ok (s : req) (o : pop) : Prop :=
  match o with
  | PSend _ a _ _ => ~ In a (req_busy s)
  | PRecv _ a _ => ~ In a (req_busy s)
  | PCtxOpen k => ctx_get s (k + 1)%N = None
  | PCancel _ rv => rv <> 0%N
  | PPipeStart p _ => ~ In p (rq_ready s) /\ ~ In p (rq_busy s) /\ ~ In p (rq_pclosed s)
  | PSendDone p _ => In p (map fst (rq_sending s))
  | _ => True
  end.
Definition M_req (fx : rfix) : pmodel :=
  mkPM req req_init (req_step fx) req_poll req_ok RInv req_busy (fun _ => true).

Lemma req_inv_init fx : pm_inv (M_req fx) (pm_init (M_req fx)).
Proof.
  cbn. unfold RInv, Core, CoreV, WV, QV. cbn. split; [|split; [reflexivity|now left]].
  split; [reflexivity|]. split.
  { eexists. split; reflexivity. }
  split.
  { intros k c. destruct k; [|discriminate]. intros H. inversion H; subst. reflexivity. }
  split; [intros k []|]. constructor; [intros []|constructor].
Qed.
Lemma req_inv_step fx : fx_rdclr fx = true ->
  forall s o, pm_inv (M_req fx) s -> pm_ok (M_req fx) s o -> o <> PSockClose -> pm_inv (M_req fx) (fst (pm_step (M_req fx) s o)).
Proof.
  intros Hfx. exact (walk fx RInv req_ok (fun s H => proj2 (proj2 (proj2 (proj2 (proj1 H))))) (RInv_mv fx Hfx)
    (inv_send fx Hfx) inv_ctxopen).
Qed.
Theorem req_c15_inv fx : fx_rdclr fx = true -> C15_inv (M_req fx).
Proof. intros Hfx. exact (reachable_ind _ _ (req_inv_init fx) (req_inv_step fx Hfx)). Qed.

Lemma run_send_queue_single fx s k p rd c m :
  rq_sendq s = [k] -> rq_ready s = p :: rd -> lookup k (rq_ctxs s) = Some c -> cx_req c = Some m ->
  exists s7 cl,
    run_send_queue fx s = (s7, (match cx_send c with Some a => [Complete a E_OK None] | None => [] end) ++ [TranSend p m], cl) /\
    exists ow, rq_ctxs s7 = assoc_set k (mkRctx (cx_rid c) (cx_recv c) None (cx_req c) (cx_rep c) (cx_retry c) (cx_sretry c)
                                           (cx_rtime c) (cx_creset c) ow) (rq_ctxs s).
Proof.
  intros Hsq Hrd Hk Hm. unfold run_send_queue. rewrite Hsq. cbn [length run_sendq]. rewrite Hsq, Hrd.
  unfold ctx_get. rewrite Hk, Hm. do 2 eexists. split; [reflexivity|].
  destruct (retry_on fx c); destruct (is_nil rd); sv; eexists; reflexivity.
Qed.

Lemma not_busy_aios s k c a : ~ In a (req_busy s) -> lookup k (rq_ctxs s) = Some c -> cx_recv c <> Some a /\ cx_send c <> Some a.
Proof.
  intros Hn Hk. split; intros E; apply Hn; [eapply busy_lookup_recv|eapply busy_lookup_send]; eauto.
Qed.

(* the two ways req0_ctx_send runs out of request ids *)
Definition send_nomem (fx : rfix) (s : req) (k : N) (cx : rctx) : Prop :=
  let '(s1, c1, _) := snd_pre s k cx in
  let '(s2, _, _) := ctx_reset fx s1 k c1 in
  snd_full s2 = true \/ id_alloc (S (length (rq_ids s2))) (rq_ids s2) (rq_cursor s2) = None.

Lemma req_send_cases fx s c a : RInv s -> ~ In a (req_busy s) ->
  (exists rv s' outs, (rv = E_CLOSED /\ lookup (ckey c) (rq_ctxs s) = None \/
                       rv = E_NOMEM /\ exists cx, lookup (ckey c) (rq_ctxs s) = Some cx /\ send_nomem fx s (ckey c) cx) /\
      (forall nb m, req_step fx s (PSend c a nb m) = (s', outs)) /\
      compl_of a outs = [(rv, None)] /\ ~ In a (req_busy s'))
  \/ (rq_ready s = [] /\
      (exists s' outs, (forall m, req_step fx s (PSend c a true m) = (s', outs)) /\
         compl_of a outs = [(E_AGAIN, None)] /\ ~ In a (req_busy s')) /\
      (forall m, compl_of a (snd (req_step fx s (PSend c a false m))) = [] /\
                 In a (req_busy (fst (req_step fx s (PSend c a false m))))))
  \/ (rq_ready s <> [] /\
      forall m, req_step fx s (PSend c a true m) = req_step fx s (PSend c a false m) /\
                compl_of a (snd (req_step fx s (PSend c a true m))) = [(E_OK, None)] /\
                ~ In a (req_busy (fst (req_step fx s (PSend c a true m))))).
Proof.
  intros HI Hnb. set (k := ckey c).
  destruct (lookup k (rq_ctxs s)) as [cx|] eqn:Hk.
  2:{ left. exists E_CLOSED, s, [Complete a E_CLOSED None]. split; [left; split; reflexivity|]. split.
      - intros nb m. unfold req_step. cbn [req_stepL]. unfold ctx_get. fold k. now rewrite Hk.
      - split; [apply compl_of_self|exact Hnb]. }
  assert (Hcl : rq_closed s = false) by apply HI.
  destruct (not_busy_aios s k cx a Hnb Hk) as [Hra Hsa].
  destruct (snd_pre s k cx) as [[s1 c1] o2] eqn:E1. destruct (ctx_reset fx s1 k c1) as [[s2 c2] o3] eqn:E2.
  assert (Hstep : forall nb m, req_step fx s (PSend c a nb m) =
                    fst (snd_tail fx s2 k c2 a nb m (fun tl => snd_o1 cx ++ o2 ++ o3 ++ tl))).
  { intros nb m. unfold req_step. cbn [req_stepL]. unfold ctx_get. fold k. rewrite Hk, req_ctx_send_eq, Hcl, E1, E2.
    now destruct (snd_tail fx s2 k c2 a nb m _) as [[s7 o7] cl]. }
  unfold snd_tail in Hstep.
  pose proof E1 as E1'. apply snd_pre_fields in E1 as (V & A6 & _ & _ & A8 & A9 & A10).
  apply rview_eq in V. svin V. destruct V as (_ & _ & _ & A5 & _ & A2 & _).
  pose proof (ctx_reset_fields _ _ _ _ _ _ _ E2) as (F1 & F2 & F3 & F4 & F5 & F6 & F7 & F8 & F9 & F10).
  assert (Hpre : forall tl, compl_of a (snd_o1 cx ++ o2 ++ o3 ++ tl) = compl_of a tl).
  { intros tl. rewrite !compl_of_app, snd_o1_compl, A10, F10 by assumption. reflexivity. }
  assert (Hcs : rq_ctxs s2 = rq_ctxs s) by now rewrite F1, A2.
  (* a refusal: the aio is completed, the context stored holds no aio *)
  assert (Href : forall rv s3 c3, rq_ctxs s3 = rq_ctxs s2 -> cx_recv c3 = cx_recv c2 -> cx_send c3 = cx_send c2 ->
            compl_of a (snd_o1 cx ++ o2 ++ o3 ++ [Complete a rv None]) = [(rv, None)] /\ ~ In a (req_busy (ctx_put s3 k c3))).
  { intros rv s3 c3 H3 Hr Hs. split; [rewrite Hpre; apply compl_of_self|].
    unfold req_busy. sv. rewrite H3, Hcs. intros X. apply busy_assoc_set in X as [X|X]; [|contradiction].
    unfold ctx_aios in X. rewrite Hr, Hs, F9 in X. cxs. now rewrite A8, A9 in X. }
  destruct (snd_full s2) eqn:EF; [|destruct (id_alloc (S (length (rq_ids s2))) (rq_ids s2) (rq_cursor s2)) as [[id cur']|] eqn:EA].
  1,3: left; exists E_NOMEM, (ctx_put s2 k c2), (snd_o1 cx ++ o2 ++ o3 ++ [Complete a E_NOMEM None]);
    (split; [right; split; [reflexivity|exists cx; split; [reflexivity|unfold send_nomem; rewrite E1', E2; auto]]|]);
    (split; [intros nb m; now rewrite Hstep|now apply Href]).
  assert (Hrd : rq_ready s2 = rq_ready s) by now rewrite F3, A5. rewrite Hrd in Hstep.
  destruct (rq_ready s) as [|p rd] eqn:ER; [right; left|right; right].
  - split; [reflexivity|]. split.
    + do 2 eexists. split; [intros m; rewrite Hstep; cbn [is_nil andb]; reflexivity|]. now apply Href.
    + intros m. rewrite Hstep. cbn [is_nil andb].
      destruct (snd_enq s2 k c2 a id cur' (req_send id m)) as [s6 o4] eqn:E6.
      apply snd_enq_fields in E6 as (B1 & B2 & B3 & B4 & B5 & B6 & _ & _ & B7).
      unfold run_send_queue. rewrite run_sendq_noready by (now rewrite B4, Hrd). cbn [fst snd]. split.
      * rewrite Hpre, compl_of_app, B7. reflexivity.
      * unfold req_busy. eapply (busy_lookup_send _ k); [rewrite B6; apply lookup_assoc_set_same|reflexivity].
  - split; [discriminate|]. intros m. rewrite !Hstep. cbn [is_nil andb]. split; [reflexivity|].
    destruct (snd_enq s2 k c2 a id cur' (req_send id m)) as [s6 o4] eqn:E6.
    apply snd_enq_fields in E6 as (B1 & B2 & B3 & B4 & B5 & B6 & _ & _ & B7).
    assert (Hsq : rq_sendq s6 = [k]).
    { rewrite B5, F5. destruct HI as (_ & _ & [HQ|HQ]); [rewrite ER in HQ; discriminate|].
      rewrite HQ in A6. now rewrite (incl_l_nil A6). }
    destruct (run_send_queue_single fx s6 k p rd (snd_c3 s2 c2 a id (req_send id m)) (req_send id m)) as (s7 & cl & R1 & ow & R2).
    + exact Hsq.
    + now rewrite B4, Hrd.
    + rewrite B6. apply lookup_assoc_set_same.
    + reflexivity.
    + rewrite R1. cbn [fst snd]. split.
      * rewrite Hpre, compl_of_app, B7. cbn [snd_c3 cx_send app]. rewrite compl_of_cons, compl_of_self. reflexivity.
      * unfold req_busy. rewrite R2, B6, assoc_set_twice, Hcs. intros X. apply busy_assoc_set in X as [X|X]; [|contradiction].
        unfold ctx_aios in X. cxs. cbn [snd_c3 cx_recv] in X. destruct X.
Qed.

Section Clauses.
  Variable fx : rfix.
  Notation M := (M_req fx).

  Lemma req_send_shape s c a m : pm_inv M s -> pm_ok M s (PSend c a true m) -> send_shape M true s c a m.
  Proof.
    intros HI Hok.
    destruct (req_send_cases fx s c a HI Hok) as [(rv & s0 & o0 & Hrv & Hst & Hc & Hb)|[(Hr & (s0 & o0 & Hst & Hc & Hb) & Hq)|(Hr & Hst)]].
    - apply (SsSame rv); unM M_req; rewrite ?Hst; auto. destruct Hrv as [[-> _]|[-> _]]; auto with errs.
    - apply SsAgain; unM M_req; [| |intros m2 _|]; rewrite ?Hst; auto.
      destruct (Hq m) as [C B]. split; [unfold result_of; now rewrite C|exact B].
    - destruct (Hst m) as (Eq & Hc & Hb). apply (SsSame E_OK); [exact Eq|exact Hc|exact ok_neq_again|exact Hb|]. intros X. now elim X.
  Qed.

  (* a NONBLOCK send on the socket's own context against the send descriptor *)
  Lemma req_send_own s a m : RInv s -> ~ In a (req_busy s) ->
    let r := result_of a (snd (req_step fx s (PSend None a true m))) in
    (r = Some E_OK /\ rq_writable s = true) \/ (r = Some E_AGAIN /\ rq_writable s = false) \/
    (r = Some E_NOMEM /\ exists cx, lookup 0%N (rq_ctxs s) = Some cx /\ send_nomem fx s 0%N cx).
  Proof.
    intros HI Hok. cbv zeta. assert (HW : rq_writable s = negb (is_nil (rq_ready s))) by apply HI.
    destruct (req_send_cases fx s None a HI Hok) as [(rv & s0 & o0 & Hrv & Hst & Hc & Hb)|[(Hr & (s0 & o0 & Hst & Hc & Hb) & _)|(Hr & Hst)]].
    - right. right. rewrite Hst. cbn [snd]. rewrite (result_of_compl _ _ _ _ Hc). destruct Hrv as [[_ Hn]|[-> Hn]]; [|auto].
      destruct HI as ((_ & (c0 & A & _) & _) & _). cbn [ckey] in Hn. congruence.
    - right. left. rewrite Hst. cbn [snd]. rewrite (result_of_compl _ _ _ _ Hc), HW, Hr. auto.
    - left. destruct (Hst m) as (_ & Hc & _). rewrite (result_of_compl _ _ _ _ Hc), HW. split; [reflexivity|]. now destruct (rq_ready s).
  Qed.

  Lemma req_mirror_w s : pm_inv M s -> mirror_w_at M s.
  Proof.
    intros HI a m Hok _. unM M_req. unfold rv_send. unM M_req. cbn [req_poll poll_w].
    destruct (req_send_own s a m HI Hok) as [[E ->]|[[E ->]|[E _]]]; cbv zeta in E; rewrite E; unfold_errs.
    - split; [reflexivity|discriminate].
    - split; discriminate.
    - split; discriminate.
  Qed.
  (* exact form of the send half, for every send that is not refused for want of a free request id *)
  Lemma req_mirror_w_exact_but_nomem s : pm_inv M s ->
    forall a m, pm_ok M s (PSend None a true m) -> rv_send M s a m <> Some E_NOMEM ->
    (rq_writable s = true <-> rv_send M s a m = Some E_OK).
  Proof.
    intros HI a m Hok. unM M_req. unfold rv_send. unM M_req.
    destruct (req_send_own s a m HI Hok) as [[E ->]|[[E ->]|[E _]]]; cbv zeta in E; rewrite E; unfold_errs; intros Hn.
    - split; reflexivity.
    - split; discriminate.
    - now elim Hn.
  Qed.
End Clauses.

Lemma aios_notin c a : cx_recv c <> Some a -> cx_send c <> Some a -> ~ In a (ctx_aios c).
Proof.
  unfold ctx_aios. destruct (cx_recv c), (cx_send c); cbn; intros H1 H2 X;
    repeat (destruct X as [X|X]; [subst; congruence|]); exact X.
Qed.
Lemma busy_put_notin s k c c' a :
  ~ In a (req_busy s) -> lookup k (rq_ctxs s) = Some c -> ~ In a (ctx_aios c') -> ~ In a (req_busy (ctx_put s k c')).
Proof.
  intros Hn Hk Hc X. unfold req_busy in X. svin X. apply busy_assoc_set in X as [X|X]; contradiction.
Qed.

Definition recv_guard (c : rctx) : bool :=
  is_some (cx_recv c) || (negb (is_some (cx_req c)) && negb (is_some (cx_rep c))).
Lemma req_ctx_recv_eq s k c a nb :
  req_ctx_recv s k c a nb =
  if recv_guard c then
    if cx_creset c
    then (ctx_put s k (mkRctx (cx_rid c) (cx_recv c) (cx_send c) (cx_req c) (cx_rep c) (cx_retry c) (cx_sretry c) (cx_rtime c) false (cx_owned c)),
          [Complete a E_CONNRESET None])
    else (s, [Complete a E_STATE None])
  else
    match cx_rep c with
    | None =>
        if nb then (s, [Complete a E_AGAIN None])
        else (ctx_put s k (mkRctx (cx_rid c) (Some a) (cx_send c) (cx_req c) None (cx_retry c) (cx_sretry c) (cx_rtime c) (cx_creset c) (cx_owned c)), [])
    | Some m =>
        let s1 := ctx_put s k (mkRctx (cx_rid c) None (cx_send c) (cx_req c) None (cx_retry c) (cx_sretry c) (cx_rtime c) (cx_creset c) (cx_owned c)) in
        ((if N.eqb k 0 then set_readable s1 false else s1), [Complete a E_OK (Some m)])
    end.
Proof. unfold req_ctx_recv, recv_guard. destruct (cx_recv c), (cx_req c), (cx_rep c); reflexivity. Qed.
Lemma req_step_recv fx s c a nb :
  req_step fx s (PRecv c a nb) =
  match lookup (ckey c) (rq_ctxs s) with
  | Some cx => req_ctx_recv s (ckey c) cx a nb
  | None => (s, [Complete a E_CLOSED None])
  end.
Proof.
  unfold req_step. cbn [req_stepL]. unfold ctx_get. destruct (lookup (ckey c) (rq_ctxs s)) as [cx|]; [|reflexivity].
  destruct (req_ctx_recv s (ckey c) cx a nb). reflexivity.
Qed.

Section ClausesR.
  Variable fx : rfix.
  Notation M := (M_req fx).

  Lemma req_recv_shape s c a : pm_ok M s (PRecv c a true) -> recv_shape M true s c a.
  Proof.
    intros Hok. pose proof (req_step_recv fx s c a true) as Et. pose proof (req_step_recv fx s c a false) as Ef.
    destruct (lookup (ckey c) (rq_ctxs s)) as [cx|] eqn:Hk.
    2:{ apply (refused_recv _ _ _ _ _ E_CLOSED); auto with errs. intros []; assumption. }
    destruct (not_busy_aios s _ cx a Hok Hk) as [Hra Hsa].
    rewrite req_ctx_recv_eq in Et, Ef. destruct (recv_guard cx); [destruct (cx_creset cx)|destruct (cx_rep cx) as [mr|]].
    - apply (RsSame E_CONNRESET None); unM M_req; rewrite ?Et, ?Ef; cbn [fst snd]; auto with errs.
      + apply compl_of_self.
      + split; [intros X; now elim X|intros X; now elim connreset_neq_ok].
      + eapply busy_put_notin; eauto. now apply aios_notin.
    - apply (refused_recv _ _ _ _ _ E_STATE); auto with errs. intros []; assumption.
    - apply (RsSame E_OK (Some mr)); unM M_req; rewrite ?Et, ?Ef; cbn [fst snd]; auto with errs.
      + apply compl_of_self.
      + split; [reflexivity|discriminate].
      + destruct (N.eqb (ckey c) 0).
        * eapply busy_put_notin; eauto. apply aios_notin; cxs; [discriminate|exact Hsa].
        * eapply busy_put_notin; eauto. apply aios_notin; cxs; [discriminate|exact Hsa].
    - apply RsAgain; unM M_req; rewrite ?Et, ?Ef; cbn [fst snd]; [apply compl_of_self|exact Hok|].
      split; [reflexivity|]. unfold req_busy. sv. eapply (busy_lookup_recv _ (ckey c)); [apply lookup_assoc_set_same|reflexivity].
  Qed.

  (* the receive descriptor is exact: raised <-> a receive on the socket would hand over a reply *)
  Lemma req_mirror_r_exact s : pm_inv M s -> mirror_r_exact_at M s.
  Proof.
    intros HI a Hok. unM M_req. unfold rv_recv. unM M_req. cbn [req_poll poll_r]. rewrite req_step_recv. cbn [ckey].
    destruct HI as ((_ & (c0 & H0 & Hr) & HC & _) & _). rewrite H0, Hr, req_ctx_recv_eq. unfold recv_guard.
    specialize (HC 0%N c0 H0).
    destruct (cx_recv c0) as [ra|]; cbn [is_some orb].
    - rewrite HC by discriminate. cbn [is_some].
      destruct (cx_creset c0); cbn [snd]; rewrite result_of_single; unfold_errs; split; discriminate.
    - destruct (cx_rep c0) as [mr|]; cbn [is_some negb andb].
      + rewrite andb_false_r. cbn [snd]. rewrite result_of_single. split; reflexivity.
      + destruct (cx_req c0); cbn [is_some negb andb snd].
        * rewrite result_of_single. unfold_errs. split; discriminate.
        * destruct (cx_creset c0); cbn [snd]; rewrite result_of_single; unfold_errs; split; discriminate.
  Qed.
End ClausesR.

Section Lifted.
  Variable fx : rfix.
  Hypothesis Hfx : fx_rdclr fx = true.
  Notation M := (M_req fx).

  Lemma req_c15_nb : C15_nb_immediate M /\ C15_nb_possible M /\ C15_nb_strict M.
  Proof. exact (C15_nb_of_shapes M (req_c15_inv fx Hfx) (req_send_shape fx) (fun s c a _ => req_recv_shape fx s c a)). Qed.
  Theorem req_c15_nb_immediate : C15_nb_immediate M.
  Proof. exact (proj1 req_c15_nb). Qed.
  Theorem req_c15_nb_possible : C15_nb_possible M.
  Proof. exact (proj1 (proj2 req_c15_nb)). Qed.
  (* NNG_EAGAIN only where the blocking form is queued: NNG_ESTATE, NNG_ECLOSED, NNG_ENOMEM are answered by both forms *)
  Theorem req_c15_nb_strict : C15_nb_strict M.
  Proof. exact (proj2 (proj2 req_c15_nb)). Qed.
  Theorem req_c15_mirror : C15_mirror M.
  Proof.
    exact (reachable_both_of_inv M _ _ (req_c15_inv fx Hfx) (fun s HI => mirror_r_exact_weaken M s (req_mirror_r_exact fx s HI)) (req_mirror_w fx)).
  Qed.
  (* C15_mirror_exact, all of it except one case: the receive half is exact; the send half is exact for every
     send that is not answered NNG_ENOMEM.  What is missing: M_req's contract has no bound on the number of
     contexts, so a state with 2^31 live request ids (as many contexts, each with a request outstanding) is
     reachable in principle; there the send descriptor is raised (a pipe is ready) and a send answers NNG_ENOMEM.
     Hence the explicit hypothesis here.  With the bound in the contract (fewer than 2^31 - 1 contexts, pack
     M_req_b at the end of this file) the hypothesis is discharged: reqb_c15_mirror_exact is C15_mirror_exact. *)
  Theorem req_c15_mirror_exact_partial :
    forall s, reachable M s ->
      mirror_r_exact_at M s /\
      (forall a m, pm_ok M s (PSend None a true m) -> rv_send M s a m <> Some E_NOMEM ->
         match poll_w (pm_poll M s) with
         | None => rv_send M s a m = Some E_NOTSUP
         | Some b => b = true <-> rv_send M s a m = Some E_OK
         end).
  Proof.
    intros s R. pose proof (req_c15_inv fx Hfx s R) as HI. split.
    - now apply req_mirror_r_exact.
    - intros a m Hok Hn. exact (req_mirror_w_exact_but_nomem fx s HI a m Hok Hn).
  Qed.
End Lifted.

(* the form written in DESIGN 5/C15 is false of REQ, as of every protocol with a state machine: a receive
   before any request answers NNG_ESTATE -- neither NNG_EAGAIN nor advertised by the descriptor *)
Theorem req_c15_mirror_iff_refuted fx : ~ C15_mirror_iff (M_req fx).
Proof.
  intros H. destruct (H req_init (reachable_init (M_req fx))) as [Hr _].
  specialize (Hr 0%N). unM M_req. unfold rv_recv in Hr. unM M_req. cbn [req_poll poll_r req_init rq_readable] in Hr.
  assert (Hok : ~ In 0%N (req_busy req_init)) by (vm_compute; tauto).
  destruct (Hr Hok) as [_ Hr2].
  assert (X : false = true); [|discriminate]. apply Hr2. vm_compute. discriminate.
Qed.

(* without the repair fx_rdclr (req0_ctx_reset leaves the receive descriptor raised when it throws the socket's
   stashed reply away) the property itself fails: descriptor raised, receive answers NNG_EAGAIN *)
Definition w15_rdclr : list pop :=
  [PPipeStart 1%N PROTO_REP; PSend None 0%N false w_req; PSendDone 1%N 0%N; PRecvDone 1%N 0%N w_reply;
   PSend None 1%N false w_req].
(* a concrete history respects the contract: by computation *)
Ltac ok_tac :=
  cbn [pops_ok];
  repeat (split; [vm_compute; intuition (try discriminate; try congruence)|split; [discriminate|]]);
  try exact I.
Theorem req_c15_mirror_refuted_without_rdclr fx : fx_rdclr fx = false -> ~ C15_mirror (M_req fx).
Proof.
  intros Hf H. destruct fx as [f1 f2 f3 f4]. cbn in Hf. subst f4.
  assert (R : reachable (M_req (mkFix f1 f2 f3 false)) (prun (M_req (mkFix f1 f2 f3 false)) req_init w15_rdclr)).
  { exists w15_rdclr. split; [|reflexivity]. unfold w15_rdclr. destruct f1, f2, f3; ok_tac. }
  destruct (H _ R) as [Hr _]. specialize (Hr 9%N).
  destruct f1, f2, f3; vm_compute in Hr; (destruct Hr as [_ Hr]; [tauto|]); now apply Hr.
Qed.

(* non-vacuity: both descriptors are lowered at the start; w15_reply raises the receive descriptor
   (reqb_reachable_r_raised) *)
Definition w15_reply : list pop :=
  [PPipeStart 1%N PROTO_REP; PSend None 0%N false w_req; PSendDone 1%N 0%N; PRecvDone 1%N 0%N w_reply].
Example req_reachable_lowered fx :
  reachable (M_req fx) req_init /\ poll_r (pm_poll (M_req fx) req_init) = Some false /\ poll_w (pm_poll (M_req fx) req_init) = Some false.
Proof. split; [apply (reachable_init (M_req fx))|split; reflexivity]. Qed.

(* The request-id map, for the exact send mirror.
   Under a bound on the number of contexts (an honest resource contract: fewer than 2^31 - 1 contexts) a send is
   never refused with NNG_ENOMEM, and then the send descriptor is exact too.  The bound lives in a second pack,
   M_req_b; nothing above depends on it. *)
Definition JV (ids : list (N * N)) (cur : N) (cs : list (N * rctx)) : Prop :=
  NoDup (map fst ids) /\
  (forall id k, In (id, k) ids -> cursor_ok id /\ exists c, lookup k cs = Some c /\ cx_rid c = id) /\
  cursor_ok cur.
(* context keys: unique, and fewer than 2^31 of them *)
Definition KeysOK (l : list N) : Prop := NoDup l /\ (N.of_nat (length l) <= REQ_ID_MAX - REQ_ID_MIN)%N.
Definition JInv (s : req) : Prop := JV (rq_ids s) (rq_cursor s) (rq_ctxs s) /\ KeysOK (map fst (rq_ctxs s)).
Lemma keysok_assoc_del {A} k (l : list (N * A)) : KeysOK (map fst l) -> KeysOK (map fst (assoc_del k l)).
Proof.
  intros [H1 H2]. split; [now apply ListX.nodup_filter|]. rewrite map_length in *.
  pose proof (ListX.filter_len_le (fun x : N * A => negb (N.eqb (fst x) k)) l). unfold assoc_del. lia.
Qed.

Lemma JV_put_same ids cur cs k c c' :
  JV ids cur cs -> lookup k cs = Some c -> cx_rid c' = cx_rid c -> JV ids cur (assoc_set k c' cs).
Proof.
  intros (H1 & H2 & H3) Hk Hr. split; [exact H1|]. split; [|exact H3].
  intros id k2 Hin. destruct (H2 id k2 Hin) as (Hc & c2 & A & B). split; [exact Hc|].
  destruct (N.eq_dec k2 k) as [->|Hne].
  - exists c'. split; [apply lookup_assoc_set_same|]. rewrite Hk in A. inversion A; subst. congruence.
  - exists c2. split; [now rewrite lookup_assoc_set_other|exact B].
Qed.
Lemma JV_put_free ids cur cs k c' :
  JV ids cur cs -> (forall id, ~ In (id, k) ids) -> JV ids cur (assoc_set k c' cs).
Proof.
  intros (H1 & H2 & H3) Hf. split; [exact H1|]. split; [|exact H3].
  intros id k2 Hin. destruct (H2 id k2 Hin) as (Hc & c2 & A & B). split; [exact Hc|].
  destruct (N.eq_dec k2 k) as [->|Hne]; [now apply Hf in Hin|].
  exists c2. split; [now rewrite lookup_assoc_set_other|exact B].
Qed.
Lemma JV_del ids cur cs id : JV ids cur cs -> JV (assoc_del id ids) cur cs.
Proof.
  intros (H1 & H2 & H3). split; [now apply ListX.nodup_filter|]. split; [|exact H3].
  intros id2 k2 Hin. apply in_assoc_del in Hin as [Hin _]. now apply H2.
Qed.
Lemma JV_cur ids cur cur' cs : JV ids cur cs -> cursor_ok cur' -> JV ids cur' cs.
Proof. intros (H1 & H2 & H3) H. split; [exact H1|]. split; [exact H2|exact H]. Qed.
(* after the entry of a context's own id is deleted nothing points to the context any more *)
Lemma JV_del_free ids cur cs k c :
  JV ids cur cs -> lookup k cs = Some c ->
  forall id, ~ In (id, k) (if N.eqb (cx_rid c) 0 then ids else assoc_del (cx_rid c) ids).
Proof.
  intros (H1 & H2 & H3) Hk id Hin.
  assert (Hin0 : In (id, k) ids) by (destruct (N.eqb (cx_rid c) 0); [exact Hin|now apply in_assoc_del in Hin]).
  destruct (H2 id k Hin0) as (Hc & c2 & A & B). rewrite Hk in A. inversion A; subst c2.
  destruct (N.eqb_spec (cx_rid c) 0) as [E|E].
  - rewrite E in B. subst id. unfold cursor_ok, REQ_ID_MIN in Hc. lia.
  - apply in_assoc_del in Hin as [_ Hne]. cbn [fst] in Hne. congruence.
Qed.
Lemma JV_add ids cur cs id k c3 cur' :
  JV ids cur cs -> lookup id ids = None -> cursor_ok id -> cursor_ok cur' -> (forall i, ~ In (i, k) ids) ->
  cx_rid c3 = id -> JV (ids ++ [(id, k)]) cur' (assoc_set k c3 cs).
Proof.
  intros HJ Hl Hid Hcur Hf Hr. destruct (JV_put_free ids cur cs k c3 HJ Hf) as (H1 & H2 & _). split; [|split; [|exact Hcur]].
  - rewrite map_app. cbn [map fst]. apply ListX.nodup_snoc; [exact H1|]. now apply lookup_none_notin.
  - intros i k2 Hin. apply in_app_or in Hin as [Hin|[E|[]]]; [now apply H2|].
    inversion E; subst. split; [exact Hid|]. exists c3. split; [apply lookup_assoc_set_same|reflexivity].
Qed.

Lemma ctx_reset_ids fx s k c s2 c2 o :
  ctx_reset fx s k c = (s2, c2, o) ->
  rq_ids s2 = (if N.eqb (cx_rid c) 0 then rq_ids s else assoc_del (cx_rid c) (rq_ids s)) /\ rq_cursor s2 = rq_cursor s.
Proof.
  unfold ctx_reset. intros H. inversion H; subst; clear H.
  destruct (fx_rdclr fx && N.eqb k 0 && _); destruct (N.eqb (cx_rid c) 0); sv; split; reflexivity.
Qed.

(* reset a context, then store anything in its place: nothing points to it any more *)
Lemma J_reset_put fx s k c0 cin s1 s2 c2 o c3 s' :
  JInv s -> lookup k (rq_ctxs s) = Some c0 -> cx_rid cin = cx_rid c0 -> rview (set_sendq s1 (rq_sendq s)) = rview s ->
  ctx_reset fx s1 k cin = (s2, c2, o) ->
  rq_ids s' = rq_ids s2 -> rq_cursor s' = rq_cursor s2 -> rq_ctxs s' = assoc_set k c3 (rq_ctxs s2) ->
  JInv s' /\ (forall i, ~ In (i, k) (rq_ids s')).
Proof.
  intros (HJ & HN) Hk Hr V ER F1 F2 F3.
  apply rview_eq in V. svin V. destruct V as (_ & _ & _ & _ & _ & E3 & E1 & E2).
  pose proof (ctx_reset_ids _ _ _ _ _ _ _ ER) as (G1 & G2).
  apply ctx_reset_fields in ER as (G3 & _).
  assert (Hfree : forall i, ~ In (i, k) (rq_ids s')).
  { intros i. rewrite F1, G1, E1, Hr. eapply JV_del_free; eauto. }
  split; [|exact Hfree]. split.
  - rewrite F3, G3, E3, F2, G2, E2. apply JV_put_free; [|exact Hfree]. rewrite F1, G1, E1.
    destruct (N.eqb (cx_rid cin) 0); [exact HJ|now apply JV_del].
  - rewrite F3, G3, E3. now rewrite (map_fst_assoc_set_present _ _ _ _ Hk).
Qed.

Lemma J_view s s' : JInv s -> rq_ids s' = rq_ids s -> rq_cursor s' = rq_cursor s -> rq_ctxs s' = rq_ctxs s -> JInv s'.
Proof. unfold JInv. now intros H -> -> ->. Qed.
Lemma J_put_same s k c c' s' :
  JInv s -> lookup k (rq_ctxs s) = Some c -> cx_rid c' = cx_rid c ->
  rq_ids s' = rq_ids s -> rq_cursor s' = rq_cursor s -> rq_ctxs s' = assoc_set k c' (rq_ctxs s) -> JInv s'.
Proof.
  intros (HJ & HN) Hk Hr E1 E2 E3. split.
  - rewrite E1, E2, E3. eapply JV_put_same; eauto.
  - rewrite E3. now rewrite (map_fst_assoc_set_present _ _ _ _ Hk).
Qed.

Lemma run_sendq_J fx : forall f s, JInv s -> JInv (fst (fst (run_sendq fx f s))).
Proof.
  induction f as [|f IH]; intros s HJ; cbn [run_sendq]; [exact HJ|].
  destruct (rq_sendq s) as [|k sq]; [exact HJ|]. destruct (rq_ready s) as [|p rd]; [exact HJ|].
  assert (Hskip : JInv (fst (fst (run_sendq fx f (set_sendq s sq))))) by (apply IH; eapply J_view; [exact HJ|reflexivity..]).
  unfold ctx_get at 1. destruct (lookup k (rq_ctxs s)) as [c|] eqn:Hk; [|exact Hskip].
  destruct (cx_req c) as [m|]; [|exact Hskip]. clear Hskip.
  rewrite fst_let3. apply IH. destruct (retry_on fx c); destruct (is_nil rd);
    (eapply (J_put_same s k c (mkRctx _ _ _ _ _ _ _ _ _ _)); [exact HJ|exact Hk|reflexivity..]).
Qed.
Lemma run_send_queue_J fx s : JInv s -> JInv (fst (fst (run_send_queue fx s))).
Proof. apply run_sendq_J. Qed.

Lemma JInv_mv fx s s' : JInv s -> mv fx s s' -> JInv s'.
Proof.
  intros HJ [s2 E|k c c' s2 Hk E R1 _ _ _|k c c' s2 Hk E R1 _ _ _|k c cin s1 s2 c2 o c3 s3 ER Hk R1 _ E1 E _ _
            |id k c c' rd s2 Hid Hk _ E _ _|k c cin s2 c2 o s3 ER Hk R1 _ E|p s2 E|s1 _ _ E3 E4 E5 _ _];
    try (apply rview_eq in E; svin E; destruct E as (_ & _ & _ & _ & _ & A6 & A7 & A8)).
  - (* Mv_view *) exact (J_view s s2 HJ A7 A8 A6).
  - (* Mv_put *) exact (J_put_same s k c c' s2 HJ Hk R1 A7 A8 A6).
  - (* Mv_take *) exact (J_put_same s k c c' s2 HJ Hk R1 A7 A8 A6).
  - (* Mv_reset *) exact (proj1 (J_reset_put fx s k c cin s1 s2 c2 o c3 s3 HJ Hk R1 E1 ER A7 A8 A6)).
  - (* Mv_match *) apply (J_view (set_ids (ctx_put s k c') (assoc_del id (rq_ids s)) (rq_cursor s)) s2); [|exact A7|exact A8|exact A6].
    destruct HJ as (HJ & HN). split; sv; [|now rewrite (map_fst_assoc_set_present _ _ _ _ Hk)].
    apply JV_put_free; [now apply JV_del|]. intros i Hin.
    pose proof (JV_del_free (rq_ids s) (rq_cursor s) (rq_ctxs s) k c HJ Hk i) as X.
    destruct HJ as (_ & J2 & _). apply lookup_in in Hid. destruct (J2 id k Hid) as (Hc & c2 & A & B).
    rewrite Hk in A. inversion A; subst c2. rewrite B in X. replace (N.eqb id 0) with false in X; [now apply X|].
    symmetry. apply N.eqb_neq. unfold cursor_ok, REQ_ID_MIN in Hc. lia.
  - (* Mv_close *) apply (J_view (set_ctxs s2 (assoc_del k (rq_ctxs s2))) s3); [|exact A7|exact A8|exact A6].
    destruct (J_reset_put fx s k c cin s s2 c2 o c2 (ctx_put s2 k c2) HJ Hk R1 eq_refl ER eq_refl eq_refl eq_refl)
      as [((J1 & J2 & J3) & JN) Hfree].
    svin J1. svin J2. svin J3. svin JN. svin Hfree. split; sv; [split; [exact J1|split; [|exact J3]]|].
    + intros id k2 Hin. destruct (J2 id k2 Hin) as (Hc & c3 & A & B). split; [exact Hc|].
      destruct (N.eq_dec k2 k) as [->|Hne]; [now apply Hfree in Hin|].
      exists c3. split; [|exact B]. rewrite lookup_assoc_del_other by exact Hne.
      now rewrite lookup_assoc_set_other in A by exact Hne.
    + apply keysok_assoc_del. apply ctx_reset_fields in ER as (G & _). rewrite G. apply HJ.
  - (* Mv_unready *) exact (J_view s s2 HJ A7 A8 A6).
  - (* Mv_run *) apply run_send_queue_J. exact (J_view s s1 HJ E4 E5 E3).
Qed.

Lemma J_send fx s c a nb m : JInv s -> JInv (fst (fst (req_stepL fx s (PSend c a nb m)))).
Proof.
  intros HJ. cbn [req_stepL]. unfold ctx_get. destruct (lookup (ckey c) (rq_ctxs s)) as [cx|] eqn:Hk; [|exact HJ].
  rewrite req_ctx_send_eq. destruct (rq_closed s); [exact HJ|].
  destruct (snd_pre s (ckey c) cx) as [[s1 c1] o2] eqn:E1. apply snd_pre_fields in E1 as (V & _ & P4 & _).
  destruct (ctx_reset fx s1 (ckey c) c1) as [[s2 c2] o3] eqn:ER.
  assert (Hany : forall c3 s', rq_ids s' = rq_ids s2 -> rq_cursor s' = rq_cursor s2 -> rq_ctxs s' = assoc_set (ckey c) c3 (rq_ctxs s2) ->
                   JInv s' /\ (forall i, ~ In (i, ckey c) (rq_ids s'))).
  { intros c3 s'. exact (J_reset_put fx s (ckey c) cx c1 s1 s2 c2 o3 c3 s' HJ Hk P4 V ER). }
  unfold snd_tail. destruct (snd_full s2); [cbn [fst]; apply (Hany c2); reflexivity|].
  destruct (id_alloc (S (length (rq_ids s2))) (rq_ids s2) (rq_cursor s2)) as [[id cur']|] eqn:EA; [|cbn [fst]; apply (Hany c2); reflexivity].
  destruct (Hany c2 (ctx_put s2 (ckey c) c2) eq_refl eq_refl eq_refl) as [[J JN] Hfree]. svin J. svin JN. svin Hfree.
  destruct (id_alloc_fresh _ _ _ _ _ EA (proj2 (proj2 J))) as (Hl & Hid & Hcur).
  destruct (is_nil (rq_ready s2) && nb).
  { cbn [fst]. destruct (Hany (snd_c3nb id c2) (ctx_put s2 (ckey c) (snd_c3nb id c2)) eq_refl eq_refl eq_refl) as [[J' JN'] _].
    split; sv; [apply (JV_cur _ (rq_cursor s2)); [exact J'|exact Hcur]|exact JN']. }
  destruct (snd_enq s2 (ckey c) c2 a id cur' (req_send id m)) as [s6 o4] eqn:E6.
  apply snd_enq_fields in E6 as (_ & _ & _ & _ & _ & B6 & B7 & B8 & _).
  rewrite fst_let3. apply run_send_queue_J. unfold JInv. rewrite B6, B7, B8, <- (assoc_set_twice _ _ c2). split.
  - apply (JV_add _ (rq_cursor s2)); auto.
  - erewrite map_fst_assoc_set_present; [exact JN|apply lookup_assoc_set_same].
Qed.

Lemma J_ctxopen s k : JInv s -> lookup (k + 1)%N (rq_ctxs s) = None ->
  (N.of_nat (length (rq_ctxs s)) < REQ_ID_MAX - REQ_ID_MIN)%N ->
  JInv (set_ctxs s (rq_ctxs s ++ [((k + 1)%N, ctx_init (rq_retry s))])).
Proof.
  intros ((H1 & H2 & H3) & HN & HL) Hk Hb. unfold JInv, JV. sv. split; [split; [exact H1|split; [|exact H3]]|].
  - intros id k2 Hin. destruct (H2 id k2 Hin) as (Hc & c2 & A & B). split; [exact Hc|]. exists c2. split; [now apply lookup_app_some|exact B].
  - split; [rewrite map_app; cbn [map fst]; apply ListX.nodup_snoc; [exact HN|]; now apply lookup_none_notin|].
    rewrite map_length, app_length. cbn [length]. lia.
Qed.
Lemma J_init : JInv req_init.
Proof.
  unfold JInv, JV, KeysOK. cbn. split; [split; [constructor|split; [intros id k []|]]|split; [constructor; [intros []|constructor]|]].
  - unfold cursor_ok, REQ_ID_MIN, REQ_ID_MAX. lia.
  - unfold REQ_ID_MIN, REQ_ID_MAX. lia.
Qed.
Definition req_ok_b (s : req) (o : pop) : Prop :=
  req_ok s o /\ match o with PCtxOpen _ => (N.of_nat (length (rq_ctxs s)) < REQ_ID_MAX - REQ_ID_MIN)%N | _ => True end.
Lemma J_step fx s o : JInv s -> req_ok_b s o -> o <> PSockClose -> JInv (fst (req_step fx s o)).
Proof.
  exact (walk fx JInv req_ok_b (fun s H => proj1 (proj2 H)) (JInv_mv fx) (J_send fx)
    (fun s k H Hok => J_ctxopen s k H (proj1 Hok) (proj2 Hok)) s o).
Qed.

(* at most one live id per context *)
Lemma nodup_map_snd (l : list (N * N)) :
  NoDup (map fst l) -> (forall a b k, In (a, k) l -> In (b, k) l -> a = b) -> NoDup (map snd l).
Proof.
  intros H Hinj. apply ListX.NoDup_map_inj_on; [exact (NoDup_map_inv fst l H)|].
  intros [a k] [b k'] Hx Hy E. cbn in E. subst k'. now rewrite (Hinj a b k Hx Hy).
Qed.
Lemma J_len s : JInv s -> length (rq_ids s) <= length (rq_ctxs s).
Proof.
  intros ((J1 & J2 & _) & _). rewrite <- (map_length snd (rq_ids s)), <- (map_length fst (rq_ctxs s)).
  apply NoDup_incl_length.
  - apply nodup_map_snd; [exact J1|]. intros a b k Ha Hb.
    destruct (J2 a k Ha) as (_ & c1 & A1 & B1). destruct (J2 b k Hb) as (_ & c2 & A2 & B2).
    rewrite A1 in A2. inversion A2; subst. reflexivity.
  - intros k Hk. apply in_map_iff in Hk as ([a k2] & E & Hin). cbn in E. subst k2.
    destruct (J2 a k Hin) as (_ & c & A & _). apply lookup_in in A. apply in_map_iff. exists (k, c). auto.
Qed.

(* nni_id_alloc finds a free id whenever fewer than 2^31 are in use *)
Definition id_pos (c j : N) : N := if (c + j <=? REQ_ID_MAX)%N then (c + j)%N else (c + j - REQ_ID_MIN)%N.
Lemma id_pos_0 c : cursor_ok c -> id_pos c 0 = c.
Proof.
  unfold id_pos, cursor_ok, REQ_ID_MAX, REQ_ID_MIN. intros H. rewrite N.add_0_r.
  destruct (N.leb_spec c 4294967295); [reflexivity|lia].
Qed.
Lemma id_pos_next c j : cursor_ok c -> (j < REQ_ID_MIN)%N -> id_next (id_pos c j) = id_pos c (j + 1).
Proof.
  unfold id_pos, id_next, cursor_ok, REQ_ID_MAX, REQ_ID_MIN. intros H Hj.
  destruct (N.leb_spec (c + j) 4294967295); destruct (N.leb_spec (c + (j + 1)) 4294967295);
    match goal with |- context [(?A <? ?B)%N] => destruct (N.ltb_spec A B) end; lia.
Qed.
Lemma id_pos_inj c i j : cursor_ok c -> (i < j)%N -> (j < REQ_ID_MIN)%N -> id_pos c i <> id_pos c j.
Proof.
  unfold id_pos, cursor_ok, REQ_ID_MAX, REQ_ID_MIN. intros H Hij Hj.
  destruct (N.leb_spec (c + i) 4294967295); destruct (N.leb_spec (c + j) 4294967295); lia.
Qed.
Lemma id_alloc_none ids c : cursor_ok c -> forall f j,
  (j + N.of_nat f <= REQ_ID_MIN)%N -> id_alloc f ids (id_pos c j) = None ->
  forall i, (j <= i)%N -> (i < j + N.of_nat f)%N -> In (id_pos c i) (map fst ids).
Proof.
  intros Hc. induction f as [|f IH]; intros j Hb H i H1 H2; [lia|]. cbn [id_alloc] in H.
  destruct (lookup (id_pos c j) ids) as [k|] eqn:El; [|discriminate].
  destruct (N.eq_dec i j) as [->|Hne].
  - apply lookup_in in El. apply in_map_iff. exists (id_pos c j, k). auto.
  - rewrite id_pos_next in H by (auto; lia). apply (IH (j + 1)%N); auto; lia.
Qed.
Lemma id_alloc_some ids c : cursor_ok c -> (N.of_nat (length ids) <= REQ_ID_MAX - REQ_ID_MIN)%N ->
  id_alloc (S (length ids)) ids c <> None.
Proof.
  intros Hc Hb H. rewrite <- (id_pos_0 c Hc) in H.
  assert (Hb' : (0 + N.of_nat (S (length ids)) <= REQ_ID_MIN)%N) by (unfold REQ_ID_MAX, REQ_ID_MIN in *; lia).
  pose proof (id_alloc_none ids c Hc (S (length ids)) 0%N Hb' H) as Hall.
  set (L := map (fun i => id_pos c (N.of_nat i)) (seq 0 (S (length ids)))).
  assert (HL : NoDup L).
  { apply ListX.NoDup_map_inj_on; [apply seq_NoDup|]. intros x y Hx Hy E. apply in_seq in Hx, Hy.
    assert (Bx : (N.of_nat x < REQ_ID_MIN)%N) by (clear - Hx Hb; unfold REQ_ID_MAX, REQ_ID_MIN in *; lia).
    assert (By : (N.of_nat y < REQ_ID_MIN)%N) by (clear - Hy Hb; unfold REQ_ID_MAX, REQ_ID_MIN in *; lia).
    destruct (Nat.lt_trichotomy x y) as [Hlt|[Heq|Hgt]]; [|exact Heq|]; exfalso.
    - apply (id_pos_inj c (N.of_nat x) (N.of_nat y) Hc); [clear - Hlt; lia|exact By|exact E].
    - apply (id_pos_inj c (N.of_nat y) (N.of_nat x) Hc); [clear - Hgt; lia|exact Bx|symmetry; exact E]. }
  assert (Hincl : incl L (map fst ids)).
  { intros v Hv. apply in_map_iff in Hv as (i & <- & Hi). apply in_seq in Hi. apply Hall; clear - Hi; lia. }
  pose proof (NoDup_incl_length HL Hincl) as X. subst L. rewrite !map_length, seq_length in X. clear - X. lia.
Qed.

(* with fewer than 2^31 contexts no send runs out of request ids *)
Lemma send_never_nomem fx s k cx : JInv s -> lookup k (rq_ctxs s) = Some cx -> ~ send_nomem fx s k cx.
Proof.
  intros HJ Hk. unfold send_nomem.
  destruct (snd_pre s k cx) as [[s1 c1] o2] eqn:E1. apply snd_pre_fields in E1 as (V & _).
  apply rview_eq in V. svin V. destruct V as (_ & _ & _ & _ & _ & _ & A1 & A2).
  destruct (ctx_reset fx s1 k c1) as [[s2 c2] o3] eqn:E2. apply ctx_reset_ids in E2 as [B1 B2].
  pose proof (J_len s HJ) as HL. destruct HJ as ((_ & _ & J3) & _ & HB). rewrite map_length in HB.
  assert (Hlen : length (rq_ids s2) <= length (rq_ids s)).
  { rewrite B1, A1. destruct (N.eqb (cx_rid c1) 0); [lia|]. apply ListX.filter_len_le. }
  assert (Hb : (N.of_nat (length (rq_ids s2)) <= REQ_ID_MAX - REQ_ID_MIN)%N) by lia.
  intros [H|H].
  - unfold snd_full in H. apply N.ltb_lt in H. lia.
  - revert H. apply id_alloc_some; [|exact Hb]. now rewrite B2, A2.
Qed.

(* the pack with the resource bound in its contract *)
Definition M_req_b (fx : rfix) : pmodel :=
  mkPM req req_init (req_step fx) req_poll req_ok_b (fun s => RInv s /\ JInv s) req_busy (fun _ => true).

Lemma reqb_inv_init fx : pm_inv (M_req_b fx) (pm_init (M_req_b fx)).
Proof. split; [exact (req_inv_init fx)|exact J_init]. Qed.
Lemma reqb_inv_step fx : fx_rdclr fx = true ->
  forall s o, pm_inv (M_req_b fx) s -> pm_ok (M_req_b fx) s o -> o <> PSockClose -> pm_inv (M_req_b fx) (fst (pm_step (M_req_b fx) s o)).
Proof.
  intros Hfx s o [HI HJ] Hok Hc. unM M_req_b. split.
  - exact (req_inv_step fx Hfx s o HI (proj1 Hok) Hc).
  - now apply J_step.
Qed.
Theorem reqb_c15_inv fx : fx_rdclr fx = true -> C15_inv (M_req_b fx).
Proof. intros Hfx. exact (reachable_ind _ _ (reqb_inv_init fx) (reqb_inv_step fx Hfx)). Qed.

Lemma reqb_mirror_w_exact fx s : pm_inv (M_req_b fx) s -> mirror_w_exact_at (M_req_b fx) s.
Proof.
  intros [HI HJ] a m [Hok _] _. unM M_req_b. unfold rv_send. unM M_req_b. cbn [req_poll poll_w].
  apply (req_mirror_w_exact_but_nomem fx s HI a m Hok).
  unM M_req. unfold rv_send. unM M_req.
  destruct (req_send_own fx s a m HI Hok) as [[E _]|[[E _]|[E (cx & Hk & Hn)]]]; cbv zeta in E;
    try (rewrite E; unfold_errs; discriminate).
  exfalso. exact (send_never_nomem fx s _ cx HJ Hk Hn).
Qed.
(* C15_mirror_exact under the bounded contract: both descriptors are exact *)
Theorem reqb_c15_mirror_exact fx : fx_rdclr fx = true -> C15_mirror_exact (M_req_b fx).
Proof.
  intros Hfx s R. pose proof (reqb_c15_inv fx Hfx s R) as HI. split.
  - intros a [Hok _]. exact (req_mirror_r_exact fx s (proj1 HI) a Hok).
  - now apply reqb_mirror_w_exact.
Qed.
(* every state reachable under the bounded contract is reachable under the plain one, so everything proved for
   M_req holds of M_req_b's reachable states as well *)
Lemma reqb_reachable_req fx s : reachable (M_req_b fx) s -> reachable (M_req fx) s.
Proof.
  apply (reachable_ind (M_req_b fx) (reachable (M_req fx))); [apply (reachable_init (M_req fx))|].
  intros s0 o R [Hok _] Hc. exact (reachable_step (M_req fx) s0 o R Hok Hc).
Qed.
(* the bounded contract is satisfiable and does not trivialise the statement: histories that respect it raise
   either descriptor -- and they are histories of the plain contract too *)
Example reqb_reachable_w_raised fx : exists s, reachable (M_req_b fx) s /\ poll_w (pm_poll (M_req_b fx) s) = Some true.
Proof.
  exists (prun (M_req_b fx) req_init [PPipeStart 1%N PROTO_REP]). split; [|reflexivity].
  exists [PPipeStart 1%N PROTO_REP]. split; [|reflexivity]. ok_tac.
Qed.
Example reqb_reachable_r_raised fx : exists s, reachable (M_req_b fx) s /\ poll_r (pm_poll (M_req_b fx) s) = Some true.
Proof.
  exists (prun (M_req_b fx) req_init w15_reply). split.
  - exists w15_reply. split; [|reflexivity]. unfold w15_reply. destruct fx as [[] [] [] []]; ok_tac.
  - destruct fx as [[] [] [] []]; vm_compute; reflexivity.
Qed.
Example req_reachable_w_raised fx : exists s, reachable (M_req fx) s /\ poll_w (pm_poll (M_req fx) s) = Some true.
Proof. destruct (reqb_reachable_w_raised fx) as (s & R & P). exists s. split; [now apply reqb_reachable_req|exact P]. Qed.
Example req_reachable_r_raised fx : exists s, reachable (M_req fx) s /\ poll_r (pm_poll (M_req fx) s) = Some true.
Proof. destruct (reqb_reachable_r_raised fx) as (s & R & P). exists s. split; [now apply reqb_reachable_req|exact P]. Qed.

(* the step function the C15 model daemon runs (PollModel.c15_req_step = req_step c15_req_fix): everything above
   applies as soon as the generated constant says that the repair is in the source *)
Corollary req_c15_source :
  NngV.Gen.Consts.C04_REQ_RDCLR_FIXED = true ->
  pm_step (M_req c15_req_fix) = c15_req_step /\
  C15_inv (M_req c15_req_fix) /\ C15_nb_immediate (M_req c15_req_fix) /\ C15_nb_possible (M_req c15_req_fix) /\
  C15_nb_strict (M_req c15_req_fix) /\ C15_mirror (M_req c15_req_fix) /\ C15_mirror_exact (M_req_b c15_req_fix).
Proof.
  intros H. assert (Hfx : fx_rdclr c15_req_fix = true) by exact H.
  split; [reflexivity|]. split; [now apply req_c15_inv|]. split; [now apply req_c15_nb_immediate|].
  split; [now apply req_c15_nb_possible|]. split; [now apply req_c15_nb_strict|]. split; [now apply req_c15_mirror|].
  now apply reqb_c15_mirror_exact.
Qed.
