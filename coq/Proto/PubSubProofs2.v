(* PubSubProofs2: SUB conservation (with duplicates) and per-receiver order. *)
From Coq Require Import List Arith NArith Bool Lia.
From NngV Require Import Proto.Common Proto.PushProofs Proto.SubModel Proto.PubSubProofs.
From NngV Require Base.ListX.
Import ListNotations.

(* messages handed to the application *)
Fixpoint delivered (outs : list pout) : list pmsg :=
  match outs with
  | [] => []
  | Complete _ rv (Some m) :: r => if N.eqb rv 0 then m :: delivered r else delivered r
  | _ :: r => delivered r
  end.
Lemma delivered_app a b : delivered (a ++ b) = delivered a ++ delivered b.
Proof. induction a as [|[? ? [?|]| | | | | | |] a IH]; cbn; rewrite ?IH; auto. destruct (_ =? _)%N; cbn; now rewrite ?IH. Qed.
Lemma delivered_map_Free l : delivered (map Free l) = [].
Proof. induction l; cbn; auto. Qed.
Lemma delivered_fail rv l : delivered (fail_aios rv l) = [].
Proof. induction l; cbn; auto. Qed.

Inductive Sublist {A} : list A -> list A -> Prop :=
| sl_nil : forall l, Sublist [] l
| sl_keep : forall x a b, Sublist a b -> Sublist (x :: a) (x :: b)
| sl_skip : forall x a b, Sublist a b -> Sublist a (x :: b).

Lemma sl_refl {A} (l : list A) : Sublist l l.
Proof. induction l; constructor; auto. Qed.
Lemma sl_app_l {A} (p a b : list A) : Sublist a b -> Sublist (p ++ a) (p ++ b).
Proof. induction p; cbn; auto. intros. constructor. auto. Qed.
Lemma sl_app_skip {A} (p a b : list A) : Sublist a b -> Sublist a (p ++ b).
Proof. induction p; cbn; auto. intros. constructor. auto. Qed.
Lemma sl_app {A} (a b c d : list A) : Sublist a b -> Sublist c d -> Sublist (a ++ c) (b ++ d).
Proof.
  intros H. induction H; cbn; intros Hc.
  - now apply sl_app_skip.
  - constructor. auto.
  - constructor. auto.
Qed.
Lemma sl_app_r {A} (p a b : list A) : Sublist a b -> Sublist (a ++ p) (b ++ p).
Proof. intros. apply sl_app; auto. apply sl_refl. Qed.
Lemma sl_prefix {A} (l p : list A) : Sublist l (l ++ p).
Proof. rewrite <- (app_nil_r l) at 1. apply sl_app; [apply sl_refl|constructor]. Qed.
Lemma sl_trans {A} (a b c : list A) : Sublist a b -> Sublist b c -> Sublist a c.
Proof.
  intros H1 H2. revert a H1. induction H2; intros a0 H1.
  - inversion H1; subst. constructor.
  - inversion H1; subst; constructor; auto.
  - constructor. auto.
Qed.
Lemma sl_firstn {A} n (l : list A) : Sublist (firstn n l) l.
Proof. revert l. induction n; destruct l; cbn; constructor; auto. Qed.
Lemma sl_filter {A} (f : A -> bool) (l : list A) : Sublist (filter f l) l.
Proof. induction l as [|x l IH]; cbn; [constructor|]. destruct (f x); constructor; auto. Qed.
Lemma sl_filter_mono {A} (f : A -> bool) (a b : list A) : Sublist a b -> Sublist (filter f a) (filter f b).
Proof.
  intros H. induction H; cbn.
  - constructor.
  - destruct (f x); [constructor|]; auto.
  - destruct (f x); [constructor|]; auto.
Qed.
(* a sublist of an untagged list lifts to any tagging of the bigger list *)
Lemma sl_tag {A B} (a b : list B) (tb : list (A * B)) :
  Sublist a b -> map snd tb = b -> exists ta, Sublist ta tb /\ map snd ta = a.
Proof.
  intros H. revert tb. induction H; intros tb E.
  - exists []. split; constructor.
  - destruct tb as [|[t y] tb]; [discriminate|]. cbn in E. inversion E; subst.
    destruct (IHSublist tb eq_refl) as (ta & S & M). exists ((t, x) :: ta). split; [constructor; auto|cbn; congruence].
  - destruct tb as [|[t y] tb]; [discriminate|]. cbn in E. inversion E; subst.
    destruct (IHSublist tb eq_refl) as (ta & S & M). exists ta. split; [constructor; auto|auto].
Qed.

Definition ctx_got (c : sctx) (o : pop) (outs : list pout) : list pmsg :=
  match o with
  | PRecvDone _ rv m => if N.eqb rv 0 then delivered (ctx_compl c m) else []
  | PRecv k _ _ => if cid_eqb (sc_id c) k then delivered outs else []
  | _ => []
  end.

Definition lmq_of (k : option ctxid) (s : sub) : list pmsg :=
  match find_ctx k (sb_ctxs s) with Some c => sc_lmq c | None => [] end.
Definition got_of (k : option ctxid) (s : sub) (o : pop) (outs : list pout) : list pmsg :=
  match find_ctx k (sb_ctxs s) with Some c => ctx_got c o outs | None => [] end.
Definition keeps_ctx (k : option ctxid) (o : pop) : Prop :=
  match o with PCtxOpen c | PCtxClose c => Some c <> k | _ => True end.

Definition order_law (k : option ctxid) (s : sub) (o : pop) (s' : sub) (outs : list pout) : Prop :=
  Sublist (got_of k s o outs ++ lmq_of k s') (lmq_of k s ++ arrived o) /\
  (find_ctx k (sb_ctxs s) <> None -> find_ctx k (sb_ctxs s') <> None).

(* the receiver's context is untouched and handed nothing *)
Lemma order_find k s o s' outs :
  find_ctx k (sb_ctxs s') = find_ctx k (sb_ctxs s) -> (forall c, ctx_got c o outs = []) -> order_law k s o s' outs.
Proof.
  intros E G. unfold order_law, got_of, lmq_of. rewrite E. split; auto.
  destruct (find_ctx k (sb_ctxs s)); [rewrite G|]; cbn; [apply sl_prefix|constructor].
Qed.
(* every context is rewritten by g: the law is a statement about one context *)
Lemma order_map k s o s' outs g :
  sb_ctxs s' = map g (sb_ctxs s) -> (forall c, sc_id (g c) = sc_id c) ->
  (forall c, find_ctx k (sb_ctxs s) = Some c -> Sublist (ctx_got c o outs ++ sc_lmq (g c)) (sc_lmq c ++ arrived o)) ->
  order_law k s o s' outs.
Proof.
  intros E Hg HS. unfold order_law, got_of, lmq_of. rewrite E, find_map_same by auto.
  destruct (find_ctx k (sb_ctxs s)) as [c|]; cbn; split; auto; try congruence. constructor.
Qed.
(* one context is rewritten by f, nothing arrives, nobody else is handed anything *)
Lemma order_upd k s o s' outs k0 c0 f :
  find_ctx k0 (sb_ctxs s) = Some c0 -> sb_ctxs s' = upd_ctx k0 f (sb_ctxs s) -> (forall c, sc_id (f c) = sc_id c) ->
  arrived o = [] -> Sublist (ctx_got c0 o outs ++ sc_lmq (f c0)) (sc_lmq c0) ->
  (forall c, sc_id c <> k0 -> ctx_got c o outs = []) -> order_law k s o s' outs.
Proof.
  intros F E Hf HA HS HO. apply order_map with (g := fun c => if cid_eqb (sc_id c) k0 then f c else c); auto.
  - intros c. destruct (cid_eqb (sc_id c) k0); auto.
  - intros c Fc. rewrite HA, app_nil_r. pose proof (find_ctx_some _ _ _ Fc) as [_ Fk]. destruct (cid_eqb (sc_id c) k0) eqn:X.
    + apply cid_eqb_eq in X. assert (c0 = c) by congruence. now subst.
    + apply cid_eqb_neq in X. rewrite HO by auto. apply sl_refl.
Qed.

Lemma ctx_arrive_order c m : ctx_ok c -> Sublist (delivered (ctx_compl c m) ++ sc_lmq (ctx_after c m)) (sc_lmq c ++ [m]).
Proof.
  intros (A & B & C & D & G). destruct (ctx_arrival_cases c m) as [|a r R|R L|old r R L Q|R L Q]; cbn; simp_c.
  - apply sl_prefix.
  - rewrite B by congruence. apply sl_refl.
  - apply sl_refl.
  - rewrite Q. constructor. apply sl_refl.
  - rewrite Q. constructor.
Qed.

(* per step and per receiver: what it is handed followed by what it still holds is a
   subsequence of what it held followed by what arrived *)
Theorem sub_order_step fixed s o s' outs k :
  SInv s -> keeps_ctx k o -> sub_step fixed s o = (s', outs) ->
  Sublist (got_of k s o outs ++ lmq_of k s') (lmq_of k s ++ arrived o) /\
  (find_ctx k (sb_ctxs s) <> None -> find_ctx k (sb_ctxs s') <> None).
Proof.
  intros (I1 & I2 & I3) Hk H. fold (order_law k s o s' outs).
  destruct o as [k0 a nb m|k0 a nb|a rv|p peer|p|p rv|p rv m|k0 op|k0|k0| |now]; cbn [sub_step keeps_ctx] in *;
    try (injection H as <- <-; apply order_find; reflexivity).
  - destruct (find_ctx k0 (sb_ctxs s)) as [c|] eqn:F.
    2:{ injection H as <- <-. apply order_find; auto. intros c. cbn. destruct (cid_eqb (sc_id c) k0); reflexivity. }
    pose proof (find_ctx_some _ _ _ F) as [_ Fid].
    assert (HO: forall x c1, sc_id c1 <> k0 -> ctx_got c1 (PRecv k0 a nb) [Complete a E_OK x] = []).
    { intros x c1 N. apply cid_eqb_neq in N. cbn. now rewrite N. }
    destruct (sc_lmq c) as [|m rest] eqn:Q.
    + destruct nb; injection H as <- <-.
      * apply order_find; auto. intros c0. cbn. destruct (cid_eqb (sc_id c0) k0); reflexivity.
      * eapply order_upd; [exact F|reflexivity|auto..]; cbn; intros; destruct (cid_eqb _ k0); auto; apply sl_refl.
    + injection H as <- <-. eapply order_upd; [exact F|reflexivity|auto..].
      cbn. rewrite Fid, cid_eqb_refl, Q. apply sl_refl.
  - destruct (existsb _ _); injection H as <- <-; [|apply order_find; auto].
    eapply order_map; [reflexivity|auto|]. intros c _. cbn. apply sl_prefix.
  - destruct (negb _); injection H as <- <-; apply order_find; auto.
  - destruct (N.eqb_spec rv 0) as [->|Hrv]; cbn [negb] in H.
    2:{ injection H as <- <-. apply order_find; auto. intros c. cbn. destruct (N.eqb_spec rv 0); [contradiction|reflexivity]. }
    injection H as <- <-. eapply order_map; [reflexivity|intros; apply ctx_after_id|].
    intros c F. apply ctx_arrive_order. apply find_ctx_some in F as [Fin _]. eapply Forall_forall; eauto.
  - destruct (find_ctx k0 (sb_ctxs s)) as [c|] eqn:F; [|injection H as <- <-; apply order_find; auto].
    destruct op; try solve [injection H as <- <-; apply order_find; auto].
    + destruct k0; [|destruct (_ <? _)%N]; injection H as <- <-; apply order_find; auto.
    + destruct (_ || _); injection H as <- <-; [apply order_find; auto|].
      eapply order_upd; [exact F|reflexivity|auto..]. apply sl_firstn.
    + injection H as <- <-. eapply order_upd; [exact F|reflexivity|auto..]. apply sl_refl.
    + destruct (has_topic t (sc_topics c)); injection H as <- <-; [apply order_find; auto|].
      eapply order_upd; [exact F|reflexivity|auto..]. apply sl_refl.
    + destruct (negb (has_topic t (sc_topics c))); injection H as <- <-; [apply order_find; auto|].
      eapply order_upd; [exact F|reflexivity|auto..]. apply sl_filter.
  - injection H as <- <-. apply order_find; auto. simp_s. rewrite find_ctx_app.
    destruct (find_ctx k (sb_ctxs s)); [reflexivity|]. unfold find_ctx. cbn [find sc_id]. destruct (cid_eqb (Some k0) k) eqn:X; [|reflexivity].
    apply cid_eqb_eq in X. contradiction.
  - destruct (find_ctx (Some k0) (sb_ctxs s)); injection H as <- <-; apply order_find; auto.
    apply find_others. congruence.
  - destruct (find_ctx None (sb_ctxs s)) as [c|] eqn:F; injection H as <- <-; [|apply order_find; auto].
    eapply order_upd; [exact F|reflexivity|auto..]. constructor.
Qed.

Fixpoint tr_got (k : option ctxid) (tr : list (pop * sub * list pout)) : list pmsg :=
  match tr with [] => [] | (o, s, outs) :: r => got_of k s o outs ++ tr_got k r end.
Fixpoint tr_arrivals (tr : list (pop * sub * list pout)) : list (pid * pmsg) :=
  match tr with
  | [] => []
  | (PRecvDone p rv m, _, _) :: r => (if N.eqb rv 0 then [(p, m)] else []) ++ tr_arrivals r
  | _ :: r => tr_arrivals r
  end.
Lemma tr_arrivals_cons o s outs r : map snd (tr_arrivals ((o, s, outs) :: r)) = arrived o ++ map snd (tr_arrivals r).
Proof. destruct o; cbn [tr_arrivals arrived]; auto. destruct (rv =? 0)%N; cbn; auto. Qed.

Theorem sub_order_run fixed k ops : forall s,
  SInv s -> sub_ops_ok fixed s ops -> Forall (keeps_ctx k) ops ->
  let (s', tr) := sub_run fixed s ops in
  Sublist (tr_got k tr ++ lmq_of k s') (lmq_of k s ++ map snd (tr_arrivals tr)).
Proof.
  induction ops as [|o r IH]; intros s HI Hok Hk; cbn [sub_run].
  - cbn. rewrite app_nil_r. apply sl_refl.
  - cbn [sub_ops_ok] in Hok. destruct Hok as [Ho Hr]. inversion Hk; subst.
    destruct (sub_step fixed s o) as [s1 outs] eqn:S. cbn [fst] in Hr.
    pose proof (sub_step_inv _ _ _ _ _ HI Ho S) as HI1.
    destruct (sub_order_step _ _ _ _ _ k HI H1 S) as [L _].
    specialize (IH s1 HI1 Hr H2). destruct (sub_run fixed s1 r) as [s2 tr].
    cbn [tr_got]. rewrite tr_arrivals_cons, <- !app_assoc.
    eapply sl_trans; [apply sl_app_l; exact IH|]. rewrite !app_assoc. apply sl_app_r. exact L.
Qed.

(* per publisher: tag every arrival with the pipe it came on *)
Theorem sub_order_per_publisher fixed k ops s :
  SInv s -> sub_ops_ok fixed s ops -> Forall (keeps_ctx k) ops -> lmq_of k s = [] ->
  let (s', tr) := sub_run fixed s ops in
  exists d : list (pid * pmsg),
    Sublist d (tr_arrivals tr) /\ map snd d = tr_got k tr ++ lmq_of k s' /\
    forall p, Sublist (filter (fun x => N.eqb (fst x) p) d) (filter (fun x => N.eqb (fst x) p) (tr_arrivals tr)).
Proof.
  intros HI Hok Hk E. pose proof (sub_order_run fixed k ops s HI Hok Hk) as L.
  destruct (sub_run fixed s ops) as [s' tr]. rewrite E in L. cbn [app] in L.
  destruct (sl_tag _ _ (tr_arrivals tr) L eq_refl) as (d & S & M). exists d. repeat split; auto.
  intros p. now apply sl_filter_mono.
Qed.

Definition owned (s : sub) : list pmsg := flat_map sc_lmq (sb_ctxs s).
(* the duplicates made in one step: with more than one context every taker gets its own copy *)
Definition dups (s : sub) (o : pop) : list pmsg :=
  match o with
  | PRecvDone _ rv m => if N.eqb rv 0 then (if 1 <? length (sb_ctxs s) then repeat m (naccept (sb_ctxs s) m) else []) else []
  | _ => []
  end.

Lemma cnt_repeat x m n : cnt x (repeat m n) = n * cnt x [m].
Proof. induction n; cbn [repeat]; [reflexivity|]. rewrite cnt_cons, IHn, cnt_cons, cnt_nil. lia. Qed.
Lemma cnt_filter_split x (f : pmsg -> bool) l : cnt x l = cnt x (filter f l) + cnt x (filter (fun m => negb (f m)) l).
Proof. induction l as [|y l IH]; cbn [filter]; [reflexivity|]. destruct (f y); cbn [negb]; rewrite !cnt_cons, IH; lia. Qed.

Lemma ctx_arrive_cnt c m x :
  cnt x (sc_lmq c) + (if ctx_accepts c m then cnt x [m] else 0) =
  cnt x (sc_lmq (ctx_after c m)) + cnt x (delivered (ctx_compl c m)) + cnt x (ctx_dropped c m).
Proof.
  destruct (ctx_arrival_cases c m) as [|a r R|R L|old r R L Q|R L Q]; cbn [delivered N.eqb E_OK]; simp_c; rewrite ?Q; cnt_simp; lia.
Qed.

Lemma arrive_sum cs m x :
  cnt x (flat_map sc_lmq cs) + naccept cs m * cnt x [m] =
  cnt x (flat_map sc_lmq (map (fun c => ctx_after c m) cs)) + cnt x (delivered (flat_map (fun c => ctx_compl c m) cs))
  + cnt x (flat_map (fun c => ctx_dropped c m) cs).
Proof.
  unfold naccept. induction cs as [|c cs IH]; cbn [flat_map map filter]; [reflexivity|].
  rewrite delivered_app. pose proof (ctx_arrive_cnt c m x) as P. cnt_simp.
  destruct (ctx_accepts c m); cbn [length]; destruct (pmsg_eq_dec m x); lia.
Qed.
Lemma naccept_le cs m : naccept cs m <= length cs.
Proof. unfold naccept. apply ListX.filter_len_le. Qed.

Lemma owned_upd k f cs c x : NoDup (map sc_id cs) -> find_ctx k cs = Some c ->
  cnt x (flat_map sc_lmq (upd_ctx k f cs)) + cnt x (sc_lmq c) = cnt x (flat_map sc_lmq cs) + cnt x (sc_lmq (f c)).
Proof.
  intros ND F. destruct (ctx_split _ _ _ ND F) as (l1 & l2 & -> & U & _). rewrite U, !flat_map_app. cbn [flat_map]. cnt_simp. lia.
Qed.
Lemma owned_map_rq (g : sctx -> list aioid) cs : flat_map sc_lmq (map (fun c => set_rq c (g c)) cs) = flat_map sc_lmq cs.
Proof. induction cs; cbn; congruence. Qed.
Lemma owned_remove k cs c x : NoDup (map sc_id cs) -> find_ctx k cs = Some c ->
  cnt x (flat_map sc_lmq (filter (fun c => negb (cid_eqb (sc_id c) k)) cs)) + cnt x (sc_lmq c) = cnt x (flat_map sc_lmq cs).
Proof.
  intros ND F. destruct (ctx_split _ _ _ ND F) as (l1 & l2 & -> & _ & R). rewrite R, !flat_map_app. cbn [flat_map]. cnt_simp. lia.
Qed.

(* one context is rewritten by f and nothing arrives: it is enough to balance that context *)
Lemma conserve_upd s s' k c f outs x :
  NoDup (map sc_id (sb_ctxs s)) -> find_ctx k (sb_ctxs s) = Some c -> sb_ctxs s' = upd_ctx k f (sb_ctxs s) ->
  cnt x (sc_lmq c) = cnt x (sc_lmq (f c) ++ delivered outs ++ freed outs) ->
  cnt x (flat_map sc_lmq (sb_ctxs s) ++ [] ++ []) = cnt x (flat_map sc_lmq (sb_ctxs s') ++ delivered outs ++ freed outs).
Proof. intros ND F E B. rewrite E. pose proof (owned_upd k f _ c x ND F) as P. revert B. cnt_simp. lia. Qed.

(* owned + arrived + duplicates made = owned' + handed to the application + freed *)
Theorem sub_conservation_step_law fixed s o s' outs :
  SInv s -> sub_step fixed s o = (s', outs) ->
  forall x, cnt x (owned s ++ arrived o ++ dups s o) = cnt x (owned s' ++ delivered outs ++ freed outs).
Proof.
  intros (I1 & I2 & I3) H x. unfold owned.
  destruct o as [k a nb m|k a nb|a rv|p peer|p|p rv|p rv m|k op|k|k| |now]; cbn [sub_step arrived dups] in *;
    try (injection H as <- <-; reflexivity).
  - destruct (find_ctx k (sb_ctxs s)) as [c|] eqn:F.
    2:{ injection H as <- <-. reflexivity. }
    destruct (sc_lmq c) as [|m rest] eqn:Q.
    + destruct nb; injection H as <- <-; [reflexivity|]. eapply conserve_upd; [exact I2|exact F|reflexivity|]. simp_c. cbn [delivered freed]. cnt_simp. lia.
    + injection H as <- <-. eapply conserve_upd; [exact I2|exact F|reflexivity|]. simp_c. rewrite Q. cbn [delivered freed N.eqb E_OK]. cnt_simp. lia.
  - destruct (existsb _ _); injection H as <- <-; simp_s; cbn [delivered freed]; cnt_simp; [|lia].
    rewrite (owned_map_rq (fun c => remove_id a (sc_rq c))). lia.
  - destruct (negb _); injection H as <- <-; reflexivity.
  - destruct (N.eqb_spec rv 0) as [->|Hrv]; cbn [negb] in H.
    2:{ injection H as <- <-. reflexivity. }
    injection H as <- <-. simp_s.
    rewrite !delivered_app, !freed_app, delivered_map_Free, freed_map_Free. cbn [delivered freed app].
    pose proof (arrive_sum (sb_ctxs s) m x) as P. pose proof (naccept_le (sb_ctxs s) m) as LE.
    assert (FD: forall l, freed (flat_map (fun c => ctx_compl c m) l) = []).
    { induction l as [|c l IH]; cbn; [reflexivity|]. rewrite freed_app, IH. now destruct (ctx_arrival_cases c m). }
    rewrite FD.
    destruct (1 <? length (sb_ctxs s)) eqn:L1; cbn [orb].
    + cbn [delivered freed]. cnt_simp. rewrite cnt_repeat. cnt_simp. lia.
    + apply Nat.ltb_ge in L1. destruct (naccept (sb_ctxs s) m =? 0) eqn:L2.
      * apply Nat.eqb_eq in L2. rewrite L2 in P. cbn [delivered freed]. cnt_simp. lia.
      * apply Nat.eqb_neq in L2. assert (naccept (sb_ctxs s) m = 1) by lia. rewrite H in P.
        cbn [delivered freed]. cnt_simp. lia.
  - destruct (find_ctx k (sb_ctxs s)) as [c|] eqn:F.
    2:{ injection H as <- <-. reflexivity. }
    destruct op; try (injection H as <- <-; reflexivity).
    + destruct k; [|destruct (_ <? _)%N]; injection H as <- <-; reflexivity.
    + destruct (_ || _); injection H as <- <-; [reflexivity|]. eapply conserve_upd; [exact I2|exact F|reflexivity|]. simp_c.
      rewrite delivered_app, freed_app, delivered_map_Free, freed_map_Free. cbn [delivered freed app].
      rewrite <- (firstn_skipn n (sc_lmq c)) at 1. cnt_simp. lia.
    + injection H as <- <-. eapply conserve_upd; [exact I2|exact F|reflexivity|]. simp_c. cbn [delivered freed]. cnt_simp. lia.
    + destruct (has_topic t (sc_topics c)); injection H as <- <-; [reflexivity|].
      eapply conserve_upd; [exact I2|exact F|reflexivity|]. simp_c. cbn [delivered freed]. cnt_simp. lia.
    + destruct (negb (has_topic t (sc_topics c))); injection H as <- <-; [reflexivity|].
      eapply conserve_upd; [exact I2|exact F|reflexivity|]. simp_c.
      rewrite delivered_app, freed_app, delivered_map_Free, freed_map_Free. cbn [delivered freed app].
      rewrite (cnt_filter_split x (fun m => sub0_matches (remove_topic t (sc_topics c)) (pm_body m)) (sc_lmq c)). cnt_simp. lia.
  - injection H as <- <-; simp_s. rewrite flat_map_app. cbn [flat_map sc_lmq delivered freed]. cnt_simp. lia.
  - destruct (find_ctx (Some k) (sb_ctxs s)) as [c|] eqn:F; injection H as <- <-; simp_s; [|cbn [delivered freed]; cnt_simp; lia].
    rewrite delivered_app, freed_app, delivered_fail, freed_fail, delivered_map_Free, freed_map_Free.
    pose proof (owned_remove (Some k) _ c x I2 F) as P. cnt_simp. lia.
  - destruct (find_ctx None (sb_ctxs s)) as [c|] eqn:F; injection H as <- <-; [|reflexivity].
    eapply conserve_upd; [exact I2|exact F|reflexivity|]. simp_c.
    rewrite delivered_app, freed_app, delivered_fail, freed_fail, delivered_map_Free, freed_map_Free. cnt_simp. lia.
Qed.

Fixpoint tr_in (tr : list (pop * sub * list pout)) : list pmsg :=
  match tr with [] => [] | (o, s, outs) :: r => arrived o ++ dups s o ++ tr_in r end.
Fixpoint tr_outm (tr : list (pop * sub * list pout)) : list pmsg :=
  match tr with [] => [] | (o, s, outs) :: r => delivered outs ++ freed outs ++ tr_outm r end.

Theorem sub_conservation_run fixed ops : forall s, SInv s -> sub_ops_ok fixed s ops ->
  let (s', tr) := sub_run fixed s ops in
  forall x, cnt x (owned s ++ tr_in tr) = cnt x (owned s' ++ tr_outm tr).
Proof.
  induction ops as [|o r IH]; intros s HI Hok; cbn [sub_run].
  - intros x. cbn. reflexivity.
  - cbn [sub_ops_ok] in Hok. destruct Hok as [Ho Hr]. destruct (sub_step fixed s o) as [s1 outs] eqn:S. cbn [fst] in Hr.
    pose proof (sub_step_inv _ _ _ _ _ HI Ho S) as HI1. pose proof (sub_conservation_step_law _ _ _ _ _ HI S) as L.
    specialize (IH s1 HI1 Hr). destruct (sub_run fixed s1 r) as [s2 tr]. intros x. cbn [tr_in tr_outm].
    specialize (L x). specialize (IH x). cnt_simp. lia.
Qed.
