(* SurveyProofs: lemmas about SurveyBacktrace (section "backtrace", used by C13
   too) and about SurveyModel (cooked SURVEYOR): invariant, id freshness, only the
   current survey's responses are delivered, new survey aborts the old one, ESTATE,
   timeout at the deadline, late responses, fan-out, non-blocking receive.
   (The descriptor mirror is in Proto/PollSurvey.v, the ownership law in Ledger/OwnSurvey.v.) *)
From Coq Require Import List Arith NArith Bool ZArith Lia.
From NngV Require Import Proto.Common Proto.SurveyBacktrace Proto.SurveyModel.
From NngV Require Base.ListX.
From NngV Require Proto.ReqRepProofs.
Import ListNotations.

Section Backtrace.

Lemma hdr_room_spec h : hdr_room h = true <-> length h + 4 <= HDR_MAX.
Proof. unfold hdr_room. apply Nat.leb_le. Qed.

(* bytes are neither created nor lost; the header stays within the buffer; at most n words are moved *)
Lemma bt_move_deliver n : forall hdr body h b,
  bt_move n hdr body = BtDeliver h b ->
  h ++ b = hdr ++ body /\ length h <= HDR_MAX /\ length hdr < length h /\ length h <= length hdr + 4 * n.
Proof.
  induction n as [|n IH]; intros hdr body h b H; cbn [bt_move] in H; [discriminate|].
  destruct body as [|b0 [|b1 [|b2 [|b3 rest]]]]; try discriminate.
  destruct (hdr_room hdr) eqn:R; [|discriminate]. apply hdr_room_spec in R.
  destruct (is_end b0).
  - inversion H; subst. rewrite <- app_assoc. cbn. rewrite app_length. cbn. repeat split; auto; lia.
  - apply IH in H as (A & B & C & D). rewrite <- app_assoc in A. cbn in A. rewrite app_length in C, D. cbn in C, D.
    repeat split; auto; lia.
Qed.

(* the result is always one of the three outcomes and the header never exceeds the buffer: totality is by
   construction (bt_move is a total function); this is the bound *)
Theorem bt_move_header_bounded n hdr body :
  match bt_move n hdr body with BtDeliver h _ => length h <= HDR_MAX | _ => True end.
Proof. destruct (bt_move n hdr body) eqn:E; auto. apply bt_move_deliver in E. tauto. Qed.

(* the words of a backtrace *)
Definition word := (N * N * N * N)%type.
Definition wbytes (w : word) : list N := let '(a, b, c, d) := w in [a; b; c; d].
Definition flat (ws : list word) : list N := concat (map wbytes ws).
Definition wfirst (w : word) : N := let '(a, _, _, _) := w in a.
Lemma flat_length ws : length (flat ws) = 4 * length ws.
Proof. induction ws as [|[[[a b] c] d] ws IH]; cbn; auto. unfold flat in IH. rewrite IH. lia. Qed.

(* hop words without the end bit are moved to the header one by one, as far as the hop limit allows *)
Lemma bt_move_hops : forall ws n hdr rest,
  Forall (fun w => is_end (wfirst w) = false) ws -> length hdr + 4 * length ws <= HDR_MAX ->
  bt_move n hdr (flat ws ++ rest) = if length ws <? n then bt_move (n - length ws) (hdr ++ flat ws) rest else BtDrop.
Proof.
  induction ws as [|[[[a b] c] d] ws IH]; intros n hdr rest Hw Hr.
  - destruct n; [reflexivity|]. cbn [flat map concat app length Nat.ltb Nat.leb]. now rewrite app_nil_r.
  - inversion Hw; subst. cbn in H1. destruct n; [reflexivity|].
    change (flat ((a, b, c, d) :: ws)) with ([a; b; c; d] ++ flat ws). rewrite <- !app_assoc. cbn [app bt_move].
    assert (R: hdr_room hdr = true) by (apply hdr_room_spec; cbn in Hr; lia).
    rewrite R, H1, (IH n (hdr ++ [a; b; c; d]) rest H2) by (rewrite app_length; cbn in *; lia).
    cbn [length]. change (S (length ws) <? S n) with (length ws <? n). now rewrite <- app_assoc.
Qed.

(* k hop words without the end bit followed by a word with it: delivered iff k + 1 <= n (hops <= ttl),
   with exactly those k + 1 words moved; otherwise dropped.  Needs room in the header, which a header
   that starts with at most one word always has for n <= 15 (lemma bt_room below). *)
Theorem bt_move_terminated : forall ws n hdr wend rest,
  Forall (fun w => is_end (wfirst w) = false) ws -> is_end (wfirst wend) = true ->
  length hdr + 4 * (length ws + 1) <= HDR_MAX ->
  bt_move n hdr (flat ws ++ wbytes wend ++ rest) =
    if length ws <? n then BtDeliver (hdr ++ flat ws ++ wbytes wend) rest else BtDrop.
Proof.
  intros ws n hdr [[[ea eb] ec] ed] rest Hw He Hr. rewrite bt_move_hops by (auto; lia).
  destruct (Nat.ltb_spec (length ws) n) as [L|]; [|reflexivity]. destruct (n - length ws) eqn:D; [lia|].
  cbn [wbytes app bt_move]. cbn in He.
  assert (R: hdr_room (hdr ++ flat ws) = true) by (apply hdr_room_spec; rewrite app_length, flat_length; lia).
  now rewrite R, He, <- app_assoc.
Qed.

(* k words without the end bit and then fewer than 4 bytes: the peer is disconnected if the hop limit
   has not been reached, otherwise the message is dropped *)
Theorem bt_move_unterminated : forall ws n hdr (tl : list N),
  Forall (fun w => is_end (wfirst w) = false) ws -> length tl < 4 ->
  length hdr + 4 * length ws <= HDR_MAX ->
  bt_move n hdr (flat ws ++ tl) = if length ws <? n then BtClose else BtDrop.
Proof.
  intros ws n hdr tl Hw Ht Hr. rewrite bt_move_hops by auto.
  destruct (Nat.ltb_spec (length ws) n) as [L|]; [|reflexivity]. destruct (n - length ws) eqn:D; [lia|].
  destruct tl as [|t0 [|t1 [|t2 [|t3 r]]]]; cbn in Ht; try lia; reflexivity.
Qed.

(* with ttl <= TTL_MAX the header (empty, or holding the pipe id) never fills up: the "header full => drop"
   branch of the respondents is dead code *)
Lemma bt_room (hdr : list N) n k : length hdr <= 4 -> n <= TTL_MAX -> k < n -> length hdr + 4 * (k + 1) <= HDR_MAX.
Proof. unfold TTL_MAX, HDR_MAX. lia. Qed.

(* accepted by conversion: this be32 is defined like ReqRepBacktrace's, and word_of (be32 v ++ [])
   computes to word32 of the four bytes *)
Lemma word32_be32 v : (v < 4294967296)%N ->
  match be32 v with [a; b; c; d] => word32 a b c d = v | _ => False end.
Proof. exact (ReqRepProofs.word_of_be32 v []). Qed.
Lemma be32_length v : length (be32 v) = 4. Proof. reflexivity. Qed.

Lemma bt_move_prefix p : forall n hdr0 body h b,
  bt_move n (be32 p ++ hdr0) body = BtDeliver h b ->
  exists bt, h = be32 p ++ bt /\ bt_move n hdr0 body = BtDeliver bt b.
Proof.
  induction n as [|n IH]; intros hdr0 body h0 b0 E; cbn [bt_move] in E; [discriminate|].
  destruct body as [|x0 [|x1 [|x2 [|x3 rest]]]]; try discriminate.
  destruct (hdr_room (be32 p ++ hdr0)) eqn:R; [|discriminate].
  apply hdr_room_spec in R. rewrite app_length, be32_length in R.
  cbn [bt_move]. destruct (hdr_room hdr0) eqn:R0.
  2:{ apply Bool.not_true_iff_false in R0. exfalso. apply R0. apply hdr_room_spec. lia. }
  destruct (is_end x0).
  - inversion E; subst. exists (hdr0 ++ [x0; x1; x2; x3]). rewrite app_assoc. auto.
  - rewrite <- app_assoc in E. apply IH in E. exact E.
Qed.

(* the raw respondent stores the pipe id first and the raw respondent's send pops exactly that word:
   what xresp0_recv_cb passes up routes back to the pipe it came from, with the peer's backtrace as header *)
Theorem xresp_roundtrip p ttl wire h b :
  (p < 4294967296)%N -> xresp_recv p ttl wire = BtDeliver h b ->
  exists bt, h = be32 p ++ bt /\ xresp_send h = Some (p, bt) /\ bt ++ b = wire /\ resp_recv ttl wire = BtDeliver bt b.
Proof.
  intros Hp H. unfold xresp_recv, resp_recv in *.
  destruct (bt_move_prefix p ttl [] wire h b) as [bt [A B]]; [rewrite app_nil_r; exact H|].
  exists bt. split; [exact A|]. split.
  - subst h. pose proof (word32_be32 p Hp) as W. unfold be32 in *. cbn [app xresp_send]. rewrite W. reflexivity.
  - split; [|exact B]. apply bt_move_deliver in B. cbn in B. tauto.
Qed.

(* raw surveyor: at most a full header of words; anything else disconnects the peer *)
Lemma xsurv_move_deliver f : forall hdr body h b,
  xsurv_move f hdr body = BtDeliver h b -> h ++ b = hdr ++ body /\ length h <= HDR_MAX.
Proof.
  induction f as [|f IH]; intros hdr body h b H; cbn [xsurv_move] in H; [discriminate|].
  destruct body as [|b0 [|b1 [|b2 [|b3 rest]]]]; try discriminate.
  destruct (hdr_room hdr) eqn:R; [|discriminate]. apply hdr_room_spec in R.
  destruct (is_end b0).
  - inversion H; subst. rewrite <- app_assoc. cbn. rewrite app_length. cbn. split; auto; lia.
  - apply IH in H as (A & B). rewrite <- app_assoc in A. cbn in A. split; auto.
Qed.
Theorem xsurv_recv_never_drops wire : xsurv_recv wire <> BtDrop.
Proof.
  unfold xsurv_recv. generalize (S (length wire)) as f. generalize (@nil N) as hdr. revert wire.
  intros wire hdr f. revert wire hdr. induction f as [|f IH]; intros wire hdr; cbn [xsurv_move]; [discriminate|].
  destruct wire as [|b0 [|b1 [|b2 [|b3 rest]]]]; try discriminate.
  destruct (hdr_room hdr); [|discriminate]. destruct (is_end b0); [discriminate|apply IH].
Qed.

(* cooked surveyor: a response shorter than 4 bytes has no id; otherwise exactly one word is the id *)
Theorem surv_recv_spec wire :
  (length wire < 4 -> surv_recv wire = None) /\
  (forall id h b, surv_recv wire = Some (id, h, b) -> h ++ b = wire /\ length h = 4).
Proof.
  split.
  - destruct wire as [|b0 [|b1 [|b2 [|b3 rest]]]]; cbn; intros; auto; lia.
  - intros id h b. destruct wire as [|b0 [|b1 [|b2 [|b3 rest]]]]; cbn; intros H; try discriminate.
    inversion H; subst. auto.
Qed.
Theorem surv_send_recv id body : (id < 4294967296)%N ->
  surv_recv (surv_send id body) = Some (id, be32 id, body).
Proof.
  intros H. unfold surv_send, wire_of. pose proof (word32_be32 id H) as W. unfold be32 in *. cbn [app surv_recv].
  rewrite W. reflexivity.
Qed.

End Backtrace.

(* kget, kset and kdel are ReqModel's lookup, assoc_set and assoc_del under other names: the lemmas carry over *)
Lemma kget_kset_eq {A} k (v : A) l : kget k (kset k v l) = Some v.
Proof. exact (ReqRepProofs.lookup_assoc_set_same k v l). Qed.
Lemma kget_kset_neq {A} k k' (v : A) l : k' <> k -> kget k' (kset k v l) = kget k' l.
Proof. exact (ReqRepProofs.lookup_assoc_set_other k k' v l). Qed.
Lemma kget_in {A} k (v : A) l : kget k l = Some v -> In (k, v) l.
Proof. exact (ReqRepProofs.lookup_in k l v). Qed.
Lemma in_kget {A} k (v : A) l : NoDup (map fst l) -> In (k, v) l -> kget k l = Some v.
Proof. exact (ReqRepProofs.nodup_in_lookup k v l). Qed.
Lemma keys_kset_present {A} k (v v0 : A) l : kget k l = Some v0 -> map fst (kset k v l) = map fst l.
Proof. exact (ReqRepProofs.map_fst_assoc_set_present k v v0 l). Qed.
Lemma keys_kset_absent {A} k (v : A) l : kget k l = None -> map fst (kset k v l) = map fst l ++ [k].
Proof.
  intros H. apply ReqRepProofs.lookup_none_notin, (ReqRepProofs.assoc_set_absent k v) in H.
  change (kset k v l = l ++ [(k, v)]) in H. now rewrite H, map_app.
Qed.
Lemma kget_none_notin {A} k (l : list (N * A)) : kget k l = None -> ~ In k (map fst l).
Proof. exact (ReqRepProofs.lookup_none_notin k l). Qed.
Lemma nodup_kset {A} k (v : A) l : NoDup (map fst l) -> NoDup (map fst (kset k v l)).
Proof.
  intros H. destruct (kget k l) eqn:E.
  - now rewrite (keys_kset_present k v a l E).
  - rewrite (keys_kset_absent k v l E). apply ListX.nodup_snoc; auto. now apply kget_none_notin.
Qed.
Lemma in_kset {A} k (v : A) l k' v' :
  NoDup (map fst l) -> In (k', v') (kset k v l) -> (k' = k /\ v' = v) \/ (k' <> k /\ In (k', v') l).
Proof.
  intros ND H. apply (in_kget _ _ _ (nodup_kset k v l ND)) in H. destruct (N.eq_dec k' k) as [->|NE].
  - rewrite kget_kset_eq in H. inversion H. auto.
  - rewrite kget_kset_neq in H by exact NE. right. split; [exact NE|now apply kget_in].
Qed.
Lemma in_kset_other {A} k (v : A) l k' v' : k' <> k -> In (k', v') l -> In (k', v') (kset k v l).
Proof.
  intros Hk. induction l as [|[k0 v0] l IH]; cbn; [tauto|]. intros [X|X].
  - inversion X; subst. destruct (N.eqb_spec k' k); [contradiction|now left].
  - destruct (N.eqb_spec k0 k); right; auto.
Qed.
Lemma in_kset_weak {A} k (v : A) l k' v' : In (k', v') (kset k v l) -> v' = v \/ In (k', v') l.
Proof. intros H. destruct (ReqRepProofs.in_assoc_set _ _ _ _ H) as [E|Hi]; [inversion E|]; auto. Qed.
Lemma in_kdel {A} k (l : list (N * A)) k' v' : In (k', v') (kdel k l) -> k' <> k /\ In (k', v') l.
Proof. intros H. apply ReqRepProofs.in_assoc_del in H as [H1 H2]. exact (conj H2 H1). Qed.
Lemma nodup_kdel {A} k (l : list (N * A)) : NoDup (map fst l) -> NoDup (map fst (kdel k l)).
Proof. intros H. unfold kdel. now apply ListX.nodup_filter. Qed.
Lemma kget_kdel_neq {A} k k' (l : list (N * A)) : k' <> k -> kget k' (kdel k l) = kget k' l.
Proof. exact (ReqRepProofs.lookup_assoc_del_other k k' l). Qed.

Lemma id_succ_range x : (ID_LO <= x <= ID_HI)%N -> (ID_LO <= id_succ x <= ID_HI)%N.
Proof. unfold id_succ, ID_LO, ID_HI. intros H. destruct (N.ltb_spec 4294967295 (x + 1)); lia. Qed.
Lemma has_id_in a l : has_id a l = true <-> In a l.
Proof. exact (ReqRepProofs.has_id_true a l). Qed.
(* ids handed out by the generator: in range, not in use, and the cursor stays in range *)
Theorem surv_id_alloc_fresh fuel : forall live cur id cur',
  (ID_LO <= cur <= ID_HI)%N -> id_alloc fuel live cur = Some (id, cur') ->
  ~ In id live /\ (ID_LO <= id <= ID_HI)%N /\ (ID_LO <= cur' <= ID_HI)%N.
Proof.
  induction fuel as [|f IH]; intros live cur id cur' Hc H; cbn in H; [discriminate|].
  destruct (has_id cur live) eqn:E.
  - apply IH in H; auto. now apply id_succ_range.
  - inversion H; subst. split; [|split; [auto|now apply id_succ_range]].
    intros Hin. apply has_id_in in Hin. congruence.
Qed.
(* "in range" is "32 bits with the high bit set" *)
Lemma id_range_high_bit id : (ID_LO <= id <= ID_HI)%N <-> (N.testbit id 31 = true /\ id < 4294967296)%N.
Proof.
  unfold ID_LO, ID_HI. split.
  - intros H. split; [|lia]. apply N.testbit_true. change (2 ^ 31)%N with 2147483648%N.
    assert (id / 2147483648 = 1)%N as ->; [|reflexivity].
    symmetry. apply (N.div_unique id 2147483648 1 (id - 2147483648)); lia.
  - intros [H1 H2]. split; [|lia]. apply N.testbit_true in H1. change (2 ^ 31)%N with 2147483648%N in H1.
    destruct (N.lt_ge_cases id 2147483648); [|lia]. rewrite N.div_small in H1 by lia. discriminate.
Qed.

Definition hdr_id (h : list N) : N := match h with [a; b; c; d] => word32 a b c d | _ => 0%N end.
Definition get_ctx (s : surv) (c : option ctxid) : option sctx := kget (ckey c) (sv_ctxs s).

(* receive with no survey, or at/after the deadline: NNG_ESTATE, nothing changes (blocking or not) *)
Theorem surv_recv_estate_no_survey fx s c a nb cx :
  get_ctx s c = Some cx -> sc_survey cx = 0%N ->
  surv_step fx s (PRecv c a nb) = (s, [Complete a E_STATE None]).
Proof. unfold get_ctx. intros H E. cbn [surv_step]. rewrite H, E. reflexivity. Qed.
Theorem surv_recv_estate_after_deadline fx s c a nb cx :
  get_ctx s c = Some cx -> (sc_expire cx <= Z.of_N (sv_now s))%Z ->
  surv_step fx s (PRecv c a nb) = (s, [Complete a E_STATE None]).
Proof.
  unfold get_ctx. intros H E. cbn [surv_step]. rewrite H.
  apply Z.leb_le in E. rewrite E, orb_true_r. reflexivity.
Qed.

(* a response shorter than 4 bytes disconnects its sender; nothing else happens *)
Theorem surv_short_response_disconnects fx s p m :
  length (pm_body m) < 4 -> surv_step fx s (PRecvDone p 0 m) = (s, [Free m; ClosePipe p]).
Proof. intros H. cbn [surv_step N.eqb negb]. destruct (surv_recv_spec (pm_body m)) as [A _]. now rewrite (A H). Qed.

(* a response whose id no context currently owns (stale, foreign to every context, unknown, high bit
   clear, zero) is discarded: the state -- every context -- is untouched and the pipe keeps receiving *)
Theorem surv_unowned_response_discarded fx s p m id h b :
  surv_recv (pm_body m) = Some (id, h, b) -> find_owner id (sv_ctxs s) = None ->
  surv_step fx s (PRecvDone p 0 m) = (s, [Free (mkPmsg (pm_hdr m ++ h) b); TranRecv p]).
Proof. intros H F. cbn [surv_step N.eqb negb]. now rewrite H, F. Qed.

Lemma find_owner_some id l k c : find_owner id l = Some (k, c) -> sc_survey c = id /\ id <> 0%N /\ In (k, c) l.
Proof.
  unfold find_owner. destruct (N.eqb_spec id 0); [discriminate|]. intros H. apply find_some in H as [H1 H2].
  cbn in H2. apply N.eqb_eq in H2. auto.
Qed.

(* a response whose id a context owns goes to that context and to no other: to its oldest waiting receive,
   else into its queue (if not full); every other context is unchanged *)
Theorem surv_owned_response fx s p m id h b k c s' outs :
  NoDup (map fst (sv_ctxs s)) ->
  surv_recv (pm_body m) = Some (id, h, b) -> find_owner id (sv_ctxs s) = Some (k, c) ->
  surv_step fx s (PRecvDone p 0 m) = (s', outs) ->
  sc_survey c = id /\ id <> 0%N /\
  (forall k', k' <> k -> kget k' (sv_ctxs s') = kget k' (sv_ctxs s)) /\
  sv_pipes s' = sv_pipes s /\
  (forall a rv x, In (Complete a rv x) outs ->
     rv = E_OK /\ x = Some (mkPmsg (pm_hdr m ++ h) b) /\ exists r, sc_rq c = a :: r) /\
  (sc_rq c = [] -> length (sc_lmq c) < SURV_RECV_BUF ->
     exists c', kget k (sv_ctxs s') = Some c' /\ sc_lmq c' = sc_lmq c ++ [mkPmsg (pm_hdr m ++ h) b] /\ sc_survey c' = id).
Proof.
  intros ND H F S. destruct (find_owner_some _ _ _ _ F) as (E1 & E2 & E3).
  cbn [surv_step N.eqb negb] in S. rewrite H, F in S.
  split; [exact E1|]. split; [exact E2|].
  destruct (SURV_RECV_BUF <=? length (sc_lmq c)) eqn:FL.
  - inversion S; subst. split; [auto|]. split; [auto|]. split.
    + intros a rv x [X|[X|[]]]; discriminate.
    + intros _ L. apply Nat.leb_le in FL. lia.
  - destruct (sc_rq c) as [|a0 r0] eqn:RQ.
    + assert (S2: sv_ctxs s' = kset k (mkSctx (sc_survey c) (sc_lmq c ++ [mkPmsg (pm_hdr m ++ h) b]) [] (sc_stime c) (sc_expire c)) (sv_ctxs s) /\
                  sv_pipes s' = sv_pipes s /\ outs = [TranRecv p]).
      { destruct (k =? 0)%N; inversion S; subst; cbn; auto. }
      destruct S2 as (A & B & C). rewrite A, C. split; [|split; [auto|split]].
      * intros k' Hk. now apply kget_kset_neq.
      * intros a rv x [X|[]]; discriminate.
      * intros _ _. eexists. split; [apply kget_kset_eq|]. cbn. auto.
    + inversion S; subst. cbn [sv_ctxs sv_pipes set_ctxs]. split; [|split; [auto|split]].
      * intros k' Hk. now apply kget_kset_neq.
      * intros a rv x [X|[X|[]]]; inversion X; subst. split; [auto|]. split; [auto|]. eauto.
      * discriminate.
Qed.

Lemma fanout_no_complete m0 l : forall r rv x, ~ In (Complete r rv x) (snd (fanout m0 l)).
Proof.
  induction l as [|[q y] l IH]; cbn [fanout snd]; [cbn; tauto|]. destruct (fanout m0 l) as [r' o]. cbn [snd] in IH.
  destruct (sp_closed y); [exact IH|]. destruct (sp_busy y); cbn [negb].
  - destruct (length (sp_q y) <? SURV_SEND_BUF); exact IH.
  - cbn [snd]. intros r rv x [X|X]; [discriminate|]. eapply IH; eauto.
Qed.
(* a new survey: every pending receive of that context is cancelled, its queued responses are freed,
   the old id is retired and a fresh one (in range, owned by nobody) installed; deadline = now + survey time *)
Theorem surv_new_survey_aborts_old fx s c a nb m cx s' outs :
  (ID_LO <= sv_cur s <= ID_HI)%N ->
  get_ctx s c = Some cx -> surv_step fx s (PSend c a nb m) = (s', outs) ->
  (forall r, In r (sc_rq cx) -> In (Complete r E_CANCELED None) outs) /\
  (forall x, In x (sc_lmq cx) -> In (Free x) outs) /\
  (forall r rv x, In (Complete r rv x) outs -> r <> a -> In r (sc_rq cx) /\ rv = E_CANCELED /\ x = None) /\
  (In (Complete a E_OK None) outs ->
     exists cx', get_ctx s' c = Some cx' /\ sc_lmq cx' = [] /\ sc_rq cx' = [] /\
       (ID_LO <= sc_survey cx' <= ID_HI)%N /\
       sc_expire cx' = (Z.of_N (sv_now s) + sc_stime cx)%Z /\
       (forall k' c', k' <> ckey c -> In (k', c') (sv_ctxs s) -> sc_survey c' <> sc_survey cx') /\
       (forall k', k' <> ckey c -> kget k' (sv_ctxs s') = kget k' (sv_ctxs s))).
Proof.
  unfold get_ctx. intros HC H St. cbn [surv_step] in St. rewrite H in St. cbn [ctx_abort] in St.
  set (cx1 := mkSctx 0 [] [] (sc_stime cx) (sc_expire cx)) in *.
  set (ctxs1 := kset (ckey c) cx1 (sv_ctxs s)) in *.
  set (o1 := fail_aios E_CANCELED (sc_rq cx) ++ map Free (sc_lmq cx)) in *.
  assert (FO: forall r rv x, In (Complete r rv x) o1 -> In r (sc_rq cx) /\ rv = E_CANCELED /\ x = None).
  { intros r rv x Hin. apply in_app_or in Hin as [Hin|Hin].
    - unfold fail_aios in Hin. apply in_map_iff in Hin as (y & E & Hy). inversion E; subst. auto.
    - apply in_map_iff in Hin as (y & E & _). discriminate. }
  assert (P1: forall r, In r (sc_rq cx) -> In (Complete r E_CANCELED None) o1).
  { intros r Hr. apply in_or_app. left. unfold fail_aios. apply in_map_iff. eauto. }
  assert (P2: forall x, In x (sc_lmq cx) -> In (Free x) o1).
  { intros x Hx. apply in_or_app. right. now apply in_map. }
  destruct (id_alloc (Datatypes.S (length (live_ids ctxs1))) (live_ids ctxs1) (sv_cur s)) as [[id cur']|] eqn:AL.
  - pose proof (fanout_no_complete (mkPmsg (be32 id) (pm_body m)) (sv_pipes s)) as TXC.
    destruct (fanout (mkPmsg (be32 id) (pm_body m)) (sv_pipes s)) as [pipes' tx] eqn:FA. cbn [snd] in TXC.
    inversion St; subst s' outs; clear St.
    destruct (surv_id_alloc_fresh _ _ _ _ _ HC AL) as (NI & RG & CR).
    split; [|split; [|split]].
    + intros r Hr. apply in_or_app. left. auto.
    + intros x Hx. apply in_or_app. left. auto.
    + intros r rv x Hin Hne. apply in_app_or in Hin as [X|X]; [now apply FO|].
      apply in_app_or in X as [X|[X|[]]]; [exfalso; eapply TXC; eauto|]. inversion X; subst. contradiction.
    + intros _. eexists. cbn [sv_ctxs]. split; [apply kget_kset_eq|]. cbn [sc_lmq sc_rq sc_survey sc_expire].
      split; [reflexivity|]. split; [reflexivity|]. split; [exact RG|]. split; [reflexivity|]. split.
      * intros k' c' Hk Hin E. apply NI. unfold live_ids. apply filter_In. split.
        -- apply in_map_iff. exists (k', c'). split; [exact E|]. unfold ctxs1. now apply in_kset_other.
        -- destruct (N.eqb_spec id 0); [|reflexivity]. unfold ID_LO in RG. lia.
      * intros k' Hk. rewrite kget_kset_neq by auto. unfold ctxs1. now apply kget_kset_neq.
  - inversion St; subst s' outs; clear St. split; [|split; [|split]].
    + intros r Hr. apply in_or_app. left. auto.
    + intros x Hx. apply in_or_app. left. auto.
    + intros r rv x Hin Hne. apply in_app_or in Hin as [X|[X|[]]]; [now apply FO|]. inversion X; subst. contradiction.
    + intros X. exfalso. apply in_app_or in X as [X|[X|[]]]; [apply FO in X; destruct X as (_ & X & _); discriminate|discriminate].
Qed.

Definition timed_out (c : sctx) : sctx := mkSctx 0 (sc_lmq c) [] (sc_stime c) (sc_expire c).
(* the expire thread is a map over the contexts *)
Definition expired (now : N) (c : sctx) : bool := negb (isnil (sc_rq c)) && (sc_expire c <? Z.of_N now)%Z.
Lemma expire_ctxs_map now l :
  expire_ctxs now l =
  (map (fun kc => (fst kc, if expired now (snd kc) then timed_out (snd kc) else snd kc)) l,
   flat_map (fun kc => if expired now (snd kc) then fail_aios E_TIMEDOUT (sc_rq (snd kc)) else []) l).
Proof.
  induction l as [|[k c] l IH]; cbn [expire_ctxs map flat_map fst snd]; [reflexivity|]. rewrite IH. unfold expired.
  destruct (sc_rq c); cbn [isnil negb andb app]; [reflexivity|]. destruct (_ <? _)%Z; reflexivity.
Qed.
Lemma expired_true now c : expired now c = true <-> sc_rq c <> [] /\ (sc_expire c < Z.of_N now)%Z.
Proof. unfold expired. rewrite andb_true_iff, Z.ltb_lt. destruct (sc_rq c); cbn; intuition congruence. Qed.
Lemma kget_map {A B} (f : A -> B) k l : kget k (map (fun kc => (fst kc, f (snd kc))) l) = option_map f (kget k l).
Proof. induction l as [|[k0 v] l IH]; cbn; [reflexivity|]. destruct (N.eqb k0 k); auto. Qed.

Lemma expire_ctxs_keys now l : map fst (fst (expire_ctxs now l)) = map fst l.
Proof. rewrite expire_ctxs_map. cbn [fst]. rewrite map_map. reflexivity. Qed.
Lemma expire_ctxs_in now l k c' :
  In (k, c') (fst (expire_ctxs now l)) -> exists c, In (k, c) l /\ (c' = c \/ (sc_rq c <> [] /\ c' = timed_out c)).
Proof.
  rewrite expire_ctxs_map. cbn [fst]. intros H. apply in_map_iff in H as ([k0 c] & E & Hin). cbn [fst snd] in E.
  inversion E; subst. exists c. split; [exact Hin|]. destruct (expired now c) eqn:X; [|auto]. apply expired_true in X. tauto.
Qed.
Lemma expire_ctxs_get now l k c :
  kget k l = Some c -> kget k (fst (expire_ctxs now l)) = Some (if expired now c then timed_out c else c).
Proof. intros H. rewrite expire_ctxs_map. cbn [fst]. now rewrite (kget_map (fun c => if expired now c then timed_out c else c)), H. Qed.
Lemma expire_ctxs_outs now l a rv x :
  In (Complete a rv x) (snd (expire_ctxs now l)) <->
  rv = E_TIMEDOUT /\ x = None /\ exists k c, In (k, c) l /\ In a (sc_rq c) /\ expired now c = true.
Proof.
  rewrite expire_ctxs_map. cbn [snd]. rewrite in_flat_map. split.
  - intros ([k c] & Hin & H). cbn [snd] in H. destruct (expired now c) eqn:X; [|contradiction].
    apply in_map_iff in H as (y & E & Hy). inversion E; subst. do 2 (split; [reflexivity|]). exists k, c. auto.
  - intros (-> & -> & k & c & Hin & Ha & X). exists (k, c). split; [exact Hin|]. cbn [snd]. rewrite X.
    apply in_map_iff. eauto.
Qed.

(* the expiry event (the clock is past the deadline): every receive still pending on the context
   completes with NNG_ETIMEDOUT and the survey id is retired; nothing is delivered by this step *)
Theorem surv_pending_times_out fx s now k c a s' outs :
  kget k (sv_ctxs s) = Some c -> In a (sc_rq c) -> (sc_expire c < Z.of_N now)%Z ->
  surv_step fx s (PTick now) = (s', outs) ->
  In (Complete a E_TIMEDOUT None) outs /\
  (exists c', kget k (sv_ctxs s') = Some c' /\ sc_survey c' = 0%N /\ sc_rq c' = []) /\
  (forall a' rv x, In (Complete a' rv x) outs -> rv = E_TIMEDOUT /\ x = None).
Proof.
  intros H Ha Hl St. cbn [surv_step] in St.
  assert (X : expired now c = true) by (apply expired_true; split; [intros E; rewrite E in Ha; contradiction|exact Hl]).
  pose proof (expire_ctxs_get now _ _ _ H) as G. rewrite X in G.
  pose proof (fun a' rv x => expire_ctxs_outs now (sv_ctxs s) a' rv x) as O.
  destruct (expire_ctxs now (sv_ctxs s)) as [cs o]. cbn [fst snd] in *. inversion St; subst. cbn [sv_ctxs].
  split; [apply (O a E_TIMEDOUT None); do 2 (split; [reflexivity|]); exists k, c; split; [now apply kget_in|auto]|]. split.
  - eexists. split; [exact G|]. cbn. auto.
  - intros a' rv x Hin. apply O in Hin. tauto.
Qed.

(* invariant: while receives are pending no response is queued (tr_deliver and tr_retire rely on it);
   queued responses carry the context's current id *)
Definition CInv (c : sctx) : Prop :=
  (sc_rq c <> [] -> sc_lmq c = []) /\
  (forall m, In m (sc_lmq c) -> hdr_id (pm_hdr m) = sc_survey c /\ sc_survey c <> 0%N).
Definition SInv (s : surv) : Prop :=
  NoDup (map fst (sv_ctxs s)) /\ forall k c, In (k, c) (sv_ctxs s) -> CInv c.

(* the environment's contract: transports deliver whole wire messages in the body *)
Definition surv_op_ok (o : pop) : Prop :=
  match o with PRecvDone _ rv m => rv = 0%N -> pm_hdr m = [] | _ => True end.

Lemma cancel_ctxs_keys a rv l : map fst (fst (cancel_ctxs a rv l)) = map fst l.
Proof.
  induction l as [|[k c] l IH]; cbn [cancel_ctxs]; [reflexivity|]. destruct (has_id a (sc_rq c)); cbn [fst map]; [reflexivity|].
  destruct (cancel_ctxs a rv l) as [r o]. cbn [fst map] in *. now rewrite IH.
Qed.
Lemma cancel_ctxs_in a rv l k c' :
  In (k, c') (fst (cancel_ctxs a rv l)) ->
  exists c, In (k, c) l /\ (c' = c \/ (sc_rq c <> [] /\ c' = mkSctx 0 (sc_lmq c) (remove_id a (sc_rq c)) (sc_stime c) (sc_expire c))).
Proof.
  induction l as [|[k0 c0] l IH]; cbn [cancel_ctxs]; [cbn; contradiction|].
  destruct (has_id a (sc_rq c0)) eqn:HA; cbn [fst].
  - intros [X|X].
    + inversion X; subst. exists c0. split; [now left|]. right. split; [|reflexivity].
      intros E. rewrite E in HA. discriminate.
    + exists c'. split; [now right|auto].
  - destruct (cancel_ctxs a rv l) as [r o]. cbn [fst] in *. intros [X|X].
    + inversion X; subst. exists c'. split; [now left|auto].
    + destruct (IH X) as (c & A & B). exists c. split; [now right|auto].
Qed.

Definition is_send_on (k : N) (o : pop) : Prop := exists c a nb m, o = PSend c a nb m /\ ckey c = k.
Definition is_open_of (k : N) (o : pop) : Prop := exists c, o = PCtxOpen c /\ ckey (Some c) = k.

(* the ways one step rewrites a context: unchanged, surv0_ctx_abort, a new survey, a queued response taken,
   a receive queued, the survey retired under pending receives (cancel, expiry), a response handed to the
   oldest receive, a response queued, the survey time set *)
Inductive ctx_tr (s : surv) (o : pop) (k : N) (c : sctx) : sctx -> Prop :=
| tr_same : ctx_tr s o k c c
| tr_abort : ctx_tr s o k c (mkSctx 0 [] [] (sc_stime c) (sc_expire c))
| tr_survey id : is_send_on k o -> ctx_tr s o k c (mkSctx id [] [] (sc_stime c) (Z.of_N (sv_now s) + sc_stime c))
| tr_take m r : sc_lmq c = m :: r -> ctx_tr s o k c (mkSctx (sc_survey c) r (sc_rq c) (sc_stime c) (sc_expire c))
| tr_wait a : sc_lmq c = [] -> (Z.of_N (sv_now s) < sc_expire c)%Z ->
    ctx_tr s o k c (mkSctx (sc_survey c) [] (sc_rq c ++ [a]) (sc_stime c) (sc_expire c))
| tr_retire rq' : sc_rq c <> [] -> ctx_tr s o k c (mkSctx 0 (sc_lmq c) rq' (sc_stime c) (sc_expire c))
| tr_deliver a r : sc_rq c = a :: r -> ctx_tr s o k c (mkSctx (sc_survey c) (sc_lmq c) r (sc_stime c) (sc_expire c))
| tr_queue p m h b : o = PRecvDone p 0 m -> surv_recv (pm_body m) = Some (sc_survey c, h, b) -> sc_survey c <> 0%N ->
    sc_rq c = [] -> ctx_tr s o k c (mkSctx (sc_survey c) (sc_lmq c ++ [mkPmsg (pm_hdr m ++ h) b]) [] (sc_stime c) (sc_expire c))
| tr_stime ms : ctx_tr s o k c (mkSctx (sc_survey c) (sc_lmq c) (sc_rq c) ms (sc_expire c)).

(* l' holds, under distinct keys, rewritten contexts of s and possibly the context o opens *)
Definition ctxs_tr (s : surv) (o : pop) (l' : list (N * sctx)) : Prop :=
  NoDup (map fst l') /\
  forall k c', kget k l' = Some c' ->
    (is_open_of k o /\ exists st, c' = ctx_init st) \/ exists c, kget k (sv_ctxs s) = Some c /\ ctx_tr s o k c c'.

Lemma ctxs_tr_same s o : NoDup (map fst (sv_ctxs s)) -> ctxs_tr s o (sv_ctxs s).
Proof. intros ND. split; [exact ND|]. intros k c' G. right. exists c'. split; [exact G|constructor]. Qed.
Lemma ctxs_tr_kset s o l k v :
  ctxs_tr s o l ->
  (is_open_of k o /\ exists st, v = ctx_init st) \/ (exists c, kget k (sv_ctxs s) = Some c /\ ctx_tr s o k c v) ->
  ctxs_tr s o (kset k v l).
Proof.
  intros [ND T] Hv. split; [now apply nodup_kset|]. intros k0 c' G. destruct (N.eq_dec k0 k) as [->|NE].
  - rewrite kget_kset_eq in G. inversion G; subst. exact Hv.
  - rewrite kget_kset_neq in G by exact NE. auto.
Qed.
Lemma ctxs_tr_in s o l' :
  NoDup (map fst (sv_ctxs s)) -> map fst l' = map fst (sv_ctxs s) ->
  (forall k c', In (k, c') l' -> exists c, In (k, c) (sv_ctxs s) /\ ctx_tr s o k c c') -> ctxs_tr s o l'.
Proof.
  intros ND K H. split; [now rewrite K|]. intros k c' G. right.
  destruct (H k c' (kget_in _ _ _ G)) as (c & A & B). exists c. split; [now apply in_kget|exact B].
Qed.

Lemma surv_step_ctxs fx s o s' outs :
  NoDup (map fst (sv_ctxs s)) -> surv_step fx s o = (s', outs) ->
  ctxs_tr s o (sv_ctxs s') /\ sv_now s' = match o with PTick now => now | _ => sv_now s end.
Proof.
  intros ND St. pose proof (ctxs_tr_same s o ND) as T0.
  assert (K: forall k c v, kget k (sv_ctxs s) = Some c -> ctx_tr s o k c v -> ctxs_tr s o (kset k v (sv_ctxs s))).
  { intros k c v G T. apply ctxs_tr_kset; eauto. }
  destruct o as [c a nb m|c a nb|a rv|p peer|p|p rv|p rv m|c op|c|c| |now]; cbn [surv_step] in St.
  - destruct (kget (ckey c) (sv_ctxs s)) as [cx|] eqn:G; [|inversion St; subst; auto]. cbn [ctx_abort] in St.
    pose proof (K _ _ _ G (tr_abort _ _ _ _)) as T1.
    destruct (id_alloc _ _ _) as [[id cur']|]; [destruct (fanout _ _) as [pipes' tx]|]; inversion St; subst; auto.
    split; [|reflexivity]. apply ctxs_tr_kset; [exact T1|]. right. exists cx. split; [exact G|].
    apply tr_survey. exists c, a, nb, m. auto.
  - destruct (kget (ckey c) (sv_ctxs s)) as [cx|] eqn:G; [|inversion St; subst; auto].
    destruct (N.eqb _ 0 || _) eqn:D; [inversion St; subst; auto|]. apply orb_false_elim in D as [_ D]. apply Z.leb_gt in D.
    destruct (sc_lmq cx) as [|m0 r] eqn:L.
    + destruct (nb && fx); inversion St; subst; [auto|]. split; [|reflexivity]. apply (K _ _ _ G). now apply tr_wait.
    + destruct (isnil r && _); inversion St; subst; (split; [|reflexivity]); apply (K _ _ _ G); now apply (tr_take _ _ _ _ m0).
  - pose proof (cancel_ctxs_keys a rv (sv_ctxs s)) as KS. pose proof (fun k c' => cancel_ctxs_in a rv (sv_ctxs s) k c') as I.
    destruct (cancel_ctxs a rv (sv_ctxs s)) as [cs o]. cbn [fst] in *. inversion St; subst. split; [|reflexivity].
    apply ctxs_tr_in; auto. intros k c' Hin. destruct (I k c' Hin) as (c0 & A & [->|[B ->]]); exists c0; split; auto; now constructor.
  - destruct (negb _); inversion St; subst; auto.
  - destruct (kget p (sv_pipes s)); inversion St; subst; auto.
  - destruct (kget p (sv_pipes s)) as [x|]; [|inversion St; subst; auto].
    destruct (negb _); [inversion St; subst; auto|]. destruct (sp_closed x); [inversion St; subst; auto|].
    destruct (sp_q x); inversion St; subst; auto.
  - destruct (N.eqb_spec rv 0) as [->|]; cbn [negb] in St; [|inversion St; subst; auto].
    destruct (surv_recv (pm_body m)) as [[[id h] b]|] eqn:SR; [|inversion St; subst; auto].
    destruct (find_owner id (sv_ctxs s)) as [[k c]|] eqn:FO; [|inversion St; subst; auto].
    destruct (find_owner_some _ _ _ _ FO) as (E1 & E2 & E3). apply (in_kget _ _ _ ND) in E3. subst id.
    destruct (_ <=? _); [inversion St; subst; auto|].
    destruct (sc_rq c) as [|a r] eqn:RQ.
    + destruct (k =? 0)%N; inversion St; subst; (split; [|reflexivity]); apply (K _ _ _ E3); now apply (tr_queue _ _ _ _ p m).
    + inversion St; subst. split; [|reflexivity]. apply (K _ _ _ E3). now apply (tr_deliver _ _ _ _ a).
  - destruct op as [n|n|n|ms|ms|ms|b|t|t].
    + destruct c; [|destruct (_ <? _)%N]; inversion St; subst; auto.
    + destruct c; [|destruct (_ <? _)%N]; inversion St; subst; auto.
    + destruct c; [|destruct (_ && _)]; inversion St; subst; auto.
    + destruct c; inversion St; subst; auto.
    + destruct c; inversion St; subst; auto.
    + destruct c as [c|]; cbn [ckey] in St; (destruct (ms <? -1)%Z; [inversion St; subst; auto|]);
        (destruct (kget _ (sv_ctxs s)) as [cx|] eqn:G; inversion St; subst; [|auto]);
        (split; [|reflexivity]); apply (K _ _ _ G), tr_stime.
    + destruct c; inversion St; subst; auto.
    + destruct c; inversion St; subst; auto.
    + destruct c; inversion St; subst; auto.
  - inversion St; subst. split; [|reflexivity]. apply ctxs_tr_kset; [exact T0|]. left. split; [exists c; auto|eauto].
  - destruct (kget (ckey (Some c)) (sv_ctxs s)); inversion St; subst; [|auto]. split; [|reflexivity]. split; [now apply nodup_kdel|].
    intros k c' G. right. exists c'. split; [|constructor]. apply kget_in, in_kdel in G as [_ G]. now apply in_kget.
  - destruct (kget 0%N (sv_ctxs s)) as [cx|] eqn:G; inversion St; subst; [|auto]. split; [|reflexivity]. apply (K _ _ _ G). constructor.
  - pose proof (expire_ctxs_keys now (sv_ctxs s)) as KS. pose proof (fun k c' => expire_ctxs_in now (sv_ctxs s) k c') as I.
    destruct (expire_ctxs now (sv_ctxs s)) as [cs o]. cbn [fst] in *. inversion St; subst. split; [|reflexivity].
    apply ctxs_tr_in; auto. intros k c' Hin. destruct (I k c' Hin) as (c0 & A & [->|[B ->]]); exists c0; split; auto; now constructor.
Qed.

Lemma ctx_tr_cinv s o k c c' : surv_op_ok o -> ctx_tr s o k c c' -> CInv c -> CInv c'.
Proof.
  intros Hok T [CA CB]. destruct T as [| |id|m r L|a L|rq' R|a r R|p m h b -> SR NZ R|ms]; try (split; cbn; [auto|contradiction]).
  - now split.
  - split; cbn; [intros H; now rewrite (CA H) in L|]. intros m1 Hm. apply CB. rewrite L. now right.
  - rewrite (CA R). split; cbn; [auto|contradiction].
  - rewrite CA by congruence. split; cbn; [auto|contradiction].
  - split; cbn; [congruence|]. intros m1 Hm. apply in_app_or in Hm as [Hm|[<-|[]]]; [auto|]. split; [|exact NZ].
    cbn [pm_hdr]. rewrite (Hok eq_refl). cbn [app].
    destruct (pm_body m) as [|b0 [|b1 [|b2 [|b3 rest]]]]; cbn in SR; try discriminate. now inversion SR.
  - now split.
Qed.

Theorem surv_step_inv fx s o s' outs : SInv s -> surv_op_ok o -> surv_step fx s o = (s', outs) -> SInv s'.
Proof.
  intros [ND HC] Hok St. destruct (surv_step_ctxs fx s o s' outs ND St) as [[ND' T] _]. split; [exact ND'|].
  intros k c' Hin. destruct (T k c' (in_kget _ _ _ ND' Hin)) as [[_ [st ->]]|(c & G & Tr)].
  - split; cbn; [auto|contradiction].
  - eapply ctx_tr_cinv; eauto. exact (HC _ _ (kget_in _ _ _ G)).
Qed.

Lemma surv_init_inv : SInv surv_init.
Proof.
  split; cbn; [constructor; [tauto|constructor]|]. intros k c [H|[]]. inversion H; subst. split; cbn; [auto|contradiction].
Qed.

Definition no_msg (outs : list pout) : Prop := forall a rv m, ~ In (Complete a rv (Some m)) outs.
Lemma no_msg_app a b : no_msg a -> no_msg b -> no_msg (a ++ b).
Proof. intros A B x rv m H. apply in_app_or in H as [H|H]; [eapply A|eapply B]; eauto. Qed.
Lemma no_msg_fail rv l : no_msg (fail_aios rv l).
Proof. intros a r m H. unfold fail_aios in H. apply in_map_iff in H as (y & E & _). discriminate. Qed.
Lemma no_msg_free l : no_msg (map Free l).
Proof. intros a r m H. apply in_map_iff in H as (y & E & _). discriminate. Qed.
Lemma no_msg_nil : no_msg []. Proof. intros a r m []. Qed.
Lemma no_msg_fanout m0 l : no_msg (snd (fanout m0 l)).
Proof. intros a r m H. eapply fanout_no_complete; eauto. Qed.
Lemma no_msg_cancel a rv l : no_msg (snd (cancel_ctxs a rv l)).
Proof.
  induction l as [|[k c] l IH]; cbn [cancel_ctxs]; [apply no_msg_nil|]. destruct (has_id a (sc_rq c)); cbn [snd].
  - intros x r m [H|[]]. discriminate.
  - destruct (cancel_ctxs a rv l). exact IH.
Qed.
Lemma no_msg_expire now l : no_msg (snd (expire_ctxs now l)).
Proof. intros a r m H. apply expire_ctxs_outs in H as (_ & H & _). discriminate. Qed.
Ltac no_msg_solve := repeat first [apply no_msg_app | apply no_msg_fail | apply no_msg_free | apply no_msg_nil
                        | (intros ? ? ? [X|[]]; discriminate) | (intros ? ? ? [X|[X|[]]]; discriminate) ].

Lemma surv_setopt_outs fx s c op s' outs : surv_step fx s (PSetOpt c op) = (s', outs) -> exists rv, outs = [OptRv rv].
Proof.
  cbn [surv_step]. destruct op; destruct c as [c|]; cbn [ckey];
    repeat match goal with
           | |- context [if ?b then _ else _] => destruct b
           | |- context [match kget ?k ?l with _ => _ end] => destruct (kget k l)
           end; intros H; inversion H; eauto.
Qed.

(* whatever the step, a message handed to the application (a) carries the current, live survey id of the
   context that receives it, and (b) goes either to the receive being posted on that context -- then the
   deadline has not passed -- or to that context's oldest pending receive *)
Theorem surv_delivery_only_current fx s o s' outs a m :
  SInv s -> surv_op_ok o -> surv_step fx s o = (s', outs) -> In (Complete a E_OK (Some m)) outs ->
  exists k c, kget k (sv_ctxs s) = Some c /\ sc_survey c <> 0%N /\ hdr_id (pm_hdr m) = sc_survey c /\
    ((exists cc nb, o = PRecv cc a nb /\ ckey cc = k /\ (Z.of_N (sv_now s) < sc_expire c)%Z) \/
     (exists r p rv w, sc_rq c = a :: r /\ o = PRecvDone p rv w)).
Proof.
  intros HI Hok St Hin. pose proof HI as [ND HC].
  assert (NM: forall l, no_msg l -> outs = l -> False) by (intros l H ->; eapply H; eauto).
  destruct o as [c a0 nb m0|c a0 nb|a0 rv|p peer|p|p rv|p rv m0|c op|c|c| |now]; cbn [surv_step] in St.
  - exfalso. destruct (kget (ckey c) (sv_ctxs s)) as [cx|]; [|inversion St; subst; eapply NM; [|reflexivity]; no_msg_solve].
    cbn [ctx_abort] in St. destruct (id_alloc _ _ _) as [[id cur']|].
    + pose proof (no_msg_fanout (mkPmsg (be32 id) (pm_body m0)) (sv_pipes s)) as F.
      destruct (fanout _ _) as [pipes' tx]. cbn [snd] in F. inversion St; subst. eapply NM; [|reflexivity]. no_msg_solve. exact F.
    + inversion St; subst. eapply NM; [|reflexivity]. no_msg_solve.
  - destruct (kget (ckey c) (sv_ctxs s)) as [cx|] eqn:G; [|exfalso; inversion St; subst; eapply NM; [|reflexivity]; no_msg_solve].
    destruct (N.eqb_spec (sc_survey cx) 0) as [|NZ]; cbn [orb] in St;
      [exfalso; inversion St; subst; eapply NM; [|reflexivity]; no_msg_solve|].
    destruct (sc_expire cx <=? Z.of_N (sv_now s))%Z eqn:EX; [exfalso; inversion St; subst; eapply NM; [|reflexivity]; no_msg_solve|].
    destruct (sc_lmq cx) as [|m1 r] eqn:L.
    + exfalso. destruct (nb && fx); inversion St; subst; eapply NM; try reflexivity; no_msg_solve.
    + assert (O: outs = [Complete a0 E_OK (Some m1)]) by (destruct (isnil r && (ckey c =? 0)%N); inversion St; auto).
      subst outs. destruct Hin as [X|[]]. inversion X; subst.
      pose proof (HC _ _ (kget_in _ _ _ G)) as [_ CB]. destruct (CB m ltac:(rewrite L; now left)) as [B1 B2].
      exists (ckey c), cx. repeat split; auto. left. exists c, nb. repeat split; auto. apply Z.leb_gt in EX. lia.
  - exfalso. pose proof (no_msg_cancel a0 rv (sv_ctxs s)) as F. destruct (cancel_ctxs a0 rv (sv_ctxs s)). inversion St; subst. eapply NM; eauto.
  - exfalso. destruct (negb _); inversion St; subst; eapply NM; try reflexivity; no_msg_solve.
  - exfalso. destruct (kget p (sv_pipes s)); inversion St; subst; eapply NM; try reflexivity; no_msg_solve.
  - exfalso. destruct (kget p (sv_pipes s)) as [x|]; [|inversion St; subst; eapply NM; try reflexivity; no_msg_solve].
    destruct (negb _); [inversion St; subst; eapply NM; try reflexivity; no_msg_solve|].
    destruct (sp_closed x); [inversion St; subst; eapply NM; try reflexivity; no_msg_solve|].
    destruct (sp_q x); inversion St; subst; eapply NM; try reflexivity; no_msg_solve.
  - destruct (N.eqb_spec rv 0) as [->|]; cbn [negb] in St; [|exfalso; inversion St; subst; eapply NM; try reflexivity; no_msg_solve].
    cbn in Hok. specialize (Hok eq_refl).
    destruct (surv_recv (pm_body m0)) as [[[id h] b]|] eqn:SR; [|exfalso; inversion St; subst; eapply NM; try reflexivity; no_msg_solve].
    destruct (find_owner id (sv_ctxs s)) as [[k c]|] eqn:FO; [|exfalso; inversion St; subst; eapply NM; try reflexivity; no_msg_solve].
    destruct (find_owner_some _ _ _ _ FO) as (E1 & E2 & E3).
    destruct (_ <=? _); [exfalso; inversion St; subst; eapply NM; try reflexivity; no_msg_solve|].
    destruct (sc_rq c) as [|a1 r] eqn:RQ.
    + exfalso. destruct (k =? 0)%N; inversion St; subst; eapply NM; try reflexivity; no_msg_solve.
    + inversion St; subst. destruct Hin as [X|[X|[]]]; [|discriminate]. inversion X; subst.
      exists k, c. split; [now apply in_kget|]. split; [congruence|]. split.
      * cbn [pm_hdr]. rewrite Hok. cbn [app].
        destruct (pm_body m0) as [|b0 [|b1 [|b2 [|b3 rest]]]]; cbn in SR; try discriminate. inversion SR; subst. reflexivity.
      * right. exists r, p, 0%N, m0. auto.
  - exfalso. destruct (surv_setopt_outs fx s c op s' outs St) as [rv0 ->]. destruct Hin as [X|[]]. discriminate.
  - exfalso. inversion St; subst. eapply NM; try reflexivity; no_msg_solve.
  - exfalso. destruct (kget (ckey (Some c)) (sv_ctxs s)); inversion St; subst; eapply NM; try reflexivity; no_msg_solve.
  - exfalso. cbn [ctx_abort] in St. destruct (kget 0%N (sv_ctxs s)); inversion St; subst; eapply NM; try reflexivity; no_msg_solve.
  - exfalso. pose proof (no_msg_expire now (sv_ctxs s)) as F. destruct (expire_ctxs now (sv_ctxs s)). inversion St; subst. eapply NM; eauto.
Qed.

(* a context is past its deadline with nothing pending: its survey is over as far as the application goes *)
Definition dead_ctx (s : surv) (k : N) : Prop :=
  forall c, kget k (sv_ctxs s) = Some c -> sc_rq c = [] /\ (sc_expire c <= Z.of_N (sv_now s))%Z.
Definition time_ok (s : surv) (o : pop) : Prop := match o with PTick now => (sv_now s <= now)%N | _ => True end.

(* ... it stays over until the application sends a new survey on that context, whatever arrives ... *)
Theorem surv_dead_stable fx s o s' outs k :
  SInv s -> dead_ctx s k -> time_ok s o -> ~ is_send_on k o -> ~ is_open_of k o ->
  surv_step fx s o = (s', outs) -> dead_ctx s' k.
Proof.
  intros [ND _] HD HT NS NO St c' G'. destruct (surv_step_ctxs fx s o s' outs ND St) as [[_ T] N].
  assert (HN: (sv_now s <= sv_now s')%N) by (rewrite N; destruct o; cbn in HT; lia).
  destruct (T k c' G') as [[O _]|(c & G & Tr)]; [contradiction|]. destruct (HD c G) as [D1 D2].
  assert (sc_rq c' = [] /\ sc_expire c' = sc_expire c) as [-> ->]; [|split; [reflexivity|lia]].
  destruct Tr; cbn; auto; try congruence; try contradiction. lia.
Qed.

(* ... and in that state no step hands that context a message (a receive answers NNG_ESTATE; a response
   with its id is at most queued) *)
Theorem surv_dead_no_delivery fx s o s' outs k a m :
  SInv s -> surv_op_ok o -> dead_ctx s k -> surv_step fx s o = (s', outs) ->
  In (Complete a E_OK (Some m)) outs ->
  forall c, kget k (sv_ctxs s) = Some c ->
    ~ In a (sc_rq c) /\ (forall cc nb, o = PRecv cc a nb -> ckey cc <> k).
Proof.
  intros HI Hok HD St Hin c G. destruct (HD _ G) as [D1 D2]. split; [rewrite D1; tauto|].
  intros cc nb -> E. subst k.
  destruct (surv_delivery_only_current _ _ _ _ _ _ _ HI Hok St Hin) as (k' & c' & G' & _ & _ & [(cc' & nb' & X & Y & Z)|(r & p & rv & w & _ & X)]); [|discriminate].
  inversion X; subst. rewrite G in G'. inversion G'; subst. lia.
Qed.

Fixpoint surv_run (fx : bool) (s : surv) (ops : list pop) : surv * list (pop * surv * list pout) :=
  match ops with
  | [] => (s, [])
  | o :: r => let (s1, outs) := surv_step fx s o in let (s2, tr) := surv_run fx s1 r in (s2, (o, s, outs) :: tr)
  end.
Lemma surv_run_inv fx ops : forall s, SInv s -> Forall surv_op_ok ops -> SInv (fst (surv_run fx s ops)).
Proof.
  induction ops as [|o r IH]; intros s HS HF; cbn [surv_run]; [exact HS|]. inversion HF; subst.
  destruct (surv_step fx s o) as [s1 outs] eqn:E. specialize (IH s1 (surv_step_inv _ _ _ _ _ HS H1 E) H2).
  destruct (surv_run fx s1 r). exact IH.
Qed.
Fixpoint surv_ops_ok (fx : bool) (s : surv) (k : N) (ops : list pop) : Prop :=
  match ops with
  | [] => True
  | o :: r => surv_op_ok o /\ time_ok s o /\ ~ is_send_on k o /\ ~ is_open_of k o /\ surv_ops_ok fx (fst (surv_step fx s o)) k r
  end.

(* once a survey's deadline has passed with no receive pending (in particular after the expiry event
   completed the pending ones), no history without a new survey on that context delivers anything to it:
   late responses, however many and whatever their ids, are never handed to the application *)
Theorem surv_late_never_delivered fx ops : forall s k,
  SInv s -> dead_ctx s k -> surv_ops_ok fx s k ops ->
  forall o s1 outs a m, In (o, s1, outs) (snd (surv_run fx s ops)) -> In (Complete a E_OK (Some m)) outs ->
  forall c, kget k (sv_ctxs s1) = Some c -> ~ In a (sc_rq c) /\ (forall cc nb, o = PRecv cc a nb -> ckey cc <> k).
Proof.
  induction ops as [|o r IH]; intros s k HI HD Hok o1 s1 outs a m Hin.
  { cbn in Hin. contradiction. }
  cbn [surv_run] in Hin.
  cbn [surv_ops_ok] in Hok. destruct Hok as (O1 & O2 & O3 & O4 & O5).
  destruct (surv_step fx s o) as [s2 outs2] eqn:St. cbn [fst] in O5.
  destruct (surv_run fx s2 r) as [s3 tr] eqn:R. cbn [snd] in Hin. destruct Hin as [X|X].
  - inversion X; subst. intros Hc c G. exact (surv_dead_no_delivery fx s1 o1 s2 outs k a m HI O1 HD St Hc c G).
  - assert (HI2: SInv s2) by (eapply surv_step_inv; eauto).
    assert (HD2: dead_ctx s2 k) by exact (surv_dead_stable fx s o s2 outs2 k HI HD O2 O3 O4 St).
    specialize (IH s2 k HI2 HD2 O5 o1 s1 outs a m). rewrite R in IH. cbn [snd] in IH. exact (IH X).
Qed.

(* a survey is offered to every pipe on s->pipes exactly once, in list order: an idle pipe gets it at
   once (and becomes busy), a busy pipe with room queues it, a busy pipe whose queue is full does not
   get it (the drop rule as coded); closed pipes are skipped; nothing else is transmitted *)
Definition offer (m : pmsg) (x : spipe) : spipe :=
  if sp_closed x then x
  else if negb (sp_busy x) then mkSpipe (sp_q x) true [m] false
  else if length (sp_q x) <? SURV_SEND_BUF then mkSpipe (sp_q x ++ [m]) true (sp_held x) false
  else x.
Theorem surv_fanout_each_pipe_once m l :
  fst (fanout m l) = map (fun px => (fst px, offer m (snd px))) l /\
  snd (fanout m l) = map (fun px => TranSend (fst px) m) (filter (fun px => negb (sp_closed (snd px)) && negb (sp_busy (snd px))) l).
Proof.
  induction l as [|[p x] l [IH1 IH2]]; cbn [fanout map filter fst snd]; [auto|].
  destruct (fanout m l) as [r o]. cbn [fst snd] in *. subst. unfold offer.
  destruct (sp_closed x); cbn [negb andb fst snd]; [auto|].
  destruct (sp_busy x); cbn [negb andb fst snd map]; [|auto].
  destruct (length (sp_q x) <? SURV_SEND_BUF); cbn [fst snd]; auto.
Qed.

Definition surv_recv_would_wait (s : surv) (c : option ctxid) : bool :=
  match get_ctx s c with
  | Some cx => negb (N.eqb (sc_survey cx) 0 || (sc_expire cx <=? Z.of_N (sv_now s))%Z) && isnil (sc_lmq cx)
  | None => false
  end.
(* with the repair: completes in the same step, never queues the aio; EAGAIN exactly when the blocking form
   would have been queued, and then nothing changes *)
Theorem surv_nb_recv_immediate s c a s' outs :
  surv_step true s (PRecv c a true) = (s', outs) ->
  exists rv x, outs = [Complete a rv x] /\
    (rv = E_AGAIN <-> surv_recv_would_wait s c = true) /\ (rv = E_AGAIN -> s' = s /\ x = None) /\
    (forall k cx', In (k, cx') (sv_ctxs s') -> exists k0 cx, In (k0, cx) (sv_ctxs s) /\ sc_rq cx' = sc_rq cx).
Proof.
  intros St. cbn [surv_step] in St. unfold surv_recv_would_wait, get_ctx.
  destruct (kget (ckey c) (sv_ctxs s)) as [cx|] eqn:G.
  - destruct (_ || _) eqn:D; cbn [negb andb].
    + inversion St; subst. exists E_STATE, None. repeat split; try discriminate. intros k cx' H. eauto.
    + destruct (sc_lmq cx) as [|m r] eqn:L; cbn [isnil andb] in *.
      * inversion St; subst. exists E_AGAIN, None. repeat split; auto. intros k cx' H. eauto.
      * assert (O: outs = [Complete a E_OK (Some m)] /\ sv_ctxs s' = kset (ckey c) (mkSctx (sc_survey cx) r (sc_rq cx) (sc_stime cx) (sc_expire cx)) (sv_ctxs s)).
        { destruct (isnil r && (ckey c =? 0)%N); inversion St; subst; auto. }
        destruct O as [-> O2]. exists E_OK, (Some m). repeat split; try discriminate.
        intros k cx' H. rewrite O2 in H. apply in_kset_weak in H as [->|H]; [|eauto].
        exists (ckey c), cx. split; [now apply kget_in|reflexivity].
  - inversion St; subst. exists E_CLOSED, None. repeat split; try discriminate. intros k cx' H. eauto.
Qed.
(* the pinned source (clamp test `timeout < 1`): a NONBLOCK receive with a live survey and no response is
   queued like a blocking one -- no completion in the step *)
Theorem surv_nb_recv_immediate_refuted :
  exists s a, snd (surv_step false s (PRecv None a true)) = [Arm 1000%N] /\
              exists cx, kget 0%N (sv_ctxs (fst (surv_step false s (PRecv None a true)))) = Some cx /\ sc_rq cx = [a].
Proof.
  exists (fst (surv_step false surv_init (PSend None 1%N false (mkPmsg [] [7%N])))), 2%N.
  split; [vm_compute; reflexivity|]. eexists. split; vm_compute; reflexivity.
Qed.

(* surv0_ctx_cancel: the receive completes with the given error (NNG_ETIMEDOUT when its own timeout ends before
   the survey's deadline, NNG_ECANCELED for nng_aio_cancel), nothing is delivered, and -- as coded -- the
   survey is retired *)
Lemma cancel_ctxs_hit a rv l k c :
  kget k l = Some c -> In a (sc_rq c) -> (forall k' c', In (k', c') l -> In a (sc_rq c') -> k' = k) ->
  snd (cancel_ctxs a rv l) = [Complete a rv None] /\
  kget k (fst (cancel_ctxs a rv l)) = Some (mkSctx 0 (sc_lmq c) (remove_id a (sc_rq c)) (sc_stime c) (sc_expire c)).
Proof.
  induction l as [|[k0 c0] l IH]; cbn [kget cancel_ctxs]; [discriminate|]. intros G Ha U.
  destruct (has_id a (sc_rq c0)) eqn:HA.
  - assert (k0 = k) by (apply (U k0 c0); [now left|now apply has_id_in]). subst. rewrite N.eqb_refl in G. inversion G; subst.
    cbn [fst snd kget]. now rewrite N.eqb_refl.
  - destruct (N.eqb_spec k0 k).
    + inversion G; subst. apply has_id_in in Ha. congruence.
    + destruct (IH G Ha) as [A B]; [intros k' c' Hin; apply U; now right|].
      destruct (cancel_ctxs a rv l) as [r o]. cbn [fst snd kget] in *. destruct (N.eqb_spec k0 k); [contradiction|]. auto.
Qed.
Theorem surv_recv_cancel_retires fx s a rv k c s' outs :
  kget k (sv_ctxs s) = Some c -> In a (sc_rq c) ->
  (forall k' c', In (k', c') (sv_ctxs s) -> In a (sc_rq c') -> k' = k) ->
  surv_step fx s (PCancel a rv) = (s', outs) ->
  outs = [Complete a rv None] /\
  exists c', kget k (sv_ctxs s') = Some c' /\ sc_survey c' = 0%N /\ sc_rq c' = remove_id a (sc_rq c) /\ sc_lmq c' = sc_lmq c.
Proof.
  intros G Ha U St. cbn [surv_step] in St. destruct (cancel_ctxs_hit a rv _ _ _ G Ha U) as [A B].
  destruct (cancel_ctxs a rv (sv_ctxs s)) as [cs o]. cbn [fst snd] in *. inversion St; subst. split; [reflexivity|].
  eexists. split; [exact B|]. cbn. auto.
Qed.
