(* ReqProofs: REQ (cooked) -- matching of replies (C04), retry / progress (C12),
   ownership ledger (C03 clause), non-blocking and poll-descriptor laws (C15). *)
From Coq Require Import List Arith NArith Bool ZArith Lia.
From NngV Require Import Proto.Common Proto.ReqRepBacktrace Proto.ReqModel Proto.ReqRepProofs.
Import ListNotations.

(* the fields of a context record, projected out of a record written in full *)
Ltac cxs := cbn [cx_rid cx_recv cx_send cx_req cx_rep cx_retry cx_sretry cx_rtime cx_creset cx_owned].

Definition cursor_ok (cur : N) : Prop := (REQ_ID_MIN <= cur <= REQ_ID_MAX)%N.
Lemma id_next_ok cur : cursor_ok cur -> cursor_ok (id_next cur).
Proof.
  unfold cursor_ok, id_next, REQ_ID_MIN, REQ_ID_MAX. intros H.
  destruct (N.ltb_spec 4294967295 (cur + 1)); lia.
Qed.
Lemma id_alloc_fresh f ids cur id cur' :
  id_alloc f ids cur = Some (id, cur') -> cursor_ok cur ->
  lookup id ids = None /\ cursor_ok id /\ cursor_ok cur'.
Proof.
  revert cur. induction f as [|f IH]; intros cur H Hc; cbn [id_alloc] in H; [discriminate|].
  destruct (lookup cur ids) eqn:E.
  - apply IH in H; auto. now apply id_next_ok.
  - inversion H; subst. split; [exact E|]. split; [exact Hc|]. now apply id_next_ok.
Qed.

(* a reply with request id `id` can be taken by context k in state s: the id is
   registered for k, the request is on the wire (no send aio) and nothing is stashed *)
Definition matchable (s : req) (id : N) (k : N) (c : rctx) : Prop :=
  lookup id (rq_ids s) = Some k /\ ctx_get s k = Some c /\ cx_send c = None /\ cx_rep c = None.
Definition matchable_b (s : req) (id : N) : bool :=
  match lookup id (rq_ids s) with
  | Some k => match ctx_get s k with
              | Some c => match cx_send c, cx_rep c with None, None => true | _, _ => false end
              | None => false
              end
  | None => false
  end.
Lemma matchable_b_true s id : matchable_b s id = true <-> exists k c, matchable s id k c.
Proof.
  unfold matchable_b, matchable. split.
  - destruct (lookup id (rq_ids s)) as [k|] eqn:E1; [|discriminate].
    destruct (ctx_get s k) as [c|] eqn:E2; [|discriminate].
    destruct (cx_send c) eqn:E3; [discriminate|]. destruct (cx_rep c) eqn:E4; [discriminate|].
    intros _. exists k, c. auto.
  - intros [k [c [H1 [H2 [H3 H4]]]]]. now rewrite H1, H2, H3, H4.
Qed.

Lemma ctx_get_put_same s k c : ctx_get (ctx_put s k c) k = Some c.
Proof. unfold ctx_get, ctx_put. cbn [rq_ctxs set_ctxs]. apply lookup_assoc_set_same. Qed.
Lemma ctx_get_put_other s k k' c : k' <> k -> ctx_get (ctx_put s k c) k' = ctx_get s k'.
Proof. intros H. unfold ctx_get, ctx_put. cbn [rq_ctxs set_ctxs]. now apply lookup_assoc_set_other. Qed.

Lemma recvdone_cases fx s p m :
  req_stepL fx s (PRecvDone p 0 m) =
  match req_recv (pm_body m) with
  | None => (s, [Free m; ClosePipe p], [])
  | Some (id, m') =>
      if matchable_b s id then
        match lookup id (rq_ids s) with
        | Some k =>
            match ctx_get s k with
            | Some c =>
                let s0 := if fx_stash fx
                          then set_plist (set_retryq s (remove_id k (rq_retryq s))) (plist_del k (rq_plist s)) else s in
                let s1 := set_ids (set_sendq s0 (remove_id k (rq_sendq s0))) (assoc_del id (rq_ids s0)) (rq_cursor s0) in
                let o1 := match cx_req c with Some r => if retry_on fx c then [Free r] else [] | None => [] end in
                match cx_recv c with
                | Some ra =>
                    (ctx_put s1 k (mkRctx 0 None (cx_send c) None None (cx_retry c) (cx_sretry c) (cx_rtime c) (cx_creset c) false),
                     TranRecv p :: o1 ++ [Complete ra E_OK (Some m')], [])
                | None =>
                    let s2 := ctx_put s1 k (mkRctx 0 None (cx_send c) None (Some m') (cx_retry c) (cx_sretry c) (cx_rtime c) (cx_creset c) false) in
                    ((if N.eqb k 0 then set_readable s2 true else s2), TranRecv p :: o1, [])
                end
            | None => (s, [TranRecv p; Free m'], [])
            end
        | None => (s, [TranRecv p; Free m'], [])
        end
      else (s, [TranRecv p; Free m'], [])
  end.
Proof.
  unfold req_stepL, matchable_b. change (negb (0 =? 0)%N) with false. cbv iota.
  destruct (req_recv (pm_body m)) as [[id m']|]; [|reflexivity].
  destruct (lookup id (rq_ids s)) as [k|]; [|reflexivity].
  destruct (ctx_get s k) as [c|]; [|reflexivity].
  destruct (cx_send c); [reflexivity|]. destruct (cx_rep c); reflexivity.
Qed.

(* req0_recv_cb on a match, before the context is written back: the id is retired, the context leaves the
   send queue and (repaired) its pipe's list and the retry queue *)
Definition match_base (fx : rfix) (s : req) (id k : N) : req :=
  let s0 := if fx_stash fx then set_plist (set_retryq s (remove_id k (rq_retryq s))) (plist_del k (rq_plist s)) else s in
  set_ids (set_sendq s0 (remove_id k (rq_sendq s0))) (assoc_del id (rq_ids s0)) (rq_cursor s0).
Definition matched (c : rctx) (rep : option pmsg) : rctx :=
  mkRctx 0 None (cx_send c) None rep (cx_retry c) (cx_sretry c) (cx_rtime c) (cx_creset c) false.
Definition req_frees (fx : rfix) (c : rctx) : list pout :=
  match cx_req c with Some r => if retry_on fx c then [Free r] else [] | None => [] end.

Lemma match_base_fields fx s id k :
  rq_ctxs (match_base fx s id k) = rq_ctxs s /\ rq_ids (match_base fx s id k) = assoc_del id (rq_ids s) /\
  rq_cursor (match_base fx s id k) = rq_cursor s.
Proof. unfold match_base. destruct (fx_stash fx); repeat split. Qed.
Lemma match_base_ctx fx s id k k' : ctx_get (match_base fx s id k) k' = ctx_get s k'.
Proof. unfold ctx_get. now rewrite (proj1 (match_base_fields fx s id k)). Qed.

(* the three outcomes of a transport receive completion *)
Lemma recvdone_outcomes fx s p m :
  (req_recv (pm_body m) = None /\ req_stepL fx s (PRecvDone p 0 m) = (s, [Free m; ClosePipe p], [])) \/
  (exists id m', req_recv (pm_body m) = Some (id, m') /\ matchable_b s id = false /\
     req_stepL fx s (PRecvDone p 0 m) = (s, [TranRecv p; Free m'], [])) \/
  (exists id m' k c, req_recv (pm_body m) = Some (id, m') /\ matchable s id k c /\
     req_stepL fx s (PRecvDone p 0 m) =
     match cx_recv c with
     | Some ra => (ctx_put (match_base fx s id k) k (matched c None),
                   TranRecv p :: req_frees fx c ++ [Complete ra E_OK (Some m')], [])
     | None => let s2 := ctx_put (match_base fx s id k) k (matched c (Some m')) in
               ((if N.eqb k 0 then set_readable s2 true else s2), TranRecv p :: req_frees fx c, [])
     end).
Proof.
  rewrite recvdone_cases. destruct (req_recv (pm_body m)) as [[id m']|]; [|now left]. right.
  destruct (matchable_b s id) eqn:EM; [right|left; eauto].
  apply matchable_b_true in EM as (k & c & HM). exists id, m', k, c. destruct HM as (H1 & H2 & H3 & H4).
  rewrite H1, H2. repeat split; assumption.
Qed.

(* a reply that cannot be matched -- stale, duplicate,
   unknown id, id without the high bit, reply before the request is on the wire,
   reply for a context that already holds one -- changes nothing at all and
   emits only the re-armed receive and Free; a reply shorter than an id
   disconnects its sender (and changes nothing either). *)
Lemma req_discard_silent fx s p m :
  (req_recv (pm_body m) = None -> req_step fx s (PRecvDone p 0 m) = (s, [Free m; ClosePipe p])) /\
  (forall id m', req_recv (pm_body m) = Some (id, m') -> matchable_b s id = false ->
     req_step fx s (PRecvDone p 0 m) = (s, [TranRecv p; Free m'])).
Proof.
  unfold req_step. rewrite recvdone_cases. split.
  - intros ->. reflexivity.
  - intros id m' -> ->. reflexivity.
Qed.

Lemma not_in_frees fx c a rv b : ~ In (Complete a rv b) (req_frees fx c).
Proof. unfold req_frees. destruct (cx_req c); [destruct (retry_on fx c)|]; cbn; intuition discriminate. Qed.

(* one step: a transport completion hands a message to
   the application (or stashes it) only for the context registered under the
   arriving id, whose request is on the wire and which has no reply yet; the
   message is the wire message minus the id. *)
Lemma req_recvdone_delivery fx s p rv m s' outs a b :
  req_step fx s (PRecvDone p rv m) = (s', outs) ->
  In (Complete a E_OK (Some b)) outs ->
  rv = 0%N /\ exists id k c, req_recv (pm_body m) = Some (id, b) /\ matchable s id k c /\ cx_recv c = Some a.
Proof.
  intros H Hin. destruct (N.eqb_spec rv 0) as [->|Hrv].
  2:{ unfold req_step, req_stepL in H. apply N.eqb_neq in Hrv. rewrite Hrv in H. cbn [negb] in H.
      inversion H; subst. cbn in Hin. destruct Hin as [E|[]]; discriminate. }
  split; [reflexivity|]. unfold req_step in H.
  destruct (recvdone_outcomes fx s p m) as [[_ E]|[(id & m' & _ & _ & E)|(id & m' & k & c & ER & HM & E)]]; rewrite E in H.
  1,2: inversion H; subst; cbn in Hin; destruct Hin as [X|[X|[]]]; discriminate.
  destruct (cx_recv c) as [ra|] eqn:ERA; inversion H; subst; destruct Hin as [X|Hin]; try discriminate.
  - apply in_app_or in Hin as [Hin|[X|[]]]; [now apply not_in_frees in Hin|]. inversion X; subst. eauto 6.
  - now apply not_in_frees in Hin.
Qed.

(* the other way a reply reaches the application: a receive posted after the
   reply was stashed *)
Lemma req_recv_delivery s k c a nb s' outs b :
  req_ctx_recv s k c a nb = (s', outs) -> In (Complete a E_OK (Some b)) outs -> cx_rep c = Some b /\ cx_recv c = None.
Proof.
  unfold req_ctx_recv. intros H Hin.
  destruct (cx_recv c) eqn:E1; cbn [orb] in H.
  { destruct (cx_creset c); inversion H; subst; cbn in Hin; destruct Hin as [E|[]]; discriminate. }
  destruct (cx_req c) eqn:E2; destruct (cx_rep c) eqn:E3; cbn [orb andb] in H.
  - inversion H; subst. cbn in Hin. destruct Hin as [E|[]]. inversion E; subst. auto.
  - destruct nb; inversion H; subst; cbn in Hin; [destruct Hin as [E|[]]; discriminate|destruct Hin].
  - inversion H; subst. cbn in Hin. destruct Hin as [E|[]]. inversion E; subst. auto.
  - destruct (cx_creset c); inversion H; subst; cbn in Hin; destruct Hin as [E|[]]; discriminate.
Qed.

(* a stash is created only by a matching reply *)
Lemma req_recvdone_stash fx s p m s' outs k c' b :
  req_step fx s (PRecvDone p 0 m) = (s', outs) ->
  ctx_get s' k = Some c' -> cx_rep c' = Some b ->
  (exists c, ctx_get s k = Some c /\ cx_rep c = Some b) \/
  (exists id c, req_recv (pm_body m) = Some (id, b) /\ matchable s id k c /\ cx_recv c = None).
Proof.
  intros H Hg Hb. unfold req_step in H.
  destruct (recvdone_outcomes fx s p m) as [[_ E]|[(id & m' & _ & _ & E)|(id & m' & k0 & c & ER & HM & E)]]; rewrite E in H.
  1,2: inversion H; subst; left; eauto.
  (* the matched context holds the reply iff no receive was pending; every other context is as before *)
  assert (G : exists rep, (rep = None \/ (rep = Some m' /\ cx_recv c = None)) /\
                          ctx_get (ctx_put (match_base fx s id k0) k0 (matched c rep)) k = Some c').
  { destruct (cx_recv c); inversion H; subst; [exists None; auto|]. exists (Some m'). split; [auto|].
    destruct (k0 =? 0)%N; exact Hg. }
  destruct G as (rep & Hrep & G). destruct (N.eq_dec k k0) as [->|Hk].
  - rewrite ctx_get_put_same in G. inversion G; subst c'. cbn in Hb. subst rep.
    destruct Hrep as [X|[X RN]]; inversion X; subst. right. eauto.
  - rewrite ctx_get_put_other, match_base_ctx in G by exact Hk. left. eauto.
Qed.

(* after a match the id is gone and the context holds no request: a second copy
   of the same reply (or any later one with that id) is discarded *)
Lemma req_match_consumes fx s p m s' outs id b k c :
  req_step fx s (PRecvDone p 0 m) = (s', outs) ->
  req_recv (pm_body m) = Some (id, b) -> matchable s id k c ->
  lookup id (rq_ids s') = None /\
  exists c', ctx_get s' k = Some c' /\ cx_rid c' = 0%N /\ cx_req c' = None /\ cx_recv c' = None /\
             (cx_recv c = None -> cx_rep c' = Some b) /\
             (forall a, cx_recv c = Some a -> In (Complete a E_OK (Some b)) outs /\ cx_rep c' = None).
Proof.
  intros H ER HM. unfold req_step in H.
  destruct (recvdone_outcomes fx s p m) as [[E _]|[(id1 & m1 & E & NM & _)|(id1 & m1 & k1 & c1 & E & HM1 & E1)]];
    rewrite ER in E; inversion E; subst.
  { exfalso. assert (matchable_b s id1 = true) by (apply matchable_b_true; eauto). congruence. }
  assert (k1 = k /\ c1 = c) as [-> ->].
  { destruct HM as (A & B & _), HM1 as (A1 & B1 & _). rewrite A in A1. inversion A1; subst. rewrite B in B1. now inversion B1. }
  rewrite E1 in H. clear E1.
  assert (L : forall c3, lookup id1 (rq_ids (ctx_put (match_base fx s id1 k) k c3)) = None).
  { intros c3. unfold ctx_put. cbn [rq_ids set_ctxs]. rewrite (proj1 (proj2 (match_base_fields fx s id1 k))). apply lookup_assoc_del_same. }
  destruct (cx_recv c) as [ra|]; inversion H; subst; clear H.
  - split; [apply L|]. eexists. split; [apply ctx_get_put_same|]. cbn. repeat split; try discriminate.
    inversion H; subst. right. apply in_or_app. right. now left.
  - split; [destruct (k =? 0)%N; apply L|]. eexists. split; [destruct (k =? 0)%N; apply ctx_get_put_same|].
    cbn. repeat split; discriminate.
Qed.

Lemma req_recv_before_send s k c a nb :
  cx_recv c = None -> cx_req c = None -> cx_rep c = None -> cx_creset c = false ->
  req_ctx_recv s k c a nb = (s, [Complete a E_STATE None]).
Proof. intros H1 H2 H3 H4. unfold req_ctx_recv. now rewrite H1, H2, H3, H4. Qed.

Lemma req_second_recv s k c a nb ra :
  cx_recv c = Some ra -> cx_creset c = false -> req_ctx_recv s k c a nb = (s, [Complete a E_STATE None]).
Proof. intros H1 H4. unfold req_ctx_recv. now rewrite H1, H4. Qed.

(* with the conn_reset mark (set by a pipe loss in no-retry mode) the same two
   situations report NNG_ECONNRESET once, and clear the mark *)
Lemma req_recv_connreset s k c a nb :
  (cx_recv c <> None \/ (cx_req c = None /\ cx_rep c = None)) -> cx_creset c = true ->
  exists s', req_ctx_recv s k c a nb = (s', [Complete a E_CONNRESET None]) /\
             exists c', ctx_get s' k = Some c' /\ cx_creset c' = false.
Proof.
  intros H1 H4. unfold req_ctx_recv. rewrite H4.
  assert (E : (match cx_recv c with Some _ => true | None => false end
               || (match cx_req c with None => true | Some _ => false end && match cx_rep c with None => true | Some _ => false end)) = true).
  { destruct H1 as [H1|[H1 H2]].
    - destruct (cx_recv c); [reflexivity|congruence].
    - rewrite H1, H2. apply orb_true_r. }
  rewrite E. eexists. split; [reflexivity|]. eexists. split.
  - apply ctx_get_put_same.
  - reflexivity.
Qed.

(* req0_ctx_send on an open socket, step by step: the old send / receive pair is cancelled (s1, c1), the
   context is reset (s2, c2), then the send fails for want of an id, or is refused (non-blocking, no pipe
   ready: the id is spent, the context c3 holds nothing), or the request is queued (state s6, context c3)
   and the send queue runs *)
Lemma req_ctx_send_cases fx s k c a nb m s' outs cl :
  rq_closed s = false -> req_ctx_send fx s k c a nb m = (s', outs, cl) ->
  exists s1 c1 o2 s2 c2 o3,
    (s1 = s \/ s1 = set_sendq s (remove_id k (rq_sendq s))) /\ cx_rid c1 = cx_rid c /\
    o2 = match cx_send c with Some sa => [Complete sa E_CANCELED None] | None => [] end /\
    ctx_reset fx s1 k c1 = (s2, c2, o3) /\
    exists tl, outs = match cx_recv c with Some ra => [Complete ra E_CANCELED None] | None => [] end ++ o2 ++ o3 ++ tl /\
    ((s' = ctx_put s2 k c2 /\ tl = [Complete a E_NOMEM None]) \/
     (exists id cur' c3, id_alloc (S (length (rq_ids s2))) (rq_ids s2) (rq_cursor s2) = Some (id, cur') /\
        s' = ctx_put (set_ids s2 (rq_ids s2) cur') k c3 /\ tl = [Complete a E_AGAIN None] /\
        cx_req c3 = None /\ cx_rep c3 = None) \/
     (exists id cur' c3 s6 o4 o5, id_alloc (S (length (rq_ids s2))) (rq_ids s2) (rq_cursor s2) = Some (id, cur') /\
        run_send_queue fx s6 = (s', o5, cl) /\ tl = o4 ++ o5 /\ rq_ctxs s6 = assoc_set k c3 (rq_ctxs s2) /\
        cx_rid c3 = id /\ cx_req c3 = Some (req_send id m) /\ cx_rep c3 = None /\
        rq_ids s6 = rq_ids s2 ++ [(id, k)] /\ rq_cursor s6 = cur' /\
        rq_plist s6 = rq_plist s2 /\ rq_sendq s6 = rq_sendq s2 ++ [k] /\ (forall p x, ~ In (TranSend p x) o4))).
Proof.
  intros Hc H. unfold req_ctx_send in H. rewrite Hc in H.
  match type of H with context [match ?X with (_, _) => _ end] => destruct X as [[s1 c1] o2] eqn:E2 end.
  destruct (ctx_reset fx s1 k c1) as [[s2 c2] o3] eqn:E3. exists s1, c1, o2, s2, c2, o3.
  split; [destruct (cx_send c); inversion E2; auto|]. split; [destruct (cx_send c); now inversion E2|].
  split; [destruct (cx_send c); now inversion E2|]. split; [exact E3|].
  destruct (REQ_ID_MAX - REQ_ID_MIN <? N.of_nat (length (rq_ids s2)))%N.
  { inversion H; subst. eexists. split; [reflexivity|]. left. split; reflexivity. }
  destruct (id_alloc (S (length (rq_ids s2))) (rq_ids s2) (rq_cursor s2)) as [[id cur']|] eqn:EA.
  2: { inversion H; subst. eexists. split; [reflexivity|]. left. split; reflexivity. }
  destruct (is_nil (rq_ready s2) && nb).
  { inversion H; subst. eexists. split; [reflexivity|]. right; left. exists id, cur'. eexists.
    repeat (split; [reflexivity|]). reflexivity. }
  (* the request is queued; o4 is arm_out _ when the retry timer gets armed here and [] otherwise *)
  cbv zeta in H. destruct (0 <? cx_retry c2)%Z; cbn [andb] in H.
  - destruct (negb (rq_active _)) in H.
    + match type of H with context [run_send_queue fx ?X] => destruct (run_send_queue fx X) as [[s7 o5] cl'] eqn:E7 end.
      inversion H; subst. eexists. split; [reflexivity|]. right; right. exists id, cur'. do 4 eexists.
      split; [reflexivity|]. split; [exact E7|]. repeat (split; [reflexivity|]).
      intros p x X. unfold arm_out, tick_deadline in X. destruct (_ <? 0)%Z in X; cbn in X; intuition discriminate.
    + match type of H with context [run_send_queue fx ?X] => destruct (run_send_queue fx X) as [[s7 o5] cl'] eqn:E7 end.
      inversion H; subst. eexists. split; [reflexivity|]. right; right. exists id, cur'. do 2 eexists. exists [], o5.
      split; [reflexivity|]. split; [exact E7|]. repeat (split; [reflexivity|]). intros p x [].
  - match type of H with context [run_send_queue fx ?X] => destruct (run_send_queue fx X) as [[s7 o5] cl'] eqn:E7 end.
    inversion H; subst. eexists. split; [reflexivity|]. right; right. exists id, cur'. do 2 eexists. exists [], o5.
    split; [reflexivity|]. split; [exact E7|]. repeat (split; [reflexivity|]). intros p x [].
Qed.

(* a new request cancels the old send / receive pair with NNG_ECANCELED *)
Lemma req_send_cancels_old fx s k c a nb m s' outs cl :
  rq_closed s = false -> req_ctx_send fx s k c a nb m = (s', outs, cl) ->
  (forall ra, cx_recv c = Some ra -> In (Complete ra E_CANCELED None) outs) /\
  (forall sa, cx_send c = Some sa -> In (Complete sa E_CANCELED None) outs).
Proof.
  intros Hc H.
  destruct (req_ctx_send_cases _ _ _ _ _ _ _ _ _ _ Hc H) as (s1 & c1 & o2 & s2 & c2 & o3 & _ & _ & -> & _ & tl & -> & _). split.
  - intros ra E. rewrite E. apply in_or_app. left. now left.
  - intros sa E. rewrite E. apply in_or_app. right. apply in_or_app. left. now left.
Qed.

Lemma run_sendq_head fx f s k sq p rd c m :
  rq_sendq s = k :: sq -> rq_ready s = p :: rd -> ctx_get s k = Some c -> cx_req c = Some m ->
  exists s' outs cl, run_sendq fx (S f) s = (s', outs, cl) /\ In (TranSend p m) outs.
Proof.
  intros H1 H2 H3 H4. cbn [run_sendq]. rewrite H1, H2, H3, H4.
  match goal with |- context [run_sendq fx f ?X] => destruct (run_sendq fx f X) as [[s7 outs] cl] end.
  do 3 eexists. split; [reflexivity|]. apply in_or_app. right. left. reflexivity.
Qed.

Lemma req_sent_when_ready fx s k sq p rd c m :
  rq_sendq s = k :: sq -> rq_ready s = p :: rd -> ctx_get s k = Some c -> cx_req c = Some m ->
  exists s' outs cl, run_send_queue fx s = (s', outs, cl) /\ In (TranSend p m) outs.
Proof.
  intros H1 H2 H3 H4. unfold run_send_queue. rewrite H1. cbn [length]. eapply run_sendq_head; eauto.
Qed.

(* req0_run_send_queue: induction over the loop.  R relates the state a run starts from to its result.  A turn
   takes the head k of the send queue, holding request m, and hands it to the ready pipe p; t is the state
   after the turn, given by the fields the invariants read *)
Definition sent_ctx (fx : rfix) (c : rctx) : rctx :=
  mkRctx (cx_rid c) (cx_recv c) None (cx_req c) (cx_rep c) (cx_retry c) (cx_sretry c) (cx_rtime c) (cx_creset c)
         (if retry_on fx c then cx_owned c else false).
Lemma run_sendq_rule fx (R : req -> req -> list pout -> Prop) :
  (forall s, R s s []) ->
  (forall s k sq s' o, rq_sendq s = k :: sq -> (forall c m, ctx_get s k = Some c -> cx_req c = Some m -> False) ->
     R (set_sendq s sq) s' o -> R s s' o) ->
  (forall s k sq p rd c m t s' o,
     rq_sendq s = k :: sq -> rq_ready s = p :: rd -> ctx_get s k = Some c -> cx_req c = Some m ->
     rq_ctxs t = assoc_set k (sent_ctx fx c) (rq_ctxs s) -> rq_sendq t = sq ->
     rq_plist t = plist_del k (rq_plist s) ++ [(p, k)] -> rq_ids t = rq_ids s -> rq_cursor t = rq_cursor s ->
     R t s' o -> R s s' (match cx_send c with Some a => [Complete a E_OK None] | None => [] end ++ TranSend p m :: o)) ->
  forall f s s' o cl, run_sendq fx f s = (s', o, cl) -> R s s' o.
Proof.
  intros R0 Rskip Rturn. induction f as [|f IH]; intros s s' o cl H; cbn [run_sendq] in H; [inversion H; apply R0|].
  destruct (rq_sendq s) as [|k sq] eqn:Esq; [inversion H; apply R0|].
  destruct (rq_ready s) as [|p rd] eqn:Erd; [inversion H; apply R0|].
  destruct (ctx_get s k) as [c|] eqn:Ec; [|apply (Rskip s k sq); eauto; congruence].
  destruct (cx_req c) as [m|] eqn:Em.
  2:{ apply (Rskip s k sq); eauto. intros c0 m0 G Q. rewrite Ec in G. inversion G; subst. congruence. }
  cbv zeta in H.
  match type of H with context [run_sendq fx f ?X] =>
    pose proof (Rturn s k sq p rd c m X) as RT; destruct (run_sendq fx f X) as [[s7 o7] c7] eqn:E7 end.
  inversion H; subst. specialize (RT s' o7 Esq Erd Ec Em). unfold sent_ctx in RT. rewrite Em in RT.
  destruct (retry_on fx c), (is_nil rd); (apply RT; [reflexivity..|eapply IH; exact E7]).
Qed.

(* k is on the send queue and still holds request m *)
Definition pending (s : req) (k : N) (m : pmsg) : Prop :=
  In k (rq_sendq s) /\ exists c, ctx_get s k = Some c /\ cx_req c = Some m.

Lemma run_sendq_pending fx f s k m s' outs cl :
  pending s k m -> run_sendq fx f s = (s', outs, cl) ->
  pending s' k m \/ exists p, In (TranSend p m) outs.
Proof.
  intros Hp H. revert Hp.
  apply (run_sendq_rule fx (fun s s' o => pending s k m -> pending s' k m \/ exists p, In (TranSend p m) o)) with (4 := H); clear.
  - auto.
  - intros s k0 sq s' o Esq NR IH [Hin (c & Hg & Hr)]. apply IH. split; [|eauto]. rewrite Esq in Hin.
    destruct Hin as [->|Hin]; [destruct (NR c m Hg Hr)|exact Hin].
  - intros s k0 sq p rd c0 m0 t s' o Esq _ Ec Em F1 F2 _ _ _ IH [Hin (c & Hg & Hr)].
    destruct (N.eq_dec k0 k) as [->|Hne].
    + right. exists p. apply in_or_app. right. left. congruence.
    + destruct IH as [IH|[q IH]]; [|now left|right; exists q; apply in_or_app; right; now right].
      split; [rewrite F2; rewrite Esq in Hin; destruct Hin; [contradiction|assumption]|].
      exists c. split; [|exact Hr]. unfold ctx_get. rewrite F1. rewrite lookup_assoc_set_other by congruence. exact Hg.
Qed.

Lemma run_send_queue_pending fx s k m s' outs cl :
  pending s k m -> run_send_queue fx s = (s', outs, cl) -> pending s' k m \/ exists p, In (TranSend p m) outs.
Proof. unfold run_send_queue. apply run_sendq_pending. Qed.

Lemma retry_scan_keeps s now ks : forall sq k, In k sq -> In k (fst (retry_scan s now ks sq)).
Proof.
  induction ks as [|k0 ks IH]; intros sq k Hin; cbn [retry_scan]; [exact Hin|].
  destruct (ctx_get s k0) as [c0|]; [|auto]. destruct (_ || _); [auto|].
  specialize (IH (if has_id k0 sq then sq else sq ++ [k0]) k). destruct (retry_scan s now ks _) as [sq' b]. apply IH.
  destruct (has_id k0 sq); [exact Hin|apply in_or_app; auto].
Qed.
(* req0_retry_cb's scan: an expired context with a request ends on the send queue *)
Lemma retry_scan_queues s now ks : forall sq k c m,
  In k ks -> ctx_get s k = Some c -> cx_req c = Some m -> (cx_rtime c <= now)%N ->
  In k (fst (retry_scan s now ks sq)) /\ snd (retry_scan s now ks sq) = true.
Proof.
  induction ks as [|k0 ks IH]; intros sq k c m Hin Hg Hr Ht; [destruct Hin|].
  cbn [retry_scan]. destruct (N.eq_dec k0 k) as [->|Hne].
  - rewrite Hg, Hr. destruct (N.ltb_spec now (cx_rtime c)); [lia|]. cbn [orb].
    pose proof (retry_scan_keeps s now ks (if has_id k sq then sq else sq ++ [k]) k) as K.
    destruct (retry_scan s now ks _) as [sq' b]. split; [|reflexivity]. apply K.
    destruct (has_id k sq) eqn:EH; [now apply has_id_true|apply in_or_app; right; now left].
  - destruct Hin as [E|Hin]; [congruence|].
    destruct (ctx_get s k0) as [c0|]; [|eapply IH; eauto]. destruct (_ || _); [eapply IH; eauto|].
    specialize (IH (if has_id k0 sq then sq else sq ++ [k0]) k c m Hin Hg Hr Ht).
    destruct (retry_scan s now ks _) as [sq' b]. tauto.
Qed.

(* the retry timer fires (strictly after its deadline) with
   the clock at or past the context's retry time: the request is queued again,
   and transmitted at once if a pipe is ready *)
Lemma req_tick_resends fx s now d k c m s' outs :
  rq_closed s = false -> rq_active s = true -> rq_tickdl s = Some d -> (d < now)%N ->
  In k (rq_retryq s) -> ctx_get s k = Some c -> cx_req c = Some m -> (cx_rtime c <= now)%N ->
  req_step fx s (PTick now) = (s', outs) ->
  pending s' k m \/ exists p, In (TranSend p m) outs.
Proof.
  intros Hc Ha Hd Hlt Hin Hg Hr Ht H. unfold req_step, req_stepL in H.
  cbn [rq_closed rq_active rq_tickdl set_now] in H. rewrite Hc, Ha, Hd in H. cbn [orb negb] in H.
  destruct (N.ltb_spec d now); [|lia]. cbn [negb] in H.
  assert (Hg0 : ctx_get (set_now s now) k = Some c) by exact Hg.
  pose proof (retry_scan_queues (set_now s now) now (rq_retryq (set_now s now)) (rq_sendq (set_now s now)) k c m Hin Hg0 Hr Ht) as [Hq Hs].
  destruct (retry_scan (set_now s now) now (rq_retryq (set_now s now)) (rq_sendq (set_now s now))) as [sq resched] eqn:E.
  cbn [fst snd] in Hq, Hs. subst resched.
  match type of H with context [if is_nil ?L then _ else _] => destruct (is_nil L) end.
  - match type of H with context [run_send_queue fx ?X] => destruct (run_send_queue fx X) as [[s3 o2] cl] eqn:E3 end.
    inversion H; subst. eapply run_send_queue_pending in E3.
    + destruct E3 as [E3|[p E3]]; [left; exact E3|right; exists p; exact E3].
    + split; [exact Hq|]. exists c. split; [exact Hg|exact Hr].
  - match type of H with context [run_send_queue fx ?X] => destruct (run_send_queue fx X) as [[s3 o2] cl] eqn:E3 end.
    inversion H; subst. eapply run_send_queue_pending in E3.
    + destruct E3 as [E3|[p E3]]; [left; exact E3|right; exists p; apply in_or_app; right; exact E3].
    + split; [exact Hq|]. exists c. split; [exact Hg|exact Hr].
Qed.

(* a matching reply completes the pending receive *)
Lemma req_match_completes fx s p m id b k c a :
  req_recv (pm_body m) = Some (id, b) -> matchable s id k c -> cx_recv c = Some a ->
  exists s', exists outs, req_step fx s (PRecvDone p 0 m) = (s', outs) /\ In (Complete a E_OK (Some b)) outs.
Proof.
  intros ER HM HA. destruct (req_step fx s (PRecvDone p 0 m)) as [s' outs] eqn:E.
  exists s', outs. split; [reflexivity|].
  pose proof (req_match_consumes fx s p m s' outs id b k c E ER HM) as [_ [c' [_ [_ [_ [_ [_ H]]]]]]].
  apply (H a HA).
Qed.

(* with no ready pipe, a new pipe takes the head of the send queue *)
Lemma req_pipe_start_progress fx s p k sq c m s' outs :
  rq_ready s = [] -> rq_sendq s = k :: sq -> ctx_get s k = Some c -> cx_req c = Some m ->
  req_step fx s (PPipeStart p PROTO_REP) = (s', outs) ->
  In (TranSend p m) outs.
Proof.
  intros Hr Hs Hg Hq H. unfold req_step, req_stepL in H. change (negb (PROTO_REP =? PROTO_REP)%N) with false in H. cbv iota in H.
  match type of H with context [run_send_queue fx ?X] =>
    destruct (req_sent_when_ready fx X k sq p [] c m) as [s2 [o2 [cl [E Hin]]]] end.
  - exact Hs.
  - cbn [rq_ready set_writable set_pipes]. now rewrite Hr.
  - exact Hg.
  - exact Hq.
  - rewrite E in H. inversion H; subst. apply in_or_app. left. exact Hin.
Qed.

(* the state in which req0_pipe_close starts walking the pipe's list *)
Definition pc_start (s : req) (p : pid) : req :=
  let s1 := set_pipes s (remove_id p (rq_ready s)) (remove_id p (rq_busy s)) (rq_pclosed s ++ [p]) in
  if is_nil (rq_ready s1) then set_writable s1 false else s1.
Lemma pc_start_plist s p : rq_plist (pc_start s p) = rq_plist s.
Proof. unfold pc_start. cbv zeta. match goal with |- context [if ?b then _ else _] => destruct b end; reflexivity. Qed.
Lemma pc_start_ctx s p k : ctx_get (pc_start s p) k = ctx_get s k.
Proof. unfold pc_start. cbv zeta. match goal with |- context [if ?b then _ else _] => destruct b end; reflexivity. Qed.
Lemma pc_start_sendq s p : rq_sendq (pc_start s p) = rq_sendq s.
Proof. unfold pc_start. cbv zeta. match goal with |- context [if ?b then _ else _] => destruct b end; reflexivity. Qed.
Lemma pc_start_now s p : rq_now (pc_start s p) = rq_now s.
Proof. unfold pc_start. cbv zeta. match goal with |- context [if ?b then _ else _] => destruct b end; reflexivity. Qed.

Lemma req_pipe_close_unfold fx s p : req_stepL fx s (PPipeClose p) = pipe_close_loop fx (length (rq_plist (pc_start s p))) (pc_start s p) p.
Proof. reflexivity. Qed.

(* req0_pipe_close: one context of the pipe's list *)
Definition pcl_body (fx : rfix) (s0 : req) (k : N) (c : rctx) : req * list pout * list pmsg :=
  if negb (retry_on fx c) then
    match cx_recv c with
    | Some ra =>
        let '(s', c', o) := ctx_reset fx s0 k (mkRctx (cx_rid c) None (cx_send c) (cx_req c) (cx_rep c) (cx_retry c) (cx_sretry c) (cx_rtime c) (cx_creset c) (cx_owned c)) in
        (ctx_put s' k c', Complete ra E_CONNRESET None :: o, [])
    | None =>
        let '(s', c', o) := ctx_reset fx s0 k c in
        (ctx_put s' k (mkRctx (cx_rid c') (cx_recv c') (cx_send c') (cx_req c') (cx_rep c') (cx_retry c') (cx_sretry c') (cx_rtime c') true (cx_owned c')), o, [])
    end
  else
    match cx_req c with
    | Some _ =>
        let c' := mkRctx (cx_rid c) (cx_recv c) (cx_send c) (cx_req c) (cx_rep c) (cx_retry c) (cx_sretry c)
                         (after (rq_now s0) (eff_retry fx c)) (cx_creset c) (cx_owned c) in
        let s' := ctx_put s0 k c' in
        if has_id k (rq_sendq s') then (s', [], [])
        else run_send_queue fx (set_sendq s' (rq_sendq s' ++ [k]))
    | None => (s0, [], [])
    end.

Lemma pcl_unfold fx f s p :
  pipe_close_loop fx (S f) s p =
  match first_on p (rq_plist s) with
  | None => (s, [], [])
  | Some k =>
      let s0 := set_plist s (plist_del k (rq_plist s)) in
      match ctx_get s0 k with
      | None => pipe_close_loop fx f s0 p
      | Some c =>
          let '(s1, o1, cl1) := pcl_body fx s0 k c in
          let '(s2, o2, cl2) := pipe_close_loop fx f s1 p in
          (s2, o1 ++ o2, cl1 ++ cl2)
      end
  end.
Proof. reflexivity. Qed.

(* the fields of req0_ctx_reset's result that the invariants read *)
Lemma ctx_reset_spec fx s k c s2 c2 o :
  ctx_reset fx s k c = (s2, c2, o) ->
  c2 = mkRctx 0 (cx_recv c) (cx_send c) None None (cx_retry c) (cx_sretry c) (cx_rtime c) false false /\
  rq_ctxs s2 = rq_ctxs s /\ rq_cursor s2 = rq_cursor s /\
  rq_ids s2 = (if N.eqb (cx_rid c) 0 then rq_ids s else assoc_del (cx_rid c) (rq_ids s)) /\
  rq_sendq s2 = remove_id k (rq_sendq s) /\ rq_plist s2 = plist_del k (rq_plist s).
Proof.
  unfold ctx_reset. intros H. inversion H; subst; clear H.
  destruct (cx_rid c =? 0)%N, (fx_rdclr fx && (k =? 0)%N && _); repeat split.
Qed.

(* the lost pipe carries a single context: the walk is one turn of the loop *)
Lemma pcl_single fx s p k c :
  rq_plist s = [(p, k)] -> ctx_get s k = Some c ->
  req_stepL fx s (PPipeClose p) =
  let '(s1, o1, cl1) := pcl_body fx (set_plist (pc_start s p) []) k c in (s1, o1 ++ [], cl1 ++ []).
Proof.
  intros Hpl Hg. rewrite req_pipe_close_unfold, pc_start_plist, Hpl. cbn [length]. rewrite pcl_unfold, pc_start_plist, Hpl.
  cbn [first_on plist_del filter snd]. rewrite !N.eqb_refl. cbn [negb].
  change (ctx_get (set_plist (pc_start s p) []) k) with (ctx_get (pc_start s p) k). rewrite pc_start_ctx, Hg.
  destruct (pcl_body fx (set_plist (pc_start s p) []) k c) as [[s1 o1] cl1]. reflexivity.
Qed.

(* retry enabled: the context last written to the lost pipe goes back to the
   send queue with its request intact (and out again at once if a pipe is ready) *)
Lemma req_pipe_loss_requeues fx s p k c m s' outs :
  rq_plist s = [(p, k)] -> ctx_get s k = Some c -> retry_on fx c = true -> cx_req c = Some m ->
  req_step fx s (PPipeClose p) = (s', outs) ->
  pending s' k m \/ exists q, In (TranSend q m) outs.
Proof.
  intros Hpl Hg Hrt Hrq H. unfold req_step in H. rewrite (pcl_single fx s p k c Hpl Hg) in H.
  unfold pcl_body in H. rewrite Hrt, Hrq in H. cbn [negb] in H. cbv zeta in H.
  match type of H with context [if has_id k ?X then _ else _] => destruct (has_id k X) eqn:EH end.
  - inversion H; subst. left. split; [now apply has_id_true|]. eexists. split; [apply ctx_get_put_same|reflexivity].
  - match type of H with context [run_send_queue fx ?X] => destruct (run_send_queue fx X) as [[s3 o3] cl3] eqn:E3 end.
    inversion H; subst. rewrite app_nil_r. eapply run_send_queue_pending; [|exact E3]. split.
    + cbn [rq_sendq set_sendq]. apply in_or_app. right. now left.
    + eexists. split; [apply ctx_get_put_same|reflexivity].
Qed.

(* resending disabled: losing the connection completes the pending receive with
   NNG_ECONNRESET, or marks the context so that the next receive reports it; the
   request is gone either way (it is never queued again) *)
Lemma req_pipe_loss_noretry fx s p k c s' outs :
  rq_plist s = [(p, k)] -> ctx_get s k = Some c -> retry_on fx c = false ->
  req_step fx s (PPipeClose p) = (s', outs) ->
  ~ In k (rq_sendq s') /\
  exists c', ctx_get s' k = Some c' /\ cx_req c' = None /\ cx_recv c' = None /\
    (forall a, cx_recv c = Some a -> In (Complete a E_CONNRESET None) outs) /\
    (cx_recv c = None -> cx_creset c' = true).
Proof.
  intros Hpl Hg Hrt H. unfold req_step in H. rewrite (pcl_single fx s p k c Hpl Hg) in H.
  unfold pcl_body in H. rewrite Hrt in H. cbn [negb] in H.
  destruct (cx_recv c) as [ra|] eqn:ERA;
    match type of H with context [ctx_reset fx ?S k ?C] => destruct (ctx_reset fx S k C) as [[s2 c2] o2] eqn:ER end;
    apply ctx_reset_spec in ER as (-> & _ & _ & _ & Q & _); inversion H; subst;
    (split; [cbn [rq_sendq ctx_put set_ctxs]; rewrite Q; intros Hin; apply in_remove_id in Hin; tauto|]);
    (eexists; split; [apply ctx_get_put_same|]); cbn; repeat split; try discriminate; try assumption.
  intros a E. inversion E; subst. now left.
Qed.

(* trace entry: (op, state before the op, outputs, clones) *)
Fixpoint req_run (fx : rfix) (s : req) (ops : list pop) : req * list (pop * req * list pout * list pmsg) :=
  match ops with
  | [] => (s, [])
  | o :: r => let '(s1, outs, cl) := req_stepL fx s o in
              let '(s2, tr) := req_run fx s1 r in (s2, (o, s, outs, cl) :: tr)
  end.

(* C03 clause: the reference ledger of request messages.
   The protocol's references to message x change by
     + 1  when a send is accepted (the caller's reference is taken over),
     + 1  per clone,
     + 1  when a failed transport send leaves the message on the pipe's aio,
     - 1  per Free, per hand-over to a transport (TranSend), and when a queued
          request goes back to its aio (cancel / supersede / close).
   The balance may never become negative (that is a double free or the use of
   a freed message) and once nothing refers to x any more it must be zero (else
   x has leaked).  This ledger is evaluated on the witness histories below only; the law
   over all histories is Ledger/OwnReq.req_proto_law. *)
Fixpoint bytes_eqb (a b : list N) : bool :=
  match a, b with
  | [], [] => true
  | x :: a', y :: b' => N.eqb x y && bytes_eqb a' b'
  | _, _ => false
  end.
Definition msg_eqb (a b : pmsg) : bool := bytes_eqb (pm_hdr a) (pm_hdr b) && bytes_eqb (pm_body a) (pm_body b).
Definition opt_msg_is (x : pmsg) (o : option pmsg) : bool := match o with Some m => msg_eqb x m | None => false end.
Fixpoint n_free (x : pmsg) (outs : list pout) : nat :=
  match outs with [] => 0 | Free m :: r => (if msg_eqb x m then 1 else 0) + n_free x r | _ :: r => n_free x r end.
Fixpoint n_tx (x : pmsg) (outs : list pout) : nat :=
  match outs with [] => 0 | TranSend _ m :: r => (if msg_eqb x m then 1 else 0) + n_tx x r | _ :: r => n_tx x r end.
Fixpoint n_msgs (x : pmsg) (l : list pmsg) : nat :=
  match l with [] => 0 | m :: r => (if msg_eqb x m then 1 else 0) + n_msgs x r end.
Fixpoint aio_failed (a : aioid) (outs : list pout) : bool :=
  match outs with
  | [] => false
  | Complete b rv _ :: r => (N.eqb a b && negb (N.eqb rv 0)) || aio_failed a r
  | _ :: r => aio_failed a r
  end.
(* queued requests (send aio still pending) that go back to their aio in this step *)
Definition n_returned (x : pmsg) (s : req) (outs : list pout) : nat :=
  length (filter (fun kc => match cx_send (snd kc) with
                            | Some sa => aio_failed sa outs && opt_msg_is x (cx_req (snd kc))
                            | None => false end) (rq_ctxs s)).
Definition n_accepted (x : pmsg) (o : pop) (s' : req) (outs : list pout) : nat :=
  match o with
  | PSend c a _ _ => if aio_failed a outs then 0
                     else match ctx_get s' (ckey c) with Some cx => if opt_msg_is x (cx_req cx) then 1 else 0 | None => 0 end
  | _ => 0
  end.
Definition n_regained (x : pmsg) (s : req) (o : pop) : nat :=
  match o with
  | PSendDone p rv => if N.eqb rv 0 then 0 else n_msgs x (map snd (filter (fun e => N.eqb (fst e) p) (rq_sending s)))
  | _ => 0
  end.
(* how many protocol-side pointers refer to x *)
Definition n_pointers (x : pmsg) (s : req) : nat :=
  length (filter (fun kc => opt_msg_is x (cx_req (snd kc))) (rq_ctxs s)).

Fixpoint ledger (fx : rfix) (x : pmsg) (s : req) (ops : list pop) (bal : Z) (ok : bool) : Z * bool * req :=
  match ops with
  | [] => (bal, ok, s)
  | o :: r =>
      let '(s', outs, cl) := req_stepL fx s o in
      let bal' := (bal + Z.of_nat (n_accepted x o s' outs + n_msgs x cl + n_regained x s o)
                   - Z.of_nat (n_free x outs + n_tx x outs + n_returned x s outs))%Z in
      ledger fx x s' r bal' (ok && (0 <=? bal')%Z)
  end.

Definition fx_pinned : rfix := mkFix false false false false.
Definition fx_repaired : rfix := mkFix true true true true.
Definition w_req : pmsg := mkPmsg [] [170%N; 1%N].
Definition w_wire : pmsg := req_send (REQ_ID_MIN + 1) w_req.           (* the request as stored / transmitted *)
Definition w_reply : pmsg := mkPmsg [] (be32 (REQ_ID_MIN + 1) ++ [187%N]).
(* resend disabled at send time (not cloned), enabled before the reply (freed as if cloned) *)
Definition w_uaf : list pop :=
  [PSetOpt None (OResendTime (-1)); PPipeStart 1%N PROTO_REP; PSend None 0%N false w_req; PSendDone 1%N 0%N;
   PSetOpt None (OResendTime 1000); PRecvDone 1%N 0%N w_reply].
(* resend enabled at send time (cloned), disabled before the reply (not freed) *)
Definition w_leak : list pop :=
  [PPipeStart 1%N PROTO_REP; PSend None 0%N false w_req; PSendDone 1%N 0%N;
   PSetOpt None (OResendTime (-1)); PRecvDone 1%N 0%N w_reply; PSockClose].
(* queued with resend 5 s, disabled before a pipe arrives (handed over un-cloned but
   still on the retry queue): the retry timer transmits the freed message again *)
Definition w_resend : list pop :=
  [PSetOpt None (OResendTime 5000); PSend None 0%N false w_req; PSetOpt None (OResendTime (-1));
   PPipeStart 1%N PROTO_REP; PSendDone 1%N 0%N; PTick 7000%N].

Lemma req_clone_policy_refuted_w :
  (let '(bal, ok, s) := ledger fx_pinned w_wire req_init w_uaf 0%Z true in ok = false) /\
  (let '(bal, ok, s) := ledger fx_pinned w_wire req_init w_leak 0%Z true in (0 < bal)%Z /\ n_pointers w_wire s = 0) /\
  (let '(bal, ok, s) := ledger fx_pinned w_wire req_init w_resend 0%Z true in ok = false).
Proof. vm_compute. repeat split; reflexivity. Qed.

Lemma req_clone_policy_repaired_w :
  (let '(bal, ok, s) := ledger fx_repaired w_wire req_init w_uaf 0%Z true in ok = true /\ bal = 0%Z /\ n_pointers w_wire s = 0) /\
  (let '(bal, ok, s) := ledger fx_repaired w_wire req_init w_leak 0%Z true in ok = true /\ bal = 0%Z /\ n_pointers w_wire s = 0) /\
  (let '(bal, ok, s) := ledger fx_repaired w_wire req_init w_resend 0%Z true in ok = true /\ bal = Z.of_nat (n_pointers w_wire s)).
Proof. vm_compute. repeat split; reflexivity. Qed.

(* non-blocking receive: completes in the step; NNG_EAGAIN exactly when the
   blocking form would be queued (a request is outstanding, nothing stashed, no
   receive pending), and then nothing changes *)
Lemma req_nb_recv s k c a :
  exists rv mo s', req_ctx_recv s k c a true = (s', [Complete a rv mo]) /\
    (rv = E_AGAIN -> s' = s /\ mo = None /\ cx_recv c = None /\ cx_req c <> None /\ cx_rep c = None) /\
    (cx_recv c = None -> cx_req c <> None -> cx_rep c = None -> rv = E_AGAIN) /\
    (cx_recv c = None -> forall m, cx_rep c = Some m -> rv = E_OK /\ mo = Some m).
Proof.
  unfold req_ctx_recv.
  destruct (cx_recv c) eqn:E1, (cx_req c) eqn:E2, (cx_rep c) eqn:E3; cbn [orb andb]; try destruct (cx_creset c);
    do 3 eexists; (split; [reflexivity|]); repeat split; try discriminate; try congruence.
Qed.

(* ... but a refused non-blocking send is not a no-op: it has already cancelled
   the previous request of the context (state machine reset, stashed reply freed) *)
Definition w_nbsend : list pop :=
  [PPipeStart 1%N PROTO_REP; PSend None 0%N false w_req; PSendDone 1%N 0%N; PRecvDone 1%N 0%N w_reply;
   PPipeClose 1%N; PSend None 9%N true w_req; PRecv None 9%N true].
Definition outs_of (tr : list (pop * req * list pout * list pmsg)) : list (list pout) := map (fun x => snd (fst x)) tr.
Lemma req_nb_send_state_refuted_w :
  forall fx, fx = fx_pinned \/ fx = fx_repaired ->
  nth 5 (outs_of (snd (req_run fx req_init w_nbsend))) [] = [Free (mkPmsg [] [187%N]); Complete 9%N E_AGAIN None] /\
  nth 6 (outs_of (snd (req_run fx req_init w_nbsend))) [] = [Complete 9%N E_STATE None].
Proof. intros fx [->| ->]; vm_compute; split; reflexivity. Qed.

(* the receive descriptor: raised while nothing can be received (pinned) *)
Definition w_rdpoll : list pop :=
  [PPipeStart 1%N PROTO_REP; PSend None 0%N false w_req; PSendDone 1%N 0%N; PRecvDone 1%N 0%N w_reply;
   PSend None 1%N false w_req].
Lemma req_poll_mirror_refuted_w :
  let s := fst (req_run fx_pinned req_init w_rdpoll) in
  poll_r (req_poll s) = Some true /\ req_step fx_pinned s (PRecv None 9%N true) = (s, [Complete 9%N E_AGAIN None]).
Proof. vm_compute. split; reflexivity. Qed.
Lemma req_poll_mirror_repaired_w :
  let s := fst (req_run fx_repaired req_init w_rdpoll) in poll_r (req_poll s) = Some false.
Proof. vm_compute. reflexivity. Qed.

(* cancelling a queued send while a receive is posted: the pinned code (with
   assertions compiled out) leaves the receive pending for ever; the repaired code
   completes it *)
Definition w_cancel : list pop := [PSend None 0%N false w_req; PRecv None 1%N false; PCancel 0%N E_CANCELED].
Lemma req_cancel_send_orphans_recv_refuted_w :
  nth 2 (outs_of (snd (req_run fx_pinned req_init w_cancel))) [] = [Complete 0%N E_CANCELED None] /\
  exists c, ctx_get (fst (req_run fx_pinned req_init w_cancel)) 0%N = Some c /\ cx_recv c = Some 1%N /\ cx_req c = None.
Proof. vm_compute. split; [reflexivity|]. eexists. repeat split. Qed.
Lemma req_cancel_send_repaired_w :
  nth 2 (outs_of (snd (req_run fx_repaired req_init w_cancel))) [] = [Complete 1%N E_CANCELED None; Complete 0%N E_CANCELED None].
Proof. vm_compute. reflexivity. Qed.

(* resending disabled, reply stashed, then the connection goes: pinned code throws
   the reply away and reports NNG_ECONNRESET; repaired code delivers it *)
Definition w_stash : list pop :=
  [PSetOpt None (OResendTime (-1)); PPipeStart 1%N PROTO_REP; PSend None 0%N false w_req; PSendDone 1%N 0%N;
   PRecvDone 1%N 0%N w_reply; PPipeClose 1%N; PRecv None 9%N true].
Lemma req_stashed_reply_survives_refuted_w :
  nth 6 (outs_of (snd (req_run fx_pinned req_init w_stash))) [] = [Complete 9%N E_CONNRESET None].
Proof. vm_compute. reflexivity. Qed.
Lemma req_stashed_reply_survives_repaired_w :
  nth 6 (outs_of (snd (req_run fx_repaired req_init w_stash))) [] = [Complete 9%N E_OK (Some (mkPmsg [] [187%N]))].
Proof. vm_compute. reflexivity. Qed.
