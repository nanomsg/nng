(* PollPubSub: the C15 instances for SUB (pubsub0/sub.c, with contexts), PUB
   (pubsub0/pub.c, cooked and raw are the same code) and raw SUB (pubsub0/xsub.c,
   through the socket's upper read queue).

   SUB:      every clause holds at full strength once sub0_ctx_unsubscribe clears the
             recv pollable (fixed = true); the clauses about the NONBLOCK flag hold
             whatever the flag is; with fixed = false C15_mirror is refuted.
   PUB:      every clause holds (a send never waits, the send descriptor is always
             raised, there is no receive descriptor).
   raw SUB:  every clause holds once nni_msgq_aio_get looks at the queue before it
             calls nni_aio_start (mq_fixed = true), whatever rs_fixed is (the poll goes
             through run_notify); with mq_fixed = false C15_nb_possible is refuted. *)
From Coq Require Import List NArith Bool.
From NngV Require Import Proto.Common Proto.SubModel Proto.PubModel Proto.XsubModel
  Proto.PubSubProofs Proto.PubSubProofs3 Proto.PollModel Proto.PollProofs.
Import ListNotations.

(* a concrete history respects the contract (no aio submitted twice, no close): by computation *)
Ltac in_false := let X := fresh in intros X; repeat (destruct X as [X|X]; [discriminate|]); exact X.
Ltac ops_ok := vm_compute; repeat (split; [first [tauto|split; [in_false|tauto]]|split; [discriminate|]]); exact I.

(* the user aios the state holds: the waiting receivers of every context *)
Definition sub_busy (s : sub) : list aioid := flat_map sc_rq (sb_ctxs s).
(* the socket's own context is there (it goes only with the socket) *)
Definition has_master (s : sub) : Prop := In None (map sc_id (sb_ctxs s)).
(* the contract: a context is opened once; an aio is submitted once at a time *)
Definition sub_ok (s : sub) (o : pop) : Prop :=
  sub_op_ok s o /\ match o with PSend _ a _ _ | PRecv _ a _ => ~ In a (sub_busy s) | _ => True end.
Definition sub_inv (fixed : bool) (s : sub) : Prop :=
  SInv s /\ has_master s /\ RInvHalf s /\ (fixed = true -> RInv s).
Definition M_sub (fixed : bool) : pmodel :=
  mkPM sub sub_init (sub_step fixed) sub_poll sub_ok (sub_inv fixed) sub_busy (fun _ => true).

Lemma busy_upd k f cs : (forall c, sc_rq (f c) = sc_rq c) -> flat_map sc_rq (upd_ctx k f cs) = flat_map sc_rq cs.
Proof.
  intros Hf. unfold upd_ctx. induction cs as [|x l IH]; cbn [map flat_map]; [reflexivity|].
  rewrite IH. destruct (cid_eqb (sc_id x) k); [now rewrite Hf|reflexivity].
Qed.
Lemma busy_upd_in k a cs c : find_ctx k cs = Some c ->
  In a (flat_map sc_rq (upd_ctx k (fun c => set_rq c (sc_rq c ++ [a])) cs)).
Proof.
  intros F. apply find_ctx_some in F as [Hin Hid]. apply in_flat_map.
  exists (set_rq c (sc_rq c ++ [a])). split.
  - unfold upd_ctx. apply in_map_iff. exists c. rewrite Hid, cid_eqb_refl. split; auto.
  - simp_c. apply in_or_app. right. now left.
Qed.
Lemma master_found s : has_master s -> exists c, find_ctx None (sb_ctxs s) = Some c.
Proof.
  intros H. destruct (find_ctx None (sb_ctxs s)) as [c|] eqn:F; [eauto|].
  apply find_ctx_none in F. contradiction.
Qed.
Lemma ids_filter k cs : In None (map sc_id cs) ->
  In None (map sc_id (filter (fun c => negb (cid_eqb (sc_id c) (Some k))) cs)).
Proof.
  intros H. apply in_map_iff in H as (c & E & Hin). apply in_map_iff. exists c. split; auto.
  apply filter_In. split; auto. rewrite E. reflexivity.
Qed.
Lemma ids_after m cs : map sc_id (map (fun c => ctx_after c m) cs) = map sc_id cs.
Proof. rewrite map_map. apply map_ext. intros c. apply ctx_after_id. Qed.

Lemma sub_step_master fixed s o s' outs : sub_step fixed s o = (s', outs) -> has_master s -> has_master s'.
Proof.
  intros H HM. unfold has_master in *.
  destruct o as [k a nb m|k a nb|a rv|p peer|p|p rv|p rv m|k op|k|k| |now]; cbn [sub_step] in H.
  - inversion H; subst; auto.
  - destruct (find_ctx k (sb_ctxs s)) as [c|]; [|inversion H; subst; auto].
    destruct (sc_lmq c) as [|m rest]; [destruct nb|]; inversion H; subst; simp_s; auto; rewrite upd_ctx_ids; auto.
  - destruct (existsb _ _); inversion H; subst; simp_s; auto. rewrite map_map. cbn. exact HM.
  - destruct (negb _); inversion H; subst; auto.
  - inversion H; subst; auto.
  - inversion H; subst; auto.
  - destruct (negb _); inversion H; subst; simp_s; auto. now rewrite ids_after.
  - destruct (find_ctx k (sb_ctxs s)) as [c|]; [|inversion H; subst; auto].
    destruct op; try (inversion H; subst; auto; fail).
    + destruct k; [|destruct (_ <? _)%N]; inversion H; subst; auto.
    + destruct (_ || _); inversion H; subst; simp_s; auto. rewrite upd_ctx_ids; auto.
    + inversion H; subst; simp_s. rewrite upd_ctx_ids; auto.
    + destruct (has_topic t (sc_topics c)); inversion H; subst; simp_s; auto. rewrite upd_ctx_ids; auto.
    + destruct (negb _); inversion H; subst; simp_s; auto. rewrite upd_ctx_ids; auto.
  - inversion H; subst; simp_s. rewrite map_app. apply in_or_app. now left.
  - destruct (find_ctx (Some k) (sb_ctxs s)); inversion H; subst; simp_s; auto. now apply ids_filter.
  - destruct (find_ctx None (sb_ctxs s)); inversion H; subst; simp_s; auto. rewrite upd_ctx_ids; auto.
  - inversion H; subst; auto.
Qed.

Lemma sub_inv_init fixed : pm_inv (M_sub fixed) (pm_init (M_sub fixed)).
Proof.
  unM M_sub. split; [exact sub_init_inv|]. split; [left; reflexivity|].
  split; [exact (proj2 sub_init_rinv)|]. intros _. exact (proj1 sub_init_rinv).
Qed.
Lemma sub_inv_step fixed s o :
  pm_inv (M_sub fixed) s -> pm_ok (M_sub fixed) s o -> o <> PSockClose -> pm_inv (M_sub fixed) (fst (pm_step (M_sub fixed) s o)).
Proof.
  unM M_sub. intros (HI & HM & HH & HR) [Hok _] _. destruct (sub_step fixed s o) as [s' outs] eqn:E. cbn [fst].
  destruct (sub_readable_step _ _ _ _ _ HI E) as [R1 R2].
  split; [exact (sub_step_inv _ _ _ _ _ HI Hok E)|]. split; [exact (sub_step_master _ _ _ _ _ E HM)|].
  split; [auto|]. intros F. auto.
Qed.
Theorem sub_c15_inv_any fixed : C15_inv (M_sub fixed).
Proof. exact (reachable_ind _ _ (sub_inv_init fixed) (sub_inv_step fixed)). Qed.

(* a send is refused; a receive on a context takes the head of its queue, else it waits there *)
Lemma sub_send_shape fixed s c a m : pm_ok (M_sub fixed) s (PSend c a true m) -> send_shape (M_sub fixed) true s c a m.
Proof. intros [_ Hb]. apply (refused_send _ _ _ _ _ _ E_NOTSUP); auto with errs. Qed.
Lemma sub_recv_shape fixed s c a : pm_ok (M_sub fixed) s (PRecv c a true) -> recv_shape (M_sub fixed) true s c a.
Proof.
  intros [_ Hb]. destruct (find_ctx c (sb_ctxs s)) as [x|] eqn:F; [destruct (sc_lmq x) as [|m rest] eqn:Q|].
  - apply RsAgain; cbn; rewrite ?F, ?Q; cbn; rewrite ?N.eqb_refl; auto.
    split; [reflexivity|]. eapply busy_upd_in; eauto.
  - apply (RsSame E_OK (Some m)); cbn; rewrite ?F, ?Q; cbn; rewrite ?N.eqb_refl; auto with errs.
    + split; [reflexivity|discriminate].
    + unfold sub_busy in *. rewrite busy_upd; auto.
  - apply (refused_recv _ _ _ _ _ E_CLOSED); auto with errs. intros nb. cbn. now rewrite F.
Qed.
Lemma sub_c15_nb_any fixed : C15_nb_immediate (M_sub fixed) /\ C15_nb_possible (M_sub fixed) /\ C15_nb_strict (M_sub fixed).
Proof.
  exact (C15_nb_of_shapes _ (sub_c15_inv_any fixed) (fun s c a m _ => sub_send_shape fixed s c a m) (fun s c a _ => sub_recv_shape fixed s c a)).
Qed.
Theorem sub_c15_nb_immediate_any fixed : C15_nb_immediate (M_sub fixed).
Proof. exact (proj1 (sub_c15_nb_any fixed)). Qed.
Theorem sub_c15_nb_possible_any fixed : C15_nb_possible (M_sub fixed).
Proof. exact (proj1 (proj2 (sub_c15_nb_any fixed))). Qed.
Theorem sub_c15_nb_strict_any fixed : C15_nb_strict (M_sub fixed).
Proof. exact (proj2 (proj2 (sub_c15_nb_any fixed))). Qed.

(* there is no send descriptor: a send is refused with NNG_ENOTSUP *)
Lemma sub_mirror_w_all fixed s : mirror_w_at (M_sub fixed) s /\ mirror_w_exact_at (M_sub fixed) s /\ mirror_w_iff_at (M_sub fixed) s.
Proof. apply mirror_w_none; [reflexivity|]. intros a m. apply result_of_single. Qed.
(* what a NONBLOCK receive on the socket answers, in terms of the master's queue *)
Lemma sub_rv_recv fixed s a c : find_ctx None (sb_ctxs s) = Some c ->
  rv_recv (M_sub fixed) s a = Some (if lmq_empty c then E_AGAIN else E_OK).
Proof.
  intros F. unfold rv_recv. unM M_sub. cbn [sub_step]. rewrite F. unfold lmq_empty.
  destruct (sc_lmq c); cbn [snd]; apply result_of_single.
Qed.
(* repaired: raised <-> the master's queue is not empty <-> a receive succeeds <-> it does not answer NNG_EAGAIN *)
Lemma sub_mirror_r s : pm_inv (M_sub true) s -> mirror_r_exact_at (M_sub true) s /\ mirror_r_iff_at (M_sub true) s.
Proof.
  intros (HI & HM & HH & HR). destruct (master_found s HM) as [c F]. apply (mirror_r_of_rv _ _ (negb (lmq_empty c))).
  - cbn. rewrite (HR eq_refl). unfold master_nonempty. now rewrite F.
  - intros a _. rewrite (sub_rv_recv true s a c F). now destruct (lmq_empty c).
Qed.
(* the half that holds without the repair: no missed wake-up *)
Lemma sub_mirror_r_half fixed s : pm_inv (M_sub fixed) s ->
  forall a, rv_recv (M_sub fixed) s a = Some E_OK -> poll_r (pm_poll (M_sub fixed) s) = Some true.
Proof.
  intros (HI & HM & HH & HR) a. destruct (master_found s HM) as [c F]. rewrite (sub_rv_recv fixed s a c F).
  unM M_sub. cbn [sub_poll poll_r]. unfold RInvHalf, master_nonempty in HH. rewrite F in HH.
  destruct (lmq_empty c); cbn [negb] in *; unfold_errs; intros X; [discriminate|]. now rewrite HH.
Qed.

Theorem sub_c15_inv : C15_inv (M_sub true).
Proof. exact (sub_c15_inv_any true). Qed.
Theorem sub_c15_nb_immediate : C15_nb_immediate (M_sub true).
Proof. exact (sub_c15_nb_immediate_any true). Qed.
Theorem sub_c15_nb_possible : C15_nb_possible (M_sub true).
Proof. exact (sub_c15_nb_possible_any true). Qed.
Theorem sub_c15_nb_strict : C15_nb_strict (M_sub true).
Proof. exact (sub_c15_nb_strict_any true). Qed.
Theorem sub_c15_mirror_exact : C15_mirror_exact (M_sub true).
Proof.
  unfold C15_mirror_exact. apply reachable_both_of_inv.
  - exact sub_c15_inv.
  - intros s H. apply (sub_mirror_r s H).
  - intros s _. apply (sub_mirror_w_all true s).
Qed.
Theorem sub_c15_mirror_iff : C15_mirror_iff (M_sub true).
Proof.
  unfold C15_mirror_iff. apply reachable_both_of_inv.
  - exact sub_c15_inv.
  - intros s H. apply (sub_mirror_r s H).
  - intros s _. apply (sub_mirror_w_all true s).
Qed.
Theorem sub_c15_mirror : C15_mirror (M_sub true).
Proof. exact (C15_mirror_of_exact _ sub_c15_mirror_exact). Qed.
(* whatever the flag: a receive that would succeed is advertised (the first implication of the mirror) *)
Theorem sub_c15_no_missed_wakeup_any fixed : forall s, reachable (M_sub fixed) s ->
  forall a, rv_recv (M_sub fixed) s a = Some E_OK -> poll_r (pm_poll (M_sub fixed) s) = Some true.
Proof. intros s R. apply sub_mirror_r_half. now apply sub_c15_inv_any. Qed.

(* the source before the repair: sub0_ctx_unsubscribe purges the socket's own queue to empty and leaves the
   descriptor raised -- a reachable state with the descriptor raised in which the receive answers NNG_EAGAIN *)
Theorem sub_c15_mirror_refuted_pinned : ~ C15_mirror (M_sub false).
Proof.
  intros H.
  assert (R : reachable (M_sub false) (prun (M_sub false) (pm_init (M_sub false)) refute_ops)).
  { exists refute_ops. split; [ops_ok|reflexivity]. }
  destruct (H _ R) as [HR _]. specialize (HR 9%N). vm_compute in HR.
  destruct HR as [_ X]; [split; [exact I|intros []]|]. exact (X eq_refl eq_refl).
Qed.

Definition M_pub : pmodel :=
  mkPM pub pub_init pub_step pub_poll pub_op_ok PubInv (fun _ => []) (fun _ => true).

Lemma pub_inv_init : pm_inv M_pub (pm_init M_pub).
Proof. exact pub_init_inv. Qed.
Lemma pub_inv_step s o : pm_inv M_pub s -> pm_ok M_pub s o -> o <> PSockClose -> pm_inv M_pub (fst (pm_step M_pub s o)).
Proof.
  unM M_pub. intros HI Hok _. destruct (pub_step s o) as [s' outs] eqn:E. cbn [fst].
  exact (pub_step_inv _ _ _ _ HI Hok E).
Qed.
Theorem pub_c15_inv : C15_inv M_pub.
Proof. exact (reachable_ind _ _ pub_inv_init pub_inv_step). Qed.

(* a send emits exactly one completion for its aio, a success, whatever the flags *)
Lemma pub_send_compl s c a nb m : compl_of a (snd (pub_step s (PSend c a nb m))) = [(E_OK, None)].
Proof.
  destruct (pub_send_immediate s c a nb m) as (pre & E & N & _). rewrite E. cbn [snd].
  rewrite compl_of_app, (compl_of_none a pre), compl_of_cons, compl_of_Free, compl_of_self; [reflexivity|].
  apply Forall_forall. intros o Ho. destruct o; cbn; auto. intros ->. eapply N; eauto.
Qed.
Lemma pub_send_shape s c a m : send_shape M_pub true s c a m.
Proof. apply (SsSame E_OK); auto with errs; [apply pub_send_compl|intros X; now elim X]. Qed.
Lemma pub_recv_shape s c a : recv_shape M_pub true s c a.
Proof. apply (refused_recv _ _ _ _ _ E_NOTSUP); auto with errs. Qed.
(* the send descriptor is always raised and a send always succeeds; there is no receive descriptor *)
Lemma pub_rv_send s a m : rv_send M_pub s a m = Some E_OK.
Proof. exact (result_of_compl _ _ _ _ (pub_send_compl s None a true m)). Qed.
Lemma pub_mirror_w s : mirror_w_exact_at M_pub s /\ mirror_w_iff_at M_pub s.
Proof. apply (mirror_w_of_rv _ _ true); [reflexivity|]. intros a m _ _. apply pub_rv_send. Qed.
Lemma pub_mirror_r_all s : mirror_r_at M_pub s /\ mirror_r_exact_at M_pub s /\ mirror_r_iff_at M_pub s.
Proof. apply mirror_r_none; [reflexivity|]. intros a. apply result_of_single. Qed.

Lemma pub_c15_nb : C15_nb_immediate M_pub /\ C15_nb_possible M_pub /\ C15_nb_strict M_pub.
Proof. exact (C15_nb_of_shapes _ pub_c15_inv (fun s c a m _ _ => pub_send_shape s c a m) (fun s c a _ _ => pub_recv_shape s c a)). Qed.
Theorem pub_c15_nb_immediate : C15_nb_immediate M_pub.
Proof. exact (proj1 pub_c15_nb). Qed.
Theorem pub_c15_nb_possible : C15_nb_possible M_pub.
Proof. exact (proj1 (proj2 pub_c15_nb)). Qed.
Theorem pub_c15_nb_strict : C15_nb_strict M_pub.
Proof. exact (proj2 (proj2 pub_c15_nb)). Qed.
Theorem pub_c15_mirror_exact : C15_mirror_exact M_pub.
Proof. intros s _. split; [apply pub_mirror_r_all|apply pub_mirror_w]. Qed.
Theorem pub_c15_mirror_iff : C15_mirror_iff M_pub.
Proof. intros s _. split; [apply pub_mirror_r_all|apply pub_mirror_w]. Qed.
Theorem pub_c15_mirror : C15_mirror M_pub.
Proof. exact (C15_mirror_of_exact _ pub_c15_mirror_exact). Qed.

Definition xsub_ok (s : xsub) (o : pop) : Prop :=
  match o with PSend _ a _ _ | PRecv _ a _ => ~ In a (xs_rq s) | _ => True end.
Definition M_xsub (mq_fixed rs_fixed : bool) : pmodel :=
  mkPM xsub xsub_init (xsub_step mq_fixed rs_fixed) xsub_poll xsub_ok XInv xs_rq (fun _ => true).

Lemma xsub_inv_init mf rf : pm_inv (M_xsub mf rf) (pm_init (M_xsub mf rf)).
Proof. exact xsub_init_inv. Qed.
Lemma xsub_inv_step mf rf s o :
  pm_inv (M_xsub mf rf) s -> pm_ok (M_xsub mf rf) s o -> o <> PSockClose -> pm_inv (M_xsub mf rf) (fst (pm_step (M_xsub mf rf) s o)).
Proof.
  unM M_xsub. intros HI _ _. destruct (xsub_step mf rf s o) as [s' outs] eqn:E. cbn [fst].
  exact (proj1 (xsub_step_law _ _ _ _ _ _ HI E)).
Qed.
Theorem xsub_c15_inv_any mf rf : C15_inv (M_xsub mf rf).
Proof. exact (reachable_ind _ _ (xsub_inv_init mf rf) (xsub_inv_step mf rf)). Qed.

(* the two forms of a receive, in terms of the queue (waiting readers exist only while nothing is queued) *)
Lemma xsub_recv_nb rf s k a : XInv s ->
  xsub_step true rf s (PRecv k a true) =
  match xs_q s with
  | [] => (s, [Complete a E_AGAIN None])
  | m :: r => (run_notify (mkXsub r (xs_cap s) [] (xs_closed s) (xs_recvable s)), [Complete a E_OK (Some m)])
  end.
Proof.
  intros I. unfold XInv in I. cbn [xsub_step negb orb andb]. destruct (xs_q s) as [|m r] eqn:Q.
  - rewrite orb_true_r. reflexivity.
  - destruct (xs_rq s) as [|a0 r0] eqn:R; [|specialize (I ltac:(congruence)); discriminate].
    cbn [negb orb andb app]. rewrite run_getq_one. reflexivity.
Qed.
Lemma xsub_recv_b mf rf s k a : XInv s ->
  xsub_step mf rf s (PRecv k a false) =
  match xs_q s with
  | [] => (run_notify (mkXsub [] (xs_cap s) (xs_rq s ++ [a]) (xs_closed s) (xs_recvable s)), [])
  | m :: r => (run_notify (mkXsub r (xs_cap s) [] (xs_closed s) (xs_recvable s)), [Complete a E_OK (Some m)])
  end.
Proof.
  intros I. unfold XInv in I. cbn [xsub_step andb]. destruct (xs_q s) as [|m r] eqn:Q.
  - rewrite run_getq_nil_q. reflexivity.
  - destruct (xs_rq s) as [|a0 r0] eqn:R; [|specialize (I ltac:(congruence)); discriminate].
    cbn [app]. rewrite run_getq_one. reflexivity.
Qed.

Lemma xsub_send_shape mf rf s c a m : pm_ok (M_xsub mf rf) s (PSend c a true m) -> send_shape (M_xsub mf rf) true s c a m.
Proof. intros Hb. apply (refused_send _ _ _ _ _ _ E_NOTSUP); auto with errs. Qed.
Lemma xsub_recv_shape rf s c a : pm_inv (M_xsub true rf) s -> pm_ok (M_xsub true rf) s (PRecv c a true) ->
  recv_shape (M_xsub true rf) true s c a.
Proof.
  intros HI Hb. pose proof (xsub_recv_nb rf s c a HI) as T. pose proof (xsub_recv_b true rf s c a HI) as B.
  destruct (xs_q s) as [|m r].
  - apply RsAgain; unM M_xsub; rewrite ?T, ?B; cbn; rewrite ?N.eqb_refl; auto.
    split; [reflexivity|]. apply in_or_app. right. now left.
  - apply (RsSame E_OK (Some m)); unM M_xsub; rewrite ?T, ?B; cbn; rewrite ?N.eqb_refl; auto with errs.
    split; [reflexivity|discriminate].
Qed.
(* the form before the repair is immediate as well (it always answers NNG_EAGAIN) *)
Lemma xsub_nb_recv_immediate_pinned rf s : nb_recv_immediate_at (M_xsub false rf) s.
Proof.
  intros c a s' outs Hb H. unM M_xsub. cbn [xsub_step negb orb andb] in H. inversion H; subst; clear H.
  exists E_AGAIN, None. rewrite compl_of_self. split; [reflexivity|]. split; [exact Hb|].
  split; [intros X; now elim X|discriminate].
Qed.
Lemma xsub_mirror_w_all mf rf s :
  mirror_w_at (M_xsub mf rf) s /\ mirror_w_exact_at (M_xsub mf rf) s /\ mirror_w_iff_at (M_xsub mf rf) s.
Proof. apply mirror_w_none; [reflexivity|]. intros a m. apply result_of_single. Qed.
(* what a poll shows is the present predicate (nni_msgq_get_recvable runs run_notify): a message is queued *)
Lemma xsub_mirror_r rf s : pm_inv (M_xsub true rf) s -> mirror_r_exact_at (M_xsub true rf) s /\ mirror_r_iff_at (M_xsub true rf) s.
Proof.
  intros HI. eapply mirror_r_of_rv; [reflexivity|]. intros a _. unfold rv_recv. unM M_xsub.
  rewrite (xsub_recv_nb rf s None a HI). cbn [run_notify xs_recvable]. destruct (xs_q s); apply result_of_single.
Qed.

Lemma xsub_c15_nb_any_rs rf : C15_nb_immediate (M_xsub true rf) /\ C15_nb_possible (M_xsub true rf) /\ C15_nb_strict (M_xsub true rf).
Proof.
  exact (C15_nb_of_shapes _ (xsub_c15_inv_any true rf) (fun s c a m _ => xsub_send_shape true rf s c a m) (xsub_recv_shape rf)).
Qed.
Theorem xsub_c15_nb_immediate_any_rs rf : C15_nb_immediate (M_xsub true rf).
Proof. exact (proj1 (xsub_c15_nb_any_rs rf)). Qed.
Theorem xsub_c15_nb_immediate_pinned rf : C15_nb_immediate (M_xsub false rf).
Proof.
  intros s _. split; [|apply xsub_nb_recv_immediate_pinned].
  apply (send_shape_clauses _ true s (xsub_send_shape false rf s)).
Qed.
Theorem xsub_c15_nb_possible_any_rs rf : C15_nb_possible (M_xsub true rf).
Proof. exact (proj1 (proj2 (xsub_c15_nb_any_rs rf))). Qed.
Theorem xsub_c15_nb_strict_any_rs rf : C15_nb_strict (M_xsub true rf).
Proof. exact (proj2 (proj2 (xsub_c15_nb_any_rs rf))). Qed.
Theorem xsub_c15_mirror_exact_any_rs rf : C15_mirror_exact (M_xsub true rf).
Proof.
  unfold C15_mirror_exact. apply reachable_both_of_inv.
  - exact (xsub_c15_inv_any true rf).
  - intros s H. apply (xsub_mirror_r rf s H).
  - intros s _. apply (xsub_mirror_w_all true rf s).
Qed.
Theorem xsub_c15_mirror_iff_any_rs rf : C15_mirror_iff (M_xsub true rf).
Proof.
  unfold C15_mirror_iff. apply reachable_both_of_inv.
  - exact (xsub_c15_inv_any true rf).
  - intros s H. apply (xsub_mirror_r rf s H).
  - intros s _. apply (xsub_mirror_w_all true rf s).
Qed.
Theorem xsub_c15_mirror_any_rs rf : C15_mirror (M_xsub true rf).
Proof. exact (C15_mirror_of_exact _ (xsub_c15_mirror_exact_any_rs rf)). Qed.

Theorem xsub_c15_inv : C15_inv (M_xsub true true).
Proof. exact (xsub_c15_inv_any true true). Qed.
Theorem xsub_c15_nb_immediate : C15_nb_immediate (M_xsub true true).
Proof. exact (xsub_c15_nb_immediate_any_rs true). Qed.
Theorem xsub_c15_nb_possible : C15_nb_possible (M_xsub true true).
Proof. exact (xsub_c15_nb_possible_any_rs true). Qed.
Theorem xsub_c15_nb_strict : C15_nb_strict (M_xsub true true).
Proof. exact (xsub_c15_nb_strict_any_rs true). Qed.
Theorem xsub_c15_mirror : C15_mirror (M_xsub true true).
Proof. exact (xsub_c15_mirror_any_rs true). Qed.
Theorem xsub_c15_mirror_exact : C15_mirror_exact (M_xsub true true).
Proof. exact (xsub_c15_mirror_exact_any_rs true). Qed.
Theorem xsub_c15_mirror_iff : C15_mirror_iff (M_xsub true true).
Proof. exact (xsub_c15_mirror_iff_any_rs true). Qed.

(* the source before the repair of nni_msgq_aio_get: a message is queued, the blocking receive succeeds in
   that very step, the NONBLOCK receive answers NNG_EAGAIN *)
Theorem xsub_c15_nb_possible_refuted_pinned : ~ C15_nb_possible (M_xsub false true).
Proof.
  intros H.
  assert (R : reachable (M_xsub false true) (prun (M_xsub false true) (pm_init (M_xsub false true)) xrefute_ops)).
  { exists xrefute_ops. split; [ops_ok|reflexivity]. }
  destruct (H _ R) as [_ HR]. specialize (HR None 9%N). vm_compute in HR.
  assert (X : False -> False) by tauto. specialize (HR X eq_refl). discriminate.
Qed.

(* SUB: subscribe to everything, a publisher's pipe, a message: the descriptor is raised and the receive succeeds;
   after the receive it is lowered again and the next receive answers NNG_EAGAIN *)
Definition sub_ex_ops : list pop :=
  [PSetOpt None (OSub []); PPipeStart 1%N PROTO_PUB; PRecvDone 1%N 0%N (mkPmsg [] [1%N])].
Example sub_reachable_raised : exists s, reachable (M_sub true) s /\ poll_r (pm_poll (M_sub true) s) = Some true /\
  rv_recv (M_sub true) s 9%N = Some E_OK.
Proof.
  exists (prun (M_sub true) (pm_init (M_sub true)) sub_ex_ops). split; [|split; vm_compute; reflexivity].
  exists sub_ex_ops. split; [ops_ok|reflexivity].
Qed.
Example sub_reachable_lowered : exists s, reachable (M_sub true) s /\ poll_r (pm_poll (M_sub true) s) = Some false /\
  rv_recv (M_sub true) s 9%N = Some E_AGAIN.
Proof.
  exists (prun (M_sub true) (pm_init (M_sub true)) (sub_ex_ops ++ [PRecv None 8%N true])). split; [|split; vm_compute; reflexivity].
  exists (sub_ex_ops ++ [PRecv None 8%N true]). split; [ops_ok|reflexivity].
Qed.
Example sub_reachable_init_lowered : reachable (M_sub true) sub_init /\ poll_r (pm_poll (M_sub true) sub_init) = Some false.
Proof. split; [apply (reachable_init (M_sub true))|reflexivity]. Qed.
(* the history that refutes the source before the repair, on the repaired model: lowered *)
Example sub_reachable_unsub_lowered : exists s, reachable (M_sub true) s /\ poll_r (pm_poll (M_sub true) s) = Some false /\
  rv_recv (M_sub true) s 9%N = Some E_AGAIN.
Proof.
  exists (prun (M_sub true) (pm_init (M_sub true)) refute_ops). split; [|split; vm_compute; reflexivity].
  exists refute_ops. split; [ops_ok|reflexivity].
Qed.
(* a context's queue does not raise the socket's descriptor *)
Definition sub_ex_ctx_ops : list pop :=
  [PCtxOpen 5%N; PSetOpt (Some 5%N) (OSub []); PPipeStart 1%N PROTO_PUB; PRecvDone 1%N 0%N (mkPmsg [] [1%N])].
Example sub_reachable_ctx : exists s, reachable (M_sub true) s /\ poll_r (pm_poll (M_sub true) s) = Some false /\
  result_of 9%N (snd (pm_step (M_sub true) s (PRecv (Some 5%N) 9%N true))) = Some E_OK /\
  rv_recv (M_sub true) s 9%N = Some E_AGAIN.
Proof.
  exists (prun (M_sub true) (pm_init (M_sub true)) sub_ex_ctx_ops). split; [|repeat split; vm_compute; reflexivity].
  exists sub_ex_ctx_ops. split; [ops_ok|reflexivity].
Qed.

Example xsub_reachable_raised : exists s, reachable (M_xsub true true) s /\ poll_r (pm_poll (M_xsub true true) s) = Some true /\
  rv_recv (M_xsub true true) s 9%N = Some E_OK.
Proof.
  exists (prun (M_xsub true true) (pm_init (M_xsub true true)) xrefute_ops). split; [|split; vm_compute; reflexivity].
  exists xrefute_ops. split; [ops_ok|reflexivity].
Qed.
Example xsub_reachable_lowered : exists s, reachable (M_xsub true true) s /\ poll_r (pm_poll (M_xsub true true) s) = Some false /\
  rv_recv (M_xsub true true) s 9%N = Some E_AGAIN.
Proof.
  exists (prun (M_xsub true true) (pm_init (M_xsub true true)) (xrefute_ops ++ [PRecv None 8%N true])).
  split; [|split; vm_compute; reflexivity].
  exists (xrefute_ops ++ [PRecv None 8%N true]). split; [ops_ok|reflexivity].
Qed.
Example xsub_reachable_init_lowered :
  reachable (M_xsub true true) xsub_init /\ poll_r (pm_poll (M_xsub true true) xsub_init) = Some false.
Proof. split; [apply (reachable_init (M_xsub true true))|reflexivity]. Qed.

(* PUB: a subscriber's pipe with its transmitter busy; the descriptor is raised and the send succeeds *)
Definition pub_ex_ops : list pop := [PPipeStart 1%N PROTO_SUB; PSend None 7%N true (mkPmsg [] [1%N])].
Example pub_reachable_raised : exists s, reachable M_pub s /\ pb_pipes s <> [] /\ poll_w (pm_poll M_pub s) = Some true /\
  rv_send M_pub s 9%N (mkPmsg [] [2%N]) = Some E_OK.
Proof.
  exists (prun M_pub (pm_init M_pub) pub_ex_ops). split; [|split; [vm_compute; discriminate|split; vm_compute; reflexivity]].
  exists pub_ex_ops. split; [ops_ok|reflexivity].
Qed.
Example pub_reachable_init : reachable M_pub pub_init /\ poll_w (pm_poll M_pub pub_init) = Some true /\ poll_r (pm_poll M_pub pub_init) = None.
Proof. split; [apply (reachable_init M_pub)|split; reflexivity]. Qed.
