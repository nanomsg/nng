(* XReqRepProofs: raw REQ / raw REP -- non-blocking and poll-descriptor laws of
   the msgq entry points (C15 clause), conservation at the router of raw REP
   (C04: the push/pop law of its header, xrep_push_pop, is in ReqRepProofs). *)
From Coq Require Import List Arith NArith Bool Lia.
From NngV Require Import Proto.Common Proto.ReqRepBacktrace Proto.ReqModel Proto.XReqModel Proto.XRepModel Proto.ReqRepProofs.
Import ListNotations.

Definition mf_pinned : mqfix := mkMqfix false false false.
Definition mf_repaired : mqfix := mkMqfix true true true.

(* the msgq get entry point with a single new getter *)
Lemma mq_get_ready {G T} (rp : bool) (q : mq G T) (g : G) :
  mq_get_waits q = false ->
  exists m q' ev, mq_get rp q g = (q', ev) /\ In (EvGot g m) ev.
Proof.
  unfold mq_get_waits, mq_get. intros H. apply orb_false_iff in H. destruct H as [H1 H2].
  destruct (mq_getq q) eqn:EG; [|discriminate]. cbn [app length mq_run_getq mq_getq mq_q mq_putq].
  destruct (mq_q q) as [|m rest] eqn:EQ.
  - destruct (mq_putq q) as [|[t m] pr] eqn:EP; [discriminate|].
    exists m. destruct rp.
    + match goal with |- context [mq_run_putq ?f ?X] => destruct (mq_run_putq f X) as [q2 e2] end.
      do 2 eexists. split; [reflexivity|]. apply in_or_app. left. right. left. reflexivity.
    + do 2 eexists. split; [reflexivity|]. right. left. reflexivity.
  - exists m. destruct rp.
    + match goal with |- context [mq_run_putq ?f ?X] => destruct (mq_run_putq f X) as [q2 e2] end.
      do 2 eexists. split; [reflexivity|]. apply in_or_app. left. left. reflexivity.
    + do 2 eexists. split; [reflexivity|]. left. reflexivity.
Qed.

(* non-blocking receive on a raw socket, repaired msgq: completes in the step;
   NNG_EAGAIN exactly when the blocking form would have to wait, and then
   nothing changes; otherwise a message is delivered *)
Lemma xreq_nb_recv_repaired r g s c a :
  (mq_get_waits (xq_urq s) = true -> xreq_step (mkMqfix true r g) s (PRecv c a true) = (s, [Complete a E_AGAIN None])) /\
  (mq_get_waits (xq_urq s) = false ->
     exists s' outs m, xreq_step (mkMqfix true r g) s (PRecv c a true) = (s', outs) /\ In (Complete a E_OK (Some m)) outs).
Proof.
  split; intros H; unfold xreq_step, nb_refused; cbn [mf_nb mf_getput negb orb andb]; rewrite H.
  - reflexivity.
  - destruct (mq_get_ready g (xq_urq s) a H) as [m [q' [ev [E Hin]]]]. rewrite E.
    do 3 eexists. split; [reflexivity|]. apply (in_map urq_out) in Hin. exact Hin.
Qed.
Lemma xrep_nb_recv_repaired r g s c a :
  (mq_get_waits (xp_urq s) = true -> xrep_step (mkMqfix true r g) s (PRecv c a true) = (s, [Complete a E_AGAIN None])) /\
  (mq_get_waits (xp_urq s) = false ->
     exists s' outs m, xrep_step (mkMqfix true r g) s (PRecv c a true) = (s', outs) /\ In (Complete a E_OK (Some m)) outs).
Proof.
  split; intros H; unfold xrep_step, nb_refused; cbn [mf_nb mf_getput negb orb andb]; rewrite H.
  - reflexivity.
  - destruct (mq_get_ready g (xp_urq s) a H) as [m [q' [ev [E Hin]]]]. rewrite E.
    do 3 eexists. split; [reflexivity|]. apply (in_map urq_out) in Hin. exact Hin.
Qed.

Fixpoint xreq_run (mf : mqfix) (s : xreq) (ops : list pop) : xreq :=
  match ops with [] => s | o :: r => xreq_run mf (fst (xreq_step mf s o)) r end.

(* the pinned msgq (nni_aio_start first): NNG_EAGAIN although a message is queued *)
Definition w_xreq_ops : list pop :=
  [PPipeStart 1%N PROTO_REP; PRecvDone 1%N 0%N (mkPmsg [] (be32 2147483649 ++ [7%N]))].
Lemma xreq_nb_recv_refuted_w :
  let s := xreq_run mf_pinned xreq_init w_xreq_ops in
  poll_r (xreq_poll s) = Some true /\
  xreq_step mf_pinned s (PRecv None 9%N true) = (s, [Complete 9%N E_AGAIN None]) /\
  exists s' m, xreq_step mf_pinned s (PRecv None 9%N false) = (s', [Complete 9%N E_OK (Some m)]).
Proof. vm_compute. split; [reflexivity|]. split; [reflexivity|]. do 2 eexists. reflexivity. Qed.
Lemma xreq_nb_recv_repaired_w :
  let s := xreq_run mf_repaired xreq_init w_xreq_ops in
  exists s' m, xreq_step mf_repaired s (PRecv None 9%N true) = (s', [Complete 9%N E_OK (Some m)]).
Proof. vm_compute. do 2 eexists. reflexivity. Qed.

Lemma mq_put_ready {G T} (q : mq G T) (t : T) (m : pmsg) :
  mq_put_waits q = false -> exists q' ev, mq_put q t m = (q', ev) /\ In (EvPut t) ev /\ mq_putq q' = [].
Proof.
  unfold mq_put_waits, mq_put. intros H. apply orb_false_iff in H. destruct H as [H1 H2].
  destruct (mq_putq q) eqn:EP; [|discriminate]. cbn [app length mq_run_putq mq_getq mq_q mq_putq mq_cap].
  destruct (mq_getq q) as [|g gr] eqn:EG.
  - cbn [is_nil andb] in H2. apply Nat.leb_gt in H2. apply Nat.ltb_lt in H2. rewrite H2.
    do 2 eexists. split; [reflexivity|]. split; [left; reflexivity|reflexivity].
  - do 2 eexists. split; [reflexivity|]. split; [right; left; reflexivity|reflexivity].
Qed.
(* non-blocking send on raw REQ, repaired msgq *)
Lemma xreq_nb_send_repaired r g s c a m :
  (mq_put_waits (xq_uwq s) = true -> xreq_step (mkMqfix true r g) s (PSend c a true m) = (s, [Complete a E_AGAIN None])) /\
  (mq_put_waits (xq_uwq s) = false ->
     exists s' outs, xreq_step (mkMqfix true r g) s (PSend c a true m) = (s', outs) /\ In (Complete a E_OK None) outs).
Proof.
  split; intros H; unfold xreq_step, nb_refused; cbn [mf_nb mf_getput negb orb andb]; rewrite H.
  - reflexivity.
  - destruct (mq_put_ready (xq_uwq s) a m H) as [q' [ev [E [Hin _]]]]. rewrite E.
    do 2 eexists. split; [reflexivity|]. apply in_flat_map. exists (EvPut a). split; [exact Hin|left; reflexivity].
Qed.
(* raw REP never has to wait for its upper write queue *)
Lemma xrep_nb_send_repaired r g s c a m :
  exists s' outs, xrep_step (mkMqfix true r g) s (PSend c a true m) = (s', Complete a E_OK None :: outs).
Proof.
  unfold xrep_step, nb_refused. cbn [mf_nb mf_getput negb orb andb].
  destruct (xrep_route s m) as [s1 outs]. do 2 eexists. reflexivity.
Qed.

(* poll descriptors of a raw socket are the run_notify predicates; with no blocked
   reader (writer) they mirror the non-blocking operation *)
Lemma xreq_poll_mirror s :
  (mq_getq (xq_urq s) = [] -> (poll_r (xreq_poll s) = Some true <-> mq_get_waits (xq_urq s) = false)) /\
  (mq_putq (xq_uwq s) = [] -> (poll_w (xreq_poll s) = Some true <-> mq_put_waits (xq_uwq s) = false)).
Proof.
  unfold xreq_poll, mq_recvable, mq_sendable, mq_get_waits, mq_put_waits. cbn [poll_r poll_w]. split; intros H; rewrite H; cbn [is_nil negb orb].
  - destruct (mq_q (xq_urq s)); destruct (mq_putq (xq_urq s)); cbn; split; intros E; try reflexivity; try discriminate.
  - destruct (mq_getq (xq_uwq s)); cbn [is_nil negb orb andb].
    + rewrite orb_false_r. destruct (Nat.ltb_spec (length (mq_q (xq_uwq s))) (mq_cap (xq_uwq s))); destruct (Nat.leb_spec (mq_cap (xq_uwq s)) (length (mq_q (xq_uwq s)))); try lia; split; intros E; try reflexivity; try discriminate.
    + rewrite orb_true_r. split; reflexivity.
Qed.
Lemma xrep_poll_mirror s :
  mq_getq (xp_urq s) = [] -> (poll_r (xrep_poll s) = Some true <-> mq_get_waits (xp_urq s) = false).
Proof.
  unfold xrep_poll, mq_recvable, mq_get_waits. cbn [poll_r]. intros H. rewrite H. cbn [is_nil negb orb].
  destruct (mq_q (xp_urq s)); destruct (mq_putq (xp_urq s)); cbn; split; intros E; try reflexivity; try discriminate.
Qed.

(* resize: the pinned code leaves a blocked writer blocked although there is room
   now; the repaired code takes it *)
Definition w_resize_ops : list pop := [PSend None 1%N false (mkPmsg (be32 2147483649) [5%N]); PSetOpt None (OSendBuf 2)].
Lemma xreq_resize_refuted_w :
  let s := xreq_run mf_pinned xreq_init w_resize_ops in
  mq_putq (xq_uwq s) <> [] /\ length (mq_q (xq_uwq s)) < mq_cap (xq_uwq s).
Proof. vm_compute. split; [discriminate|lia]. Qed.
Lemma xreq_resize_repaired_w :
  let s := xreq_run mf_repaired xreq_init w_resize_ops in mq_putq (xq_uwq s) = [] /\ length (mq_q (xq_uwq s)) = 1.
Proof. vm_compute. split; reflexivity. Qed.

(* conservation at the router of raw REP: a message taken from the application is
   transmitted, queued for its pipe, or freed -- exactly one of them *)
Lemma xrep_route_conserves s m s' outs :
  xrep_route s m = (s', outs) ->
  (exists p x, xrep_send m = Some (p, x) /\
     ((outs = [TranSend p x] /\ xp_sendq s' = xp_sendq s) \/
      (outs = [] /\ xp_sendq s' = xp_sendq s ++ [(p, x)]) \/
      (outs = [Free x] /\ xp_sendq s' = xp_sendq s))) \/
  (xrep_send m = None /\ outs = [Free m] /\ s' = s).
Proof.
  unfold xrep_route. intros H. destruct (xrep_send m) as [[p x]|] eqn:E.
  - left. exists p, x. split; [reflexivity|].
    destruct (negb (has_id p (xp_pipes s))); [inversion H; subst; auto|].
    destruct (has_id p (xp_idle s)); [inversion H; subst; auto|].
    destruct (pipe_qlen s p <? XREP_PIPE_SENDQ_CAP); inversion H; subst; auto.
  - right. inversion H; subst. auto.
Qed.

(* nni_msgq_aio_get and the writer side: a reader (here: a pipe that becomes ready)
   takes the buffered message; pinned: the blocked writer stays blocked although
   there is room; repaired: it moves into the buffer and completes *)
Definition w_getput_ops : list pop :=
  [PSetOpt None (OSendBuf 1); PSend None 1%N false (mkPmsg (be32 2147483649) [5%N]);
   PSend None 2%N false (mkPmsg (be32 2147483650) [6%N]); PPipeStart 1%N PROTO_REP].
Lemma xreq_get_runs_putq_refuted_w :
  let s := xreq_run (mkMqfix true true false) xreq_init w_getput_ops in
  mq_putq (xq_uwq s) <> [] /\ length (mq_q (xq_uwq s)) < mq_cap (xq_uwq s) /\
  poll_w (xreq_poll s) = Some true /\
  xreq_step (mkMqfix true true false) s (PSend None 9%N true (mkPmsg (be32 2147483651) [7%N])) = (s, [Complete 9%N E_AGAIN None]).
Proof. vm_compute. split; [discriminate|]. split; [lia|]. split; reflexivity. Qed.
Lemma xreq_get_runs_putq_repaired_w :
  let s := xreq_run mf_repaired xreq_init w_getput_ops in
  mq_putq (xq_uwq s) = [] /\ length (mq_q (xq_uwq s)) = 1 /\
  In (Complete 2%N E_OK None) (snd (xreq_step mf_repaired (xreq_run mf_repaired xreq_init (firstn 3 w_getput_ops)) (PPipeStart 1%N PROTO_REP))).
Proof. vm_compute. split; [reflexivity|]. split; [reflexivity|]. right. left. reflexivity. Qed.
