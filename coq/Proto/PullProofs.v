(* PullProofs: conservation, arrival-order delivery, poll mirror for PullModel. *)
From Coq Require Import List Arith NArith Bool Lia.
From NngV Require Import Proto.Common Proto.PushModel Proto.PullModel Proto.PushProofs.
Import ListNotations.

Ltac simp_l := cbn [pl_pl pl_rq pl_closed pl_readable] in *.

Fixpoint delivered (outs : list pout) : list pmsg :=
  match outs with [] => [] | Complete _ rv (Some m) :: r => if N.eqb rv 0 then m :: delivered r else delivered r
                | _ :: r => delivered r end.
Lemma delivered_fail rv l : delivered (fail_aios rv l) = [].
Proof. induction l; cbn; auto. Qed.
Lemma delivered_map_Free l : delivered (map Free l) = [].
Proof. induction l; cbn; auto. Qed.

Definition lheld (s : pull) : list pmsg := map snd (pl_pl s).

(* a blocked receiver implies no message is held; the descriptor is raised
   exactly when a message is held *)
Definition LInvP (s : pull) : Prop :=
  (pl_rq s <> [] -> pl_pl s = []) /\
  pl_readable s = negb (match pl_pl s with [] => true | _ => false end).

Lemma pull_init_inv : LInvP pull_init.
Proof. split; [intros H; reflexivity|reflexivity]. Qed.

Theorem pull_step_law s o s' outs :
  LInvP s -> pull_step s o = (s', outs) ->
  LInvP s' /\
  (forall x, cnt x (lheld s ++ arrived o) = cnt x (lheld s' ++ delivered outs ++ freed outs)) /\
  ((forall p, o <> PPipeClose p) -> (forall p m, o = PRecvDone p 0 m -> has_id p (pl_closed s) = false) ->
     lheld s ++ arrived o = delivered outs ++ lheld s').
Proof.
  intros [I1 I2] H. unfold lheld.
  destruct o as [c a nb m|c a nb|a rv|p peer|p|p rv|p rv m| c op|c|c| |now]; cbn [pull_step arrived] in *;
    (* an operation that neither receives nor releases anything *)
    try (injection H as <- <-; repeat split; auto; intros; cbn; now rewrite ?app_nil_r).
  - destruct (pl_pl s) as [|[p m] rest] eqn:PL.
    + destruct nb; injection H as <- <-; simp_l.
      * repeat split; auto; intros; cbn; rewrite ?PL; now rewrite ?app_nil_r.
      * split; [split; [intros _; reflexivity|simp_l; exact I2]|].
        split; intros; cbn; reflexivity.
    + injection H as <- <-; simp_l. split; [|split].
      * split; [intros Hne; discriminate (I1 Hne)|]. destruct rest; simp_l; [reflexivity|exact I2].
      * intros x. cbn [map snd delivered freed]. change (E_OK =? 0)%N with true. cbn iota. cnt_simp. lia.
      * intros _ _. cbn [map snd delivered]. change (E_OK =? 0)%N with true. cbn iota. now rewrite app_nil_r.
  - destruct (has_id a (pl_rq s)) eqn:E; injection H as <- <-; simp_l.
    + split; [split; [|exact I2]|].
      * intros Hne. apply I1. intros E0. rewrite E0 in Hne. apply Hne. reflexivity.
      * split; intros; cbn; now rewrite ?app_nil_r.
    + repeat split; auto; intros; cbn; now rewrite ?app_nil_r.
  - destruct (negb (peer =? PROTO_PUSH)%N); injection H as <- <-; repeat split; auto; intros; cbn; now rewrite ?app_nil_r.
  - (* PPipeClose: the pipe's held message (if any) is released with the pipe *)
    injection H as <- <-; simp_l. split; [|split].
    + split.
      * intros Hne. rewrite (I1 Hne). reflexivity.
      * destruct (has_aio p (pl_pl s)) eqn:E.
        -- destruct (filter _ (pl_pl s)) eqn:F; cbn [andb negb]; [reflexivity|].
           rewrite I2. destruct (pl_pl s); [discriminate|reflexivity].
        -- cbn [andb]. rewrite I2.
           assert (F: filter (fun x : N * pmsg => negb (fst x =? p)%N) (pl_pl s) = pl_pl s).
           { clear - E. unfold has_aio in E. induction (pl_pl s) as [|[k v] l IH]; cbn in *; [reflexivity|].
             apply orb_false_iff in E as [E1 E2]. rewrite E1. cbn. f_equal. auto. }
           now rewrite F.
    + intros x. rewrite delivered_map_Free, freed_map_Free. cbn [app].
      pose proof (cnt_partition x p (pl_pl s)) as P. cnt_simp. lia.
    + intros Hn. exfalso. eapply Hn. reflexivity.
  - destruct (N.eqb_spec rv 0) as [->|Hrv]; cbn [negb] in H.
    + destruct (has_id p (pl_closed s)) eqn:C.
      * injection H as <- <-. split; [split; auto|]. split.
        -- intros x. cbn [delivered freed]. cnt_simp. lia.
        -- intros _ Hc. specialize (Hc p m eq_refl). congruence.
      * destruct (pl_rq s) as [|a rest] eqn:RQ; injection H as <- <-; simp_l.
        -- split; [split; simp_l; [intros Hne; exfalso; apply Hne; reflexivity|]|].
           ++ destruct (pl_pl s) eqn:PL; cbn [app]; [reflexivity|]. rewrite I2. reflexivity.
           ++ split; intros; rewrite ?map_app; cbn [map snd delivered freed]; cnt_simp; auto.
        -- assert (PL: pl_pl s = []) by (apply I1; congruence).
           split; [split; [intros _; exact PL|exact I2]|]. rewrite PL. cbn [map delivered freed].
           change (E_OK =? 0)%N with true. cbn iota. split; intros; cnt_simp; auto.
    + injection H as <- <-. destruct (rv =? 0)%N; repeat split; auto; intros; cbn; now rewrite ?app_nil_r.
  - injection H as <- <-; simp_l. split; [split; simp_l; [intros Hne; exfalso; apply Hne; reflexivity|exact I2]|].
    rewrite delivered_fail, freed_fail. split; intros; cbn; now rewrite ?app_nil_r.
Qed.

(* non-blocking receive: immediate; EAGAIN exactly when nothing is held, i.e.
   exactly when the receive descriptor is not raised *)
Theorem pull_nb_immediate s c a s' outs :
  LInvP s -> pull_step s (PRecv c a true) = (s', outs) ->
  exists rv m rest, outs = Complete a rv m :: rest /\ pl_rq s' = pl_rq s /\
    (rv = E_AGAIN <-> pl_readable s = false) /\ (rv = E_AGAIN -> s' = s /\ m = None) /\
    (rv <> E_AGAIN -> rv = E_OK /\ exists p x r, pl_pl s = (p, x) :: r /\ m = Some x).
Proof.
  intros [I1 I2] H. cbn [pull_step] in H. destruct (pl_pl s) as [|[p x] r] eqn:PL; injection H as <- <-; simp_l.
  - exists E_AGAIN, None, []. rewrite I2. cbn. repeat split; auto; congruence.
  - exists E_OK, (Some x), [TranRecv p]. rewrite I2. cbn. repeat split; auto; try discriminate. eauto.
Qed.

Fixpoint pull_run (s : pull) (ops : list pop) : pull * list (pop * list pout) :=
  match ops with
  | [] => (s, [])
  | o :: r => let (s1, outs) := pull_step s o in
              let (s2, tr) := pull_run s1 r in (s2, (o, outs) :: tr)
  end.
Fixpoint ptr_arrived (tr : list (pop * list pout)) : list pmsg :=
  match tr with [] => [] | (o, outs) :: r => arrived o ++ ptr_arrived r end.
Fixpoint ptr_delivered (tr : list (pop * list pout)) : list pmsg :=
  match tr with [] => [] | (o, outs) :: r => delivered outs ++ ptr_delivered r end.
Fixpoint ptr_freed (tr : list (pop * list pout)) : list pmsg :=
  match tr with [] => [] | (o, outs) :: r => freed outs ++ ptr_freed r end.

Theorem pull_run_law ops : forall s, LInvP s ->
  let (s', tr) := pull_run s ops in
  LInvP s' /\ forall x, cnt x (lheld s ++ ptr_arrived tr) = cnt x (lheld s' ++ ptr_delivered tr ++ ptr_freed tr).
Proof.
  induction ops as [|o r IH]; intros s HI; cbn [pull_run].
  - split; [exact HI|]. intros x. cbn. now rewrite !app_nil_r.
  - destruct (pull_step s o) as [s1 outs] eqn:S.
    destruct (pull_step_law _ _ _ _ HI S) as (HI1 & L & _).
    specialize (IH s1 HI1). destruct (pull_run s1 r) as [s2 tr]. destruct IH as [A B].
    split; [exact A|]. intros x. cbn [ptr_arrived ptr_delivered ptr_freed].
    specialize (L x). specialize (B x). cnt_simp. lia.
Qed.
