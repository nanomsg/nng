(* KeyedList: lists of records found and updated by a key (SUB contexts, PUB pipes
   and BUS pipes, each by id).  The models' find_ctx/upd_ctx and find_pipe/upd_pipe unfold to
   findk/updk, so every lemma here applies to them as it stands. *)
From Coq Require Import List.
Import ListNotations.

Section Keyed.
  Context {A K : Type} (key : A -> K) (eqb : K -> K -> bool).
  Hypothesis eqb_eq : forall a b, eqb a b = true <-> a = b.

  Definition findk (k : K) (l : list A) : option A := find (fun x => eqb (key x) k) l.
  Definition updk (k : K) (f : A -> A) (l : list A) : list A := map (fun x => if eqb (key x) k then f x else x) l.
  Definition restk (k : K) (l : list A) : list A := filter (fun x => negb (eqb (key x) k)) l.

  Lemma eqb_refl k : eqb k k = true.
  Proof. now apply eqb_eq. Qed.
  Lemma eqb_neq a b : eqb a b = false <-> a <> b.
  Proof. rewrite <- eqb_eq. destruct (eqb a b); split; congruence. Qed.

  Lemma findk_some k l x : findk k l = Some x -> In x l /\ key x = k.
  Proof. intros H. apply find_some in H as [H1 H2]. split; auto. now apply eqb_eq. Qed.
  Lemma findk_none k l : findk k l = None -> ~ In k (map key l).
  Proof.
    intros H Hin. apply in_map_iff in Hin as (x & E & Hin).
    pose proof (find_none _ _ H x Hin) as F. cbn in F. rewrite E, eqb_refl in F. discriminate.
  Qed.
  Lemma findk_app k l1 l2 : findk k (l1 ++ l2) = match findk k l1 with Some x => Some x | None => findk k l2 end.
  Proof. unfold findk. induction l1 as [|x l1 IH]; cbn; [reflexivity|]. destruct (eqb (key x) k); auto. Qed.
  Lemma findk_map k f l : (forall x, key (f x) = key x) -> findk k (map f l) = option_map f (findk k l).
  Proof. intros Hf. unfold findk. induction l as [|x l IH]; cbn; [reflexivity|]. rewrite Hf. destruct (eqb (key x) k); auto. Qed.

  Lemma updk_keys k f l : (forall x, key (f x) = key x) -> map key (updk k f l) = map key l.
  Proof. intros Hf. unfold updk. rewrite map_map. apply map_ext. intros x. destruct (eqb (key x) k); auto. Qed.
  Lemma in_updk k f l y : In y (updk k f l) -> exists x, In x l /\ (y = x \/ (key x = k /\ y = f x)).
  Proof.
    intros H. apply in_map_iff in H as (x & E & Hin). exists x. split; auto.
    destruct (eqb (key x) k) eqn:F; [right|left]; auto. split; auto. now apply eqb_eq.
  Qed.
  (* an update is seen by a lookup of the same key and by no other *)
  Lemma findk_updk k k' f l : (forall x, key (f x) = key x) ->
    findk k' (updk k f l) = if eqb k' k then option_map f (findk k' l) else findk k' l.
  Proof.
    intros Hf. unfold updk. rewrite findk_map by (intros x; destruct (eqb (key x) k); auto).
    destruct (findk k' l) as [x|] eqn:F; [|now destruct (eqb k' k)].
    apply findk_some in F as [_ <-]. cbn. now destruct (eqb (key x) k).
  Qed.
  Lemma findk_restk k k' l : k' <> k -> findk k' (restk k l) = findk k' l.
  Proof.
    intros Hne. unfold findk, restk. induction l as [|x l IH]; cbn; [reflexivity|].
    destruct (eqb (key x) k) eqn:E; cbn; [|now rewrite IH].
    apply eqb_eq in E. subst k. apply not_eq_sym, eqb_neq in Hne. now rewrite Hne.
  Qed.
  Lemma restk_updk k f l : (forall x, key (f x) = key x) -> restk k (updk k f l) = restk k l.
  Proof.
    intros Hf. unfold restk, updk. induction l as [|x l IH]; cbn; [reflexivity|].
    destruct (eqb (key x) k) eqn:E; [rewrite Hf|]; rewrite E; cbn; now rewrite IH.
  Qed.

  Lemma updk_absent k f l : ~ In k (map key l) -> updk k f l = l /\ restk k l = l.
  Proof.
    unfold updk, restk. induction l as [|x l IH]; cbn; intros Hn; [auto|].
    destruct (eqb (key x) k) eqn:E; [apply eqb_eq in E; tauto|]. cbn. destruct IH as [-> ->]; tauto.
  Qed.
  (* with unique keys the record found is the only one its key touches *)
  Lemma findk_split k l x : NoDup (map key l) -> findk k l = Some x ->
    exists l1 l2, l = l1 ++ x :: l2 /\ (forall f, updk k f l = l1 ++ f x :: l2) /\ restk k l = l1 ++ l2.
  Proof.
    unfold findk. induction l as [|y l IH]; cbn [map find]; intros ND F; [discriminate|]. inversion ND; subst.
    destruct (eqb (key y) k) eqn:E.
    - inversion F; subst y. apply eqb_eq in E. subst k. exists [], l. unfold updk, restk. cbn. rewrite eqb_refl. cbn.
      repeat split; [intros f; f_equal|]; now apply updk_absent.
    - destruct (IH H2 F) as (l1 & l2 & -> & U & R). exists (y :: l1), l2. unfold updk, restk in *. cbn. rewrite E. cbn.
      rewrite R. repeat split; auto. intros f. now rewrite U.
  Qed.
  Lemma findk_in k l x : NoDup (map key l) -> In x l -> key x = k -> findk k l = Some x.
  Proof.
    intros ND Hin E. destruct (findk k l) as [y|] eqn:F.
    - destruct (findk_split _ _ _ ND F) as (l1 & l2 & -> & _ & R). f_equal.
      assert (X: ~ In x (restk k (l1 ++ y :: l2))). { intros X. apply filter_In in X as [_ X]. rewrite E, eqb_refl in X. discriminate. }
      rewrite R in X. apply in_app_or in Hin as [Hin|[Hin|Hin]]; auto; exfalso; apply X, in_or_app; auto.
    - exfalso. apply (findk_none _ _ F). rewrite <- E. now apply in_map.
  Qed.
  Lemma Forall_updk (P : A -> Prop) k f l x : NoDup (map key l) -> findk k l = Some x ->
    Forall P l -> (P x -> P (f x)) -> Forall P (updk k f l).
  Proof.
    intros ND F H Hf. destruct (findk_split _ _ _ ND F) as (l1 & l2 & -> & U & _). rewrite U.
    apply Forall_app in H as [H1 H2]. inversion H2; subst. apply Forall_app. split; auto.
  Qed.
End Keyed.
