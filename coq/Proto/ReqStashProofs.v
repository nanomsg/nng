(* ReqStashProofs: REQ (cooked) -- a stashed reply survives the loss of its
   connection (C12, the no-retry case), over ALL reachable states.

   ReqProofs.req_stashed_reply_survives_repaired_w shows one history.  Here:
   with the repaired req0_recv_cb (fx_stash = true) every reachable state obeys

     stash_inv:  a context that holds a reply holds no request;
                 every context on some pipe's `contexts` list holds a request;
                 every context on the send queue holds a request.

   Hence a context holding a stashed reply is on no pipe's list and not on the
   send queue; req0_pipe_close walks only the lost pipe's list and
   req0_run_send_queue only the send queue, so neither touches that context: the
   reply, conn_reset and recv_aio are exactly what they were, and the next
   receive delivers the reply.  No assumption on the resend time is needed (the
   statement covers resending disabled, where the pinned code throws the reply
   away and reports NNG_ECONNRESET). *)
From Coq Require Import List NArith Bool ZArith.
From NngV Require Import Proto.Common Proto.ReqRepBacktrace Proto.ReqModel Proto.ReqRepProofs Proto.ReqProofs Proto.ReqIdsProofs.
Import ListNotations.

(* the contexts and the two lists stash_inv reads, projected through the setters *)
Ltac proj_lists := cbn [rq_ctxs rq_plist rq_sendq set_ctxs set_plist set_sendq ctx_put].
Ltac proj_lists_in H := cbn [rq_ctxs rq_plist rq_sendq set_ctxs set_plist set_sendq ctx_put] in H.

Definition has_req (s : req) (k : N) : Prop := exists c m, ctx_get s k = Some c /\ cx_req c = Some m.
Definition rep_excl (c : rctx) : Prop := cx_rep c <> None -> cx_req c = None.
Lemma rep_excl_none c : cx_rep c = None -> rep_excl c.
Proof. intros E H. congruence. Qed.

Record stash_inv (s : req) : Prop := mkStash {
  st_rep : forall k c, ctx_get s k = Some c -> rep_excl c;
  st_plist : forall p k, In (p, k) (rq_plist s) -> has_req s k;
  st_sendq : forall k, In k (rq_sendq s) -> has_req s k }.

(* context k is on no pipe's list and not on the send queue *)
Definition off (s : req) (k : N) : Prop := ~ In k (rq_sendq s) /\ (forall p, ~ In (p, k) (rq_plist s)).

Lemma ctx_get_ext s s' : rq_ctxs s' = rq_ctxs s -> forall k, ctx_get s' k = ctx_get s k.
Proof. intros E k. unfold ctx_get. now rewrite E. Qed.

Lemma has_req_ext s s' k : rq_ctxs s' = rq_ctxs s -> has_req s k -> has_req s' k.
Proof. intros E [c [m [H1 H2]]]. exists c, m. rewrite (ctx_get_ext _ _ E). auto. Qed.

Lemma off_ext s s' k : rq_sendq s' = rq_sendq s -> rq_plist s' = rq_plist s -> off s k -> off s' k.
Proof. unfold off. intros -> ->. auto. Qed.

Lemma no_req_off s k : stash_inv s -> ~ has_req s k -> off s k.
Proof. intros I N. split; [|intros p]; intros Hin; apply N; [eapply st_sendq|eapply st_plist]; eauto. Qed.
Lemma inv_off s k c : stash_inv s -> ctx_get s k = Some c -> cx_req c = None -> off s k.
Proof. intros I P RN. apply (no_req_off s k I). intros (c' & m & H1 & H2). congruence. Qed.
Lemma inv_off_none s k : stash_inv s -> ctx_get s k = None -> off s k.
Proof. intros I P. apply (no_req_off s k I). intros (c' & m & H1 & H2). congruence. Qed.

(* same contexts; the lists shrink, or gain contexts that hold a request *)
Lemma stash_lists s s' :
  stash_inv s -> rq_ctxs s' = rq_ctxs s ->
  (forall p k, In (p, k) (rq_plist s') -> In (p, k) (rq_plist s) \/ has_req s k) ->
  (forall k, In k (rq_sendq s') -> In k (rq_sendq s) \/ has_req s k) ->
  stash_inv s'.
Proof.
  intros I E HP HQ. constructor.
  - intros k c H. rewrite (ctx_get_ext _ _ E) in H. eapply st_rep; eauto.
  - intros p k Hin. apply (has_req_ext s s' k E). destruct (HP p k Hin) as [H|H]; [eapply st_plist; eauto|exact H].
  - intros k Hin. apply (has_req_ext s s' k E). destruct (HQ k Hin) as [H|H]; [eapply st_sendq; eauto|exact H].
Qed.

Lemma stash_put t s' k c' :
  stash_inv t -> rq_ctxs s' = assoc_set k c' (rq_ctxs t) -> rq_plist s' = rq_plist t -> rq_sendq s' = rq_sendq t ->
  rep_excl c' -> (cx_req c' = None -> off t k) -> stash_inv s'.
Proof.
  intros I E1 E2 E3 RX OFF.
  assert (G1 : ctx_get s' k = Some c') by (unfold ctx_get; rewrite E1; apply lookup_assoc_set_same).
  assert (G2 : forall k', k' <> k -> ctx_get s' k' = ctx_get t k')
    by (intros k' Hne; unfold ctx_get; rewrite E1; now apply lookup_assoc_set_other).
  assert (HR : forall k', has_req t k' -> (k' = k -> off t k -> False) -> has_req s' k').
  { intros k' [c [m [H1 H2]]] Hk. destruct (N.eq_dec k' k) as [->|Hne].
    - destruct (cx_req c') as [m'|] eqn:Er; [exists c', m'; auto|]. exfalso. apply Hk; auto.
    - exists c, m. rewrite G2 by exact Hne. auto. }
  constructor.
  - intros k0 c0 H. destruct (N.eq_dec k0 k) as [->|Hne].
    + rewrite G1 in H. inversion H; subst. exact RX.
    + rewrite G2 in H by exact Hne. eapply st_rep; eauto.
  - intros p k0 Hin. rewrite E2 in Hin. apply HR; [eapply st_plist; eauto|].
    intros -> [_ O]. exact (O p Hin).
  - intros k0 Hin. rewrite E3 in Hin. apply HR; [eapply st_sendq; eauto|].
    intros -> [O _]. exact (O Hin).
Qed.

(* context k is written, keeping its request and keeping or dropping its reply *)
Lemma stash_put_same s s' k c c' :
  stash_inv s -> ctx_get s k = Some c ->
  rq_ctxs s' = assoc_set k c' (rq_ctxs s) -> rq_plist s' = rq_plist s -> rq_sendq s' = rq_sendq s ->
  cx_req c' = cx_req c -> (cx_rep c' = cx_rep c \/ cx_rep c' = None) -> stash_inv s'.
Proof.
  intros I P E1 E2 E3 Q1 Q2. apply (stash_put s s' k c' I E1 E2 E3).
  - intros Hr. rewrite Q1. apply (st_rep s I k c P). destruct Q2 as [Q2|Q2]; congruence.
  - intros Hn. apply (inv_off s k c I P). congruence.
Qed.

(* context k is written with a request and goes to the tail of the send queue *)
Lemma stash_put_enq t s' k c3 m :
  stash_inv t -> rq_ctxs s' = assoc_set k c3 (rq_ctxs t) -> rq_plist s' = rq_plist t -> rq_sendq s' = rq_sendq t ++ [k] ->
  rep_excl c3 -> cx_req c3 = Some m -> stash_inv s'.
Proof.
  intros I E1 E2 E3 RX RQ.
  assert (I1 : stash_inv (ctx_put t k c3)).
  { apply (stash_put t (ctx_put t k c3) k c3 I); try reflexivity; [exact RX|]. intros Hn. congruence. }
  apply (stash_lists (ctx_put t k c3) s' I1).
  - exact E1.
  - intros p k0 Hin. left. rewrite E2 in Hin. exact Hin.
  - intros k0 Hin. rewrite E3 in Hin. apply in_app_or in Hin. destruct Hin as [Hin|[<-|[]]]; [left; exact Hin|].
    right. exists c3, m. rewrite ctx_get_put_same. auto.
Qed.

Lemma stash_del s k : stash_inv s -> off s k -> stash_inv (set_ctxs s (assoc_del k (rq_ctxs s))).
Proof.
  intros I [O1 O2].
  assert (G : forall k', k' <> k -> ctx_get (set_ctxs s (assoc_del k (rq_ctxs s))) k' = ctx_get s k').
  { intros k' Hne. unfold ctx_get. proj_lists. now apply lookup_assoc_del_other. }
  constructor.
  - intros k0 c0 H. unfold ctx_get in H. proj_lists_in H. apply lookup_assoc_del_some in H. destruct H as [_ H].
    eapply st_rep; eauto.
  - intros p k0 Hin. proj_lists_in Hin. destruct (st_plist s I p k0 Hin) as [c [m [H1 H2]]].
    exists c, m. rewrite G; [auto|]. intros ->. exact (O2 p Hin).
  - intros k0 Hin. proj_lists_in Hin. destruct (st_sendq s I k0 Hin) as [c [m [H1 H2]]].
    exists c, m. rewrite G; [auto|]. intros ->. exact (O1 Hin).
Qed.

Lemma stash_open s k c : stash_inv s -> ctx_get s k = None -> rep_excl c ->
  stash_inv (set_ctxs s (rq_ctxs s ++ [(k, c)])).
Proof.
  intros I P RX.
  assert (G : forall k' c', ctx_get s k' = Some c' -> ctx_get (set_ctxs s (rq_ctxs s ++ [(k, c)])) k' = Some c').
  { intros k' c' H. unfold ctx_get in *. proj_lists. now apply lookup_app_some. }
  assert (HR : forall k', has_req s k' -> has_req (set_ctxs s (rq_ctxs s ++ [(k, c)])) k').
  { intros k' [c' [m [H1 H2]]]. exists c', m. split; [now apply G|exact H2]. }
  constructor.
  - intros k0 c0 H. unfold ctx_get in H. proj_lists_in H.
    destruct (lookup k0 (rq_ctxs s)) as [c1|] eqn:L0.
    + erewrite lookup_app_some in H by exact L0. inversion H; subst c1. eapply st_rep; eauto.
    + rewrite lookup_app_none in H by exact L0. cbn in H.
      destruct (k =? k0)%N; [|discriminate]. inversion H; subst c0. exact RX.
  - intros p k0 Hin. proj_lists_in Hin. apply HR. eapply st_plist; eauto.
  - intros k0 Hin. proj_lists_in Hin. apply HR. eapply st_sendq; eauto.
Qed.

(* req0_ctx_reset: k leaves both lists *)
Lemma off_after_reset s2 s k :
  rq_sendq s2 = remove_id k (rq_sendq s) -> rq_plist s2 = plist_del k (rq_plist s) -> off s2 k.
Proof.
  intros E1 E2. split.
  - rewrite E1. intros Hin. apply in_remove_id in Hin. destruct Hin as [_ Hne]. now apply Hne.
  - intros p. rewrite E2. intros Hin. apply in_plist_del in Hin. destruct Hin as [_ Hne]. now apply Hne.
Qed.

Lemma reset_stash fx s k c s2 c2 o :
  stash_inv s -> ctx_reset fx s k c = (s2, c2, o) ->
  stash_inv s2 /\ off s2 k /\ cx_req c2 = None /\ cx_rep c2 = None.
Proof.
  intros I H. apply ctx_reset_spec in H as (-> & F1 & _ & _ & F2 & F3).
  split; [|split; [eapply off_after_reset; eauto|auto]].
  apply (stash_lists s s2 I F1).
  - intros p k0 Hin. left. rewrite F3 in Hin. apply in_plist_del in Hin. tauto.
  - intros k0 Hin. left. rewrite F2 in Hin. apply in_remove_id in Hin. tauto.
Qed.

(* reset, then write the reset context back (possibly with other flags) *)
Lemma reset_put_stash fx s k c s2 c2 o s' c3 :
  stash_inv s -> ctx_reset fx s k c = (s2, c2, o) ->
  rq_ctxs s' = assoc_set k c3 (rq_ctxs s2) -> rq_plist s' = rq_plist s2 -> rq_sendq s' = rq_sendq s2 ->
  cx_rep c3 = cx_rep c2 -> stash_inv s'.
Proof.
  intros I H E1 E2 E3 Q. destruct (reset_stash _ _ _ _ _ _ _ I H) as [I2 [O [RN PN]]].
  apply (stash_put s2 s' k c3 I2 E1 E2 E3); [apply rep_excl_none; congruence|intros _; exact O].
Qed.

Lemma run_sendq_stash fx f s s' outs cl : stash_inv s -> run_sendq fx f s = (s', outs, cl) -> stash_inv s'.
Proof.
  intros I H. revert I. apply (run_sendq_rule fx (fun s s' _ => stash_inv s -> stash_inv s')) with (4 := H); clear.
  - auto.
  - intros s k sq s' _ Esq _ IH I. apply IH. apply (stash_lists s _ I); [reflexivity|intros; left; assumption|].
    intros k0 Hin. left. rewrite Esq. now right.
  - intros s k sq p rd c m t s' _ Esq _ Ec Em F1 F2 F3 _ _ IH I. apply IH.
    assert (I3 : stash_inv (set_plist (set_sendq s sq) (plist_del k (rq_plist s) ++ [(p, k)]))).
    { apply (stash_lists s _ I); [reflexivity| |].
      - intros p0 k0 Hin. apply in_app_or in Hin. destruct Hin as [Hin|[E|[]]].
        + left. apply in_plist_del in Hin. tauto.
        + inversion E; subst. right. exists c, m. auto.
      - intros k0 Hin. left. rewrite Esq. now right. }
    apply (stash_put _ _ k (sent_ctx fx c) I3 F1 F3 F2).
    + intros Hr. apply (st_rep s I k c Ec Hr).
    + cbn. intros Hn. congruence.
Qed.

Lemma run_send_queue_stash fx s s' outs cl : stash_inv s -> run_send_queue fx s = (s', outs, cl) -> stash_inv s'.
Proof. apply run_sendq_stash. Qed.

Lemma sendq_shrink s k : stash_inv s -> stash_inv (set_sendq s (remove_id k (rq_sendq s))).
Proof.
  intros I. apply (stash_lists s _ I); [reflexivity|intros; left; assumption|].
  intros k0 Hin. left. proj_lists_in Hin. apply in_remove_id in Hin. tauto.
Qed.

Lemma reset_flow_stash fx s k c s2 c2 outs : stash_inv s -> reset_flow fx s k c s2 c2 outs ->
  stash_inv s2 /\ off s2 k /\ cx_req c2 = None /\ cx_rep c2 = None.
Proof.
  intros I (s1 & c1 & o2 & S1 & _ & ER & _). eapply reset_stash; [|exact ER].
  destruct S1 as [->| ->]; [exact I|now apply sendq_shrink].
Qed.
(* ... and the reset context written back *)
Lemma reset_flow_put_stash fx s k c s2 c2 outs : stash_inv s -> reset_flow fx s k c s2 c2 outs -> stash_inv (ctx_put s2 k c2).
Proof.
  intros I F. destruct (reset_flow_stash _ _ _ _ _ _ _ I F) as (I2 & O & RN & PN).
  apply (stash_put s2 _ k c2 I2); try reflexivity; [now apply rep_excl_none|intros _; exact O].
Qed.

Lemma pcl_body_stash fx s0 k c s1 o1 cl1 :
  stash_inv s0 -> ctx_get s0 k = Some c -> pcl_body fx s0 k c = (s1, o1, cl1) -> stash_inv s1.
Proof.
  intros I P H. unfold pcl_body in H. destruct (negb (retry_on fx c)).
  - destruct (cx_recv c) as [ra|];
    match type of H with context [ctx_reset fx ?S k ?C] => destruct (ctx_reset fx S k C) as [[s2 c2] o2] eqn:ER end;
    inversion H; subst; (eapply reset_put_stash; [exact I|exact ER|reflexivity..]).
  - destruct (cx_req c) as [r|] eqn:Er.
    2:{ inversion H; subst. exact I. }
    cbv zeta in H.
    match type of H with context [ctx_put s0 k ?C] =>
      assert (I1 : stash_inv (ctx_put s0 k C)) by (eapply (stash_put_same _ _ _ _ _ I P); [reflexivity..|cxs; congruence|left; reflexivity]) end.
    match type of H with context [if ?b then _ else _] => destruct b end.
    + inversion H; subst. exact I1.
    + eapply run_send_queue_stash; [|exact H].
      apply (stash_lists _ _ I1); [reflexivity|intros; left; assumption|].
      intros k0 Hin. proj_lists_in Hin. apply in_app_or in Hin. destruct Hin as [Hin|[<-|[]]]; [left; exact Hin|].
      right. eexists _, r. rewrite ctx_get_put_same. split; reflexivity.
Qed.

Lemma plist_shrink s k : stash_inv s -> stash_inv (set_plist s (plist_del k (rq_plist s))).
Proof.
  intros I. apply (stash_lists s _ I); [reflexivity| |intros; left; assumption].
  intros p k0 Hin. left. proj_lists_in Hin. apply in_plist_del in Hin. tauto.
Qed.

Lemma pcl_stash fx p : forall f s s' outs cl,
  stash_inv s -> pipe_close_loop fx f s p = (s', outs, cl) -> stash_inv s'.
Proof.
  induction f as [|f IH]; intros s s' outs cl I H.
  { cbn in H. inversion H; subst. exact I. }
  rewrite pcl_unfold in H. destruct (first_on p (rq_plist s)) as [k|].
  2:{ inversion H; subst. exact I. }
  cbv zeta in H.
  pose proof (plist_shrink s k I) as I0.
  destruct (ctx_get (set_plist s (plist_del k (rq_plist s))) k) as [c|] eqn:P.
  2:{ eapply IH; eauto. }
  destruct (pcl_body fx (set_plist s (plist_del k (rq_plist s))) k c) as [[s1 o1] cl1] eqn:EB.
  destruct (pipe_close_loop fx f s1 p) as [[s2 o2] cl2] eqn:EL.
  inversion H; subst.
  eapply IH; [|exact EL]. eapply pcl_body_stash; eauto.
Qed.

Lemma req_ctx_send_stash fx s k c a nb m s' outs cl :
  stash_inv s -> req_ctx_send fx s k c a nb m = (s', outs, cl) -> stash_inv s'.
Proof.
  intros I H. destruct (rq_closed s) eqn:Hc. { unfold req_ctx_send in H. rewrite Hc in H. inversion H; subst. exact I. }
  destruct (req_ctx_send_cases _ _ _ _ _ _ _ _ _ _ Hc H) as (s1 & c1 & o2 & s2 & c2 & o3 & S1 & _ & _ & E3 & tl & _ & C).
  assert (I1 : stash_inv s1) by (destruct S1 as [->| ->]; [exact I|now apply sendq_shrink]).
  destruct (reset_stash _ _ _ _ _ _ _ I1 E3) as [I2 [O2 [RN PN]]].
  destruct C as [[-> _]|[(id & cur' & c3 & _ & -> & _ & _ & P3)
                        |(id & cur' & c3 & s6 & o4 & o5 & _ & E7 & _ & Q1 & _ & R3 & P3 & _ & _ & Q4 & Q5 & _)]].
  - apply (stash_put s2 _ k c2 I2); try reflexivity; [now apply rep_excl_none|intros _; exact O2].
  - apply (stash_put s2 _ k c3 I2); try reflexivity; [now apply rep_excl_none|intros _; exact O2].
  - eapply run_send_queue_stash; [|exact E7]. apply (stash_put_enq s2 s6 k c3 (req_send id m) I2 Q1 Q4 Q5); [now apply rep_excl_none|exact R3].
Qed.

(* req0_recv_cb: the repaired code takes the matched context off its pipe's list *)
Lemma req_recvdone_stash_inv fx s p m s' outs cl :
  fx_stash fx = true -> stash_inv s -> req_stepL fx s (PRecvDone p 0 m) = (s', outs, cl) -> stash_inv s'.
Proof.
  intros FX I H.
  destruct (recvdone_outcomes fx s p m) as [[_ E]|[(id & m' & _ & _ & E)|(id & m' & k & c & _ & _ & E)]]; rewrite E in H.
  1,2: inversion H; subst; exact I.
  unfold match_base in H. rewrite FX in H.
  assert (I1 : stash_inv (set_plist (set_sendq s (remove_id k (rq_sendq s))) (plist_del k (rq_plist s)))).
  { apply plist_shrink with (s := set_sendq s (remove_id k (rq_sendq s))). now apply sendq_shrink. }
  assert (O1 : off (set_plist (set_sendq s (remove_id k (rq_sendq s))) (plist_del k (rq_plist s))) k)
    by (eapply off_after_reset; reflexivity).
  destruct (cx_recv c) as [ra|]; inversion H; subst; clear H.
  - eapply (stash_put _ _ k _ I1); [reflexivity|reflexivity|reflexivity|apply rep_excl_none; reflexivity|intros _; exact O1].
  - destruct (k =? 0)%N;
    (eapply (stash_put _ _ k _ I1); [reflexivity|reflexivity|reflexivity|intros _; reflexivity|intros _; exact O1]).
Qed.

Lemma core_le_stash s s1 : core_le s s1 -> stash_inv s -> stash_inv s1.
Proof. intros (A & _ & _ & B & C) I. exact (stash_lists s s1 I A (fun p k H => or_introl (B p k H)) C). Qed.

Lemma stash_stepL fx s o s' outs cl :
  fx_stash fx = true -> stash_inv s -> op_ok s o -> req_stepL fx s o = (s', outs, cl) -> stash_inv s'.
Proof.
  intros FX I OK H.
  destruct (req_stepL_parts _ _ _ _ _ _ OK H) as [C T|k c a nb m cl' P E|f k c s2 c2 F E ->
    |s1 o2 cl' C E T|s1 f p cl' C E|p m cl' E|k c c' P C _ R2 R3 T|k c P _ R3 -> ->|k c s1 c1 P E ->|s0 c s2 c2 C P E ->].
  - exact (core_le_stash _ _ C I).
  - eapply req_ctx_send_stash; eauto.
  - eapply reset_flow_put_stash; eauto.
  - eapply run_send_queue_stash; [exact (core_le_stash _ _ C I)|exact E].
  - eapply pcl_stash; [exact (core_le_stash _ _ C I)|exact E].
  - eapply req_recvdone_stash_inv; eauto.
  - apply (core_le_stash _ _ C). eapply (stash_put_same _ _ _ _ _ I P); [reflexivity..|exact R2|exact R3].
  - apply stash_open; [exact I|exact P|now apply rep_excl_none].
  - destruct (reset_flow_stash _ _ _ _ _ _ _ I E) as [I1 [O1 _]]. now apply stash_del.
  - exact (reset_flow_put_stash _ _ _ _ _ _ _ (core_le_stash _ _ C I) E).
Qed.

Lemma stash_step fx s o s' outs :
  fx_stash fx = true -> stash_inv s -> op_ok s o -> req_step fx s o = (s', outs) -> stash_inv s'.
Proof.
  intros FX I OK H. unfold req_step in H. destruct (req_stepL fx s o) as [[s1 o1] cl] eqn:E.
  inversion H; subst. eapply stash_stepL; eauto.
Qed.

Lemma stash_inv_init : stash_inv req_init.
Proof.
  constructor.
  - intros k c H. unfold ctx_get in H. destruct k; cbn in H; [|discriminate].
    inversion H; subst. apply rep_excl_none. reflexivity.
  - intros p k [].
  - intros k [].
Qed.

Lemma reach_stash fx s : fx_stash fx = true -> req_reach fx s -> stash_inv s.
Proof.
  intros FX R. induction R as [|s o R IH OK]; [apply stash_inv_init|].
  destruct (req_step fx s o) as [s' outs] eqn:E. cbn [fst].
  eapply stash_step; eauto.
Qed.

(* a context that is on no pipe's list and not on the send queue is not
   touched by req0_run_send_queue nor by req0_pipe_close, and stays off both *)
Lemma run_sendq_frame fx k f s s' outs cl : off s k -> run_sendq fx f s = (s', outs, cl) ->
  off s' k /\ ctx_get s' k = ctx_get s k.
Proof.
  intros O H. revert O.
  apply (run_sendq_rule fx (fun s s' _ => off s k -> off s' k /\ ctx_get s' k = ctx_get s k)) with (4 := H); clear.
  - auto.
  - intros s k0 sq s' _ Esq _ IH [O1 O2]. apply IH. split; [|exact O2]. intros Hin. apply O1. rewrite Esq. now right.
  - intros s k0 sq p rd c m t s' _ Esq _ _ _ F1 F2 F3 _ _ IH [O1 O2].
    assert (Hne : k <> k0) by (intros ->; apply O1; rewrite Esq; now left).
    destruct IH as [A B].
    + split; [rewrite F2; intros Hin; apply O1; rewrite Esq; now right|]. intros p0. rewrite F3. intros Hin.
      apply in_app_or in Hin as [Hin|[E|[]]]; [apply in_plist_del in Hin; exact (O2 p0 (proj1 Hin))|congruence].
    + split; [exact A|]. rewrite B. unfold ctx_get. rewrite F1. now apply lookup_assoc_set_other.
Qed.
Lemma pcl_body_frame fx s0 k0 c k s1 o1 cl1 :
  k0 <> k -> off s0 k -> pcl_body fx s0 k0 c = (s1, o1, cl1) -> off s1 k /\ ctx_get s1 k = ctx_get s0 k.
Proof.
  intros Hne [O1 O2] H. assert (Hne' : k <> k0) by (intros E; apply Hne; now symmetry).
  unfold pcl_body in H. destruct (negb (retry_on fx c)).
  - destruct (cx_recv c) as [ra|];
    match type of H with context [ctx_reset fx ?S k0 ?C] => destruct (ctx_reset fx S k0 C) as [[s2 c2] o2] eqn:ER end;
    inversion H; subst; apply ctx_reset_spec in ER as (_ & F1 & _ & _ & F2 & F3);
    (split;
     [split;
      [proj_lists; rewrite F2; intros Hin; apply in_remove_id in Hin; exact (O1 (proj1 Hin))
      |intros p0; proj_lists; rewrite F3; intros Hin; apply in_plist_del in Hin; exact (O2 p0 (proj1 Hin))]
     |rewrite ctx_get_put_other by exact Hne'; apply ctx_get_ext; exact F1]).
  - destruct (cx_req c) as [r|] eqn:Er.
    2:{ inversion H; subst. split; [split; assumption|reflexivity]. }
    cbv zeta in H.
    match type of H with context [if ?b then _ else _] => destruct b end.
    + inversion H; subst. split; [split; [exact O1|exact O2]|]. now apply ctx_get_put_other.
    + unfold run_send_queue in H.
      match type of H with run_sendq fx _ ?X = _ => assert (OX : off X k /\ ctx_get X k = ctx_get s0 k) end.
      { split; [split|].
        - proj_lists. intros Hin. apply in_app_or in Hin. destruct Hin as [Hin|[E|[]]]; [exact (O1 Hin)|exact (Hne E)].
        - intros p0. proj_lists. exact (O2 p0).
        - unfold ctx_get. proj_lists. now apply lookup_assoc_set_other. }
      destruct OX as [OX GX]. destruct (run_sendq_frame _ _ _ _ _ _ _ OX H) as [A B]. split; [exact A|congruence].
Qed.

Lemma pcl_frame fx p k : forall f s s' outs cl, off s k -> pipe_close_loop fx f s p = (s', outs, cl) ->
  off s' k /\ ctx_get s' k = ctx_get s k.
Proof.
  induction f as [|f IH]; intros s s' outs cl O H.
  { cbn in H. inversion H; subst. auto. }
  rewrite pcl_unfold in H. destruct (first_on p (rq_plist s)) as [k0|] eqn:EF.
  2:{ inversion H; subst. auto. }
  cbv zeta in H.
  assert (Hne : k0 <> k). { intros ->. apply first_on_in in EF. exact (proj2 O p EF). }
  assert (O0 : off (set_plist s (plist_del k0 (rq_plist s))) k).
  { split; [exact (proj1 O)|]. intros p0. proj_lists. intros Hin. apply in_plist_del in Hin. exact (proj2 O p0 (proj1 Hin)). }
  destruct (ctx_get (set_plist s (plist_del k0 (rq_plist s))) k0) as [c|] eqn:P.
  2:{ destruct (IH _ _ _ _ O0 H) as [A B]. split; [exact A|]. rewrite B. reflexivity. }
  destruct (pcl_body fx (set_plist s (plist_del k0 (rq_plist s))) k0 c) as [[s1 o1] cl1] eqn:EB.
  destruct (pipe_close_loop fx f s1 p) as [[s2 o2] cl2] eqn:EL.
  inversion H; subst.
  destruct (pcl_body_frame _ _ _ _ _ _ _ _ Hne O0 EB) as [O1 G1].
  destruct (IH _ _ _ _ O1 EL) as [A B]. split; [exact A|]. rewrite B, G1. reflexivity.
Qed.

Lemma pipe_close_frame fx s p k s' outs :
  off s k -> req_step fx s (PPipeClose p) = (s', outs) -> off s' k /\ ctx_get s' k = ctx_get s k.
Proof.
  intros [O1 O2] H. unfold req_step in H. rewrite req_pipe_close_unfold in H.
  destruct (pipe_close_loop fx (length (rq_plist (pc_start s p))) (pc_start s p) p) as [[s1 o1] cl1] eqn:E.
  inversion H; subst.
  assert (O : off (pc_start s p) k).
  { split; [rewrite pc_start_sendq; exact O1|]. intros p0. rewrite pc_start_plist. exact (O2 p0). }
  destruct (pcl_frame _ _ _ _ _ _ _ _ O E) as [A B]. split; [exact A|]. rewrite B. apply pc_start_ctx.
Qed.

(* in a reachable state a context holding a reply is on no pipe's list and not on
   the send queue (and holds no request) *)
Lemma req_stashed_off fx s k c m :
  fx_stash fx = true -> req_reach fx s -> ctx_get s k = Some c -> cx_rep c = Some m ->
  cx_req c = None /\ off s k.
Proof.
  intros FX R P E. pose proof (reach_stash fx s FX R) as I.
  assert (RN : cx_req c = None) by (apply (st_rep s I k c P); congruence).
  split; [exact RN|]. exact (inv_off s k c I P RN).
Qed.

(* the loss of any connection leaves the whole context as it was *)
Theorem req_stashed_ctx_untouched_by_pipe_loss : forall fx s k c m p s' outs,
  fx_stash fx = true -> req_reach fx s -> ctx_get s k = Some c -> cx_rep c = Some m ->
  req_step fx s (PPipeClose p) = (s', outs) ->
  ctx_get s' k = Some c.
Proof.
  intros fx s k c m p s' outs FX R P E H.
  destruct (req_stashed_off fx s k c m FX R P E) as [_ O].
  destruct (pipe_close_frame fx s p k s' outs O H) as [_ G]. now rewrite G.
Qed.

Theorem req_stashed_reply_survives_pipe_loss : forall fx s k c m p s' outs,
  fx_stash fx = true -> req_reach fx s -> ctx_get s k = Some c -> cx_rep c = Some m ->
  req_step fx s (PPipeClose p) = (s', outs) ->
  exists c', ctx_get s' k = Some c' /\ cx_rep c' = Some m /\ cx_creset c' = cx_creset c /\ cx_recv c' = cx_recv c.
Proof.
  intros fx s k c m p s' outs FX R P E H. exists c.
  split; [eapply req_stashed_ctx_untouched_by_pipe_loss; eauto|]. auto.
Qed.

(* ... and the next receive on that context delivers the reply *)
Theorem req_stashed_reply_delivered_after_pipe_loss : forall fx s k c m p s' outs,
  fx_stash fx = true -> req_reach fx s -> ctx_get s k = Some c -> cx_rep c = Some m -> cx_recv c = None ->
  req_step fx s (PPipeClose p) = (s', outs) ->
  forall co a nb, ckey co = k ->
  exists s'', req_step fx s' (PRecv co a nb) = (s'', [Complete a E_OK (Some m)]).
Proof.
  intros fx s k c m p s' outs FX R P E RV H co a nb Hk.
  pose proof (req_stashed_ctx_untouched_by_pipe_loss fx s k c m p s' outs FX R P E H) as G.
  unfold req_step, req_stepL. rewrite Hk, G. unfold req_ctx_recv. rewrite RV, E. cbn [orb andb].
  destruct (cx_req c); cbn [orb andb]; eexists; reflexivity.
Qed.

(* the same, on the model's req0_ctx_recv directly *)
Corollary req_stashed_reply_recv_after_pipe_loss : forall fx s k c m p s' outs,
  fx_stash fx = true -> req_reach fx s -> ctx_get s k = Some c -> cx_rep c = Some m -> cx_recv c = None ->
  req_step fx s (PPipeClose p) = (s', outs) ->
  forall a nb, ctx_get s' k = Some c /\ snd (req_ctx_recv s' k c a nb) = [Complete a E_OK (Some m)].
Proof.
  intros fx s k c m p s' outs FX R P E RV H a nb.
  split; [eapply req_stashed_ctx_untouched_by_pipe_loss; eauto|].
  unfold req_ctx_recv. rewrite RV, E. destruct (cx_req c); reflexivity.
Qed.

Lemma reach_run fx : forall ops s, req_reach fx s -> (forall o k, In o ops -> o <> PCtxOpen k) ->
  req_reach fx (fst (req_run fx s ops)).
Proof.
  induction ops as [|o r IH]; intros s R NO; cbn [req_run]; [exact R|].
  destruct (req_stepL fx s o) as [[s1 o1] cl] eqn:E.
  assert (R1 : req_reach fx s1).
  { replace s1 with (fst (req_step fx s o)) by (unfold req_step; rewrite E; reflexivity).
    apply reach_step; [exact R|]. destruct o; cbn; trivial. exfalso. eapply NO; [now left|reflexivity]. }
  specialize (IH s1 R1). destruct (req_run fx s1 r) as [s2 tr]. cbn [fst] in *.
  apply IH. intros o' k Hin. apply NO. now right.
Qed.

Definition w_stash_pre : list pop := firstn 5 w_stash.   (* up to and including the reply *)
Definition w_stashed : req := fst (req_run fx_repaired req_init w_stash_pre).
Definition w_stashed_ctx : rctx :=
  mkRctx 0 None None None (Some (mkPmsg [] [187%N])) (-1) (-1) 0 false false.

(* the hypotheses are satisfiable: resending disabled, the reply arrives before
   the application asks for it and is stashed, then the connection is lost *)
Example req_stashed_hypotheses_w :
  fx_stash fx_repaired = true /\ req_reach fx_repaired w_stashed /\
  ctx_get w_stashed 0%N = Some w_stashed_ctx /\
  cx_rep w_stashed_ctx = Some (mkPmsg [] [187%N]) /\ cx_recv w_stashed_ctx = None /\
  retry_on fx_repaired w_stashed_ctx = false /\ ckey None = 0%N /\
  (* ... and what the theorems then say about this history *)
  (let s' := fst (req_step fx_repaired w_stashed (PPipeClose 1%N)) in
   ctx_get s' 0%N = Some w_stashed_ctx /\
   snd (req_step fx_repaired s' (PRecv None 9%N true)) = [Complete 9%N E_OK (Some (mkPmsg [] [187%N]))]).
Proof.
  split; [reflexivity|]. split.
  - apply reach_run; [apply reach_init|]. intros o k Hin. vm_compute in Hin.
    repeat (destruct Hin as [<-|Hin]; [discriminate|]). contradiction.
  - vm_compute. repeat split.
Qed.

Example req_stashed_instance_w : forall a nb,
  exists s'', req_step fx_repaired (fst (req_step fx_repaired w_stashed (PPipeClose 1%N))) (PRecv None a nb)
              = (s'', [Complete a E_OK (Some (mkPmsg [] [187%N]))]).
Proof.
  intros a nb. destruct req_stashed_hypotheses_w as [FX [R [P [E [RV _]]]]].
  destruct (req_step fx_repaired w_stashed (PPipeClose 1%N)) as [s' outs] eqn:H. cbn [fst].
  exact (req_stashed_reply_delivered_after_pipe_loss _ _ _ _ _ _ _ _ FX R P E RV H None a nb eq_refl).
Qed.

(* fx_stash is needed: in the pinned code the same history reaches a state that
   violates stash_inv (the answered context stays on its pipe's list), and the
   pipe's loss then throws the reply away (ReqProofs.req_stashed_reply_survives_refuted_w) *)
Example req_stash_inv_refuted_pinned_w :
  req_reach fx_pinned (fst (req_run fx_pinned req_init w_stash_pre)) /\
  ~ stash_inv (fst (req_run fx_pinned req_init w_stash_pre)).
Proof.
  split.
  - apply reach_run; [apply reach_init|]. intros o k Hin. vm_compute in Hin.
    repeat (destruct Hin as [<-|Hin]; [discriminate|]). contradiction.
  - intros I. assert (Hin : In (1%N, 0%N) (rq_plist (fst (req_run fx_pinned req_init w_stash_pre)))) by (vm_compute; now left).
    destruct (st_plist _ I _ _ Hin) as [c [m [H1 H2]]]. vm_compute in H1. inversion H1; subst. discriminate.
Qed.

Print Assumptions stash_step.
Print Assumptions reach_stash.
Print Assumptions req_stashed_ctx_untouched_by_pipe_loss.
Print Assumptions req_stashed_reply_survives_pipe_loss.
Print Assumptions req_stashed_reply_delivered_after_pipe_loss.
Print Assumptions req_stashed_reply_recv_after_pipe_loss.
Print Assumptions req_stashed_hypotheses_w.
Print Assumptions req_stashed_instance_w.
Print Assumptions req_stash_inv_refuted_pinned_w.
