(* PollPipeline: the C15 instances for PUSH and PULL (pipeline0/push.c, pull.c;
   the raw variants are the same code).  Everything holds at full strength.
   PUSH is the pack M_push_r fr over PushModel.push_step_r fr -- fr = the source has the repaired
   push0_set_send_buf_len (blocked senders move into a resized buffer; Gen/Consts.v
   C06_PUSH_RESIZE_ADMITS_FIXED) -- and every statement holds for either value of fr; M_push is the pack
   for the source as it is. *)
From Coq Require Import List NArith Bool.
From NngV Require Import Gen.Consts Proto.Common Proto.PushModel Proto.PullModel Proto.PushProofs Proto.PullProofs
  Proto.PollModel Proto.PollProofs.
From NngV Require Proto.PushSubmit.
Import ListNotations.

Definition push_ok (s : push) (o : pop) : Prop :=
  PushProofs.op_ok s o /\ match o with PRecv _ a _ => ~ In a (map fst (ps_aq s)) | _ => True end.
Definition M_push_r (fr : bool) : pmodel :=
  mkPM push push_init (push_step_r fr) push_poll push_ok (fun s => PInv s /\ WInv s) (fun s => map fst (ps_aq s)) (fun _ => true).
Definition M_push : pmodel := M_push_r C06_PUSH_RESIZE_ADMITS_FIXED.

Lemma push_inv_init {fr} : pm_inv (M_push_r fr) (pm_init (M_push_r fr)).
Proof. exact push_init_inv. Qed.
Lemma push_inv_step {fr} s o : pm_inv (M_push_r fr) s -> pm_ok (M_push_r fr) s o -> o <> PSockClose -> pm_inv (M_push_r fr) (fst (pm_step (M_push_r fr) s o)).
Proof.
  unM M_push_r. intros [HI HW] [Hok _] _. destruct (push_step_r fr s o) as [s' outs] eqn:E. cbn [fst].
  split; [exact (proj1 (PushSubmit.push_step_r_law _ _ _ _ _ HI Hok E))|exact (PushSubmit.push_r_writable_mirror _ _ _ _ _ HI HW E)].
Qed.
Theorem push_c15_inv {fr} : C15_inv (M_push_r fr).
Proof. exact (reachable_ind _ _ push_inv_init push_inv_step). Qed.

(* a send goes to a ready pipe, else into the buffer, else it waits; a receive is refused *)
Lemma push_send_shape {fr} s c a m : pm_ok (M_push_r fr) s (PSend c a true m) -> send_shape (M_push_r fr) true s c a m.
Proof.
  intros [Hok _]. destruct (ps_pl s) as [|p rest] eqn:PL; [destruct (wq_full s) eqn:F|].
  - apply SsAgain; cbn; rewrite ?PL, ?F; cbn; rewrite ?N.eqb_refl; auto.
    split; [reflexivity|]. rewrite map_app. apply in_or_app. right. now left.
  - apply (SsSame E_OK); cbn; rewrite ?PL, ?F; cbn; rewrite ?N.eqb_refl; auto with errs. intros X. now elim X.
  - apply (SsSame E_OK); cbn; rewrite ?PL; cbn; rewrite ?N.eqb_refl; auto with errs. intros X. now elim X.
Qed.
Lemma push_recv_shape {fr} s c a : pm_ok (M_push_r fr) s (PRecv c a true) -> recv_shape (M_push_r fr) true s c a.
Proof. intros [_ Hok]. apply (refused_recv _ _ _ _ _ E_NOTSUP); auto with errs. Qed.

(* the send descriptor: raised <-> a send would be accepted; there is no receive descriptor *)
Lemma push_rv_send {fr} s a m : rv_send (M_push_r fr) s a m = Some (if can_accept s then E_OK else E_AGAIN).
Proof.
  unfold rv_send, can_accept. cbn. destruct (ps_pl s) as [|p rest]; [destruct (wq_full s)|]; cbn; apply result_of_self.
Qed.
Lemma push_mirror_w {fr} s : pm_inv (M_push_r fr) s -> mirror_w_exact_at (M_push_r fr) s /\ mirror_w_iff_at (M_push_r fr) s.
Proof. intros [_ HW]. apply (mirror_w_of_rv _ _ (can_accept s)); [cbn; now rewrite HW|]. intros a m _ _. apply push_rv_send. Qed.
Lemma push_mirror_r_all {fr} s : mirror_r_at (M_push_r fr) s /\ mirror_r_exact_at (M_push_r fr) s /\ mirror_r_iff_at (M_push_r fr) s.
Proof. apply mirror_r_none; [reflexivity|]. intros a. apply result_of_single. Qed.

Lemma push_c15_nb {fr} : C15_nb_immediate (M_push_r fr) /\ C15_nb_possible (M_push_r fr) /\ C15_nb_strict (M_push_r fr).
Proof. exact (C15_nb_of_shapes _ push_c15_inv (fun s c a m _ => push_send_shape s c a m) (fun s c a _ => push_recv_shape s c a)). Qed.
Theorem push_c15_nb_immediate {fr} : C15_nb_immediate (M_push_r fr).
Proof. exact (proj1 push_c15_nb). Qed.
Theorem push_c15_nb_possible {fr} : C15_nb_possible (M_push_r fr).
Proof. exact (proj1 (proj2 push_c15_nb)). Qed.
Theorem push_c15_nb_strict {fr} : C15_nb_strict (M_push_r fr).
Proof. exact (proj2 (proj2 push_c15_nb)). Qed.
Theorem push_c15_mirror_exact {fr} : C15_mirror_exact (M_push_r fr).
Proof.
  unfold C15_mirror_exact. apply reachable_both_of_inv.
  - exact push_c15_inv.
  - intros s _. apply (push_mirror_r_all s).
  - intros s H. apply (push_mirror_w s H).
Qed.
Theorem push_c15_mirror_iff {fr} : C15_mirror_iff (M_push_r fr).
Proof.
  unfold C15_mirror_iff. apply reachable_both_of_inv.
  - exact push_c15_inv.
  - intros s _. apply (push_mirror_r_all s).
  - intros s H. apply (push_mirror_w s H).
Qed.
Theorem push_c15_mirror {fr} : C15_mirror (M_push_r fr).
Proof. exact (C15_mirror_of_exact _ push_c15_mirror_exact). Qed.

Definition pull_ok (s : pull) (o : pop) : Prop :=
  match o with
  | PRecv _ a _ => ~ In a (pl_rq s)
  | PSend _ a _ _ => ~ In a (pl_rq s)
  | _ => True
  end.
Definition M_pull : pmodel :=
  mkPM pull pull_init pull_step pull_poll pull_ok LInvP (fun s => pl_rq s) (fun _ => true).

Lemma pull_inv_init : pm_inv M_pull (pm_init M_pull).
Proof. exact pull_init_inv. Qed.
Lemma pull_inv_step s o : pm_inv M_pull s -> pm_ok M_pull s o -> o <> PSockClose -> pm_inv M_pull (fst (pm_step M_pull s o)).
Proof.
  cbn. intros HI _ _. destruct (pull_step s o) as [s' outs] eqn:E. cbn [fst].
  exact (proj1 (pull_step_law _ _ _ _ HI E)).
Qed.
Theorem pull_c15_inv : C15_inv M_pull.
Proof. exact (reachable_ind _ _ pull_inv_init pull_inv_step). Qed.

(* a receive takes the first message delivered, else it waits; a send is refused *)
Lemma pull_recv_shape s c a : pm_ok M_pull s (PRecv c a true) -> recv_shape M_pull true s c a.
Proof.
  intros Hok. destruct (pl_pl s) as [|[p m] rest] eqn:PL.
  - apply RsAgain; cbn; rewrite ?PL; cbn; rewrite ?N.eqb_refl; auto.
    split; [reflexivity|]. apply in_or_app. right. now left.
  - apply (RsSame E_OK (Some m)); cbn; rewrite ?PL; cbn; rewrite ?N.eqb_refl; auto with errs. split; [reflexivity|discriminate].
Qed.
Lemma pull_send_shape s c a m : pm_ok M_pull s (PSend c a true m) -> send_shape M_pull true s c a m.
Proof. intros Hok. apply (refused_send _ _ _ _ _ _ E_NOTSUP); auto with errs. Qed.

Lemma pull_rv_recv s a : rv_recv M_pull s a = Some (if negb (match pl_pl s with [] => true | _ => false end) then E_OK else E_AGAIN).
Proof. unfold rv_recv. cbn. destruct (pl_pl s) as [|[p m] rest]; cbn; apply result_of_self. Qed.
Lemma pull_mirror_r s : pm_inv M_pull s -> mirror_r_exact_at M_pull s /\ mirror_r_iff_at M_pull s.
Proof. intros [_ HR]. eapply mirror_r_of_rv; [cbn; now rewrite HR|]. intros a _. apply pull_rv_recv. Qed.
Lemma pull_mirror_w_all s : mirror_w_at M_pull s /\ mirror_w_exact_at M_pull s /\ mirror_w_iff_at M_pull s.
Proof. apply mirror_w_none; [reflexivity|]. intros a m. apply result_of_single. Qed.

Lemma pull_c15_nb : C15_nb_immediate M_pull /\ C15_nb_possible M_pull /\ C15_nb_strict M_pull.
Proof. exact (C15_nb_of_shapes _ pull_c15_inv (fun s c a m _ => pull_send_shape s c a m) (fun s c a _ => pull_recv_shape s c a)). Qed.
Theorem pull_c15_nb_immediate : C15_nb_immediate M_pull.
Proof. exact (proj1 pull_c15_nb). Qed.
Theorem pull_c15_nb_possible : C15_nb_possible M_pull.
Proof. exact (proj1 (proj2 pull_c15_nb)). Qed.
Theorem pull_c15_nb_strict : C15_nb_strict M_pull.
Proof. exact (proj2 (proj2 pull_c15_nb)). Qed.
Theorem pull_c15_mirror_exact : C15_mirror_exact M_pull.
Proof.
  unfold C15_mirror_exact. apply reachable_both_of_inv.
  - exact pull_c15_inv.
  - intros s H. apply (pull_mirror_r s H).
  - intros s _. apply (pull_mirror_w_all s).
Qed.
Theorem pull_c15_mirror_iff : C15_mirror_iff M_pull.
Proof.
  unfold C15_mirror_iff. apply reachable_both_of_inv.
  - exact pull_c15_inv.
  - intros s H. apply (pull_mirror_r s H).
  - intros s _. apply (pull_mirror_w_all s).
Qed.
Theorem pull_c15_mirror : C15_mirror M_pull.
Proof. exact (C15_mirror_of_exact _ pull_c15_mirror_exact). Qed.

(* non-vacuity: a reachable PUSH state with the descriptor raised, one with it lowered; same for PULL *)
Example push_reachable_raised : exists s, reachable M_push s /\ poll_w (pm_poll M_push s) = Some true.
Proof.
  exists (fst (push_step push_init (PPipeStart 1%N PROTO_PULL))). split; [|reflexivity].
  apply (reachable_step M_push push_init (PPipeStart 1%N PROTO_PULL)); [apply reachable_init| |discriminate]. cbn. repeat split; auto.
Qed.
Example push_reachable_lowered : reachable M_push push_init /\ poll_w (pm_poll M_push push_init) = Some false.
Proof. split; [apply reachable_init|reflexivity]. Qed.
Example pull_reachable_raised : exists s, reachable M_pull s /\ poll_r (pm_poll M_pull s) = Some true.
Proof.
  exists (fst (pull_step (fst (pull_step pull_init (PPipeStart 1%N PROTO_PUSH))) (PRecvDone 1%N 0%N (mkPmsg [] [1%N])))).
  split; [|reflexivity].
  apply (reachable_step M_pull); [|exact I|discriminate].
  apply (reachable_step M_pull); [apply reachable_init|exact I|discriminate].
Qed.
