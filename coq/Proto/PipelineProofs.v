(* PipelineProofs: PUSH || links || PULL*.  The links are the environment:
   whatever the pusher's transports took (per pipe) either has arrived at the
   puller on that pipe or is still in flight on it -- a lossless connection
   that stays up.  Under that law, conservation end to end. *)
From Coq Require Import List Arith NArith Bool Lia.
From NngV Require Import Proto.Common Proto.PushModel Proto.PullModel Proto.PushProofs Proto.PullProofs.
Import ListNotations.

(* what the pusher's transport took on pipe p during a history *)
Fixpoint wire_on (p : N) (tr : list (pop * push * list pout)) : list pmsg :=
  match tr with
  | [] => []
  | (PSendDone q rv, s, outs) :: r => (if N.eqb q p then wire s (PSendDone q rv) else []) ++ wire_on p r
  | _ :: r => wire_on p r
  end.
Fixpoint tr_wire (tr : list (pop * push * list pout)) : list pmsg :=
  match tr with [] => [] | (o, s, outs) :: r => wire s o ++ tr_wire r end.
Fixpoint tr_freed (tr : list (pop * push * list pout)) : list pmsg :=
  match tr with [] => [] | (o, s, outs) :: r => freed outs ++ tr_freed r end.

Lemma tr_out_split tr x : cnt x (tr_out tr) = cnt x (tr_wire tr) + cnt x (tr_freed tr).
Proof. induction tr as [|[[o s] outs] r IH]; cbn [tr_out tr_wire tr_freed]; [reflexivity|]. cnt_simp. lia. Qed.

Definition sumf (pipes : list N) (f : N -> nat) : nat := fold_right (fun p acc => f p + acc) 0 pipes.
Lemma sumf_add pipes f g : sumf pipes (fun p => f p + g p) = sumf pipes f + sumf pipes g.
Proof. unfold sumf. induction pipes; cbn; auto. lia. Qed.
Lemma sumf_ext pipes f g : (forall p, In p pipes -> f p = g p) -> sumf pipes f = sumf pipes g.
Proof.
  unfold sumf. induction pipes as [|a l IH]; cbn; intros H; [reflexivity|].
  rewrite H by (now left). rewrite IH; [reflexivity|]. intros; apply H; now right.
Qed.
Lemma sumf_indicator pipes q c : NoDup pipes -> In q pipes ->
  sumf pipes (fun p => if N.eqb q p then c else 0) = c.
Proof.
  unfold sumf. induction pipes as [|a l IH]; intros ND Hin; [destruct Hin|]. inversion ND; subst. cbn.
  destruct Hin as [->|Hin].
  - rewrite N.eqb_refl.
    assert (Z: fold_right (fun p acc => (if (q =? p)%N then c else 0) + acc) 0 l = 0).
    { clear - H1. induction l as [|z l IH]; cbn; auto.
      destruct (N.eqb_spec q z); [subst; exfalso; apply H1; now left|]. apply IH. intros Hz. apply H1. now right. }
    rewrite Z. lia.
  - destruct (N.eqb_spec q a); [subst; contradiction|]. now rewrite IH.
Qed.
Lemma sumf_zero pipes : sumf pipes (fun _ => 0) = 0.
Proof. unfold sumf. induction pipes; cbn; auto. Qed.

(* every message the transports took went out on exactly one pipe *)
Lemma wire_is_per_pipe tr x (pipes : list N) :
  NoDup pipes ->
  (forall o s outs q rv, In (o, s, outs) tr -> o = PSendDone q rv -> wire s o <> [] -> In q pipes) ->
  cnt x (tr_wire tr) = sumf pipes (fun p => cnt x (wire_on p tr)).
Proof.
  intros ND. induction tr as [|[[o s] outs] r IH]; intros Hin.
  - cbn [tr_wire wire_on]. now rewrite sumf_zero.
  - cbn [tr_wire]. rewrite cnt_app. rewrite IH by (intros ? ? ? ? ? Hi; eapply Hin; right; exact Hi). clear IH.
    assert (E: forall q rv, o = PSendDone q rv -> wire s o <> [] -> In q pipes)
      by (intros q rv Eo; eapply Hin; [left; reflexivity|exact Eo]).
    destruct o as [c a nb m|c a nb|a rv|p peer|p|p rv|p rv m| c op|c|c| |now]; cbn [wire_on]; try reflexivity.
    set (w := wire s (PSendDone p rv)) in *.
    rewrite (sumf_ext pipes (fun p0 => cnt x ((if (p =? p0)%N then w else []) ++ wire_on p0 r))
                            (fun p0 => (if (p =? p0)%N then cnt x w else 0) + cnt x (wire_on p0 r))).
    2:{ intros p0 _. rewrite cnt_app. destruct (p =? p0)%N; reflexivity. }
    rewrite sumf_add. f_equal.
    destruct (list_eq_dec pmsg_eq_dec w []) as [W0|W0].
    + rewrite W0. cbn. rewrite (sumf_ext pipes _ (fun _ => 0)); [now rewrite sumf_zero|].
      intros p0 _. destruct (p =? p0)%N; reflexivity.
    + rewrite sumf_indicator; auto. eapply E; eauto.
Qed.

Section Pipeline.
  Variable push_ops : list pop.
  Variable pipes : list N.                       (* the connections, one puller each *)
  Variable pull_ops : N -> list pop.             (* history of the puller behind pipe p *)
  Variable inflight : N -> list pmsg.            (* still on the link of pipe p at the end *)

  Let ptr := snd (push_run push_init push_ops).
  Let pfin := fst (push_run push_init push_ops).
  Let ltr (p : N) := snd (pull_run pull_init (pull_ops p)).
  Let lfin (p : N) := fst (pull_run pull_init (pull_ops p)).

  Hypothesis push_ok : ops_ok push_init push_ops.
  Hypothesis pipes_nodup : NoDup pipes.
  Hypothesis wire_pipes : forall o s outs q rv, In (o, s, outs) ptr -> o = PSendDone q rv -> wire s o <> [] -> In q pipes.
  (* the link law: lossless connections that stay up *)
  Hypothesis link_law : forall p x, In p pipes ->
    cnt x (wire_on p ptr) = cnt x (ptr_arrived (ltr p)) + cnt x (inflight p).

  (* multiset of messages accepted from the pushing application (tr_accepted also counts the
     messages a peer sent to the pusher, which are discarded on arrival)
     = delivered to the pulling applications + still buffered / in flight / held
     + explicitly freed (send-buffer shrink, failed transport sends, pipes closed) *)
  Theorem pipeline_conservation x :
    cnt x (tr_accepted ptr) =
      sumf pipes (fun p => cnt x (ptr_delivered (ltr p)))
      + cnt x (owned pfin) + sumf pipes (fun p => cnt x (inflight p)) + sumf pipes (fun p => cnt x (lheld (lfin p)))
      + cnt x (tr_freed ptr) + sumf pipes (fun p => cnt x (ptr_freed (ltr p))).
  Proof.
    pose proof (push_run_law push_ops push_init (proj1 push_init_inv) (proj2 push_init_inv) push_ok) as PL.
    unfold ptr, pfin in *. destruct (push_run push_init push_ops) as [sf tr] eqn:R. cbn [fst snd] in *.
    destruct PL as (_ & _ & PL). specialize (PL x). rewrite cnt_app, cnt_app, tr_out_split in PL.
    change (cnt x (owned push_init)) with 0 in PL.
    rewrite (wire_is_per_pipe tr x pipes pipes_nodup wire_pipes) in PL.
    rewrite (sumf_ext pipes _ (fun p => cnt x (ptr_arrived (ltr p)) + cnt x (inflight p))) in PL
      by (intros; now apply link_law).
    rewrite sumf_add in PL.
    assert (PU: sumf pipes (fun p => cnt x (ptr_arrived (ltr p))) =
                sumf pipes (fun p => cnt x (lheld (lfin p)) + (cnt x (ptr_delivered (ltr p)) + cnt x (ptr_freed (ltr p))))).
    { apply sumf_ext. intros p _. unfold ltr, lfin.
      pose proof (pull_run_law (pull_ops p) pull_init pull_init_inv) as L.
      destruct (pull_run pull_init (pull_ops p)) as [lf lt]. cbn [fst snd]. destruct L as [_ L]. specialize (L x).
      rewrite !cnt_app in L. cbn in L. lia. }
    rewrite PU, !sumf_add in PL. lia.
  Qed.
End Pipeline.
