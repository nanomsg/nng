(* PollProofs: the generic part of C15 -- lifting of per-state clauses to all
   reachable states, facts about completions in an output list, relations between
   the three mirror forms, the NONBLOCK clauses of an operation from one case
   description of its step -- and the theorems about the models of pollable.c and of
   the NONBLOCK path of nng.c.  The per-protocol instances are in PollPipeline,
   PollPubSub, PollReq, PollRepX, PollSurvey, PollPairBus. *)
From Coq Require Import List Arith NArith Bool Lia.
From NngV Require Import Proto.Common Proto.PollModel.
Import ListNotations.

(* the error codes as numerals; the projections of a pack [M] opened *)
Ltac unfold_errs := unfold E_OK, E_AGAIN, E_NOTSUP, E_STATE, E_CLOSED, E_PROTO, E_NOMEM, E_CONNRESET, E_CANCELED, E_TIMEDOUT in *.
Ltac unM M := unfold M in *; cbn [pm_step pm_ok pm_inv pm_busy pm_cls pm_poll pm_st pm_init] in *.

(* the codes a refused operation completes with are neither success nor NNG_EAGAIN *)
Lemma ok_neq_again : E_OK <> E_AGAIN. Proof. discriminate. Qed.
Lemma again_neq_ok : E_AGAIN <> E_OK. Proof. discriminate. Qed.
Lemma notsup_neq_ok : E_NOTSUP <> E_OK. Proof. discriminate. Qed.
Lemma notsup_neq_again : E_NOTSUP <> E_AGAIN. Proof. discriminate. Qed.
Lemma state_neq_ok : E_STATE <> E_OK. Proof. discriminate. Qed.
Lemma state_neq_again : E_STATE <> E_AGAIN. Proof. discriminate. Qed.
Lemma closed_neq_ok : E_CLOSED <> E_OK. Proof. discriminate. Qed.
Lemma closed_neq_again : E_CLOSED <> E_AGAIN. Proof. discriminate. Qed.
Lemma proto_neq_ok : E_PROTO <> E_OK. Proof. discriminate. Qed.
Lemma proto_neq_again : E_PROTO <> E_AGAIN. Proof. discriminate. Qed.
Lemma nomem_neq_ok : E_NOMEM <> E_OK. Proof. discriminate. Qed.
Lemma nomem_neq_again : E_NOMEM <> E_AGAIN. Proof. discriminate. Qed.
Lemma canceled_neq_ok : E_CANCELED <> E_OK. Proof. discriminate. Qed.
Lemma canceled_neq_again : E_CANCELED <> E_AGAIN. Proof. discriminate. Qed.
Lemma connreset_neq_ok : E_CONNRESET <> E_OK. Proof. discriminate. Qed.
Lemma connreset_neq_again : E_CONNRESET <> E_AGAIN. Proof. discriminate. Qed.
Create HintDb errs.
#[export] Hint Resolve ok_neq_again again_neq_ok notsup_neq_ok notsup_neq_again state_neq_ok state_neq_again closed_neq_ok
  closed_neq_again proto_neq_ok proto_neq_again nomem_neq_ok nomem_neq_again canceled_neq_ok canceled_neq_again
  connreset_neq_ok connreset_neq_again : errs.
(* the same between results of a step *)
Lemma some_neq (x y : N) : x <> y -> Some x <> Some y.
Proof. congruence. Qed.
#[export] Hint Resolve some_neq : errs.

Lemma compl_of_nil a : compl_of a [] = [].
Proof. reflexivity. Qed.
Lemma compl_of_app a l1 l2 : compl_of a (l1 ++ l2) = compl_of a l1 ++ compl_of a l2.
Proof. unfold compl_of. apply flat_map_app. Qed.
Lemma compl_of_cons a o l : compl_of a (o :: l) = compl_of a [o] ++ compl_of a l.
Proof. change (o :: l) with ([o] ++ l). apply compl_of_app. Qed.
Lemma compl_of_self a rv m : compl_of a [Complete a rv m] = [(rv, m)].
Proof. unfold compl_of. cbn. now rewrite N.eqb_refl. Qed.
Lemma compl_of_other a b rv m : a <> b -> compl_of a [Complete b rv m] = [].
Proof. intros H. unfold compl_of. cbn. destruct (N.eqb_spec a b); [contradiction|reflexivity]. Qed.
Lemma compl_of_TranSend a p m : compl_of a [TranSend p m] = []. Proof. reflexivity. Qed.
Lemma compl_of_TranRecv a p : compl_of a [TranRecv p] = []. Proof. reflexivity. Qed.
Lemma compl_of_Free a m : compl_of a [Free m] = []. Proof. reflexivity. Qed.
Lemma compl_of_ClosePipe a p : compl_of a [ClosePipe p] = []. Proof. reflexivity. Qed.
Lemma compl_of_Arm a d : compl_of a [Arm d] = []. Proof. reflexivity. Qed.
Lemma compl_of_OptRv a r : compl_of a [OptRv r] = []. Proof. reflexivity. Qed.
Lemma compl_of_map_Free a l : compl_of a (map Free l) = [].
Proof. induction l; cbn; auto. Qed.
Lemma compl_of_fail_aios a rv l : ~ In a l -> compl_of a (fail_aios rv l) = [].
Proof.
  induction l as [|b l IH]; intros H; [reflexivity|]. unfold fail_aios in *. cbn [map].
  rewrite compl_of_cons, IH by (intros X; apply H; now right).
  rewrite compl_of_other; [reflexivity|]. intros ->. apply H. now left.
Qed.
(* outputs that are not completions of a contribute nothing *)
Definition not_compl_of (a : aioid) (o : pout) : Prop := match o with Complete b _ _ => a <> b | _ => True end.
Lemma compl_of_none a l : Forall (not_compl_of a) l -> compl_of a l = [].
Proof.
  induction 1 as [|o l H _ IH]; [reflexivity|]. rewrite compl_of_cons, IH, app_nil_r.
  destruct o; try reflexivity. cbn in H. now apply compl_of_other.
Qed.
Lemma result_of_self a rv m l : result_of a (Complete a rv m :: l) = Some rv.
Proof. unfold result_of. rewrite compl_of_cons, compl_of_self. reflexivity. Qed.
Lemma result_of_single a rv m : result_of a [Complete a rv m] = Some rv.
Proof. apply result_of_self. Qed.
Lemma result_of_skip a o l : compl_of a [o] = [] -> result_of a (o :: l) = result_of a l.
Proof. intros H. unfold result_of. now rewrite compl_of_cons, H. Qed.
Lemma result_of_compl a outs rv x : compl_of a outs = [(rv, x)] -> result_of a outs = Some rv.
Proof. unfold result_of. now intros ->. Qed.

(* [reachable] is the closure of the initial state under contract-respecting steps other than the socket's close *)
Lemma reachable_ind (M : pmodel) (I : pm_st M -> Prop) :
  I (pm_init M) -> (forall s o, I s -> pm_ok M s o -> o <> PSockClose -> I (fst (pm_step M s o))) ->
  forall s, reachable M s -> I s.
Proof.
  intros H0 HS s (ops & Hok & <-). revert Hok. generalize (pm_init M) H0.
  induction ops as [|o r IH]; intros s HI Hok; [exact HI|].
  destruct Hok as (Ho & Hc & Hr). apply (IH _ (HS _ _ HI Ho Hc) Hr).
Qed.

Theorem reachable_inv (M : pmodel) :
  pm_inv M (pm_init M) -> (forall s o, pm_inv M s -> pm_ok M s o -> o <> PSockClose -> pm_inv M (fst (pm_step M s o))) ->
  C15_inv M.
Proof. exact (reachable_ind M (pm_inv M)). Qed.
(* two facts that follow from the invariant state by state (the two halves of a mirror clause) hold together in every
   reachable state *)
Lemma reachable_both_of_inv (M : pmodel) (X Y : pm_st M -> Prop) :
  C15_inv M -> (forall s, pm_inv M s -> X s) -> (forall s, pm_inv M s -> Y s) -> forall s, reachable M s -> X s /\ Y s.
Proof. intros HI HX HY s R. specialize (HI s R). split; auto. Qed.

Lemma reachable_init (M : pmodel) : reachable M (pm_init M).
Proof. exists []. split; [exact I|reflexivity]. Qed.
Lemma prun_app (M : pmodel) : forall l1 l2 s, prun M s (l1 ++ l2) = prun M (prun M s l1) l2.
Proof. induction l1 as [|o r IH]; intros; cbn; auto. Qed.
Lemma pops_ok_app (M : pmodel) : forall l1 l2 s, pops_ok M s l1 -> pops_ok M (prun M s l1) l2 -> pops_ok M s (l1 ++ l2).
Proof.
  induction l1 as [|o r IH]; intros l2 s H1 H2; cbn in *; auto.
  destruct H1 as (A & B & C). repeat split; auto.
Qed.
(* a reachable state extended by one more contract-respecting step is reachable *)
Lemma reachable_step (M : pmodel) s o :
  reachable M s -> pm_ok M s o -> o <> PSockClose -> reachable M (fst (pm_step M s o)).
Proof.
  intros (ops & Hok & <-) Ho Hc. exists (ops ++ [o]). split.
  - apply pops_ok_app; auto. cbn. auto.
  - now rewrite prun_app.
Qed.

Section Forms.
  Variable M : pmodel.
  Lemma mirror_r_exact_weaken s : mirror_r_exact_at M s -> mirror_r_at M s.
  Proof.
    intros H a Ha. specialize (H a Ha). destruct (poll_r (pm_poll M s)) as [b|]; [|exact H].
    split; [apply H|]. intros Hb E. apply H in Hb. rewrite Hb in E. discriminate.
  Qed.
  Lemma mirror_w_exact_weaken s : mirror_w_exact_at M s -> mirror_w_at M s.
  Proof.
    intros H a m Ha Hm. specialize (H a m Ha Hm). destruct (poll_w (pm_poll M s)) as [b|]; [|exact H].
    split; [apply H|]. intros Hb E. apply H in Hb. rewrite Hb in E. discriminate.
  Qed.
  Lemma mirror_r_iff_weaken s : mirror_r_iff_at M s -> mirror_r_at M s.
  Proof.
    intros H a Ha. specialize (H a Ha). destruct (poll_r (pm_poll M s)) as [b|]; [|exact H].
    split; [|apply H]. intros E. apply H. rewrite E. discriminate.
  Qed.
  Lemma mirror_w_iff_weaken s : mirror_w_iff_at M s -> mirror_w_at M s.
  Proof.
    intros H a m Ha Hm. specialize (H a m Ha Hm). destruct (poll_w (pm_poll M s)) as [b|]; [|exact H].
    split; [|apply H]. intros E. apply H. rewrite E. discriminate.
  Qed.
  (* a descriptor that is raised exactly when the operation succeeds, where the operation otherwise answers
     NNG_EAGAIN: both biconditional forms *)
  Lemma mirror_r_of_rv s (b : bool) : poll_r (pm_poll M s) = Some b ->
    (forall a, pm_ok M s (PRecv None a true) -> rv_recv M s a = Some (if b then E_OK else E_AGAIN)) ->
    mirror_r_exact_at M s /\ mirror_r_iff_at M s.
  Proof.
    intros Hp H. split; intros a Ha; rewrite Hp, (H a Ha); destruct b; split; congruence || discriminate.
  Qed.
  Lemma mirror_w_of_rv s (b : bool) : poll_w (pm_poll M s) = Some b ->
    (forall a m, pm_ok M s (PSend None a true m) -> pm_cls M m = true -> rv_send M s a m = Some (if b then E_OK else E_AGAIN)) ->
    mirror_w_exact_at M s /\ mirror_w_iff_at M s.
  Proof.
    intros Hp H. split; intros a m Ha Hm; rewrite Hp, (H a m Ha Hm); destruct b; split; congruence || discriminate.
  Qed.
  (* a protocol without the descriptor refuses the operation *)
  Lemma mirror_r_none s : poll_r (pm_poll M s) = None -> (forall a, rv_recv M s a = Some E_NOTSUP) ->
    mirror_r_at M s /\ mirror_r_exact_at M s /\ mirror_r_iff_at M s.
  Proof. intros Hp H. repeat split; intros a _; rewrite Hp; apply H. Qed.
  Lemma mirror_w_none s : poll_w (pm_poll M s) = None -> (forall a m, rv_send M s a m = Some E_NOTSUP) ->
    mirror_w_at M s /\ mirror_w_exact_at M s /\ mirror_w_iff_at M s.
  Proof. intros Hp H. repeat split; intros a m _ _; rewrite Hp; apply H. Qed.
  Lemma C15_mirror_of_exact : C15_mirror_exact M -> C15_mirror M.
  Proof. intros H s R. destruct (H s R). split; [now apply mirror_r_exact_weaken|now apply mirror_w_exact_weaken]. Qed.
End Forms.

(* The NONBLOCK clauses from one description of the step.
   What a protocol does with a NONBLOCK operation in state s is one of two things.  Either the flag plays no part:
   the step is the step of the blocking form, and it completes the aio, with something other than NNG_EAGAIN.  Or
   the operation would have to wait: the NONBLOCK form completes with NNG_EAGAIN and keeps nothing of it, and the
   blocking form does not succeed in that step -- under [strict], it emits no completion and holds the aio. *)
Section Shapes.
  Variable M : pmodel.
  (* false for the receives of REP and RESPONDENT only: with a receive already pending on the context the blocking
     form answers NNG_ESTATE at once instead of queueing *)
  Variable strict : bool.

  Inductive recv_shape (s : pm_st M) (c : option ctxid) (a : aioid) : Prop :=
  | RsSame rv x :
      pm_step M s (PRecv c a true) = pm_step M s (PRecv c a false) ->
      compl_of a (snd (pm_step M s (PRecv c a true))) = [(rv, x)] -> rv <> E_AGAIN -> (x <> None <-> rv = E_OK) ->
      ~ In a (pm_busy M (fst (pm_step M s (PRecv c a true)))) -> recv_shape s c a
  | RsAgain :
      compl_of a (snd (pm_step M s (PRecv c a true))) = [(E_AGAIN, None)] ->
      ~ In a (pm_busy M (fst (pm_step M s (PRecv c a true)))) ->
      (if strict then result_of a (snd (pm_step M s (PRecv c a false))) = None /\
                      In a (pm_busy M (fst (pm_step M s (PRecv c a false))))
       else result_of a (snd (pm_step M s (PRecv c a false))) <> Some E_OK) -> recv_shape s c a.

  Inductive send_shape (s : pm_st M) (c : option ctxid) (a : aioid) (m : pmsg) : Prop :=
  | SsSame rv :
      pm_step M s (PSend c a true m) = pm_step M s (PSend c a false m) ->
      compl_of a (snd (pm_step M s (PSend c a true m))) = [(rv, None)] -> rv <> E_AGAIN ->
      ~ In a (pm_busy M (fst (pm_step M s (PSend c a true m)))) ->
      (rv <> E_OK -> forall m2, pm_cls M m2 = pm_cls M m -> pm_step M s (PSend c a true m2) = pm_step M s (PSend c a true m)) ->
      send_shape s c a m
  | SsAgain :
      compl_of a (snd (pm_step M s (PSend c a true m))) = [(E_AGAIN, None)] ->
      ~ In a (pm_busy M (fst (pm_step M s (PSend c a true m)))) ->
      (forall m2, pm_cls M m2 = pm_cls M m -> pm_step M s (PSend c a true m2) = pm_step M s (PSend c a true m)) ->
      (if strict then result_of a (snd (pm_step M s (PSend c a false m))) = None /\
                      In a (pm_busy M (fst (pm_step M s (PSend c a false m))))
       else result_of a (snd (pm_step M s (PSend c a false m))) <> Some E_OK) -> send_shape s c a m.

  Lemma recv_shape_clauses s : (forall c a, pm_ok M s (PRecv c a true) -> recv_shape s c a) ->
    nb_recv_immediate_at M s /\ nb_recv_possible_at M s /\ (strict = true -> nb_recv_eagain_queues_at M s).
  Proof.
    intros H. split; [|split].
    - intros c a s' outs Ha E. destruct (H c a Ha) as [rv x _ C _ X B|C B _]; rewrite E in C, B; eauto.
      exists E_AGAIN, None. repeat split; auto; [intros X; now elim X|discriminate].
    - intros c a Ha R. destruct (H c a Ha) as [rv x Eq _ _ _ _|_ _ W]; [exact Eq|].
      destruct strict; [destruct W as [W _]; rewrite W in R; discriminate|contradiction].
    - intros S c a Ha R. destruct (H c a Ha) as [rv x _ C Hrv _ _|_ _ W].
      + rewrite (result_of_compl _ _ _ _ C) in R. congruence.
      + now rewrite S in W.
  Qed.
  Lemma send_shape_clauses s : (forall c a m, pm_ok M s (PSend c a true m) -> send_shape s c a m) ->
    nb_send_immediate_at M s /\ nb_send_possible_at M s /\ (strict = true -> nb_send_eagain_queues_at M s).
  Proof.
    intros H. split; [|split].
    - intros c a m s' outs Ha E. destruct (H c a m Ha) as [rv _ C _ B K|C B K _]; rewrite E in C, B, K; eauto.
    - intros c a m Ha R. destruct (H c a m Ha) as [rv Eq _ _ _ _|_ _ _ W]; [exact Eq|].
      destruct strict; [destruct W as [W _]; rewrite W in R; discriminate|contradiction].
    - intros S c a m Ha R. destruct (H c a m Ha) as [rv _ C Hrv _ _|_ _ _ W].
      + rewrite (result_of_compl _ _ _ _ C) in R. congruence.
      + now rewrite S in W.
  Qed.

  (* an operation the protocol does not have: refused in every state, the state untouched *)
  Lemma refused_send s c a m rv : rv <> E_OK -> rv <> E_AGAIN -> ~ In a (pm_busy M s) ->
    (forall nb m2, pm_step M s (PSend c a nb m2) = (s, [Complete a rv None])) -> send_shape s c a m.
  Proof.
    intros H1 H2 B H. apply (SsSame _ _ _ _ rv); rewrite ?H; auto. apply compl_of_self.
  Qed.
  Lemma refused_recv s c a rv : rv <> E_OK -> rv <> E_AGAIN -> ~ In a (pm_busy M s) ->
    (forall nb, pm_step M s (PRecv c a nb) = (s, [Complete a rv None])) -> recv_shape s c a.
  Proof.
    intros H1 H2 B H. apply (RsSame _ _ _ rv None); rewrite ?H; auto; [apply compl_of_self|]. split; [intros X; now elim X|contradiction].
  Qed.
End Shapes.
Arguments RsSame {M strict s c a}.
Arguments RsAgain {M strict s c a}.
Arguments SsSame {M strict s c a m}.
Arguments SsAgain {M strict s c a m}.

(* a pack whose two operations have a strict shape in every state of its invariant has the three NONBLOCK clauses *)
Lemma C15_nb_of_shapes (M : pmodel) : C15_inv M ->
  (forall s c a m, pm_inv M s -> pm_ok M s (PSend c a true m) -> send_shape M true s c a m) ->
  (forall s c a, pm_inv M s -> pm_ok M s (PRecv c a true) -> recv_shape M true s c a) ->
  C15_nb_immediate M /\ C15_nb_possible M /\ C15_nb_strict M.
Proof.
  intros HI HS HR. split; [|split]; intros s R; specialize (HI s R);
    destruct (send_shape_clauses M true s (fun c a m => HS s c a m HI)) as (A & B & C);
    destruct (recv_shape_clauses M true s (fun c a => HR s c a HI)) as (A' & B' & C'); auto.
Qed.

(* src/core/pollable.c *)
(* the invariant of the sequential model: once the descriptor exists its readability is the flag *)
Definition plb_inv (p : pollable) : Prop := match plb_fd p with None => True | Some sig => sig = plb_raised p end.

Lemma plb_step_inv p o : plb_inv p -> plb_inv (plb_step p o).
Proof.
  unfold plb_inv. destruct p as [r [sig|]]; destruct o; cbn; intros H; subst; destruct r; cbn; auto.
Qed.
Lemma plb_run_inv ops : forall p, plb_inv p -> plb_inv (plb_run p ops).
Proof. induction ops as [|o r IH]; intros p H; cbn; auto using plb_step_inv. Qed.

Lemma plb_step_raised p o : plb_raised (plb_step p o) = plb_level (plb_raised p) [o].
Proof. destruct p as [r [sig|]]; destruct o; destruct r; reflexivity. Qed.
Lemma plb_level_app cur l1 l2 : plb_level cur (l1 ++ l2) = plb_level (plb_level cur l1) l2.
Proof. revert cur. induction l1 as [|o r IH]; intros; cbn; auto. destruct o; auto. Qed.
Lemma plb_run_raised ops : forall p, plb_raised (plb_run p ops) = plb_level (plb_raised p) ops.
Proof.
  induction ops as [|o r IH]; intros p; cbn [plb_run]; [reflexivity|].
  rewrite IH, plb_step_raised. destruct o; reflexivity.
Qed.
Lemma plb_step_fd_some p o : plb_fd p <> None -> plb_fd (plb_step p o) <> None.
Proof. destruct p as [r [sig|]]; destruct o; destruct r; cbn; congruence. Qed.
Lemma plb_run_fd_some ops : forall p, plb_fd p <> None -> plb_fd (plb_run p ops) <> None.
Proof. induction ops as [|o r IH]; intros p H; cbn; auto using plb_step_fd_some. Qed.
Lemma plb_run_getfd ops : forall p, In PlGetFd ops -> plb_fd (plb_run p ops) <> None.
Proof.
  induction ops as [|o r IH]; intros p H; [destruct H|]. cbn [plb_run]. destruct H as [->|H]; [|auto].
  apply plb_run_fd_some. destruct p as [rr [sig|]]; cbn; congruence.
Qed.
Lemma plb_run_no_getfd ops : forall p, plb_fd p = None -> ~ In PlGetFd ops -> plb_fd (plb_run p ops) = None.
Proof.
  induction ops as [|o r IH]; intros p H Hn; [exact H|]. cbn [plb_run]. apply IH.
  - destruct p as [rr fd]; cbn in H; subst. destruct o; cbn; try (destruct rr; reflexivity). exfalso. apply Hn. now left.
  - intros X. apply Hn. now right.
Qed.

(* the level flag: whatever the history of raise / clear / getfd calls (none of them
   overlapping), the descriptor -- from the moment somebody has asked for it --
   polls readable exactly when the last raise/clear was a raise; before that there
   is no descriptor *)
Theorem plb_level_holds ops :
  match plb_readable (plb_run plb_init ops) with
  | Some sig => In PlGetFd ops /\ sig = plb_level false ops
  | None => ~ In PlGetFd ops
  end.
Proof.
  pose proof (plb_run_inv ops plb_init I) as HI. pose proof (plb_run_raised ops plb_init) as HR.
  unfold plb_readable, plb_inv in *. destruct (plb_fd (plb_run plb_init ops)) as [sig|] eqn:E.
  - split; [|now rewrite HI, HR].
    destruct (in_dec (fun x y : plop => ltac:(decide equality) : {x = y} + {x <> y}) PlGetFd ops) as [H|H]; [exact H|].
    rewrite (plb_run_no_getfd ops plb_init eq_refl H) in E. discriminate.
  - intros H. apply (plb_run_getfd ops plb_init) in H. contradiction.
Qed.
(* "regardless of when the descriptor is first requested": two histories with the
   same raise/clear calls, the getfd calls placed anywhere (at least one each) *)
Fixpoint plb_mutators (ops : list plop) : list plop :=
  match ops with [] => [] | PlGetFd :: r => plb_mutators r | o :: r => o :: plb_mutators r end.
Lemma plb_level_mutators cur ops : plb_level cur (plb_mutators ops) = plb_level cur ops.
Proof. revert cur. induction ops as [|o r IH]; intros; cbn; auto. destruct o; cbn; auto. Qed.
Theorem plb_level_any_time ops1 ops2 :
  plb_mutators ops1 = plb_mutators ops2 -> In PlGetFd ops1 -> In PlGetFd ops2 ->
  plb_readable (plb_run plb_init ops1) = plb_readable (plb_run plb_init ops2) /\
  plb_readable (plb_run plb_init ops1) = Some (plb_level false (plb_mutators ops1)).
Proof.
  intros E H1 H2. pose proof (plb_level_holds ops1) as A. pose proof (plb_level_holds ops2) as B.
  destruct (plb_readable (plb_run plb_init ops1)) as [s1|]; [|contradiction].
  destruct (plb_readable (plb_run plb_init ops2)) as [s2|]; [|contradiction].
  destruct A as [_ ->]. destruct B as [_ ->].
  rewrite <- (plb_level_mutators false ops1), <- (plb_level_mutators false ops2), E. auto.
Qed.

(* the interleaving model is finite, so it is decided by exhaustion *)
Definition pc_eqb (a b : plpc) : bool :=
  match a, b with
  | PcIdle, PcIdle | PcRaise1, PcRaise1 | PcRaise2, PcRaise2 | PcClear1, PcClear1 | PcClear2, PcClear2
  | PcGet1, PcGet1 | PcGet2, PcGet2 | PcGet3, PcGet3 => true
  | PcGetA x, PcGetA y | PcGetB x, PcGetB y => Bool.eqb x y
  | _, _ => false
  end.
Definition ob_eqb (a b : option bool) : bool :=
  match a, b with None, None => true | Some x, Some y => Bool.eqb x y | _, _ => false end.
Definition plc_eqb (a b : plconc) : bool :=
  Bool.eqb (plb_raised (pc_p a)) (plb_raised (pc_p b)) && ob_eqb (plb_fd (pc_p a)) (plb_fd (pc_p b)) &&
  pc_eqb (pc_mut a) (pc_mut b) && pc_eqb (pc_get a) (pc_get b).
Lemma pc_eqb_eq a b : pc_eqb a b = true -> a = b.
Proof. destruct a as [| | | | | | | |[|]|[|]], b as [| | | | | | | |[|]|[|]]; cbn; congruence. Qed.
Lemma pc_eqb_refl a : pc_eqb a a = true.
Proof. destruct a as [| | | | | | | |[|]|[|]]; reflexivity. Qed.
Lemma plc_eqb_eq a b : plc_eqb a b = true -> a = b.
Proof.
  destruct a as [[r1 f1] m1 g1], b as [[r2 f2] m2 g2]. unfold plc_eqb. cbn.
  intros H. apply andb_true_iff in H as [H Hg]. apply andb_true_iff in H as [H Hm]. apply andb_true_iff in H as [Hr Hf].
  apply Bool.eqb_prop in Hr. apply pc_eqb_eq in Hm. apply pc_eqb_eq in Hg. subst.
  destruct f1 as [x|], f2 as [y|]; cbn in Hf; try discriminate; [apply Bool.eqb_prop in Hf; subst|]; reflexivity.
Qed.
Lemma plc_eqb_refl a : plc_eqb a a = true.
Proof. destruct a as [[r [f|]] m g]; unfold plc_eqb; cbn; rewrite !pc_eqb_refl; destruct r; try destruct f; reflexivity. Qed.
Definition plc_mem (c : plconc) (l : list plconc) : bool := existsb (plc_eqb c) l.
Lemma plc_mem_in c l : plc_mem c l = true -> In c l.
Proof. unfold plc_mem. intros H. apply existsb_exists in H as (x & Hx & E). apply plc_eqb_eq in E. now subst. Qed.
Lemma plc_in_mem c l : In c l -> plc_mem c l = true.
Proof. intros H. apply existsb_exists. exists c. split; auto. apply plc_eqb_refl. Qed.

(* the states reachable under a set of allowed actions, by saturation *)
Fixpoint nodup_add (l seen : list plconc) : list plconc :=
  match l with [] => seen | c :: r => if plc_mem c seen then nodup_add r seen else nodup_add r (c :: seen) end.
Fixpoint grow (gfix : bool) (acts : list plact) (fuel : nat) (seen : list plconc) : list plconc :=
  match fuel with
  | O => seen
  | S f =>
      let next := flat_map (fun c => map (fun a => plb_astep gfix c a) acts) seen in
      let seen' := nodup_add next seen in
      if length seen' =? length seen then seen else grow gfix acts f seen'
  end.
Definition closed_under (gfix : bool) (acts : list plact) (S : list plconc) : bool :=
  forallb (fun c => forallb (fun a => plc_mem (plb_astep gfix c a) S) acts) S.

Lemma closed_step gfix acts S c a : closed_under gfix acts S = true -> In c S -> In a acts -> In (plb_astep gfix c a) S.
Proof.
  intros H Hc Ha. unfold closed_under in H. rewrite forallb_forall in H. specialize (H c Hc).
  rewrite forallb_forall in H. apply plc_mem_in. now apply H.
Qed.
Lemma closed_run gfix acts S : closed_under gfix acts S = true ->
  forall l c, In c S -> Forall (fun a => In a acts) l -> In (plb_arun gfix c l) S.
Proof.
  intros H. induction l as [|a r IH]; intros c Hc Hl; cbn; [exact Hc|].
  inversion Hl; subst. apply IH; auto. eapply closed_step; eauto.
Qed.

(* all actions; actions without a clear.  The fuel 64 is arbitrary: [saturated] checks closure again, so too little
   fuel makes the two vm_compute lemmas below fail, it cannot make a theorem hold wrongly *)
Definition acts_all : list plact := [ActMut PlRaise; ActMut PlClear; ActMutStep; ActGet; ActGetStep].
Definition acts_noclear : list plact := [ActMut PlRaise; ActMutStep; ActGet; ActGetStep].
Definition reach_noclear : list plconc := grow false acts_noclear 64 [plc_init].
Definition reach_fixed : list plconc := grow true acts_all 64 [plc_init].

Definition quiescentb (c : plconc) : bool := pc_eqb (pc_mut c) PcIdle && pc_eqb (pc_get c) PcIdle.
Definition levelb (c : plconc) : bool :=
  match plb_fd (pc_p c) with None => true | Some sig => Bool.eqb sig (plb_raised (pc_p c)) end.

(* a list of states that holds the initial one, is closed under the actions and shows the level at its quiescent
   members: then every run does *)
Definition saturated (gfix : bool) (acts : list plact) (S : list plconc) : bool :=
  closed_under gfix acts S && plc_mem plc_init S && forallb (fun c => negb (quiescentb c) || levelb c) S.
Lemma saturated_level gfix acts S : saturated gfix acts S = true ->
  forall l, Forall (fun a => In a acts) l ->
  let c := plb_arun gfix plc_init l in
  plc_quiescent c -> match plb_fd (pc_p c) with None => True | Some sig => sig = plb_raised (pc_p c) end.
Proof.
  intros H l Hl c [Qm Qg]. apply andb_true_iff in H as [H Hp]. apply andb_true_iff in H as [Hc Hi].
  pose proof (closed_run _ _ _ Hc l plc_init (plc_mem_in _ _ Hi) Hl) as Hin.
  rewrite forallb_forall in Hp. specialize (Hp _ Hin). fold c in Hp. clear Hin.
  unfold quiescentb in Hp. rewrite Qm, Qg in Hp. cbn [pc_eqb andb negb orb] in Hp. unfold levelb in Hp.
  destruct (plb_fd (pc_p c)) as [sig|]; [|exact I]. apply Bool.eqb_prop in Hp. exact Hp.
Qed.

(* first getfd racing raises only: at every quiescent point the descriptor (if created) shows the flag *)
Lemma reach_noclear_saturated : saturated false acts_noclear reach_noclear = true.
Proof. vm_compute. reflexivity. Qed.
Theorem plb_concurrent_raise_holds l :
  Forall (fun a => In a acts_noclear) l ->
  let c := plb_arun false plc_init l in
  plc_quiescent c -> match plb_fd (pc_p c) with None => True | Some sig => sig = plb_raised (pc_p c) end.
Proof. exact (saturated_level _ _ _ reach_noclear_saturated l). Qed.

(* first getfd racing a clear: getfd loads p_raised (set), the clear runs to completion (swap, load of the now
   published p_fds, drain of the still empty pipe), getfd writes its token: flag down, descriptor readable --
   and it stays so, because the next clear finds the flag already down and does not drain *)
Definition plb_clear_race : list plact :=
  [ActMut PlRaise; ActMutStep; ActGet; ActGetStep; ActGetStep; ActMut PlClear; ActMutStep; ActMutStep; ActGetStep].
Theorem plb_concurrent_clear_refuted :
  exists l, Forall (fun a => In a acts_all) l /\
    let c := plb_arun false plc_init l in
    plc_quiescent c /\ plb_raised (pc_p c) = false /\ plb_fd (pc_p c) = Some true /\
    (* a further clear does not repair it *)
    plb_fd (pc_p (plb_arun false c [ActMut PlClear; ActMutStep; ActMutStep])) = Some true.
Proof.
  exists plb_clear_race. split.
  - unfold plb_clear_race, acts_all. repeat (apply Forall_cons; [cbn; tauto|]). apply Forall_nil.
  - vm_compute. repeat split; reflexivity.
Qed.
(* with the proposed repair of nni_pollable_getfd (PollModel.plb_astep true) the level holds at every quiescent
   point of every interleaving of one mutator thread (any raises and clears) with the first getfd *)
Lemma reach_fixed_saturated : saturated true acts_all reach_fixed = true.
Proof. vm_compute. reflexivity. Qed.
Theorem plb_concurrent_holds_when_fixed l :
  Forall (fun a => In a acts_all) l ->
  let c := plb_arun true plc_init l in
  plc_quiescent c -> match plb_fd (pc_p c) with None => True | Some sig => sig = plb_raised (pc_p c) end.
Proof. exact (saturated_level _ _ _ reach_fixed_saturated l). Qed.

(* the statement for either form of getfd, and its truth value as a function of the form *)
Definition plb_conc_level (gfix : bool) : Prop :=
  forall l, Forall (fun a => In a acts_all) l ->
  let c := plb_arun gfix plc_init l in
  plc_quiescent c -> match plb_fd (pc_p c) with None => True | Some sig => sig = plb_raised (pc_p c) end.
Theorem plb_conc_level_by_form (gfix : bool) : if gfix then plb_conc_level true else ~ plb_conc_level false.
Proof.
  destruct gfix; [exact plb_concurrent_holds_when_fixed|].
  intros H. destruct plb_concurrent_clear_refuted as (l & Hl & W). cbv zeta in W. destruct W as (Q & R & F & _).
  unfold plb_conc_level in H. specialize (H l Hl). cbv zeta in H. specialize (H Q). rewrite F, R in H. discriminate.
Qed.

(* without overlap (every call runs to completion before the next begins) the interleaving model is the sequential one *)
Definition seq_acts (o : plop) : list plact :=
  match o with
  | PlRaise => [ActMut PlRaise; ActMutStep; ActMutStep]
  | PlClear => [ActMut PlClear; ActMutStep; ActMutStep]
  | PlGetFd => [ActGet; ActGetStep; ActGetStep; ActGetStep]
  end.
Lemma seq_acts_step p o : plb_arun false (mkPlc p PcIdle PcIdle) (seq_acts o) = mkPlc (plb_step p o) PcIdle PcIdle.
Proof. destruct p as [r [sig|]]; destruct o; destruct r; try destruct sig; reflexivity. Qed.
Lemma plb_arun_app g c l1 l2 : plb_arun g c (l1 ++ l2) = plb_arun g (plb_arun g c l1) l2.
Proof. revert c. induction l1 as [|a r IH]; intros; cbn; auto. Qed.
Theorem plb_sequential_refines ops : forall p,
  plb_arun false (mkPlc p PcIdle PcIdle) (flat_map seq_acts ops) = mkPlc (plb_run p ops) PcIdle PcIdle.
Proof.
  induction ops as [|o r IH]; intros p; [reflexivity|]. cbn [flat_map plb_run].
  now rewrite plb_arun_app, seq_acts_step, IH.
Qed.

(* src/nng.c, NNG_FLAG_NONBLOCK *)
(* by cases on r = E_OK and r = E_TIMEDOUT (the api_* functions compare with the numerals); the rest is computation *)
Ltac api_cases r :=
  unfold api_send, api_sendmsg, api_recvmsg, aio_outcome, api_map, E_TIMEDOUT, E_AGAIN, E_OK in *; cbn [andb];
  let ok := eval unfold E_OK in E_OK in let tmo := eval unfold E_TIMEDOUT in E_TIMEDOUT in
  destruct (N.eqb_spec r ok); destruct (N.eqb_spec r tmo); subst; cbn; try lia;
  repeat split; intros; try reflexivity; try congruence; try discriminate; try lia.

(* a NONBLOCK call never waits; it returns NNG_EAGAIN exactly when the protocol would have had to wait (or
   itself reported a timeout), otherwise what the protocol reported; after a failed nng_sendmsg the caller
   still owns the message, after a successful one it does not; nng_send frees exactly the message it made
   itself when the send fails *)
Theorem api_sendmsg_nonblock msg pr :
  let '(rv, kept, waited) := api_sendmsg true msg pr in
  waited = false /\ (kept = true <-> rv <> E_OK) /\
  match pr with
  | PrStart _ _ => rv = E_AGAIN /\ kept = true
  | PrDone r _ => rv = (if N.eqb r E_TIMEDOUT then E_AGAIN else r)
  end.
Proof.
  destruct pr as [r m|later m].
  - api_cases r.
  - cbn. repeat split; intros; try reflexivity; discriminate.
Qed.
Theorem api_recvmsg_nonblock pr :
  let '(rv, got, waited) := api_recvmsg true pr in
  waited = false /\ (got <> None -> rv = E_OK) /\
  match pr with
  | PrStart _ _ => rv = E_AGAIN /\ got = None
  | PrDone r m => rv = (if N.eqb r E_TIMEDOUT then E_AGAIN else r) /\ (r = E_OK -> got = m)
  end.
Proof.
  destruct pr as [r m|later m].
  - api_cases r.
  - cbn. repeat split; intros; try reflexivity; congruence.
Qed.
(* the blocking form differs from the NONBLOCK form only where the protocol has to wait *)
Theorem api_nonblock_same_when_ready msg rv m :
  api_sendmsg true msg (PrDone rv m) = (api_map true rv, negb (N.eqb rv 0), false) /\
  api_sendmsg false msg (PrDone rv m) = (rv, negb (N.eqb rv 0), false) /\
  api_recvmsg true (PrDone rv m) = (api_map true rv, (if N.eqb rv 0 then m else None), false) /\
  api_recvmsg false (PrDone rv m) = (rv, (if N.eqb rv 0 then m else None), false).
Proof. repeat split. Qed.
Theorem api_send_frees_own_copy nb body pr :
  let '(rv, freed, waited) := api_send nb body pr in
  (rv <> E_OK -> freed = [mkPmsg [] body]) /\ (rv = E_OK -> freed = []).
Proof.
  destruct pr as [r m|r m]; destruct nb.
  - api_cases r.
  - api_cases r.
  - cbn. split; intros; [reflexivity|discriminate].
  - api_cases r.
Qed.
(* composed with a protocol model: the NONBLOCK step of a model already answers E_AGAIN where nni_aio_start
   refuses, so the API result is the model's result and the call did not wait, provided the step completed the aio *)
Theorem api_over_model a outs rv x msg :
  compl_of a outs = [(rv, x)] -> rv <> E_TIMEDOUT ->
  api_sendmsg true msg (reply_of_step a outs) = (rv, negb (N.eqb rv 0), false) /\
  api_recvmsg true (reply_of_step a outs) = (rv, (if N.eqb rv 0 then x else None), false).
Proof.
  intros H Hr. unfold reply_of_step. rewrite H. cbn. unfold api_map.
  destruct (N.eqb_spec rv E_TIMEDOUT); [contradiction|]. cbn. auto.
Qed.
