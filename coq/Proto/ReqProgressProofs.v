(* ReqProgressProofs: C12, the induction over the position in the send queue.
   A request at position i of rq_sendq (no pipe ready) is transmitted within the
   next i+1 pipe-ready events (PPipeStart of a REP peer): each such event takes
   exactly the head of the queue, transmits its request on the new pipe and
   leaves "no pipe ready" again with the rest of the queue and every context's
   request unchanged. *)
From Coq Require Import List Arith NArith Bool Lia.
From NngV Require Import Proto.Common Proto.ReqRepBacktrace Proto.ReqModel Proto.ReqRepProofs Proto.ReqProofs
                         Proto.PollModel Proto.PollReq.
Import ListNotations.

Definition starts (ps : list pid) : list pop := map (fun p => PPipeStart p PROTO_REP) ps.

Fixpoint run_outs (fx : rfix) (s : req) (ops : list pop) : req * list pout :=
  match ops with
  | [] => (s, [])
  | o :: r => let '(s1, o1) := req_step fx s o in
              let '(s2, o2) := run_outs fx s1 r in (s2, o1 ++ o2)
  end.

Lemma run_outs_cons fx s o r :
  run_outs fx s (o :: r) =
  (fst (run_outs fx (fst (req_step fx s o)) r), snd (req_step fx s o) ++ snd (run_outs fx (fst (req_step fx s o)) r)).
Proof.
  cbn [run_outs]. destruct (req_step fx s o) as [s1 o1]. cbn [fst snd].
  destruct (run_outs fx s1 r) as [s2 o2]. reflexivity.
Qed.

(* run_outs and PollModel's prun walk through the same states *)
Lemma run_outs_prun fx : forall ops s, fst (run_outs fx s ops) = prun (M_req fx) s ops.
Proof.
  induction ops as [|o r IH]; intros s; [reflexivity|].
  rewrite run_outs_cons. cbn [fst prun]. rewrite IH. reflexivity.
Qed.

(* one pipe-ready event with no pipe ready before: exactly the head of the send
   queue is taken *)
Lemma pipe_start_takes_head fx s p k0 sq c0 m0 :
  rq_ready s = [] -> rq_sendq s = k0 :: sq -> ctx_get s k0 = Some c0 -> cx_req c0 = Some m0 ->
  exists s' outs c0',
    req_step fx s (PPipeStart p PROTO_REP) = (s', outs) /\
    rq_ready s' = [] /\ rq_sendq s' = sq /\ In (TranSend p m0) outs /\
    cx_req c0' = Some m0 /\ rq_ctxs s' = assoc_set k0 c0' (rq_ctxs s).
Proof.
  intros Hr Hs Hg Hq. unfold req_step, req_stepL.
  change (negb (PROTO_REP =? PROTO_REP)%N) with false. cbv iota.
  unfold run_send_queue. cbn [rq_sendq set_writable set_pipes]. rewrite Hs. cbn [length run_sendq].
  cbn [rq_sendq rq_ready set_writable set_pipes]. rewrite Hs, Hr. cbn [app].
  unfold ctx_get in *. cbn [rq_ctxs set_writable set_pipes]. rewrite Hg, Hq. cbv zeta.
  destruct (retry_on fx c0); rewrite run_sendq_noready by reflexivity.
  - do 3 eexists. split; [reflexivity|]. split; [reflexivity|]. split; [reflexivity|]. split.
    + apply in_or_app; left. apply in_or_app; right. left. reflexivity.
    + split; [|reflexivity]. reflexivity.
  - do 3 eexists. split; [reflexivity|]. split; [reflexivity|]. split; [reflexivity|]. split.
    + apply in_or_app; left. apply in_or_app; right. left. reflexivity.
    + split; [|reflexivity]. reflexivity.
Qed.

Lemma pipe_start_keeps_requests fx s p k0 sq c0 m0 :
  rq_ready s = [] -> rq_sendq s = k0 :: sq -> ctx_get s k0 = Some c0 -> cx_req c0 = Some m0 ->
  exists s' outs,
    req_step fx s (PPipeStart p PROTO_REP) = (s', outs) /\
    rq_ready s' = [] /\ rq_sendq s' = sq /\ In (TranSend p m0) outs /\
    (forall k c m, ctx_get s k = Some c -> cx_req c = Some m ->
       exists c', ctx_get s' k = Some c' /\ cx_req c' = Some m).
Proof.
  intros Hr Hs Hg Hq.
  destruct (pipe_start_takes_head fx s p k0 sq c0 m0 Hr Hs Hg Hq) as (s' & outs & c0' & E & R1 & R2 & R3 & R4 & R5).
  exists s', outs. split; [exact E|]. split; [exact R1|]. split; [exact R2|]. split; [exact R3|].
  intros k c m Gk Qk. unfold ctx_get in *. rewrite R5.
  destruct (N.eq_dec k k0) as [->|Hne].
  - rewrite lookup_assoc_set_same. exists c0'. split; [reflexivity|].
    rewrite Hg in Gk. inversion Gk; subst c. congruence.
  - rewrite lookup_assoc_set_other by exact Hne. exists c. split; [exact Gk|exact Qk].
Qed.

(* it is the (i+1)-th pipe that carries the request at position i *)
Theorem req_queue_position_exact : forall fx ps s pre k post c m,
  rq_ready s = [] ->
  rq_sendq s = pre ++ k :: post ->
  (forall k', In k' (rq_sendq s) -> exists c' m', ctx_get s k' = Some c' /\ cx_req c' = Some m') ->
  ctx_get s k = Some c -> cx_req c = Some m ->
  length pre < length ps ->
  In (TranSend (nth (length pre) ps 0%N) m) (snd (run_outs fx s (starts ps))).
Proof.
  intros fx ps s pre. revert ps s.
  induction pre as [|k0 pre IH]; intros ps s k post c m Hr Hs Hall Hg Hq Hl.
  - destruct ps as [|p ps]; [cbn in Hl; lia|]. cbn [app] in Hs.
    destruct (pipe_start_keeps_requests fx s p k post c m Hr Hs Hg Hq) as (s' & outs & E & _ & _ & Hin & _).
    unfold starts. cbn [map length nth]. rewrite run_outs_cons. rewrite E. cbn [fst snd].
    apply in_or_app. left. exact Hin.
  - destruct ps as [|p ps]; [cbn in Hl; lia|]. cbn [app] in Hs. cbn [length] in Hl.
    destruct (Hall k0) as (c0 & m0 & Hg0 & Hq0); [rewrite Hs; left; reflexivity|].
    destruct (pipe_start_keeps_requests fx s p k0 (pre ++ k :: post) c0 m0 Hr Hs Hg0 Hq0)
      as (s' & outs & E & R1 & R2 & _ & Hkeep).
    destruct (Hkeep k c m Hg Hq) as (c' & Hg' & Hq').
    assert (H : In (TranSend (nth (length pre) ps 0%N) m) (snd (run_outs fx s' (starts ps)))).
    { apply (IH ps s' k post c' m).
      + exact R1.
      + exact R2.
      + intros k' Hk'. destruct (Hall k') as (c1 & m1 & G1 & Q1).
        { rewrite Hs. right. rewrite <- R2. exact Hk'. }
        destruct (Hkeep k' c1 m1 G1 Q1) as (c2 & G2 & Q2). exists c2, m1. split; assumption.
      + exact Hg'.
      + exact Hq'.
      + lia. }
    unfold starts. cbn [map length nth]. rewrite run_outs_cons. rewrite E. cbn [fst snd].
    apply in_or_app. right. exact H.
Qed.

Theorem req_queue_position_progress : forall fx ps s pre k post c m,
  rq_ready s = [] ->
  rq_sendq s = pre ++ k :: post ->
  (forall k', In k' (rq_sendq s) -> exists c' m', ctx_get s k' = Some c' /\ cx_req c' = Some m') ->
  ctx_get s k = Some c -> cx_req c = Some m ->
  length ps = S (length pre) ->
  exists p, In p ps /\ In (TranSend p m) (snd (run_outs fx s (starts ps))).
Proof.
  intros fx ps s pre k post c m Hr Hs Hall Hg Hq Hl. exists (nth (length pre) ps 0%N). split; [apply nth_In; lia|].
  apply (req_queue_position_exact fx ps s pre k post c m); auto. lia.
Qed.

(* reachable states (PollReq's pack M_req: the environment contract req_ok, no
   PSockClose; the invariant needs the repair fx_rdclr): the hypotheses about the
   contexts and about "no pipe ready" follow from the invariant *)
Theorem req_queue_position_progress_reachable : forall fx ps s pre k post,
  fx_rdclr fx = true -> reachable (M_req fx) s ->
  rq_sendq s = pre ++ k :: post ->
  length ps = S (length pre) ->
  exists c m, ctx_get s k = Some c /\ cx_req c = Some m /\
    exists p, In p ps /\ In (TranSend p m) (snd (run_outs fx s (starts ps))).
Proof.
  intros fx ps s pre k post Hfx R Hs Hl.
  pose proof (req_c15_inv fx Hfx s R) as HI. change (RInv s) in HI.
  destruct HI as (HC & _ & HQ). destruct HC as (_ & _ & _ & Hq & _).
  assert (Hr : rq_ready s = []).
  { destruct HQ as [HQ|HQ]; [exact HQ|]. rewrite Hs in HQ. destruct pre; discriminate. }
  assert (Hall : forall k', In k' (rq_sendq s) -> exists c' m', ctx_get s k' = Some c' /\ cx_req c' = Some m').
  { intros k' Hk'. exact (Hq k' Hk'). }
  destruct (Hall k) as (c & m & Hg & Hm).
  { rewrite Hs. apply in_or_app. right. left. reflexivity. }
  exists c, m. split; [exact Hg|]. split; [exact Hm|].
  exact (req_queue_position_progress fx ps s pre k post c m Hr Hs Hall Hg Hm Hl).
Qed.

(* non-vacuity: two contexts are opened, three requests are submitted (blocking,
   distinct aios) while no pipe is connected; the third request waits at position
   2 of the send queue and goes out on the third pipe *)
Definition w_queue3 : list pop :=
  [PCtxOpen 0%N; PCtxOpen 1%N;
   PSend None 10%N false w_req; PSend (Some 0%N) 11%N false w_req; PSend (Some 1%N) 12%N false w_req].
Definition s_queue3 : req := fst (run_outs fx_repaired req_init w_queue3).
Definition w_wire3 : pmsg := req_send (REQ_ID_MIN + 3) w_req.

Example req_queue_position_nonvacuous :
  rq_ready s_queue3 = [] /\
  rq_sendq s_queue3 = [0%N; 1%N] ++ 2%N :: [] /\
  (forall k', In k' (rq_sendq s_queue3) -> exists c' m', ctx_get s_queue3 k' = Some c' /\ cx_req c' = Some m') /\
  (exists c, ctx_get s_queue3 2%N = Some c /\ cx_req c = Some w_wire3) /\
  reachable (M_req fx_repaired) s_queue3 /\
  snd (run_outs fx_repaired s_queue3 (starts [1%N; 2%N; 3%N])) =
    [Complete 10%N E_OK None; TranSend 1%N (req_send (REQ_ID_MIN + 1) w_req); TranRecv 1%N;
     Complete 11%N E_OK None; TranSend 2%N (req_send (REQ_ID_MIN + 2) w_req); TranRecv 2%N;
     Complete 12%N E_OK None; TranSend 3%N w_wire3; TranRecv 3%N].
Proof.
  split; [vm_compute; reflexivity|]. split; [vm_compute; reflexivity|]. split.
  { intros k' Hk'. vm_compute in Hk'.
    destruct Hk' as [<-|[<-|[<-|[]]]]; vm_compute; do 2 eexists; split; reflexivity. }
  split.
  { vm_compute. eexists. split; reflexivity. }
  split; [|vm_compute; reflexivity].
  exists w_queue3. split.
  - vm_compute. intuition congruence.
  - unfold s_queue3. rewrite run_outs_prun. reflexivity.
Qed.

Print Assumptions pipe_start_takes_head.
Print Assumptions req_queue_position_progress.
Print Assumptions req_queue_position_exact.
Print Assumptions req_queue_position_progress_reachable.
Print Assumptions req_queue_position_nonvacuous.
