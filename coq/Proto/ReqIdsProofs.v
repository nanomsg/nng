(* ReqIdsProofs: REQ (cooked) -- which request ids are registered (C04).

   ReqProofs shows that a reply is handed to a context only if the arriving id is
   *registered* for it.  This file shows what "registered" means in every state
   the model can reach: the id map holds exactly the id of the request a context
   holds NOW --
     requests[id] = k  ==>  ctx k exists, ctx k's request_id = id, and it holds a
                            request message whose header is that id.
   Hence a request that was abandoned -- cancelled, timed out, replaced by a new
   send, its receive cancelled, its context closed, refused as a non-blocking send
   -- whether or not it ever reached the wire, leaves no id behind (its context has
   request_id 0 / no request message, or is gone), and a later reply naming that id
   finds nothing.  Also: every message handed to a transport carries exactly one
   request id as its header (whatever header the application left on it), and the
   header an application leaves on a message does not influence the step at all.

   Environment contract (op_ok): a context number is not opened twice while it is
   open (the model keeps contexts in an association list). *)
From Coq Require Import List Arith NArith Bool ZArith Lia.
From NngV Require Import Proto.Common Proto.ReqRepBacktrace Proto.ReqModel Proto.ReqRepProofs Proto.ReqProofs.
From NngV Require Base.ListX.
Import ListNotations.

Definition hdr_is_id (m : pmsg) : Prop := exists id, cursor_ok id /\ pm_hdr m = be32 id.

Record ids_inv (s : req) : Prop := mkIdsInv {
  inv_nodup : NoDup (map fst (rq_ctxs s));
  inv_cursor : cursor_ok (rq_cursor s);
  inv_ids : forall id k, lookup id (rq_ids s) = Some k ->
              exists c, ctx_get s k = Some c /\ cx_rid c = id /\ cx_req c <> None;
  inv_req : forall k c m, ctx_get s k = Some c -> cx_req c = Some m ->
              pm_hdr m = be32 (cx_rid c) /\ cursor_ok (cx_rid c) }.

Definition tx_ok (outs : list pout) : Prop := forall p x, In (TranSend p x) outs -> hdr_is_id x.

Lemma tx_ok_app a b : tx_ok a -> tx_ok b -> tx_ok (a ++ b).
Proof. intros Ha Hb p x Hin. apply in_app_or in Hin. destruct Hin; eauto. Qed.
Lemma tx_ok_nil : tx_ok [].
Proof. intros p x []. Qed.
Lemma tx_ok_cons o l : (forall p x, o <> TranSend p x) -> tx_ok l -> tx_ok (o :: l).
Proof. intros Ho Hl p x [E|Hin]; [exfalso; eapply Ho; eauto|eauto]. Qed.

Ltac tx_ok_trivial :=
  repeat first
    [ apply tx_ok_nil
    | apply tx_ok_app
    | apply tx_ok_cons; [intros ? ? ?; discriminate|]
    | match goal with |- tx_ok (match ?x with _ => _ end) => destruct x end
    | match goal with |- tx_ok (if ?x then _ else _) => destruct x end ].
Lemma tx_ok_map_free l : tx_ok (map Free l).
Proof. induction l; cbn; tx_ok_trivial. exact IHl. Qed.

Lemma lookup_none_map {A} k (l : list (N * A)) : lookup k l = None <-> ~ In k (map fst l).
Proof. split; [apply lookup_none_notin|apply lookup_notin_none]. Qed.
Lemma map_fst_assoc_del {A} k (l : list (N * A)) : NoDup (map fst l) -> NoDup (map fst (assoc_del k l)).
Proof. apply ListX.nodup_filter. Qed.

(* steps that leave (ids, cursor, context keys, request_id / req_msg of every context) alone *)
Definition ckeyf (c : rctx) : N * option pmsg := (cx_rid c, cx_req c).
Definition same_keys (s s' : req) : Prop :=
  rq_ids s' = rq_ids s /\ rq_cursor s' = rq_cursor s /\ map fst (rq_ctxs s') = map fst (rq_ctxs s) /\
  forall k, option_map ckeyf (ctx_get s' k) = option_map ckeyf (ctx_get s k).

Lemma same_keys_refl s : same_keys s s.
Proof. repeat split. Qed.
Lemma same_keys_trans s1 s2 s3 : same_keys s1 s2 -> same_keys s2 s3 -> same_keys s1 s3.
Proof.
  intros [A1 [B1 [C1 D1]]] [A2 [B2 [C2 D2]]].
  split; [congruence|]. split; [congruence|]. split; [congruence|]. intros k. now rewrite D2, D1.
Qed.
Lemma same_keys_ctx s s' k c' : same_keys s s' -> ctx_get s' k = Some c' ->
  exists c, ctx_get s k = Some c /\ cx_rid c = cx_rid c' /\ cx_req c = cx_req c'.
Proof.
  intros [_ [_ [_ D]]] H. specialize (D k). rewrite H in D. cbn in D.
  destruct (ctx_get s k) as [c|]; cbn in D; [|discriminate]. inversion D. eauto.
Qed.
Lemma same_keys_ctx_rev s s' k c : same_keys s s' -> ctx_get s k = Some c ->
  exists c', ctx_get s' k = Some c' /\ cx_rid c' = cx_rid c /\ cx_req c' = cx_req c.
Proof.
  intros [_ [_ [_ D]]] H. specialize (D k). rewrite H in D. cbn in D.
  destruct (ctx_get s' k) as [c'|]; cbn in D; [|discriminate]. inversion D. eauto.
Qed.
Lemma same_keys_inv s s' : same_keys s s' -> ids_inv s -> ids_inv s'.
Proof.
  intros SK [N C I R]. pose proof SK as [A [B [M D]]]. constructor.
  - now rewrite M.
  - now rewrite B.
  - intros id k H. rewrite A in H. destruct (I id k H) as [c [H1 [H2 H3]]].
    destruct (same_keys_ctx_rev _ _ _ _ SK H1) as [c' [G1 [G2 G3]]].
    exists c'. split; [exact G1|]. split; congruence.
  - intros k c' m H1 H2. destruct (same_keys_ctx _ _ _ _ SK H1) as [c [G1 [G2 G3]]].
    rewrite <- G2. apply (R k c m G1). congruence.
Qed.

Lemma same_keys_put s k c c' : ctx_get s k = Some c -> cx_rid c' = cx_rid c -> cx_req c' = cx_req c ->
  same_keys s (ctx_put s k c').
Proof.
  intros H E1 E2. split; [reflexivity|]. split; [reflexivity|]. split.
  - unfold ctx_put. cbn [rq_ctxs set_ctxs]. eapply map_fst_assoc_set_present. exact H.
  - intros k'. destruct (N.eq_dec k' k) as [->|Hne].
    + rewrite ctx_get_put_same, H. cbn. unfold ckeyf. now rewrite E1, E2.
    + now rewrite ctx_get_put_other.
Qed.

(* a state with the same contexts, id map and cursor: every field setter but set_ctxs / set_ids *)
Lemma same_keys_of_fields s s' :
  rq_ids s' = rq_ids s -> rq_cursor s' = rq_cursor s -> rq_ctxs s' = rq_ctxs s -> same_keys s s'.
Proof. intros A B C. unfold same_keys, ctx_get. rewrite A, B, C. repeat split. Qed.
Lemma sk_if (b : bool) s s1 s2 : same_keys s s1 -> same_keys s s2 -> same_keys s (if b then s1 else s2).
Proof. destruct b; auto. Qed.

Lemma sk_sendq s v : same_keys s (set_sendq s v). Proof. now apply same_keys_of_fields. Qed.

(* ... around one context written back with its id and request unchanged *)
Lemma same_keys_upd s s' k c c' :
  rq_ctxs s' = assoc_set k c' (rq_ctxs s) -> ctx_get s k = Some c -> cx_rid c' = cx_rid c -> cx_req c' = cx_req c ->
  rq_ids s' = rq_ids s -> rq_cursor s' = rq_cursor s -> same_keys s s'.
Proof.
  intros C P E1 E2 A B. apply (same_keys_trans s (ctx_put s k c')); [now apply (same_keys_put s k c)|now apply same_keys_of_fields].
Qed.

(* the invariant reads only these three fields *)
Lemma ids_inv_fields s s' :
  ids_inv s -> rq_ids s' = rq_ids s -> rq_cursor s' = rq_cursor s -> rq_ctxs s' = rq_ctxs s -> ids_inv s'.
Proof. intros I A B C. apply (same_keys_inv s); [now apply same_keys_of_fields|exact I]. Qed.
Ltac ids_by_fields I :=
  repeat match goal with |- ids_inv ?t => match t with context [if ?b then _ else _] => destruct b end end;
  apply (ids_inv_fields _ _ I); reflexivity.

(* s1 has the contexts, id map and cursor of s; the pipes' lists have shrunk; the send queue has shrunk or
   gained contexts that hold a request *)
Definition core_le (s s1 : req) : Prop :=
  rq_ctxs s1 = rq_ctxs s /\ rq_ids s1 = rq_ids s /\ rq_cursor s1 = rq_cursor s /\
  (forall p k, In (p, k) (rq_plist s1) -> In (p, k) (rq_plist s)) /\
  (forall k, In k (rq_sendq s1) -> In k (rq_sendq s) \/ exists c m, ctx_get s k = Some c /\ cx_req c = Some m).
Lemma core_le_fields s s1 : rq_ctxs s1 = rq_ctxs s -> rq_ids s1 = rq_ids s -> rq_cursor s1 = rq_cursor s ->
  rq_plist s1 = rq_plist s -> rq_sendq s1 = rq_sendq s -> core_le s s1.
Proof. intros A B C D E. unfold core_le. rewrite A, B, C, D, E. auto 6. Qed.
Lemma core_le_ids s s1 : core_le s s1 -> ids_inv s -> ids_inv s1.
Proof. intros (A & B & C & _) I. exact (ids_inv_fields s s1 I B C A). Qed.
Ltac core_le_by_fields := repeat match goal with |- core_le _ ?t => match t with context [if ?b then _ else _] => destruct b end end;
  apply core_le_fields; reflexivity.

(* req0_run_send_queue: no context's id or request changes; what it hands to a
   transport is the request message some context holds *)
Lemma run_sendq_spec fx f : forall s s' outs cl, run_sendq fx f s = (s', outs, cl) ->
  same_keys s s' /\
  ((forall k c m, ctx_get s k = Some c -> cx_req c = Some m -> hdr_is_id m) -> tx_ok outs).
Proof.
  intros s s' outs cl. apply (run_sendq_rule fx (fun s s' o => same_keys s s' /\
    ((forall k c m, ctx_get s k = Some c -> cx_req c = Some m -> hdr_is_id m) -> tx_ok o))).
  - intros s0. split; [apply same_keys_refl|intros _; apply tx_ok_nil].
  - intros s0 k sq s1 o _ _ [SK TX]. split; [eapply same_keys_trans; [apply sk_sendq|exact SK]|exact TX].
  - intros s0 k sq p rd c m t s1 o _ _ Ec Em F1 _ _ F4 F5 [SK TX].
    pose proof (same_keys_upd s0 t k c (sent_ctx fx c) F1 Ec eq_refl eq_refl F4 F5) as SK6.
    split; [eapply same_keys_trans; eauto|]. intros HR. apply tx_ok_app; [tx_ok_trivial|].
    intros p0 x [E|Hin]; [inversion E; subst; eapply HR; eauto|]. revert p0 x Hin. apply TX. intros k0 c0 m0 G1 G2.
    destruct (same_keys_ctx _ _ _ _ SK6 G1) as [c1 [G3 [G4 G5]]]. apply (HR k0 c1 m0 G3). congruence.
Qed.

Lemma run_send_queue_spec fx s s' outs cl : run_send_queue fx s = (s', outs, cl) ->
  same_keys s s' /\
  ((forall k c m, ctx_get s k = Some c -> cx_req c = Some m -> hdr_is_id m) -> tx_ok outs).
Proof. apply run_sendq_spec. Qed.

Lemma inv_hdr s : ids_inv s -> forall k c m, ctx_get s k = Some c -> cx_req c = Some m -> hdr_is_id m.
Proof. intros I k c m H1 H2. destruct (inv_req s I k c m H1 H2) as [A B]. exists (cx_rid c). auto. Qed.

Lemma run_send_queue_inv fx s s' outs cl : run_send_queue fx s = (s', outs, cl) -> ids_inv s -> ids_inv s' /\ tx_ok outs.
Proof.
  intros H I. apply run_send_queue_spec in H. destruct H as [SK TX]. split.
  - eapply same_keys_inv; eauto.
  - apply TX. now apply inv_hdr.
Qed.

(* the invariant for every context but k, with no id registered for k: the state
   between req0_ctx_reset and the moment context k is written back *)
Definition except (s : req) (k : N) : Prop :=
  NoDup (map fst (rq_ctxs s)) /\ cursor_ok (rq_cursor s) /\ (exists c, ctx_get s k = Some c) /\
  (forall id k', lookup id (rq_ids s) = Some k' ->
     k' <> k /\ exists c, ctx_get s k' = Some c /\ cx_rid c = id /\ cx_req c <> None) /\
  (forall k' c m, k' <> k -> ctx_get s k' = Some c -> cx_req c = Some m ->
     pm_hdr m = be32 (cx_rid c) /\ cursor_ok (cx_rid c)).

Lemma same_keys_except s s' k : same_keys s s' -> except s k -> except s' k.
Proof.
  intros SK [N [C [[c0 P] [I R]]]]. pose proof SK as [A [B [M D]]].
  split; [now rewrite M|]. split; [now rewrite B|]. split; [|split].
  - destruct (same_keys_ctx_rev _ _ _ _ SK P) as [c' [G _]]. eauto.
  - intros id k' H. rewrite A in H. destruct (I id k' H) as [Hne [c [H1 [H2 H3]]]]. split; [exact Hne|].
    destruct (same_keys_ctx_rev _ _ _ _ SK H1) as [c' [G1 [G2 G3]]].
    exists c'. split; [exact G1|]. split; congruence.
  - intros k' c m Hne H1 H2. destruct (same_keys_ctx _ _ _ _ SK H1) as [c1 [G1 [G2 G3]]].
    rewrite <- G2. apply (R k' c1 m Hne G1). congruence.
Qed.

Lemma cursor_ok_nonzero id : cursor_ok id -> id <> 0%N.
Proof. unfold cursor_ok, REQ_ID_MIN. lia. Qed.

(* ids_inv of `ctx_put t k c3` from the invariant for the contexts other than k plus what c3 itself must satisfy *)
Lemma put_inv_gen t k c3 :
  NoDup (map fst (rq_ctxs t)) -> cursor_ok (rq_cursor t) -> (exists c, ctx_get t k = Some c) ->
  (forall id k', lookup id (rq_ids t) = Some k' ->
     (k' <> k /\ exists c, ctx_get t k' = Some c /\ cx_rid c = id /\ cx_req c <> None) \/
     (k' = k /\ cx_rid c3 = id /\ cx_req c3 <> None)) ->
  (forall k' c m, k' <> k -> ctx_get t k' = Some c -> cx_req c = Some m ->
     pm_hdr m = be32 (cx_rid c) /\ cursor_ok (cx_rid c)) ->
  (forall m, cx_req c3 = Some m -> pm_hdr m = be32 (cx_rid c3) /\ cursor_ok (cx_rid c3)) ->
  ids_inv (ctx_put t k c3).
Proof.
  intros N C [c0 P] I R R3. constructor.
  - unfold ctx_put. cbn [rq_ctxs set_ctxs]. erewrite map_fst_assoc_set_present; eauto.
  - exact C.
  - intros id k' H. change (rq_ids (ctx_put t k c3)) with (rq_ids t) in H.
    destruct (I id k' H) as [[Hne [c [H1 [H2 H3]]]]|[-> [H2 H3]]].
    + exists c. rewrite ctx_get_put_other by exact Hne. auto.
    + exists c3. rewrite ctx_get_put_same. auto.
  - intros k' c m H1 H2. destruct (N.eq_dec k' k) as [->|Hne].
    + rewrite ctx_get_put_same in H1. inversion H1; subst. now apply R3.
    + rewrite ctx_get_put_other in H1 by exact Hne. eapply R; eauto.
Qed.

Lemma except_put t k c3 : except t k ->
  (forall m, cx_req c3 = Some m -> pm_hdr m = be32 (cx_rid c3) /\ cursor_ok (cx_rid c3)) ->
  ids_inv (ctx_put t k c3).
Proof.
  intros [N [C [P [I R]]]] R3. apply put_inv_gen; auto; intros id k' H; left; now apply I.
Qed.

Lemma except_del t k : except t k -> ids_inv (set_ctxs t (assoc_del k (rq_ctxs t))).
Proof.
  intros [N [C [P [I R]]]].
  assert (G : forall k', k' <> k -> ctx_get (set_ctxs t (assoc_del k (rq_ctxs t))) k' = ctx_get t k').
  { intros k' Hne. unfold ctx_get. cbn [rq_ctxs set_ctxs]. now apply lookup_assoc_del_other. }
  constructor.
  - cbn [rq_ctxs set_ctxs]. now apply map_fst_assoc_del.
  - exact C.
  - intros id k' H. change (rq_ids (set_ctxs t (assoc_del k (rq_ctxs t)))) with (rq_ids t) in H.
    destruct (I id k' H) as [Hne [c [H1 H2]]]. exists c. rewrite G by exact Hne. auto.
  - intros k' c m H1 H2. destruct (N.eq_dec k' k) as [->|Hne].
    + unfold ctx_get in H1. cbn [rq_ctxs set_ctxs] in H1. now rewrite lookup_assoc_del_same in H1.
    + rewrite G in H1 by exact Hne. eapply R; eauto.
Qed.

Lemma ctx_reset_facts fx s k c s2 c2 o :
  ctx_reset fx s k c = (s2, c2, o) ->
  rq_ctxs s2 = rq_ctxs s /\ rq_cursor s2 = rq_cursor s /\
  rq_ids s2 = (if N.eqb (cx_rid c) 0 then rq_ids s else assoc_del (cx_rid c) (rq_ids s)) /\
  cx_rid c2 = 0%N /\ cx_req c2 = None /\ cx_recv c2 = cx_recv c /\ cx_send c2 = cx_send c /\ tx_ok o.
Proof.
  unfold ctx_reset. intros H. inversion H; subst; clear H.
  destruct (cx_rid c =? 0)%N, (fx_rdclr fx && (k =? 0)%N && _); repeat (split; [reflexivity|]); tx_ok_trivial.
Qed.

Lemma reset_except fx s k c0 c s2 c2 o :
  ids_inv s -> ctx_get s k = Some c0 -> cx_rid c = cx_rid c0 ->
  ctx_reset fx s k c = (s2, c2, o) -> except s2 k.
Proof.
  intros [N C I R] P E H. apply ctx_reset_facts in H. destruct H as [F1 [F2 [F3 _]]].
  assert (G : forall k', ctx_get s2 k' = ctx_get s k') by (intros k'; unfold ctx_get; now rewrite F1).
  split; [now rewrite F1|]. split; [now rewrite F2|]. split; [exists c0; now rewrite G|]. split.
  - intros id k' H. rewrite F3 in H. split.
    + intros ->.
      destruct (N.eqb_spec (cx_rid c) 0) as [Z|NZ].
      * destruct (I id k H) as [c' [H1 [H2 H3]]]. rewrite P in H1. inversion H1; subst c'.
        destruct (cx_req c0) as [m|] eqn:Em; [|congruence].
        destruct (R k c0 m P Em) as [_ CO]. apply cursor_ok_nonzero in CO. congruence.
      * apply lookup_assoc_del_some in H. destruct H as [Hne H].
        destruct (I id k H) as [c' [H1 [H2 H3]]]. rewrite P in H1. inversion H1; subst c'. congruence.
    + assert (H' : lookup id (rq_ids s) = Some k').
      { destruct (cx_rid c =? 0)%N; [exact H|]. now apply lookup_assoc_del_some in H. }
      destruct (I id k' H') as [c' [H1 H2]]. exists c'. rewrite G. auto.
  - intros k' c' m Hne H1 H2. rewrite G in H1. eapply R; eauto.
Qed.

Lemma reset_put fx s k c0 c s2 c2 o :
  ids_inv s -> ctx_get s k = Some c0 -> cx_rid c = cx_rid c0 -> ctx_reset fx s k c = (s2, c2, o) ->
  except s2 k /\ cx_rid c2 = 0%N /\ cx_req c2 = None /\ tx_ok o /\ ids_inv (ctx_put s2 k c2).
Proof.
  intros I P E H. pose proof (reset_except _ _ _ _ _ _ _ _ I P E H) as EX.
  apply ctx_reset_facts in H. destruct H as [_ [_ [_ [Z [RN [_ [_ TX]]]]]]].
  repeat (split; [assumption|]). apply except_put; [exact EX|]. intros m Hm. congruence.
Qed.

(* req0_ctx_cancel_recv, req0_ctx_cancel_send, req0_ctx_fini: a send still queued is withdrawn (s1, c1), then
   the context is reset; the first two write the reset context back *)
Definition reset_flow (fx : rfix) (s : req) (k : N) (c : rctx) (s2 : req) (c2 : rctx) (outs : list pout) : Prop :=
  exists s1 c1 o2, (s1 = s \/ s1 = set_sendq s (remove_id k (rq_sendq s))) /\ cx_rid c1 = cx_rid c /\
    ctx_reset fx s1 k c1 = (s2, c2, o2) /\ tx_ok outs.
Lemma req_cancel_recv_flow fx s k c a rv s' outs : req_cancel_recv fx s k c a rv = (s', outs) ->
  exists s2 c2, reset_flow fx s k c s2 c2 outs /\ s' = ctx_put s2 k c2.
Proof.
  unfold req_cancel_recv. intros H. destruct (cx_send c) as [sa|].
  - match type of H with context [ctx_reset fx ?S k ?C] => destruct (ctx_reset fx S k C) as [[s2 c2] o2] eqn:ER end.
    inversion H; subst. exists s2, c2. split; [|reflexivity]. do 3 eexists. split; [|split; [|split; [exact ER|]]].
    + right. reflexivity.
    + reflexivity.
    + apply ctx_reset_facts in ER. tx_ok_trivial. apply ER.
  - match type of H with context [ctx_reset fx ?S k ?C] => destruct (ctx_reset fx S k C) as [[s2 c2] o2] eqn:ER end.
    inversion H; subst. exists s2, c2. split; [|reflexivity]. do 3 eexists. split; [|split; [|split; [exact ER|]]].
    + left. reflexivity.
    + reflexivity.
    + apply ctx_reset_facts in ER. tx_ok_trivial. apply ER.
Qed.
Lemma req_cancel_send_flow fx s k c a rv s' outs : req_cancel_send fx s k c a rv = (s', outs) ->
  exists s2 c2, reset_flow fx s k c s2 c2 outs /\ s' = ctx_put s2 k c2.
Proof.
  unfold req_cancel_send. intros H. destruct (fx_cancel fx).
  - match type of H with context [ctx_reset fx ?S k ?C] => destruct (ctx_reset fx S k C) as [[s2 c2] o2] eqn:ER end.
    inversion H; subst. exists s2, c2. split; [|reflexivity]. do 3 eexists. split; [|split; [|split; [exact ER|]]].
    + left. reflexivity.
    + reflexivity.
    + apply ctx_reset_facts in ER. tx_ok_trivial. apply ER.
  - match type of H with context [ctx_reset fx ?S k ?C] => destruct (ctx_reset fx S k C) as [[s2 c2] o2] eqn:ER end.
    inversion H; subst. exists s2, c2. split; [|reflexivity]. do 3 eexists. split; [|split; [|split; [exact ER|]]].
    + left. reflexivity.
    + reflexivity.
    + apply ctx_reset_facts in ER. tx_ok_trivial. apply ER.
Qed.
Lemma req_ctx_fini_flow fx s k c s2 c2 outs : req_ctx_fini fx s k c = (s2, c2, outs) -> reset_flow fx s k c s2 c2 outs.
Proof.
  unfold req_ctx_fini. intros H. destruct (cx_send c) as [sa|].
  - match type of H with context [ctx_reset fx ?S k ?C] => destruct (ctx_reset fx S k C) as [[s2' c2'] o2] eqn:ER end.
    inversion H; subst. do 3 eexists. split; [|split; [|split; [exact ER|]]].
    + left. reflexivity.
    + reflexivity.
    + apply ctx_reset_facts in ER. tx_ok_trivial. apply ER.
  - match type of H with context [ctx_reset fx ?S k ?C] => destruct (ctx_reset fx S k C) as [[s2' c2'] o2] eqn:ER end.
    inversion H; subst. do 3 eexists. split; [|split; [|split; [exact ER|]]].
    + left. reflexivity.
    + reflexivity.
    + apply ctx_reset_facts in ER. tx_ok_trivial. apply ER.
Qed.

Lemma reset_flow_inv fx s k c s2 c2 outs : ids_inv s -> ctx_get s k = Some c -> reset_flow fx s k c s2 c2 outs ->
  except s2 k /\ tx_ok outs /\ ids_inv (ctx_put s2 k c2).
Proof.
  intros I P (s1 & c1 & o2 & S1 & E1 & ER & T).
  assert (I1 : ids_inv s1 /\ ctx_get s1 k = Some c) by (destruct S1 as [->| ->]; [auto|split; [ids_by_fields I|exact P]]).
  destruct (reset_put _ _ _ _ _ _ _ _ (proj1 I1) (proj2 I1) E1 ER) as [EX [_ [_ [_ I2]]]]. auto.
Qed.
Lemma pcl_body_inv fx s0 k c s1 o1 cl1 :
  ids_inv s0 -> ctx_get s0 k = Some c -> pcl_body fx s0 k c = (s1, o1, cl1) -> ids_inv s1 /\ tx_ok o1.
Proof.
  intros I P H. unfold pcl_body in H. destruct (negb (retry_on fx c)).
  - destruct (cx_recv c) as [ra|].
    + match type of H with context [ctx_reset fx ?S k ?C] => destruct (ctx_reset fx S k C) as [[s2 c2] o2] eqn:ER end.
      inversion H; subst. eapply reset_put in ER; [| exact I | exact P | reflexivity].
      destruct ER as [_ [_ [_ [TX I2]]]]. split; [exact I2|]. tx_ok_trivial. exact TX.
    + destruct (ctx_reset fx s0 k c) as [[s2 c2] o2] eqn:ER.
      inversion H; subst. eapply reset_put in ER; [| exact I | exact P | reflexivity].
      destruct ER as [EX [_ [RN [TX _]]]]. split; [|exact TX].
      apply except_put; [exact EX|]. cbn [cx_req]. intros m Hm. congruence.
  - destruct (cx_req c) as [r|] eqn:Er.
    2:{ inversion H; subst. split; [exact I|tx_ok_trivial]. }
    cbv zeta in H.
    match type of H with context [ctx_put s0 k ?C] =>
      assert (SK : same_keys s0 (ctx_put s0 k C)) by (eapply same_keys_put; [exact P|reflexivity|cbn [cx_req]; congruence]) end.
    match type of H with context [if ?b then _ else _] => destruct b end.
    + inversion H; subst. split; [eapply same_keys_inv; eauto|tx_ok_trivial].
    + apply run_send_queue_inv in H; [exact H|].
      eapply same_keys_inv; [apply sk_sendq|]. eapply same_keys_inv; eauto.
Qed.

Lemma pcl_inv fx p : forall f s s' outs cl,
  ids_inv s -> pipe_close_loop fx f s p = (s', outs, cl) -> ids_inv s' /\ tx_ok outs.
Proof.
  induction f as [|f IH]; intros s s' outs cl I H.
  { cbn in H. inversion H; subst. split; [exact I|tx_ok_trivial]. }
  rewrite pcl_unfold in H. destruct (first_on p (rq_plist s)) as [k|].
  2:{ inversion H; subst. split; [exact I|tx_ok_trivial]. }
  cbv zeta in H.
  assert (I0 : ids_inv (set_plist s (plist_del k (rq_plist s)))) by (ids_by_fields I).
  destruct (ctx_get (set_plist s (plist_del k (rq_plist s))) k) as [c|] eqn:P.
  2:{ eapply IH; eauto. }
  destruct (pcl_body fx (set_plist s (plist_del k (rq_plist s))) k c) as [[s1 o1] cl1] eqn:EB.
  destruct (pipe_close_loop fx f s1 p) as [[s2 o2] cl2] eqn:EL.
  inversion H; subst.
  destruct (pcl_body_inv _ _ _ _ _ _ _ I0 P EB) as [I1 T1].
  destruct (IH _ _ _ _ I1 EL) as [I2 T2]. split; [exact I2|now apply tx_ok_app].
Qed.

Lemma req_ctx_send_inv fx s k c a nb m s' outs cl :
  ids_inv s -> ctx_get s k = Some c -> req_ctx_send fx s k c a nb m = (s', outs, cl) -> ids_inv s' /\ tx_ok outs.
Proof.
  intros I P H. destruct (rq_closed s) eqn:Hc.
  { unfold req_ctx_send in H. rewrite Hc in H. inversion H; subst. split; [exact I|tx_ok_trivial]. }
  destruct (req_ctx_send_cases _ _ _ _ _ _ _ _ _ _ Hc H) as (s1 & c1 & o2 & s2 & c2 & o3 & S1 & E1 & -> & E3 & tl & -> & C).
  assert (I1 : ids_inv s1 /\ ctx_get s1 k = Some c) by (destruct S1 as [->| ->]; [auto|split; [ids_by_fields I|exact P]]).
  destruct I1 as [I1 P1]. destruct (reset_put _ _ _ _ _ _ _ _ I1 P1 E1 E3) as [EX [Z2 [RN2 [T3 I2]]]].
  assert (T : tx_ok tl -> tx_ok (match cx_recv c with Some ra => [Complete ra E_CANCELED None] | None => [] end ++
                                 match cx_send c with Some sa => [Complete sa E_CANCELED None] | None => [] end ++ o3 ++ tl))
    by (intros; repeat apply tx_ok_app; auto; tx_ok_trivial).
  pose proof EX as [N2 [C2 [PX [IX RX]]]].
  destruct C as [[-> ->]|[(id & cur' & c3 & EA & -> & -> & R3 & _)
                         |(id & cur' & c3 & s6 & o4 & o5 & EA & E7 & -> & Q1 & R1 & R2 & _ & Q2 & Q3 & _ & _ & Q6)]].
  - split; [exact I2|apply T; tx_ok_trivial].
  - destruct (id_alloc_fresh _ _ _ _ _ EA C2) as [Fr [Cid Ccur]]. split; [|apply T; tx_ok_trivial]. apply put_inv_gen; auto.
    + intros id' k' L. left. now apply IX.
    + intros m0 Hm. congruence.
  - destruct (id_alloc_fresh _ _ _ _ _ EA C2) as [Fr [Cid Ccur]].
    assert (I6 : ids_inv s6).
    { apply (ids_inv_fields (ctx_put (set_ids s2 (rq_ids s2 ++ [(id, k)]) cur') k c3)); auto. apply put_inv_gen; auto.
      - intros id' k' L. cbn [rq_ids set_ids] in L. destruct (lookup id' (rq_ids s2)) as [k2|] eqn:L2.
        + erewrite lookup_app_some in L by exact L2. inversion L; subst k2. left. now apply IX.
        + rewrite lookup_app_none in L by exact L2. cbn in L.
          destruct (N.eqb_spec id id') as [->|Hne]; [|discriminate]. inversion L; subst k'.
          right. split; [reflexivity|]. split; [exact R1|]. congruence.
      - intros m' Hm. rewrite R2 in Hm. inversion Hm; subst m'. rewrite R1. split; [reflexivity|exact Cid]. }
    apply run_send_queue_inv in E7; [|exact I6]. destruct E7 as [I7 T7]. split; [exact I7|].
    apply T, tx_ok_app; [|exact T7]. intros p x Hin. destruct (Q6 p x Hin).
Qed.

(* req0_recv_cb: a match retires the id *)
Lemma match_put fx s id k c c3 :
  ids_inv s -> lookup id (rq_ids s) = Some k -> ctx_get s k = Some c -> cx_req c3 = None ->
  ids_inv (ctx_put (match_base fx s id k) k c3).
Proof.
  intros [N C I R] L P R3. destruct (match_base_fields fx s id k) as (Q1 & Q3 & Q2).
  apply put_inv_gen.
  - now rewrite Q1.
  - now rewrite Q2.
  - exists c. now rewrite match_base_ctx.
  - intros id' k' L'. rewrite Q3 in L'. apply lookup_assoc_del_some in L'. destruct L' as [Hne L'].
    left. destruct (I id' k' L') as [c' [H1 [H2 H3]]]. split.
    + intros ->. destruct (I id k L) as [c'' [G1 [G2 G3]]]. rewrite P in H1, G1. inversion H1; inversion G1; subst. congruence.
    + exists c'. rewrite match_base_ctx. auto.
  - intros k' c' m' Hne G1 G2. rewrite match_base_ctx in G1. eapply R; eauto.
  - intros m' Hm. congruence.
Qed.

Lemma req_recvdone_inv fx s p m s' outs cl :
  ids_inv s -> req_stepL fx s (PRecvDone p 0 m) = (s', outs, cl) -> ids_inv s' /\ tx_ok outs.
Proof.
  intros I H.
  destruct (recvdone_outcomes fx s p m) as [[_ E]|[(id & m' & _ & _ & E)|(id & m' & k & c & _ & (H1 & H2 & _) & E)]]; rewrite E in H.
  1,2: inversion H; subst; split; [exact I|tx_ok_trivial].
  pose proof (fun c3 => match_put fx s id k c c3 I H1 H2) as IM.
  destruct (cx_recv c) as [ra|]; inversion H; subst; clear H; (split; [|unfold req_frees; tx_ok_trivial]).
  - now apply IM.
  - specialize (IM (matched c (Some m')) eq_refl). destruct (k =? 0)%N; [ids_by_fields IM|exact IM].
Qed.

Lemma ctx_open_inv s k c : ids_inv s -> ctx_get s k = None -> cx_req c = None ->
  ids_inv (set_ctxs s (rq_ctxs s ++ [(k, c)])).
Proof.
  intros [N C I R] P RN.
  assert (G : forall k' c', ctx_get s k' = Some c' -> ctx_get (set_ctxs s (rq_ctxs s ++ [(k, c)])) k' = Some c').
  { intros k' c' H. unfold ctx_get in *. cbn [rq_ctxs set_ctxs]. now apply lookup_app_some. }
  constructor.
  - cbn [rq_ctxs set_ctxs]. rewrite map_app. cbn. apply ListX.nodup_snoc; [exact N|]. now apply lookup_none_map.
  - exact C.
  - intros id k' L. change (rq_ids (set_ctxs s (rq_ctxs s ++ [(k, c)]))) with (rq_ids s) in L.
    destruct (I id k' L) as [c' [H1 H2]]. exists c'. split; [now apply G|exact H2].
  - intros k' c' m H1 H2. unfold ctx_get in H1. cbn [rq_ctxs set_ctxs] in H1.
    destruct (lookup k' (rq_ctxs s)) as [c0|] eqn:L0.
    + erewrite lookup_app_some in H1 by exact L0. inversion H1; subst c0. eapply R; eauto.
    + rewrite lookup_app_none in H1 by exact L0. cbn in H1.
      destruct (k =? k')%N; [|discriminate]. inversion H1; subst c'. congruence.
Qed.

Definition op_ok (s : req) (o : pop) : Prop :=
  match o with PCtxOpen k => ctx_get s (k + 1)%N = None | _ => True end.

Lemma find_ctx_get s f k c : ids_inv s -> find_ctx f (rq_ctxs s) = Some (k, c) -> ctx_get s k = Some c.
Proof. intros I H. apply find_ctx_in in H. destruct H as [H _]. unfold ctx_get. apply nodup_in_lookup; [apply (inv_nodup s I)|exact H]. Qed.

(* req0_retry_cb: only contexts holding a request are queued *)
Lemma retry_scan_has s now ks : forall sq sq' b, retry_scan s now ks sq = (sq', b) ->
  forall k, In k sq' -> In k sq \/ exists c m, ctx_get s k = Some c /\ cx_req c = Some m.
Proof.
  induction ks as [|k0 r IH]; intros sq sq' b H k Hin; cbn [retry_scan] in H.
  { inversion H; subst. now left. }
  destruct (ctx_get s k0) as [c|] eqn:Ec; [|eapply IH; eauto].
  destruct ((now <? cx_rtime c)%N || match cx_req c with None => true | _ => false end) eqn:Eb; [eapply IH; eauto|].
  destruct (retry_scan s now r (if has_id k0 sq then sq else sq ++ [k0])) as [sq1 b1] eqn:E1.
  inversion H; subst. destruct (IH _ _ _ E1 k Hin) as [G|G]; [|now right].
  destruct (has_id k0 sq); [now left|]. apply in_app_or in G. destruct G as [G|[<-|[]]]; [now left|].
  right. apply orb_false_iff in Eb. destruct Eb as [_ Eb]. destruct (cx_req c) as [m|] eqn:Er; [|discriminate].
  exists c, m. auto.
Qed.

(* req0_ctx_recv writes at most the context itself, keeping its id and request and keeping or dropping its reply *)
Lemma req_ctx_recv_put s k c a nb s' outs : req_ctx_recv s k c a nb = (s', outs) ->
  tx_ok outs /\
  (s' = s \/ exists c', core_le (ctx_put s k c') s' /\ cx_rid c' = cx_rid c /\ cx_req c' = cx_req c /\
                          (cx_rep c' = cx_rep c \/ cx_rep c' = None)).
Proof.
  intros H. unfold req_ctx_recv in H.
  destruct (match cx_recv c with Some _ => true | None => false end
            || (match cx_req c with None => true | _ => false end) && (match cx_rep c with None => true | _ => false end)).
  - destruct (cx_creset c); inversion H; subst; (split; [tx_ok_trivial|]); [right; eexists; split; [core_le_by_fields|cbn; auto]|now left].
  - destruct (cx_rep c) eqn:Er; [|destruct nb]; inversion H; subst; (split; [tx_ok_trivial|]);
      [right; eexists; split; [core_le_by_fields|cbn; auto]|now left|right; eexists; split; [core_le_by_fields|cbn; auto]].
Qed.

(* what a step is made of: changes to other fields (core_le) around at most one of the entry points, which
   the invariants treat one by one; outputs not produced by an entry point hand nothing to a transport *)
Inductive step_parts (fx : rfix) (s s' : req) (outs : list pout) : Prop :=
| sp_view : core_le s s' -> tx_ok outs -> step_parts fx s s' outs
| sp_send k c a nb m cl : ctx_get s k = Some c -> req_ctx_send fx s k c a nb m = (s', outs, cl) -> step_parts fx s s' outs
| sp_cancel f k c s2 c2 : find_ctx f (rq_ctxs s) = Some (k, c) -> reset_flow fx s k c s2 c2 outs -> s' = ctx_put s2 k c2 ->
    step_parts fx s s' outs
| sp_runq s1 o2 cl : core_le s s1 -> run_send_queue fx s1 = (s', o2, cl) -> (tx_ok o2 -> tx_ok outs) -> step_parts fx s s' outs
| sp_pclose s1 f p cl : core_le s s1 -> pipe_close_loop fx f s1 p = (s', outs, cl) -> step_parts fx s s' outs
| sp_recvdone p m cl : req_stepL fx s (PRecvDone p 0 m) = (s', outs, cl) -> step_parts fx s s' outs
| sp_put k c c' : ctx_get s k = Some c -> core_le (ctx_put s k c') s' -> cx_rid c' = cx_rid c -> cx_req c' = cx_req c ->
    (cx_rep c' = cx_rep c \/ cx_rep c' = None) -> tx_ok outs -> step_parts fx s s' outs
| sp_open k c : ctx_get s k = None -> cx_req c = None -> cx_rep c = None ->
    s' = set_ctxs s (rq_ctxs s ++ [(k, c)]) -> outs = [] -> step_parts fx s s' outs
| sp_close k c s1 c1 : ctx_get s k = Some c -> reset_flow fx s k c s1 c1 outs ->
    s' = set_ctxs s1 (assoc_del k (rq_ctxs s1)) -> step_parts fx s s' outs
| sp_sockclose s0 c s2 c2 : core_le s s0 -> ctx_get s0 0%N = Some c -> reset_flow fx s0 0%N c s2 c2 outs ->
    s' = ctx_put s2 0%N c2 -> step_parts fx s s' outs.

Lemma req_stepL_parts fx s o s' outs cl : op_ok s o -> req_stepL fx s o = (s', outs, cl) -> step_parts fx s s' outs.
Proof.
  intros OK H. destruct o as [c a nb m|c a nb|a rv|p peer|p|p rv|p rv m|c op|c|c| |now]; unfold req_stepL in H.
  - destruct (ctx_get s (ckey c)) as [cx|] eqn:P; [eapply sp_send; eauto|].
    inversion H; subst. apply sp_view; [core_le_by_fields|tx_ok_trivial].
  - destruct (ctx_get s (ckey c)) as [cx|] eqn:P; [|inversion H; subst; apply sp_view; [core_le_by_fields|tx_ok_trivial]].
    destruct (req_ctx_recv s (ckey c) cx a nb) as [s1 o1] eqn:E. inversion H; subst.
    destruct (req_ctx_recv_put _ _ _ _ _ _ _ E) as [T [->|(c' & C & R)]]; [apply sp_view; [core_le_by_fields|exact T]|].
    destruct R as (R1 & R2 & R3). eapply sp_put; eauto.
  - destruct (find_ctx (fun c => opt_is a (cx_recv c)) (rq_ctxs s)) as [[k c]|] eqn:F1.
    + destruct (req_cancel_recv fx s k c a rv) as [s1 o1] eqn:E. inversion H; subst.
      apply req_cancel_recv_flow in E as (s2 & c2 & F & ->). eapply sp_cancel; eauto.
    + destruct (find_ctx (fun c => opt_is a (cx_send c)) (rq_ctxs s)) as [[k c]|] eqn:F2.
      * destruct (req_cancel_send fx s k c a rv) as [s1 o1] eqn:E. inversion H; subst.
        apply req_cancel_send_flow in E as (s2 & c2 & F & ->). eapply sp_cancel; eauto.
      * inversion H; subst. apply sp_view; [core_le_by_fields|tx_ok_trivial].
  - destruct (negb (peer =? PROTO_REP)%N). { inversion H; subst. apply sp_view; [core_le_by_fields|tx_ok_trivial]. }
    cbv zeta in H.
    match type of H with context [run_send_queue fx ?X] => destruct (run_send_queue fx X) as [[s2 o2] cl2] eqn:E end.
    inversion H; subst. eapply sp_runq; [|exact E|intros T; apply tx_ok_app; [exact T|tx_ok_trivial]]. core_le_by_fields.
  - cbv zeta in H. eapply sp_pclose; [|exact H]. core_le_by_fields.
  - cbv zeta in H.
    destruct (negb (rv =? 0)%N). { inversion H; subst. apply sp_view; [core_le_by_fields|apply tx_ok_app; [apply tx_ok_map_free|tx_ok_trivial]]. }
    match type of H with context [if ?b then _ else _] => destruct b end.
    { inversion H; subst. apply sp_view; [core_le_by_fields|tx_ok_trivial]. }
    eapply sp_runq; [|exact H|auto]. core_le_by_fields.
  - destruct (N.eqb_spec rv 0) as [->|Hne]; [eapply sp_recvdone; exact H|].
    cbn [negb] in H. inversion H; subst. apply sp_view; [core_le_by_fields|tx_ok_trivial].
  - (* every option either leaves the contexts alone or writes one back with its id, request and reply unchanged *)
    destruct op, c;
    try (destruct (ctx_get s (ckey (Some n))) as [cx|] eqn:P);
    try (destruct (ctx_get s (ckey None)) as [cx|] eqn:P);
    repeat match type of H with context [if ?b then _ else _] => destruct b end;
    inversion H; subst;
    first [apply sp_view; [core_le_by_fields|tx_ok_trivial] | eapply sp_put; [exact P|core_le_by_fields| | |left|tx_ok_trivial]; reflexivity].
  - inversion H; subst. apply sp_open with (k := (c + 1)%N) (c := ctx_init (rq_retry s)); [exact OK|reflexivity..].
  - destruct (ctx_get s (c + 1)%N) as [cx|] eqn:P; [|inversion H; subst; apply sp_view; [core_le_by_fields|tx_ok_trivial]].
    destruct (req_ctx_fini fx s (c + 1)%N cx) as [[s1 c1] o1] eqn:E. inversion H; subst.
    apply req_ctx_fini_flow in E. eapply sp_close; eauto.
  - cbv zeta in H.
    destruct (ctx_get (set_closed s true) 0%N) as [cx|] eqn:P; [|inversion H; subst; apply sp_view; [core_le_by_fields|tx_ok_trivial]].
    destruct (req_ctx_fini fx (set_closed s true) 0%N cx) as [[s2 c2] o2] eqn:E. inversion H; subst.
    apply req_ctx_fini_flow in E. eapply sp_sockclose; [|exact P|exact E|reflexivity]. core_le_by_fields.
  - cbv zeta in H.
    destruct (rq_closed (set_now s now) || negb (rq_active (set_now s now))). { inversion H; subst. apply sp_view; [core_le_by_fields|tx_ok_trivial]. }
    destruct (rq_tickdl (set_now s now)) as [d|]; [|inversion H; subst; apply sp_view; [core_le_by_fields|tx_ok_trivial]].
    destruct (negb (d <? now)%N). { inversion H; subst. apply sp_view; [core_le_by_fields|tx_ok_trivial]. }
    destruct (retry_scan (set_now s now) now (rq_retryq (set_now s now)) (rq_sendq (set_now s now))) as [sq resched] eqn:ES.
    assert (C1 : forall s1, rq_ctxs s1 = rq_ctxs s -> rq_ids s1 = rq_ids s -> rq_cursor s1 = rq_cursor s ->
                 rq_plist s1 = rq_plist s -> rq_sendq s1 = sq -> core_le s s1).
    { intros s1 A B C D E. unfold core_le. rewrite A, B, C, D, E. repeat (split; [auto|]).
      exact (retry_scan_has _ _ _ _ _ _ ES). }
    match type of H with context [if is_nil ?l then _ else _] => destruct (is_nil l) end; destruct resched.
    + match type of H with context [run_send_queue fx ?X] => destruct (run_send_queue fx X) as [[s3 o3] cl3] eqn:E end.
      inversion H; subst. eapply sp_runq; [|exact E|].
      * apply C1; reflexivity.
      * intros T. exact T.
    + inversion H; subst. apply sp_view; [|tx_ok_trivial]. apply C1; reflexivity.
    + match type of H with context [run_send_queue fx ?X] => destruct (run_send_queue fx X) as [[s3 o3] cl3] eqn:E end.
      inversion H; subst. eapply sp_runq; [|exact E|].
      * apply C1; reflexivity.
      * intros T. unfold arm_out, tick_deadline. tx_ok_trivial. exact T.
    + inversion H; subst. apply sp_view; [apply C1; reflexivity|]. unfold arm_out, tick_deadline. tx_ok_trivial.
Qed.

Lemma req_stepL_inv fx s o s' outs cl :
  ids_inv s -> op_ok s o -> req_stepL fx s o = (s', outs, cl) -> ids_inv s' /\ tx_ok outs.
Proof.
  intros I OK H.
  destruct (req_stepL_parts _ _ _ _ _ _ OK H) as [C T|k c a nb m cl' P E|f k c s2 c2 F E ->
    |s1 o2 cl' C E T|s1 f p cl' C E|p m cl' E|k c c' P C R1 R2 _ T|k c P R1 _ -> ->|k c s1 c1 P E ->|s0 c s2 c2 C P E ->].
  - split; [exact (core_le_ids _ _ C I)|exact T].
  - eapply req_ctx_send_inv; eauto.
  - apply (find_ctx_get _ _ _ _ I) in F. destruct (reset_flow_inv _ _ _ _ _ _ _ I F E) as (_ & T & I2). auto.
  - apply run_send_queue_inv in E; [|exact (core_le_ids _ _ C I)]. destruct E as [I2 T2]. auto.
  - eapply pcl_inv; [exact (core_le_ids _ _ C I)|exact E].
  - eapply req_recvdone_inv; eauto.
  - split; [|exact T]. apply (core_le_ids _ _ C). eapply same_keys_inv; [|exact I]. now apply (same_keys_put s k c).
  - split; [now apply ctx_open_inv|tx_ok_trivial].
  - destruct (reset_flow_inv _ _ _ _ _ _ _ I P E) as [EX [T _]]. split; [now apply except_del|exact T].
  - destruct (reset_flow_inv _ _ _ _ _ _ _ (core_le_ids _ _ C I) P E) as [_ [T I2]]. split; assumption.
Qed.

Lemma ids_inv_init : ids_inv req_init.
Proof.
  constructor.
  - cbn. constructor; [tauto|constructor].
  - cbn. unfold cursor_ok, REQ_ID_MIN, REQ_ID_MAX. lia.
  - intros id k H. cbn in H. discriminate.
  - intros k c m H1 H2. unfold ctx_get in H1. destruct k; cbn in H1; [|discriminate].
    inversion H1; subst. cbn in H2. discriminate.
Qed.

(* asks less of the environment than PollModel.reachable (PollReq.M_req fx): only op_ok, not PollReq.req_ok *)
Inductive req_reach (fx : rfix) : req -> Prop :=
| reach_init : req_reach fx req_init
| reach_step s o : req_reach fx s -> op_ok s o -> req_reach fx (fst (req_step fx s o)).

Lemma req_step_inv fx s o s' outs :
  ids_inv s -> op_ok s o -> req_step fx s o = (s', outs) -> ids_inv s' /\ tx_ok outs.
Proof.
  intros I OK H. unfold req_step in H. destruct (req_stepL fx s o) as [[s1 o1] cl] eqn:E.
  inversion H; subst. eapply req_stepL_inv; eauto.
Qed.

Lemma reach_inv fx s : req_reach fx s -> ids_inv s.
Proof.
  induction 1 as [|s o R IH OK]; [apply ids_inv_init|].
  destruct (req_step fx s o) as [s' outs] eqn:E. cbn [fst]. eapply req_step_inv; eauto.
Qed.

(* requests[id] = k  ==>  context k holds, now, a request whose id is `id` *)
Lemma req_registered_is_current fx s id k :
  req_reach fx s -> lookup id (rq_ids s) = Some k ->
  exists c r, ctx_get s k = Some c /\ cx_rid c = id /\ cx_req c = Some r /\ pm_hdr r = be32 id /\ cursor_ok id.
Proof.
  intros R L. apply reach_inv in R. destruct (inv_ids s R id k L) as [c [H1 [H2 H3]]].
  destruct (cx_req c) as [r|] eqn:Er; [|congruence]. destruct (inv_req s R k c r H1 Er) as [G1 G2].
  exists c, r. subst id. auto.
Qed.

(* a context that holds no request (never sent, answered, or abandoned in any way)
   and a context that is closed have no id registered *)
Lemma req_no_request_no_id fx s k :
  req_reach fx s -> (ctx_get s k = None \/ exists c, ctx_get s k = Some c /\ cx_req c = None) ->
  forall id, lookup id (rq_ids s) <> Some k.
Proof.
  intros R H id L. destruct (req_registered_is_current _ _ _ _ R L) as [c [r [H1 [_ [H3 _]]]]].
  destruct H as [H|[c' [H H']]]; rewrite H in H1; [discriminate|]. inversion H1; subst. congruence.
Qed.

(* a reply is delivered only to the context whose CURRENT request carries the arriving
   id and has left the send queue *)
Lemma req_reply_current fx s p rv m s' outs a b :
  req_reach fx s -> req_step fx s (PRecvDone p rv m) = (s', outs) -> In (Complete a E_OK (Some b)) outs ->
  exists id k c r, req_recv (pm_body m) = Some (id, b) /\ ctx_get s k = Some c /\ cx_recv c = Some a /\
    cx_rid c = id /\ cx_req c = Some r /\ pm_hdr r = be32 id /\ cx_send c = None /\ cx_rep c = None.
Proof.
  intros R H Hin. destruct (req_recvdone_delivery _ _ _ _ _ _ _ _ _ H Hin) as [_ [id [k [c [ER [[L [G [S1 S2]]] RA]]]]]].
  destruct (req_registered_is_current _ _ _ _ R L) as [c' [r [H1 [H2 [H3 [H4 _]]]]]].
  rewrite G in H1. inversion H1; subst c'. exists id, k, c, r. auto 10.
Qed.

(* what is handed to a transport: exactly one request id, then the body *)
Lemma req_step_tx fx s o s' outs p x :
  req_reach fx s -> op_ok s o -> req_step fx s o = (s', outs) -> In (TranSend p x) outs ->
  exists id, cursor_ok id /\ pm_hdr x = be32 id /\ wire_of x = be32 id ++ pm_body x.
Proof.
  intros R OK H Hin. apply reach_inv in R. destruct (req_step_inv _ _ _ _ _ R OK H) as [_ T].
  destruct (T p x Hin) as [id [C E]]. exists id. unfold wire_of. rewrite E. auto.
Qed.

(* the header the application leaves on a message does not influence the step *)
Lemma req_send_header_independent fx s c a nb h h' b :
  req_step fx s (PSend c a nb (mkPmsg h b)) = req_step fx s (PSend c a nb (mkPmsg h' b)).
Proof. unfold req_step, req_stepL. destruct (ctx_get s (ckey c)); reflexivity. Qed.

(* witness: a send queued for want of a pipe and cancelled leaves no id behind; the
   peer naming that id (REQ_ID_MIN+1, never transmitted) is ignored, the reply to the
   next request (REQ_ID_MIN+2) is delivered, once *)
Definition w_abandon : list pop :=
  [PSend None 0%N false w_req; PCancel 0%N E_CANCELED; PPipeStart 1%N PROTO_REP; PSend None 1%N false (mkPmsg [9%N; 9%N; 9%N; 9%N] [170%N; 2%N]);
   PRecv None 2%N false; PRecvDone 1%N 0%N (mkPmsg [] (be32 (REQ_ID_MIN + 1) ++ [187%N]));
   PRecvDone 1%N 0%N (mkPmsg [] (be32 (REQ_ID_MIN + 2) ++ [188%N])); PRecvDone 1%N 0%N (mkPmsg [] (be32 (REQ_ID_MIN + 2) ++ [189%N]))].
Lemma req_abandoned_id_w :
  let outs := outs_of (snd (req_run fx_repaired req_init w_abandon)) in
  nth 1 outs [] = [Complete 0%N E_CANCELED None] /\
  nth 3 outs [] = [Complete 1%N E_OK None; TranSend 1%N (mkPmsg (be32 (REQ_ID_MIN + 2)) [170%N; 2%N])] /\
  nth 5 outs [] = [TranRecv 1%N; Free (mkPmsg [] [187%N])] /\
  nth 6 outs [] = [TranRecv 1%N; Free (mkPmsg (be32 (REQ_ID_MIN + 2)) [170%N; 2%N]); Complete 2%N E_OK (Some (mkPmsg [] [188%N]))] /\
  nth 7 outs [] = [TranRecv 1%N; Free (mkPmsg [] [189%N])].
Proof. vm_compute. repeat split. Qed.
