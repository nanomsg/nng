(* BusProofs: invariant, fan-out law, no echo, per-peer FIFO, whole-message drops,
   receive order, conservation of references, non-blocking / poll mirror for BusModel. *)
From Coq Require Import List Arith NArith Bool Lia.
From NngV Require Import Proto.Common Proto.PushProofs Proto.PullProofs Proto.BusModel Proto.KeyedList.
From NngV Require Base.ListX Base.Bytes.
Import ListNotations.

Ltac simp_b := cbn [bs_raw bs_pipes bs_rq bs_rcap bs_wait bs_sendbuf bs_sending bs_readable bs_lost
                    bp_id bp_busy bp_q bp_cap] in *.

Definition pipe_ids (s : bus) : list pid := map bp_id (bs_pipes s).
Definition find_pipe (p : pid) (l : list bpipe) : option bpipe := find (is_pipe p) l.
Definition pq (p : pid) (s : bus) : list pmsg :=
  match find_pipe p (bs_pipes s) with Some bp => bp_q bp | None => [] end.
Fixpoint txs_on (p : pid) (outs : list pout) : list pmsg :=
  match outs with
  | [] => []
  | TranSend q m :: r => if N.eqb q p then m :: txs_on p r else txs_on p r
  | _ :: r => txs_on p r
  end.
Fixpoint completions (outs : list pout) : list (aioid * N) :=
  match outs with [] => [] | Complete a rv _ :: r => (a, rv) :: completions r | _ :: r => completions r end.

Lemma txs_on_app p a b : txs_on p (a ++ b) = txs_on p a ++ txs_on p b.
Proof. induction a as [|[] a IH]; cbn; rewrite ?IH; auto. destruct (N.eqb p0 p); cbn; congruence. Qed.
Lemma txs_on_map_Free p l : txs_on p (map Free l) = [].
Proof. induction l; cbn; auto. Qed.
Lemma txs_on_fail p rv l : txs_on p (fail_aios rv l) = [].
Proof. induction l; cbn; auto. Qed.
Lemma txs_on_map_other p q l : q <> p -> txs_on p (map (TranSend q) l) = [].
Proof. intros H. induction l; cbn; auto. destruct (N.eqb_spec q p); [contradiction|auto]. Qed.
Lemma txs_on_map_same p l : txs_on p (map (TranSend p) l) = l.
Proof. induction l; cbn; auto. rewrite N.eqb_refl. congruence. Qed.
Lemma completions_app a b : completions (a ++ b) = completions a ++ completions b.
Proof. induction a as [|[] a IH]; cbn; rewrite ?IH; auto. Qed.
Lemma delivered_app a b : delivered (a ++ b) = delivered a ++ delivered b.
Proof.
  induction a as [|x a IH]; cbn; auto. destruct x; auto. destruct m; auto.
  destruct (N.eqb rv 0); cbn; congruence.
Qed.
Lemma delivered_map_TranSend p l : delivered (map (TranSend p) l) = [].
Proof. induction l; cbn; auto. Qed.

Lemma nodup_app_intro {A} (l1 l2 : list A) :
  NoDup l1 -> NoDup l2 -> (forall x, In x l1 -> In x l2 -> False) -> NoDup (l1 ++ l2).
Proof.
  induction l1 as [|a l IH]; cbn; intros H1 H2 H; [exact H2|]. inversion H1; subst. constructor.
  - intros Hin. apply in_app_or in Hin as [Hin|Hin]; [auto|]. eapply H; eauto.
  - apply IH; auto. intros x Hx. apply H. now right.
Qed.

Lemma dec_enc32 v : (v < 4294967296)%N -> dec32 (enc32 v) = v.
Proof. intros H. pose proof (Bytes.digits32 v H). unfold dec32, enc32. cbn [fold_left]. lia. Qed.
Lemma enc32_length v : length (enc32 v) = 4.
Proof. reflexivity. Qed.

Lemma offer_pipe_id raw sender m bp : bp_id (offer_pipe raw sender m bp) = bp_id bp.
Proof. unfold offer_pipe. destruct (offer_kind raw sender bp); reflexivity. Qed.
Lemma offer_pipe_cap raw sender m bp : bp_cap (offer_pipe raw sender m bp) = bp_cap bp.
Proof. unfold offer_pipe. destruct (offer_kind raw sender bp); reflexivity. Qed.

(* what each verdict of the fan-out loop says about the pipe *)
Lemma offer_kind_direct raw sd bp : offer_kind raw sd bp = ODirect -> bp_busy bp = false.
Proof.
  unfold offer_kind. destruct (raw && _); [discriminate|]. destruct (bp_busy bp); cbn [negb]; [|reflexivity].
  destruct (_ <? _); discriminate.
Qed.
Lemma offer_kind_queued raw sd bp : offer_kind raw sd bp = OQueued -> bp_busy bp = true /\ length (bp_q bp) < bp_cap bp.
Proof.
  unfold offer_kind. destruct (raw && _); [discriminate|]. destruct (bp_busy bp); cbn [negb]; [|discriminate].
  destruct (Nat.ltb_spec (length (bp_q bp)) (bp_cap bp)); [auto|discriminate].
Qed.
Lemma offer_kind_dropped raw sd bp : offer_kind raw sd bp = ODropped -> bp_busy bp = true /\ bp_cap bp <= length (bp_q bp).
Proof.
  unfold offer_kind. destruct (raw && _); [discriminate|]. destruct (bp_busy bp); cbn [negb]; [|discriminate].
  destruct (Nat.ltb_spec (length (bp_q bp)) (bp_cap bp)); [discriminate|auto].
Qed.

Lemma is_pipe_true p bp : is_pipe p bp = true <-> bp_id bp = p.
Proof. unfold is_pipe. apply N.eqb_eq. Qed.
Lemma is_pipe_false p bp : is_pipe p bp = false <-> bp_id bp <> p.
Proof. unfold is_pipe. apply N.eqb_neq. Qed.

Lemma find_pipe_some p l bp : find_pipe p l = Some bp -> In bp l /\ bp_id bp = p.
Proof. apply (findk_some bp_id N.eqb N.eqb_eq). Qed.
Lemma find_pipe_none p l : ~ In p (map bp_id l) -> find_pipe p l = None.
Proof.
  intros H. destruct (find_pipe p l) as [bp|] eqn:F; [|reflexivity].
  apply find_pipe_some in F as [Hin <-]. exfalso. apply H. now apply in_map.
Qed.
Lemma find_pipe_in p l bp : NoDup (map bp_id l) -> In bp l -> bp_id bp = p -> find_pipe p l = Some bp.
Proof. apply (findk_in bp_id N.eqb N.eqb_eq). Qed.
Lemma find_pipe_map p f l : (forall bp, bp_id (f bp) = bp_id bp) ->
  find_pipe p (map f l) = option_map f (find_pipe p l).
Proof. apply (findk_map bp_id N.eqb). Qed.
Lemma find_pipe_app p l1 l2 : find_pipe p (l1 ++ l2) =
  match find_pipe p l1 with Some bp => Some bp | None => find_pipe p l2 end.
Proof. apply (findk_app bp_id N.eqb). Qed.
Lemma find_pipe_filter_self p l : find_pipe p (filter (fun bp => negb (is_pipe p bp)) l) = None.
Proof.
  induction l as [|bp l IH]; cbn; [reflexivity|]. destruct (is_pipe p bp) eqn:E; cbn; auto. now rewrite E.
Qed.
Lemma find_pipe_filter_other p q l : q <> p ->
  find_pipe p (filter (fun bp => negb (is_pipe q bp)) l) = find_pipe p l.
Proof. intros H. apply (findk_restk bp_id N.eqb N.eqb_eq). auto. Qed.
Lemma map_id_map f l : (forall bp, bp_id (f bp) = bp_id bp) -> map bp_id (map f l) = map bp_id l.
Proof. intros Hf. rewrite map_map. apply map_ext. auto. Qed.

(* what the fan-out loop emits for pipe p *)
Lemma txs_on_offer_notin raw sender m p l :
  ~ In p (map bp_id l) -> txs_on p (flat_map (offer_outs raw sender m) l) = [].
Proof.
  induction l as [|bp l IH]; cbn; intros H; [reflexivity|]. rewrite txs_on_app, IH by tauto.
  unfold offer_outs. destruct (offer_kind raw sender bp); cbn; auto.
  destruct (N.eqb_spec (bp_id bp) p); [tauto|reflexivity].
Qed.
Lemma txs_on_offer raw sender m p l : NoDup (map bp_id l) ->
  txs_on p (flat_map (offer_outs raw sender m) l) =
  match find_pipe p l with
  | Some bp => match offer_kind raw sender bp with ODirect => [m] | _ => [] end
  | None => []
  end.
Proof.
  induction l as [|bp l IH]; cbn; intros ND; [reflexivity|]. inversion ND; subst.
  rewrite txs_on_app. destruct (is_pipe p bp) eqn:E.
  - apply is_pipe_true in E. subst p. rewrite txs_on_offer_notin by assumption. rewrite app_nil_r.
    unfold offer_outs. destruct (offer_kind raw sender bp); cbn; auto. now rewrite N.eqb_refl.
  - rewrite IH by assumption. apply is_pipe_false in E.
    unfold offer_outs. destruct (offer_kind raw sender bp); cbn; auto.
    destruct (N.eqb_spec (bp_id bp) p); [contradiction|reflexivity].
Qed.
Lemma offer_sending_keys raw sender m l k :
  In k (map fst (flat_map (offer_sending raw sender m) l)) ->
  exists bp, In bp l /\ bp_id bp = k /\ offer_kind raw sender bp = ODirect.
Proof.
  induction l as [|bp l IH]; cbn; [tauto|]. rewrite map_app, in_app_iff. intros [H|H].
  - unfold offer_sending in H. destruct (offer_kind raw sender bp) eqn:K; cbn in H; try tauto.
    destruct H as [<-|[]]. exists bp. auto.
  - destruct (IH H) as (b & A & B & C). exists b. auto.
Qed.
Lemma nodup_offer_sending raw sender m l :
  NoDup (map bp_id l) -> NoDup (map fst (flat_map (offer_sending raw sender m) l)).
Proof.
  induction l as [|bp l IH]; cbn; intros ND; [constructor|]. inversion ND; subst.
  rewrite map_app. unfold offer_sending at 1. destruct (offer_kind raw sender bp); cbn; auto.
  constructor; auto. intros Hin. apply offer_sending_keys in Hin as (b & A & B & _).
  apply H1. rewrite <- B. now apply in_map.
Qed.
Lemma nodup_ids_inj l b1 b2 : NoDup (map bp_id l) -> In b1 l -> In b2 l -> bp_id b1 = bp_id b2 -> b1 = b2.
Proof.
  intros ND H1 H2 E. pose proof (find_pipe_in _ l b1 ND H1 E) as F.
  rewrite (find_pipe_in _ l b2 ND H2 eq_refl) in F. congruence.
Qed.
(* the fan-out loop only transmits: an observer of anything else sees nothing in its outputs *)
Lemma offer_outs_silent {A} (f : list pout -> list A) raw sender m l :
  (forall a b, f (a ++ b) = f a ++ f b) -> f [] = [] -> (forall p, f [TranSend p m] = []) ->
  f (flat_map (offer_outs raw sender m) l) = [].
Proof.
  intros Fa F0 Ft. induction l as [|bp l IH]; cbn; [exact F0|]. rewrite Fa, IH, app_nil_r.
  unfold offer_outs. destruct (offer_kind raw sender bp); auto.
Qed.
Lemma freed_offer raw sender m l : freed (flat_map (offer_outs raw sender m) l) = [].
Proof. apply offer_outs_silent; auto using freed_app. Qed.
Lemma delivered_offer raw sender m l : delivered (flat_map (offer_outs raw sender m) l) = [].
Proof. apply offer_outs_silent; auto using delivered_app. Qed.
Lemma completions_offer raw sender m l : completions (flat_map (offer_outs raw sender m) l) = [].
Proof. apply offer_outs_silent; auto using completions_app. Qed.

Definition pipe_ok (s : bus) (bp : bpipe) : Prop :=
  length (bp_q bp) <= bp_cap bp /\
  (bp_busy bp = false -> bp_q bp = [] /\ ~ In (bp_id bp) (map fst (bs_sending s))) /\
  bp_id bp <> 0%N /\ (bp_id bp < 4294967296)%N.

Definition BInv (s : bus) : Prop :=
  NoDup (pipe_ids s) /\ Forall (pipe_ok s) (bs_pipes s) /\ NoDup (map fst (bs_sending s)) /\
  length (bs_rq s) <= bs_rcap s /\ (bs_wait s <> [] -> bs_rq s = []) /\ NoDup (bs_wait s) /\
  bs_readable s = negb (is_nil (bs_rq s)).

(* the environment's side: a pipe is started once, with an id out of the pipe id
   range (IdMapProps.idmap_alloc_fresh_in_range: ids are never 0 and fit 32 bits); a transport completion
   belongs to a transport send in flight; an aio is submitted once at a time *)
Definition op_ok (s : bus) (o : pop) : Prop :=
  match o with
  | PPipeStart p _ => ~ In p (pipe_ids s) /\ ~ In p (map fst (bs_sending s)) /\ p <> 0%N /\ (p < 4294967296)%N
  | PSendDone p _ => In p (map fst (bs_sending s))
  | PRecv _ a _ => ~ In a (bs_wait s)
  | PCancel _ rv => rv <> 0%N
  | _ => True
  end.

Lemma bus_init_inv raw : BInv (bus_init raw).
Proof.
  unfold BInv, bus_init, pipe_ids. simp_b. cbn.
  repeat split; auto; try constructor; try lia.
Qed.

Lemma buf_bad_false n : buf_bad n = false -> 1 <= n.
Proof.
  unfold buf_bad, BUS_BUF_MIN, BUS_BUF_MAX. intros H. apply orb_false_iff in H as [A _].
  apply N.ltb_ge in A. lia.
Qed.

Lemma flat_next_find p l : NoDup (map bp_id l) ->
  flat_map (fun bp => if is_pipe p bp then snd (pipe_next bp) else []) l =
  match find_pipe p l with Some bp => snd (pipe_next bp) | None => [] end.
Proof.
  induction l as [|bp l IH]; cbn; intros ND; [reflexivity|]. inversion ND; subst.
  destruct (is_pipe p bp) eqn:E.
  - apply is_pipe_true in E. subst p. rewrite IH by assumption. rewrite find_pipe_none by assumption.
    now rewrite app_nil_r.
  - now apply IH.
Qed.
Lemma next_pipe_id bp : bp_id (fst (pipe_next bp)) = bp_id bp.
Proof. unfold pipe_next. destruct (bp_q bp); reflexivity. Qed.
Lemma find_pipe_next p q l :
  find_pipe p (map (fun bp => if is_pipe q bp then fst (pipe_next bp) else bp) l) =
  if N.eqb p q then option_map (fun bp => fst (pipe_next bp)) (find_pipe p l) else find_pipe p l.
Proof. apply (findk_updk bp_id N.eqb N.eqb_eq). exact next_pipe_id. Qed.
Lemma pipe_next_len bp : length (snd (pipe_next bp)) <= 1.
Proof. unfold pipe_next. destruct (bp_q bp); cbn; lia. Qed.

Lemma is_nil_firstn {A} n (l : list A) : 1 <= n -> is_nil (firstn n l) = is_nil l.
Proof. intros H. destruct n; [lia|]. destruct l; reflexivity. Qed.

Theorem bus_step_inv fixed s o s' outs :
  BInv s -> op_ok s o -> bus_step fixed s o = (s', outs) -> BInv s'.
Proof.
  intros (I1 & I2 & I3 & I4 & I5 & I6 & I7) Hok H. unfold BInv, pipe_ids in *.
  destruct o as [c a nb m|c a nb|a rv|p peer|p|p rv|p rv m|c []|c|c| |now]; cbn [bus_step op_ok] in *;
    try (injection H as <- <-; repeat split; auto; fail).
  - destruct (negb fixed && nb); injection H as <- <-; simp_b.
    + repeat split; auto.
    + set (raw := bs_raw s) in *. set (sender := fst (bus_prep raw m)) in *. set (m' := snd (bus_prep raw m)) in *.
      rewrite (map_id_map _ _ (offer_pipe_id raw sender m')).
      split; [exact I1|]. split; [|split; [|repeat split; auto]].
      * (* every pipe stays well-formed *)
        apply Forall_forall. intros b Hb. apply in_map_iff in Hb as (bp & <- & Hin).
        pose proof (proj1 (Forall_forall _ _) I2 bp Hin) as (P1 & P2 & P3 & P4).
        unfold pipe_ok. rewrite offer_pipe_id, offer_pipe_cap. simp_b.
        unfold offer_pipe. destruct (offer_kind raw sender bp) eqn:K; simp_b.
        -- (* skipped: unchanged; if idle it holds nothing, also after the others were served *)
           repeat split; auto; try (apply P2; assumption).
           intros Hin2. rewrite map_app in Hin2. apply in_app_or in Hin2 as [Hin2|Hin2].
           ++ apply offer_sending_keys in Hin2 as (b2 & A & B & C).
              assert (b2 = bp) by (eapply nodup_ids_inj; eauto). subst b2. congruence.
           ++ apply (proj2 (P2 H)). exact Hin2.
        -- repeat split; auto; discriminate.
        -- destruct (offer_kind_queued _ _ _ K) as [B L]. rewrite B.
           repeat split; auto; try discriminate. rewrite app_length. cbn. lia.
        -- destruct (offer_kind_dropped _ _ _ K) as [B _]. rewrite B.
           repeat split; auto; discriminate.
      * (* at most one message attached per pipe *)
        rewrite map_app. apply nodup_app_intro.
        -- now apply nodup_offer_sending.
        -- exact I3.
        -- intros k Hk Hk2. apply offer_sending_keys in Hk as (bp & A & B & C).
           pose proof (proj1 (Forall_forall _ _) I2 bp A) as (_ & P2 & _).
           apply (proj2 (P2 (offer_kind_direct _ _ _ C))). now rewrite B.
  - destruct (bs_rq s) as [|x rest] eqn:RQ.
    + destruct nb; injection H as <- <-; simp_b; rewrite ?RQ.
      * repeat split; auto.
      * repeat split; auto. now apply ListX.nodup_snoc.
    + injection H as <- <-; simp_b. cbn [length] in I4. repeat split; auto; try lia.
      * intros Hne. discriminate (I5 Hne).
      * destruct rest; cbn; auto.
  - destruct (has_id a (bs_wait s)); injection H as <- <-; simp_b; repeat split; auto.
    + intros Hne. apply I5. intros E. rewrite E in Hne. now apply Hne.
    + now apply NoDup_filter.
  - destruct (negb (peer =? PROTO_BUS)%N); injection H as <- <-; simp_b; [repeat split; auto|].
    destruct Hok as (O1 & O2 & O3 & O4). rewrite map_app. cbn [map bp_id].
    repeat split; auto.
    + now apply ListX.nodup_snoc.
    + apply Forall_app. split; [exact I2|]. constructor; [|constructor].
      unfold pipe_ok. simp_b. cbn. repeat split; auto; lia.
  - injection H as <- <-; simp_b. repeat split; auto.
    + now apply ListX.nodup_filter.
    + exact (incl_Forall (incl_filter _ _) I2).
  - destruct (negb (rv =? 0)%N); injection H as <- <-; simp_b.
    + repeat split; auto.
      * eapply Forall_impl; [|exact I2]. intros b (P1 & P2 & P3 & P4).
        unfold pipe_ok. simp_b. repeat split; auto; try (apply P2; assumption).
        intros Hin. apply (proj2 (P2 H)). unfold drop_sending in Hin. eapply ListX.in_map_filter; eauto.
      * unfold drop_sending. now apply ListX.nodup_filter.
    + rewrite (flat_next_find p _ I1).
      rewrite map_id_map by (intros bp; destruct (is_pipe p bp); [apply next_pipe_id|reflexivity]).
      split; [exact I1|]. split; [|split; [|repeat split; auto]].
      * apply Forall_forall. intros b Hb. apply in_map_iff in Hb as (bp & <- & Hin).
        pose proof (proj1 (Forall_forall _ _) I2 bp Hin) as (P1 & P2 & P3 & P4).
        destruct (is_pipe p bp) eqn:E.
        -- apply is_pipe_true in E. subst p. rewrite (find_pipe_in (bp_id bp) _ bp I1 Hin eq_refl).
           unfold pipe_next. destruct (bp_q bp) as [|x r] eqn:Q; unfold pipe_ok; cbn [fst snd map app]; simp_b; cbn [length] in *.
           ++ split; [lia|]. split; [|auto]. intros _. split; [reflexivity|]. unfold drop_sending. apply ListX.notin_filter_self.
           ++ split; [lia|]. split; [|auto]. intros B. destruct (P2 B) as [F _]. discriminate.
        -- apply is_pipe_false in E. unfold pipe_ok. simp_b. repeat split; auto; try (apply P2; assumption).
           intros Hin2. rewrite map_app in Hin2. apply in_app_or in Hin2 as [Hin2|Hin2].
           ++ rewrite map_map in Hin2. cbn [fst] in Hin2. apply in_map_iff in Hin2 as (? & Hp & _). congruence.
           ++ apply (proj2 (P2 H)). unfold drop_sending in Hin2. eapply ListX.in_map_filter; eauto.
      * rewrite map_app, map_map. cbn [fst].
        assert (ND: NoDup (map fst (drop_sending p (bs_sending s)))) by (unfold drop_sending; now apply ListX.nodup_filter).
        assert (NI: ~ In p (map fst (drop_sending p (bs_sending s)))) by (unfold drop_sending; apply ListX.notin_filter_self).
        destruct (find_pipe p (bs_pipes s)) as [bp|]; [|exact ND].
        pose proof (pipe_next_len bp) as L. destruct (snd (pipe_next bp)) as [|x [|y r]]; cbn in *; try lia; auto.
        constructor; auto.
  - destruct (negb (rv =? 0)%N); [injection H as <- <-; repeat split; auto|].
    destruct (bs_wait s) as [|a rest] eqn:W.
    + destruct (length (bs_rq s) <? bs_rcap s) eqn:L; injection H as <- <-; simp_b; rewrite ?W.
      * apply Nat.ltb_lt in L. repeat split; auto.
        -- rewrite app_length. cbn. lia.
        -- intros F. now contradiction F.
        -- destruct (bs_rq s); reflexivity.
      * repeat split; auto.
    + injection H as <- <-; simp_b. repeat split; auto.
      * intros _. apply I5. discriminate.
      * now inversion I6.
  - destruct (buf_bad n) eqn:BB; injection H as <- <-; simp_b; [repeat split; auto|].
    rewrite map_id_map by reflexivity. repeat split; auto.
    apply Forall_map. eapply Forall_impl; [|exact I2]. intros bp (P1 & P2 & P3 & P4).
    unfold pipe_ok. simp_b. repeat split; auto.
    + rewrite firstn_length. lia.
    + destruct (P2 H) as [Q _]. rewrite Q. now rewrite firstn_nil.
    + apply P2. assumption.
  - destruct (buf_bad n) eqn:BB; injection H as <- <-; simp_b; [repeat split; auto|].
    apply buf_bad_false in BB. repeat split; auto.
    + rewrite firstn_length. lia.
    + intros Hne. rewrite (I5 Hne). now rewrite firstn_nil.
    + rewrite is_nil_firstn by assumption. exact I7.
  - injection H as <- <-; simp_b. repeat split; auto. constructor.
Qed.

(* An operation works on the peers' send queues or on the receive queue, never on
   both: the lemmas below say what the other half is left with.  (PSockClose counts as a
   receive operation: BusModel's close fails the waiting receivers and leaves the pipes alone.) *)
Definition send_op (o : pop) : bool :=
  match o with
  | PSend _ _ _ _ | PPipeStart _ _ | PPipeClose _ | PSendDone _ _ | PSetOpt _ (OSendBuf _) => true
  | _ => false
  end.
Definition recv_op (o : pop) : bool :=
  match o with
  | PRecv _ _ _ | PCancel _ _ | PRecvDone _ _ _ | PSetOpt _ (ORecvBuf _) | PSockClose => true
  | _ => false
  end.

Lemma send_frame fixed s o s' outs : bus_step fixed s o = (s', outs) -> send_op o = false ->
  bs_pipes s' = bs_pipes s /\ bs_sending s' = bs_sending s /\ bs_lost s' = bs_lost s /\ forall p, txs_on p outs = [].
Proof.
  intros H SO. destruct o as [|c a nb|a rv| | | |q rv m|c []|c|c| |now]; try discriminate SO; cbn [bus_step] in H;
    try (injection H as <- <-; now repeat split).
  - destruct (bs_rq s); [destruct nb|]; injection H as <- <-; now repeat split.
  - destruct (has_id a (bs_wait s)); injection H as <- <-; now repeat split.
  - destruct (negb (rv =? 0)%N); [|destruct (bs_wait s); [destruct (length (bs_rq s) <? bs_rcap s)|]];
      injection H as <- <-; now repeat split.
  - destruct (buf_bad n); injection H as <- <-; repeat split; auto. intros p. now rewrite txs_on_app, txs_on_map_Free.
  - injection H as <- <-. repeat split; auto. intros p. apply txs_on_fail.
Qed.

Lemma recv_frame fixed s o s' outs : bus_step fixed s o = (s', outs) -> recv_op o = false ->
  bs_rq s' = bs_rq s /\ bs_rcap s' = bs_rcap s /\ bs_wait s' = bs_wait s /\ bs_readable s' = bs_readable s /\
  delivered outs = [].
Proof.
  intros H RO. destruct o as [c a nb m| | |q peer|q|q rv| |c []|c|c| |now]; try discriminate RO; cbn [bus_step] in H;
    try (injection H as <- <-; now repeat split).
  - destruct (negb fixed && nb); injection H as <- <-; repeat split; auto.
    now rewrite delivered_app, delivered_offer.
  - destruct (negb (peer =? PROTO_BUS)%N); injection H as <- <-; now repeat split.
  - injection H as <- <-. repeat split; auto. apply delivered_map_Free.
  - destruct (negb (rv =? 0)%N); injection H as <- <-; repeat split; auto.
    + now rewrite delivered_app, delivered_map_Free.
    + apply delivered_map_TranSend.
  - destruct (buf_bad n); injection H as <- <-; repeat split; auto. now rewrite delivered_app, delivered_map_Free.
Qed.

(* what an accepted send does, pipe by pipe *)
Definition accepts (fixed nb : bool) : bool := negb (negb fixed && nb).
Definition sent_as (s : bus) (m : pmsg) : pmsg := snd (bus_prep (bs_raw s) m).
Definition origin (s : bus) (m : pmsg) : N := fst (bus_prep (bs_raw s) m).

Theorem bus_send_shape fixed s c a nb m s' outs :
  bus_step fixed s (PSend c a nb m) = (s', outs) ->
  if accepts fixed nb then
    s' = mkBus (bs_raw s) (map (offer_pipe (bs_raw s) (origin s m) (sent_as s m)) (bs_pipes s)) (bs_rq s) (bs_rcap s)
               (bs_wait s) (bs_sendbuf s)
               (flat_map (offer_sending (bs_raw s) (origin s m) (sent_as s m)) (bs_pipes s) ++ bs_sending s)
               (bs_readable s) (bs_lost s) /\
    outs = flat_map (offer_outs (bs_raw s) (origin s m) (sent_as s m)) (bs_pipes s) ++ [Free (sent_as s m); Complete a E_OK None]
  else
    s' = mkBus (bs_raw s) (bs_pipes s) (bs_rq s) (bs_rcap s) (bs_wait s) (bs_sendbuf s) (bs_sending s)
               (bs_readable s) (bs_lost s ++ [sent_as s m]) /\
    outs = [Complete a E_AGAIN None].
Proof.
  unfold accepts, sent_as, origin. cbn [bus_step]. destruct (negb fixed && nb); cbn [negb]; intros H; inversion H; auto.
Qed.

Theorem bus_fanout_law fixed s c a nb m s' outs :
  BInv s -> bus_step fixed s (PSend c a nb m) = (s', outs) -> accepts fixed nb = true ->
  forall p,
    find_pipe p (bs_pipes s') = option_map (offer_pipe (bs_raw s) (origin s m) (sent_as s m)) (find_pipe p (bs_pipes s)) /\
    txs_on p outs = match find_pipe p (bs_pipes s) with
                    | Some bp => match offer_kind (bs_raw s) (origin s m) bp with ODirect => [sent_as s m] | _ => [] end
                    | None => []
                    end /\
    length (txs_on p outs) + (length (pq p s') - length (pq p s)) <= 1.
Proof.
  intros HI H A p. pose proof (bus_send_shape _ _ _ _ _ _ _ _ H) as S. rewrite A in S. destruct S as [-> ->].
  destruct HI as (I1 & _). unfold pipe_ids in I1. unfold pq. simp_b.
  rewrite find_pipe_map by (intros; apply offer_pipe_id).
  rewrite txs_on_app, (txs_on_offer _ _ _ _ _ I1). cbn [txs_on]. rewrite app_nil_r.
  split; [reflexivity|]. split; [reflexivity|].
  destruct (find_pipe p (bs_pipes s)) as [bp|]; cbn [option_map]; [|cbn; lia].
  unfold offer_pipe. destruct (offer_kind (bs_raw s) (origin s m) bp); simp_b; cbn [length]; rewrite ?app_length; cbn [length]; lia.
Qed.

(* (1) nothing a socket sends comes back to its own application: a send step
       neither delivers nor buffers anything on the receive side, and it only
       hands messages to started pipes (there is no pipe to the socket itself);
   (2) raw: the pipe named by the first header word is skipped, everybody else is
       offered the message;
   (3) raw: a message that arrived on pipe p is delivered / buffered with p's id
       appended to its header, so sending it on (a device) spares p. *)
Theorem bus_send_no_self_delivery fixed s c a nb m s' outs :
  bus_step fixed s (PSend c a nb m) = (s', outs) ->
  delivered outs = [] /\ bs_rq s' = bs_rq s /\ bs_wait s' = bs_wait s /\ bs_readable s' = bs_readable s /\
  forall p, txs_on p outs <> [] -> In p (pipe_ids s).
Proof.
  intros H. destruct (recv_frame _ _ _ _ _ H eq_refl) as (Q & _ & W & R & D). repeat split; auto.
  intros p Hp. destruct (in_dec N.eq_dec p (pipe_ids s)) as [i|n]; [exact i|]. exfalso. apply Hp.
  pose proof (bus_send_shape _ _ _ _ _ _ _ _ H) as S. destruct (accepts fixed nb); destruct S as [_ ->]; [|reflexivity].
  rewrite txs_on_app, txs_on_offer_notin by exact n. reflexivity.
Qed.

Theorem bus_raw_skips_origin fixed s c a nb m s' outs p hdr_rest :
  BInv s -> bs_raw s = true -> (p < 4294967296)%N -> pm_hdr m = enc32 p ++ hdr_rest ->
  bus_step fixed s (PSend c a nb m) = (s', outs) ->
  origin s m = p /\ sent_as s m = mkPmsg hdr_rest (pm_body m) /\
  txs_on p outs = [] /\ find_pipe p (bs_pipes s') = find_pipe p (bs_pipes s) /\
  (accepts fixed nb = true -> forall q bq, q <> p -> find_pipe q (bs_pipes s) = Some bq ->
     offer_kind true p bq <> OSkip /\
     (bp_busy bq = false -> txs_on q outs = [mkPmsg hdr_rest (pm_body m)]) /\
     (bp_busy bq = true -> length (bp_q bq) < bp_cap bq -> pq q s' = bp_q bq ++ [mkPmsg hdr_rest (pm_body m)])).
Proof.
  intros HI R Hp Hh H.
  assert (O: origin s m = p /\ sent_as s m = mkPmsg hdr_rest (pm_body m)).
  { unfold origin, sent_as, bus_prep. rewrite R, Hh. rewrite app_length, enc32_length. cbn [Nat.leb plus].
    change (firstn 4 (enc32 p ++ hdr_rest)) with (enc32 p). change (skipn 4 (enc32 p ++ hdr_rest)) with hdr_rest.
    cbn [fst snd]. now rewrite dec_enc32. }
  destruct O as [O1 O2]. split; [exact O1|]. split; [exact O2|].
  pose proof (bus_send_shape _ _ _ _ _ _ _ _ H) as S.
  destruct (accepts fixed nb) eqn:A.
  - pose proof (bus_fanout_law _ _ _ _ _ _ _ _ HI H A) as L. destruct S as [-> ->]. rewrite R, O1, O2 in *. simp_b.
    destruct (L p) as (L1 & L2 & _). simp_b.
    assert (SK: forall bp, find_pipe p (bs_pipes s) = Some bp -> offer_kind true p bp = OSkip).
    { intros bp F. apply find_pipe_some in F as [_ F]. unfold offer_kind. rewrite F, N.eqb_refl. reflexivity. }
    split; [|split].
    + rewrite L2. destruct (find_pipe p (bs_pipes s)) as [bp|] eqn:F; [|reflexivity]. now rewrite (SK bp eq_refl).
    + rewrite L1. destruct (find_pipe p (bs_pipes s)) as [bp|] eqn:F; [|reflexivity]. cbn [option_map].
      unfold offer_pipe. now rewrite (SK bp eq_refl).
    + intros _ q bq Hq Fq. destruct (L q) as (M1 & M2 & _). simp_b. rewrite Fq in M1, M2. cbn [option_map] in M1.
      pose proof (find_pipe_some _ _ _ Fq) as [_ Iq].
      assert (K: offer_kind true p bq = if negb (bp_busy bq) then ODirect else if length (bp_q bq) <? bp_cap bq then OQueued else ODropped).
      { unfold offer_kind. rewrite Iq. destruct (N.eqb_spec q p); [contradiction|]. reflexivity. }
      split; [|split].
      * rewrite K. destruct (negb (bp_busy bq)); [discriminate|]. destruct (length (bp_q bq) <? bp_cap bq); discriminate.
      * intros B. rewrite M2, K, B. reflexivity.
      * intros B Lq. unfold pq. simp_b. rewrite M1. unfold offer_pipe. rewrite K, B. cbn [negb].
        apply Nat.ltb_lt in Lq. rewrite Lq. reflexivity.
  - destruct S as [-> ->]. simp_b. cbn [txs_on]. split; [reflexivity|]. split; [reflexivity|]. discriminate.
Qed.

Theorem bus_recv_stamps_origin fixed s p m s' outs :
  bus_step fixed s (PRecvDone p 0 m) = (s', outs) ->
  let m' := if bs_raw s then mkPmsg (pm_hdr m ++ enc32 p) (pm_body m) else m in
  (delivered outs = [m'] /\ bs_rq s' = bs_rq s) \/
  (delivered outs = [] /\ bs_rq s' = bs_rq s ++ [m']) \/
  (delivered outs = [] /\ s' = s /\ outs = [Free m'; TranRecv p] /\ bs_wait s = [] /\ bs_rcap s <= length (bs_rq s)).
Proof.
  cbn [bus_step N.eqb negb]. destruct (bs_wait s) as [|a rest] eqn:W.
  - destruct (length (bs_rq s) <? bs_rcap s) eqn:L; intros H; injection H as <- <-; simp_b.
    + right. left. auto.
    + right. right. apply Nat.ltb_ge in L. auto.
  - intros H; injection H as <- <-; simp_b. left. cbn. auto.
Qed.

(* the round trip of a one-socket raw device: what arrived on p, sent again as it
   was delivered, goes to everyone but p with the header it arrived with *)
Theorem bus_raw_device_roundtrip fixed s p body c a nb s' outs :
  BInv s -> bs_raw s = true -> (p < 4294967296)%N ->
  bus_step fixed s (PSend c a nb (mkPmsg ([] ++ enc32 p) body)) = (s', outs) ->
  origin s (mkPmsg ([] ++ enc32 p) body) = p /\ sent_as s (mkPmsg ([] ++ enc32 p) body) = mkPmsg [] body /\ txs_on p outs = [].
Proof.
  intros HI R Hp H.
  assert (Hh: pm_hdr (mkPmsg ([] ++ enc32 p) body) = enc32 p ++ []) by (cbn [pm_hdr app]; now rewrite app_nil_r).
  destruct (bus_raw_skips_origin fixed s c a nb _ s' outs p [] HI R Hp Hh H) as (A & B & C & _).
  auto.
Qed.

Theorem bus_send_immediate fixed s c a nb m s' outs :
  bus_step fixed s (PSend c a nb m) = (s', outs) ->
  bs_wait s' = bs_wait s /\
  ((accepts fixed nb = true /\ completions outs = [(a, E_OK)]) \/
   (fixed = false /\ nb = true /\ outs = [Complete a E_AGAIN None])).
Proof.
  intros H. pose proof (bus_send_shape _ _ _ _ _ _ _ _ H) as S.
  destruct (accepts fixed nb) eqn:A; destruct S as [-> ->]; simp_b; (split; [reflexivity|]).
  - left. split; [reflexivity|]. rewrite completions_app, completions_offer. reflexivity.
  - right. unfold accepts in A. destruct fixed, nb; try discriminate. auto.
Qed.

(* the messages a step accepts for pipe p (one clone each) ... *)
Definition taken (p : pid) (fixed : bool) (s : bus) (o : pop) : list pmsg :=
  match o with
  | PSend _ _ nb m =>
      if accepts fixed nb then
        match find_pipe p (bs_pipes s) with
        | Some bp => match offer_kind (bs_raw s) (origin s m) bp with
                     | ODirect | OQueued => [sent_as s m] | _ => [] end
        | None => []
        end
      else []
  | _ => []
  end.
(* ... and what it cuts off the tail of p's queue (pipe close, queue shrink) *)
Definition cut (p : pid) (s : bus) (o : pop) : list pmsg :=
  match o with
  | PPipeClose q => if N.eqb q p then pq p s else []
  | PSetOpt _ (OSendBuf n) => if buf_bad n then [] else skipn n (pq p s)
  | _ => []
  end.

Theorem bus_fifo_step fixed p s o s' outs :
  BInv s -> op_ok s o -> bus_step fixed s o = (s', outs) ->
  pq p s ++ taken p fixed s o = txs_on p outs ++ pq p s' ++ cut p s o.
Proof.
  intros HI Hok H. pose proof HI as (I1 & I2 & _). unfold pipe_ids in I1.
  destruct o as [c a nb m|c a nb|a rv|q peer|q|q rv|q rv m|c []|c|c| |now]; cbn [taken cut];
    try (destruct (send_frame _ _ _ _ _ H eq_refl) as (P & _ & _ & T); unfold pq; rewrite P, T; now rewrite !app_nil_r).
  - destruct (accepts fixed nb) eqn:A.
    + destruct (bus_fanout_law _ _ _ _ _ _ _ _ HI H A p) as (L1 & L2 & _). rewrite L2. unfold pq. rewrite L1.
      destruct (find_pipe p (bs_pipes s)) as [bp|] eqn:F; cbn [option_map]; [|reflexivity].
      apply find_pipe_some in F as [Hin _]. pose proof (proj1 (Forall_forall _ _) I2 bp Hin) as (_ & P2 & _).
      unfold offer_pipe. destruct (offer_kind (bs_raw s) (origin s m) bp) eqn:K; simp_b; rewrite ?app_nil_r; auto.
      destruct (P2 (offer_kind_direct _ _ _ K)) as [Q _]. rewrite Q. reflexivity.
    + pose proof (bus_send_shape _ _ _ _ _ _ _ _ H) as S. rewrite A in S. destruct S as [-> ->].
      unfold pq. simp_b. cbn. now rewrite !app_nil_r.
  - cbn [bus_step] in H. destruct (negb (peer =? PROTO_BUS)%N); injection H as <- <-; unfold pq; simp_b; cbn [txs_on app]; rewrite !app_nil_r; auto.
    rewrite find_pipe_app. destruct (find_pipe p (bs_pipes s)); [reflexivity|].
    cbn. destruct (is_pipe p _); reflexivity.
  - cbn [bus_step] in H. injection H as <- <-. rewrite txs_on_map_Free. unfold pq. simp_b.
    destruct (N.eqb_spec q p) as [->|Hq].
    + rewrite find_pipe_filter_self. now rewrite app_nil_r.
    + rewrite (find_pipe_filter_other p q _ Hq). now rewrite !app_nil_r.
  - cbn [bus_step op_ok] in *. destruct (negb (rv =? 0)%N); injection H as <- <-; unfold pq; simp_b.
    + rewrite txs_on_app, txs_on_map_Free. cbn. now rewrite !app_nil_r.
    + rewrite (flat_next_find q _ I1), find_pipe_next, !app_nil_r. destruct (N.eqb_spec p q) as [<-|Hq].
      * rewrite txs_on_map_same. destruct (find_pipe p (bs_pipes s)) as [bp|]; cbn [option_map]; [|reflexivity].
        unfold pipe_next. destruct (bp_q bp); reflexivity.
      * now rewrite txs_on_map_other by congruence.
  - cbn [bus_step] in H. destruct (buf_bad n); injection H as <- <-; [cbn; now rewrite !app_nil_r|].
    rewrite txs_on_app, txs_on_map_Free. unfold pq. simp_b. rewrite find_pipe_map by reflexivity. cbn [txs_on app].
    rewrite app_nil_r. destruct (find_pipe p (bs_pipes s)) as [bp|]; cbn [option_map]; simp_b; [|now rewrite skipn_nil].
    now rewrite firstn_skipn.
Qed.

(* subsequences, to say "same order, possibly with whole messages missing" *)
Inductive sublist {A} : list A -> list A -> Prop :=
| sub_nil : sublist [] []
| sub_skip x l1 l2 : sublist l1 l2 -> sublist l1 (x :: l2)
| sub_keep x l1 l2 : sublist l1 l2 -> sublist (x :: l1) (x :: l2).
Lemma sublist_refl {A} (l : list A) : sublist l l.
Proof. induction l; [apply sub_nil|apply sub_keep; auto]. Qed.
Lemma sublist_nil_l {A} (l : list A) : sublist [] l.
Proof. induction l; [apply sub_nil|apply sub_skip; auto]. Qed.
Lemma sublist_app {A} (a a' b b' : list A) : sublist a a' -> sublist b b' -> sublist (a ++ b) (a' ++ b').
Proof. intros H. induction H; cbn; intros Hb; auto; [apply sub_skip|apply sub_keep]; auto. Qed.
Lemma sublist_trans {A} (a b c : list A) : sublist a b -> sublist b c -> sublist a c.
Proof.
  intros H1 H2. revert a H1. induction H2; intros a H1.
  - exact H1.
  - apply sub_skip. auto.
  - inversion H1; subst; [apply sub_skip|apply sub_keep]; auto.
Qed.
Lemma sublist_app_r {A} (a c : list A) : sublist a (a ++ c).
Proof. rewrite <- (app_nil_r a) at 1. apply sublist_app; [apply sublist_refl|apply sublist_nil_l]. Qed.
Lemma sublist_length {A} (a b : list A) : sublist a b -> length a <= length b.
Proof. induction 1; cbn; lia. Qed.

(* one more step in front of a history: the step cuts c off the tail of its queue *)
Lemma fifo_chain {A} (q t o q1 c T O q2 C : list A) :
  q ++ t = o ++ q1 ++ c ->
  sublist (O ++ q2) (q1 ++ T) -> (C = [] -> O ++ q2 = q1 ++ T) ->
  sublist ((o ++ O) ++ q2) (q ++ t ++ T) /\ (c ++ C = [] -> (o ++ O) ++ q2 = q ++ t ++ T).
Proof.
  intros L HA HB. rewrite (app_assoc q), L, <- !app_assoc. split.
  - apply sublist_app; [apply sublist_refl|]. eapply sublist_trans; [exact HA|].
    apply sublist_app; [apply sublist_refl|]. change T with ([] ++ T) at 1. apply sublist_app; [apply sublist_nil_l|apply sublist_refl].
  - intros E. apply app_eq_nil in E as [-> E]. now rewrite (HB E).
Qed.

Theorem bus_drop_whole_law fixed s :
  BInv s ->
  (* send side: a pipe whose queue is full is left exactly as it was (no partial
     message, survivors untouched), nothing is transmitted on it, and the
     sender's reference is released by the one Free of the step *)
  (forall c a nb m s' outs p bp, bus_step fixed s (PSend c a nb m) = (s', outs) -> accepts fixed nb = true ->
     find_pipe p (bs_pipes s) = Some bp -> offer_kind (bs_raw s) (origin s m) bp = ODropped ->
     find_pipe p (bs_pipes s') = Some bp /\ txs_on p outs = [] /\ bp_cap bp <= length (bp_q bp) /\
     freed outs = [sent_as s m]) /\
  (* every queue of the new state is the old one, possibly with the whole message appended *)
  (forall c a nb m s' outs p, bus_step fixed s (PSend c a nb m) = (s', outs) ->
     pq p s' = pq p s \/ pq p s' = pq p s ++ [sent_as s m]) /\
  (* receive side: with no receiver waiting and the queue full the whole message is freed, nothing else changes *)
  (forall p m s' outs, bus_step fixed s (PRecvDone p 0 m) = (s', outs) ->
     bs_wait s = [] -> bs_rcap s <= length (bs_rq s) ->
     s' = s /\ outs = [Free (if bs_raw s then mkPmsg (pm_hdr m ++ enc32 p) (pm_body m) else m); TranRecv p]).
Proof.
  intros HI. split; [|split].
  - intros c a nb m s' outs p bp H A F K.
    destruct (bus_fanout_law _ _ _ _ _ _ _ _ HI H A p) as (L1 & L2 & _). rewrite F in L1, L2. rewrite K in L2.
    cbn [option_map] in L1. unfold offer_pipe in L1. rewrite K in L1. repeat split; auto.
    + apply (offer_kind_dropped _ _ _ K).
    + pose proof (bus_send_shape _ _ _ _ _ _ _ _ H) as S. rewrite A in S. destruct S as [_ ->].
      rewrite freed_app, freed_offer. reflexivity.
  - intros c a nb m s' outs p H. pose proof (bus_send_shape _ _ _ _ _ _ _ _ H) as S.
    destruct (accepts fixed nb) eqn:A.
    + destruct (bus_fanout_law _ _ _ _ _ _ _ _ HI H A p) as (L1 & _). unfold pq. rewrite L1.
      destruct (find_pipe p (bs_pipes s)) as [bp|]; cbn [option_map]; [|now left].
      unfold offer_pipe. destruct (offer_kind (bs_raw s) (origin s m) bp); simp_b; auto.
    + destruct S as [-> _]. unfold pq. simp_b. now left.
  - intros p m s' outs H W L. cbn [bus_step N.eqb negb] in H. rewrite W in H.
    apply Nat.ltb_ge in L. rewrite L in H. inversion H; auto.
Qed.

Definition stamped (s : bus) (o : pop) : list pmsg :=
  match o with
  | PRecvDone p rv m => if N.eqb rv 0 then [if bs_raw s then mkPmsg (pm_hdr m ++ enc32 p) (pm_body m) else m] else []
  | _ => []
  end.
Definition rcut (s : bus) (o : pop) : list pmsg :=
  match o with
  | PRecvDone p rv m =>
      if N.eqb rv 0 && is_nil (bs_wait s) && negb (length (bs_rq s) <? bs_rcap s) then stamped s o else []
  | PSetOpt _ (ORecvBuf n) => if buf_bad n then [] else skipn n (bs_rq s)
  | _ => []
  end.

Theorem bus_recv_fifo_step fixed s o s' outs :
  BInv s -> bus_step fixed s o = (s', outs) ->
  bs_rq s ++ stamped s o = delivered outs ++ bs_rq s' ++ rcut s o /\
  (forall x, In x (rcut s o) -> In (Free x) outs).
Proof.
  intros (_ & _ & _ & _ & I5 & _) H.
  destruct o as [c a nb m|c a nb|a rv|q peer|q|q rv|q rv m|c []|c|c| |now]; cbn [stamped rcut];
    try (destruct (recv_frame _ _ _ _ _ H eq_refl) as (-> & _ & _ & _ & ->); cbn; rewrite !app_nil_r; now split).
  - cbn [bus_step] in H. destruct (bs_rq s) as [|x r] eqn:RQ; [destruct nb|]; injection H as <- <-; simp_b; cbn; rewrite ?app_nil_r; now split.
  - cbn [bus_step] in H. destruct (has_id a (bs_wait s)); injection H as <- <-; simp_b; cbn; rewrite ?app_nil_r; now split.
  - cbn [bus_step] in H. destruct (N.eqb_spec rv 0) as [->|Hrv]; cbn [negb andb] in *.
    + destruct (bs_wait s) as [|a rest] eqn:W; cbn [is_nil].
      * destruct (length (bs_rq s) <? bs_rcap s) eqn:L; cbn [negb]; injection H as <- <-; simp_b; cbn [delivered app]; rewrite ?app_nil_r.
        -- split; auto. cbn. tauto.
        -- split; auto. intros x [<-|[]]. now left.
      * injection H as <- <-; simp_b. rewrite (I5 ltac:(discriminate)). cbn. now split.
    + injection H as <- <-. cbn. rewrite ?app_nil_r. now split.
  - cbn [bus_step] in H. destruct (buf_bad n); injection H as <- <-; simp_b; rewrite ?delivered_app, ?delivered_map_Free; cbn [delivered app]; rewrite ?app_nil_r.
    + split; auto. cbn. tauto.
    + rewrite firstn_skipn. split; auto. intros x Hx. apply in_or_app. left. now apply in_map.
  - cbn [bus_step] in H. injection H as <- <-; simp_b. rewrite delivered_fail. cbn. rewrite ?app_nil_r. now split.
Qed.

(* The C clones the message once per pipe that takes it and frees the sender's
   reference: references are what is conserved.  owned = every reference the
   socket holds (send queues, messages attached to aio_send, receive queue). *)
Definition owned (s : bus) : list pmsg := flat_map bp_q (bs_pipes s) ++ map snd (bs_sending s) ++ bs_rq s.
Definition takes (raw : bool) (sender : N) (bp : bpipe) : bool :=
  match offer_kind raw sender bp with ODirect | OQueued => true | _ => false end.
(* the message taken out of the user aio by a send (always: the slot is cleared first) *)
Definition slot (s : bus) (o : pop) : list pmsg :=
  match o with PSend _ _ _ m => [sent_as s m] | _ => [] end.
(* one clone per pipe that takes it *)
Definition clones (fixed : bool) (s : bus) (o : pop) : list pmsg :=
  match o with
  | PSend _ _ nb m => if accepts fixed nb
                      then repeat (sent_as s m) (length (filter (takes (bs_raw s) (origin s m)) (bs_pipes s))) else []
  | _ => []
  end.
(* what the transport consumed *)
Definition bwire (s : bus) (o : pop) : list pmsg :=
  match o with PSendDone p rv => if N.eqb rv 0 then held_of p (bs_sending s) else [] | _ => [] end.

Lemma fan_cnt x raw sd m l :
  cnt x (flat_map bp_q (map (offer_pipe raw sd m) l)) + cnt x (map snd (flat_map (offer_sending raw sd m) l)) =
  cnt x (flat_map bp_q l) + cnt x (repeat m (length (filter (takes raw sd) l))).
Proof.
  induction l as [|bp l IH]; cbn [map flat_map filter]; [reflexivity|].
  rewrite map_app. rewrite !cnt_app. unfold takes at 1, offer_pipe at 1, offer_sending at 1.
  destruct (offer_kind raw sd bp); simp_b; cbn [map snd length repeat]; rewrite ?cnt_app, ?cnt_cons, ?cnt_nil; lia.
Qed.
Lemma next_cnt x p l :
  cnt x (flat_map bp_q l) =
  cnt x (flat_map bp_q (map (fun bp => if is_pipe p bp then fst (pipe_next bp) else bp) l)) +
  cnt x (flat_map (fun bp => if is_pipe p bp then snd (pipe_next bp) else []) l).
Proof.
  induction l as [|bp l IH]; cbn [map flat_map]; [reflexivity|]. rewrite !cnt_app, IH.
  destruct (is_pipe p bp); [|cbn; lia]. unfold pipe_next. destruct (bp_q bp); simp_b; cbn [fst snd]; simp_b; rewrite ?cnt_cons, ?cnt_nil; lia.
Qed.
Lemma close_cnt x p l :
  cnt x (flat_map bp_q l) =
  cnt x (flat_map (fun bp => if is_pipe p bp then bp_q bp else []) l) +
  cnt x (flat_map bp_q (filter (fun bp => negb (is_pipe p bp)) l)).
Proof.
  induction l as [|bp l IH]; cbn [filter flat_map]; [reflexivity|]. rewrite !cnt_app, IH.
  destruct (is_pipe p bp); cbn [negb flat_map]; rewrite ?cnt_app, ?cnt_nil; lia.
Qed.
Lemma shrink_cnt x n l :
  cnt x (flat_map bp_q l) =
  cnt x (flat_map bp_q (map (fun bp => mkBP (bp_id bp) (bp_busy bp) (firstn n (bp_q bp)) n) l)) +
  cnt x (flat_map (fun bp => skipn n (bp_q bp)) l).
Proof.
  induction l as [|bp l IH]; cbn [map flat_map]; [reflexivity|]. rewrite !cnt_app, IH. simp_b.
  rewrite <- (firstn_skipn n (bp_q bp)) at 1. rewrite cnt_app. lia.
Qed.
Lemma freed_map_TranSend p l : freed (map (TranSend p) l) = [].
Proof. induction l; cbn; auto. Qed.

Theorem bus_conservation_step fixed s o s' outs :
  BInv s -> op_ok s o -> bus_step fixed s o = (s', outs) ->
  forall x, cnt x (owned s ++ bs_lost s ++ slot s o ++ clones fixed s o ++ stamped s o) =
            cnt x (owned s' ++ bs_lost s' ++ bwire s o ++ freed outs ++ delivered outs).
Proof.
  intros _ _ H x.
  destruct o as [c a nb m|c a nb|a rv|q peer|q|q rv|q rv m|c []|c|c| |now]; unfold owned; cbn [slot clones bwire stamped bus_step] in *;
    (* a step that moves no reference leaves the two sides the same *)
    try (injection H as <- <-; reflexivity).
  - pose proof (bus_send_shape fixed s c a nb m _ _ H) as S.
    destruct (accepts fixed nb); destruct S as [-> ->]; simp_b.
    + rewrite freed_app, freed_offer, delivered_app, delivered_offer. cbn [freed delivered app].
      pose proof (fan_cnt x (bs_raw s) (origin s m) (sent_as s m) (bs_pipes s)) as F.
      rewrite map_app. cnt_simp. lia.
    + cbn [freed delivered]. cnt_simp. lia.
  - destruct (bs_rq s) as [|y r] eqn:RQ; [destruct nb|]; injection H as <- <-; simp_b; cbn [freed delivered];
      change (E_OK =? 0)%N with true; cbn iota; rewrite ?RQ; cnt_simp; lia.
  - destruct (has_id a (bs_wait s)); injection H as <- <-; reflexivity.
  - destruct (negb (peer =? PROTO_BUS)%N); injection H as <- <-; [reflexivity|]. simp_b. cbn [freed delivered].
    rewrite flat_map_app. cbn [flat_map]. simp_b. cnt_simp. lia.
  - injection H as <- <-; simp_b. rewrite freed_map_Free, delivered_map_Free.
    pose proof (close_cnt x q (bs_pipes s)). cnt_simp. lia.
  - destruct (negb (rv =? 0)%N) eqn:R; injection H as <- <-; simp_b.
    + rewrite freed_app, freed_map_Free, delivered_app, delivered_map_Free. cbn [freed delivered app].
      destruct (rv =? 0)%N; [discriminate|]. unfold held_of, drop_sending.
      pose proof (cnt_partition x q (bs_sending s)). cnt_simp. lia.
    + destruct (rv =? 0)%N; [|discriminate]. rewrite freed_map_TranSend, delivered_map_TranSend.
      rewrite map_app, map_map, map_id. unfold held_of, drop_sending.
      pose proof (cnt_partition x q (bs_sending s)). pose proof (next_cnt x q (bs_pipes s)). cnt_simp. lia.
  - destruct (N.eqb_spec rv 0) as [->|Hrv]; cbn [negb] in H; [|injection H as <- <-; reflexivity].
    destruct (bs_wait s) as [|a rest]; [destruct (length (bs_rq s) <? bs_rcap s)|]; injection H as <- <-; simp_b; cbn [freed delivered];
      change (E_OK =? 0)%N with true; cbn iota; cnt_simp; lia.
  - destruct (buf_bad n); injection H as <- <-; [reflexivity|]. simp_b. rewrite freed_app, freed_map_Free, delivered_app, delivered_map_Free.
    cbn [freed delivered app]. pose proof (shrink_cnt x n (bs_pipes s)). cnt_simp. lia.
  - destruct (buf_bad n); injection H as <- <-; [reflexivity|]. simp_b. rewrite freed_app, freed_map_Free, delivered_app, delivered_map_Free.
    cbn [freed delivered app]. rewrite <- (firstn_skipn n (bs_rq s)) at 1. cnt_simp. lia.
  - injection H as <- <-; simp_b. rewrite freed_fail, delivered_fail. cnt_simp. lia.
Qed.

(* nothing is ever lost except by the refused non-blocking send of the unrepaired source (fixed = false) *)
Theorem bus_lost_only_by_refused_send fixed s o s' outs :
  bus_step fixed s o = (s', outs) ->
  bs_lost s' = bs_lost s \/
  (exists c a m, o = PSend c a true m /\ fixed = false /\ bs_lost s' = bs_lost s ++ [sent_as s m] /\
                 outs = [Complete a E_AGAIN None]).
Proof.
  intros H. destruct (send_op o) eqn:SO; [|left; apply (send_frame _ _ _ _ _ H SO)].
  destruct o as [c a nb m| | |q peer|q|q rv| |c []| | | |]; try discriminate SO; cbn [bus_step] in H.
  - unfold sent_as. destruct fixed, nb; cbn [negb andb] in H; injection H as <- <-; simp_b; auto.
    right. exists c, a, m. auto.
  - destruct (negb (peer =? PROTO_BUS)%N); injection H as <- <-; auto.
  - injection H as <- <-; auto.
  - destruct (negb (rv =? 0)%N); injection H as <- <-; auto.
  - destruct (buf_bad n); injection H as <- <-; auto.
Qed.

(* receive: immediate; EAGAIN exactly when nothing is buffered = exactly when the
   receive descriptor is not raised; state unchanged then *)
Theorem bus_nb_recv fixed s c a s' outs :
  BInv s -> bus_step fixed s (PRecv c a true) = (s', outs) ->
  exists rv m, outs = [Complete a rv m] /\ bs_wait s' = bs_wait s /\
    (rv = E_AGAIN <-> poll_r (bus_poll s) = Some false) /\ (rv = E_AGAIN -> s' = s /\ m = None) /\
    (rv <> E_AGAIN -> rv = E_OK /\ exists x r, bs_rq s = x :: r /\ m = Some x /\ bs_rq s' = r).
Proof.
  intros (_ & _ & _ & _ & _ & _ & I7) H. cbn [bus_step] in H. cbn [bus_poll poll_r]. rewrite I7.
  destruct (bs_rq s) as [|x r] eqn:RQ; injection H as <- <-; simp_b; cbn [is_nil negb].
  - exists E_AGAIN, None. repeat split; auto; congruence.
  - exists E_OK, (Some x). repeat split; auto; try discriminate. exists x, r. auto.
Qed.
(* blocking receive with nothing buffered: queued, nothing completes *)
Theorem bus_recv_blocks fixed s c a :
  bs_rq s = [] ->
  bus_step fixed s (PRecv c a false) =
    (mkBus (bs_raw s) (bs_pipes s) [] (bs_rcap s) (bs_wait s ++ [a]) (bs_sendbuf s) (bs_sending s) (bs_readable s) (bs_lost s), []).
Proof. intros H. cbn [bus_step]. rewrite H. reflexivity. Qed.

(* send: with the nni_aio_start call gone a non-blocking send behaves exactly like
   the blocking one (which never queues): immediate success, same state, same outputs *)
Theorem bus_nb_send_fixed s c a m :
  bus_step true s (PSend c a true m) = bus_step true s (PSend c a false m) /\
  completions (snd (bus_step true s (PSend c a true m))) = [(a, E_OK)] /\
  poll_w (bus_poll s) = Some true.
Proof.
  split; [reflexivity|]. split; [|reflexivity]. cbn [bus_step negb andb snd].
  rewrite completions_app, completions_offer. reflexivity.
Qed.

(* the unrepaired source: the send descriptor is raised, the blocking send transmits at
   once, the non-blocking send says EAGAIN, transmits nothing and the message has
   left the aio (witness: one idle peer) *)
Definition bus_nb_witness_state : bus := fst (bus_step false (bus_init false) (PPipeStart 1%N PROTO_BUS)).
Definition bus_nb_witness_msg : pmsg := mkPmsg [] [7%N].
Theorem bus_nb_send_pinned_refuted :
  BInv bus_nb_witness_state /\ poll_w (bus_poll bus_nb_witness_state) = Some true /\
  snd (bus_step false bus_nb_witness_state (PSend None 5%N false bus_nb_witness_msg)) =
    [TranSend 1%N bus_nb_witness_msg; Free bus_nb_witness_msg; Complete 5%N E_OK None] /\
  snd (bus_step false bus_nb_witness_state (PSend None 5%N true bus_nb_witness_msg)) = [Complete 5%N E_AGAIN None] /\
  bs_lost (fst (bus_step false bus_nb_witness_state (PSend None 5%N true bus_nb_witness_msg))) = [bus_nb_witness_msg].
Proof.
  split.
  - unfold bus_nb_witness_state.
    apply (bus_step_inv false (bus_init false) (PPipeStart 1%N PROTO_BUS) _ [TranRecv 1%N] (bus_init_inv false)).
    + cbn. repeat split; auto; try discriminate; tauto.
    + reflexivity.
  - vm_compute. repeat split; reflexivity.
Qed.

Fixpoint bus_run (fixed : bool) (s : bus) (ops : list pop) : bus * list (pop * bus * list pout) :=
  match ops with
  | [] => (s, [])
  | o :: r => let (s1, outs) := bus_step fixed s o in
              let (s2, tr) := bus_run fixed s1 r in (s2, (o, s, outs) :: tr)
  end.
Fixpoint ops_ok (fixed : bool) (s : bus) (ops : list pop) : Prop :=
  match ops with
  | [] => True
  | o :: r => op_ok s o /\ ops_ok fixed (fst (bus_step fixed s o)) r
  end.
Definition btrace := list (pop * bus * list pout).
Fixpoint tr_taken (p : pid) (fixed : bool) (tr : btrace) : list pmsg :=
  match tr with [] => [] | (o, s, outs) :: r => taken p fixed s o ++ tr_taken p fixed r end.
Fixpoint tr_txs (p : pid) (tr : btrace) : list pmsg :=
  match tr with [] => [] | (o, s, outs) :: r => txs_on p outs ++ tr_txs p r end.
Fixpoint tr_cut (p : pid) (tr : btrace) : list pmsg :=
  match tr with [] => [] | (o, s, outs) :: r => cut p s o ++ tr_cut p r end.
Fixpoint tr_stamped (tr : btrace) : list pmsg :=
  match tr with [] => [] | (o, s, outs) :: r => stamped s o ++ tr_stamped r end.
Fixpoint tr_delivered (tr : btrace) : list pmsg :=
  match tr with [] => [] | (o, s, outs) :: r => delivered outs ++ tr_delivered r end.
Fixpoint tr_rcut (tr : btrace) : list pmsg :=
  match tr with [] => [] | (o, s, outs) :: r => rcut s o ++ tr_rcut r end.
Fixpoint tr_in (fixed : bool) (tr : btrace) : list pmsg :=
  match tr with [] => [] | (o, s, outs) :: r => slot s o ++ clones fixed s o ++ stamped s o ++ tr_in fixed r end.
Fixpoint tr_out (tr : btrace) : list pmsg :=
  match tr with [] => [] | (o, s, outs) :: r => bwire s o ++ freed outs ++ delivered outs ++ tr_out r end.

(* what holds of the empty history and is carried over one well-formed step in
   front of a history holds of every well-formed history *)
Lemma bus_run_ind fixed (P : bus -> btrace -> bus -> Prop) :
  (forall s, BInv s -> P s [] s) ->
  (forall s o s1 outs tr s2, BInv s -> op_ok s o -> bus_step fixed s o = (s1, outs) -> BInv s1 ->
     P s1 tr s2 -> P s ((o, s, outs) :: tr) s2) ->
  forall ops s, BInv s -> ops_ok fixed s ops -> let (s', tr) := bus_run fixed s ops in P s tr s'.
Proof.
  intros P0 PS. induction ops as [|o r IH]; intros s HI Hok; cbn [bus_run]; [now apply P0|].
  cbn [ops_ok] in Hok. destruct Hok as [Ho Hr]. destruct (bus_step fixed s o) as [s1 outs] eqn:S. cbn [fst] in Hr.
  pose proof (bus_step_inv _ _ _ _ _ HI Ho S) as HI1. specialize (IH s1 HI1 Hr).
  destruct (bus_run fixed s1 r) as [s2 tr]. exact (PS _ _ _ _ _ _ HI Ho S HI1 IH).
Qed.

(* per pipe, over any well-formed history: what the transport of p was handed,
   followed by what is still queued for p, is a subsequence of what was queued
   before followed by the messages accepted for p, in acceptance order -- nothing
   reordered, nothing duplicated; and with nothing cut it is exactly that sequence *)
Theorem bus_run_fifo fixed p ops : forall s, BInv s -> ops_ok fixed s ops ->
  let (s', tr) := bus_run fixed s ops in
  sublist (tr_txs p tr ++ pq p s') (pq p s ++ tr_taken p fixed tr) /\
  (tr_cut p tr = [] -> tr_txs p tr ++ pq p s' = pq p s ++ tr_taken p fixed tr).
Proof.
  revert ops. apply bus_run_ind.
  - intros s _. cbn [tr_txs tr_taken tr_cut app]. rewrite app_nil_r. split; [apply sublist_refl|auto].
  - intros s o s1 outs tr s2 HI Ho S _ [A B]. cbn [tr_txs tr_taken tr_cut].
    exact (fifo_chain _ _ _ _ _ _ _ _ _ (bus_fifo_step fixed p _ _ _ _ HI Ho S) A B).
Qed.

(* the receive side over histories: what the application gets, followed by what is
   still buffered, is a subsequence of the arrivals (all peers) in arrival order,
   hence each peer's messages in that peer's order *)
Theorem bus_run_recv_order fixed ops : forall s, BInv s -> ops_ok fixed s ops ->
  let (s', tr) := bus_run fixed s ops in
  sublist (tr_delivered tr ++ bs_rq s') (bs_rq s ++ tr_stamped tr) /\
  (tr_rcut tr = [] -> tr_delivered tr ++ bs_rq s' = bs_rq s ++ tr_stamped tr).
Proof.
  revert ops. apply bus_run_ind.
  - intros s _. cbn [tr_delivered tr_stamped tr_rcut app]. rewrite app_nil_r. split; [apply sublist_refl|auto].
  - intros s o s1 outs tr s2 HI _ S _ [A B]. cbn [tr_delivered tr_stamped tr_rcut].
    exact (fifo_chain _ _ _ _ _ _ _ _ _ (proj1 (bus_recv_fifo_step fixed _ _ _ _ HI S)) A B).
Qed.

Theorem bus_run_conservation fixed ops : forall s, BInv s -> ops_ok fixed s ops ->
  let (s', tr) := bus_run fixed s ops in
  BInv s' /\
  forall x, cnt x (owned s ++ bs_lost s ++ tr_in fixed tr) = cnt x (owned s' ++ bs_lost s' ++ tr_out tr).
Proof.
  revert ops. apply bus_run_ind.
  - intros s HI. split; [exact HI|reflexivity].
  - intros s o s1 outs tr s2 HI Ho S _ [A B]. split; [exact A|]. intros x.
    pose proof (bus_conservation_step _ _ _ _ _ HI Ho S x) as L. specialize (B x). cbn [tr_in tr_out]. cnt_simp. lia.
Qed.

Theorem bus_run_inv fixed ops : forall s, BInv s -> ops_ok fixed s ops -> BInv (fst (bus_run fixed s ops)).
Proof. intros s HI Hok. pose proof (bus_run_conservation fixed ops s HI Hok) as R. destruct (bus_run fixed s ops). apply R. Qed.

Theorem bus_poll_mirror_law fixed s c a :
  BInv s ->
  (poll_r (bus_poll s) = Some true <-> completions (snd (bus_step fixed s (PRecv c a true))) = [(a, E_OK)]) /\
  (poll_r (bus_poll s) = Some false <-> completions (snd (bus_step fixed s (PRecv c a true))) = [(a, E_AGAIN)]) /\
  poll_w (bus_poll s) = Some true /\
  (fixed = true -> forall m, completions (snd (bus_step fixed s (PSend c a true m))) = [(a, E_OK)]).
Proof.
  intros (_ & _ & _ & _ & _ & _ & I7). cbn [bus_poll poll_r poll_w]. rewrite I7. cbn [bus_step].
  split; [|split; [|split]].
  - destruct (bs_rq s); cbn; split; intros H; try discriminate; reflexivity.
  - destruct (bs_rq s); cbn; split; intros H; try discriminate; reflexivity.
  - reflexivity.
  - intros -> m. apply (bus_nb_send_fixed s c a m).
Qed.
