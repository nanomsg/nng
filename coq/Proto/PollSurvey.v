(* PollSurvey: the C15 instances for RESPONDENT, SURVEYOR and their raw variants
   (survey0/respond.c, survey.c, xrespond.c, xsurvey.c).

   RESPONDENT  [M_resp fx]   with all repairs (rfix_all): invariant, immediate, possible, mirror hold;
                             strict / mirror_exact / mirror_iff refuted by witnesses (state machine).
                             With the flags the source has today (resp_cur: everything except rf_nb):
                             invariant, immediate and the receive half of the mirror hold; nb_possible and
                             the mirror (send half) are refuted.
   SURVEYOR    [M_surv nbfix] nbfix = true: invariant, immediate, possible, strict, mirror hold; mirror_exact and
                             mirror_iff refuted; nbfix = false: immediate refuted.
   raw SURVEYOR / raw RESPONDENT [M_xsurv fx], [M_xresp fx] with mqfix_all: every clause at full strength. *)
From Coq Require Import List Arith NArith Bool ZArith Lia Permutation.
From NngV Require Import Proto.Common Proto.SurveyBacktrace Proto.SurveyModel Proto.RespondModel Proto.XSurveyModel
  Proto.XRespondModel Proto.SurveyProofs Proto.RespondProofs Proto.XSurveyProofs Proto.PollModel Proto.PollProofs.
From NngV Require Base.ListX.
Import ListNotations.

Lemma kget_some_key {A} k (v : A) l : kget k l = Some v -> In k (map fst l).
Proof. exact (ReqRepProofs.lookup_key_in k l v). Qed.
Lemma kget_notin_none {A} k (l : list (N * A)) : ~ In k (map fst l) -> kget k l = None.
Proof. exact (ReqRepProofs.lookup_notin_none k l). Qed.
Lemma kget_key_some {A} k (l : list (N * A)) : In k (map fst l) -> exists v, kget k l = Some v.
Proof. intros H. destruct (kget k l) eqn:E; [eauto|]. now apply kget_none_notin in E. Qed.
Lemma kget_kdel_kset {A} k k' (v : A) l : k' <> k -> kget k' (kdel k (kset k v l)) = kget k' l.
Proof. intros H. rewrite kget_kdel_neq by auto. now apply kget_kset_neq. Qed.

Definition kbusy {V} (f : V -> list aioid) (l : list (N * V)) : list aioid := flat_map (fun x => f (snd x)) l.
Lemma kbusy_kset_in {V} (f : V -> list aioid) a k v l : In a (kbusy f (kset k v l)) -> In a (f v) \/ In a (kbusy f l).
Proof.
  unfold kbusy. induction l as [|[k0 v0] l IH]; cbn [kset flat_map snd].
  - rewrite app_nil_r. auto.
  - destruct (N.eqb k0 k); cbn [flat_map snd]; rewrite !in_app_iff; [tauto|]. intros [H|H]; [auto|]. destruct (IH H); auto.
Qed.
Lemma kbusy_get {V} (f : V -> list aioid) a k v l : kget k l = Some v -> In a (f v) -> In a (kbusy f l).
Proof. intros G H. apply kget_in in G. apply in_flat_map. exists (k, v). auto. Qed.

Definition rfx (nb : bool) : resp_fix := mkRfix nb true true true true true.
Definition resp_cur : resp_fix := rfx false.      (* the source today: every repair except rf_nb *)

Definition rctx_aios (c : rctx) : list aioid :=
  match rc_saio c with Some (a, _) => [a] | None => [] end ++ match rc_raio c with Some a => [a] | None => [] end.
Definition resp_busy (s : resp) : list aioid := flat_map (fun x => rctx_aios (snd x)) (rs_ctxs s).

(* the environment contract: an aio is submitted once at a time; pipes are started once, with non-zero ids;
   a send completion arrives only for a pipe whose transmitter is busy; a receive completion only for a pipe
   with a receive posted (a pipe waiting on recvpipes has none); a context is opened once *)
Definition resp_ok (s : resp) (o : pop) : Prop :=
  match o with
  | PSend _ a _ _ | PRecv _ a _ => ~ In a (resp_busy s)
  | PPipeStart p _ => p <> 0%N /\ ~ In p (map fst (rs_pipes s))
  | PSendDone p _ => exists x, kget p (rs_pipes s) = Some x /\ rp_busy x = true
  | PRecvDone p _ _ => ~ In p (rs_recvpipes s)
  | PCtxOpen c => kget (ckey (Some c)) (rs_ctxs s) = None
  | _ => True
  end.

Definition sq (l : list (pid * rpipe)) : list N := flat_map (fun x => rp_sendq (snd x)) l.
(* the socket's own context exists; an empty backtrace means no pipe is recorded *)
Definition RBc (cs : list (N * rctx)) : Prop :=
  NoDup (map fst cs) /\ exists c0, kget 0%N cs = Some c0 /\ (rc_bt c0 = [] -> rc_pipe c0 = 0%N).
(* pipe ids are not 0; the pipes on recvpipes are open and hold a parsed survey; the receive descriptor *)
Definition RBr (ps : list (pid * rpipe)) (rp : list pid) (rd : bool) : Prop :=
  kget 0%N ps = None /\
  (forall p, In p rp -> exists x m tl, kget p ps = Some x /\ rp_closed x = false /\ rp_rmsg x = m :: tl /\ pm_hdr m <> []) /\
  NoDup rp /\ rd = negb (isnil rp).
(* the contexts queued behind busy pipes: each once, each with its send aio *)
Definition RBq (cs : list (N * rctx)) (ps : list (pid * rpipe)) : Prop :=
  (forall k, In k (sq ps) -> exists c, kget k cs = Some c /\ rc_saio c <> None) /\ NoDup (sq ps).
Definition RBase (s : resp) : Prop :=
  RBc (rs_ctxs s) /\ RBr (rs_pipes s) (rs_recvpipes s) (rs_readable s) /\ RBq (rs_ctxs s) (rs_pipes s).
(* the send descriptor: raised iff the socket's own context holds a survey whose pipe is idle or gone *)
Definition pidle (q : N) (ps : list (pid * rpipe)) : bool :=
  match live_pipe q ps with Some x => negb (rp_busy x) | None => true end.
Definition idle0 (cs : list (N * rctx)) (ps : list (pid * rpipe)) : bool :=
  match kget 0%N cs with Some c0 => negb (isnil (rc_bt c0)) && pidle (rc_pipe c0) ps | None => false end.
Definition RW (s : resp) : Prop := rs_writable s = idle0 (rs_ctxs s) (rs_pipes s).
Definition RInv (fx : resp_fix) (s : resp) : Prop := RBase s /\ (rf_nb fx = true -> RW s).

Definition M_resp (fx : resp_fix) : pmodel :=
  mkPM resp resp_init (resp_step fx) resp_poll resp_ok (RInv fx) resp_busy (fun _ => true).

Lemma sq_app l1 l2 : sq (l1 ++ l2) = sq l1 ++ sq l2.
Proof. apply flat_map_app. Qed.
Lemma sq_kset p x ps : kget p ps = Some x ->
  exists A B, sq ps = A ++ rp_sendq x ++ B /\ forall v, sq (kset p v ps) = A ++ rp_sendq v ++ B.
Proof.
  intros H. destruct (ReqRepProofs.lookup_split _ _ _ H) as (l1 & l2 & -> & _ & E). exists (sq l1), (sq l2).
  split; [apply sq_app|]. intros v. unfold kset. rewrite E. apply sq_app.
Qed.
Lemma sq_kset_same p x x' ps : kget p ps = Some x -> rp_sendq x' = rp_sendq x -> sq (kset p x' ps) = sq ps.
Proof. intros H E. destruct (sq_kset _ _ _ H) as (A & B & E1 & E2). now rewrite E2, E1, E. Qed.
Lemma sq_unqueue k ps : sq (unqueue_ctx k ps) = remove_id k (sq ps).
Proof.
  induction ps as [|[p x] ps IH]; [reflexivity|]. unfold sq, unqueue_ctx, remove_id in *. cbn [map flat_map fst snd rp_sendq].
  rewrite filter_app. now rewrite IH.
Qed.

Lemma rbq_ctx cs ps k c' : RBq cs ps ->
  match kget k cs with Some c => rc_saio c <> None -> rc_saio c' <> None | None => True end -> RBq (kset k c' cs) ps.
Proof.
  intros [Q D] H. split; [|exact D]. intros k' Hk. destruct (Q k' Hk) as (c & G & S). destruct (N.eqb_spec k' k) as [->|NE].
  - exists c'. rewrite G in H. split; [apply kget_kset_eq|auto].
  - exists c. split; [now rewrite kget_kset_neq|exact S].
Qed.
Lemma rbq_pipe_same cs ps p x x' : RBq cs ps -> kget p ps = Some x -> rp_sendq x' = rp_sendq x -> RBq cs (kset p x' ps).
Proof. intros H G E. unfold RBq. now rewrite (sq_kset_same _ _ _ _ G E). Qed.
Lemma rbq_app cs ps p : RBq cs ps -> RBq cs (ps ++ [(p, mkRpipe false false [] [] [])]).
Proof. intros H. unfold RBq. rewrite sq_app. cbn. now rewrite app_nil_r. Qed.
Lemma rbq_unqueue cs ps k c' : RBq cs ps -> RBq (kset k c' cs) (unqueue_ctx k ps).
Proof.
  intros [Q D]. split.
  - intros k' Hk. rewrite sq_unqueue in Hk. apply ReqRepProofs.in_remove_id in Hk as [Hk NE]. destruct (Q k' Hk) as (c & G & S).
    exists c. split; [now rewrite kget_kset_neq|exact S].
  - rewrite sq_unqueue. now apply NoDup_filter.
Qed.
Lemma rbq_pop cs ps p x x' k rest c' : RBq cs ps -> kget p ps = Some x -> rp_sendq x = k :: rest -> rp_sendq x' = rest ->
  RBq (kset k c' cs) (kset p x' ps).
Proof.
  intros [Q D] G E E'. destruct (sq_kset _ _ _ G) as (A & B & E1 & E2). rewrite E1, E in D, Q. cbn [app] in D, Q.
  apply NoDup_remove in D as [D1 D2]. split; rewrite E2, E'; [|exact D1].
  intros k' Hk. assert (NE: k' <> k) by (intros ->; contradiction).
  destruct (Q k') as (c & Gc & S).
  { apply in_app_or in Hk as [Hk|Hk]; apply in_or_app; [now left|right; now right]. }
  exists c. split; [now rewrite kget_kset_neq|exact S].
Qed.
Lemma rbq_push cs ps p x x' k c' : RBq cs ps -> kget p ps = Some x -> rp_sendq x' = rp_sendq x ++ [k] -> ~ In k (sq ps) ->
  rc_saio c' <> None -> RBq (kset k c' cs) (kset p x' ps).
Proof.
  intros [Q D] G E' NI S'. destruct (sq_kset _ _ _ G) as (A & B & E1 & E2).
  assert (P: Permutation (k :: sq ps) (sq (kset p x' ps))).
  { rewrite E2, E', E1. rewrite <- app_assoc. cbn [app]. rewrite !app_assoc. apply Permutation_middle. }
  split.
  - intros k' Hk. apply (Permutation_in _ (Permutation_sym P)) in Hk. destruct (N.eqb_spec k' k) as [->|NE].
    + exists c'. split; [apply kget_kset_eq|exact S'].
    + destruct Hk as [Hk|Hk]; [congruence|]. destruct (Q k' Hk) as (c & Gc & S). exists c. split; [now rewrite kget_kset_neq|exact S].
  - apply (Permutation_NoDup P). constructor; auto.
Qed.
(* flush_sendq only takes send aios away, from contexts named in the list *)
Lemma flush_sendq_ind (P : list (N * rctx) -> Prop) ks :
  (forall cs k c, In k ks -> P cs -> kget k cs = Some c -> P (kset k (mkRctx (rc_pipe c) (rc_bt c) None (rc_raio c)) cs)) ->
  forall cs, P cs -> P (fst (flush_sendq ks cs)).
Proof.
  induction ks as [|k0 ks IH]; intros H cs HP; cbn [flush_sendq]; [exact HP|].
  assert (IH': forall cs, P cs -> P (fst (flush_sendq ks cs))) by (apply IH; intros cs' k c I; apply H; now right).
  destruct (kget k0 cs) as [c|] eqn:G; [|auto]. destruct (rc_saio c) as [[a m]|]; [|auto].
  specialize (IH' _ (H _ _ _ (or_introl eq_refl) HP G)). now destruct (flush_sendq ks _).
Qed.
Lemma flush_sendq_other ks cs k : ~ In k ks -> kget k (fst (flush_sendq ks cs)) = kget k cs.
Proof.
  intros NI. apply (flush_sendq_ind (fun cs' => kget k cs' = kget k cs)); [|reflexivity].
  intros cs' k' c I E _. rewrite kget_kset_neq; [exact E|]. intros ->. contradiction.
Qed.
Lemma rbq_close cs ps p x x' : RBq cs ps -> kget p ps = Some x -> rp_sendq x' = [] ->
  RBq (fst (flush_sendq (rp_sendq x) cs)) (kset p x' ps).
Proof.
  intros [Q D] G E'. destruct (sq_kset _ _ _ G) as (A & B & E1 & E2). rewrite E1 in D, Q.
  destruct (ListX.nodup_mid_remove _ _ _ D) as [D1 D2]. split; rewrite E2, E'; cbn [app]; [|exact D1].
  intros k' Hk. destruct (Q k') as (c & Gc & S).
  { apply in_app_or in Hk as [Hk|Hk]; apply in_or_app; [now left|right; apply in_or_app; now right]. }
  exists c. split; [|exact S]. rewrite flush_sendq_other; [exact Gc|]. intros X. exact (D2 _ X Hk).
Qed.
Lemma rbq_kdel cs ps k : RBq cs ps -> ~ In k (sq ps) -> RBq (kdel k cs) ps.
Proof.
  intros [Q D] NI. split; [|exact D]. intros k' Hk. destruct (Q k' Hk) as (c & G & S). exists c. split; [|exact S].
  rewrite kget_kdel_neq; [exact G|]. intros ->. contradiction.
Qed.
Lemma rbq_saio_none cs ps k c : RBq cs ps -> kget k cs = Some c -> rc_saio c = None -> ~ In k (sq ps).
Proof. intros [Q _] G S Hk. destruct (Q k Hk) as (c' & G' & S'). congruence. Qed.

Definition unq1 (k : N) (x : rpipe) : rpipe := mkRpipe (rp_busy x) (rp_closed x) (remove_id k (rp_sendq x)) (rp_held x) (rp_rmsg x).
Lemma kget_unqueue k q ps : kget q (unqueue_ctx k ps) = option_map (unq1 k) (kget q ps).
Proof.
  induction ps as [|[p x] ps IH]; [reflexivity|]. unfold unqueue_ctx in *. cbn [map kget fst snd].
  destruct (N.eqb p q); [reflexivity|exact IH].
Qed.
Lemma rbr_zero_ne ps rp rd p x : RBr ps rp rd -> kget p ps = Some x -> p <> 0%N.
Proof. intros [Z _] G ->. congruence. Qed.
Lemma rbr_pipe_same ps rp rd p x x' : RBr ps rp rd -> kget p ps = Some x -> rp_closed x' = rp_closed x -> rp_rmsg x' = rp_rmsg x ->
  RBr (kset p x' ps) rp rd.
Proof.
  intros HR G E1 E2. pose proof (rbr_zero_ne _ _ _ _ _ HR G) as NZ. destruct HR as (Z & R & D & E). split; [|split; [|split]]; auto.
  - rewrite kget_kset_neq; auto.
  - intros q Hq. destruct (R q Hq) as (y & m & tl & Gy & Cy & My & Hy). destruct (N.eqb_spec q p) as [->|NE].
    + exists x', m, tl. rewrite kget_kset_eq. assert (y = x) by congruence. subst y. rewrite E1, E2. auto.
    + exists y, m, tl. rewrite kget_kset_neq by auto. auto.
Qed.
Lemma rbr_app ps rp rd p : RBr ps rp rd -> p <> 0%N -> ~ In p (map fst ps) -> RBr (ps ++ [(p, mkRpipe false false [] [] [])]) rp rd.
Proof.
  intros (Z & R & D & E) NZ NI. split; [|split; [|split]]; auto.
  - rewrite ReqRepProofs.lookup_app_none by auto. cbn. destruct (N.eqb_spec p 0); [contradiction|reflexivity].
  - intros q Hq. destruct (R q Hq) as (y & m & tl & Gy & Cy). exists y, m, tl. split; [now apply ReqRepProofs.lookup_app_some|exact Cy].
Qed.
Lemma rbr_close ps rp rd p x x' : RBr ps rp rd -> kget p ps = Some x ->
  RBr (kset p x' ps) (remove_id p rp) (if has_id p rp && isnil (remove_id p rp) then false else rd).
Proof.
  intros HR G. pose proof (rbr_zero_ne _ _ _ _ _ HR G) as NZ. destruct HR as (Z & R & D & E). split; [|split; [|split]].
  - rewrite kget_kset_neq; auto.
  - intros q Hq. apply ReqRepProofs.in_remove_id in Hq as [Hq NE]. destruct (R q Hq) as (y & m & tl & Gy & Cy). exists y, m, tl.
    rewrite kget_kset_neq by auto. auto.
  - now apply NoDup_filter.
  - (* only the head matters: it stays in front, or it is p and the descriptor follows what is left *)
    rewrite E. destruct rp as [|a rp']; [reflexivity|]. unfold remove_id, has_id. cbn [filter existsb]. rewrite (N.eqb_sym p a).
    destruct (N.eqb a p); cbn [negb orb andb isnil]; [now destruct (filter _ rp')|now rewrite andb_false_r].
Qed.
Lemma rbr_enqueue ps rp rd p x x' msg : RBr ps rp rd -> kget p ps = Some x -> ~ In p rp -> rp_closed x' = false ->
  rp_rmsg x' = [msg] -> pm_hdr msg <> [] -> RBr (kset p x' ps) (rp ++ [p]) true.
Proof.
  intros HR G NI C M H. pose proof (rbr_zero_ne _ _ _ _ _ HR G) as NZ. destruct HR as (Z & R & D & E). split; [|split; [|split]].
  - rewrite kget_kset_neq; auto.
  - intros q Hq. apply in_app_or in Hq as [Hq|[<-|[]]].
    + destruct (R q Hq) as (y & m & tl & Gy & Cy). exists y, m, tl. rewrite kget_kset_neq; [auto|]. intros ->. contradiction.
    + exists x', msg, []. rewrite kget_kset_eq. auto.
  - apply (Permutation_NoDup (Permutation_cons_append rp p)). constructor; auto.
  - destruct rp; reflexivity.
Qed.
Lemma rbr_dequeue ps p rest rd x x' : RBr ps (p :: rest) rd -> kget p ps = Some x ->
  RBr (kset p x' ps) rest (if isnil rest then false else rd).
Proof.
  intros HR G. pose proof (rbr_zero_ne _ _ _ _ _ HR G) as NZ. destruct HR as (Z & R & D & E). inversion D as [|? ? NI D']; subst.
  split; [|split; [|split]].
  - rewrite kget_kset_neq; auto.
  - intros q Hq. destruct (R q (or_intror Hq)) as (y & m & tl & Gy & Cy). exists y, m, tl. rewrite kget_kset_neq; [auto|]. intros ->. contradiction.
  - exact D'.
  - destruct rest; reflexivity.
Qed.
Lemma rbr_unqueue ps rp rd k : RBr ps rp rd -> RBr (unqueue_ctx k ps) rp rd.
Proof.
  intros (Z & R & D & E). split; [|split; [|split]]; auto.
  - rewrite kget_unqueue, Z. reflexivity.
  - intros q Hq. destruct (R q Hq) as (y & m & tl & Gy & Cy). exists (unq1 k y), m, tl. rewrite kget_unqueue, Gy. auto.
Qed.

Lemma rbc_kset cs k c' : RBc cs -> (k = 0%N -> rc_bt c' = [] -> rc_pipe c' = 0%N) -> RBc (kset k c' cs).
Proof.
  intros (ND & c0 & G & B) H. split; [now apply nodup_kset|]. destruct (N.eqb_spec k 0) as [->|NE].
  - exists c'. split; [apply kget_kset_eq|auto].
  - exists c0. split; [rewrite kget_kset_neq; auto|exact B].
Qed.
Lemma rbc_kset_same cs k c c' : RBc cs -> kget k cs = Some c -> rc_bt c' = rc_bt c -> rc_pipe c' = rc_pipe c -> RBc (kset k c' cs).
Proof.
  intros HC G E1 E2. apply rbc_kset; [exact HC|]. intros -> E. destruct HC as (_ & c0 & G0 & B). assert (c0 = c) by congruence. subst.
  rewrite E2. apply B. congruence.
Qed.
Lemma rbc_kdel cs k : RBc cs -> k <> 0%N -> RBc (kdel k cs).
Proof.
  intros (ND & c0 & G & B) NE. split; [now apply nodup_kdel|]. exists c0. split; [rewrite kget_kdel_neq; auto|exact B].
Qed.
Lemma rbc_flush cs ks : RBc cs -> RBc (fst (flush_sendq ks cs)).
Proof. apply flush_sendq_ind. intros cs' k c _ HC G. now apply (rbc_kset_same _ _ c). Qed.

Lemma live_pipe_some q ps x : live_pipe q ps = Some x -> kget q ps = Some x /\ rp_closed x = false.
Proof. unfold live_pipe. destruct (kget q ps) as [y|]; [|discriminate]. destruct (rp_closed y) eqn:C; [discriminate|]. intros H. inversion H; subst. auto. Qed.
Lemma pidle_kset_neq q p x ps : q <> p -> pidle q (kset p x ps) = pidle q ps.
Proof. intros H. unfold pidle, live_pipe. now rewrite kget_kset_neq. Qed.
Lemma pidle_kset_eq p x ps : pidle p (kset p x ps) = if rp_closed x then true else negb (rp_busy x).
Proof. unfold pidle, live_pipe. rewrite kget_kset_eq. destruct (rp_closed x); reflexivity. Qed.
Lemma pidle_kset_same q p x x' ps : kget p ps = Some x -> rp_busy x' = rp_busy x -> rp_closed x' = rp_closed x ->
  pidle q (kset p x' ps) = pidle q ps.
Proof.
  intros G E1 E2. destruct (N.eqb_spec q p) as [->|NE]; [|now apply pidle_kset_neq].
  rewrite pidle_kset_eq. unfold pidle, live_pipe. rewrite G, E1, E2. destruct (rp_closed x); reflexivity.
Qed.
Lemma pidle_app_fresh q p ps : ~ In p (map fst ps) -> pidle q (ps ++ [(p, mkRpipe false false [] [] [])]) = pidle q ps.
Proof.
  intros NI. unfold pidle, live_pipe. destruct (kget q ps) as [y|] eqn:G.
  - now rewrite (ReqRepProofs.lookup_app_some _ _ _ _ G).
  - rewrite ReqRepProofs.lookup_app_none by auto. cbn. destruct (N.eqb p q); reflexivity.
Qed.
Lemma pidle_unqueue q k ps : pidle q (unqueue_ctx k ps) = pidle q ps.
Proof. unfold pidle, live_pipe. rewrite kget_unqueue. destruct (kget q ps) as [y|]; cbn; [|reflexivity]. destruct (rp_closed y); reflexivity. Qed.
Lemma pidle_zero ps rp rd : RBr ps rp rd -> pidle 0%N ps = true.
Proof. intros [Z _]. unfold pidle, live_pipe. now rewrite Z. Qed.

Lemma idle0_ctx_other cs ps k c' : k <> 0%N -> idle0 (kset k c' cs) ps = idle0 cs ps.
Proof. intros H. unfold idle0. rewrite kget_kset_neq; auto. Qed.
Lemma idle0_ctx_zero cs ps c' : idle0 (kset 0%N c' cs) ps = negb (isnil (rc_bt c')) && pidle (rc_pipe c') ps.
Proof. unfold idle0. now rewrite kget_kset_eq. Qed.
Lemma idle0_ctx_same cs ps k c c' : kget k cs = Some c -> rc_bt c' = rc_bt c -> rc_pipe c' = rc_pipe c ->
  idle0 (kset k c' cs) ps = idle0 cs ps.
Proof.
  intros G E1 E2. destruct (N.eqb_spec k 0) as [->|NE]; [|now apply idle0_ctx_other].
  rewrite idle0_ctx_zero. unfold idle0. now rewrite G, E1, E2.
Qed.

(* lowering (or not) the send descriptor touches nothing the base invariant reads *)
Lemma wif_ctxs (b : bool) s x : rs_ctxs (if b then rset_w s x else s) = rs_ctxs s.
Proof. now destruct b. Qed.
Lemma wif_pipes (b : bool) s x : rs_pipes (if b then rset_w s x else s) = rs_pipes s.
Proof. now destruct b. Qed.
Lemma wif_recvpipes (b : bool) s x : rs_recvpipes (if b then rset_w s x else s) = rs_recvpipes s.
Proof. now destruct b. Qed.
Lemma wif_readable (b : bool) s x : rs_readable (if b then rset_w s x else s) = rs_readable s.
Proof. now destruct b. Qed.
(* RBase / RW of the state a step returns, opened to the fields they read *)
Ltac rbase_unfold := cbn [fst]; unfold RBase;
  cbn [rs_ctxs rs_pipes rs_recvpipes rs_readable rset_ctxs rset_pipes rset_recvq rset_recvpipes rset_w rset_r];
  rewrite ?wif_ctxs, ?wif_pipes, ?wif_recvpipes, ?wif_readable.
Ltac rw_unfold := cbn [fst]; unfold RW;
  cbn [rs_ctxs rs_pipes rs_writable rset_ctxs rset_pipes rset_recvq rset_recvpipes rset_w rset_r].

Lemma idle0_pipe_same cs ps q x x' : kget q ps = Some x -> rp_busy x' = rp_busy x -> rp_closed x' = rp_closed x ->
  idle0 cs (kset q x' ps) = idle0 cs ps.
Proof. intros G E1 E2. unfold idle0. destruct (kget 0%N cs); [|reflexivity]. now rewrite (pidle_kset_same _ _ _ _ _ G E1 E2). Qed.
Lemma idle0_pipe_other cs ps q x' c0 : kget 0%N cs = Some c0 -> rc_pipe c0 <> q -> idle0 cs (kset q x' ps) = idle0 cs ps.
Proof. intros G H. unfold idle0. rewrite G, pidle_kset_neq; auto. Qed.
Lemma idle0_pipe_main_busy cs ps q x' c0 : kget 0%N cs = Some c0 -> rc_pipe c0 = q -> rp_closed x' = false -> rp_busy x' = true ->
  idle0 cs (kset q x' ps) = false.
Proof. intros G E C B. unfold idle0. rewrite G, E, pidle_kset_eq, C, B. apply andb_false_r. Qed.
Lemma idle0_pipe_main_free cs ps q x' c0 : kget 0%N cs = Some c0 -> rc_pipe c0 = q -> rc_bt c0 <> [] ->
  (rp_closed x' = true \/ rp_busy x' = false) -> idle0 cs (kset q x' ps) = true.
Proof.
  intros G E B H. unfold idle0. rewrite G, E, pidle_kset_eq. destruct (rc_bt c0); [contradiction|]. cbn [isnil negb andb].
  destruct H as [-> | ->]; [reflexivity|]. now destruct (rp_closed x').
Qed.
Lemma idle0_unqueue cs ps k : idle0 cs (unqueue_ctx k ps) = idle0 cs ps.
Proof. unfold idle0. destruct (kget 0%N cs); [|reflexivity]. now rewrite pidle_unqueue. Qed.
Lemma idle0_app_fresh cs ps p : ~ In p (map fst ps) -> idle0 cs (ps ++ [(p, mkRpipe false false [] [] [])]) = idle0 cs ps.
Proof. intros H. unfold idle0. destruct (kget 0%N cs); [|reflexivity]. now rewrite pidle_app_fresh. Qed.
Lemma idle0_kdel cs ps k : k <> 0%N -> idle0 (kdel k cs) ps = idle0 cs ps.
Proof. intros H. unfold idle0. rewrite kget_kdel_neq; auto. Qed.
Lemma idle0_flush cs ps ks : idle0 (fst (flush_sendq ks cs)) ps = idle0 cs ps.
Proof.
  apply (flush_sendq_ind (fun cs' => idle0 cs' ps = idle0 cs ps)); [|reflexivity].
  intros cs' k c _ E G. now rewrite (idle0_ctx_same _ _ _ c).
Qed.
Lemma main_pipe_get s c0 : kget 0%N (rs_ctxs s) = Some c0 -> main_pipe s = rc_pipe c0.
Proof. unfold main_pipe. now intros ->. Qed.

(* a send: the base part whatever rf_nb, the descriptor with every repair *)
Lemma resp_base_send nbf s c a nb m : RBase s -> RBase (fst (resp_step (rfx nbf) s (PSend c a nb m))).
Proof.
  intros HB. cbn [resp_step rfx rf_nb rf_sbusy rf_wother andb].
  destruct (kget (ckey c) (rs_ctxs s)) as [cx|] eqn:G; [|exact HB].
  assert (B0: forall b : bool, RBase (if b then rset_w s false else s)) by (intros []; exact HB).
  destruct (nb && negb nbf); [apply B0|]. destruct (rc_bt cx) as [|b0 bt] eqn:BT; [apply B0|].
  destruct (rc_saio cx) as [sa|] eqn:SA; [apply B0|]. rewrite wif_pipes. destruct (nbf && nb && _); [apply B0|].
  destruct HB as (HC & HR & HQ).
  destruct (live_pipe (rc_pipe cx) (rs_pipes s)) as [x|] eqn:LP.
  - apply live_pipe_some in LP as [GP CL]. destruct (rp_busy x) eqn:BU; cbn [negb]; rbase_unfold.
    + split; [apply rbc_kset; auto|split].
      * eapply rbr_pipe_same; eauto.
      * eapply (rbq_push _ _ _ x _ _ _ HQ GP); [reflexivity|eapply rbq_saio_none; eauto|discriminate].
    + split; [apply rbc_kset; auto|split].
      * eapply rbr_pipe_same; eauto.
      * apply rbq_ctx; [eapply rbq_pipe_same; eauto|]. now rewrite G.
  - rbase_unfold. split; [apply rbc_kset; auto|split].
    + exact HR.
    + apply rbq_ctx; auto. now rewrite G.
Qed.
(* resp0_ctx_send with every repair present: the flags folded away *)
Ltac resp_send_open := cbn [resp_step rfx rf_nb rf_sbusy rf_wother andb negb]; rewrite ?andb_false_r; cbv iota.
Lemma resp_w_send s c a nb m : RBase s -> RW s -> RW (fst (resp_step (rfx true) s (PSend c a nb m))).
Proof.
  intros (HC & HR & HQ) HW. destruct HC as (ND & c0 & G0 & B0). pose proof (main_pipe_get s c0 G0) as MP.
  resp_send_open. destruct (kget (ckey c) (rs_ctxs s)) as [cx|] eqn:G; [|exact HW].
  destruct (rc_bt cx) as [|b0 bt] eqn:BT; [exact HW|].
  destruct (rc_saio cx) as [sa|] eqn:SA; [exact HW|].
  destruct (live_pipe (rc_pipe cx) (rs_pipes s)) as [x|] eqn:LP.
  - apply live_pipe_some in LP as [GP CL]. destruct (rp_busy x) eqn:BU; cbn [negb].
    + rewrite andb_false_r, orb_false_r. destruct nb; cbn [andb]; [exact HW|].
      destruct (N.eqb_spec (ckey c) 0) as [K|K]; rw_unfold.
      * rewrite K, idle0_ctx_zero. reflexivity.
      * rewrite idle0_ctx_other by auto. rewrite (idle0_pipe_same _ _ _ x); auto.
    + rewrite andb_false_r, andb_true_r. cbv iota.
      destruct (N.eqb_spec (ckey c) 0) as [K|K]; cbn [orb]; rw_unfold.
      * rewrite K, idle0_ctx_zero. reflexivity.
      * rewrite MP. destruct (N.eqb_spec (rc_pipe cx) (rc_pipe c0)) as [E|E]; rw_unfold; rewrite idle0_ctx_other by auto.
        -- symmetry. eapply idle0_pipe_main_busy; eauto.
        -- rewrite (idle0_pipe_other _ _ _ _ c0); auto.
  - rewrite !andb_false_r, orb_false_r. cbv iota.
    destruct (N.eqb_spec (ckey c) 0) as [K|K]; rw_unfold.
    + rewrite K, idle0_ctx_zero. reflexivity.
    + rewrite idle0_ctx_other by auto. exact HW.
Qed.

(* the other operations do not look at rf_nb: the base part is kept, and the send descriptor stays exact if it was *)
Definition rkeeps (s s' : resp) : Prop := RBase s' /\ (RW s -> RW s').
Lemma rkeeps_refl s : RBase s -> rkeeps s s.
Proof. split; auto. Qed.

Lemma resp_keeps_recv nbf s c a nb : RBase s -> rkeeps s (fst (resp_step (rfx nbf) s (PRecv c a nb))).
Proof.
  intros HB. pose proof (rkeeps_refl s HB) as SAME. pose proof HB as (HC & HR & HQ). cbn [resp_step rfx rf_wbusy rf_wstale negb orb].
  destruct (kget (ckey c) (rs_ctxs s)) as [cx|] eqn:G; [|exact SAME].
  destruct (rs_recvpipes s) as [|p rest] eqn:RP.
  - destruct nb; [exact SAME|]. destruct (rc_raio cx); [exact SAME|]. split.
    + rbase_unfold. rewrite RP. split; [|split]; auto.
      * eapply rbc_kset_same; eauto.
      * apply rbq_ctx; auto. now rewrite G.
    + intros HW. rw_unfold. rewrite (idle0_ctx_same _ _ _ cx); auto.
  - pose proof HR as (Z & R & D & E). destruct (R p (or_introl eq_refl)) as (x & m & tl & GP & CL & RM & HH).
    rewrite GP, RM. split.
    + rbase_unfold. split; [|split].
      * apply rbc_kset; [exact HC|]. intros _ X. cbn [rc_bt] in X. contradiction.
      * eapply rbr_dequeue; eauto.
      * apply rbq_ctx; [eapply rbq_pipe_same; eauto|]. now rewrite G.
    + intros HW. rw_unfold. destruct (N.eqb_spec (ckey c) 0) as [K|K].
      * rewrite K, idle0_ctx_zero. cbn [rc_bt rc_pipe]. rewrite pidle_kset_eq. cbn [rp_closed rp_busy]. rewrite CL.
        destruct (pm_hdr m); [contradiction|]. cbn [isnil negb andb]. destruct (rp_busy x); reflexivity.
      * rewrite idle0_ctx_other by auto. rewrite (idle0_pipe_same _ _ _ x); auto.
Qed.

Lemma find_saio_get a cs k c : NoDup (map fst cs) -> find_saio a cs = Some (k, c) -> kget k cs = Some c /\ exists w, rc_saio c = Some (a, w).
Proof.
  intros ND F. unfold find_saio in F. apply find_some in F as [I E]. split; [now apply in_kget|]. cbn [snd] in E.
  destruct (rc_saio c) as [[a' w]|]; [|discriminate]. apply N.eqb_eq in E. subst. eauto.
Qed.
Lemma find_raio_get a cs k c : NoDup (map fst cs) -> find_raio a cs = Some (k, c) -> kget k cs = Some c /\ rc_raio c = Some a.
Proof.
  intros ND F. unfold find_raio in F. apply find_some in F as [I E]. split; [now apply in_kget|]. cbn [snd] in E.
  destruct (rc_raio c) as [a'|]; [|discriminate]. apply N.eqb_eq in E. now subst.
Qed.
Lemma resp_keeps_cancel nbf s a rv : RBase s -> rkeeps s (fst (resp_step (rfx nbf) s (PCancel a rv))).
Proof.
  intros HB. pose proof HB as (HC & HR & HQ). pose proof HC as (ND & _). cbn [resp_step].
  destruct (find_saio a (rs_ctxs s)) as [[k cx]|] eqn:F.
  - destruct (find_saio_get _ _ _ _ ND F) as [G _]. split.
    + rbase_unfold. split; [|split]; [eapply rbc_kset_same; eauto|now apply rbr_unqueue|now apply rbq_unqueue].
    + intros HW. rw_unfold. rewrite (idle0_ctx_same _ _ _ cx), idle0_unqueue; auto.
  - destruct (find_raio a (rs_ctxs s)) as [[k cx]|] eqn:F2; [|now apply rkeeps_refl].
    destruct (find_raio_get _ _ _ _ ND F2) as [G _]. split.
    + rbase_unfold. split; [|split]; auto.
      * eapply rbc_kset_same; eauto.
      * apply rbq_ctx; auto. now rewrite G.
    + intros HW. rw_unfold. rewrite (idle0_ctx_same _ _ _ cx); auto.
Qed.

Lemma resp_keeps_pipe_start nbf s p peer : RBase s -> resp_ok s (PPipeStart p peer) ->
  rkeeps s (fst (resp_step (rfx nbf) s (PPipeStart p peer))).
Proof.
  intros HB [NZ NI]. pose proof HB as (HC & HR & HQ). cbn [resp_step]. destruct (negb _); [now apply rkeeps_refl|]. split.
  - rbase_unfold. split; [|split]; auto; [now apply rbr_app|now apply rbq_app].
  - intros HW. rw_unfold. now rewrite idle0_app_fresh.
Qed.
Lemma resp_keeps_pipe_close nbf s p : RBase s -> rkeeps s (fst (resp_step (rfx nbf) s (PPipeClose p))).
Proof.
  intros HB. pose proof HB as (HC & HR & HQ). cbn [resp_step rfx rf_rclose andb].
  destruct (kget p (rs_pipes s)) as [x|] eqn:GP; [|now apply rkeeps_refl].
  rewrite (surjective_pairing (flush_sendq (rp_sendq x) (rs_ctxs s))). split.
  - rbase_unfold. split; [|split]; [now apply rbc_flush|eapply rbr_close; eauto|eapply rbq_close; eauto].
  - intros HW. destruct HC as (ND & c0 & G0 & B0). rw_unfold. rewrite idle0_flush, (main_pipe_get s c0 G0).
    pose proof (rbr_zero_ne _ _ _ _ _ HR GP) as NZ. destruct (N.eqb_spec p (rc_pipe c0)) as [K|K].
    + symmetry. eapply idle0_pipe_main_free; eauto. intros X. apply B0 in X. congruence.
    + rewrite (idle0_pipe_other _ _ _ _ c0); auto.
Qed.
Lemma in_sendq_sq p x ps k : kget p ps = Some x -> In k (rp_sendq x) -> In k (sq ps).
Proof. intros G H. destruct (sq_kset _ _ _ G) as (A & B & E & _). rewrite E. apply in_or_app. right. apply in_or_app. now left. Qed.
Lemma resp_keeps_send_done nbf s p rv : RBase s -> resp_ok s (PSendDone p rv) -> rkeeps s (fst (resp_step (rfx nbf) s (PSendDone p rv))).
Proof.
  intros HB (x & GP & BU). pose proof HB as (HC & HR & HQ). pose proof HC as (ND & c0 & G0 & B0).
  pose proof (rbr_zero_ne _ _ _ _ _ HR GP) as NZ. cbn [resp_step]. rewrite GP.
  destruct (negb _).
  { split; [rbase_unfold; split; [|split]; auto; [eapply rbr_pipe_same; eauto|eapply rbq_pipe_same; eauto]|].
    intros HW. rw_unfold. rewrite (idle0_pipe_same _ _ _ x); auto. }
  destruct (rp_sendq x) as [|k rest] eqn:SQ.
  - split.
    + rbase_unfold. cbn [rs_ctxs rs_pipes rs_recvpipes rs_readable rset_pipes].
      split; [|split]; auto; [eapply rbr_pipe_same; eauto|eapply rbq_pipe_same; eauto].
    + intros HW. rewrite (main_pipe_get s c0 G0). destruct (N.eqb_spec p (rc_pipe c0)) as [K|K]; rw_unfold.
      * symmetry. eapply idle0_pipe_main_free; eauto. intros X. apply B0 in X. congruence.
      * rewrite (idle0_pipe_other _ _ _ _ c0); auto.
  - destruct (proj1 HQ k) as (c & G & S); [eapply in_sendq_sq; eauto; rewrite SQ; now left|]. rewrite G.
    destruct (rc_saio c) as [[a m]|] eqn:SA; [|congruence]. split.
    + rbase_unfold. split; [|split]; [eapply rbc_kset_same; eauto|eapply rbr_pipe_same; eauto|eapply rbq_pop; eauto].
    + intros HW. rw_unfold. rewrite (idle0_ctx_same _ _ _ c), (idle0_pipe_same _ _ _ x); auto.
Qed.
Lemma resp_keeps_recv_done nbf s p rv m : RBase s -> resp_ok s (PRecvDone p rv m) ->
  rkeeps s (fst (resp_step (rfx nbf) s (PRecvDone p rv m))).
Proof.
  intros HB NI. pose proof (rkeeps_refl s HB) as SAME. pose proof HB as (HC & HR & HQ). cbn [resp_step rfx rf_wstale]. cbn [resp_ok] in NI.
  destruct (negb _); [exact SAME|]. destruct (resp_recv (rs_ttl s) (pm_body m)) as [hdr body| |] eqn:RR; try exact SAME.
  destruct (live_pipe p (rs_pipes s)) as [x|] eqn:LP; [|exact SAME]. pose proof (live_pipe_some _ _ _ LP) as [GP CL].
  assert (HN: pm_hdr m ++ hdr <> []).
  { unfold resp_recv in RR. apply bt_move_deliver in RR as (_ & _ & L & _). destruct hdr; [cbn in L; lia|]. now destruct (pm_hdr m). }
  destruct (rs_recvq s) as [|k rest] eqn:RQ.
  - split.
    + rbase_unfold. split; [|split]; auto; [eapply rbr_enqueue; eauto; [reflexivity|exact HN]|eapply rbq_pipe_same; eauto].
    + intros HW. rw_unfold. rewrite (idle0_pipe_same _ _ _ x); auto.
  - destruct (kget k (rs_ctxs s)) as [c|] eqn:G; [|exact SAME]. destruct (rc_raio c) as [a|]; [|exact SAME]. split.
    + rbase_unfold. split; [|split]; auto.
      * apply rbc_kset; [exact HC|]. intros _ X. cbn [rc_bt pm_hdr] in X. contradiction.
      * apply rbq_ctx; auto. now rewrite G.
    + intros HW. rw_unfold. destruct (N.eqb_spec k 0) as [K|K].
      * rewrite K, idle0_ctx_zero. cbn [rc_bt rc_pipe pm_hdr]. unfold pidle. rewrite LP.
        destruct (pm_hdr m ++ hdr); [contradiction|]. cbn [isnil negb andb]. destruct (rp_busy x); reflexivity.
      * rewrite idle0_ctx_other by auto. exact HW.
Qed.
Lemma ckey_some_nz c : ckey (Some c) <> 0%N.
Proof. unfold ckey. lia. Qed.
Lemma resp_keeps_ctx_open nbf s c : RBase s -> resp_ok s (PCtxOpen c) -> rkeeps s (fst (resp_step (rfx nbf) s (PCtxOpen c))).
Proof.
  intros HB NG. pose proof HB as (HC & HR & HQ). cbn [resp_step]. cbn [resp_ok] in NG. split.
  - rbase_unfold. split; [|split]; auto; [apply rbc_kset; auto|apply rbq_ctx; auto; now rewrite NG].
  - intros HW. rw_unfold. rewrite idle0_ctx_other; [exact HW|apply ckey_some_nz].
Qed.
(* rctx_close: the context loses its aios; one with a send queued leaves the pipes' queues *)
Lemma rctx_close_fields s k c :
  let s' := fst (rctx_close s k c) in
  rs_ctxs s' = kset k (mkRctx (rc_pipe c) (rc_bt c) None None) (rs_ctxs s) /\
  rs_pipes s' = (if rc_saio c then unqueue_ctx k (rs_pipes s) else rs_pipes s) /\
  rs_recvpipes s' = rs_recvpipes s /\ rs_readable s' = rs_readable s /\ rs_writable s' = rs_writable s.
Proof. unfold rctx_close. destruct (rc_saio c) as [[a w]|], (rc_raio c); cbn; auto 6. Qed.
Lemma resp_keeps_ctx_close nbf s c : RBase s -> rkeeps s (fst (resp_step (rfx nbf) s (PCtxClose c))).
Proof.
  intros HB. pose proof HB as (HC & HR & HQ). cbn [resp_step].
  destruct (kget (ckey (Some c)) (rs_ctxs s)) as [cx|] eqn:G; [|now apply rkeeps_refl].
  pose proof (ckey_some_nz c) as NZ. set (k := ckey (Some c)) in *.
  destruct (rctx_close_fields s k cx) as (C1 & P1 & R1 & D1 & W1). destruct (rctx_close s k cx) as [s1 o1]. cbn [fst] in *.
  unfold rkeeps, RBase, RW. cbn [rs_ctxs rs_pipes rs_recvpipes rs_readable rs_writable rset_ctxs]. rewrite C1, P1, R1, D1, W1. split.
  - split; [apply rbc_kdel; auto; eapply rbc_kset_same; eauto|]. destruct (rc_saio cx) as [[a w]|] eqn:SA; split.
    + now apply rbr_unqueue.
    + apply rbq_kdel; [now apply rbq_unqueue|]. rewrite sq_unqueue. intros X. apply ReqRepProofs.in_remove_id in X. tauto.
    + exact HR.
    + apply rbq_kdel; [|eapply rbq_saio_none; eauto]. apply rbq_ctx; auto. rewrite G. congruence.
  - intros HW. rewrite idle0_kdel, idle0_ctx_other by auto. destruct (rc_saio cx); rewrite ?idle0_unqueue; exact HW.
Qed.
Lemma resp_keeps_setopt nbf s c op : RBase s -> rkeeps s (fst (resp_step (rfx nbf) s (PSetOpt c op))).
Proof.
  intros HB. pose proof (rkeeps_refl s HB) as SAME. cbn [resp_step]. destruct c; [destruct op; exact SAME|]. destruct op; try exact SAME.
  - destruct (_ <? _)%N; exact SAME.
  - destruct (_ <? _)%N; exact SAME.
  - destruct (_ && _); exact SAME.
Qed.

Lemma resp_init_base : RBase resp_init.
Proof.
  split; [|split].
  - split; [cbn; constructor; [tauto|constructor]|]. exists rctx_init. split; reflexivity.
  - split; [reflexivity|]. split; [intros p []|]. split; [constructor|reflexivity].
  - split; [intros k []|constructor].
Qed.
Lemma resp_inv_init fx : pm_inv (M_resp fx) (pm_init (M_resp fx)).
Proof. split; [exact resp_init_base|]. intros _. reflexivity. Qed.
Lemma resp_inv_step nbf s o : pm_inv (M_resp (rfx nbf)) s -> pm_ok (M_resp (rfx nbf)) s o -> o <> PSockClose ->
  pm_inv (M_resp (rfx nbf)) (fst (pm_step (M_resp (rfx nbf)) s o)).
Proof.
  unM M_resp. unfold RInv. cbn [rfx rf_nb]. intros [HB HW] Hok NC.
  assert (K: forall s', rkeeps s s' -> RBase s' /\ (nbf = true -> RW s')) by (intros s' [A B]; auto).
  destruct o as [c a nb m|c a nb|a rv|p peer|p|p rv|p rv m|c op|c|c| |now].
  - split; [now apply resp_base_send|]. intros ->. apply resp_w_send; auto.
  - now apply K, resp_keeps_recv.
  - now apply K, resp_keeps_cancel.
  - now apply K, resp_keeps_pipe_start.
  - now apply K, resp_keeps_pipe_close.
  - now apply K, resp_keeps_send_done.
  - now apply K, resp_keeps_recv_done.
  - now apply K, resp_keeps_setopt.
  - now apply K, resp_keeps_ctx_open.
  - now apply K, resp_keeps_ctx_close.
  - congruence.
  - now apply K, rkeeps_refl.
Qed.
Theorem resp_c15_inv_any nbf : C15_inv (M_resp (rfx nbf)).
Proof. apply reachable_inv; [apply resp_inv_init|apply resp_inv_step]. Qed.
Theorem resp_c15_inv : C15_inv (M_resp rfix_all).
Proof. exact (resp_c15_inv_any true). Qed.
Theorem resp_c15_inv_cur : C15_inv (M_resp resp_cur).
Proof. exact (resp_c15_inv_any false). Qed.

Lemma resp_busy_sub a k cx c' s : kget k (rs_ctxs s) = Some cx -> (forall b, In b (rctx_aios c') -> In b (rctx_aios cx)) ->
  In a (kbusy rctx_aios (kset k c' (rs_ctxs s))) -> In a (resp_busy s).
Proof. intros G H X. apply kbusy_kset_in in X as [X|X]; [|exact X]. eapply kbusy_get; eauto. Qed.

(* a send (all repairs): refused by the state machine, or the survey's pipe is busy (NNG_EAGAIN / queued on the pipe),
   or handed to the pipe (or dropped with it) whatever the flag *)
Lemma resp_send_shape s c a m : ~ In a (resp_busy s) -> send_shape (M_resp (rfx true)) true s c a m.
Proof.
  intros Hok. destruct (kget (ckey c) (rs_ctxs s)) as [cx|] eqn:G.
  2:{ apply (refused_send _ _ _ _ _ _ E_CLOSED); auto with errs. intros nb m2. unM M_resp. cbn [resp_step]. now rewrite G. }
  assert (ST: rc_bt cx = [] \/ rc_saio cx <> None -> send_shape (M_resp (rfx true)) true s c a m).
  { intros D. apply (refused_send _ _ _ _ _ _ E_STATE); auto with errs. intros nb m2. unM M_resp. resp_send_open. rewrite G.
    destruct (rc_bt cx); [reflexivity|]. destruct (rc_saio cx); [reflexivity|]. destruct D; congruence. }
  destruct (rc_bt cx) as [|b0 bt] eqn:BT; [apply ST; now left|]. destruct (rc_saio cx) as [sa|] eqn:SA; [apply ST; right; discriminate|].
  clear ST. assert (NB: ~ In a (kbusy rctx_aios (kset (ckey c) (mkRctx 0 [] None (rc_raio cx)) (rs_ctxs s)))).
  { intros X. apply Hok. eapply resp_busy_sub; [exact G| |exact X]. unfold rctx_aios. cbn [rc_saio rc_raio]. now rewrite SA. }
  destruct (live_pipe (rc_pipe cx) (rs_pipes s)) as [x|] eqn:LP; [destruct (rp_busy x) eqn:BU|].
  (* the pipe is idle, or gone: the response is handed to it, or dropped, whatever the flag *)
  2,3: apply (SsSame E_OK); unM M_resp; resp_send_open; rewrite ?G, ?BT, ?SA, ?LP, ?BU;
    cbn [negb andb fst snd rs_ctxs rset_ctxs rset_pipes]; rewrite ?wif_ctxs;
    [reflexivity|now rewrite compl_of_cons, compl_of_self|auto with errs|exact NB|intros X; now elim X].
  apply SsAgain; unM M_resp; resp_send_open; rewrite G, BT, SA, LP, BU; cbn [negb andb fst snd].
  - apply compl_of_self.
  - exact Hok.
  - reflexivity.
  - split; [reflexivity|]. cbn [rs_ctxs rset_ctxs]. eapply kbusy_get; [apply kget_kset_eq|]. now left.
Qed.
(* the source today (rf_nb absent): nni_aio_start comes first, a NONBLOCK send is refused whatever the message *)
Lemma resp_nb_send_immediate_cur s : nb_send_immediate_at (M_resp resp_cur) s.
Proof.
  intros c a m s' outs Hok H. unM M_resp. cbn [resp_ok] in Hok. cbn [resp_step resp_cur rfx rf_nb andb negb] in H.
  destruct (kget (ckey c) (rs_ctxs s)) as [cx|] eqn:G; inversion H; subst; rewrite compl_of_self.
  - exists E_AGAIN. split; [reflexivity|]. split; [unfold resp_busy; now rewrite wif_ctxs|].
    intros _ m2 _. cbn [resp_step resp_cur rfx rf_nb andb negb]. now rewrite G.
  - exists E_CLOSED. split; [reflexivity|]. split; [exact Hok|]. intros _ m2 _. cbn [resp_step]. now rewrite G.
Qed.
(* a receive: a survey waits and is taken whatever the flag; or none does: NNG_EAGAIN, where the blocking form is
   queued or -- one receive is pending already -- refused *)
Lemma resp_recv_shape fx s c a : RBase s -> ~ In a (resp_busy s) -> recv_shape (M_resp fx) false s c a.
Proof.
  intros (HC & HR & HQ) Hok. destruct (kget (ckey c) (rs_ctxs s)) as [cx|] eqn:G.
  2:{ apply (refused_recv _ _ _ _ _ E_CLOSED); auto with errs. intros nb. unM M_resp. cbn [resp_step]. now rewrite G. }
  destruct HR as (_ & R & _). destruct (rs_recvpipes s) as [|p rest] eqn:RP.
  - apply RsAgain; unM M_resp; cbn [resp_step]; rewrite G, RP; cbn [fst snd].
    + apply compl_of_self.
    + exact Hok.
    + destruct (rc_raio cx); cbn [snd]; [rewrite result_of_single; auto with errs|discriminate].
  - destruct (R p (or_introl eq_refl)) as (x & m0 & tl & GP & _ & RM & _).
    apply (RsSame E_OK (Some (mkPmsg [] (pm_body m0)))); unM M_resp; cbn [resp_step]; rewrite ?G, ?RP, ?GP, ?RM; cbn [fst snd].
    + reflexivity.
    + now rewrite compl_of_cons, compl_of_self.
    + auto with errs.
    + split; [reflexivity|discriminate].
    + cbn [rs_ctxs]. intros X. apply Hok. eapply resp_busy_sub; [exact G| |exact X]. unfold rctx_aios. cbn [rc_saio rc_raio]. auto.
Qed.
Lemma resp_send_clauses s : nb_send_immediate_at (M_resp (rfx true)) s /\ nb_send_possible_at (M_resp (rfx true)) s /\
  (true = true -> nb_send_eagain_queues_at (M_resp (rfx true)) s).
Proof. apply send_shape_clauses. intros c a m Hok. now apply resp_send_shape. Qed.
Lemma resp_recv_clauses fx s : RBase s -> nb_recv_immediate_at (M_resp fx) s /\ nb_recv_possible_at (M_resp fx) s.
Proof.
  intros HB. destruct (recv_shape_clauses (M_resp fx) false s) as (A & B & _); [|auto]. intros c a Hok. now apply resp_recv_shape.
Qed.

(* the receive descriptor: raised <-> a survey waits <-> the receive succeeds (whatever rf_nb) *)
Lemma resp_mirror_r_exact_at nbf s : pm_inv (M_resp (rfx nbf)) s -> mirror_r_exact_at (M_resp (rfx nbf)) s.
Proof.
  intros [((_ & c0 & G0 & _) & (_ & R & _ & E) & _) _].
  apply (mirror_r_of_rv (M_resp (rfx nbf)) s (negb (isnil (rs_recvpipes s)))); [unM M_resp; cbn [resp_poll poll_r]; now rewrite E|].
  intros a _. unfold rv_recv. unM M_resp. cbn [resp_step ckey]. rewrite G0. destruct (rs_recvpipes s) as [|p rest]; [apply result_of_single|].
  destruct (R p (or_introl eq_refl)) as (x & m & tl & GP & _ & RM & _). rewrite GP, RM. cbn [snd]. now rewrite result_of_skip, result_of_single.
Qed.
Lemma resp_mirror_r_at nbf s : pm_inv (M_resp (rfx nbf)) s -> mirror_r_at (M_resp (rfx nbf)) s.
Proof. intros H. apply mirror_r_exact_weaken. now apply resp_mirror_r_exact_at. Qed.
(* the send descriptor (all repairs): raised only where the NONBLOCK send does not answer EAGAIN, and wherever it succeeds *)
Lemma resp_mirror_w_at s : pm_inv (M_resp (rfx true)) s -> mirror_w_at (M_resp (rfx true)) s.
Proof.
  intros [(HC & HR & HQ) HW] a m _ _. specialize (HW eq_refl). unM M_resp. unfold rv_send. unM M_resp.
  cbn [resp_poll poll_w]. rewrite HW. unfold idle0, pidle.
  resp_send_open. cbn [ckey]. destruct HC as (_ & c0 & G0 & _). rewrite G0.
  destruct (rc_bt c0) as [|b0 bt]; cbn [isnil negb andb snd]; [rewrite result_of_single; unfold_errs; split; intros; discriminate|].
  destruct (rc_saio c0); [cbn [snd]; rewrite result_of_single; unfold_errs; split; [discriminate|intros _; discriminate]|].
  destruct (live_pipe (rc_pipe c0) (rs_pipes s)) as [x|].
  - destruct (rp_busy x); cbn [negb andb snd].
    + rewrite result_of_single. unfold_errs. split; intros; discriminate.
    + rewrite result_of_skip, result_of_single by reflexivity. unfold_errs. split; [reflexivity|intros _; discriminate].
  - rewrite !andb_false_r. cbn [snd]. rewrite result_of_self. unfold_errs. split; [reflexivity|intros _; discriminate].
Qed.

Theorem resp_c15_nb_immediate : C15_nb_immediate (M_resp rfix_all).
Proof. intros s R. split; [apply resp_send_clauses|apply resp_recv_clauses, (resp_c15_inv s R)]. Qed.
Theorem resp_c15_nb_possible : C15_nb_possible (M_resp rfix_all).
Proof. intros s R. split; [apply resp_send_clauses|apply resp_recv_clauses, (resp_c15_inv s R)]. Qed.
Theorem resp_c15_mirror : C15_mirror (M_resp rfix_all).
Proof.
  intros s R. pose proof (resp_c15_inv s R) as HI. split; [exact (resp_mirror_r_at true s HI)|exact (resp_mirror_w_at s HI)].
Qed.
Theorem resp_c15_nb_send_strict : forall s, reachable (M_resp rfix_all) s -> nb_send_eagain_queues_at (M_resp rfix_all) s.
Proof. intros s _. now apply resp_send_clauses. Qed.
Theorem resp_c15_mirror_r_exact : forall s, reachable (M_resp rfix_all) s -> mirror_r_exact_at (M_resp rfix_all) s.
Proof. intros s R. exact (resp_mirror_r_exact_at true s (resp_c15_inv s R)). Qed.
Theorem resp_c15_nb_immediate_cur : C15_nb_immediate (M_resp resp_cur).
Proof. intros s R. split; [apply resp_nb_send_immediate_cur|apply resp_recv_clauses, (resp_c15_inv_cur s R)]. Qed.
Theorem resp_c15_mirror_r_cur : C15_mirror_r (M_resp resp_cur).
Proof. intros s R. exact (resp_mirror_r_at false s (resp_c15_inv_cur s R)). Qed.
Theorem resp_c15_nb_recv_possible_cur : C15_nb_recv_possible (M_resp resp_cur).
Proof. intros s R. apply resp_recv_clauses, (resp_c15_inv_cur s R). Qed.

(* a concrete history: the contract and the results by computation; what computation leaves are memberships in
   short lists of numerals and numeric side conditions *)
Ltac wit_atom := first [ exact I | reflexivity | discriminate
  | (let H := fresh in intro H; repeat (destruct H as [H|H]); first [discriminate H | contradiction | lia]) ].
Ltac wit := vm_compute; repeat match goal with |- _ /\ _ => split | |- exists _, _ => eexists end; wit_atom.
Ltac reach ops := exists ops; split; [wit|reflexivity].

(* strict reading: a second receive while one is pending answers NNG_EAGAIN in the NONBLOCK form, NNG_ESTATE
   (not queued) in the blocking form *)
Definition resp_ops_pending : list pop := [PRecv None 1%N false].
Theorem resp_c15_nb_strict_refuted : ~ C15_nb_strict (M_resp rfix_all).
Proof.
  intros H. destruct (H _ ltac:(reach resp_ops_pending)) as [_ Hr].
  destruct (Hr None 2%N) as [X _]; [wit|vm_compute; reflexivity|]. vm_compute in X. discriminate.
Qed.
(* raised <-> not EAGAIN: false in the initial state (no survey: the send answers NNG_ESTATE, the descriptor is down) *)
Theorem resp_c15_mirror_iff_refuted : ~ C15_mirror_iff (M_resp rfix_all).
Proof.
  intros H. destruct (H _ (reachable_init _)) as [_ Hw]. specialize (Hw 1%N (mkPmsg [] []) ltac:(wit) eq_refl).
  vm_compute in Hw. destruct Hw as [_ X]. assert (F: false = true) by (apply X; discriminate). discriminate.
Qed.
(* raised <-> would succeed: false when the previous response is still queued behind a busy pipe and a new survey
   arrives from an idle pipe: the descriptor is raised, the send is refused with NNG_ESTATE (rf_sbusy) *)
Definition resp_ops_exact : list pop :=
  [PPipeStart 1%N PROTO_SURVEYOR; PPipeStart 2%N PROTO_SURVEYOR;
   PRecvDone 1%N 0%N (mkPmsg [] [128%N; 0%N; 0%N; 1%N; 7%N]); PRecv None 1%N true; PSend None 2%N false (mkPmsg [] [9%N]);
   PRecvDone 1%N 0%N (mkPmsg [] [128%N; 0%N; 0%N; 2%N; 8%N]); PRecv None 3%N true; PSend None 4%N false (mkPmsg [] [10%N]);
   PRecvDone 2%N 0%N (mkPmsg [] [128%N; 0%N; 0%N; 3%N; 8%N]); PRecv None 5%N true].
Theorem resp_c15_mirror_exact_refuted : ~ C15_mirror_exact (M_resp rfix_all).
Proof.
  intros H. destruct (H _ ltac:(reach resp_ops_exact)) as [_ Hw]. specialize (Hw 6%N (mkPmsg [] [11%N]) ltac:(wit) eq_refl).
  vm_compute in Hw. destruct Hw as [X _]. specialize (X eq_refl). discriminate.
Qed.
(* the source today: nni_aio_start comes first in resp0_ctx_send, so a NONBLOCK send answers NNG_EAGAIN (and
   lowers the descriptor) although the survey's pipe is idle and the descriptor raised *)
Definition resp_ops_cur : list pop :=
  [PPipeStart 1%N PROTO_SURVEYOR; PRecvDone 1%N 0%N (mkPmsg [] [128%N; 0%N; 0%N; 1%N; 7%N]); PRecv None 1%N true].
Lemma resp_cur_reach : reachable (M_resp resp_cur) (prun (M_resp resp_cur) (pm_init (M_resp resp_cur)) resp_ops_cur).
Proof. reach resp_ops_cur. Qed.
Theorem resp_c15_nb_possible_refuted_cur : ~ C15_nb_possible (M_resp resp_cur).
Proof.
  intros H. destruct (H _ resp_cur_reach) as [Hs _]. specialize (Hs None 2%N (mkPmsg [] [9%N]) ltac:(wit) ltac:(vm_compute; reflexivity)).
  vm_compute in Hs. discriminate.
Qed.
Theorem resp_c15_mirror_w_refuted_cur : ~ C15_mirror_w (M_resp resp_cur).
Proof.
  intros H. pose proof (H _ resp_cur_reach) as Hw. specialize (Hw 2%N (mkPmsg [] [9%N]) ltac:(wit) eq_refl).
  vm_compute in Hw. destruct Hw as [_ X]. apply (X eq_refl). reflexivity.
Qed.
Theorem resp_c15_mirror_refuted_cur : ~ C15_mirror (M_resp resp_cur).
Proof. intros H. apply resp_c15_mirror_w_refuted_cur. intros s R. apply H, R. Qed.

(* non-vacuity: reachable RESPONDENT states with each descriptor raised / lowered *)
Example resp_reachable_r_raised : exists s, reachable (M_resp rfix_all) s /\ poll_r (pm_poll (M_resp rfix_all) s) = Some true.
Proof.
  eexists. split; [reach [PPipeStart 1%N PROTO_SURVEYOR; PRecvDone 1%N 0%N (mkPmsg [] [128%N; 0%N; 0%N; 1%N; 7%N])]|reflexivity].
Qed.
Example resp_reachable_w_raised : exists s, reachable (M_resp rfix_all) s /\ pm_poll (M_resp rfix_all) s = mkPoll (Some false) (Some true).
Proof. eexists. split; [reach resp_ops_cur|reflexivity]. Qed.
Example resp_reachable_lowered : reachable (M_resp rfix_all) resp_init /\ pm_poll (M_resp rfix_all) resp_init = mkPoll (Some false) (Some false).
Proof. split; [apply (reachable_init (M_resp rfix_all))|reflexivity]. Qed.

Definition sbusy (cs : list (N * sctx)) : list aioid := flat_map (fun x => sc_rq (snd x)) cs.
Definition surv_busy (s : surv) : list aioid := sbusy (sv_ctxs s).
(* contract: transports deliver whole wire messages in the body; the clock does not run backwards; an aio is
   submitted once at a time *)
Definition surv_ok (s : surv) (o : pop) : Prop :=
  surv_op_ok o /\ time_ok s o /\ match o with PSend _ a _ _ | PRecv _ a _ => ~ In a (surv_busy s) | _ => True end.
(* the receive descriptor: raised iff the socket's own context has a response queued *)
Definition SRd (s : surv) : Prop := exists c0, kget 0%N (sv_ctxs s) = Some c0 /\ sv_readable s = negb (isnil (sc_lmq c0)).
Definition M_surv (nbfix : bool) : pmodel :=
  mkPM surv surv_init (surv_step nbfix) surv_poll surv_ok (fun s => SInv s /\ SRd s) surv_busy (fun _ => true).

(* SRd as an equation between the descriptor and a function of the context table: a step's updates become rewrites *)
Definition rd0 (cs : list (N * sctx)) : option bool := option_map (fun c => negb (isnil (sc_lmq c))) (kget 0%N cs).
Lemma srd_rd0 s : SRd s <-> rd0 (sv_ctxs s) = Some (sv_readable s).
Proof.
  unfold SRd, rd0. split; [intros (c0 & -> & ->); reflexivity|]. destruct (kget 0%N (sv_ctxs s)) as [c0|]; [|discriminate].
  intros H. inversion H. eauto.
Qed.
Lemma rd0_cons k c l : rd0 ((k, c) :: l) = if N.eqb k 0 then Some (negb (isnil (sc_lmq c))) else rd0 l.
Proof. unfold rd0. cbn [kget]. now destruct (N.eqb k 0). Qed.
Lemma rd0_kset k c' cs : rd0 (kset k c' cs) = if N.eqb k 0 then Some (negb (isnil (sc_lmq c'))) else rd0 cs.
Proof. unfold rd0. destruct (N.eqb_spec k 0) as [->|NE]; [now rewrite kget_kset_eq|rewrite kget_kset_neq; auto]. Qed.
Lemma rd0_get k c cs : kget k cs = Some c -> k = 0%N -> rd0 cs = Some (negb (isnil (sc_lmq c))).
Proof. intros G ->. unfold rd0. now rewrite G. Qed.
Lemma rd0_kset_same k c c' cs : kget k cs = Some c -> sc_lmq c' = sc_lmq c -> rd0 (kset k c' cs) = rd0 cs.
Proof. intros G E. rewrite rd0_kset. destruct (N.eqb_spec k 0) as [K|K]; [|reflexivity]. now rewrite (rd0_get _ _ _ G K), E. Qed.
Lemma cancel_ctxs_rd0 a rv l : rd0 (fst (cancel_ctxs a rv l)) = rd0 l.
Proof.
  induction l as [|[k c] l IH]; cbn [cancel_ctxs]; [reflexivity|]. destruct (has_id a (sc_rq c)); [cbn [fst]; now rewrite !rd0_cons|].
  destruct (cancel_ctxs a rv l) as [r o]. cbn [fst] in *. now rewrite !rd0_cons, IH.
Qed.
Lemma expire_ctxs_rd0 now l : rd0 (fst (expire_ctxs now l)) = rd0 l.
Proof.
  induction l as [|[k c] l IH]; cbn [expire_ctxs]; [reflexivity|]. destruct (expire_ctxs now l) as [r o]. cbn [fst] in IH.
  destruct (sc_rq c); [|destruct (_ <? _)%Z]; cbn [fst]; now rewrite !rd0_cons, IH.
Qed.
Lemma srd_if (b : bool) s x : rd0 (sv_ctxs s) = Some (if b then x else sv_readable s) -> SRd (if b then set_readable s x else s).
Proof. intros H. apply srd_rd0. now destruct b. Qed.
Ltac srd_unfold := cbn [fst]; first [apply srd_if|apply srd_rd0]; cbn [sv_ctxs sv_readable set_ctxs set_readable set_pipes set_cur].

Lemma surv_rd_step fx s o : SInv s -> SRd s -> surv_op_ok o -> o <> PSockClose -> SRd (fst (surv_step fx s o)).
Proof.
  intros [ND HC] SAME Hok NC. pose proof (proj1 (srd_rd0 s) SAME) as HR.
  destruct o as [c a nb m|c a nb|a rv|p peer|p|p rv|p rv m|c op|c|c| |now]; cbn [surv_step].
  - destruct (kget (ckey c) (sv_ctxs s)) as [cx|] eqn:G; [|exact SAME]. cbn [ctx_abort].
    destruct (id_alloc _ _ _) as [[id cur']|]; [destruct (fanout _ _) as [pipes' tx]|]; srd_unfold; rewrite !rd0_kset;
      destruct (N.eqb (ckey c) 0); auto.
  - destruct (kget (ckey c) (sv_ctxs s)) as [cx|] eqn:G; [|exact SAME]. destruct (_ || _); [exact SAME|].
    destruct (sc_lmq cx) as [|m0 r] eqn:L.
    + destruct (nb && fx); [exact SAME|]. srd_unfold. rewrite (rd0_kset_same _ cx); auto.
    + srd_unfold. rewrite rd0_kset. destruct (N.eqb_spec (ckey c) 0) as [K|K]; [|now rewrite andb_false_r].
      (* the socket's own context: a response was queued, so the descriptor was up *)
      rewrite (rd0_get _ _ _ G K), L in HR. injection HR as <-. now destruct r.
  - pose proof (cancel_ctxs_rd0 a rv (sv_ctxs s)) as E. destruct (cancel_ctxs a rv (sv_ctxs s)) as [cs o]. srd_unfold. exact (eq_trans E HR).
  - destruct (negb (N.eqb peer PROTO_RESPONDENT)); [exact SAME|]. srd_unfold. exact HR.
  - destruct (kget p (sv_pipes s)); [|exact SAME]. srd_unfold. exact HR.
  - destruct (kget p (sv_pipes s)) as [x|]; [|exact SAME]. destruct (negb (N.eqb rv 0)); [srd_unfold; exact HR|].
    destruct (sp_closed x); [|destruct (sp_q x)]; srd_unfold; exact HR.
  - destruct (negb (N.eqb rv 0)); [exact SAME|]. destruct (surv_recv (pm_body m)) as [[[id h] b]|]; [|exact SAME].
    destruct (find_owner id (sv_ctxs s)) as [[k cc]|] eqn:FO; [|exact SAME].
    destruct (find_owner_some _ _ _ _ FO) as (_ & _ & E3). pose proof (in_kget _ _ _ ND E3) as G.
    destruct (_ <=? _); [exact SAME|]. destruct (sc_rq cc) as [|a r]; srd_unfold.
    + rewrite rd0_kset. destruct (N.eqb k 0); [|exact HR]. cbn [sc_lmq]. now destruct (sc_lmq cc).
    + rewrite (rd0_kset_same _ cc); auto.
  - destruct op; try (destruct c; exact SAME).
    + destruct c; [exact SAME|]. destruct (_ <? _)%N; exact SAME.
    + destruct c; [exact SAME|]. destruct (_ <? _)%N; exact SAME.
    + destruct c; [exact SAME|]. destruct (_ && _); [|exact SAME]. srd_unfold. exact HR.
    + destruct (ms <? -1)%Z; [destruct c; exact SAME|].
      destruct (kget (ckey c) (sv_ctxs s)) as [cx|] eqn:G; [|destruct c; exact SAME].
      assert (R: SRd (set_ctxs s (kset (ckey c) (mkSctx (sc_survey cx) (sc_lmq cx) (sc_rq cx) ms (sc_expire cx)) (sv_ctxs s)))).
      { srd_unfold. rewrite (rd0_kset_same _ cx); auto. }
      destruct c; exact R.
  - srd_unfold. rewrite rd0_kset. destruct (N.eqb_spec (ckey (Some c)) 0) as [K|_]; [elim (ckey_some_nz c K)|exact HR].
  - destruct (kget (ckey (Some c)) (sv_ctxs s)); [|exact SAME]. cbn [ctx_abort]. srd_unfold.
    unfold rd0. rewrite kget_kdel_neq; [exact HR|apply not_eq_sym, ckey_some_nz].
  - congruence.
  - pose proof (expire_ctxs_rd0 now (sv_ctxs s)) as E. destruct (expire_ctxs now (sv_ctxs s)) as [cs o]. srd_unfold. exact (eq_trans E HR).
Qed.
Lemma surv_inv_init nbfix : pm_inv (M_surv nbfix) (pm_init (M_surv nbfix)).
Proof. split; [exact surv_init_inv|]. eexists. split; reflexivity. Qed.
Lemma surv_inv_step nbfix s o : pm_inv (M_surv nbfix) s -> pm_ok (M_surv nbfix) s o -> o <> PSockClose ->
  pm_inv (M_surv nbfix) (fst (pm_step (M_surv nbfix) s o)).
Proof.
  unM M_surv. intros [HI HR] (Hok & _ & _) NC. split; [|now apply surv_rd_step].
  destruct (surv_step nbfix s o) as [s' outs] eqn:St. cbn [fst]. eapply surv_step_inv; eauto.
Qed.
Theorem surv_c15_inv nbfix : C15_inv (M_surv nbfix).
Proof. apply reachable_inv; [apply surv_inv_init|apply surv_inv_step]. Qed.

Lemma compl_of_fanout a m l : compl_of a (snd (fanout m l)) = [].
Proof.
  induction l as [|[p x] l IH]; cbn [fanout]; [reflexivity|]. destruct (fanout m l) as [r o]. cbn [snd] in IH.
  destruct (sp_closed x); [exact IH|]. destruct (negb (sp_busy x)); cbn [snd]; [rewrite compl_of_cons, IH; reflexivity|].
  destruct (_ <? _); exact IH.
Qed.
Lemma compl_of_abort a cx : ~ In a (sc_rq cx) -> compl_of a (fail_aios E_CANCELED (sc_rq cx) ++ map Free (sc_lmq cx)) = [].
Proof. intros H. now rewrite compl_of_app, compl_of_fail_aios, compl_of_map_Free. Qed.

(* a survey never waits: the send completes in its own step, whatever the flag, with E_OK, or E_NOMEM (id space
   exhausted), or E_CLOSED *)
Lemma surv_send_compl nbfix s c a nb m : ~ In a (surv_busy s) ->
  exists rv, compl_of a (snd (surv_step nbfix s (PSend c a nb m))) = [(rv, None)] /\ rv <> E_AGAIN /\
    ~ In a (surv_busy (fst (surv_step nbfix s (PSend c a nb m)))) /\
    (rv <> E_OK -> forall m2, surv_step nbfix s (PSend c a nb m2) = surv_step nbfix s (PSend c a nb m)).
Proof.
  intros Hok. unfold surv_busy in *. cbn [surv_step]. destruct (kget (ckey c) (sv_ctxs s)) as [cx|] eqn:G.
  2:{ exists E_CLOSED. cbn [fst snd]. rewrite compl_of_self. auto with errs. }
  cbn [ctx_abort]. assert (NA: ~ In a (sc_rq cx)) by (intros X; apply Hok; eapply kbusy_get; eauto).
  destruct (id_alloc _ _ _) as [[id cur']|].
  - pose proof (compl_of_fanout a (mkPmsg (be32 id) (pm_body m)) (sv_pipes s)) as CF. destruct (fanout _ _) as [pipes' tx].
    exists E_OK. cbn [fst snd] in *. rewrite app_assoc, compl_of_app, compl_of_app, compl_of_self, (compl_of_abort _ _ NA), CF.
    split; [reflexivity|]. split; [auto with errs|]. split; [|intros X; now elim X]. cbn [sv_ctxs].
    intros X. apply kbusy_kset_in in X as [X|X]; [exact X|]. apply kbusy_kset_in in X as [X|X]; [exact X|auto].
  - exists E_NOMEM. cbn [fst snd]. rewrite compl_of_app, compl_of_self, (compl_of_abort _ _ NA).
    split; [reflexivity|]. split; [auto with errs|]. split; [|reflexivity].
    cbn [sv_ctxs set_ctxs set_readable]. intros X. apply kbusy_kset_in in X as [X|X]; [exact X|auto].
Qed.
Lemma surv_send_shape nbfix s c a m : pm_ok (M_surv nbfix) s (PSend c a true m) -> send_shape (M_surv nbfix) true s c a m.
Proof.
  intros (_ & _ & Hok). unM M_surv. destruct (surv_send_compl nbfix s c a true m Hok) as (rv & C & N & B & K).
  apply (SsSame rv); auto. intros H m2 _. now apply K.
Qed.
(* a receive (surv0_ctx_recv with the repaired clamp test): refused by the state machine; or a response is queued
   and taken whatever the flag; or none is: NNG_EAGAIN / the aio joins the context's receive queue *)
Lemma surv_recv_shape s c a : pm_ok (M_surv true) s (PRecv c a true) -> recv_shape (M_surv true) true s c a.
Proof.
  intros (_ & _ & Hok). unM M_surv. unfold surv_busy in *. destruct (kget (ckey c) (sv_ctxs s)) as [cx|] eqn:G.
  2:{ apply (refused_recv _ _ _ _ _ E_CLOSED); auto with errs. intros nb. unM M_surv. cbn [surv_step]. now rewrite G. }
  destruct (N.eqb (sc_survey cx) 0 || (sc_expire cx <=? Z.of_N (sv_now s))%Z) eqn:ST.
  { apply (refused_recv _ _ _ _ _ E_STATE); auto with errs. intros nb. unM M_surv. cbn [surv_step]. now rewrite G, ST. }
  destruct (sc_lmq cx) as [|m0 r] eqn:L.
  - apply RsAgain; unM M_surv; cbn [surv_step andb]; rewrite G, ST, L; cbn [fst snd].
    + apply compl_of_self.
    + exact Hok.
    + split; [reflexivity|]. cbn [sv_ctxs set_ctxs]. eapply kbusy_get; [apply kget_kset_eq|]. cbn [sc_rq]. apply in_or_app. right. now left.
  - apply (RsSame E_OK (Some m0)); unM M_surv; cbn [surv_step andb]; rewrite ?G, ?ST, ?L; cbn [fst snd].
    + reflexivity.
    + apply compl_of_self.
    + auto with errs.
    + split; [reflexivity|discriminate].
    + assert (E: forall (b : bool) st, sv_ctxs (if b then set_readable st false else st) = sv_ctxs st) by (now intros []).
      rewrite E. cbn [sv_ctxs set_ctxs]. intros X. apply kbusy_kset_in in X as [X|X]; [|auto]. apply Hok. eapply kbusy_get; eauto.
Qed.
(* whatever the clamp test, a receive that the blocking form serves at once is served by the NONBLOCK form too *)
Lemma surv_nb_recv_possible_at nbfix s : nb_recv_possible_at (M_surv nbfix) s.
Proof.
  intros c a _ H. unM M_surv. cbn [surv_step andb] in *.
  destruct (kget (ckey c) (sv_ctxs s)) as [cx|]; [|reflexivity]. destruct (_ || _); [reflexivity|].
  destruct (sc_lmq cx); [|reflexivity]. cbn [snd] in H. discriminate.
Qed.
Lemma surv_mirror_at s : pm_inv (M_surv true) s -> mirror_r_at (M_surv true) s /\ mirror_w_at (M_surv true) s.
Proof.
  intros [HI (c0 & G0 & E)]. split.
  - intros a _. unM M_surv. unfold rv_recv. unM M_surv. cbn [surv_poll poll_r surv_step ckey andb]. rewrite G0, E.
    destruct (_ || _); [cbn [snd]; rewrite result_of_single; unfold_errs; split; [discriminate|intros _; discriminate]|].
    destruct (sc_lmq c0) as [|m0 r]; cbn [isnil negb snd]; rewrite result_of_single; unfold_errs; split; try discriminate; auto.
  - intros a m (_ & _ & Hok) _. unM M_surv. unfold rv_send. unM M_surv. cbn [surv_poll poll_w]. split; [reflexivity|].
    intros _. destruct (surv_send_compl true s None a true m Hok) as (rv & C & N & _). rewrite (result_of_compl _ _ _ _ C). congruence.
Qed.

Lemma surv_send_clauses nbfix s :
  nb_send_immediate_at (M_surv nbfix) s /\ nb_send_possible_at (M_surv nbfix) s /\ nb_send_eagain_queues_at (M_surv nbfix) s.
Proof. destruct (send_shape_clauses (M_surv nbfix) true s (surv_send_shape nbfix s)) as (A & B & C). auto. Qed.
Lemma surv_recv_clauses s :
  nb_recv_immediate_at (M_surv true) s /\ nb_recv_possible_at (M_surv true) s /\ nb_recv_eagain_queues_at (M_surv true) s.
Proof. destruct (recv_shape_clauses (M_surv true) true s (surv_recv_shape s)) as (A & B & C). auto. Qed.

Theorem surv_c15_nb_immediate : C15_nb_immediate (M_surv true).
Proof. intros s _. split; [apply surv_send_clauses|apply surv_recv_clauses]. Qed.
Theorem surv_c15_nb_possible nbfix : C15_nb_possible (M_surv nbfix).
Proof. intros s _. split; [apply surv_send_clauses|apply surv_nb_recv_possible_at]. Qed.
Theorem surv_c15_nb_strict : C15_nb_strict (M_surv true).
Proof. intros s _. split; [apply surv_send_clauses|apply surv_recv_clauses]. Qed.
Theorem surv_c15_mirror : C15_mirror (M_surv true).
Proof. intros s R. apply surv_mirror_at. now apply surv_c15_inv. Qed.
Theorem surv_c15_nb_send_immediate_pinned : C15_nb_send_immediate (M_surv false).
Proof. intros s _. apply surv_send_clauses. Qed.

(* raised <-> not EAGAIN: false in the initial state (no survey: the receive answers NNG_ESTATE, descriptor down) *)
Theorem surv_c15_mirror_iff_refuted : ~ C15_mirror_iff (M_surv true).
Proof.
  intros H. destruct (H _ (reachable_init _)) as [Hr _]. specialize (Hr 1%N ltac:(wit)).
  vm_compute in Hr. destruct Hr as [_ X]. assert (F: false = true) by (apply X; discriminate). discriminate.
Qed.
(* raised <-> would succeed: false once the survey has expired with a response still queued: the descriptor
   stays raised, the receive answers NNG_ESTATE *)
Definition surv_ops_expired : list pop :=
  [PPipeStart 1%N PROTO_RESPONDENT; PSend None 1%N false (mkPmsg [] [7%N]);
   PRecvDone 1%N 0%N (mkPmsg [] [128%N; 0%N; 0%N; 1%N; 9%N]); PTick 2000%N].
Theorem surv_c15_mirror_exact_refuted : ~ C15_mirror_exact (M_surv true).
Proof.
  intros H. destruct (H _ ltac:(reach surv_ops_expired)) as [Hr _].
  specialize (Hr 2%N ltac:(wit)). vm_compute in Hr. destruct Hr as [X _]. specialize (X eq_refl). discriminate.
Qed.
(* the pinned clamp test (`timeout < 1`): a NONBLOCK receive with a live survey and no response is queued *)
Definition surv_ops_live : list pop := [PSend None 1%N false (mkPmsg [] [7%N])].
Theorem surv_c15_nb_immediate_refuted_pinned : ~ C15_nb_immediate (M_surv false).
Proof.
  intros H. destruct (H _ ltac:(reach surv_ops_live)) as [_ Hr]. destruct (Hr None 2%N _ _ ltac:(wit) (surjective_pairing _)) as (rv & x & X & _).
  vm_compute in X. discriminate.
Qed.
Example surv_reachable_raised : exists s, reachable (M_surv true) s /\ poll_r (pm_poll (M_surv true) s) = Some true.
Proof. eexists. split; [reach (removelast surv_ops_expired)|reflexivity]. Qed.
Example surv_reachable_lowered : reachable (M_surv true) surv_init /\ pm_poll (M_surv true) surv_init = mkPoll (Some false) (Some true).
Proof. split; [apply (reachable_init (M_surv true))|reflexivity]. Qed.

(* the upper read queue (msgqueue.c with its repairs) as XSurveyModel's urq under XSurveyProofs.UInv; the same facts
   for XReqModel's queue are in PollRepX (Sections MqInv, MqOps) *)
Lemma run_putq_no_compl a f : forall u, uq_readers u = [] -> compl_of a (snd (run_putq f u)) = [].
Proof.
  induction f as [|f IH]; intros u R; cbn [run_putq]; [reflexivity|]. destruct (uq_writers u) as [|[p m] ws]; [reflexivity|].
  rewrite R. destruct (_ <? _); [|reflexivity]. specialize (IH (mkUrq (uq_q u ++ [m]) (uq_cap u) [] ws) eq_refl).
  destruct (run_putq f _) as [u' o]. cbn [snd] in *. now rewrite compl_of_cons, IH.
Qed.
Lemma run_putq_nowriters f u : uq_writers u = [] -> run_putq f u = (u, []).
Proof. intros W. destruct f; [reflexivity|]. cbn [run_putq]. now rewrite W. Qed.
(* something is there and nobody is ahead: the receive is served in the same step *)
Lemma urq_get_ready fx u a : urq_get_waits u = false ->
  exists m, compl_of a (snd (urq_get_fx fx u a)) = [(E_OK, Some m)] /\ uq_readers (fst (urq_get_fx fx u a)) = [].
Proof.
  unfold urq_get_waits. intros W. apply orb_false_iff in W as [W1 W2]. destruct (uq_readers u) eqn:R; [|discriminate].
  (* the new reader takes the head of the queue, or the first blocked writer's message *)
  assert (G: exists m o u1, urq_get u a = (u1, Complete a E_OK (Some m) :: o) /\ compl_of a o = [] /\ uq_readers u1 = []).
  { unfold urq_get. rewrite R. cbn [app length run_getq uq_readers uq_q uq_writers uq_cap].
    destruct (uq_q u) as [|m q']; [destruct (uq_writers u) as [|[p m] ws]; [discriminate|]|]; cbn.
    - exists m, [TranRecv p], (mkUrq [] (uq_cap u) [] ws). repeat split.
    - exists m, [], (mkUrq q' (uq_cap u) [] (uq_writers u)). repeat split. }
  destruct G as (m & o & u1 & E & C & R1). exists m. unfold urq_get_fx. rewrite E. destruct (mf_getput fx); cbn [fst snd].
  - pose proof (run_putq_keeps (S (length (uq_writers u1))) u1 R1) as KK. pose proof (run_putq_no_compl a (S (length (uq_writers u1))) u1 R1) as KC.
    destruct (run_putq _ u1) as [u2 o2]. cbn [fst snd] in *. split; [|exact KK]. now rewrite compl_of_app, compl_of_cons, compl_of_self, C, KC.
  - split; [|exact R1]. now rewrite compl_of_cons, compl_of_self, C.
Qed.
(* nothing is there (or a reader is ahead, which under the invariant means the same): the receive is queued *)
Lemma urq_get_blocked fx u a : UInv u -> urq_get_waits u = true ->
  urq_get_fx fx u a = (mkUrq (uq_q u) (uq_cap u) (uq_readers u ++ [a]) (uq_writers u), []).
Proof.
  intros [A _] W. assert (E: uq_q u = [] /\ uq_writers u = []).
  { unfold urq_get_waits in W. destruct (uq_readers u) eqn:R; cbn [isnil negb orb] in W.
    - destruct (uq_q u); [|discriminate]. destruct (uq_writers u); [auto|discriminate].
    - apply A. discriminate. }
  destruct E as [E1 E2]. unfold urq_get_fx, urq_get. rewrite run_getq_idle by (cbn; auto).
  rewrite run_putq_nowriters by (cbn; auto). destruct (mf_getput fx); reflexivity.
Qed.
Definition raw_ok (u : urq) (o : pop) : Prop :=
  match o with PSend _ a _ _ | PRecv _ a _ => ~ In a (uq_readers u) | _ => True end.

(* a receive on the repaired queue: served in the same step whatever the flag, or -- nothing is there -- refused
   (NONBLOCK) / queued (blocking) *)
Lemma urq_recv_cases u a : UInv u ->
  if urq_get_waits u
  then urq_user_recv mqfix_all u a true = (u, [Complete a E_AGAIN None]) /\
       urq_user_recv mqfix_all u a false = (mkUrq (uq_q u) (uq_cap u) (uq_readers u ++ [a]) (uq_writers u), [])
  else urq_user_recv mqfix_all u a true = urq_user_recv mqfix_all u a false /\
       exists m, compl_of a (snd (urq_user_recv mqfix_all u a true)) = [(E_OK, Some m)] /\
                 uq_readers (fst (urq_user_recv mqfix_all u a true)) = [].
Proof.
  intros HI. unfold urq_user_recv. cbn [mqfix_all mf_nb negb orb andb]. destruct (urq_get_waits u) eqn:W.
  - split; [reflexivity|]. exact (urq_get_blocked mqfix_all u a HI W).
  - split; [reflexivity|]. exact (urq_get_ready mqfix_all u a W).
Qed.

Lemma compl_of_tryput a cap p x m : compl_of a (snd (xpipe_tryput cap p x m)) = [].
Proof. unfold xpipe_tryput. destruct (xp_closed x); [reflexivity|]. destruct (negb (xp_busy x)); [reflexivity|]. destruct (_ <? _); reflexivity. Qed.
Lemma compl_of_xfanout a m l : compl_of a (snd (xfanout m l)) = [].
Proof.
  induction l as [|[p x] l IH]; cbn [xfanout]; [reflexivity|]. destruct (xfanout m l) as [r o]. cbn [snd] in IH.
  destruct (xp_closed x); [exact IH|]. pose proof (compl_of_tryput a XSURV_SENDQ p x m) as T.
  destruct (xpipe_tryput XSURV_SENDQ p x m) as [x' o1]. cbn [snd] in *. now rewrite compl_of_app, T, IH.
Qed.

(* a raw socket: a state around the upper read queue; receives go to the queue, sends never wait *)
Section Raw.
  Variables (st : Type) (init : st) (step : st -> pop -> st * list pout) (poll : st -> ppoll)
            (uq : st -> urq) (set_uq : st -> urq -> st).
  Let M := mkPM st init step poll (fun s o => raw_ok (uq s) o) (fun s => UInv (uq s)) (fun s => uq_readers (uq s)) (fun _ => true).
  Hypothesis uq_set : forall s u, uq (set_uq s u) = u.
  Hypothesis init_inv : UInv (uq init).
  Hypothesis step_inv : forall s o s' outs, UInv (uq s) -> step s o = (s', outs) -> UInv (uq s').
  Hypothesis send_nb : forall s c a m, step s (PSend c a true m) = step s (PSend c a false m).
  Hypothesis send_eq : forall s c a nb m, exists s' o1,
    step s (PSend c a nb m) = (s', Complete a E_OK None :: o1) /\ uq s' = uq s /\ compl_of a o1 = [].
  Hypothesis recv_eq : forall s c a nb,
    step s (PRecv c a nb) = (set_uq s (fst (urq_user_recv mqfix_all (uq s) a nb)), snd (urq_user_recv mqfix_all (uq s) a nb)).
  Hypothesis poll_eq : forall s, poll s = mkPoll (Some (urq_recvable (uq s))) (Some true).

  Lemma raw_inv : C15_inv M.
  Proof. apply reachable_inv; [exact init_inv|]. intros s o HI _ _. exact (step_inv s o _ _ HI (surjective_pairing _)). Qed.

  Lemma raw_send_shape s c a m : pm_ok M s (PSend c a true m) -> send_shape M true s c a m.
  Proof.
    intros Hok. unM M. destruct (send_eq s c a true m) as (s' & o1 & E & Q & C). apply (SsSame E_OK); unM M; [apply send_nb|..]; rewrite ?E; cbn [fst snd].
    - now rewrite compl_of_cons, compl_of_self, C.
    - auto with errs.
    - now rewrite Q.
    - intros X. now elim X.
  Qed.
  Lemma raw_recv_shape s c a : pm_inv M s -> pm_ok M s (PRecv c a true) -> recv_shape M true s c a.
  Proof.
    intros HI Hok. unM M. pose proof (urq_recv_cases (uq s) a HI) as K. destruct (urq_get_waits (uq s)).
    - destruct K as [E1 E2]. apply RsAgain; unM M; rewrite !recv_eq, ?E1, ?E2; cbn [fst snd]; rewrite ?uq_set.
      + apply compl_of_self.
      + exact Hok.
      + split; [reflexivity|]. apply in_or_app. right. now left.
    - destruct K as [E (m & C & R)]. apply (RsSame E_OK (Some m)); unM M; rewrite ?recv_eq; cbn [fst snd]; rewrite ?uq_set.
      + now rewrite E.
      + exact C.
      + auto with errs.
      + split; [reflexivity|discriminate].
      + now rewrite R.
  Qed.
  (* the receive descriptor is raised exactly when something is there; the send descriptor always *)
  Lemma raw_mirror_at s : pm_inv M s ->
    (mirror_r_exact_at M s /\ mirror_r_iff_at M s) /\ (mirror_w_exact_at M s /\ mirror_w_iff_at M s).
  Proof.
    intros HI. split.
    - apply (mirror_r_of_rv M s (negb (urq_get_waits (uq s)))).
      + unM M. now rewrite poll_eq, (urq_recvable_mirror_inv _ HI).
      + intros a _. unfold rv_recv. unM M. rewrite recv_eq. cbn [snd]. pose proof (urq_recv_cases (uq s) a HI) as K.
        destruct (urq_get_waits (uq s)); [destruct K as [-> _]; apply result_of_single|].
        destruct K as (_ & m & C & _). exact (result_of_compl _ _ _ _ C).
    - apply (mirror_w_of_rv M s true); [unM M; now rewrite poll_eq|]. intros a m _ _. unfold rv_send. unM M.
      destruct (send_eq s None a true m) as (s' & o1 & E & _). rewrite E. apply result_of_self.
  Qed.

  Theorem raw_c15 : C15_inv M /\ C15_nb_immediate M /\ C15_nb_possible M /\ C15_nb_strict M /\ C15_mirror_exact M /\ C15_mirror_iff M.
  Proof.
    destruct (C15_nb_of_shapes M raw_inv (fun s c a m _ => raw_send_shape s c a m) raw_recv_shape) as (A & B & C).
    split; [exact raw_inv|]. split; [exact A|]. split; [exact B|]. split; [exact C|].
    split; intros s R; destruct (raw_mirror_at s (raw_inv s R)) as [[RE RF] [WE WF]]; split; assumption.
  Qed.
End Raw.

(* every statement below is for mqfix_all; PollModel.c15_xs_fix, with which Properties_C15 uses them, is convertible
   to it while the three C07_MSGQ_* constants are true *)
Definition M_xsurv (fx : mq_fix) : pmodel :=
  mkPM xsurv xsurv_init (xsurv_step fx) xsurv_poll (fun s o => raw_ok (xs_urq s) o) (fun s => UInv (xs_urq s))
       (fun s => uq_readers (xs_urq s)) (fun _ => true).
Lemma xsurv_send_nb s c a m : xsurv_step mqfix_all s (PSend c a true m) = xsurv_step mqfix_all s (PSend c a false m).
Proof. cbn [xsurv_step mqfix_all mf_nb negb]. now rewrite !andb_false_r. Qed.
Lemma xsurv_send_eq s c a nb m : exists s' o1,
  xsurv_step mqfix_all s (PSend c a nb m) = (s', Complete a E_OK None :: o1) /\ xs_urq s' = xs_urq s /\ compl_of a o1 = [].
Proof.
  cbn [xsurv_step mqfix_all mf_nb negb]. rewrite andb_false_r. pose proof (compl_of_xfanout a m (xs_pipes s)) as C.
  destruct (xfanout m (xs_pipes s)) as [ps o1]. eauto.
Qed.
Lemma xsurv_recv_eq s c a nb :
  xsurv_step mqfix_all s (PRecv c a nb) =
  (mkXsurv (xs_pipes s) (fst (urq_user_recv mqfix_all (xs_urq s) a nb)) (xs_uwcap s) (xs_ttl s), snd (urq_user_recv mqfix_all (xs_urq s) a nb)).
Proof. cbn [xsurv_step]. destruct (urq_user_recv mqfix_all (xs_urq s) a nb). reflexivity. Qed.
Lemma xsurv_c15 :
  C15_inv (M_xsurv mqfix_all) /\ C15_nb_immediate (M_xsurv mqfix_all) /\ C15_nb_possible (M_xsurv mqfix_all) /\
  C15_nb_strict (M_xsurv mqfix_all) /\ C15_mirror_exact (M_xsurv mqfix_all) /\ C15_mirror_iff (M_xsurv mqfix_all).
Proof.
  exact (raw_c15 xsurv xsurv_init (xsurv_step mqfix_all) xsurv_poll xs_urq (fun s u => mkXsurv (xs_pipes s) u (xs_uwcap s) (xs_ttl s))
           (fun _ _ => eq_refl) uinv_init (fun s o s' outs => xsurv_urq_inv mqfix_all s o s' outs eq_refl eq_refl)
           xsurv_send_nb xsurv_send_eq xsurv_recv_eq (fun _ => eq_refl)).
Qed.
Theorem xsurv_c15_inv : C15_inv (M_xsurv mqfix_all).
Proof. apply xsurv_c15. Qed.
Theorem xsurv_c15_nb_immediate : C15_nb_immediate (M_xsurv mqfix_all).
Proof. apply xsurv_c15. Qed.
Theorem xsurv_c15_nb_possible : C15_nb_possible (M_xsurv mqfix_all).
Proof. apply xsurv_c15. Qed.
Theorem xsurv_c15_nb_strict : C15_nb_strict (M_xsurv mqfix_all).
Proof. apply xsurv_c15. Qed.
Theorem xsurv_c15_mirror_exact : C15_mirror_exact (M_xsurv mqfix_all).
Proof. apply xsurv_c15. Qed.
Theorem xsurv_c15_mirror_iff : C15_mirror_iff (M_xsurv mqfix_all).
Proof. apply xsurv_c15. Qed.
Theorem xsurv_c15_mirror : C15_mirror (M_xsurv mqfix_all).
Proof. exact (C15_mirror_of_exact _ xsurv_c15_mirror_exact). Qed.

Definition M_xresp (fx : mq_fix) : pmodel :=
  mkPM xresp xresp_init (xresp_step fx) xresp_poll (fun s o => raw_ok (xr_urq s) o) (fun s => UInv (xr_urq s))
       (fun s => uq_readers (xr_urq s)) (fun _ => true).
Lemma xresp_send_nb s c a m : xresp_step mqfix_all s (PSend c a true m) = xresp_step mqfix_all s (PSend c a false m).
Proof. cbn [xresp_step mqfix_all mf_nb negb]. now rewrite !andb_false_r. Qed.
Lemma xresp_send_eq s c a nb m : exists s' o1,
  xresp_step mqfix_all s (PSend c a nb m) = (s', Complete a E_OK None :: o1) /\ xr_urq s' = xr_urq s /\ compl_of a o1 = [].
Proof.
  cbn [xresp_step mqfix_all mf_nb negb]. rewrite andb_false_r. cbv iota.
  destruct (xresp_send (pm_hdr m)) as [[id h]|]; [|exists s, [Free m]; auto].
  destruct (kget id (xr_pipes s)) as [x|]; [|exists s, [Free (mkPmsg h (pm_body m))]; auto].
  destruct (xp_closed x); [exists s, [Free (mkPmsg h (pm_body m))]; auto|].
  pose proof (compl_of_tryput a XRESP_SENDQ id x (mkPmsg h (pm_body m))) as T.
  destruct (xpipe_tryput XRESP_SENDQ id x (mkPmsg h (pm_body m))) as [x' o1]. eauto.
Qed.
Lemma xresp_recv_eq s c a nb :
  xresp_step mqfix_all s (PRecv c a nb) =
  (mkXresp (xr_pipes s) (fst (urq_user_recv mqfix_all (xr_urq s) a nb)) (xr_uwcap s) (xr_ttl s), snd (urq_user_recv mqfix_all (xr_urq s) a nb)).
Proof. cbn [xresp_step]. destruct (urq_user_recv mqfix_all (xr_urq s) a nb). reflexivity. Qed.
Lemma xresp_c15 :
  C15_inv (M_xresp mqfix_all) /\ C15_nb_immediate (M_xresp mqfix_all) /\ C15_nb_possible (M_xresp mqfix_all) /\
  C15_nb_strict (M_xresp mqfix_all) /\ C15_mirror_exact (M_xresp mqfix_all) /\ C15_mirror_iff (M_xresp mqfix_all).
Proof.
  exact (raw_c15 xresp xresp_init (xresp_step mqfix_all) xresp_poll xr_urq (fun s u => mkXresp (xr_pipes s) u (xr_uwcap s) (xr_ttl s))
           (fun _ _ => eq_refl) uinv_init (fun s o s' outs => xresp_urq_inv mqfix_all s o s' outs eq_refl eq_refl)
           xresp_send_nb xresp_send_eq xresp_recv_eq (fun _ => eq_refl)).
Qed.
Theorem xresp_c15_inv : C15_inv (M_xresp mqfix_all).
Proof. apply xresp_c15. Qed.
Theorem xresp_c15_nb_immediate : C15_nb_immediate (M_xresp mqfix_all).
Proof. apply xresp_c15. Qed.
Theorem xresp_c15_nb_possible : C15_nb_possible (M_xresp mqfix_all).
Proof. apply xresp_c15. Qed.
Theorem xresp_c15_nb_strict : C15_nb_strict (M_xresp mqfix_all).
Proof. apply xresp_c15. Qed.
Theorem xresp_c15_mirror_exact : C15_mirror_exact (M_xresp mqfix_all).
Proof. apply xresp_c15. Qed.
Theorem xresp_c15_mirror_iff : C15_mirror_iff (M_xresp mqfix_all).
Proof. apply xresp_c15. Qed.
Theorem xresp_c15_mirror : C15_mirror (M_xresp mqfix_all).
Proof. exact (C15_mirror_of_exact _ xresp_c15_mirror_exact). Qed.

(* non-vacuity for the raw sockets: a response / survey queued raises the receive descriptor *)
Example xsurv_reachable_raised : exists s, reachable (M_xsurv mqfix_all) s /\ poll_r (pm_poll (M_xsurv mqfix_all) s) = Some true.
Proof.
  eexists. split; [reach [PPipeStart 1%N PROTO_RESPONDENT; PRecvDone 1%N 0%N (mkPmsg [] [128%N; 0%N; 0%N; 1%N; 9%N])]|reflexivity].
Qed.
Example xresp_reachable_raised : exists s, reachable (M_xresp mqfix_all) s /\ poll_r (pm_poll (M_xresp mqfix_all) s) = Some true.
Proof.
  eexists. split; [reach [PPipeStart 1%N PROTO_SURVEYOR; PRecvDone 1%N 0%N (mkPmsg [] [128%N; 0%N; 0%N; 1%N; 7%N])]|reflexivity].
Qed.
Example xraw_reachable_lowered : pm_poll (M_xsurv mqfix_all) xsurv_init = mkPoll (Some false) (Some true) /\
  pm_poll (M_xresp mqfix_all) xresp_init = mkPoll (Some false) (Some true).
Proof. split; reflexivity. Qed.
