(* ReqRepProofs: facts about the pure header functions (ReqRepBacktrace) and the
   keyed-list helpers of the REQ/REP models (lookup / assoc_set / assoc_del); SurveyProofs
   restates them for SurveyModel's kget / kset / kdel, and the Ledger files use them too. *)
From Coq Require Import List Arith NArith Bool Lia.
From NngV Require Import Proto.Common Proto.ReqRepBacktrace Proto.ReqModel.
From NngV Require Base.Bytes.
Import ListNotations.

Lemma lookup_assoc_set_same {A} k (v : A) l : lookup k (assoc_set k v l) = Some v.
Proof.
  induction l as [|[k' v'] l IH]; cbn; [now rewrite N.eqb_refl|].
  destruct (N.eqb_spec k' k); cbn; [now rewrite N.eqb_refl|].
  destruct (N.eqb_spec k' k); [contradiction|auto].
Qed.
Lemma lookup_assoc_set_other {A} k k' (v : A) l : k' <> k -> lookup k' (assoc_set k v l) = lookup k' l.
Proof.
  intros H. induction l as [|[k2 v2] l IH]; cbn.
  - destruct (N.eqb_spec k k'); [congruence|reflexivity].
  - destruct (N.eqb_spec k2 k); cbn.
    + subst. destruct (N.eqb_spec k k'); [congruence|reflexivity].
    + destruct (N.eqb_spec k2 k'); auto.
Qed.
Lemma lookup_assoc_del_same {A} k (l : list (N * A)) : lookup k (assoc_del k l) = None.
Proof.
  induction l as [|[k' v'] l IH]; cbn; [reflexivity|].
  destruct (N.eqb_spec k' k); cbn; [auto|]. destruct (N.eqb_spec k' k); [contradiction|auto].
Qed.
Lemma lookup_assoc_del_other {A} k k' (l : list (N * A)) : k' <> k -> lookup k' (assoc_del k l) = lookup k' l.
Proof.
  intros H. induction l as [|[k2 v2] l IH]; cbn; [reflexivity|].
  destruct (N.eqb_spec k2 k); cbn.
  - subst. destruct (N.eqb_spec k k'); [congruence|auto].
  - destruct (N.eqb_spec k2 k'); auto.
Qed.
Lemma lookup_assoc_del_some {A} k k' (l : list (N * A)) v : lookup k' (assoc_del k l) = Some v -> k' <> k /\ lookup k' l = Some v.
Proof.
  intros H. destruct (N.eq_dec k' k) as [->|Hn].
  - rewrite lookup_assoc_del_same in H. discriminate.
  - split; auto. now rewrite lookup_assoc_del_other in H.
Qed.
Lemma lookup_app_none {A} k (l1 l2 : list (N * A)) : lookup k l1 = None -> lookup k (l1 ++ l2) = lookup k l2.
Proof.
  induction l1 as [|[k' v'] l1 IH]; cbn; auto. destruct (N.eqb k' k); [discriminate|auto].
Qed.
Lemma lookup_app_some {A} k (l1 l2 : list (N * A)) v : lookup k l1 = Some v -> lookup k (l1 ++ l2) = Some v.
Proof.
  induction l1 as [|[k' v'] l1 IH]; cbn; [discriminate|]. destruct (N.eqb k' k); auto.
Qed.
Lemma lookup_in {A} k (l : list (N * A)) v : lookup k l = Some v -> In (k, v) l.
Proof.
  induction l as [|[k' v'] l IH]; cbn; [discriminate|].
  destruct (N.eqb_spec k' k); intros H; [inversion H; subst; auto|auto].
Qed.
Lemma lookup_none_notin {A} k (l : list (N * A)) : lookup k l = None -> ~ In k (map fst l).
Proof.
  induction l as [|[k' v'] l IH]; cbn; [tauto|].
  destruct (N.eqb_spec k' k); [discriminate|]. intros H [E|Hin]; [congruence|]. now apply IH.
Qed.

Lemma map_fst_assoc_set_present {A} k (v v0 : A) l :
  lookup k l = Some v0 -> map fst (assoc_set k v l) = map fst l.
Proof.
  induction l as [|[k' v'] l IH]; cbn; [discriminate|].
  destruct (N.eqb_spec k' k) as [->|Hne]; cbn; [reflexivity|]. intros H. now rewrite IH.
Qed.
Lemma nodup_in_lookup {A} k (v : A) l : NoDup (map fst l) -> In (k, v) l -> lookup k l = Some v.
Proof.
  induction l as [|[k' v'] l IH]; cbn; [tauto|].
  intros H Hin. inversion H as [|? ? Hn Hd]; subst. destruct Hin as [E|Hin].
  - inversion E; subst. now rewrite N.eqb_refl.
  - destruct (N.eqb_spec k' k) as [->|Hne]; [|now apply IH].
    exfalso. apply Hn. change k with (fst (k, v)). now apply in_map.
Qed.

Lemma lookup_key_in {A} k (l : list (N * A)) v : lookup k l = Some v -> In k (map fst l).
Proof. intros H. exact (in_map fst _ _ (lookup_in _ _ _ H)). Qed.
Lemma lookup_notin_none {A} k (l : list (N * A)) : ~ In k (map fst l) -> lookup k l = None.
Proof. intros H. destruct (lookup k l) eqn:E; [elim H; exact (lookup_key_in _ _ _ E)|reflexivity]. Qed.
(* the record under a key, when there is one, is at one place of the list, and assoc_set
   writes to that place *)
Lemma lookup_split {A} k (l : list (N * A)) c : lookup k l = Some c ->
  exists l1 l2, l = l1 ++ (k, c) :: l2 /\ ~ In k (map fst l1) /\
                forall c0 c', assoc_set k c' (l1 ++ (k, c0) :: l2) = l1 ++ (k, c') :: l2.
Proof.
  induction l as [|[k0 v] l IH]; cbn [lookup]; [discriminate|]. destruct (N.eqb_spec k0 k) as [->|Hk]; intros E.
  - inversion E; subst. exists [], l. split; [reflexivity|]. split; [intros []|].
    intros c0 c'. cbn. now rewrite N.eqb_refl.
  - destruct (IH E) as (l1 & l2 & -> & Hn & Hs). exists ((k0, v) :: l1), l2. split; [reflexivity|].
    split; [intros [X|X]; [exact (Hk X)|exact (Hn X)]|].
    intros c0 c'. cbn. destruct (N.eqb_spec k0 k); [contradiction|]. now rewrite Hs.
Qed.
Lemma lookup_assoc_set {A} k k' (v : A) l : lookup k' (assoc_set k v l) = if N.eqb k' k then Some v else lookup k' l.
Proof. destruct (N.eqb_spec k' k); [subst; apply lookup_assoc_set_same|now apply lookup_assoc_set_other]. Qed.
Lemma in_assoc_set {A} k (v : A) l x : In x (assoc_set k v l) -> x = (k, v) \/ In x l.
Proof.
  induction l as [|[k' v'] l IH]; cbn; [intros [H|[]]; auto|].
  destruct (N.eqb_spec k' k); cbn; intros [H|H]; auto. destruct (IH H); auto.
Qed.
Lemma assoc_set_twice {A} k (v w : A) l : assoc_set k v (assoc_set k w l) = assoc_set k v l.
Proof.
  induction l as [|[k' v'] l IH]; cbn; [now rewrite N.eqb_refl|].
  destruct (N.eqb_spec k' k); cbn; [now rewrite N.eqb_refl|].
  destruct (N.eqb_spec k' k); [contradiction|]. now rewrite IH.
Qed.
Lemma assoc_set_absent {A} k (v : A) l : ~ In k (map fst l) -> assoc_set k v l = l ++ [(k, v)].
Proof.
  induction l as [|[k0 v0] l IH]; cbn; intros H; [reflexivity|].
  destruct (N.eqb_spec k0 k); [exfalso; apply H; auto|]. rewrite IH; tauto.
Qed.
Lemma in_assoc_del {A} k (l : list (N * A)) x : In x (assoc_del k l) <-> In x l /\ fst x <> k.
Proof.
  unfold assoc_del. rewrite filter_In. split; intros [H1 H2]; split; auto.
  - intros E. rewrite E, N.eqb_refl in H2. discriminate.
  - destruct (N.eqb_spec (fst x) k); [contradiction|reflexivity].
Qed.

Lemma has_id_true a l : has_id a l = true <-> In a l.
Proof.
  unfold has_id. rewrite existsb_exists. split.
  - intros [x [Hin E]]. apply N.eqb_eq in E. now subst.
  - intros H. exists a. split; auto. apply N.eqb_refl.
Qed.
Lemma has_id_false a l : has_id a l = false <-> ~ In a l.
Proof. rewrite <- has_id_true. destruct (has_id a l); intuition congruence. Qed.
Lemma in_remove_id a b l : In a (remove_id b l) <-> In a l /\ a <> b.
Proof.
  unfold remove_id. rewrite filter_In. split; intros [H1 H2]; split; auto.
  - apply negb_true_iff, N.eqb_neq in H2. auto.
  - apply negb_true_iff, N.eqb_neq. auto.
Qed.
Lemma notin_remove_id k l : ~ In k (remove_id k l).
Proof. intros H. apply in_remove_id in H. tauto. Qed.
Lemma nodup_remove_id k l : NoDup l -> NoDup (remove_id k l).
Proof. apply NoDup_filter. Qed.
Lemma in_plist_del p k' k l : In (p, k') (plist_del k l) <-> In (p, k') l /\ k' <> k.
Proof.
  unfold plist_del. rewrite filter_In. cbn [snd]. split; intros [H1 H2]; (split; [exact H1|]).
  - destruct (N.eqb_spec k' k); [discriminate|assumption].
  - destruct (N.eqb_spec k' k); [contradiction|reflexivity].
Qed.
Lemma first_on_in p l k : first_on p l = Some k -> In (p, k) l.
Proof.
  induction l as [|[q k'] l IH]; cbn [first_on]; [discriminate|].
  destruct (N.eqb_spec q p); intros H; [inversion H; subst; now left|right; auto].
Qed.
Lemma find_ctx_in f l k c : find_ctx f l = Some (k, c) -> In (k, c) l /\ f c = true.
Proof.
  induction l as [|[k' c'] l IH]; cbn; [discriminate|]. destruct (f c') eqn:E.
  - intros H. inversion H; subst. auto.
  - intros H. destruct (IH H). auto.
Qed.

Lemma word_of_be32 v rest : (v < 4294967296)%N -> word_of (be32 v ++ rest) = v.
Proof.
  intros H. pose proof (Bytes.digits32 v H). unfold word_of, be32. cbn [app firstn fold_left]. lia.
Qed.
Lemma be32_length v : length (be32 v) = 4.
Proof. reflexivity. Qed.
Lemma bt_loop_S n hdr body :
  bt_loop (S n) hdr body =
  if length body <? 4 then BtClose
  else if BT_HEADER_MAX <? length hdr + 4 then BtDrop
  else if high_bit (firstn 4 body) then BtDeliver (mkPmsg (hdr ++ firstn 4 body) (skipn 4 body))
       else bt_loop n (hdr ++ firstn 4 body) (skipn 4 body).
Proof. reflexivity. Qed.

Lemma bt_loop_deliver n hdr body m :
  bt_loop n hdr body = BtDeliver m ->
  exists w, pm_hdr m = hdr ++ w /\ w ++ pm_body m = body /\ length (pm_hdr m) <= BT_HEADER_MAX /\
            length w <= 4 * n /\ 4 <= length w.
Proof.
  revert hdr body. induction n as [|n IH]; intros hdr body H; [discriminate|]. rewrite bt_loop_S in H.
  destruct (length body <? 4) eqn:E1; [discriminate|].
  destruct (BT_HEADER_MAX <? length hdr + 4) eqn:E2; [discriminate|].
  apply Nat.ltb_ge in E1, E2.
  assert (L4 : length (firstn 4 body) = 4) by (rewrite firstn_length; lia).
  destruct (high_bit (firstn 4 body)).
  - assert (Hm : m = mkPmsg (hdr ++ firstn 4 body) (skipn 4 body)) by congruence.
    rewrite Hm. unfold pm_hdr, pm_body. exists (firstn 4 body).
    split; [reflexivity|]. split; [apply firstn_skipn|]. split; [rewrite app_length, L4; exact E2|]. lia.
  - apply IH in H. destruct H as [w [H1 [H2 [H3 [H4 H5]]]]].
    exists (firstn 4 body ++ w).
    split; [rewrite H1; now rewrite app_assoc|].
    split; [rewrite <- app_assoc, H2; apply firstn_skipn|].
    split; [exact H3|]. rewrite app_length, L4. lia.
Qed.

(* the header never exceeds its buffer *)
Lemma bt_loop_total n hdr body :
  match bt_loop n hdr body with
  | BtDeliver m => length (pm_hdr m) <= BT_HEADER_MAX
  | _ => True
  end.
Proof.
  destruct (bt_loop n hdr body) eqn:E; auto. apply bt_loop_deliver in E. destruct E as [w [_ [_ [H _]]]]. exact H.
Qed.

(* hops > ttl: a backtrace of more than ttl words never gets through *)
Lemma bt_loop_ttl n hdr body m :
  bt_loop n hdr body = BtDeliver m -> length (pm_hdr m) <= length hdr + 4 * n.
Proof.
  intros H. apply bt_loop_deliver in H. destruct H as [w [H1 [_ [_ [H4 _]]]]]. rewrite H1, app_length. lia.
Qed.

(* raw REP: what receive pushes, send pops *)
Lemma xrep_push_pop p ttl wire m :
  (p < 4294967296)%N ->
  xrep_recv p ttl wire = BtDeliver m ->
  exists m0, xrep_send m = Some (p, m0) /\ pm_hdr m = be32 p ++ pm_hdr m0 /\ pm_body m0 = pm_body m /\
             pm_hdr m0 ++ pm_body m0 = wire /\ length (pm_hdr m0) <= 4 * ttl.
Proof.
  intros Hp H. unfold xrep_recv in H. apply bt_loop_deliver in H.
  destruct H as [w [H1 [H2 [H3 [H4 H5]]]]].
  unfold xrep_send. rewrite H1, app_length, be32_length. cbn [Nat.ltb Nat.leb].
  exists (mkPmsg w (pm_body m)). cbn [pm_hdr pm_body].
  replace (skipn 4 (be32 p ++ w)) with w by reflexivity.
  rewrite word_of_be32 by exact Hp. repeat split; auto.
Qed.

(* cooked REP: the saved backtrace replayed in front of the reply *)
Lemma rep_recv_send ttl wire m body' :
  rep_recv ttl wire = BtDeliver m ->
  wire_of (rep_send (pm_hdr m) (mkPmsg [] body')) = pm_hdr m ++ body' /\ pm_hdr m ++ pm_body m = wire.
Proof.
  intros H. unfold rep_recv in H. apply bt_loop_deliver in H. destruct H as [w [H1 [H2 _]]].
  cbn in H1. subst w. split; [reflexivity|exact H2].
Qed.

Lemma req_send_recv id m : (id < 4294967296)%N -> req_recv (wire_of (req_send id m)) = Some (id, mkPmsg [] (pm_body m)).
Proof.
  intros H. unfold req_recv, wire_of, req_send. cbn [pm_hdr pm_body].
  rewrite app_length, be32_length. cbn [Nat.ltb Nat.leb]. now rewrite word_of_be32.
Qed.
