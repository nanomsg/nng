(* PushProofs: conservation, FIFO hand-off order, back-pressure for PushModel.
   Everything up to cnt_simp is independent of PUSH and shared by the other Proto/*Proofs files:
   message counts (cnt), FIFO stages (Flow), the messages in a step's outputs (txs, freed),
   lookups in a queue of waiting aios. *)
From Coq Require Import List Arith NArith Bool Lia.
From NngV Require Import Proto.Common Proto.PushModel.
From NngV Require Proto.ReqRepProofs.
From NngV Require Base.ListX.
Import ListNotations.

Lemma pmsg_eq_dec : forall a b : pmsg, {a = b} + {a <> b}.
Proof. decide equality; apply (list_eq_dec N.eq_dec). Defined.
Definition cnt (x : pmsg) (l : list pmsg) : nat := count_occ pmsg_eq_dec l x.
Lemma cnt_app x a b : cnt x (a ++ b) = cnt x a + cnt x b.
Proof. apply count_occ_app. Qed.
Lemma cnt_cons x y l : cnt x (y :: l) = (if pmsg_eq_dec y x then 1 else 0) + cnt x l.
Proof. unfold cnt. cbn. destruct (pmsg_eq_dec y x); lia. Qed.
Lemma cnt_nil x : cnt x [] = 0. Proof. reflexivity. Qed.
Lemma cnt_snoc x l y : cnt x (l ++ [y]) = cnt x (y :: l).
Proof. rewrite cnt_app, !cnt_cons, cnt_nil. lia. Qed.

(* What passes through a FIFO stage:
   pre / post = its contents before and after, inp = what joined at the tail, out = what left at
   the head, loss = what was taken out on purpose: out ++ post is pre ++ inp with loss removed, the
   rest in order.  One step of every order law below is a Flow, and Flows compose along a history.
   [sub] is the importing file's in-order sub-sequence relation. *)
Section Flow.
Variable sub : list pmsg -> list pmsg -> Prop.
Definition Flow (pre inp out post loss : list pmsg) : Prop :=
  (loss = [] -> pre ++ inp = out ++ post) /\ sub (out ++ post) (pre ++ inp) /\
  (forall x, cnt x (pre ++ inp) = cnt x (out ++ post ++ loss)).
Definition sub_ok : Prop :=
  (forall l, sub l l) /\ (forall l, sub [] l) /\ (forall a b c d, sub a b -> sub c d -> sub (a ++ c) (b ++ d)) /\
  (forall a b c, sub a b -> sub b c -> sub a c).
Hypothesis OK : sub_ok.

(* a block l is cut out, the others keep their places *)
Lemma Flow_cut pre inp out post a l b : pre ++ inp = out ++ a ++ l ++ b -> post = a ++ b -> Flow pre inp out post l.
Proof.
  destruct OK as (R & N & A & _). intros E ->. unfold Flow. rewrite E. split; [intros ->; reflexivity|]. split.
  - apply A; [apply R|]. apply A; [apply R|]. exact (A [] l b b (N l) (R b)).
  - intros x. rewrite !cnt_app. lia.
Qed.
Lemma Flow_exact pre inp out post : pre ++ inp = out ++ post -> Flow pre inp out post [].
Proof. intros E. apply (Flow_cut _ _ _ _ post [] []); now rewrite app_nil_r. Qed.
Lemma Flow_trans a i1 o1 b l1 i2 o2 c l2 :
  Flow a i1 o1 b l1 -> Flow b i2 o2 c l2 -> Flow a (i1 ++ i2) (o1 ++ o2) c (l1 ++ l2).
Proof.
  destruct OK as (R & _ & A & T). intros (E1 & S1 & C1) (E2 & S2 & C2). unfold Flow.
  rewrite (app_assoc a), <- (app_assoc o1). split; [|split].
  - intros E. apply app_eq_nil in E as [Ea Eb]. now rewrite (E1 Ea), <- app_assoc, (E2 Eb).
  - apply (T _ ((o1 ++ b) ++ i2)); [rewrite <- app_assoc|]; apply A; auto.
  - intros x. specialize (C1 x). specialize (C2 x). revert C1 C2. rewrite !cnt_app. lia.
Qed.
(* the form the history theorems are stated in *)
Lemma Flow_run pre inp out post loss : Flow pre inp out post loss <->
  sub (out ++ post) (pre ++ inp) /\ (loss = [] -> out ++ post = pre ++ inp) /\
  (forall x, cnt x (pre ++ inp) = cnt x (out ++ post ++ loss)).
Proof. unfold Flow. split; intros (A & B & C); repeat split; auto; intros e; symmetry; auto. Qed.
End Flow.

Fixpoint txs (outs : list pout) : list pmsg :=
  match outs with [] => [] | TranSend _ m :: r => m :: txs r | _ :: r => txs r end.
Fixpoint freed (outs : list pout) : list pmsg :=
  match outs with [] => [] | Free m :: r => m :: freed r | _ :: r => freed r end.
Lemma freed_app a b : freed (a ++ b) = freed a ++ freed b.
Proof. induction a as [|[] a IH]; cbn; rewrite ?IH; auto. Qed.
Lemma freed_map_Free l : freed (map Free l) = l.
Proof. induction l; cbn; congruence. Qed.
Lemma txs_app a b : txs (a ++ b) = txs a ++ txs b.
Proof. induction a as [|[] a IH]; cbn; rewrite ?IH; auto. Qed.
Lemma txs_map_Free l : txs (map Free l) = [].
Proof. induction l; cbn; auto. Qed.
Lemma txs_fail rv l : txs (fail_aios rv l) = [].
Proof. induction l; cbn; auto. Qed.
Lemma freed_fail rv l : freed (fail_aios rv l) = [].
Proof. induction l; cbn; auto. Qed.

Definition lookup_aq (a : aioid) (aq : list (aioid * pmsg)) : list pmsg :=
  map snd (filter (fun x => N.eqb (fst x) a) aq).
Lemma cnt_partition x (p : pid) (l : list (pid * pmsg)) :
  cnt x (map snd l) = cnt x (map snd (filter (fun y => N.eqb (fst y) p) l)) +
                      cnt x (map snd (filter (fun y => negb (N.eqb (fst y) p)) l)).
Proof.
  induction l as [|[k v] l IH]; cbn [filter map fst snd]; [reflexivity|].
  destruct (N.eqb k p); cbn [negb map snd]; rewrite ?cnt_cons, IH; lia.
Qed.
Lemma lookup_head_nodup a m (aqr : list (aioid * pmsg)) :
  NoDup (map fst ((a, m) :: aqr)) -> lookup_aq a ((a, m) :: aqr) = [m].
Proof.
  intros H. inversion H; subst. unfold lookup_aq. cbn. rewrite N.eqb_refl. cbn.
  now rewrite ListX.filter_eq_notin.
Qed.

Lemma lookup_in_nodup a m (aq : list (aioid * pmsg)) :
  NoDup (map fst aq) -> In (a, m) aq -> lookup_aq a aq = [m].
Proof.
  induction aq as [|[a0 m0] aq IH]; cbn [map fst]; intros ND Hin; [destruct Hin|].
  inversion ND; subst. destruct Hin as [E|Hin].
  - inversion E; subst. apply lookup_head_nodup. exact ND.
  - unfold lookup_aq in *. cbn [filter fst]. destruct (N.eqb_spec a0 a) as [->|Hne].
    + exfalso. apply H1. change a with (fst (a, m)). now apply in_map.
    + now apply IH.
Qed.
Lemma lookup_notin a (aq : list (aioid * pmsg)) : has_aio a aq = false -> lookup_aq a aq = [].
Proof.
  unfold has_aio, lookup_aq. induction aq as [|[a0 v] l IH]; cbn; [reflexivity|].
  intros H. apply orb_false_iff in H as [E1 E2]. rewrite E1. auto.
Qed.
Lemma remove_none a (l : list (aioid * pmsg)) : lookup_aq a l = [] -> map snd (remove_aio a l) = map snd l.
Proof.
  unfold lookup_aq, remove_aio. induction l as [|[a0 v] l IH]; cbn; [reflexivity|].
  destruct (a0 =? a)%N; cbn; [discriminate|]. intros E. now rewrite IH.
Qed.

Ltac cnt_simp := rewrite ?cnt_app, ?cnt_cons, ?cnt_nil, ?app_nil_r in *.

(* the messages of callers accepted by this step: those whose send completes with 0 *)
Fixpoint accepted (s : push) (o : pop) (outs : list pout) : list pmsg :=
  match outs with
  | [] => []
  | Complete a rv _ :: r =>
      (if N.eqb rv 0 then
         match o with
         | PSend _ a' _ m => if N.eqb a a' then [m] else lookup_aq a (ps_aq s)
         | _ => lookup_aq a (ps_aq s)
         end
       else []) ++ accepted s o r
  | _ :: r => accepted s o r
  end.

Definition held (s : push) : list pmsg := map snd (ps_sending s).
Definition owned (s : push) : list pmsg := ps_wq s ++ held s.
(* what the transport took off a pipe in this step *)
Definition wire (s : push) (o : pop) : list pmsg :=
  match o with
  | PSendDone p rv => if N.eqb rv 0 then map snd (filter (fun x => N.eqb (fst x) p) (ps_sending s)) else []
  | _ => []
  end.

Definition aq_nodup (s : push) : Prop := NoDup (map fst (ps_aq s)).
Definition PInv (s : push) : Prop :=
  (ps_pl s <> [] -> ps_wq s = [] /\ ps_aq s = []) /\
  length (ps_wq s) <= ps_cap s /\
  NoDup (map fst (ps_sending s)) /\ aq_nodup s /\
  (forall p, In p (ps_pl s) -> ~ In p (map fst (ps_sending s))) /\ NoDup (ps_pl s).

(* the oldest blocked sender is the one a hand-off completes *)
Lemma accepted_waiter s o a m2 aqr p w :
  (forall c a nb m, o <> PSend c a nb m) -> aq_nodup s -> ps_aq s = (a, m2) :: aqr ->
  accepted s o [TranSend p w; Complete a E_OK None] = [m2].
Proof.
  intros Ho Hnd EA. unfold aq_nodup in Hnd. rewrite EA in Hnd. cbn [accepted]. change (E_OK =? 0)%N with true. cbn iota.
  rewrite app_nil_r, EA. destruct o; try (now apply lookup_head_nodup). exfalso; eapply Ho; reflexivity.
Qed.

(* push0_pipe_ready moves messages but neither creates nor loses any *)
Lemma ready_law s p o s' outs x :
  (forall c a nb m, o <> PSend c a nb m) ->
  ~ In p (map fst (ps_sending s)) -> aq_nodup s ->
  push_pipe_ready s p = (s', outs) ->
  cnt x (owned s ++ accepted s o outs) = cnt x (owned s') /\ freed outs = [] /\
  ps_cap s' = ps_cap s.
Proof.
  intros Ho Hp Hnd H. unfold push_pipe_ready in H. unfold owned, held.
  destruct (ps_wq s) as [|m rest] eqn:EW; destruct (ps_aq s) as [|[a m2] aqr] eqn:EA;
    injection H as <- <-; cbn [ps_wq ps_sending ps_cap ps_aq];
    unfold set_sending; rewrite (ListX.filter_keep_notin p _ Hp).
  - cbn [map snd accepted freed]. split; [|split; reflexivity]. rewrite ?cnt_app, ?cnt_cons, ?cnt_nil. lia.
  - rewrite (accepted_waiter s o a m2 aqr) by assumption.
    cbn [map snd accepted freed]. split; [|split; reflexivity]. rewrite ?cnt_app, ?cnt_cons, ?cnt_nil. lia.
  - cbn [map snd accepted freed]. split; [|split; reflexivity]. rewrite ?cnt_app, ?cnt_cons, ?cnt_nil. lia.
  - rewrite (accepted_waiter s o a m2 aqr) by assumption.
    cbn [map snd accepted freed]. split; [|split; reflexivity]. rewrite ?cnt_app, ?cnt_cons, ?cnt_nil. lia.
Qed.

(* the environment's side of the contract: pipes are started once, a send
   completion belongs to a send in flight, an aio is submitted once at a time *)
Definition op_ok (s : push) (o : pop) : Prop :=
  match o with
  | PPipeStart p _ => ~ In p (map fst (ps_sending s)) /\ ~ In p (ps_pl s)
  | PSendDone p _ => In p (map fst (ps_sending s))
  | PSend _ a _ _ => ~ In a (map fst (ps_aq s))
  | PCancel _ rv => rv <> 0%N
  | _ => True
  end.



Lemma ready_inv s p s' outs :
  PInv s -> ~ In p (map fst (ps_sending s)) -> ~ In p (ps_pl s) ->
  push_pipe_ready s p = (s', outs) -> PInv s'.
Proof.
  intros (I1 & I2 & I3 & I4 & I5 & I6) Hp Hpl H. unfold push_pipe_ready in H.
  unfold PInv, aq_nodup in *.
  destruct (ps_wq s) as [|m rest] eqn:EW; destruct (ps_aq s) as [|[a m2] aqr] eqn:EA;
    injection H as <- <-; cbn [ps_wq ps_sending ps_cap ps_aq ps_pl map fst];
    unfold set_sending; rewrite (ListX.filter_keep_notin p _ Hp); cbn [map fst].
  - (* nothing to send: the pipe joins the ready list *)
    repeat split; auto.
    + intros q Hq. apply in_app_or in Hq as [Hq|[<-|[]]]; auto.
    + now apply ListX.nodup_snoc.
  - (* a blocked sender goes straight to the pipe *)
    assert (PL: ps_pl s = []). { destruct (ps_pl s) eqn:E; auto. destruct I1 as [_ F]; [congruence|discriminate]. }
    rewrite PL in *. repeat split; auto; try (cbn; lia); try tauto.
    + constructor; auto.
    + inversion I4; auto.
  - assert (PL: ps_pl s = []). { destruct (ps_pl s) eqn:E; auto. destruct I1 as [F _]; [congruence|discriminate]. }
    rewrite PL in *. cbn [length] in *. repeat split; auto; try lia; try tauto.
    constructor; auto.
  - assert (PL: ps_pl s = []). { destruct (ps_pl s) eqn:E; auto. destruct I1 as [F _]; [congruence|discriminate]. }
    rewrite PL in *. cbn [length] in *. repeat split; auto; try tauto.
    + rewrite app_length. cbn. lia.
    + constructor; auto.
    + inversion I4; auto.
Qed.

Lemma accepted_nil_other s o outs :
  (forall a rv m, ~ In (Complete a rv m) outs) -> accepted s o outs = [].
Proof.
  induction outs as [|x r IH]; cbn; intros H; [reflexivity|].
  destruct x; try (apply IH; intros a0 rv0 m0 Hin; eapply H; right; eauto).
  exfalso. eapply H. left. reflexivity.
Qed.

Lemma accepted_fail s o rv l : rv <> 0%N -> accepted s o (fail_aios rv l) = [].
Proof.
  intros Hrv. induction l as [|a l IH]; cbn; [reflexivity|].
  destruct (N.eqb_spec rv 0); [contradiction|]. cbn. exact IH.
Qed.

Lemma accepted_app s o a b : accepted s o (a ++ b) = accepted s o a ++ accepted s o b.
Proof. induction a as [|x a IH]; cbn; [reflexivity|]. destruct x; rewrite ?IH, ?app_assoc; auto. Qed.
Lemma accepted_map_Free s o l : accepted s o (map Free l) = [].
Proof. induction l; cbn; auto. Qed.

Ltac pinv6 := unfold PInv, aq_nodup in *; split; [|split; [|split; [|split; [|split]]]].
Ltac simp_p := cbn [ps_pl ps_wq ps_cap ps_aq ps_sending ps_writable] in *.

(* the state push0_pipe_ready is entered with by the send callback: the pipe's aio is idle again *)
Definition sent (s : push) (p : pid) : push :=
  mkPush (ps_pl s) (ps_wq s) (ps_cap s) (ps_aq s) (set_sending s p None) (ps_writable s).
Lemma sent_inv s p : PInv s -> PInv (sent s p).
Proof.
  intros (I1 & I2 & I3 & I4 & I5 & I6). unfold sent, set_sending. pinv6; simp_p; auto.
  - now apply ListX.nodup_filter.
  - intros q Hq Hin. eapply I5; eauto. eapply ListX.in_map_filter; eauto.
Qed.
Lemma accepted_aq s t o outs : ps_aq s = ps_aq t -> accepted s o outs = accepted t o outs.
Proof. intros E. induction outs as [|y r IH]; cbn; [reflexivity|]. destruct y; rewrite ?IH, ?E; reflexivity. Qed.

Lemma law_PSend s c a nb m s' outs :
  PInv s -> ~ In a (map fst (ps_aq s)) -> push_step s (PSend c a nb m) = (s', outs) ->
  PInv s' /\ forall x, cnt x (owned s ++ accepted s (PSend c a nb m) outs) = cnt x (owned s' ++ freed outs).
Proof.
  intros HI Hok H. pose proof HI as (I1 & I2 & I3 & I4 & I5 & I6). cbn [push_step] in H.
  destruct (ps_pl s) as [|p rest] eqn:PL.
  - destruct (wq_full s) eqn:F; cbn [negb] in H.
    + destruct nb; injection H as <- <-.
      * split; [exact HI|]. intros x. cbn [accepted freed]. change (E_AGAIN =? 0)%N with false. cbn iota. cnt_simp. lia.
      * split.
        -- unfold PInv, aq_nodup in *. simp_p. rewrite PL in *.
           repeat split; auto; try tauto. rewrite map_app. cbn [map fst]. now apply ListX.nodup_snoc.
        -- intros x. unfold owned, held. cbn [accepted freed]. simp_p. cnt_simp. lia.
    + injection H as <- <-. unfold wq_full in F. apply Nat.leb_gt in F. split.
      * unfold PInv, aq_nodup in *. simp_p. rewrite PL in *.
        repeat split; auto; try tauto. rewrite app_length. cbn. lia.
      * intros x. unfold owned, held. cbn [accepted freed]. simp_p. change (E_OK =? 0)%N with true. cbn iota. rewrite N.eqb_refl. cnt_simp. lia.
  - destruct I1 as [W A]; [congruence|]. injection H as <- <-.
    assert (Hp: ~ In p (map fst (ps_sending s))) by (apply I5; try rewrite PL; now left).
    split.
    + unfold PInv, aq_nodup in *. simp_p. unfold set_sending.
      rewrite (ListX.filter_keep_notin p _ Hp). cbn [map fst]. rewrite PL in *. inversion I6; subst.
      repeat split; auto.
      * constructor; auto.
      * intros q Hq [<-|Hin]; [contradiction|]. eapply I5; eauto. now right.
    + intros x. unfold owned, held. cbn [accepted freed]. simp_p. change (E_OK =? 0)%N with true. cbn iota. rewrite N.eqb_refl. unfold set_sending. rewrite (ListX.filter_keep_notin p _ Hp).
      cbn [map snd]. cnt_simp. lia.
Qed.

Lemma law_ready_op s p o s' outs :
  (forall c a nb m, o <> PSend c a nb m) ->
  PInv s -> ~ In p (map fst (ps_sending s)) -> ~ In p (ps_pl s) ->
  push_pipe_ready s p = (s', outs) ->
  PInv s' /\ forall x, cnt x (owned s ++ accepted s o outs) = cnt x (owned s' ++ freed outs).
Proof.
  intros Ho HI Hp Hpl H. split; [eapply ready_inv; eauto|]. intros x.
  destruct HI as (_ & _ & _ & I4 & _).
  destruct (ready_law s p o s' outs x Ho Hp I4 H) as (L & F & _). rewrite F. cnt_simp. rewrite <- L. cnt_simp. lia.
Qed.

(* a message a peer sent to the pusher: received and discarded in the same step *)
Definition arrived (o : pop) : list pmsg :=
  match o with PRecvDone _ rv m => if N.eqb rv 0 then [m] else [] | _ => [] end.

Theorem push_step_law s o s' outs :
  PInv s -> op_ok s o -> push_step s o = (s', outs) ->
  PInv s' /\ forall x, cnt x (owned s ++ accepted s o outs ++ arrived o) = cnt x (owned s' ++ wire s o ++ freed outs).
Proof.
  intros HI Hok H. pose proof HI as (I1 & I2 & I3 & I4 & I5 & I6).
  destruct o as [c a nb m|c a nb|a rv|p peer|p|p rv|p rv m| c op|c|c| |now]; cbn [op_ok wire arrived] in *.
  - destruct (law_PSend _ _ _ _ _ _ _ HI Hok H) as [A B]. split; [exact A|].
    intros x. specialize (B x). cnt_simp. lia.
  - cbn [push_step] in H. injection H as <- <-. split; [exact HI|]. reflexivity.
  - cbn [push_step] in H. destruct (has_aio a (ps_aq s)) eqn:E; injection H as <- <-.
    + split.
      * unfold remove_aio. pinv6; simp_p; auto.
        -- intros Hne. destruct (I1 Hne) as [W A]. split; auto. rewrite A. reflexivity.
        -- now apply ListX.nodup_filter.
      * intros x. unfold owned, held. cbn [accepted freed]. simp_p.
        destruct (N.eqb_spec rv 0); [contradiction|]. cnt_simp. lia.
    + split; [exact HI|]. reflexivity.
  - cbn [push_step] in H. destruct (negb (peer =? PROTO_PULL)%N).
    + injection H as <- <-. split; [exact HI|]. reflexivity.
    + destruct (push_pipe_ready s p) as [s1 o1] eqn:R. inversion H; subst.
      destruct Hok as [Hp Hpl].
      destruct (law_ready_op s p (PPipeStart p peer) s' o1 ltac:(intros; discriminate) HI Hp Hpl R) as [A B].
      split; [exact A|]. intros x. specialize (B x). cbn [accepted freed]. cnt_simp. lia.
  - cbn [push_step] in H. destruct (has_id p (ps_pl s)) eqn:E; injection H as <- <-.
    + split.
      * pinv6; simp_p; auto.
        -- intros Hne. apply I1. intros E0. rewrite E0 in Hne. apply Hne. reflexivity.
        -- intros q Hq. apply ReqRepProofs.in_remove_id in Hq as [Hq _]. auto.
        -- now apply NoDup_filter.
      * intros x. unfold owned, held. cbn [accepted freed]. simp_p. cnt_simp. lia.
    + split; [exact HI|]. reflexivity.
  - cbn [push_step] in H. destruct (N.eqb_spec rv 0) as [->|Hrv]; cbn [negb] in H.
    + (* success: the transport consumed the message; the pipe is ready again *)
      assert (Hp0: ~ In p (map fst (ps_sending (sent s p)))) by (unfold sent, set_sending; simp_p; apply ListX.notin_filter_self).
      assert (Hpl0: ~ In p (ps_pl (sent s p))) by (unfold sent; simp_p; intros Hin; eapply I5; eauto).
      destruct (law_ready_op (sent s p) p (PSendDone p 0) s' outs ltac:(intros; discriminate) (sent_inv s p HI) Hp0 Hpl0 H) as [A B].
      split; [exact A|]. intros x. rewrite (accepted_aq s (sent s p)) by reflexivity.
      specialize (B x). unfold owned, held in *. unfold sent at 1 2 in B. simp_p. unfold set_sending in B.
      pose proof (cnt_partition x p (ps_sending s)) as P. cnt_simp. lia.
    + (* failure: the message is freed, the pipe closed *)
      injection H as <- <-. split; [exact (sent_inv s p HI)|].
      intros x. unfold owned, held. rewrite accepted_app, accepted_map_Free. cbn [accepted].
      rewrite freed_app, freed_map_Free. cbn [freed]. simp_p. unfold set_sending.
      pose proof (cnt_partition x p (ps_sending s)) as P. cnt_simp. lia.
  - cbn [push_step] in H. destruct (rv =? 0)%N; cbn [negb] in H; injection H as <- <-.
    + split; [exact HI|]. reflexivity.
    + split; [exact HI|]. reflexivity.
  - cbn [push_step] in H. destruct op; try (injection H as <- <-; split; [exact HI|]; reflexivity).
    destruct (8192 <? N.of_nat n)%N; [injection H as <- <-; split; [exact HI|]; reflexivity|].
    injection H as <- <-. split.
    + pinv6; simp_p; auto.
      * intros Hne. destruct (I1 Hne) as [W A]. rewrite W. now rewrite firstn_nil.
      * rewrite firstn_length. lia.
    + intros x. unfold owned, held. rewrite accepted_app, accepted_map_Free. cbn [accepted].
      rewrite freed_app, freed_map_Free. cbn [freed]. simp_p.
      rewrite <- (firstn_skipn n (ps_wq s)) at 1. cnt_simp. lia.
  - injection H as <- <-. split; [exact HI|]. reflexivity.
  - injection H as <- <-. split; [exact HI|]. reflexivity.
  - cbn [push_step] in H. injection H as <- <-. split.
    + pinv6; simp_p; auto.
      * intros Hne. destruct (I1 Hne) as [W A]. auto.
      * constructor.
    + intros x. unfold owned, held. rewrite accepted_fail by discriminate. rewrite freed_fail. simp_p. cnt_simp. lia.
  - injection H as <- <-. split; [exact HI|]. reflexivity.
Qed.

(* the send descriptor mirrors "a non-blocking send would be accepted" *)
Definition can_accept (s : push) : bool :=
  negb (match ps_pl s with [] => true | _ => false end) || negb (wq_full s).
Definition WInv (s : push) : Prop := ps_writable s = can_accept s.

Lemma ready_winv s p s' outs : PInv s -> WInv s -> push_pipe_ready s p = (s', outs) -> WInv s'.
Proof.
  intros (I1 & I2 & _) W H. unfold push_pipe_ready in H. unfold WInv, can_accept, wq_full in *.
  destruct (ps_wq s) as [|m rest] eqn:EW; destruct (ps_aq s) as [|[a m2] aqr] eqn:EA;
    injection H as <- <-; simp_p; cbn [length] in *.
  - destruct (ps_pl s) eqn:PL; cbn [app]; destruct (ps_cap s <=? 0) eqn:C; cbn in *; auto.
  - assert (PL: ps_pl s = []). { destruct (ps_pl s) eqn:E; auto. destruct I1 as [_ F]; [congruence|discriminate]. }
    rewrite PL in *. destruct (ps_cap s <=? 0) eqn:C; cbn in *; auto.
  - assert (PL: ps_pl s = []). { destruct (ps_pl s) eqn:E; auto. destruct I1 as [F _]; [congruence|discriminate]. }
    rewrite PL in *. cbn [negb orb andb] in *.
    destruct (ps_cap s <=? S (length rest)) eqn:C1; destruct (ps_cap s <=? length rest) eqn:C2; cbn in *; auto.
    apply Nat.leb_le in C2. apply Nat.leb_gt in C1. lia.
  - assert (PL: ps_pl s = []). { destruct (ps_pl s) eqn:E; auto. destruct I1 as [F _]; [congruence|discriminate]. }
    rewrite PL in *. cbn [negb orb andb] in *. rewrite app_length. cbn [length].
    replace (length rest + 1) with (S (length rest)) by lia.
    destruct (ps_cap s <=? S (length rest)) eqn:C1; cbn in *; auto.
Qed.

Theorem push_writable_mirror s o s' outs :
  PInv s -> WInv s -> push_step s o = (s', outs) -> WInv s'.
Proof.
  intros HI W H. pose proof HI as (I1 & I2 & _).
  destruct o as [c a nb m|c a nb|a rv|p peer|p|p rv|p rv m| c op|c|c| |now]; cbn [push_step] in H;
    try (injection H as <- <-; exact W).
  - destruct (ps_pl s) as [|p rest] eqn:PL.
    + destruct (wq_full s) eqn:F; cbn [negb] in H.
      * destruct nb; injection H as <- <-; unfold WInv, can_accept, wq_full in *; simp_p; rewrite ?PL in *; auto.
      * injection H as <- <-. unfold WInv, can_accept, wq_full in *. simp_p. rewrite ?PL in *. cbn [negb orb] in *.
        destruct (ps_cap s <=? length (ps_wq s ++ [m])); auto. rewrite W, F. reflexivity.
    + injection H as <- <-. unfold WInv, can_accept, wq_full in *. simp_p. rewrite ?PL in *.
      destruct rest; cbn [negb orb andb] in *; destruct (ps_cap s <=? length (ps_wq s)); cbn in *; auto.
  - destruct (has_aio a (ps_aq s)); injection H as <- <-; auto.
  - destruct (negb (peer =? PROTO_PULL)%N); [injection H as <- <-; exact W|].
    destruct (push_pipe_ready s p) as [s1 o1] eqn:R. injection H as <- <-. eapply ready_winv; eauto.
  - destruct (has_id p (ps_pl s)) eqn:E; injection H as <- <-; [|exact W].
    unfold WInv, can_accept, wq_full in *. simp_p.
    destruct (remove_id p (ps_pl s)) eqn:R; cbn [negb orb andb] in *.
    + destruct (ps_cap s <=? length (ps_wq s)); cbn; auto. rewrite W. apply orb_true_r.
    + (* some pipe is still ready, so the descriptor was raised and stays so *)
      assert (ps_pl s <> []) by (intros E0; rewrite E0 in R; discriminate).
      destruct (ps_pl s); [congruence|]. cbn in W. exact W.
  - destruct (negb (rv =? 0)%N).
    + injection H as <- <-. unfold WInv, can_accept, wq_full in *. simp_p. exact W.
    + eapply (ready_winv (sent s p)); eauto using sent_inv.
  - destruct (negb (rv =? 0)%N); injection H as <- <-; exact W.
  - destruct op; try (injection H as <- <-; exact W).
    destruct (8192 <? N.of_nat n)%N; injection H as <- <-; [exact W|].
    unfold WInv, can_accept, wq_full in *. simp_p.
    destruct (n <=? length (firstn n (ps_wq s))) eqn:C; cbn [negb orb] in *.
    + destruct (ps_pl s) eqn:PL; cbn in *; auto.
    + destruct (ps_pl s); reflexivity.
Qed.

(* non-blocking send: completes in the same step, EAGAIN exactly when the
   blocking form would have been queued, message left with the caller *)
Theorem push_nb_immediate s c a m s' outs :
  push_step s (PSend c a true m) = (s', outs) ->
  exists rv rest, outs = Complete a rv None :: rest /\ ps_aq s' = ps_aq s /\
    (rv = E_AGAIN <-> can_accept s = false) /\ (rv = E_AGAIN -> s' = s /\ rest = []) /\
    (rv <> E_AGAIN -> rv = E_OK).
Proof.
  intros H. cbn [push_step] in H. unfold can_accept.
  destruct (ps_pl s) as [|p rest] eqn:PL.
  - destruct (wq_full s) eqn:F; cbn [negb orb] in *; injection H as <- <-; simp_p.
    + exists E_AGAIN, []. repeat split; auto; congruence.
    + exists E_OK, []. repeat split; auto; try discriminate.
  - injection H as <- <-; simp_p. cbn [negb orb].
    exists E_OK, [TranSend p m]. repeat split; auto; try discriminate.
Qed.

(* blocking send with no room: queued, nothing completes, nothing is transmitted or dropped *)
Theorem push_backpressure s c a m :
  can_accept s = false ->
  push_step s (PSend c a false m) = (mkPush (ps_pl s) (ps_wq s) (ps_cap s) (ps_aq s ++ [(a, m)]) (ps_sending s) (ps_writable s), []).
Proof.
  unfold can_accept. intros H. cbn [push_step]. destruct (ps_pl s); cbn in H; [|discriminate].
  destruct (wq_full s); cbn in *; [reflexivity|discriminate].
Qed.

(* FIFO hand-off: messages reach the transport in the order they were accepted *)
Lemma ready_order s p o s' outs :
  (forall c a nb m, o <> PSend c a nb m) -> aq_nodup s ->
  push_pipe_ready s p = (s', outs) -> ps_wq s ++ accepted s o outs = txs outs ++ ps_wq s'.
Proof.
  intros Ho Hnd H. unfold push_pipe_ready in H.
  destruct (ps_wq s) as [|m rest] eqn:EW; destruct (ps_aq s) as [|[a m2] aqr] eqn:EA;
    injection H as <- <-; simp_p.
  - reflexivity.
  - rewrite (accepted_waiter s o a m2 aqr) by assumption. reflexivity.
  - cbn [accepted txs app]. now rewrite app_nil_r.
  - rewrite (accepted_waiter s o a m2 aqr) by assumption. reflexivity.
Qed.

Theorem push_order_law s o s' outs :
  PInv s -> op_ok s o -> (forall c op, o <> PSetOpt c op) ->
  push_step s o = (s', outs) ->
  ps_wq s ++ accepted s o outs = txs outs ++ ps_wq s'.
Proof.
  intros HI Hok Hns H. pose proof HI as (I1 & I2 & I3 & I4 & I5 & I6).
  destruct o as [c a nb m|c a nb|a rv|p peer|p|p rv|p rv m| c op|c|c| |now]; cbn [push_step op_ok] in *.
  - destruct (ps_pl s) as [|p rest] eqn:PL.
    + destruct (wq_full s) eqn:F; cbn [negb] in H.
      * destruct nb; injection H as <- <-; simp_p; cbn [accepted txs]; change (E_AGAIN =? 0)%N with false; cbn iota; now rewrite ?app_nil_r.
      * injection H as <- <-; simp_p. cbn [accepted txs]. change (E_OK =? 0)%N with true. cbn iota. now rewrite N.eqb_refl, app_nil_r.
    + destruct I1 as [W A]; [congruence|]. injection H as <- <-; simp_p. cbn [accepted txs].
      change (E_OK =? 0)%N with true. cbn iota. rewrite N.eqb_refl, W. reflexivity.
  - injection H as <- <-. cbn [accepted txs]. change (E_NOTSUP =? 0)%N with false. cbn iota. now rewrite app_nil_r.
  - destruct (has_aio a (ps_aq s)); injection H as <- <-; simp_p; cbn [accepted txs]; rewrite ?app_nil_r; auto.
    destruct (N.eqb_spec rv 0); [contradiction|]. now rewrite app_nil_r.
  - destruct (negb (peer =? PROTO_PULL)%N); [injection H as <- <-; cbn; now rewrite app_nil_r|].
    destruct (push_pipe_ready s p) as [s1 o1] eqn:R. injection H as <- <-. cbn [accepted txs].
    eapply ready_order; eauto. intros; discriminate.
  - destruct (has_id p (ps_pl s)); injection H as <- <-; simp_p; cbn; now rewrite app_nil_r.
  - destruct (N.eqb_spec rv 0) as [->|Hrv]; cbn [negb] in H.
    + rewrite (accepted_aq s (sent s p)) by reflexivity. change (ps_wq s) with (ps_wq (sent s p)). eapply ready_order; eauto. intros; discriminate.
    + injection H as <- <-; simp_p. rewrite accepted_app, accepted_map_Free, txs_app, txs_map_Free. cbn. now rewrite app_nil_r.
  - destruct (negb (rv =? 0)%N); injection H as <- <-; cbn; now rewrite app_nil_r.
  - exfalso. eapply Hns. reflexivity.
  - injection H as <- <-. cbn. now rewrite app_nil_r.
  - injection H as <- <-. cbn. now rewrite app_nil_r.
  - injection H as <- <-; simp_p. rewrite accepted_fail by discriminate. rewrite txs_fail. now rewrite app_nil_r.
  - injection H as <- <-. cbn. now rewrite app_nil_r.
Qed.

Fixpoint push_run (s : push) (ops : list pop) : push * list (pop * push * list pout) :=
  match ops with
  | [] => (s, [])
  | o :: r => let (s1, outs) := push_step s o in
              let (s2, tr) := push_run s1 r in (s2, (o, s, outs) :: tr)
  end.
Fixpoint ops_ok (s : push) (ops : list pop) : Prop :=
  match ops with
  | [] => True
  | o :: r => op_ok s o /\ ops_ok (fst (push_step s o)) r
  end.
Fixpoint tr_accepted (tr : list (pop * push * list pout)) : list pmsg :=
  match tr with [] => [] | (o, s, outs) :: r => accepted s o outs ++ arrived o ++ tr_accepted r end.
Fixpoint tr_out (tr : list (pop * push * list pout)) : list pmsg :=
  match tr with [] => [] | (o, s, outs) :: r => wire s o ++ freed outs ++ tr_out r end.

Lemma push_init_inv : PInv push_init /\ WInv push_init.
Proof.
  split; [|reflexivity]. unfold PInv, aq_nodup, push_init. simp_p. cbn.
  repeat split; auto; try constructor; try congruence; tauto.
Qed.

(* every well-formed history conserves messages: what the socket owned plus what
   it accepted (or received) equals what it still owns plus what the transports
   took plus what it freed; and the poll descriptor mirrors acceptability throughout *)
Theorem push_run_law ops : forall s, PInv s -> WInv s -> ops_ok s ops ->
  let (s', tr) := push_run s ops in
  PInv s' /\ WInv s' /\ forall x, cnt x (owned s ++ tr_accepted tr) = cnt x (owned s' ++ tr_out tr).
Proof.
  induction ops as [|o r IH]; intros s HI HW Hok; cbn [push_run].
  - split; [exact HI|]. split; [exact HW|]. intros x. cbn [tr_accepted tr_out]. now rewrite !app_nil_r.
  - cbn [ops_ok] in Hok. destruct Hok as [Ho Hr].
    destruct (push_step s o) as [s1 outs] eqn:S. cbn [fst] in Hr.
    destruct (push_step_law _ _ _ _ HI Ho S) as [HI1 L].
    pose proof (push_writable_mirror _ _ _ _ HI HW S) as HW1.
    specialize (IH s1 HI1 HW1 Hr). destruct (push_run s1 r) as [s2 tr].
    destruct IH as (A & B & C). split; [exact A|]. split; [exact B|]. intros x. cbn [tr_accepted tr_out].
    specialize (L x). specialize (C x). cnt_simp. lia.
Qed.
