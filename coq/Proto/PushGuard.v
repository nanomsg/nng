(* PushGuard: push.c since fix 8475361 ("PUSH put a closed pipe back on its ready list"):
   push0_pipe_close marks the pipe closed and push0_pipe_ready does nothing for a closed pipe.
   The wrapper adds the set of closed pipes to PushModel's state; [fc] = the repair is in the
   source (Gen/Consts.v C06_PUSH_CLOSED_GUARD_FIXED).  With fc = false, and in every step that is
   not the successful send completion of a closed pipe, it is PushModel.push_step_r fr unchanged
   (fr = the resize repair is in the source, Gen/Consts.v C06_PUSH_RESIZE_ADMITS_FIXED; push_step_r
   false = push_step, and push_step_r true differs from push_step only on NNG_OPT_SENDBUF), so the
   theorems of PushProofs / PushSubmit / PipelineProofs carry over (PushGuard_contract below). *)
From Coq Require Import List Arith NArith Bool.
From NngV Require Import Gen.Consts Proto.Common Proto.PushModel.
From NngV Require Proto.ReqRepProofs.
Import ListNotations.

Record pushg := mkPushg { pg_s : push; pg_closed : list pid }.

Definition pushg_init : pushg := mkPushg push_init [].

Definition push_step_g (fc fr : bool) (g : pushg) (o : pop) : pushg * list pout :=
  match o with
  | PPipeClose p =>
      let (s', outs) := push_step_r fr (pg_s g) o in (mkPushg s' (p :: pg_closed g), outs)
  | PSendDone p rv =>
      if fc && N.eqb rv 0 && has_id p (pg_closed g) then
        (* push0_send_cb -> push0_pipe_ready: p->closed => return (the message was sent) *)
        let s := pg_s g in
        (mkPushg (mkPush (ps_pl s) (ps_wq s) (ps_cap s) (ps_aq s) (set_sending s p None) (ps_writable s)) (pg_closed g), [])
      else let (s', outs) := push_step_r fr (pg_s g) o in (mkPushg s' (pg_closed g), outs)
  | _ => let (s', outs) := push_step_r fr (pg_s g) o in (mkPushg s' (pg_closed g), outs)
  end.

Definition pushg_poll (g : pushg) : ppoll := push_poll (pg_s g).

(* the instance for the source as it is *)
Definition push0_init : pushg := pushg_init.
Definition push0_step : pushg -> pop -> pushg * list pout := push_step_g C06_PUSH_CLOSED_GUARD_FIXED C06_PUSH_RESIZE_ADMITS_FIXED.
Definition push0_poll : pushg -> ppoll := pushg_poll.

Definition stale_done (g : pushg) (o : pop) : bool :=
  match o with PSendDone p rv => N.eqb rv 0 && has_id p (pg_closed g) | _ => false end.
Definition is_resize (o : pop) : bool := match o with PSetOpt _ (OSendBuf _) => true | _ => false end.

Lemma push_step_r_false s o : push_step_r false s o = push_step s o.
Proof. destruct o as [| | | | | | |c op| | | |]; try reflexivity. destruct op; reflexivity. Qed.
Lemma push_step_r_other fr s o : is_resize o = false -> push_step_r fr s o = push_step s o.
Proof. destruct o as [| | | | | | |c op| | | |]; try reflexivity. destruct op; try reflexivity. discriminate. Qed.

Theorem PushGuard_contract_r fc fr g o : stale_done g o = false ->
  pg_s (fst (push_step_g fc fr g o)) = fst (push_step_r fr (pg_s g) o) /\
  snd (push_step_g fc fr g o) = snd (push_step_r fr (pg_s g) o).
Proof.
  intros H. destruct o; cbn [push_step_g stale_done] in *;
    try (destruct (push_step_r fr (pg_s g) _) as [s' outs]; split; reflexivity).
  rewrite <- andb_assoc, H, andb_false_r. destruct (push_step_r fr (pg_s g) _) as [s' outs]. split; reflexivity.
Qed.

Theorem PushGuard_contract fc fr g o : stale_done g o = false -> (fr = false \/ is_resize o = false) ->
  fst (fst (push_step_g fc fr g o), snd (push_step_g fc fr g o)) = fst (push_step_g fc fr g o) /\
  pg_s (fst (push_step_g fc fr g o)) = fst (push_step (pg_s g) o) /\
  snd (push_step_g fc fr g o) = snd (push_step (pg_s g) o).
Proof.
  intros H R. split; [reflexivity|]. destruct (PushGuard_contract_r fc fr g o H) as [A B]. rewrite A, B.
  destruct R as [->|R]; [rewrite push_step_r_false|rewrite push_step_r_other by exact R]; split; reflexivity.
Qed.

(* a closed pipe is never on the ready list again (pipe ids are not reused) *)
Definition CInv (g : pushg) : Prop := forall p, In p (pg_closed g) -> ~ In p (ps_pl (pg_s g)).
Definition fresh_ok (g : pushg) (o : pop) : Prop :=
  match o with PPipeStart p _ => ~ In p (pg_closed g) | _ => True end.


(* what push_pipe_ready can add to the ready list: only the pipe it was called for *)
Lemma ready_pl s p s' outs : push_pipe_ready s p = (s', outs) -> forall q, In q (ps_pl s') -> In q (ps_pl s) \/ q = p.
Proof.
  unfold push_pipe_ready. intros H q.
  destruct (ps_wq s) as [|m rest]; destruct (ps_aq s) as [|[a m2] aqr]; injection H as <- <-; cbn [ps_pl];
    intros Hin; try (left; exact Hin).
  apply in_app_or in Hin as [Hin|[<-|[]]]; [left; exact Hin|right; reflexivity].
Qed.

(* what a step can add to the ready list: the pipe that starts, or the pipe whose
   send succeeded; the pipe that closes leaves it *)
Lemma push_step_r_pl fr s o s' outs : push_step_r fr s o = (s', outs) -> forall q, In q (ps_pl s') ->
  (In q (ps_pl s) /\ o <> PPipeClose q) \/ (exists peer, o = PPipeStart q peer) \/ o = PSendDone q 0%N.
Proof.
  intros H q Hin.
  destruct o as [c a nb m|c a nb|a rv|p peer|p|p rv|p rv m|c []|c|c| |now]; cbn [push_step_r push_step] in H;
    try (injection H as <- <-; left; now split).
  - destruct (ps_pl s) as [|p0 rest] eqn:PL.
    + destruct (negb (wq_full s)); [|destruct nb]; injection H as <- <-; cbn [ps_pl] in Hin; rewrite ?PL in Hin; destruct Hin.
    + injection H as <- <-. left. split; [right; exact Hin|discriminate].
  - destruct (has_aio a (ps_aq s)); injection H as <- <-; left; now split.
  - destruct (negb (peer =? PROTO_PULL)%N); [injection H as <- <-; left; now split|].
    destruct (push_pipe_ready s p) as [s1 o1] eqn:R. injection H as <- <-.
    destruct (ready_pl _ _ _ _ R q Hin) as [X| ->]; [left; now split|right; left; now exists peer].
  - left. destruct (has_id p (ps_pl s)) eqn:HP; injection H as <- <-; cbn [ps_pl] in Hin.
    + apply ReqRepProofs.in_remove_id in Hin as [X D]. split; [exact X|congruence].
    + split; [exact Hin|]. intros E. injection E as ->. apply ReqRepProofs.has_id_true in Hin. congruence.
  - destruct (N.eqb_spec rv 0) as [->|D]; cbn [negb] in H; [|injection H as <- <-; left; now split].
    destruct (ready_pl _ _ _ _ H q Hin) as [X| ->]; [left; now split|right; right; reflexivity].
  - destruct (negb (rv =? 0)%N); injection H as <- <-; left; now split.
  - destruct (fr && negb (8192 <? N.of_nat n)%N); [unfold push_resize_takein in H|cbn [push_step] in H; destruct (8192 <? N.of_nat n)%N];
      injection H as <- <-; left; now split.
Qed.

Lemma closed_off_ready fr g o s1 o1 q : CInv g -> fresh_ok g o -> push_step_r fr (pg_s g) o = (s1, o1) ->
  In q (ps_pl s1) -> In q (pg_closed g) \/ o = PPipeClose q -> o = PSendDone q 0%N.
Proof.
  intros HI HF R Hin C.
  destruct (push_step_r_pl _ _ _ _ _ R q Hin) as [[X D]|[[peer ->]|E]]; [|destruct C as [Y|Y]; [destruct (HF Y)|discriminate Y]|exact E].
  destruct C as [Y|Y]; [destruct (HI q Y X)|destruct (D Y)].
Qed.

Theorem push_closed_never_ready_step fr g o g' outs :
  CInv g -> fresh_ok g o -> push_step_g true fr g o = (g', outs) -> CInv g'.
Proof.
  intros HI HF H q Hq Hin.
  destruct o as [| | | |p|p rv| | | | | |]; cbn [push_step_g andb] in H;
    try (destruct (push_step_r fr (pg_s g) _) as [s1 o1] eqn:R; injection H as <- _;
         discriminate (closed_off_ready _ _ _ _ _ _ HI HF R Hin (or_introl Hq))).
  - destruct (push_step_r fr (pg_s g) _) as [s1 o1] eqn:R. injection H as <- _.
    destruct Hq as [->|Hq]; [discriminate (closed_off_ready _ _ _ _ _ _ HI HF R Hin (or_intror eq_refl))
                            |discriminate (closed_off_ready _ _ _ _ _ _ HI HF R Hin (or_introl Hq))].
  - destruct ((rv =? 0)%N && has_id p (pg_closed g)) eqn:ST.
    + injection H as <- _. exact (HI q Hq Hin).
    + destruct (push_step_r fr (pg_s g) _) as [s1 o1] eqn:R. injection H as <- _. cbn [pg_closed] in Hq.
      pose proof (closed_off_ready _ _ _ _ _ _ HI HF R Hin (or_introl Hq)) as E. injection E as -> ->.
      apply ReqRepProofs.has_id_true in Hq. rewrite Hq in ST. discriminate ST.
Qed.

Fixpoint push_run_g (fc fr : bool) (g : pushg) (ops : list pop) : pushg :=
  match ops with [] => g | o :: r => push_run_g fc fr (fst (push_step_g fc fr g o)) r end.
Fixpoint fresh_all (fc fr : bool) (g : pushg) (ops : list pop) : Prop :=
  match ops with [] => True | o :: r => fresh_ok g o /\ fresh_all fc fr (fst (push_step_g fc fr g o)) r end.

Theorem push_closed_never_ready fr ops : forall g, CInv g -> fresh_all true fr g ops -> CInv (push_run_g true fr g ops).
Proof.
  induction ops as [|o r IH]; intros g HI HF; cbn [push_run_g fresh_all] in *; [exact HI|].
  destruct HF as [F1 F2]. destruct (push_step_g true fr g o) as [g' outs] eqn:E. cbn [fst] in *.
  apply IH; [eapply push_closed_never_ready_step; eauto|exact F2].
Qed.

(* the pinned push0_send_cb (fc = false): a send that succeeded just before the close puts the closed pipe
   back on the ready list, and the next send hands a message to it (in C: a destroyed pipe) *)
Definition push_stale_witness : list pop :=
  [PPipeStart 1%N PROTO_PULL; PSend None 1%N true (mkPmsg [] [1%N]); PPipeClose 1%N; PSendDone 1%N 0%N].
Theorem push_closed_pipe_ready_refuted fr :
  let g := push_run_g false fr pushg_init push_stale_witness in
  fresh_all false fr pushg_init push_stale_witness /\ In 1%N (pg_closed g) /\ In 1%N (ps_pl (pg_s g)) /\
  exists g' rest, push_step_g false fr g (PSend None 2%N true (mkPmsg [] [2%N])) = (g', Complete 2%N E_OK None :: TranSend 1%N (mkPmsg [] [2%N]) :: rest).
Proof. destruct fr; vm_compute; (split; [intuition discriminate|]); (split; [left; reflexivity|]); (split; [left; reflexivity|]); eexists _, _; reflexivity. Qed.
Theorem push_closed_pipe_ready_holds_on_witness fr :
  let g := push_run_g true fr pushg_init push_stale_witness in ps_pl (pg_s g) = [] /\ ps_sending (pg_s g) = [].
Proof. destruct fr; vm_compute; split; reflexivity. Qed.
