(* MsgProofs: refinement of MsgModel to MsgSpec, invariants, totality. *)
From Coq Require Import List Arith Lia Bool NArith.
From NngV Require Import Base.ListX Base.Bytes Msg.MsgModel Msg.MsgSpec.
Import ListNotations.

Definition coff (c : chunk) : nat := match ch_ptr c with Some o => o | None => 0 end.

(* holds from msg_alloc on (alloc_spec); the ch_ptr = None / empty-store states of MsgModel lie outside:
   they occur inside msg_alloc (grow0_spec) and as the discarded chunk of a failed chunk_dup *)
Definition CInv (c : chunk) : Prop :=
  exists off, ch_ptr c = Some off /\ off < ch_cap c /\ off + ch_len c <= ch_cap c.

Definition cabs (c : chunk) : list byte := firstn (ch_len c) (skipn (coff c) (ch_buf c)).

Definition Inv (m : msg) : Prop := CInv (m_body m) /\ length (m_hdr m) <= HDR_CAP.
Definition abs (m : msg) : smsg := (m_hdr m, cabs (m_body m)).

Lemma cabs_length c : CInv c -> length (cabs c) = ch_len c.
Proof.
  intros (off & Hp & Hlt & Hle). unfold cabs, coff. rewrite Hp.
  rewrite firstn_length, skipn_length. unfold ch_cap in *. lia.
Qed.

Lemma ptr_inside_inv c off : ch_ptr c = Some off -> off < ch_cap c -> ptr_inside c = Some off.
Proof. intros Hp Hlt. unfold ptr_inside. rewrite Hp. apply Nat.ltb_lt in Hlt. now rewrite Hlt. Qed.

Lemma sub_cabs c off : ch_ptr c = Some off -> off + ch_len c <= ch_cap c ->
  sub (ch_buf c) off (ch_len c) = Some (cabs c).
Proof. intros Hp Hle. unfold cabs, coff. rewrite Hp. now apply sub_Some. Qed.

(* the chunk operations are stated in total form: the result exists and has the property;
   [spec_of_total] reads such a statement as one about a given result *)
Lemma spec_of_total {A B} (r : option (A * B)) (P : A -> B -> Prop) a b :
  (exists a' b', r = Some (a', b') /\ P a' b') -> r = Some (a, b) -> P a b.
Proof. intros (a' & b' & -> & H) E. inversion E; subst. exact H. Qed.

Lemma some_of_total {A B} (r : option (A * B)) (P : A -> B -> Prop) :
  (exists a' b', r = Some (a', b') /\ P a' b') -> exists x, r = Some x.
Proof. intros (a' & b' & -> & _). eauto. Qed.

(* the live bytes copied to offset o of any store: what the store held does not matter *)
Lemma restore buf c o : CInv c -> o + ch_len c <= length buf ->
  exists nb, blit buf o (cabs c) = Some nb /\
    (o < length buf -> CInv (mkChunk nb (ch_len c) (Some o))) /\
    cabs (mkChunk nb (ch_len c) (Some o)) = cabs c /\ length nb = length buf.
Proof.
  intros HI Hle. pose proof (cabs_length c HI) as HL.
  rewrite blit_Some by lia. eexists; split; [reflexivity|].
  assert (HC: length (firstn o buf ++ cabs c ++ skipn (o + length (cabs c)) buf) = length buf).
  { rewrite !app_length, firstn_length, skipn_length. lia. }
  split; [|split; [|exact HC]].
  - intros Ho. exists o. unfold ch_cap; cbn [ch_ptr ch_buf ch_len]. rewrite HC. auto.
  - unfold cabs at 1, coff; cbn [ch_ptr ch_buf ch_len].
    rewrite skipn_app_exact by (rewrite firstn_length; lia).
    apply firstn_app_exact. lia.
Qed.

Lemma grow_spec c newsz hw fail : CInv c ->
  exists rv c', chunk_grow c newsz hw fail = Some (rv, c') /\
  ((rv = ENOMEM /\ c' = c /\ fail = true) \/
   (rv = 0%N /\ CInv c' /\ cabs c' = cabs c /\ ch_len c' = ch_len c /\
    hw <= coff c' /\ coff c' + Nat.max newsz (ch_len c) <= ch_cap c')).
Proof.
  intros HI. pose proof HI as (off & Hp & Hlt & Hle). unfold chunk_grow.
  rewrite (ptr_inside_inv _ _ Hp Hlt).
  set (ns := Nat.max newsz (ch_len c)).
  set (hw' := Nat.max hw off).
  destruct ((ns + hw' <=? ch_cap c) && (hw' <=? off)) eqn:E.
  - eexists _, _. split; [reflexivity|]. right. apply andb_true_iff in E as [E1 E2].
    apply Nat.leb_le in E1, E2. unfold coff; rewrite Hp.
    repeat split; try lia. exists off; auto.
  - destruct fail.
    + eexists _, _. split; [reflexivity|]. left; auto.
    + rewrite (sub_cabs _ _ Hp Hle).
      set (ns2 := Nat.max ns (ch_cap c - off)).
      destruct (restore (zeros (ns2 + hw')) c hw' HI) as (nb & -> & HI' & Ha & HN); [rewrite zeros_length; lia|].
      rewrite zeros_length in HI', HN. specialize (HI' ltac:(lia)).
      eexists _, _. split; [reflexivity|]. right.
      split; [reflexivity|]. split; [exact HI'|]. split; [exact Ha|].
      unfold coff, ch_cap; cbn [ch_ptr ch_len ch_buf]. rewrite HN. repeat split; lia.
Qed.

Lemma abs_after_blit_back (buf : list byte) off len d nb :
  blit buf (off + len) d = Some nb ->
  firstn (len + length d) (skipn off nb) = firstn len (skipn off buf) ++ d.
Proof.
  intros H. pose proof (blit_length _ _ _ _ H) as [_ Hle].
  rewrite blit_Some in H by lia. inversion H; subst nb; clear H.
  rewrite skipn_app.
  rewrite firstn_length, Nat.min_l by lia.
  replace (off - (off + len)) with 0 by lia. cbn [skipn].
  rewrite skipn_firstn_comm'.
  rewrite app_assoc. rewrite firstn_app_exact; [reflexivity|].
  rewrite app_length, firstn_length, skipn_length. lia.
Qed.

Lemma abs_after_blit_front (buf : list byte) o len d nb :
  o + length d + len <= length buf ->
  blit buf o d = Some nb ->
  firstn (length d + len) (skipn o nb) = d ++ firstn len (skipn (o + length d) buf).
Proof.
  intros Hle H. rewrite blit_Some in H by lia. inversion H; subst nb; clear H.
  rewrite skipn_app_exact by (rewrite firstn_length; lia).
  rewrite firstn_app_full by lia. f_equal. f_equal. lia.
Qed.

(* the appended bytes t are the data, or (NULL data) whatever the store held *)
Lemma append_spec c d n fail : CInv c -> (forall x, d = Some x -> length x = n) ->
  exists rv c', chunk_append c d n fail = Some (rv, c') /\
  ((rv = ENOMEM /\ c' = c /\ fail = true) \/
   (rv = 0%N /\ CInv c' /\
    exists t, length t = n /\ (forall x, d = Some x -> t = x) /\ cabs c' = cabs c ++ t)).
Proof.
  intros HI Hd. unfold chunk_append. destruct (n =? 0) eqn:E0.
  - apply Nat.eqb_eq in E0. subst n. eexists _, _. split; [reflexivity|]. right.
    split; [reflexivity|]. split; [exact HI|]. exists []. rewrite app_nil_r. repeat split.
    intros x E. specialize (Hd x E). now destruct x.
  - apply Nat.eqb_neq in E0.
    destruct (grow_spec c (n + ch_len c) 0 fail HI) as
        (rv1 & c1 & G & [(-> & -> & ->)|(-> & HI1 & Ha & Hl & _ & Hroom)]); rewrite G.
    + cbn. eexists _, _. split; [reflexivity|]. left; auto.
    + cbn [N.eqb negb]. destruct HI1 as (o1 & Hp1 & Hlt1 & Hle1). rewrite Hp1.
      unfold coff in Hroom. rewrite Hp1 in Hroom. destruct d as [d|].
      * specialize (Hd d eq_refl). subst n.
        destruct (blit (ch_buf c1) (o1 + ch_len c1) d) as [nb|] eqn:B.
        2:{ rewrite blit_Some in B; [discriminate|unfold ch_cap in *; lia]. }
        eexists _, _. split; [reflexivity|]. right.
        pose proof (blit_length _ _ _ _ B) as [HL Hb].
        split; [reflexivity|]. split.
        -- exists o1. unfold ch_cap; cbn [ch_ptr ch_buf ch_len]. rewrite HL. unfold ch_cap in *. repeat split; lia.
        -- exists d. split; [reflexivity|]. split; [intros x E; now inversion E|].
           unfold cabs at 1, coff. cbn [ch_ptr ch_len ch_buf].
           rewrite (abs_after_blit_back _ _ _ _ _ B). rewrite <- Ha.
           unfold cabs, coff. now rewrite Hp1.
      * assert (E: o1 + ch_len c1 + n <=? ch_cap c1 = true) by (apply Nat.leb_le; lia).
        rewrite E. eexists _, _. split; [reflexivity|]. right. split; [reflexivity|]. split.
        -- exists o1. unfold ch_cap in *; cbn [ch_ptr ch_buf ch_len]. repeat split; lia.
        -- exists (firstn n (skipn (o1 + ch_len c1) (ch_buf c1))). split.
           ++ rewrite firstn_length, skipn_length. unfold ch_cap in *. lia.
           ++ split; [discriminate|]. unfold cabs at 1, coff. cbn [ch_ptr ch_len ch_buf].
              rewrite firstn_skipn_split. rewrite <- Ha. unfold cabs, coff. rewrite Hp1.
              f_equal. now rewrite skipn_skipn', (Nat.add_comm (ch_len c1)).
Qed.

Lemma round8_bounds x : x <= round8 x /\ round8 x <= x + 7.
Proof.
  unfold round8. pose proof (Nat.div_mod (x + 7) 8 ltac:(lia)) as E.
  pose proof (Nat.mod_upper_bound (x + 7) 8 ltac:(lia)). lia.
Qed.

Lemma split_shift_fits cap needed : needed + 8 <= cap ->
  round8 ((cap - needed) / 2) + needed <= cap.
Proof.
  intros H. unfold round8.
  pose proof (Nat.div_mod (cap - needed) 2 ltac:(lia)) as E2.
  pose proof (Nat.mod_upper_bound (cap - needed) 2 ltac:(lia)).
  set (h := (cap - needed) / 2) in *.
  pose proof (Nat.div_mod (h + 7) 8 ltac:(lia)) as E8.
  pose proof (Nat.mod_upper_bound (h + 7) 8 ltac:(lia)).
  set (q := (h + 7) / 8) in *.
  (* q*8 <= h+7; if h >= 7 then q*8 <= 2h <= cap-needed; else 4<=h<7 so q = 1 *)
  destruct (le_lt_dec 7 h) as [Hh|Hh]; [lia|].
  assert (q = 1) by lia. lia.
Qed.

Lemma insert_finish c2 o d :
  o < ch_cap c2 -> o + length d + ch_len c2 <= ch_cap c2 ->
  exists c', match blit (ch_buf c2) o d with
             | Some nb => Some (0%N, mkChunk nb (ch_len c2 + length d) (Some o))
             | None => None end = Some (0%N, c') /\
    CInv c' /\ cabs c' = d ++ firstn (ch_len c2) (skipn (o + length d) (ch_buf c2)).
Proof.
  intros Hlt Hle. unfold ch_cap in *.
  destruct (blit (ch_buf c2) o d) as [nb|] eqn:B.
  2:{ rewrite blit_Some in B by lia. discriminate. }
  eexists. split; [reflexivity|]. pose proof (blit_length _ _ _ _ B) as [HL _]. split.
  - exists o. unfold ch_cap; cbn [ch_ptr ch_buf ch_len]. rewrite HL. repeat split; lia.
  - unfold cabs at 1, coff; cbn [ch_ptr ch_buf ch_len].
    rewrite (Nat.add_comm (ch_len c2)).
    apply abs_after_blit_front; [lia|exact B].
Qed.

Lemma insert_ok c d fail : CInv c ->
  exists rv c', chunk_insert true c d fail = Some (rv, c') /\
  ((rv = ENOMEM /\ c' = c /\ fail = true) \/
   (rv = 0%N /\ CInv c' /\ cabs c' = d ++ cabs c)).
Proof.
  intros HI. pose proof HI as (off & Hp & Hlt & Hle).
  unfold chunk_insert. rewrite Hp.
  assert (Hc0: mkChunk (ch_buf c) (ch_len c) (Some off) = c) by (destruct c; cbn in *; now subst).
  rewrite Hc0.
  assert (Hlt': off <? ch_cap c = true) by now apply Nat.ltb_lt.
  rewrite Hlt'.
  destruct (length d <=? off) eqn:E1.
  - apply Nat.leb_le in E1.
    destruct (insert_finish c (off - length d) d ltac:(lia) ltac:(lia)) as (c' & F & F2 & F3).
    exists 0%N, c'. split; [exact F|]. right. split; [reflexivity|]. split; [exact F2|].
    rewrite F3. unfold cabs, coff. rewrite Hp. f_equal. f_equal. f_equal. lia.
  - apply Nat.leb_gt in E1.
    destruct (ch_len c + length d + 8 <=? ch_cap c) eqn:E2.
    + apply Nat.leb_le in E2.
      rewrite (sub_cabs _ _ Hp Hle).
      pose proof (split_shift_fits _ _ E2) as Hfit.
      set (shift := round8 ((ch_cap c - (ch_len c + length d)) / 2)) in *.
      destruct (restore (ch_buf c) c (shift + length d) HI) as (nb & -> & _ & Ha & HLnb); [unfold ch_cap in *; lia|].
      set (c2 := mkChunk nb (ch_len c) (Some shift)).
      assert (Hcap2: ch_cap c2 = ch_cap c) by exact HLnb.
      destruct (insert_finish c2 shift d ltac:(lia) ltac:(cbn [ch_len c2]; lia)) as (c' & F & F2 & F3).
      exists 0%N, c'. split; [exact F|]. right. split; [reflexivity|]. split; [exact F2|].
      rewrite F3. f_equal. exact Ha.
    + destruct (grow_spec c 0 (length d) fail HI) as
          (rv1 & c1 & G & [(-> & -> & ->)|(-> & HI1 & Ha & Hl & Hhw & Hroom)]); rewrite G.
      * cbn. eexists _, _. split; [reflexivity|]. left; auto.
      * cbn [N.eqb negb]. destruct HI1 as (o1 & Hp1 & Hlt1 & Hle1).
        rewrite Hp1. unfold coff in Hhw. rewrite Hp1 in Hhw.
        apply Nat.leb_le in Hhw as Hhw'. rewrite Hhw'.
        destruct (insert_finish c1 (o1 - length d) d ltac:(lia) ltac:(lia)) as (c' & F & F2 & F3).
        exists 0%N, c'. split; [exact F|]. right. split; [reflexivity|]. split; [exact F2|].
        rewrite F3. f_equal. rewrite <- Ha. unfold cabs, coff. rewrite Hp1.
        f_equal. f_equal. lia.
Qed.

Lemma insert_spec c d fail rv c' :
  CInv c -> chunk_insert true c d fail = Some (rv, c') ->
  (rv = ENOMEM /\ c' = c /\ fail = true) \/
  (rv = 0%N /\ CInv c' /\ cabs c' = d ++ cabs c).
Proof. intros HI. exact (spec_of_total _ _ rv c' (insert_ok c d fail HI)). Qed.

Lemma insert_total c d fail : CInv c -> exists r, chunk_insert true c d fail = Some r.
Proof. intros HI. exact (some_of_total _ _ (insert_ok c d fail HI)). Qed.

Lemma trim_spec c n :
  CInv c ->
  let r := chunk_trim c n in
  CInv (snd r) /\
  (if ch_len c <? n then fst r = EINVAL /\ snd r = c
   else fst r = 0%N /\ cabs (snd r) = skipn n (cabs c)).
Proof.
  intros HI. pose proof HI as (off & Hp & Hlt & Hle). unfold chunk_trim.
  destruct (ch_len c <? n) eqn:E; cbn [fst snd]; [auto|].
  apply Nat.ltb_ge in E. split.
  - destruct (ch_len c - n =? 0) eqn:E0.
    + exists off. unfold ch_cap; cbn. unfold ch_cap in *. repeat split; auto; lia.
    + apply Nat.eqb_neq in E0. exists (off + n). rewrite Hp. unfold ch_cap in *; cbn. repeat split; lia.
  - split; [reflexivity|]. unfold cabs, coff; cbn [ch_ptr ch_buf ch_len]. rewrite Hp.
    destruct (ch_len c - n =? 0) eqn:E0.
    + apply Nat.eqb_eq in E0. rewrite E0. cbn [firstn].
      symmetry. apply skipn_all2. rewrite firstn_length. lia.
    + cbn [option_map]. rewrite skipn_firstn_comm. rewrite skipn_skipn'. now rewrite (Nat.add_comm n off).
Qed.

Lemma chop_spec c n :
  CInv c ->
  let r := chunk_chop c n in
  CInv (snd r) /\
  (if ch_len c <? n then fst r = EINVAL /\ snd r = c
   else fst r = 0%N /\ cabs (snd r) = firstn (ch_len c - n) (cabs c)).
Proof.
  intros HI. pose proof HI as (off & Hp & Hlt & Hle). unfold chunk_chop.
  destruct (ch_len c <? n) eqn:E; cbn [fst snd]; [auto|].
  apply Nat.ltb_ge in E. split.
  - exists off. unfold ch_cap in *; cbn. repeat split; auto; lia.
  - split; [reflexivity|]. unfold cabs, coff; cbn [ch_ptr ch_buf ch_len].
    rewrite firstn_firstn. f_equal. lia.
Qed.

Lemma clear_spec c : CInv c -> CInv (chunk_clear c) /\ cabs (chunk_clear c) = [].
Proof.
  intros (off & Hp & Hlt & Hle). split.
  - exists off. unfold ch_cap in *; cbn. repeat split; auto; lia.
  - reflexivity.
Qed.

Lemma dup_spec c : CInv c ->
  exists c', chunk_dup c false = Some (0%N, c') /\ CInv c' /\ cabs c' = cabs c /\
             ch_cap c' = ch_cap c /\ coff c' = coff c.
Proof.
  intros HI. pose proof HI as (off & Hp & Hlt & Hle). unfold chunk_dup. rewrite Hp.
  destruct (ch_len c =? 0) eqn:E0.
  - apply Nat.eqb_eq in E0. eexists; split; [reflexivity|].
    unfold CInv, cabs, coff, ch_cap; cbn [ch_ptr ch_buf ch_len]. rewrite zeros_length, Hp, E0.
    repeat split; auto. exists off. unfold ch_cap in *. repeat split; auto; lia.
  - rewrite (sub_cabs _ _ Hp Hle).
    destruct (restore (zeros (ch_cap c)) c off HI) as (nb & -> & HI' & Ha & HN); [now rewrite zeros_length|].
    rewrite zeros_length in HI', HN. specialize (HI' Hlt).
    eexists; split; [reflexivity|]. split; [exact HI'|]. split; [exact Ha|]. split; [exact HN|].
    unfold coff; cbn [ch_ptr]. now rewrite Hp.
Qed.

Lemma grow0_spec newsz hw :
  chunk_grow chunk0 newsz hw false = Some (0%N, mkChunk (zeros (newsz + hw)) 0 (Some hw)).
Proof.
  unfold chunk_grow, ptr_inside, chunk0, ch_cap; cbn [ch_ptr ch_buf ch_len length].
  rewrite Nat.max_0_r. reflexivity.
Qed.

Lemma alloc_spec sz :
  exists m, msg_alloc sz false false = Some (0%N, Some m) /\ Inv m /\
            abs m = ([], zeros sz) /\ sz <= msg_capacity m.
Proof.
  unfold msg_alloc. cbn [negb].
  set (pow2 := (1024 <=? sz) && (N.land (N.of_nat sz) (N.of_nat sz - 1) =? 0)%N).
  assert (G: exists hw tot, (hw = 0 \/ hw = 32) /\ hw + sz <= tot /\ (hw < tot) /\
     (if pow2 then chunk_grow chunk0 sz 0 false else chunk_grow chunk0 (sz + 32) 32 false)
     = Some (0%N, mkChunk (zeros tot) 0 (Some hw))).
  { destruct pow2 eqn:P.
    - exists 0, (sz + 0). rewrite grow0_spec. repeat split; auto; try lia.
      apply andb_true_iff in P as [P _]. apply Nat.leb_le in P. lia.
    - exists 32, (sz + 32 + 32). rewrite grow0_spec. repeat split; auto; lia. }
  destruct G as (hw & tot & Hhw & Htot & Hlt & ->). cbn [N.eqb negb].
  (* the store is all zeros and append(NULL) writes nothing: it only sets the length *)
  assert (A: chunk_append (mkChunk (zeros tot) 0 (Some hw)) None sz false
             = Some (0%N, mkChunk (zeros tot) sz (Some hw))).
  { unfold chunk_append. destruct (sz =? 0) eqn:E0; [apply Nat.eqb_eq in E0; now subst sz|].
    unfold chunk_grow. rewrite (ptr_inside_inv (mkChunk (zeros tot) 0 (Some hw)) hw eq_refl) by (unfold ch_cap; cbn; rewrite zeros_length; lia).
    unfold ch_cap; cbn [ch_len ch_buf]. rewrite zeros_length, Nat.add_0_r, Nat.max_0_r.
    assert (E: (sz + Nat.max 0 hw <=? tot) && (Nat.max 0 hw <=? hw) = true)
      by (apply andb_true_iff; split; apply Nat.leb_le; lia).
    rewrite E. cbn [N.eqb negb ch_ptr ch_len ch_buf]. rewrite zeros_length.
    assert (E3: hw + 0 + sz <=? tot = true) by (apply Nat.leb_le; lia). now rewrite E3. }
  rewrite A. eexists; split; [reflexivity|].
  unfold Inv, abs, cabs, coff, msg_capacity, ch_cap. cbn [m_hdr m_body ch_ptr ch_buf ch_len length].
  rewrite zeros_length. repeat split; try lia.
  - exists hw. unfold ch_cap. cbn [ch_ptr ch_buf ch_len]. rewrite zeros_length. repeat split; lia.
  - f_equal. unfold zeros. rewrite skipn_repeat', firstn_repeat'. f_equal. lia.
Qed.

Lemma msg_body_abs m : Inv m -> msg_body m = Some (snd (abs m)).
Proof.
  intros [(off & Hp & Hlt & Hle) _]. unfold msg_body. rewrite Hp. cbn [abs snd].
  now apply sub_cabs.
Qed.

Lemma cap_ge_len m : Inv m -> msg_len m <= msg_capacity m.
Proof.
  intros [(off & Hp & Hlt & Hle) _]. unfold msg_len, msg_capacity. rewrite Hp. lia.
Qed.

Definition step_ok (m : msg) (o : op) (fail : bool) (rv : N) (v : option N) (m' : msg) : Prop :=
  Inv m' /\ ((rv = ENOMEM /\ v = None /\ m' = m /\ fail = true) \/ spec_rel (abs m) o rv v (abs m')).

Lemma with_body_inv m r rv v m' :
  with_body m r = Some (rv, v, m') ->
  exists c, r = Some (rv, c) /\ v = None /\ m' = mkMsg (m_hdr m) c.
Proof.
  unfold with_body. destruct r as [[rv0 c]|]; [|discriminate].
  intros H; inversion H; subst. eauto.
Qed.

Lemma same_msg m : mkMsg (m_hdr m) (m_body m) = m.
Proof. now destruct m. Qed.

(* nng_msg_append_u32 and its kin append / insert the big-endian bytes of the value *)
Definition plain (o : op) : op :=
  match o with
  | AppendU k v => Append (be_enc k v) | InsertU k v => Insert (be_enc k v)
  | HAppendU k v => HAppend (be_enc k v) | HInsertU k v => HInsert (be_enc k v)
  | _ => o
  end.
Lemma step_plain fx m o fail : msg_step fx m (plain o) fail = msg_step fx m o fail.
Proof. destruct o; cbn [plain msg_step]; rewrite ?be_enc_length; reflexivity. Qed.
Lemma spec_plain s o rv v s' : spec_rel s (plain o) rv v s' = spec_rel s o rv v s'.
Proof. destruct o, s; reflexivity. Qed.

Theorem step_refines m o fail rv v m' :
  Inv m -> msg_step true m o fail = Some (rv, v, m') -> step_ok m o fail rv v m'.
Proof.
  intros [HC HH] H. unfold step_ok, Inv. rewrite <- step_plain in H. rewrite <- spec_plain.
  assert (HLc: length (cabs (m_body m)) = ch_len (m_body m)) by now apply cabs_length.
  (* after [plain] the four _U append/insert forms cannot occur *)
  assert (NU: match plain o with AppendU _ _ | InsertU _ _ | HAppendU _ _ | HInsertU _ _ => False | _ => True end)
    by (destruct o; exact I).
  destruct (plain o) as [d|d|n|n|d|d|n|n|n|n| | |k u|k u|k|k|k u|k u|k|k]; try contradiction;
    cbn [msg_step] in H; unfold spec_rel, abs; cbn [spec_step fst snd m_hdr m_body].
  - apply with_body_inv in H as (c & H & -> & ->). cbn [m_hdr m_body].
    destruct (spec_of_total _ _ _ _ (append_spec _ (Some d) _ fail HC ltac:(now intros x [= <-])) H)
      as [(-> & -> & ->)|(-> & HI & t & _ & Ht & Ha)].
    + rewrite same_msg. split; [auto|]. left. repeat split; reflexivity.
    + rewrite Ha, (Ht d eq_refl). auto.
  - apply with_body_inv in H as (c & H & -> & ->). cbn [m_hdr m_body].
    destruct (insert_spec _ _ _ _ _ HC H) as [(-> & -> & ->)|(-> & HI & Ha)].
    + rewrite same_msg. split; [auto|]. left. repeat split; reflexivity.
    + rewrite Ha. auto.
  - inversion H; subst; clear H. cbn [m_hdr m_body].
    destruct (trim_spec _ n HC) as [HI T]. rewrite HLc.
    destruct (ch_len (m_body m) <? n); destruct T as [-> T]; split; auto; right.
    + now rewrite T.
    + now rewrite T.
  - inversion H; subst; clear H. cbn [m_hdr m_body].
    destruct (chop_spec _ n HC) as [HI T]. rewrite HLc.
    destruct (ch_len (m_body m) <? n); destruct T as [-> T]; split; auto; right.
    + now rewrite T.
    + rewrite T. unfold droplast. now rewrite HLc.
  - inversion H; subst; clear H. unfold hdr_append.
    destruct (HDR_CAP <? length d + length (m_hdr m)) eqn:E; cbn [fst snd m_hdr m_body]; split; auto.
    apply Nat.ltb_ge in E. split; auto. rewrite app_length. lia.
  - inversion H; subst; clear H. unfold hdr_insert.
    destruct (HDR_CAP <? length d + length (m_hdr m)) eqn:E; cbn [fst snd m_hdr m_body]; split; auto.
    apply Nat.ltb_ge in E. split; auto. rewrite app_length. lia.
  - destruct (length (m_hdr m) <? n) eqn:E; inversion H; subst; clear H; cbn [m_hdr m_body]; split; auto.
    split; auto. rewrite skipn_length. lia.
  - destruct (length (m_hdr m) <? n) eqn:E; inversion H; subst; clear H; cbn [m_hdr m_body]; split; auto.
    split; auto. rewrite firstn_length. lia.
  - rewrite HLc. destruct (ch_len (m_body m) <? n) eqn:E.
    + apply with_body_inv in H as (c & H & -> & ->). cbn [m_hdr m_body].
      destruct (spec_of_total _ _ _ _ (append_spec _ None _ fail HC ltac:(discriminate)) H)
        as [(-> & -> & ->)|(-> & HI & t & Ht & _ & Ha)].
      * rewrite same_msg. split; [auto|]. left. repeat split; reflexivity.
      * split; auto. right. repeat split; auto. exists t. auto.
    + inversion H; subst; clear H. cbn [m_hdr m_body fst snd].
      apply Nat.ltb_ge in E.
      destruct (chop_spec _ (ch_len (m_body m) - n) HC) as [HI T].
      assert (E2: ch_len (m_body m) <? ch_len (m_body m) - n = false) by (apply Nat.ltb_ge; lia).
      rewrite E2 in T. destruct T as [_ T]. split; auto. right. rewrite T.
      do 3 f_equal. lia.
  - apply with_body_inv in H as (c & H & -> & ->). cbn [m_hdr m_body].
    destruct (spec_of_total _ _ _ _ (grow_spec _ n 0 fail HC) H) as [(-> & -> & ->)|(-> & HI & Ha & _)].
    + rewrite same_msg. split; [auto|]. left. repeat split; reflexivity.
    + rewrite Ha. auto.
  - inversion H; subst; clear H. cbn [m_hdr m_body fst snd].
    destruct (clear_spec _ HC) as [HI T]. rewrite T. auto.
  - inversion H; subst; clear H. cbn [m_hdr m_body]. split; auto. split; auto. cbn. unfold HDR_CAP. lia.
  - unfold msg_len in H. rewrite HLc.
    destruct (ch_len (m_body m) <? k) eqn:E.
    + inversion H; subst; clear H. split; auto.
    + rewrite (msg_body_abs m (conj HC HH)) in H. cbn [abs snd] in H.
      inversion H; subst; clear H. cbn [m_hdr m_body].
      destruct (trim_spec _ k HC) as [HI T]. rewrite E in T. destruct T as [_ T].
      split; auto. right. now rewrite T.
  - unfold msg_len in H. rewrite HLc.
    destruct (ch_len (m_body m) <? k) eqn:E.
    + inversion H; subst; clear H. split; auto.
    + rewrite (msg_body_abs m (conj HC HH)) in H. cbn [abs snd] in H.
      inversion H; subst; clear H. cbn [m_hdr m_body].
      destruct (chop_spec _ k HC) as [HI T]. rewrite E in T. destruct T as [_ T].
      split; auto. right. rewrite T. unfold lastn, droplast. now rewrite HLc.
  - destruct (length (m_hdr m) <? k) eqn:E; inversion H; subst; clear H; cbn [m_hdr m_body]; split; auto.
    split; auto. rewrite skipn_length. lia.
  - destruct (length (m_hdr m) <? k) eqn:E; inversion H; subst; clear H; cbn [m_hdr m_body]; split; auto.
    split; auto. rewrite firstn_length. lia.
Qed.

Theorem step_total m o fail : Inv m -> exists r, msg_step true m o fail = Some r.
Proof.
  intros [HC HH].
  assert (WB: forall r, (exists x, r = Some x) -> exists y, with_body m r = Some y).
  { intros r [[rv c] ->]. cbn. eauto. }
  destruct o; cbn [msg_step]; eauto.
  - apply WB, (some_of_total _ _ (append_spec _ (Some d) _ fail HC ltac:(now intros x [= <-]))).
  - apply WB. apply insert_total; auto.
  - destruct (_ <? _); eauto.
  - destruct (_ <? _); eauto.
  - destruct (_ <? _); eauto. apply WB, (some_of_total _ _ (append_spec _ None _ fail HC ltac:(discriminate))).
  - apply WB, (some_of_total _ _ (grow_spec _ _ _ fail HC)).
  - apply WB, (some_of_total _ _ (append_spec _ (Some (be_enc k v)) k fail HC ltac:(intros x [= <-]; apply be_enc_length))).
  - apply WB. apply insert_total; auto.
  - destruct (_ <? _); eauto. rewrite (msg_body_abs m (conj HC HH)). eauto.
  - destruct (_ <? _); eauto. rewrite (msg_body_abs m (conj HC HH)). eauto.
  - destruct (_ <? _); eauto.
  - destruct (_ <? _); eauto.
Qed.

Fixpoint run (m : msg) (ops : list (op * bool)) : option (list (N * option N) * msg) :=
  match ops with
  | [] => Some ([], m)
  | (o, f) :: rest =>
      match msg_step true m o f with
      | None => None
      | Some (rv, v, m1) =>
          match run m1 rest with
          | None => None
          | Some (outs, m2) => Some ((rv, v) :: outs, m2)
          end
      end
  end.

(* the spec's view of a history: each step is the string operation, or -- only
   where an allocation was made to fail -- ENOMEM with both strings unchanged *)
Inductive spec_run : smsg -> list (op * bool) -> list (N * option N) -> smsg -> Prop :=
| sr_nil s : spec_run s [] [] s
| sr_step s o f rv v s1 rest outs s2 :
    spec_rel s o rv v s1 -> spec_run s1 rest outs s2 ->
    spec_run s ((o, f) :: rest) ((rv, v) :: outs) s2
| sr_enomem s o rest outs s2 :
    spec_run s rest outs s2 ->
    spec_run s ((o, true) :: rest) ((ENOMEM, None) :: outs) s2.

Theorem run_refines ops : forall m, Inv m ->
  exists outs m', run m ops = Some (outs, m') /\ Inv m' /\ spec_run (abs m) ops outs (abs m').
Proof.
  induction ops as [|[o f] rest IH]; intros m HI.
  - exists [], m. split; [reflexivity|]. split; [exact HI|]. apply sr_nil.
  - cbn [run]. destruct (step_total m o f HI) as [[[rv v] m1] S]. rewrite S.
    destruct (step_refines _ _ _ _ _ _ HI S) as [HI1 R].
    destruct (IH m1 HI1) as (outs & m2 & R2 & HI2 & SR). rewrite R2.
    exists ((rv, v) :: outs), m2. split; [reflexivity|]. split; [exact HI2|].
    destruct R as [(-> & -> & -> & ->)|R].
    + apply sr_enomem. exact SR.
    + eapply sr_step; eauto.
Qed.

(* two operations in a row, neither a Realloc, the first one successful: the second one
   is the spec's step on the spec's state *)
Lemma then_step m o1 m1 o2 : Inv m -> msg_step true m o1 false = Some (0%N, None, m1) ->
  (forall n, o1 <> Realloc n) -> (forall n, o2 <> Realloc n) ->
  exists rv v m2, msg_step true m1 o2 false = Some (rv, v, m2) /\ Inv m2 /\
    (rv, v, abs m2) = spec_step (snd (spec_step (abs m) o1)) o2.
Proof.
  intros HI S1 N1 N2. destruct (step_refines _ _ _ _ _ _ HI S1) as [HI1 [(E & _)|R1]]; [discriminate|].
  assert (A1: abs m1 = snd (spec_step (abs m) o1)) by (destruct o1; try (now rewrite <- R1); now elim (N1 n)).
  destruct (step_total m1 o2 false HI1) as [[[rv v] m2] S2]. exists rv, v, m2. split; [exact S2|].
  destruct (step_refines _ _ _ _ _ _ HI1 S2) as [HI2 [(_ & _ & _ & F)|R2]]; [discriminate|].
  split; [exact HI2|]. rewrite <- A1. destruct o2; try exact R2. now elim (N2 n).
Qed.

Theorem insert_trim_u m k u m1 :
  Inv m -> msg_step true m (InsertU k u) false = Some (0%N, None, m1) ->
  exists m2, msg_step true m1 (TrimU k) false = Some (0%N, Some (u mod 256 ^ N.of_nat k)%N, m2)
             /\ abs m2 = abs m /\ Inv m2.
Proof.
  intros HI S1.
  destruct (then_step m _ m1 (TrimU k) HI S1 ltac:(discriminate) ltac:(discriminate)) as (rv & v & m2 & S2 & HI2 & R2).
  unfold abs in R2 at 2. cbn [spec_step snd] in R2.
  match type of R2 with context [Nat.ltb ?a ?b] =>
    assert (E: Nat.ltb a b = false) by (apply Nat.ltb_ge; rewrite app_length, be_enc_length; lia);
    rewrite E in R2 end.
  rewrite firstn_app_exact in R2 by now rewrite be_enc_length.
  rewrite skipn_app_exact in R2 by now rewrite be_enc_length.
  rewrite be_dec_enc in R2. inversion R2; subst.
  exists m2. rewrite S2. split; [reflexivity|]. split; [unfold abs; congruence|exact HI2].
Qed.

Theorem append_chop_u m k u m1 :
  Inv m -> msg_step true m (AppendU k u) false = Some (0%N, None, m1) ->
  exists m2, msg_step true m1 (ChopU k) false = Some (0%N, Some (u mod 256 ^ N.of_nat k)%N, m2)
             /\ abs m2 = abs m /\ Inv m2.
Proof.
  intros HI S1.
  destruct (then_step m _ m1 (ChopU k) HI S1 ltac:(discriminate) ltac:(discriminate)) as (rv & v & m2 & S2 & HI2 & R2).
  unfold abs in R2 at 2. cbn [spec_step snd] in R2.
  match type of R2 with context [Nat.ltb ?a ?b] =>
    assert (E: Nat.ltb a b = false) by (apply Nat.ltb_ge; rewrite app_length, be_enc_length; lia);
    rewrite E in R2 end. unfold lastn, droplast in R2.
  rewrite app_length, be_enc_length in R2.
  replace (length (cabs (m_body m)) + k - k) with (length (cabs (m_body m))) in R2 by lia.
  rewrite skipn_app_exact in R2 by reflexivity.
  rewrite firstn_app_exact in R2 by reflexivity.
  rewrite be_dec_enc in R2. inversion R2; subst.
  exists m2. rewrite S2. split; [reflexivity|]. split; [unfold abs; congruence|exact HI2].
Qed.

Theorem msg_dup_spec m : Inv m ->
  exists m', msg_dup m false false = Some (0%N, Some m') /\ Inv m' /\ abs m' = abs m /\
             msg_capacity m' = msg_capacity m.
Proof.
  intros [HC HH]. unfold msg_dup. destruct (dup_spec _ HC) as (c' & D & HI & Ha & Hcap & Hoff).
  rewrite D. cbn. eexists; split; [reflexivity|]. repeat split; auto.
  - unfold abs; cbn. now rewrite Ha.
  - unfold msg_capacity; cbn. unfold coff in Hoff.
    destruct (ch_ptr c'), (ch_ptr (m_body m)); rewrite Hcap; lia.
Qed.

(* the pinned tree's insert (memmove to ch_buf+shift) loses data *)
Definition insert_witness : option (N * option N * msg) :=
  match msg_alloc 8 false false with
  | Some (_, Some m0) =>
      match msg_step false m0 (Chop 8) false with
      | Some (_, _, m1) =>
          match msg_step false m1 (Append [65;66;67;68;69;70;71;72]%N) false with
          | Some (_, _, m2) => msg_step false m2 (Insert (repeat 120%N 40)) false
          | None => None end
      | None => None end
  | _ => None
  end.

Theorem insert_unfixed_refuted :
  exists m3, insert_witness = Some (0%N, None, m3) /\
             snd (abs m3) <> repeat 120%N 40 ++ [65;66;67;68;69;70;71;72]%N.
Proof.
  eexists. split. { vm_compute. reflexivity. } vm_compute. discriminate.
Qed.
