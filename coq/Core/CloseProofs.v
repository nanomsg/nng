(* CloseProofs: lemmas about Core/CloseModel.v (property C10).
   Witnesses of the statements that are false of the model in its pinned form (each replayed on the
   real library, findings/c10/race*.c) and of the two statements that are false of the repaired form
   as well (pipe handles; a third concurrent closer); then list / update lemmas.
   Termination and the safety invariants of the repaired model are in CloseTerm.v and CloseSafe.v. *)
From Coq Require Import List Arith NArith Bool Lia.
Import ListNotations.
From NngV Require Import Core.CloseModel.

Definition runs (k : nat) (n : nat) : list label := repeat (LRun k) n.
Definition reaps (n : nat) : list label := repeat LReap n.

Definition is_none {A} (o : option A) : bool := match o with None => true | Some _ => false end.
Definition sock_ret (role : nat) (s : st) : bool :=
  existsb (fun r => match r with (USockClose, rv, ro) => N.eqb rv C_OK && Nat.eqb ro role | _ => false end) (rets s).

Lemma sock_ret_In role s : sock_ret role s = true -> In (USockClose, C_OK, role) (rets s).
Proof.
  unfold sock_ret; rewrite existsb_exists; intros [[[u rv] ro] [Hin H]].
  destruct u; try discriminate H. apply andb_prop in H as [H1 H2].
  apply N.eqb_eq in H1; apply Nat.eqb_eq in H2; subst; auto.
Qed.

(* no internal step of the model is enabled *)
Definition no_internal_step (fx : fixes) (s : st) : Prop :=
  (forall k, step fx s (LRun k) = None) /\ step fx s LReap = None /\
  (forall e rv, internal s (LEpCb e rv) = true -> step fx s (LEpCb e rv) = None) /\
  (forall p, internal s (LPipeCb p) = true -> step fx s (LPipeCb p) = None).

Definition no_step_b (fx : fixes) (s : st) : bool :=
  forallb (fun k => is_none (step fx s (LRun k))) (seq 0 (length (threads s))) &&
  is_none (step fx s LReap) &&
  forallb (fun x => negb (e_tranclosed x) || (e_busy x =? 0)) (eps s) &&
  forallb (fun x => negb (p_tranclosed x) || (p_busy x =? 0)) (pipes s).

Lemma forallb_nth {A} (f : A -> bool) l i x : forallb f l = true -> nth_error l i = Some x -> f x = true.
Proof. intros H E; rewrite forallb_forall in H; apply H; eapply nth_error_In; eauto. Qed.

Lemma no_step_b_sound fx s : no_step_b fx s = true -> no_internal_step fx s.
Proof.
  unfold no_step_b; intros H.
  apply andb_prop in H as [H H4]; apply andb_prop in H as [H H3]; apply andb_prop in H as [H1 H2].
  split; [|split; [|split]].
  - intros k. destruct (lt_dec k (length (threads s))) as [Hk|Hk].
    + rewrite forallb_forall in H1. specialize (H1 k). rewrite in_seq in H1.
      destruct (step fx s (LRun k)); auto. assert (X: false = true) by (apply H1; lia). discriminate X.
    + simpl. destruct (nth_error (threads s) k) eqn:E; auto.
      exfalso; apply Hk; apply nth_error_Some; congruence.
  - destruct (step fx s LReap); auto; discriminate H2.
  - intros e rv Hi; simpl in *. destruct (nth_error (eps s) e) eqn:E; auto.
    pose proof (forallb_nth _ _ _ _ H3 E) as Hb; simpl in Hb. rewrite Hi in Hb; simpl in Hb.
    apply Nat.eqb_eq in Hb; rewrite Hb; auto.
  - intros p Hi; simpl in *. destruct (nth_error (pipes s) p) eqn:E; auto.
    pose proof (forallb_nth _ _ _ _ H4 E) as Hb; simpl in Hb. rewrite Hi in Hb; simpl in Hb.
    apply Nat.eqb_eq in Hb; rewrite Hb; auto.
Qed.

(* Each witness replays its run by evaluation; a repair the run never consults stays a variable. *)

(* defect 1 (fx_ephold = false): nng_dialer_close racing nng_socket_close -- sock_shutdown calls
   nni_dialer_close without a hold; its already-closed branch releases: the count reaches zero while
   the first closer is still at work, the next release trips NNI_ASSERT(d_ref > 0). *)
Definition w_ephold : list label :=
  [LSpawn (UEpCreate true)] ++ runs 0 5 ++ [LSpawn (UEpClose 0)] ++ runs 1 2 ++ [LSpawn USockClose] ++ runs 2 11.

Lemma ephold_refuted : forall b c d e g,
  exists s, run (mkFixes false b c d e g) (init PhProto false false) w_ephold = Some s /\ bad s = [B_REF_UNDERFLOW].
Proof. intros b c d e g. destruct b; eexists; (split; [vm_compute; reflexivity|reflexivity]). Qed.

(* defect 2 (fx_epid = false): nng_dialer_create racing nng_socket_close -- the endpoint is on the
   socket's list before it has an id; shutdown closes it, the id is allocated afterwards and
   survives the endpoint: a later find returns the destroyed object. *)
Definition w_epid : list label :=
  [LSpawn (UEpCreate true); LSpawn USockClose] ++ runs 0 2 ++ runs 1 4 ++ runs 0 2 ++ runs 1 6 ++ reaps 4 ++
  [LSpawn (UGetEp 0); LRun 2].

Lemma epid_refuted : forall a c d e g,
  exists s, run (mkFixes a false c d e g) (init PhProto false false) w_epid = Some s /\ bad s = [B_FIND_FREED].
Proof. intros a c d e g. eexists; split; [vm_compute; reflexivity|reflexivity]. Qed.

(* defect 3 (fx_ctxfini = false): nng_ctx_close racing nng_socket_close -- the context leaves s_ctxs
   before ctx_fini has run; the socket's closer proceeds, returns with the context's receive still
   pending, and ctx_fini then runs on the destroyed socket. *)
Definition w_ctxfini : list label :=
  [LSpawn UCtxOpen] ++ runs 0 6 ++ [LSpawn (USubmit (Some 0) 1%N true)] ++ runs 1 4 ++
  [LSpawn (UCtxClose 0); LSpawn USockClose] ++ runs 2 3 ++ runs 3 13.

Lemma ctxfini_refuted : forall a b d e g,
  exists s, run (mkFixes a b false d e g) (init PhFini true true) w_ctxfini = Some s /\
            In (USockClose, C_OK, R_DESTROY) (rets s) /\ bad s = [] /\
            (exists x, nth_error (ctxs s) 0 = Some x /\ c_pend x = [1%N]) /\
            (exists s', step (mkFixes a b false d e g) s (LRun 2) = Some s' /\ bad s' = [B_SOCK_FREED]).
Proof.
  intros a b d e g. eexists; split; [vm_compute; reflexivity|].
  split; [apply sock_ret_In; reflexivity|]. split; [reflexivity|].
  split; eexists; (split; [reflexivity|reflexivity]).
Qed.

(* defect 4 (fx_lateop = false), protocols whose sock_fini does not finalize a master context and
   that have no closed latch (pair0, pair1, push0, pull0, bus0): an operation that obtained its
   reference before close began reaches the protocol after the protocol's sock_close; it is parked,
   the socket is destroyed, nothing will ever complete it (no step of the model is enabled). *)
Definition w_lateop : list label :=
  [LSpawn (USubmit None 1%N true); LSpawn USockClose] ++ runs 0 1 ++ runs 1 9 ++ runs 0 3 ++ runs 1 4.

Lemma lateop_refuted : forall a b c e g,
  exists s, run (mkFixes a b c false e g) (init PhProto false false) w_lateop = Some s /\
            In (USockClose, C_OK, R_DESTROY) (rets s) /\ k_freed (sk s) = true /\
            k_pend (sk s) = [1%N] /\ done s = [] /\ no_internal_step (mkFixes a b c false e g) s.
Proof.
  intros a b c e g. eexists; split; [vm_compute; reflexivity|].
  split; [apply sock_ret_In; reflexivity|]. repeat (split; [reflexivity|]).
  apply no_step_b_sound; reflexivity.
Qed.

(* defect 5 (fx_ctxopen = false): nng_ctx_open racing nng_socket_close -- the context is created
   after sock_shutdown's loop over the contexts, then only released: it stays on s_ctxs unclosed and
   unreferenced, the closer waits for the list to empty: no step is enabled, close never returns. *)
Definition w_ctxopen : list label :=
  [LSpawn UCtxOpen; LSpawn USockClose] ++ runs 0 1 ++ runs 1 6 ++ runs 0 5.

Lemma ctxopen_refuted : forall a b c d g,
  exists s, run (mkFixes a b c d false g) (init PhFini true true) w_ctxopen = Some s /\
            (exists r, nth_error (threads s) 1 = Some (AWaitCtxs :: r)) /\
            bad s = [] /\ no_internal_step (mkFixes a b c d false g) s.
Proof.
  intros a b c d g. eexists; split; [vm_compute; reflexivity|].
  split; [eexists; reflexivity|]. split; [reflexivity|]. apply no_step_b_sound; reflexivity.
Qed.

(* fx_ctxmark = false: sock_shutdown marks only the idle contexts closed.  A context call of another thread
   sits between nni_ctx_find (c_ref++) and nni_ctx_rele when the closer walks s_ctxs: the context is left
   unmarked, its last release does nothing, it stays on s_ctxs and the closer waits for ever. *)
Definition w_ctxmark : list label :=
  [LSpawn UCtxOpen] ++ runs 0 6 ++ [LSpawn (UGetCtx 0); LSpawn USockClose] ++ runs 1 1 ++ runs 2 6 ++ runs 1 2.

Lemma ctxmark_refuted : forall a b c d e,
  exists s, run (mkFixes a b c d e false) (init PhFini true true) w_ctxmark = Some s /\
            (exists r, nth_error (threads s) 2 = Some (AWaitCtxs :: r)) /\
            bad s = [] /\ no_internal_step (mkFixes a b c d e false) s /\ find_ctx s 0 = None.
Proof.
  intros a b c d e. eexists; split; [vm_compute; reflexivity|].
  split; [eexists; reflexivity|]. split; [reflexivity|]. split; [apply no_step_b_sound; reflexivity|reflexivity].
Qed.

(* pipes, every repair applied: nng_pipe_close only marks the pipe and queues it for the reaper; when
   it returns the id is still in the map (it is removed in pipe_reap after the REM_POST callback):
   a further call finds the -- still allocated, closed -- pipe. *)
Definition w_pipe : list label :=
  [LSpawn (UEpCreate false)] ++ runs 0 5 ++ [LPipeCreate 0; LRun 1; LSpawn (UPipeClose 0)] ++ runs 2 4.

Lemma pipe_handle_witness :
  exists s, run fixes_all (init PhProto false false) w_pipe = Some s /\
            (exists ro, In (UPipeClose 0, C_OK, ro) (rets s)) /\ find_pipe s 0 = None /\
            (exists x, nth_error (pipes s) 0 = Some x /\ p_closed x = true /\ p_freed x = false).
Proof.
  eexists; split; [vm_compute; reflexivity|].
  split; [eexists; simpl; auto|]. split; [reflexivity|]. eexists; repeat split; reflexivity.
Qed.

(* three concurrent closers, every repair applied: the third finds s_closing and s_closed set and
   returns 0 while the first has not closed the endpoints yet. *)
Definition w_late : list label :=
  [LSpawn (UEpCreate true)] ++ runs 0 5 ++ [LSpawn USockClose; LSpawn USockClose; LSpawn USockClose] ++
  runs 1 2 ++ runs 2 2 ++ [LRun 3; LRun 2] ++ runs 3 4.

Lemma late_closer_witness :
  exists s, run fixes_all (init PhProto false false) w_late = Some s /\
            In (USockClose, C_OK, R_LATE) (rets s) /\ find_ep s 0 = None /\ bad s = [] /\
            (exists x, nth_error (eps s) 0 = Some x /\ e_pub x = true).
Proof.
  eexists; split; [vm_compute; reflexivity|].
  split; [apply sock_ret_In; reflexivity|]. split; [reflexivity|]. split; [reflexivity|]. eexists; split; reflexivity.
Qed.

Lemma upd_length {A} (l : list A) i f : length (upd l i f) = length l.
Proof. revert i; induction l; intros [|i]; simpl; auto. Qed.

Lemma nth_upd_eq {A} (l : list A) i f x : nth_error l i = Some x -> nth_error (upd l i f) i = Some (f x).
Proof. revert i; induction l; intros [|i]; simpl; try discriminate; auto. intros H; injection H as ->; auto. Qed.

Lemma nth_upd_neq {A} (l : list A) i j f : i <> j -> nth_error (upd l i f) j = nth_error l j.
Proof. revert i j; induction l; intros [|i] [|j] H; simpl; auto; try congruence. Qed.

Lemma nth_upd_none {A} (l : list A) i f : nth_error l i = None -> upd l i f = l.
Proof. revert i; induction l; intros [|i]; simpl; auto; try discriminate. intros; f_equal; auto. Qed.

Lemma nth_upd {A} (l : list A) i j f :
  nth_error (upd l i f) j = if Nat.eq_dec i j then option_map f (nth_error l j) else nth_error l j.
Proof.
  destruct (Nat.eq_dec i j) as [->|]; [|apply nth_upd_neq; auto].
  destruct (nth_error l j) eqn:E; simpl; [eapply nth_upd_eq; eauto|].
  rewrite nth_upd_none; auto.
Qed.

Lemma Forall_upd {A} (P : A -> Prop) (l : list A) i f :
  (forall x, P x -> P (f x)) -> Forall P l -> Forall P (upd l i f).
Proof.
  intros Hf; revert i; induction l; intros [|i] H; simpl; auto; inversion H; subst; constructor; auto.
Qed.

Lemma Forall_app1 {A} (P : A -> Prop) (l : list A) x : Forall P l -> P x -> Forall P (l ++ [x]).
Proof. intros; apply Forall_app; split; auto. Qed.

Lemma Forall_nth {A} (P : A -> Prop) (l : list A) i x : Forall P l -> nth_error l i = Some x -> P x.
Proof. intros H E; eapply Forall_forall in H; eauto. eapply nth_error_In; eauto. Qed.

Definition sum {A} (f : A -> nat) (l : list A) : nat := fold_right (fun x a => f x + a) 0 l.

Lemma sum_app {A} (f : A -> nat) l1 l2 : sum f (l1 ++ l2) = sum f l1 + sum f l2.
Proof. induction l1; simpl; lia. Qed.

Lemma sum_upd {A} (g : A -> nat) (l : list A) i f x :
  nth_error l i = Some x -> sum g (upd l i f) + g x = sum g l + g (f x).
Proof. revert i; induction l; intros [|i]; simpl; try discriminate. intros H; injection H as ->; lia. intros H; specialize (IHl _ H); lia. Qed.

Lemma sum_upd_none {A} (g : A -> nat) (l : list A) i f : nth_error l i = None -> sum g (upd l i f) = sum g l.
Proof. intros; rewrite nth_upd_none; auto. Qed.

Lemma sum_le {A} (f g : A -> nat) l : (forall x, f x <= g x) -> sum f l <= sum g l.
Proof. intros H; induction l; simpl; auto. specialize (H a); lia. Qed.

Lemma sum_map {A B} (g : B -> nat) (h : A -> B) l : sum g (map h l) = sum (fun x => g (h x)) l.
Proof. induction l; simpl; auto. Qed.
