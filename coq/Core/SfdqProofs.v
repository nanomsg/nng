(* SfdqProofs: lemmas about Core/SfdqModel.v. *)
From Coq Require Import List Arith NArith Bool Lia.
From NngV Require Import Core.SfdqModel.
From NngV Require Base.ListX.
Import ListNotations.

Lemma set_nth_length : forall A (l : list A) i v, length (set_nth l i v) = length l.
Proof. induction l as [|x r IH]; intros [|i] v; simpl; auto. Qed.

Lemma nth_error_set_nth : forall A (l : list A) i v j,
  nth_error (set_nth l i v) j =
  if Nat.eqb j i then (if Nat.ltb i (length l) then Some v else None) else nth_error l j.
Proof.
  induction l as [|x r IH]; intros i v j.
  - simpl. destruct j; destruct (Nat.eqb _ i); reflexivity.
  - destruct i as [|i]; destruct j as [|j]; try reflexivity.
    simpl. rewrite IH. reflexivity.
Qed.


Lemma list_ext : forall A (a b : list A), (forall j, nth_error a j = nth_error b j) -> a = b.
Proof.
  induction a as [|x r IH]; intros [|y s] H; auto.
  - specialize (H 0). discriminate.
  - specialize (H 0). discriminate.
  - pose proof (H 0) as H0. simpl in H0. inversion H0; subst. f_equal. apply IH. intros j. apply (H (S j)).
Qed.

Lemma nth_error_tl : forall A (l : list A) j, nth_error (tl l) j = nth_error l (S j).
Proof. destruct l; intros; simpl; auto. destruct j; reflexivity. Qed.

Lemma firstn_set_nth_snoc : forall (q : list N) n v, n < length q -> firstn (S n) (set_nth q n v) = firstn n q ++ [v].
Proof.
  induction q as [|x r IH]; intros n v H; simpl in H; [lia|].
  destruct n as [|n]; simpl; [reflexivity|]. f_equal. apply IH. lia.
Qed.

Lemma shift_loop_fixed : forall n q i, 1 <= i -> i + n <= length q ->
  exists q', shift_loop true q i n = Some q' /\ length q' = length q /\
    forall j, nth_error q' j =
      if Nat.leb (i - 1) j && Nat.ltb j (i - 1 + n) then nth_error q (S j) else nth_error q j.
Proof.
  induction n as [|n IH]; intros q i Hi Hl.
  - exists q. split; [reflexivity|]. split; auto. intros j.
    destruct (Nat.leb_spec (i - 1) j); destruct (Nat.ltb_spec j (i - 1 + 0)); simpl; auto; lia.
  - simpl. destruct (nth_error q i) as [v|] eqn:E.
    2: { apply nth_error_None in E. lia. }
    destruct (IH (set_nth q (pred i) v) (S i)) as (q' & R & L & P).
    + lia.
    + rewrite set_nth_length. lia.
    + exists q'. split; [exact R|]. rewrite set_nth_length in L. split; [exact L|].
      intros j. rewrite P. rewrite !nth_error_set_nth.
      destruct (Nat.leb_spec (S i - 1) j); destruct (Nat.ltb_spec j (S i - 1 + n));
        destruct (Nat.leb_spec (i - 1) j); destruct (Nat.ltb_spec j (i - 1 + S n)); cbn [andb]; try lia.
      all: repeat match goal with
           | |- context [Nat.eqb ?a ?b] => destruct (Nat.eqb_spec a b)
           | |- context [Nat.ltb ?a ?b] => destruct (Nat.ltb_spec a b)
           end; try lia; try reflexivity.
      all: try (assert (X : S j = i) by lia; change (Some v = nth_error q (S j)); rewrite X; symmetry; exact E).
Qed.

Definition SfInv (cap : nat) (s : sfdl) : Prop :=
  length (sf_q s) = cap /\ sf_cnt s <= cap /\ sf_poison s = false.

Lemma start_conn_fixed : forall cap s a ok,
  SfInv cap s -> 0 < sf_cnt s ->
  exists x rest s',
    firstn (sf_cnt s) (sf_q s) = x :: rest /\
    start_conn true s a ok = (s', hand_out a x ok) /\
    SfInv cap s' /\ firstn (sf_cnt s') (sf_q s') = rest /\ sf_cnt s' = sf_cnt s - 1 /\
    sf_wait s' = sf_wait s /\ sf_closed s' = sf_closed s.
Proof.
  intros cap s a ok (L & C & P) Hc. unfold start_conn.
  destruct (sf_q s) as [|x r] eqn:Q; [simpl in L; lia|].
  simpl nth_error. unfold shift.
  destruct (shift_loop_fixed (sf_cnt s - 1) (x :: r) 1) as (q' & R & L' & N'); [lia|simpl in *; lia|].
  rewrite R. exists x, (tl (firstn (sf_cnt s) (x :: r))), (mkSfdl q' (sf_cnt s - 1) (sf_wait s) (sf_closed s) (sf_poison s)).
  split.
  { destruct (sf_cnt s); [lia|]. reflexivity. }
  split; [unfold hand_out; destruct ok; reflexivity|].
  split; [unfold SfInv; simpl; repeat split; try lia; auto|].
  split; [|simpl; auto].
  simpl. apply list_ext. intros j. rewrite ListX.nth_error_firstn', nth_error_tl, ListX.nth_error_firstn', N'.
  destruct (Nat.ltb_spec j (sf_cnt s - 1)); destruct (Nat.ltb_spec (S j) (sf_cnt s)); try lia; auto.
  destruct (Nat.leb_spec (1 - 1) j); destruct (Nat.ltb_spec j (1 - 1 + (sf_cnt s - 1))); simpl; try lia. reflexivity.
Qed.

Lemma sf_step_refines : forall cap s o s' outs,
  SfInv cap s -> sf_step true true cap s o = (s', outs) ->
  SfInv cap s' /\ sp_step cap (sf_abs s) o = (sf_abs s', outs).
Proof.
  intros cap s o s' outs I H. pose proof I as (L & C & P). unfold sf_step in H. rewrite P in H.
  destruct o as [fd ok|a ok|a rv|]; unfold sp_step, sf_abs; simpl.
  - destruct (sf_closed s) eqn:CL; [inversion H; subst; rewrite CL; auto|].
    assert (LF : length (firstn (sf_cnt s) (sf_q s)) = sf_cnt s) by (rewrite firstn_length; lia).
    rewrite LF.
    destruct (Nat.eqb_spec (sf_cnt s) cap) as [E|NE]; [inversion H; subst; rewrite CL; auto|].
    assert (Hlt : sf_cnt s < length (sf_q s)) by lia.
    pose proof (firstn_set_nth_snoc (sf_q s) (sf_cnt s) fd Hlt) as FS.
    simpl in H. destruct (sf_wait s) as [|a r] eqn:W.
    + inversion H; subst. cbn [sf_cnt sf_q sf_wait sf_closed]. rewrite FS. split.
      * unfold SfInv; simpl. rewrite set_nth_length. repeat split; auto; lia.
      * reflexivity.
    + set (s1 := mkSfdl (set_nth (sf_q s) (sf_cnt s) fd) (S (sf_cnt s)) r false false) in *.
      assert (I1 : SfInv cap s1) by (unfold SfInv, s1; simpl; rewrite set_nth_length; repeat split; auto; lia).
      destruct (start_conn_fixed cap s1 a ok I1) as (x & rest & s2 & F1 & SC & I2 & F2 & C2 & W2 & CL2); [simpl; lia|].
      rewrite SC in H. inversion H; subst s' outs. split; [exact I2|].
      unfold s1 in F1, W2, CL2. cbn [sf_cnt sf_q sf_wait sf_closed] in F1, W2, CL2.
      rewrite FS in F1. rewrite F1. rewrite F2, W2, CL2. reflexivity.
  - destruct (sf_closed s) eqn:CL; [inversion H; subst; rewrite CL; auto|].
    destruct (Nat.ltb_spec 0 (sf_cnt s)) as [Hc|Hc].
    + destruct (start_conn_fixed cap s a ok I Hc) as (x & rest & s2 & F1 & SC & I2 & F2 & C2 & W2 & CL2).
      rewrite SC in H. inversion H; subst s' outs. split; [exact I2|]. rewrite F1, F2, W2, CL2. try rewrite CL. reflexivity.
    + inversion H; subst. simpl. assert (Z0 : sf_cnt s = 0) by lia. rewrite Z0 in *. simpl. try rewrite CL. split; [unfold SfInv; simpl; repeat split; auto; lia|reflexivity].
  - destruct (existsb (Nat.eqb a) (sf_wait s)); inversion H; subst; simpl; (split; [unfold SfInv; simpl; repeat split; auto; lia|reflexivity]).
  - inversion H; subst. simpl. split; [unfold SfInv; simpl; repeat split; auto; lia|reflexivity].
Qed.

Lemma sfdl_init_inv : forall cap, SfInv cap (sfdl_init cap).
Proof. intros. unfold SfInv, sfdl_init; simpl. rewrite repeat_length. repeat split; auto; lia. Qed.

Lemma left_of_app : forall o a b, left_of (o, a ++ b) = left_of (o, a) ++ left_of (o, b).
Proof. intros. unfold left_of; simpl. apply flat_map_app. Qed.

Lemma flat_left_fail : forall (l : list nat) rv, flat_map left1 (map (fun a => SfFail a rv) l) = [].
Proof. induction l; simpl; auto. Qed.
Lemma flat_left_close : forall l, flat_map left1 (map SfCloseFd l) = l.
Proof. induction l; simpl; auto. f_equal. auto. Qed.

(* one step of the list queue: what came in is what left plus what is queued; a closed queue stays empty;
   no access is out of bounds *)
Lemma sp_step_facts : forall cap s o s' outs,
  sp_step cap s o = (s', outs) ->
  sp_q s ++ took (o, outs) = left_of (o, outs) ++ sp_q s' /\
  ((sp_closed s = true -> sp_q s = []) -> sp_closed s' = true -> sp_q s' = []) /\
  ~ In SfOob outs.
Proof.
  assert (HO : forall a x ok, ~ In SfOob (hand_out a x ok)).
  { intros a x ok X. unfold hand_out in X. destruct ok; simpl in X; intuition discriminate. }
  intros cap s o s' outs H. destruct o as [fd ok|a ok|a rv|]; unfold sp_step in H; unfold took, left_of; simpl.
  - destruct (sp_closed s) eqn:C; [|destruct (Nat.eqb (length (sp_q s)) cap)];
      try (injection H as <- <-; simpl; rewrite app_nil_r; intuition congruence).
    destruct (sp_wait s) as [|a r].
    + injection H as <- <-. simpl. split; [destruct (sp_q s ++ [fd]); reflexivity|]. intuition discriminate.
    + destruct (sp_q s ++ [fd]) as [|x q'] eqn:X; [destruct (sp_q s); discriminate|].
      injection H as <- <-. simpl. split; [|split; [intros _ Y; discriminate Y|]].
      * unfold hand_out. destruct ok; simpl; rewrite ?existsb_app; simpl; rewrite ?orb_true_r; simpl; auto.
      * intros Y. apply in_app_iff in Y. destruct Y as [Y|Y]; [exact (HO _ _ _ Y)|simpl in Y; intuition discriminate].
  - destruct (sp_closed s) eqn:C; [injection H as <- <-; simpl; rewrite app_nil_r; intuition discriminate|].
    destruct (sp_q s) as [|x q']; injection H as <- <-; simpl; (split; [|split; [intros _ Y; discriminate Y|]]); auto.
    unfold hand_out. destruct ok; simpl; rewrite app_nil_r; auto.
  - destruct (existsb (Nat.eqb a) (sp_wait s)); injection H as <- <-; simpl; rewrite app_nil_r; intuition discriminate.
  - injection H as <- <-. simpl. rewrite flat_map_app, flat_left_fail, flat_left_close, !app_nil_r.
    split; [reflexivity|split; [reflexivity|]]. intros X.
    apply in_app_iff in X. destruct X as [X|X]; apply in_map_iff in X; destruct X as (? & E & _); discriminate.
Qed.

Theorem sfdq_conservation : forall cap ops s tr,
  sf_run true true cap (sfdl_init cap) ops = (s, tr) ->
  flat_map took tr = flat_map left_of tr ++ firstn (sf_cnt s) (sf_q s) /\
  sf_poison s = false /\ ~ In SfOob (flat_map snd tr) /\
  (sf_closed s = true -> sf_cnt s = 0).
Proof.
  intros cap ops.
  assert (G : forall os s0 s tr, SfInv cap s0 -> (sp_closed (sf_abs s0) = true -> sp_q (sf_abs s0) = []) ->
     sf_run true true cap s0 os = (s, tr) ->
     firstn (sf_cnt s0) (sf_q s0) ++ flat_map took tr = flat_map left_of tr ++ firstn (sf_cnt s) (sf_q s) /\
     SfInv cap s /\ ~ In SfOob (flat_map snd tr) /\
     (sp_closed (sf_abs s) = true -> sp_q (sf_abs s) = [])).
  { induction os as [|o r IH]; intros s0 s tr I Z R; simpl in R.
    - inversion R; subst. simpl. rewrite app_nil_r. auto.
    - destruct (sf_step true true cap s0 o) as [s1 outs] eqn:S1.
      destruct (sf_run true true cap s1 r) as [s2 tr2] eqn:R2. inversion R; subst.
      destruct (sf_step_refines cap s0 o s1 outs I S1) as [I1 SP].
      destruct (sp_step_facts cap _ _ _ _ SP) as (CV & Z1 & NO1). simpl in CV. specialize (Z1 Z).
      destruct (IH s1 s tr2 I1 Z1 R2) as (E & I2 & NO & Z2).
      split; [|split; [exact I2|split; [|exact Z2]]].
      + simpl. rewrite app_assoc, CV, <- app_assoc, E, app_assoc. reflexivity.
      + simpl. intros X. apply in_app_iff in X. destruct X as [X|X]; [|exact (NO X)].
        exact (NO1 X). }
  intros s tr R.
  destruct (G ops _ s tr (sfdl_init_inv cap)) as (E & (L & C & P) & NO & Z); [intros X; discriminate|exact R|].
  simpl in E. split; [exact E|]. split; [exact P|]. split; [exact NO|].
  intros CLs. specialize (Z CLs). simpl in Z.
  assert (LN : length (firstn (sf_cnt s) (sf_q s)) = sf_cnt s) by (rewrite firstn_length; lia).
  rewrite Z in LN. simpl in LN. lia.
Qed.

(* nothing is handed out twice: if the descriptors taken over are pairwise different, so are those that leave *)
Lemma NoDup_app_l : forall (A : Type) (a b : list A), NoDup (a ++ b) -> NoDup a.
Proof. intros A a b H. induction a as [|x r IH]; [constructor|]. simpl in H. inversion H; subst. constructor; auto. intros X. apply H2. apply in_app_iff; auto. Qed.

Theorem sfdq_no_duplicates : forall cap ops s tr,
  sf_run true true cap (sfdl_init cap) ops = (s, tr) ->
  NoDup (flat_map took tr) -> NoDup (flat_map left_of tr).
Proof.
  intros cap ops s tr R ND. destruct (sfdq_conservation cap ops s tr R) as (E & _). rewrite E in ND.
  eapply NoDup_app_l; eauto.
Qed.

Definition shift_witness : list sf_op := [SfSetFd 11 true; SfSetFd 12 true; SfSetFd 13 true;
                                          SfAccept 0 true; SfAccept 1 true; SfAccept 2 true; SfAccept 3 true; SfClose].
Lemma shift_witness_pinned : forall fixclose,
  flat_map left_of (snd (sf_run false fixclose 16 (sfdl_init 16) shift_witness)) = [11; 11; 11]%N /\
  flat_map took (snd (sf_run false fixclose 16 (sfdl_init 16) shift_witness)) = [11; 12; 13]%N.
Proof. intros [|]; vm_compute; split; reflexivity. Qed.
Lemma shift_witness_fixed :
  flat_map left_of (snd (sf_run true true 16 (sfdl_init 16) shift_witness)) = [11; 12; 13]%N.
Proof. vm_compute. reflexivity. Qed.

Definition full_queue_ops (cap : nat) : list sf_op := map (fun k => SfSetFd (N.of_nat (100 + k)) true) (seq 0 cap) ++ [SfAccept 0 true].
Lemma full_queue_oob_pinned : forall fixclose,
  In SfOob (flat_map snd (snd (sf_run false fixclose 16 (sfdl_init 16) (full_queue_ops 16)))).
Proof. intros [|]; vm_compute; auto 20. Qed.

Definition close_twice_witness : list sf_op := [SfSetFd 21 true; SfSetFd 22 true; SfClose; SfClose].
Lemma close_twice_pinned : forall fixed,
  flat_map left_of (snd (sf_run fixed false 16 (sfdl_init 16) close_twice_witness)) = [21; 22; 21; 22]%N.
Proof. intros [|]; vm_compute; reflexivity. Qed.
Lemma close_twice_fixed :
  flat_map left_of (snd (sf_run true true 16 (sfdl_init 16) close_twice_witness)) = [21; 22]%N.
Proof. vm_compute. reflexivity. Qed.
