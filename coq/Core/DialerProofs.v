(* DialerProofs: lemmas about Core/DialerModel.v. *)
From Coq Require Import List Arith NArith ZArith Bool Lia.
From NngV Require Import Core.DialerModel.
Import ListNotations.
Local Open Scope Z_scope.

(* The single token.
   Every reachable dialer has one of seven shapes: its one token (the pipe, the back-off timer sleeping or fired, the
   connect with the transport or completed) is in exactly one place, or nowhere before the start, after close, or
   after a close code; no aio was ever started while in use.  A closed dialer may keep the stopped timer's result. *)
Definition td_quiet (closed : bool) (td : option N) : Prop :=
  match td with None => True | Some r => closed = true /\ r = D_ESTOPPED end.

Inductive DInv : dialer -> Prop :=
| DI_unstarted i m cu c u td a dls ovf lost ures : td_quiet c td ->
    DInv (mkDialer i m cu None c false u None td false None a dls ovf false lost ures)
| DI_idle i m cu c u td a dls ovf lost ures : td_quiet c td -> (c = false -> lost = true) ->
    DInv (mkDialer i m cu None c true u None td false None a dls ovf false lost ures)
| DI_piped i m cu q c u td a dls ovf lost ures : td_quiet c td ->
    DInv (mkDialer i m cu (Some q) c true u None td false None a dls ovf false lost ures)
| DI_cooling i m cu u dl a dls ovf lost ures :
    DInv (mkDialer i m cu None false true u (Some dl) None false None a dls ovf false lost ures)
| DI_fired i m cu c u a dls ovf lost ures :
    DInv (mkDialer i m cu None c true u None (Some D_OK) false None a dls ovf false lost ures)
| DI_connecting i m cu u a dls ovf lost ures :
    DInv (mkDialer i m cu None false true u None None true None a dls ovf false lost ures)
| DI_connected i m cu c u td x a dls ovf lost ures : td_quiet c td ->
    DInv (mkDialer i m cu None c true u None td false (Some x) a dls ovf false lost ures).

Lemma td_quiet_open : forall td, td_quiet false td -> td = None.
Proof. destruct td; [intros [X _]; discriminate X|reflexivity]. Qed.

Lemma dinit_DInv : forall i m, DInv (dialer_init i m).
Proof. intros. constructor. exact I. Qed.

Lemma connect_start_DInv : forall i m cu c u td a dls ovf lost ures, td_quiet c td ->
  DInv (connect_start (mkDialer i m cu None c true u None td false None a dls ovf false lost ures)).
Proof.
  intros until ures. intros Q. unfold connect_start; simpl.
  destruct c; [|rewrite (td_quiet_open _ Q)]; constructor; exact Q.
Qed.

Lemma timer_start_DInv : forall wide i m cu c u td a dls ovf lost ures rnd, td_quiet c td ->
  DInv (timer_start wide (mkDialer i m cu None c true u None td false None a dls ovf false lost ures) rnd).
Proof.
  intros until rnd. intros Q. unfold timer_start; simpl. destruct (backoff_next wide cu m) as [c' ov].
  destruct c; [|rewrite (td_quiet_open _ Q)]; constructor; auto; discriminate.
Qed.

(* each step finds the token where it is called for and puts it in one place; the others change nothing *)
Lemma dstep_DInv : forall fixmax wide d o, DInv d -> DInv (dstep fixmax wide d o).
Proof.
  intros fixmax wide d o H. destruct o; simpl.
  - destruct H; simpl; try (constructor; simpl; auto; fail). apply connect_start_DInv; assumption.
  - destruct H; simpl; try (constructor; simpl; auto; fail).
  - destruct H as [| | | | | |i m cu c u td [rv p] ? ? ? ? ? Q]; simpl; try (constructor; simpl; auto; fail).
    destruct (dialer_connect_class rv); [| |destruct u; [|apply timer_start_DInv; exact Q]];
      constructor; auto. destruct c; [discriminate|intros _; apply orb_true_r].
  - destruct H as [| | |i m cu u dl| | |]; simpl; try (constructor; simpl; auto; fail).
    destruct (dl =? -1); [apply DI_cooling|apply DI_fired].
  - destruct H as [? ? ? c ? [r|] ? ? ? ? ? Q|? ? ? c ? [r|] ? ? ? ? ? Q|? ? ? ? c ? [r|] ? ? ? ? ? Q| | |
                   |? ? ? c ? [r|] ? ? ? ? ? ? Q]; simpl; try (constructor; simpl; auto; fail);
      try (destruct Q as [-> ->]; constructor; simpl; auto; fail).
    apply connect_start_DInv; exact I.
  - destruct H as [| |i m cu q c u td ? ? ? ? ? Q| | | |]; simpl; try (constructor; simpl; auto; fail).
    destruct (Nat.eqb p q); [apply timer_start_DInv; exact Q|constructor; exact Q].
  - destruct (v <? -1); [exact H|]. destruct H; simpl; constructor; assumption.
  - destruct (v <? -1); [exact H|]. destruct H; simpl; constructor; assumption.
  - destruct H as [? ? ? c ? td ? ? ? ? ? Q|? ? ? c ? td ? ? ? ? ? Q|? ? ? ? c ? td ? ? ? ? ? Q| |? ? ? c|
                   |? ? ? c ? td ? ? ? ? ? ? Q]; try destruct c; simpl;
      try rewrite (td_quiet_open _ Q); constructor; simpl; auto; discriminate.
Qed.

Lemma drun_DInv : forall fixmax wide ops d, DInv d -> DInv (drun fixmax wide d ops).
Proof. induction ops; intros; simpl; auto. apply IHops. apply dstep_DInv; auto. Qed.

Lemma DInv_clash : forall d, DInv d -> g_clash d = false.
Proof. destruct 1; reflexivity. Qed.

Lemma td_quiet_token : forall c td, td_quiet c td -> match td with Some r => N.eqb r D_OK | None => false end = false.
Proof. destruct td; [intros [_ ->]|]; reflexivity. Qed.

Lemma DInv_tokens : forall d, DInv d ->
  (tokens d <= 1)%nat /\ (d_started d = false -> tokens d = 0%nat) /\
  (d_started d = true -> d_closed d = false -> g_lost d = false -> tokens d = 1%nat).
Proof.
  destruct 1; unfold tokens; simpl; rewrite ?(td_quiet_token _ _ H); simpl;
    (split; [auto|split; intros; try discriminate; try reflexivity]).
  subst. discriminate (H0 eq_refl).
Qed.

(* the switch of dialer_connect_cb *)
Lemma connect_class_spec : forall rv,
  (dialer_connect_class rv = DcStart <-> rv = D_OK) /\
  (dialer_connect_class rv = DcNothing <-> rv = D_ECLOSED \/ rv = D_ECANCELED \/ rv = D_ESTOPPED) /\
  (dialer_connect_class rv = DcRetry <-> rv <> D_OK /\ rv <> D_ECLOSED /\ rv <> D_ECANCELED /\ rv <> D_ESTOPPED).
Proof.
  intros rv. unfold dialer_connect_class, D_OK, D_ECLOSED, D_ECANCELED, D_ESTOPPED.
  destruct (N.eqb_spec rv 0), (N.eqb_spec rv 7), (N.eqb_spec rv 20), (N.eqb_spec rv 999); simpl;
    (split; [|split]); split; intros H; try discriminate; try congruence; auto;
    try (destruct H as [H|[H|H]]; congruence); try (destruct H as (H1 & H2 & H3 & H4); congruence).
Qed.

Lemma draw_delay_range : forall b rnd, 0 <= b <= INT32_MAX ->
  0 <= draw_delay b rnd /\ (b = 0 -> draw_delay b rnd = 0) /\ (0 < b -> draw_delay b rnd < b).
Proof.
  intros b rnd [B0 B1]. unfold draw_delay, INT32_MAX in *.
  destruct (Z.eqb_spec b 0); [subst; repeat split; intros; lia|].
  assert (Ub : to_u32 b = b) by (unfold to_u32; apply Z.mod_small; lia).
  rewrite Ub.
  assert (R : 0 <= to_u32 rnd mod b < b) by (apply Z.mod_pos_bound; lia).
  assert (I : to_i32 (to_u32 rnd mod b) = to_u32 rnd mod b).
  { unfold to_i32. rewrite Z.mod_small by lia. destruct (Z.ltb_spec (to_u32 rnd mod b) 2147483648); lia. }
  rewrite I. repeat split; intros; lia.
Qed.

Lemma backoff_next_range : forall wide inir maxr curr,
  cfg_ok wide inir maxr -> 0 <= curr <= Z.max inir maxr ->
  snd (backoff_next wide curr maxr) = false /\
  0 <= fst (backoff_next wide curr maxr) <= Z.max inir maxr.
Proof.
  intros wide inir maxr curr (I & M & W) [C0 C1]. unfold backoff_next, INT32_MAX, HALF32 in *.
  destruct (Z.ltb_spec 0 maxr); [|simpl; split; auto; lia].
  destruct wide.
  - simpl. split; auto. destruct (Z.ltb_spec (maxr / 2) curr); [lia|].
    assert (2 * (maxr / 2) <= maxr) by (apply Z.mul_div_le; lia). lia.
  - destruct W as [W|[W|[W1 W2]]]; [discriminate|lia|].
    assert (curr * 2 <= 2147483646) by lia.
    destruct (Z.ltb_spec 2147483647 (curr * 2)); [lia|].
    destruct (Z.ltb_spec (curr * 2) (-2147483648)); [lia|]. simpl.
    split; auto. destruct (Z.ltb_spec maxr (curr * 2)); lia.
Qed.

Definition delay_ok (x : Z * Z * Z) : Prop :=
  let '(dl, i, m) := x in 0 <= dl /\ (dl < Z.max i m \/ (dl = 0 /\ Z.max i m = 0)).

Definition BInv (wide : bool) (d : dialer) : Prop :=
  cfg_ok wide (d_inir d) (d_maxr d) /\ 0 <= d_curr d <= Z.max (d_inir d) (d_maxr d) /\
  g_ovf d = false /\ Forall delay_ok (g_delays d).

Lemma timer_start_BInv : forall wide d rnd, BInv wide d -> BInv wide (timer_start wide d rnd).
Proof.
  intros wide d rnd (CF & CU & OV & DL). unfold timer_start.
  destruct (backoff_next_range wide _ _ _ CF CU) as [B1 B2].
  destruct (backoff_next wide (d_curr d) (d_maxr d)) as [c' ovf]. simpl in B1, B2. subst ovf.
  assert (R : 0 <= d_curr d <= INT32_MAX).
  { destruct CF as (I & M & _). split; [lia|]. apply Z.le_trans with (Z.max (d_inir d) (d_maxr d)); lia. }
  destruct (draw_delay_range (d_curr d) rnd R) as (D0 & D1 & D2).
  assert (DO : delay_ok (draw_delay (d_curr d) rnd, d_inir d, d_maxr d)).
  { unfold delay_ok. split; auto.
    destruct (Z.eq_dec (d_curr d) 0) as [Z0|NZ].
    - rewrite (D1 Z0). destruct (Z.eq_dec (Z.max (d_inir d) (d_maxr d)) 0); [right; auto|left; lia].
    - left. assert (P : 0 < d_curr d) by lia. specialize (D2 P). lia. }
  destruct (d_closed d); unfold BInv; simpl; rewrite OV; (split; [exact CF|split; [lia|split; [reflexivity|]]]).
  - exact DL.
  - constructor; auto.
Qed.

Lemma dstep_BInv : forall fixmax wide d o, op_cov fixmax wide d o -> BInv wide d -> BInv wide (dstep fixmax wide d o).
Proof.
  intros fixmax wide d o COV H. pose proof H as (CF & CU & OV & DL). pose proof CF as (I0 & M0 & W0).
  destruct o as [u | rv p | rnd | | | p rnd | v | v | ]; simpl.
  - destruct (d_started d); auto. unfold connect_start; simpl. destruct (d_closed d); unfold BInv; simpl; auto.
  - destruct (d_conn d); auto.
  - destruct (d_conn_done d) as [[rv p]|]; auto.
    destruct (dialer_connect_class rv).
    + unfold BInv; simpl. repeat split; auto; try lia.
    + unfold BInv; simpl; auto.
    + destruct (d_user d); [unfold BInv; simpl; auto|]. apply timer_start_BInv. unfold BInv; simpl; auto.
  - destruct (d_tmo d); auto. destruct (z =? -1); auto.
  - destruct (d_tmo_done d); auto. destruct (N.eqb n D_OK); [|unfold BInv; simpl; auto].
    unfold connect_start; simpl. destruct (d_closed d); unfold BInv; simpl; auto.
  - destruct (d_pipe d); auto. destruct (Nat.eqb p n); auto. apply timer_start_BInv. unfold BInv; simpl; auto.
  - simpl in COV. destruct (Z.ltb_spec v (-1)); auto. unfold BInv; simpl. destruct COV as (I & M & W).
    repeat split; auto; lia.
  - simpl in COV. destruct (Z.ltb_spec v (-1)); auto. destruct COV as [(I & M & W) CV]. unfold BInv; simpl.
    repeat split; auto; try lia; destruct fixmax; try lia; destruct CV as [X|X]; try discriminate; lia.
  - destruct (d_closed d); auto.
Qed.

Lemma drun_BInv : forall fixmax wide ops d, BInv wide d -> drun_cov fixmax wide d ops -> BInv wide (drun fixmax wide d ops).
Proof.
  induction ops as [|o r IH]; intros d H C; simpl in *; auto. destruct C as [C1 C2]. apply IH; auto.
  apply dstep_BInv; auto.
Qed.

Lemma dinit_BInv : forall wide inir maxr, cfg_ok wide inir maxr -> BInv wide (dialer_init inir maxr).
Proof. intros wide inir maxr CF. pose proof CF as (I0 & M0 & W0). unfold BInv, dialer_init; simpl. repeat split; auto; lia. Qed.

Theorem delay_bounded : forall fixmax wide inir maxr ops d,
  cfg_ok wide inir maxr -> drun_cov fixmax wide (dialer_init inir maxr) ops ->
  d = drun fixmax wide (dialer_init inir maxr) ops ->
  g_ovf d = false /\ 0 <= d_curr d <= Z.max (d_inir d) (d_maxr d) /\
  forall dl i m, In (dl, i, m) (g_delays d) -> 0 <= dl /\ (dl < Z.max i m \/ (dl = 0 /\ Z.max i m = 0)).
Proof.
  intros fixmax wide inir maxr ops d CF COV ->.
  destruct (drun_BInv fixmax wide ops _ (dinit_BInv _ _ _ CF) COV) as (_ & CU & OV & DL).
  split; [exact OV|split; [exact CU|]].
  intros dl i m H. rewrite Forall_forall in DL. exact (DL _ H).
Qed.

(* the condition on a lowered maximum is exact (pinned form): if d_currtime exceeds both configured
   times after the change, the very next draw can reach d_currtime - 1 *)
Theorem uncovered_change_exceeds : forall wide d v,
  0 <= v -> Z.max (d_inir d) v < d_curr d <= INT32_MAX -> d_closed d = false ->
  exists rnd, forall d', d' = timer_start wide (dstep false wide d (DSetMax v)) rnd ->
    exists dl, hd_error (g_delays d') = Some (dl, d_inir d, v) /\ Z.max (d_inir d) v <= dl.
Proof.
  intros wide d v V [C0 C1] NC. exists (d_curr d - 1). intros d' ->.
  simpl. destruct (Z.ltb_spec v (-1)); [lia|]. unfold timer_start; simpl.
  destruct (backoff_next wide (d_curr d) v) as [c' ovf]. rewrite NC. simpl.
  exists (draw_delay (d_curr d) (d_curr d - 1)). split; auto.
  unfold draw_delay, INT32_MAX in *. destruct (Z.eqb_spec (d_curr d) 0); [lia|].
  assert (P : 0 < d_curr d) by lia.
  unfold to_u32. rewrite (Z.mod_small (d_curr d - 1)) by lia. rewrite (Z.mod_small (d_curr d)) by lia.
  rewrite (Z.mod_small (d_curr d - 1) (d_curr d)) by lia.
  unfold to_i32. rewrite Z.mod_small by lia. destruct (Z.ltb_spec (d_curr d - 1) 2147483648); lia.
Qed.

(* a lowered, non-zero maximum is in force again after one more timer start *)
Theorem lowered_max_recovers : forall d v rnd,
  0 < v <= HALF32 -> 0 <= d_curr d <= HALF32 ->
  d_curr (timer_start false (dstep false false d (DSetMax v)) rnd) <= v.
Proof.
  intros d v rnd [V0 V1] [C0 C1]. simpl. destruct (Z.ltb_spec v (-1)); [lia|]. unfold timer_start; simpl.
  unfold backoff_next, HALF32, INT32_MAX in *. destruct (Z.ltb_spec 0 v); [|lia].
  destruct (Z.ltb_spec 2147483647 (d_curr d * 2)); [lia|]. destruct (Z.ltb_spec (d_curr d * 2) (-2147483648)); [lia|].
  simpl. destruct (d_closed d); simpl; destruct (Z.ltb_spec v (d_curr d * 2)); lia.
Qed.

Theorem pipe_loss_arms_timer : forall fixmax wide d p rnd,
  DInv d -> d_pipe d = Some p -> d_closed d = false ->
  let d' := dstep fixmax wide d (DPipeRemoved p rnd) in
  d_pipe d' = None /\ d_tmo d' = Some (draw_delay (d_curr d) rnd) /\ g_clash d' = false.
Proof.
  intros fixmax wide d p rnd I P NC d'. pose proof (DInv_clash _ (dstep_DInv fixmax wide d (DPipeRemoved p rnd) I)) as C'.
  subst d'. split; [|split; auto]; simpl; rewrite P, Nat.eqb_refl; unfold timer_start; simpl;
    destruct (backoff_next wide (d_curr d) (d_maxr d)); rewrite NC; reflexivity.
Qed.

Theorem failed_dial_arms_timer : forall fixmax wide d rv q rnd,
  DInv d -> d_conn_done d = Some (rv, q) -> dialer_connect_class rv = DcRetry -> d_user d = false ->
  d_closed d = false ->
  let d' := dstep fixmax wide d (DConnCb rnd) in
  d_tmo d' = Some (draw_delay (d_curr d) rnd) /\ g_clash d' = false /\ d_started d' = d_started d.
Proof.
  intros fixmax wide d rv q rnd I P CLS U NC d'. pose proof (DInv_clash _ (dstep_DInv fixmax wide d (DConnCb rnd) I)) as C'.
  subst d'. split; [|split; auto]; simpl; rewrite P, CLS, U; unfold timer_start; simpl;
    destruct (backoff_next wide (d_curr d) (d_maxr d)); rewrite NC; reflexivity.
Qed.

Theorem timer_expiry_dials : forall fixmax wide d dl,
  DInv d -> d_tmo d = Some dl -> dl <> -1 ->
  let d' := dstep fixmax wide (dstep fixmax wide d DTimerFire) DTimerCb in
  d_conn d' = true /\ g_att d' = S (g_att d) /\ g_clash d' = false /\ d_tmo d' = None.
Proof.
  intros fixmax wide d dl I T NI d'. subst d'.
  destruct I; simpl in T; try discriminate T. injection T as ->.
  simpl. destruct (Z.eqb_spec dl (-1)); [contradiction|]. repeat split.
Qed.

Definition fail_round (rnd : Z) : list dop := [DConnDone 6%N O; DConnCb rnd; DTimerFire; DTimerCb].
Definition midchange_run : list dop :=
  [DStart false] ++ fail_round 0 ++ fail_round 0 ++ fail_round 0 ++ fail_round 0 ++ fail_round 0 ++ fail_round 0 ++
  fail_round 0 ++ [DSetMax 0; DConnDone 6%N O; DConnCb 999].

Lemma midchange_witness :
  hd_error (g_delays (drun false false (dialer_init 10 1000) midchange_run)) = Some (999, 10, 0).
Proof. vm_compute. reflexivity. Qed.

Lemma midchange_fixed :
  hd_error (g_delays (drun true false (dialer_init 10 1000) midchange_run)) = Some (9, 10, 0).
Proof. vm_compute. reflexivity. Qed.

Definition overflow_run : list dop := [DStart false; DConnDone 6%N O; DConnCb 0].
Lemma overflow_witness : g_ovf (drun false false (dialer_init 1073741824 2147483647) overflow_run) = true.
Proof. vm_compute. reflexivity. Qed.
Lemma overflow_fixed : g_ovf (drun false true (dialer_init 1073741824 2147483647) overflow_run) = false /\
  d_curr (drun false true (dialer_init 1073741824 2147483647) overflow_run) = 2147483647.
Proof. vm_compute. split; reflexivity. Qed.

Definition op_in_range (o : dop) : Prop :=
  match o with DSetMin v | DSetMax v => 0 <= v <= INT32_MAX | _ => True end.

Lemma in_range_cov : forall d o, BInv true d -> op_in_range o -> op_cov true true d o.
Proof.
  intros d o ((I & M & W) & _) R. destruct o; simpl in *; auto.
  - unfold cfg_ok. repeat split; try lia; auto.
  - split; [|left; reflexivity]. unfold cfg_ok. repeat split; try lia; auto.
Qed.

(* in the repaired form every change of the options within the int32 range is covered *)
Lemma in_range_drun_cov : forall ops d, BInv true d -> Forall op_in_range ops -> drun_cov true true d ops.
Proof.
  induction ops as [|o r IH]; intros d H F; simpl; auto. inversion F; subst.
  assert (C : op_cov true true d o) by (apply in_range_cov; auto).
  split; [exact C|]. apply IH; auto. apply dstep_BInv; auto.
Qed.

Theorem delay_bounded_repaired : forall inir maxr ops d,
  0 <= inir <= INT32_MAX -> 0 <= maxr <= INT32_MAX -> Forall op_in_range ops ->
  d = drun true true (dialer_init inir maxr) ops ->
  g_ovf d = false /\ 0 <= d_curr d <= Z.max (d_inir d) (d_maxr d) /\
  forall dl i m, In (dl, i, m) (g_delays d) -> 0 <= dl /\ (dl < Z.max i m \/ (dl = 0 /\ Z.max i m = 0)).
Proof.
  intros inir maxr ops d RI RM F.
  assert (CF : cfg_ok true inir maxr) by (unfold cfg_ok; auto).
  apply delay_bounded; [exact CF|]. apply in_range_drun_cov; [apply dinit_BInv; exact CF|exact F].
Qed.
