(* CloseMsgq: what Core/CloseModel.v assumes of nni_msgq_close (the step AMsgqClose of sock_shutdown, and its
   repetition in sock_close): "every reader and every writer waiting in the queue is completed with
   NNG_ECLOSED and the queue is left closed and without waiters", proved here of the msgq model of C18
   (Queue/MsgqModel.v, step MClose; tied to src/core/msgqueue.c by C18's correspondence), whatever the
   capacity, the fill and the number of waiters.  Gen/Consts.v C10_MSGQ_CLOSE_ALL says whether the loop in
   src/core/msgqueue.c still has the shape that step models. *)
From Coq Require Import List Arith NArith Bool.
Import ListNotations.
From NngV Require Import Base.Ring Queue.MsgqModel Core.CloseModel.

Lemma drain_keeps wrap : forall fuel q q' outs, drain wrap fuel q = Some (q', outs) ->
  mq_putq q' = mq_putq q /\ mq_getq q' = mq_getq q /\ mq_closed q' = mq_closed q.
Proof.
  induction fuel as [|f IH]; intros q q' outs H; cbn [drain] in H.
  - injection H as <- <-; auto.
  - destruct (mq_len q =? 0); [injection H as <- <-; auto|].
    destruct (ring_get wrap q) as [[m q1]|] eqn:R; [|discriminate H].
    destruct (drain wrap f q1) as [[q2 o2]|] eqn:D; [|discriminate H]. injection H as <- <-.
    apply IH in D as (A & B & C). rewrite A, B, C.
    unfold ring_get in R. destruct (rd (mq_cells q) (mq_get q)); [|discriminate R]. injection R as _ <-. auto.
Qed.

(* the waiters of a queue: aios of blocked readers and of blocked writers *)
Definition waiters (q : msgq) : list N := mq_getq q ++ map fst (mq_putq q).

Lemma fail_all_In rv l a : In a l -> In (Done a rv None) (MsgqModel.fail_all rv l).
Proof. induction l; simpl; [tauto|]. intros [->|H]; auto. Qed.

Theorem msgq_close_completes_waiters fixed q rv q' outs :
  msgq_step fixed q MClose = Some (rv, q', outs) ->
  mq_getq q' = [] /\ mq_putq q' = [] /\ mq_closed q' = true /\
  forall a, In a (waiters q) -> In (Done a ECLOSED None) outs.
Proof.
  cbn [msgq_step]. intros H.
  match type of H with context[drain ?w ?f ?q0] => destruct (drain w f q0) as [[q1 o1]|] eqn:E; [|discriminate H] end.
  injection H as <- <- <-.
  apply drain_keeps in E as (A & B & C). cbn in A, B, C.
  split; [reflexivity|]. split; [reflexivity|]. split; [exact C|].
  intros a Ha. unfold waiters in Ha. apply in_or_app; right. rewrite A, B.
  apply in_app_or in Ha as [Ha|Ha]; apply in_or_app; [left|right]; apply fail_all_In; auto.
Qed.

(* in the vocabulary of the close model: the completions AMsgqClose logs for the pending set *)
Corollary msgq_close_matches_model fixed q rv q' outs :
  msgq_step fixed q MClose = Some (rv, q', outs) ->
  forall ar, In ar (CloseModel.fail_all C_ECLOSED (waiters q)) -> In (Done (fst ar) (snd ar) None) outs.
Proof.
  intros H [a r] Hin. unfold CloseModel.fail_all in Hin. apply in_map_iff in Hin as (a' & Heq & Ha).
  injection Heq as <- <-. simpl. eapply (msgq_close_completes_waiters _ _ _ _ _ H); auto.
Qed.
