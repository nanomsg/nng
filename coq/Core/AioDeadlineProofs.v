(* AioDeadlineProofs: with all three clearing points in place the deadline handed to the expiry
   machinery is, for every history of configuration calls, starts, sleeps and completions, the
   one the specification [sp_run] names; without any one of them there is a history on which a
   different deadline is used. *)
From Coq Require Import ZArith NArith Bool List Lia.
From NngV Require Import Core.AioDeadline.
Import ListNotations.
Local Open Scope Z_scope.

(* d_use is set exactly when the specification has an absolute expiry pending, and d_expire is then that expiry *)
Definition DR (c : dl) (s : sp) : Prop :=
  d_timeout c = s_timeout s /\
  match s_abs s with
  | Some t => d_use c = true /\ d_expire c = t
  | None => d_use c = false
  end.

Lemma DR_init : DR dl_init sp_init.
Proof. split; reflexivity. Qed.

Lemma sleep_eff_timeout c c' ms : d_timeout c = d_timeout c' -> sleep_eff c ms = sleep_eff c' ms.
Proof. unfold sleep_eff. intros ->. reflexivity. Qed.

Lemma DR_step c s o : DR c s ->
  DR (fst (dl_step true true true c o)) (fst (sp_step s o)) /\
  snd (dl_step true true true c o) = snd (sp_step s o).
Proof.
  intros [HT HA]. destruct o as [d|t|d|now|now ms|]; cbn [dl_step sp_step fst snd].
  - split; [split; reflexivity|reflexivity].
  - split; [split; [exact HT|cbn; split; reflexivity]|reflexivity].
  - split; [|reflexivity]. split.
    + cbn. rewrite HT. reflexivity.
    + cbn [dl_normalize d_use d_expire s_abs]. exact HA.
  - unfold dl_start, sp_verdict. destruct (s_abs s) as [t|] eqn:EA.
    + destruct HA as [HU HE]. rewrite HU. cbn [negb]. rewrite HE.
      destruct t as [t|].
      * destruct (t <=? now)%N; cbn [fst snd]; (split; [split; [exact HT|reflexivity]|reflexivity]).
      * cbn [fst snd]. split; [split; [exact HT|reflexivity]|reflexivity].
    + rewrite HA. cbn [negb]. unfold sp_rel. rewrite <- HT.
      destruct (d_timeout c =? 0); [|destruct (d_timeout c <? 0)]; cbn [fst snd];
        (split; [split; [reflexivity|reflexivity]|reflexivity]).
  - unfold dl_sleep, sp_sleep.
    rewrite (sleep_eff_timeout c (mkDl (s_timeout s) None false) ms) by (cbn; exact HT).
    destruct (sleep_eff (mkDl (s_timeout s) None false) ms) as [ms' eok].
    destruct (s_abs s) as [t|] eqn:EA.
    + destruct HA as [HU HE]. rewrite HU. cbn [andb fst snd].
      split; [split; [exact HT|reflexivity]|reflexivity].
    + rewrite HA. cbn [andb fst snd]. split; [split; [exact HT|reflexivity]|reflexivity].
  - split; [split; [exact HT|reflexivity]|reflexivity].
Qed.

(* every history: the implementation's deadlines are the specified ones *)
Theorem deadline_refines : forall os c s, DR c s -> dl_run true true true c os = sp_run s os.
Proof.
  induction os as [|o r IH]; intros c s H; [reflexivity|].
  cbn [dl_run sp_run]. destruct (DR_step c s o H) as [HR HO].
  destruct (dl_step true true true c o) as [c' x]. destruct (sp_step s o) as [s' y].
  cbn [fst snd] in HR, HO. rewrite HO. f_equal. apply IH. exact HR.
Qed.

Corollary deadline_is_configured : forall os, dl_run true true true dl_init os = sp_run sp_init os.
Proof. intro os. apply deadline_refines. exact DR_init. Qed.

(* ... and what that means for the operation that is started: a relative timeout d > 0 gives the
   deadline now + d, never an earlier one, unless an absolute expiry was set for exactly this
   operation *)
Lemma sp_verdict_rel s now : s_abs s = None -> 0 < s_timeout s ->
  sp_verdict s now = VDeadline (Some (after now (s_timeout s))).
Proof.
  intros HA HT. unfold sp_verdict, sp_rel. rewrite HA.
  destruct (s_timeout s =? 0) eqn:E0; [apply Z.eqb_eq in E0; lia|].
  destruct (s_timeout s <? 0) eqn:E1; [apply Z.ltb_lt in E1; lia|]. reflexivity.
Qed.

Lemma after_ge now d : 0 <= d -> (now + Z.to_N d = after now d)%N.
Proof. intro H. unfold after. lia. Qed.

Definition dl_witness_fin2 : list dop :=
  [DSetTimeout 200; DStart 100%N; DSetExpire (Some 300%N); DFinish; DStart 400%N].

(* each of the three clearing points is necessary *)
Theorem deadline_refuted : forall fset ffin fcons, fset && ffin && fcons = false ->
  exists os, dl_run fset ffin fcons dl_init os <> sp_run sp_init os.
Proof.
  intros fset ffin fcons H. destruct fset.
  - destruct ffin.
    + destruct fcons; [discriminate|]. exists dl_witness_cons. vm_compute. discriminate.
    + destruct fcons.
      * exists dl_witness_fin2. vm_compute. discriminate.
      * exists dl_witness_fin. vm_compute. discriminate.
  - exists dl_witness_set. destruct ffin, fcons; vm_compute; discriminate.
Qed.

(* the repaired form on a history of configuration calls, starts, a completion and sleeps *)
Example deadline_example :
  dl_run true true true dl_init
    [DSetTimeout 5000; DSetExpire (Some 10%N); DStart 20%N; DStart 30%N; DFinish; DSleep 40%N 100; DSetTimeout 50; DSleep 200%N 100] =
  [ONone; ONone; OStart VZero; OStart (VDeadline (Some 5030%N)); ONone; OSleep (VDeadline (Some 140%N)) true; ONone;
   OSleep (VDeadline (Some 250%N)) false].
Proof. vm_compute. reflexivity. Qed.
