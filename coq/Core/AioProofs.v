(* AioProofs: invariants of every reachable state of AioModel, for every interleaving. *)
From Coq Require Import List Arith NArith Bool Lia.
From NngV Require Import Core.AioModel.
Import ListNotations.

Ltac simp_a := cbn [a_stop a_abort a_expiring a_expire_ok a_sleep a_cancel a_on_eq a_expire a_result
                    t_busy t_prep t_queued t_running p_owns p_sleep g_subs g_cbs g_fin g_bad_result g_early
                    g_stop_returned g_cb_after_stop g_subs_at_stop threads upd_threads a_done] in *.

(* the continuations of one kind (weight f) over all threads *)
Section Count.
Variable f : pact -> nat.
Fixpoint cnt_thread (t : list pact) : nat := match t with [] => 0 | a :: r => f a + cnt_thread r end.
Fixpoint cnt (ts : list (list pact)) : nat := match ts with [] => 0 | t :: r => cnt_thread t + cnt r end.

Lemma cnt_thread_app a b : cnt_thread (a ++ b) = cnt_thread a + cnt_thread b.
Proof. induction a; cbn; lia. Qed.
Lemma cnt_app a b : cnt (a ++ b) = cnt a + cnt b.
Proof. induction a; cbn; lia. Qed.
Lemma cnt_replace ts : forall k t x, nth_error ts k = Some t ->
  cnt (replace_nth ts k x) + cnt_thread t = cnt ts + match x with Some t' => cnt_thread t' | None => 0 end.
Proof.
  induction ts as [|t0 r IH]; intros k t x H; destruct k; cbn in *; try discriminate.
  - injection H as <-. destruct x; cbn; lia.
  - specialize (IH k t x H). lia.
Qed.
(* thread k runs its first continuation [a], which leaves [more] to do before the rest *)
Lemma cnt_run ts k a rest more : nth_error ts k = Some (a :: rest) ->
  cnt (replace_nth ts k (match more ++ rest with [] => None | _ :: _ => Some (more ++ rest) end)) + f a
  = cnt ts + cnt_thread more.
Proof.
  intros N. pose proof (cnt_replace ts k _ (match more ++ rest with [] => None | _ :: _ => Some (more ++ rest) end) N) as R.
  pose proof (cnt_thread_app more rest) as A. cbn [cnt_thread] in R. destruct (more ++ rest); cbn [cnt_thread] in *; lia.
Qed.
Lemma cnt_in ts a rest : In (a :: rest) ts -> f a <= cnt ts.
Proof.
  induction ts as [|t r IH]; intros Hin; [destruct Hin|]. cbn [cnt].
  destruct Hin as [->|Hin]; [cbn; lia|]. specialize (IH Hin). lia.
Qed.
Lemma cnt_spawn s k : cnt (threads (spawn s k)) = cnt (threads s) + cnt_thread k.
Proof. destruct k; [cbn; lia|]. unfold spawn; cbn [threads upd_threads]. rewrite cnt_app. cbn. lia. Qed.
End Count.

Lemma astep_run fixed fd s k s' : astep fixed fd s (LRun k) = Some s' ->
  exists a rest s1 more, nth_error (threads s) k = Some (a :: rest) /\ run_pact fixed s a = Some (s1, more) /\
    s' = upd_threads s1 (replace_nth (threads s1) k (match more ++ rest with [] => None | _ :: _ => Some (more ++ rest) end)).
Proof.
  cbn [astep]. intros H. destruct (nth_error (threads s) k) as [[|a rest]|]; try discriminate.
  destruct (run_pact fixed s a) as [[s1 more]|] eqn:R; [|discriminate]. inversion H. exists a, rest, s1, more. auto.
Qed.

Lemma arun_ind fixed fd (P : aio -> Prop) :
  (forall s l s', P s -> astep fixed fd s l = Some s' -> P s') ->
  forall ls s s', P s -> arun fixed fd s ls = Some s' -> P s'.
Proof.
  intros Step. induction ls as [|l r IH]; intros s s' H R; cbn [arun] in R.
  - injection R as <-. exact H.
  - destruct (astep fixed fd s l) as [s1|] eqn:S; [|discriminate]. exact (IH s1 s' (Step s l s1 H S) R).
Qed.

(* where the ghost fields change: submissions at LStart, callbacks at LRunCb, the stop marks when
   nni_aio_stop returns, g_early when the expire loop decides, g_fin/a_done at a completion *)
Lemma astep_ghost fixed fd s l s' : astep fixed fd s l = Some s' ->
  g_subs s' = g_subs s + match l with LStart _ _ _ _ => 1 | _ => 0 end /\
  g_cbs s' = g_cbs s + match l with LRunCb => 1 | _ => 0 end /\
  g_cb_after_stop s' = g_cb_after_stop s
                       || match l with LRunCb => g_stop_returned s && (g_cbs s <? g_subs_at_stop s) | _ => false end /\
  (g_stop_returned s' = g_stop_returned s /\ g_subs_at_stop s' = g_subs_at_stop s \/
   t_busy s = 0 /\ g_stop_returned s' = true /\ g_subs_at_stop s' = g_subs s) /\
  (fixed = true -> g_early s' = g_early s) /\
  (g_fin s' = g_fin s /\ (a_done s' = a_done s \/ outstanding s = false) \/ a_done s' = true \/ g_fin s' = None).
Proof.
  intros H. destruct l as [zero dl sleep eok|rv|rv|now| | |k| | | ]; cbn [astep] in H.
  - destruct (outstanding s); [discriminate|].
    destruct (a_stop s); [|destruct (a_abort s); [|destruct zero]]; injection H as <-; unfold spawn; simp_a;
      rewrite orb_false_r; repeat split; auto; lia.
  - destruct (p_owns s && negb (p_sleep s)); [|discriminate]. injection H as <-. unfold spawn. simp_a.
    rewrite orb_false_r. repeat split; auto; lia.
  - destruct (rv =? 0)%N; [discriminate|].
    destruct (a_cancel s); [|destruct (fd && a_done s)]; injection H as <-; unfold spawn; simp_a;
      rewrite orb_false_r; repeat split; auto; lia.
  - destruct (a_on_eq s && negb (a_expiring s)); [|discriminate].
    destruct (negb match a_expire s with Some e => (e <? now)%N | None => false end); [discriminate|].
    injection H as <-. unfold spawn. simp_a. rewrite orb_false_r. repeat split; auto; lia.
  - destruct (a_expiring s); [discriminate|]. injection H as <-.
    destruct (a_cancel s); unfold spawn; cbn [app]; simp_a; rewrite orb_false_r; repeat split; auto; lia.
  - injection H as <-.
    destruct (a_cancel s); unfold spawn; simp_a; rewrite orb_false_r; repeat split; auto; lia.
  - apply (astep_run fixed fd) in H as (a & rest & s1 & more & N & R & ->). simp_a.
    destruct a; cbn [run_pact] in R.
    + injection R as <- <-. unfold do_dispatch. simp_a. rewrite orb_false_r. repeat split; auto; lia.
    + injection R as <- <-. unfold do_finish. simp_a. rewrite orb_false_r. repeat split; auto; lia.
    + unfold do_call_cancel in R.
      destruct (p_owns s); injection R as <- <-; simp_a; rewrite orb_false_r; repeat split; auto; lia.
    + unfold do_expire_proc in R.
      destruct (fixed && negb match a_expire s with Some e => (e <? now)%N | None => false end) eqn:FX.
      * injection R as <- <-. simp_a. rewrite orb_false_r. repeat split; auto; lia.
      * (* the repaired loop goes on only with what is due *)
        assert (G: fixed = true -> negb match a_expire s with Some e => (e <? now)%N | None => false end = false)
          by (intros ->; exact FX).
        destruct (a_sleep s); [|destruct (a_cancel s)]; injection R as <- <-; simp_a; rewrite orb_false_r;
          repeat split; auto; try lia; intros F; rewrite (G F); apply orb_false_r.
    + injection R as <- <-. simp_a. rewrite orb_false_r. repeat split; auto; lia.
    + (* nni_aio_stop returns: nothing is busy *)
      destruct (t_busy s =? 0) eqn:B; [apply Nat.eqb_eq in B|discriminate R].
      injection R as <- <-. simp_a. rewrite orb_false_r. repeat split; auto; lia.
  - destruct (t_queued s); [discriminate|]. injection H as <-. simp_a. repeat split; auto; lia.
  - destruct (t_running s); [discriminate|]. injection H as <-. simp_a. rewrite orb_false_r. repeat split; auto; lia.
  - destruct (outstanding s) eqn:O; [discriminate|]. injection H as <-. simp_a. rewrite orb_false_r. repeat split; auto; lia.
Qed.

Definition tok_act (a : pact) : nat := match a with PFinish _ | PDispatch => 1 | _ => 0 end.
Fixpoint tok_thread (t : list pact) : nat := match t with [] => 0 | a :: r => tok_act a + tok_thread r end.
Fixpoint tok_threads (ts : list (list pact)) : nat := match ts with [] => 0 | t :: r => tok_thread t + tok_threads r end.
Definition tokens (s : aio) : nat := (if p_owns s then 1 else 0) + tok_threads (threads s).

Lemma tok_thread_app a b : tok_thread (a ++ b) = tok_thread a + tok_thread b.
Proof. exact (cnt_thread_app tok_act a b). Qed.
Lemma tok_threads_app a b : tok_threads (a ++ b) = tok_threads a + tok_threads b.
Proof. exact (cnt_app tok_act a b). Qed.

Lemma tok_in_threads ts a rest : In (a :: rest) ts -> tok_act a = 1 -> 1 <= tok_threads ts.
Proof. intros Hin <-. exact (cnt_in tok_act ts a rest Hin). Qed.

Lemma tok_spawn s k : tok_threads (threads (spawn s k)) = tok_threads (threads s) + tok_thread k.
Proof. exact (cnt_spawn tok_act s k). Qed.

(* AioModel.outstanding spells tok_act out as a boolean test *)
Lemma existsb_tok_thread t :
  existsb (fun a => match a with PFinish _ | PDispatch => true | _ => false end) t = negb (tok_thread t =? 0).
Proof. induction t as [|a r IH]; cbn; [reflexivity|]. destruct a; cbn; auto. Qed.
Lemma existsb_tok_threads ts :
  existsb (fun t => existsb (fun a => match a with PFinish _ | PDispatch => true | _ => false end) t) ts
  = negb (tok_threads ts =? 0).
Proof.
  induction ts as [|t r IH]; cbn; [reflexivity|]. rewrite IH, existsb_tok_thread.
  destruct (tok_thread t); destruct (tok_threads r); reflexivity.
Qed.
Lemma outstanding_false s : outstanding s = false <-> tokens s = 0 /\ t_queued s = 0.
Proof.
  unfold outstanding, tokens. rewrite existsb_tok_threads.
  destruct (p_owns s); destruct (t_queued s); destruct (tok_threads (threads s)); cbn; split; intros; try lia; try discriminate; auto.
Qed.

(* accounting invariant: every submission has exactly one completion token, which is
   with the provider, being finished, being dispatched, queued, or already ran.
   The last conjunct: do_expire_proc completes a sleep itself, not through the provider's cancel function, and the
   token it then dispatches has to be the one counted under p_owns. *)
Definition Inv1 (s : aio) : Prop :=
  g_subs s = g_cbs s + t_queued s + tokens s /\
  t_busy s = (if t_prep s then 1 else 0) + t_queued s + t_running s /\
  tokens s + t_queued s <= 1 /\
  (t_prep s = true <-> tokens s = 1) /\
  (a_sleep s = true -> p_owns s = true /\ p_sleep s = true).

Lemma inv1_init : Inv1 aio_init.
Proof. unfold Inv1, tokens; cbn. repeat split; auto; try lia; intros; discriminate. Qed.

(* nothing prepared, queued or running: every submission has had its callback *)
Lemma unbusy_counts s : Inv1 s -> t_busy s = 0 ->
  g_subs s = g_cbs s /\ t_queued s = 0 /\ t_running s = 0 /\ tokens s = 0.
Proof.
  intros (I1 & I2 & I3 & I4 & I5) B. destruct (t_prep s) eqn:P; [lia|].
  assert (tokens s <> 1) by (intros X; apply I4 in X; congruence). lia.
Qed.

Section Fixed.
Variable fixed : bool.
Variable fdone : bool.

Ltac tok_simp := unfold tokens, spawn in *; cbn [app] in *; simp_a; rewrite ?tok_threads_app in *; cbn [tok_threads tok_thread tok_act app] in *.

(* the conjuncts of Inv1 as six goals: the fourth, an iff, as its two directions *)
Ltac split_inv1 := split; [|split; [|split; [|split; [split|]]]].
(* either direction of [t_prep _ = true <-> tokens _ = 1], from the same fact I4 about the state before *)
Ltac by_prep I4 := try (intros P; apply I4 in P; lia); try (intros P; apply I4; lia).

Theorem inv1_step s l s' : Inv1 s -> astep fixed fdone s l = Some s' -> Inv1 s'.
Proof.
  intros (I1 & I2 & I3 & I4 & I5) H. unfold Inv1.
  destruct l as [zero dl sleep eok|rv|rv|now| | |k| | | ]; cbn [astep] in H.
  - destruct (outstanding s) eqn:O; [discriminate|]. apply outstanding_false in O as [T0 Q0].
    assert (P0: t_prep s = false). { destruct (t_prep s) eqn:P; auto. destruct I4 as [I4 _]. specialize (I4 eq_refl). lia. }
    assert (O0: p_owns s = false). { unfold tokens in T0. destruct (p_owns s); auto. lia. }
    assert (TT: tok_threads (threads s) = 0). { unfold tokens in T0. rewrite O0 in T0. lia. }
    destruct (a_stop s); [|destruct (a_abort s); [|destruct zero]]; injection H as <-;
      tok_simp; rewrite ?P0, ?Q0, ?TT in *; split_inv1; try lia; auto; try discriminate.
  - destruct (p_owns s && negb (p_sleep s)) eqn:E; [|discriminate]. apply andb_true_iff in E as [O NS].
    injection H as <-. tok_simp. rewrite O in *. split_inv1; try lia; auto; by_prep I4.
    intros SL. destruct (I5 SL) as [_ PS]. rewrite PS in NS. discriminate.
  - destruct (rv =? 0)%N; [discriminate|].
    destruct (a_cancel s); [|destruct (fdone && a_done s)]; injection H as <-; tok_simp; split_inv1; try lia; auto; by_prep I4;
      try (intros SL; apply I5 in SL; tauto).
  - (* LExpire: the scan only marks *)
    destruct (a_on_eq s && negb (a_expiring s)) eqn:OE; [|discriminate].
    destruct (negb match a_expire s with Some e => (e <? now)%N | None => false end); [discriminate|].
    injection H as <-. tok_simp. split_inv1; try lia; auto; by_prep I4.
  - destruct (a_expiring s); [discriminate|]. injection H as <-.
    destruct (a_cancel s); tok_simp; split_inv1; try lia; auto; by_prep I4.
  - injection H as <-.
    destruct (a_cancel s); tok_simp; split_inv1; try lia; auto; by_prep I4.
  - apply (astep_run fixed fdone) in H as (a & rest & s1 & more & N & R & ->).
    pose proof (cnt_run tok_act _ _ _ _ more N) as TR.
    change (cnt tok_act) with tok_threads in TR. change (cnt_thread tok_act) with tok_thread in TR.
    unfold tokens in *.
    destruct a; cbn [run_pact] in R.
    + assert (HP: t_prep s = true).
      { apply I4. pose proof (tok_in_threads (threads s) PDispatch rest (nth_error_In _ _ N) eq_refl). lia. }
      injection R as <- <-. unfold do_dispatch in *. simp_a. cbn [app tok_thread tok_act] in *. rewrite HP in *.
      split_inv1; try lia; auto; try (intros; discriminate).
    + injection R as <- <-. unfold do_finish in *. simp_a. cbn [app tok_thread tok_act] in *.
      split_inv1; try lia; auto; by_prep I4; try discriminate.
    + unfold do_call_cancel in R. destruct (p_owns s) eqn:O; injection R as <- <-; simp_a;
        cbn [app tok_thread tok_act] in *; rewrite ?O; split_inv1; try lia; auto; by_prep I4.
      destruct (p_sleep s) eqn:PS; [discriminate|]. intros SL. destruct (I5 SL) as [_ X]. congruence.
    + unfold do_expire_proc in R.
      destruct (fixed && negb match a_expire s with Some e => (e <? now)%N | None => false end);
        [|destruct (a_sleep s) eqn:SL; [destruct (I5 eq_refl) as [O PS]; rewrite O in *|destruct (a_cancel s) eqn:C]];
        injection R as <- <-; simp_a; cbn [app tok_thread tok_act] in *;
        split_inv1; try lia; auto; by_prep I4; try discriminate.
    + injection R as <- <-. simp_a. cbn [app tok_thread tok_act] in *.
      split_inv1; try lia; auto; by_prep I4.
    + destruct (t_busy s =? 0); [|discriminate R]. injection R as <- <-. simp_a. cbn [app tok_thread tok_act] in *.
      split_inv1; try lia; auto; by_prep I4.
  - destruct (t_queued s) as [|q] eqn:Q; [discriminate|]. injection H as <-.
    tok_simp. split_inv1; try lia; auto; by_prep I4.
  - destruct (t_running s) as [|r] eqn:R; [discriminate|]. injection H as <-.
    tok_simp. split_inv1; try lia; auto; by_prep I4.
  - destruct (outstanding s); [discriminate|]. injection H as <-.
    tok_simp. split_inv1; try lia; auto; by_prep I4; try discriminate.
Qed.

(* stop: once nni_aio_stop has returned, every operation submitted before
   has had its callback, and none of them runs a callback afterwards *)
Definition Inv2 (s : aio) : Prop :=
  (g_stop_returned s = true -> g_subs_at_stop s <= g_cbs s) /\ g_cb_after_stop s = false.

Lemma inv2_init : Inv2 aio_init.
Proof. split; [intros; discriminate|reflexivity]. Qed.

Theorem inv2_step s l s' : Inv1 s -> Inv2 s -> astep fixed fdone s l = Some s' -> Inv2 s'.
Proof.
  intros HI [J1 J2] H. destruct (astep_ghost _ _ _ _ _ H) as (_ & C & A & ST & _). split.
  - intros R. destruct ST as [[E1 E2]|(B & _ & E2)]; rewrite E2.
    + rewrite E1 in R. specialize (J1 R). lia.
    + destruct (unbusy_counts s HI B) as [E _]. lia.
  - rewrite A, J2. destruct l; try reflexivity. destruct (g_stop_returned s); [|reflexivity].
    apply Nat.ltb_ge. exact (J1 eq_refl).
Qed.

Lemma arun_inv ls : forall s, Inv1 s -> Inv2 s -> forall s', arun fixed fdone s ls = Some s' -> Inv1 s' /\ Inv2 s'.
Proof.
  intros s A B s'. apply (arun_ind fixed fdone (fun s => Inv1 s /\ Inv2 s)); [|split; assumption].
  intros s0 l s1 [A0 B0] S. split; [eapply inv1_step|eapply inv2_step]; eauto.
Qed.

Theorem aio_exactly_once ls s : arun fixed fdone aio_init ls = Some s ->
  g_subs s = g_cbs s + t_queued s + tokens s /\ g_cbs s <= g_subs s /\ tokens s + t_queued s <= 1 /\
  t_busy s = (if t_prep s then 1 else 0) + t_queued s + t_running s.
Proof.
  intros H. destruct (arun_inv ls aio_init inv1_init inv2_init s H) as [(I1 & I2 & I3 & I4 & I5) _].
  repeat split; auto. lia.
Qed.

Theorem aio_stop_quiesces ls s : arun fixed fdone aio_init ls = Some s ->
  g_cb_after_stop s = false /\ (g_stop_returned s = true -> g_subs_at_stop s <= g_cbs s).
Proof.
  intros H. destruct (arun_inv ls aio_init inv1_init inv2_init s H) as [_ [J1 J2]]. auto.
Qed.

(* at the moment nni_aio_stop returns nothing is queued, running or in flight *)
Theorem aio_stop_return_state s k rest s' :
  Inv1 s -> nth_error (threads s) k = Some (PStopWait :: rest) -> astep fixed fdone s (LRun k) = Some s' ->
  t_queued s' = 0 /\ t_running s' = 0 /\ tokens s' = 0 /\ g_cbs s' = g_subs s' /\ a_stop s' = a_stop s.
Proof.
  intros HI N H. cbn [astep] in H. rewrite N in H. cbn [run_pact] in H.
  destruct (t_busy s =? 0) eqn:B; [|discriminate]. injection H as <-. apply Nat.eqb_eq in B.
  destruct (unbusy_counts s HI B) as (E & Q0 & R0 & T0).
  pose proof (cnt_run tok_act _ _ _ _ [] N) as X. change (cnt tok_act) with tok_threads in X.
  unfold tokens in *. simp_a. cbn [app cnt_thread tok_act] in *. repeat split; lia.
Qed.

Definition dsp_act (a : pact) : nat := match a with PDispatch => 1 | _ => 0 end.
Fixpoint dsp_thread (t : list pact) : nat := match t with [] => 0 | a :: r => dsp_act a + dsp_thread r end.
Fixpoint dsp_threads (ts : list (list pact)) : nat := match ts with [] => 0 | t :: r => dsp_thread t + dsp_threads r end.
Lemma dsp_thread_app a b : dsp_thread (a ++ b) = dsp_thread a + dsp_thread b.
Proof. exact (cnt_thread_app dsp_act a b). Qed.
Lemma dsp_threads_app a b : dsp_threads (a ++ b) = dsp_threads a + dsp_threads b.
Proof. exact (cnt_app dsp_act a b). Qed.
Lemma dsp_le_tok_thread t : dsp_thread t <= tok_thread t.
Proof. induction t as [|a r IH]; cbn; [lia|]. destruct a; cbn; lia. Qed.
Lemma dsp_le_tok ts : dsp_threads ts <= tok_threads ts.
Proof. induction ts as [|t r IH]; cbn; [lia|]. pose proof (dsp_le_tok_thread t). lia. Qed.

(* the witness of the late-abort defect of the tree as it is: an abort that arrives
   after the operation has completed, but before its callback runs, changes the result *)
Definition late_abort_run : list alabel :=
  [LStart false None false false; LProvFinish 0; LRun 0; LAbort A_CANCELED; LRun 0; LRunCb].
Theorem aio_result_refuted :
  exists s, arun fixed false aio_init late_abort_run = Some s /\ g_bad_result s = true.
Proof. eexists. split; [vm_compute; reflexivity|reflexivity]. Qed.

(* an abort is "late" when the framework holds no cancel function and a completion is on its way *)
Definition not_late (s : aio) (l : alabel) : Prop :=
  match l with LAbort _ => a_cancel s = true \/ (fdone && a_done s = true) \/ g_fin s = None | _ => True end.

Definition InvR (s : aio) : Prop :=
  g_bad_result s = false /\
  (forall r, g_fin s = Some r -> a_result s = r) /\
  (g_fin s <> None <-> dsp_threads (threads s) + t_queued s = 1).

Lemma invR_init : InvR aio_init.
Proof. unfold InvR; cbn. repeat split; auto; try discriminate; try congruence; intros; try lia. Qed.

Lemma fin_in_threads ts rv rest : In (PFinish rv :: rest) ts -> dsp_threads ts + 1 <= tok_threads ts.
Proof.
  induction ts as [|t r IH]; intros Hin; [destruct Hin|]. cbn.
  destruct Hin as [->|Hin].
  - cbn. pose proof (dsp_le_tok_thread rest). pose proof (dsp_le_tok r). lia.
  - specialize (IH Hin). pose proof (dsp_le_tok_thread t). lia.
Qed.

(* a completion has won only while its dispatch or its callback is still to come *)
Lemma no_fin s : InvR s -> dsp_threads (threads s) + t_queued s = 0 -> g_fin s = None.
Proof.
  intros (_ & _ & J3) Z. destruct (g_fin s) eqn:F; [|reflexivity].
  assert (X: dsp_threads (threads s) + t_queued s = 1) by (apply J3; congruence). lia.
Qed.

Lemma owns_no_fin s : Inv1 s -> InvR s -> p_owns s = true -> g_fin s = None.
Proof.
  intros (_ & _ & I3 & _) HR O. apply (no_fin s HR). unfold tokens in I3. rewrite O in I3.
  pose proof (dsp_le_tok (threads s)). lia.
Qed.

Lemma idle_no_fin s : InvR s -> outstanding s = false -> g_fin s = None.
Proof.
  intros HR O. apply outstanding_false in O as [T0 Q0]. apply (no_fin s HR).
  pose proof (dsp_le_tok (threads s)). unfold tokens in T0. lia.
Qed.

Ltac split_invR := split; [|split].

Theorem invR_step s l s' : Inv1 s -> InvR s -> not_late s l -> astep fixed fdone s l = Some s' -> InvR s'.
Proof.
  intros HI1 HR NL H. pose proof HI1 as (I1 & I2 & I3 & I4 & I5). pose proof HR as (J1 & J2 & J3).
  unfold InvR.
  destruct l as [zero dl sleep eok|rv|rv|now| | |k| | | ]; cbn [astep not_late] in *.
  - destruct (outstanding s) eqn:O; [discriminate|]. apply outstanding_false in O as [T0 Q0].
    assert (D0: dsp_threads (threads s) = 0).
    { pose proof (dsp_le_tok (threads s)). unfold tokens in T0. destruct (p_owns s); lia. }
    destruct (a_stop s); [|destruct (a_abort s); [|destruct zero]]; injection H as <-;
      unfold spawn; simp_a; rewrite ?dsp_threads_app; cbn [dsp_threads dsp_thread dsp_act];
      split_invR; auto; try (intros r E; inversion E; reflexivity); try (intros r E; discriminate);
      try (split; [intros _; rewrite D0, Q0; lia|intros _; discriminate]);
      try (split; [intros X; congruence|intros X; rewrite D0, Q0 in X; lia]).
  - destruct (p_owns s && negb (p_sleep s)); [|discriminate]. injection H as <-.
    unfold spawn; simp_a. rewrite dsp_threads_app. cbn [dsp_threads dsp_thread dsp_act].
    split_invR; auto. rewrite !Nat.add_0_r. exact J3.
  - destruct (rv =? 0)%N; [discriminate|]. destruct (a_cancel s) eqn:C; [|destruct (fdone && a_done s) eqn:FD]; injection H as <-.
    + unfold spawn; simp_a. rewrite dsp_threads_app. cbn [dsp_threads dsp_thread dsp_act].
      split_invR; auto. rewrite !Nat.add_0_r. exact J3.
    + simp_a. split_invR; auto.
    + destruct NL as [X|[X|F]]; [discriminate|discriminate|]. simp_a. split_invR; auto. intros r E. congruence.
  - destruct (a_on_eq s && negb (a_expiring s)) eqn:OE; [|discriminate].
    destruct (negb match a_expire s with Some e => (e <? now)%N | None => false end); [discriminate|].
    injection H as <-. unfold spawn; simp_a. rewrite dsp_threads_app.
    cbn [dsp_threads dsp_thread dsp_act]. split_invR; auto. rewrite ?Nat.add_0_r. exact J3.
  - destruct (a_expiring s); [discriminate|]. injection H as <-.
    destruct (a_cancel s); unfold spawn; cbn [app]; simp_a; rewrite dsp_threads_app;
      cbn [dsp_threads dsp_thread dsp_act]; split_invR; auto; rewrite ?Nat.add_0_r; exact J3.
  - injection H as <-.
    destruct (a_cancel s); unfold spawn; simp_a; rewrite ?dsp_threads_app;
      cbn [dsp_threads dsp_thread dsp_act]; split_invR; auto; rewrite ?Nat.add_0_r; exact J3.
  - (* LRun: where g_fin does not change, the count of dispatches to come does not either *)
    apply (astep_run fixed fdone) in H as (a & rest & s1 & more & N & R & ->). simp_a.
    pose proof (cnt_run dsp_act _ _ _ _ more N) as DR.
    change (cnt dsp_act) with dsp_threads in DR. change (cnt_thread dsp_act) with dsp_thread in DR.
    destruct a; cbn [run_pact] in R.
    + injection R as <- <-. unfold do_dispatch; simp_a. cbn [app dsp_thread dsp_act] in *.
      split_invR; auto. split; intros X; [apply J3 in X|apply J3]; lia.
    + injection R as <- <-. unfold do_finish; simp_a. cbn [app dsp_thread dsp_act] in *.
      pose proof (fin_in_threads (threads s) rv rest (nth_error_In _ _ N)) as FT.
      assert (Z: dsp_threads (threads s) + t_queued s = 0) by (unfold tokens in I3; destruct (p_owns s); lia).
      rewrite (no_fin s HR Z). split_invR; auto.
      * intros r E. inversion E. reflexivity.
      * split; [intros _; lia|intros _; discriminate].
    + unfold do_call_cancel in R. destruct (p_owns s) eqn:O; injection R as <- <-; simp_a;
        cbn [app dsp_thread dsp_act] in *; split_invR; auto; split; intros X; [apply J3 in X|apply J3|apply J3 in X|apply J3]; lia.
    + unfold do_expire_proc in R.
      destruct (fixed && negb match a_expire s with Some e => (e <? now)%N | None => false end);
        [|destruct (a_sleep s) eqn:SL; [|destruct (a_cancel s) eqn:C]];
        injection R as <- <-; simp_a; cbn [app dsp_thread dsp_act] in *;
        try (split_invR; auto; split; intros X; [apply J3 in X|apply J3]; lia).
      (* the sleep is completed here: it was with the provider, so no completion was on its way *)
      destruct (I5 eq_refl) as [O _].
      assert (D0: dsp_threads (threads s) + t_queued s = 0).
      { unfold tokens in I3. rewrite O in I3. pose proof (dsp_le_tok (threads s)). lia. }
      rewrite (no_fin s HR D0). split_invR; auto.
      * intros r E. inversion E. reflexivity.
      * split; [intros _; lia|intros _; discriminate].
    + injection R as <- <-. simp_a. cbn [app dsp_thread dsp_act] in *.
      split_invR; auto. split; intros X; [apply J3 in X|apply J3]; lia.
    + destruct (t_busy s =? 0); [|discriminate R]. injection R as <- <-. simp_a. cbn [app dsp_thread dsp_act] in *.
      split_invR; auto. split; intros X; [apply J3 in X|apply J3]; lia.
  - destruct (t_queued s) as [|q] eqn:Q; [discriminate|]. injection H as <-. simp_a.
    assert (F: g_fin s <> None) by (apply J3; pose proof (dsp_le_tok (threads s)); unfold tokens in I3; destruct (p_owns s); lia).
    destruct (g_fin s) as [r|] eqn:E; [|congruence]. rewrite (J2 r eq_refl), N.eqb_refl, J1. cbn.
    split_invR; auto; try (intros; discriminate).
    split; [intros X; congruence|]. intros X. exfalso.
    pose proof (dsp_le_tok (threads s)). unfold tokens in I3. destruct (p_owns s); lia.
  - destruct (t_running s); [discriminate|]. injection H as <-. simp_a. split_invR; auto.
  - destruct (outstanding s) eqn:O; [discriminate|]. injection H as <-. simp_a.
    rewrite (idle_no_fin s HR O) in *. split_invR; auto. intros r E; discriminate.
Qed.

(* runs in which no abort is late *)
Fixpoint arun_nl (s : aio) (ls : list alabel) : Prop :=
  match ls with
  | [] => True
  | l :: r => not_late s l /\ match astep fixed fdone s l with Some s1 => arun_nl s1 r | None => True end
  end.

Theorem aio_result_consistent_partial ls : forall s s',
  Inv1 s -> Inv2 s -> InvR s -> arun_nl s ls -> arun fixed fdone s ls = Some s' -> g_bad_result s' = false.
Proof.
  induction ls as [|l r IH]; intros s s' A B C NL H; cbn [arun arun_nl] in *.
  - injection H as <-. apply C.
  - destruct NL as [NL1 NL2]. destruct (astep fixed fdone s l) as [s1|] eqn:S; [|discriminate].
    eapply (IH s1); eauto.
    + eapply inv1_step; eauto.
    + eapply inv2_step; eauto.
    + eapply invR_step; eauto.
Qed.

(* progress: the completion machinery is never stuck, and stop returns.
   Each weight exceeds what the step leaves behind: PExpireProc 8 > [PCallCancel; PExpireDone] 6 + 1,
   PCallCancel 6 > [PFinish] 5, PFinish 5 > [PDispatch] 4, PDispatch 4 > one more queued task 2 > a running one 1. *)
Definition w_act (a : pact) : nat :=
  match a with PExpireProc _ => 8 | PCallCancel _ => 6 | PFinish _ => 5 | PDispatch => 4 | PExpireDone => 1 | PStopWait => 1 end.
Fixpoint w_thread (t : list pact) : nat := match t with [] => 0 | a :: r => w_act a + w_thread r end.
Fixpoint w_threads (ts : list (list pact)) : nat := match ts with [] => 0 | t :: r => w_thread t + w_threads r end.
Definition mu (s : aio) : nat := w_threads (threads s) + 2 * t_queued s + t_running s.

Lemma w_thread_app a b : w_thread (a ++ b) = w_thread a + w_thread b.
Proof. exact (cnt_thread_app w_act a b). Qed.

Definition internal (l : alabel) : Prop := match l with LRun _ | LRunCb | LCbDone => True | _ => False end.

(* every step of the library's own threads makes progress *)
Theorem aio_internal_decreases s l s' : internal l -> astep fixed fdone s l = Some s' -> mu s' < mu s.
Proof.
  intros I H. destruct l; try destruct I; cbn [astep] in H.
  - apply (astep_run fixed fdone) in H as (a & rest & s1 & more & N & R & ->).
    unfold mu. simp_a.
    pose proof (cnt_run w_act _ _ _ _ more N) as W.
    change (cnt w_act) with w_threads in W. change (cnt_thread w_act) with w_thread in W.
    destruct a; cbn [run_pact] in R.
    + injection R as <- <-. unfold do_dispatch. simp_a. cbn [w_thread w_act] in W. lia.
    + injection R as <- <-. unfold do_finish. simp_a. cbn [w_thread w_act] in W. lia.
    + unfold do_call_cancel in R. destruct (p_owns s); injection R as <- <-; simp_a; cbn [w_thread w_act] in W; lia.
    + unfold do_expire_proc in R.
      destruct (fixed && negb match a_expire s with Some e => (e <? now)%N | None => false end);
        [|destruct (a_sleep s); [|destruct (a_cancel s)]]; injection R as <- <-; simp_a; cbn [w_thread w_act] in W; lia.
    + injection R as <- <-. simp_a. cbn [w_thread w_act] in W. lia.
    + destruct (t_busy s =? 0); [|discriminate R]. injection R as <- <-. simp_a. cbn [w_thread w_act] in W. lia.
  - destruct (t_queued s) eqn:Q; [discriminate|]. injection H as <-. unfold mu. simp_a. lia.
  - destruct (t_running s) eqn:R; [discriminate|]. injection H as <-. unfold mu. simp_a. lia.
Qed.
End Fixed.

Lemma arun_early_const fd ls : forall s s', arun true fd s ls = Some s' -> g_early s' = g_early s.
Proof.
  intros s s'. refine (arun_ind true fd (fun x => g_early x = g_early s) _ ls s s' eq_refl).
  intros s0 l s1 <- S. destruct (astep_ghost _ _ _ _ _ S) as (_ & _ & _ & _ & G & _). exact (G eq_refl).
Qed.

(* a timeout is never decided before the deadline: the repaired expire loop leaves g_early alone;
   the expire loop of the pinned tree did deliver an early one (the witness below) *)
Theorem aio_timeout_not_early_holds fd ls : forall s s',
  g_early s = false -> arun true fd s ls = Some s' -> g_early s' = false.
Proof. intros s s' <- R. exact (arun_early_const fd ls s s' R). Qed.

(* operation 1 (deadline 5) is found due by the scan at time 10 and marked; before the
   batch gets to it, it completes, its callback runs, and operation 2 (deadline 1000)
   is started on the same aio; the pinned loop then cancels operation 2 with a timeout *)
Definition early_timeout_run : list alabel :=
  [LStart false (Some 5%N) false false; LExpire 10%N; LProvFinish 0; LRun 1; LRun 1; LRunCb; LCbDone;
   LStart false (Some 1000%N) false false; LRun 0].
Theorem aio_timeout_early_refuted fd :
  exists s, arun false fd aio_init early_timeout_run = Some s /\ g_early s = true.
Proof. destruct fd; eexists; (split; [vm_compute; reflexivity|reflexivity]). Qed.
Theorem aio_timeout_early_repaired fd :
  exists s, arun true fd aio_init early_timeout_run = Some s /\ g_early s = false /\ p_owns s = true /\ a_expiring s = false.
Proof. destruct fd; eexists; (split; [vm_compute; reflexivity|repeat split]). Qed.

(* when nni_aio_stop (nni_aio_fini) returns, the expire thread holds no reference to the
   aio: it is not marked expiring and no continuation of the expire loop for it is
   pending; it is off the expire list for good.  (The memory can be released.) *)
Definition exp_act (a : pact) : nat := match a with PExpireProc _ | PExpireDone => 1 | _ => 0 end.
Fixpoint exp_thread (t : list pact) : nat := match t with [] => 0 | a :: r => exp_act a + exp_thread r end.
Fixpoint exp_threads (ts : list (list pact)) : nat := match ts with [] => 0 | t :: r => exp_thread t + exp_threads r end.
Definition sw_act (a : pact) : nat := match a with PStopWait => 1 | _ => 0 end.
Fixpoint sw_thread (t : list pact) : nat := match t with [] => 0 | a :: r => sw_act a + sw_thread r end.
Fixpoint sw_threads (ts : list (list pact)) : nat := match ts with [] => 0 | t :: r => sw_thread t + sw_threads r end.

Lemma exp_thread_app a b : exp_thread (a ++ b) = exp_thread a + exp_thread b.
Proof. exact (cnt_thread_app exp_act a b). Qed.
Lemma exp_threads_app a b : exp_threads (a ++ b) = exp_threads a + exp_threads b.
Proof. exact (cnt_app exp_act a b). Qed.
Lemma sw_thread_app a b : sw_thread (a ++ b) = sw_thread a + sw_thread b.
Proof. exact (cnt_thread_app sw_act a b). Qed.
Lemma sw_threads_app a b : sw_threads (a ++ b) = sw_threads a + sw_threads b.
Proof. exact (cnt_app sw_act a b). Qed.

Definition InvE (s : aio) : Prop :=
  exp_threads (threads s) = (if a_expiring s then 1 else 0) /\
  (a_stop s = true -> a_on_eq s = false) /\
  (0 < sw_threads (threads s) \/ g_stop_returned s = true -> a_stop s = true /\ a_expiring s = false).

Lemma invE_init : InvE aio_init.
Proof. unfold InvE; cbn. split; [reflexivity|]. split; [intros; reflexivity|]. intros [X|X]; [lia|discriminate]. Qed.

Ltac split_invE := split; [|split].
(* the second conjunct of InvE after a step: a_stop puts the aio off the expire list before the step (E2), and the
   step's own test, if any, is decided by cases *)
Ltac off_list E2 := let ST := fresh "ST" in intros ST; try (rewrite (E2 ST)); try match goal with |- context [if ?b then _ else _] => destruct b end; auto.

Theorem invE_step fixed fd s l s' : InvE s -> astep fixed fd s l = Some s' -> InvE s'.
Proof.
  intros (E1 & E2 & E3) H. unfold InvE.
  destruct l as [zero dl sleep eok|rv|rv|now| | |k| | | ]; cbn [astep] in H.
  - destruct (outstanding s); [discriminate|].
    destruct (a_stop s) eqn:ST; [|destruct (a_abort s); [|destruct zero]]; injection H as <-;
      unfold spawn; simp_a; rewrite ?exp_threads_app, ?sw_threads_app; cbn [exp_threads exp_thread exp_act sw_threads sw_thread sw_act];
      rewrite ?Nat.add_0_r; split_invE; auto; try (intros; discriminate); try (intros X; destruct (E3 X); congruence).
  - destruct (p_owns s && negb (p_sleep s)); [|discriminate H]. injection H as <-.
    unfold spawn; simp_a; rewrite ?exp_threads_app, ?sw_threads_app; cbn [exp_threads exp_thread exp_act sw_threads sw_thread sw_act];
      rewrite ?Nat.add_0_r; split_invE; auto.
  - destruct (rv =? 0)%N; [discriminate|]. destruct (a_cancel s); [|destruct (_ && a_done s)]; injection H as <-;
      unfold spawn; simp_a; rewrite ?exp_threads_app, ?sw_threads_app; cbn [exp_threads exp_thread exp_act sw_threads sw_thread sw_act];
      rewrite ?Nat.add_0_r; split_invE; auto.
  - destruct (a_on_eq s && negb (a_expiring s)) eqn:OE; [|discriminate]. apply andb_true_iff in OE as [O1 O2].
    destruct (negb match a_expire s with Some e => (e <? now)%N | None => false end); [discriminate|].
    injection H as <-. destruct (a_expiring s) eqn:EX; [discriminate|].
    unfold spawn; simp_a; rewrite ?exp_threads_app, ?sw_threads_app; cbn [exp_threads exp_thread exp_act sw_threads sw_thread sw_act].
    split_invE; [lia|off_list E2|]. rewrite Nat.add_0_r. intros X. destruct (E3 X) as [ST _]. rewrite (E2 ST) in O1. discriminate.
  - destruct (a_expiring s) eqn:EX; [discriminate|]. injection H as <-.
    destruct (a_cancel s); unfold spawn; cbn [app]; simp_a; rewrite ?exp_threads_app, ?sw_threads_app;
      cbn [exp_threads exp_thread exp_act sw_threads sw_thread sw_act]; split_invE; auto; lia.
  - injection H as <-.
    destruct (a_cancel s); unfold spawn; simp_a; rewrite ?exp_threads_app, ?sw_threads_app;
      cbn [exp_threads exp_thread exp_act sw_threads sw_thread sw_act]; rewrite ?Nat.add_0_r; split_invE; auto;
      intros X; destruct (E3 X); auto.
  - apply (astep_run fixed fd) in H as (a & rest & s1 & more & N & R & ->). simp_a.
    pose proof (cnt_run exp_act _ _ _ _ more N) as XR.
    change (cnt exp_act) with exp_threads in XR. change (cnt_thread exp_act) with exp_thread in XR.
    pose proof (cnt_run sw_act _ _ _ _ more N) as SR.
    change (cnt sw_act) with sw_threads in SR. change (cnt_thread sw_act) with sw_thread in SR.
    (* a continuation of the expire loop is pending: the aio is marked (E1), so nobody is stopping it *)
    assert (EXP : exp_act a = 1 ->
              a_expiring s = true /\ ~ (0 < sw_threads (threads s) \/ g_stop_returned s = true)).
    { intros A1. pose proof (cnt_in exp_act _ _ _ (nth_error_In _ _ N)) as X1.
      change (cnt exp_act) with exp_threads in X1. rewrite A1, E1 in X1.
      destruct (a_expiring s); [|lia]. split; [reflexivity|]. intros X. destruct (E3 X). congruence. }
    destruct a; cbn [run_pact] in R.
    + injection R as <- <-. unfold do_dispatch; simp_a. cbn [exp_thread exp_act sw_thread sw_act] in *.
      split_invE; [lia|off_list E2|]. intros X. apply E3. destruct X; [left; lia|right; auto].
    + injection R as <- <-. unfold do_finish; simp_a. cbn [exp_thread exp_act sw_thread sw_act] in *.
      split_invE; [lia|off_list E2|]. intros X. apply E3. destruct X; [left; lia|right; auto].
    + unfold do_call_cancel in R. destruct (p_owns s); injection R as <- <-; simp_a;
        cbn [exp_thread exp_act sw_thread sw_act] in *;
        (split_invE; [lia|off_list E2|]); intros X; apply E3; (destruct X; [left; lia|right; auto]).
    + destruct (EXP eq_refl) as [EX NS]. unfold do_expire_proc in R.
      destruct (fixed && negb match a_expire s with Some e => (e <? now)%N | None => false end);
        [|destruct (a_sleep s); [|destruct (a_cancel s)]]; injection R as <- <-; simp_a;
        cbn [exp_thread exp_act sw_thread sw_act] in *; rewrite EX in *;
        (split_invE; [lia|off_list E2|]); intros X; exfalso; apply NS; (destruct X; [left; lia|right; auto]).
    + destruct (EXP eq_refl) as [EX NS]. injection R as <- <-. simp_a.
      cbn [exp_thread exp_act sw_thread sw_act] in *. rewrite EX in *.
      split_invE; [lia|off_list E2|]. intros X. exfalso. apply NS. destruct X; [left; lia|right; auto].
    + destruct (t_busy s =? 0); [|discriminate R]. injection R as <- <-. simp_a.
      cbn [exp_thread exp_act sw_thread sw_act] in *. split_invE; [lia|off_list E2|]. intros _. apply E3. left. lia.
  - destruct (t_queued s); [discriminate|]. injection H as <-. simp_a. split_invE; auto.
  - destruct (t_running s); [discriminate|]. injection H as <-. simp_a. split_invE; auto.
  - destruct (outstanding s); [discriminate|]. injection H as <-. simp_a. split_invE; auto.
Qed.

Theorem aio_stop_no_expire_reference fixed fd ls : forall s s', InvE s -> arun fixed fd s ls = Some s' ->
  InvE s' /\ (g_stop_returned s' = true ->
              a_expiring s' = false /\ exp_threads (threads s') = 0 /\ a_on_eq s' = false).
Proof.
  intros s s' HI H.
  assert (HI' : InvE s') by (revert HI H; apply arun_ind; intros s0 l s1 E S; eapply invE_step; eauto).
  split; [exact HI'|]. destruct HI' as (E1 & E2 & E3). intros G.
  destruct (E3 (or_intror G)) as [ST EX]. rewrite EX in E1. auto.
Qed.

(* result consistency in full, for the repaired nni_aio_abort (fix e9a11c8: fdone = true):
   a completion in flight implies a_done, so no abort is ever "late" *)
Definition InvD (s : aio) : Prop := g_fin s <> None -> a_done s = true.

Lemma invD_init : InvD aio_init.
Proof. unfold InvD; cbn. congruence. Qed.

Theorem invD_step fixed fd s l s' : InvR s -> InvD s -> astep fixed fd s l = Some s' -> InvD s'.
Proof.
  intros HR D H. unfold InvD in *.
  destruct (astep_ghost _ _ _ _ _ H) as (_ & _ & _ & _ & _ & [[F [A|O]]|[A|F]]); [| |auto|congruence]; rewrite F.
  - rewrite A. exact D.
  - intros X. destruct X. exact (idle_no_fin s HR O).
Qed.

(* with the repaired abort no reachable abort is late *)
Lemma done_not_late s l : InvD s -> not_late true s l.
Proof.
  intros D. destruct l; cbn [not_late]; auto.
  destruct (a_cancel s); [left; reflexivity|right].
  destruct (g_fin s) eqn:F; [left|right; reflexivity]. cbn [andb]. apply D. congruence.
Qed.

Theorem aio_result_consistent_holds fixed ls : forall s s',
  Inv1 s -> Inv2 s -> InvR s -> InvD s -> arun fixed true s ls = Some s' -> g_bad_result s' = false.
Proof.
  intros s s' A B C D H.
  apply (arun_ind fixed true (fun s => Inv1 s /\ Inv2 s /\ InvR s /\ InvD s)) with (s' := s') in H; [apply H| |auto].
  clear. intros s l s' (A & B & C & D) S.
  split; [eapply inv1_step; eauto|split; [eapply inv2_step; eauto|split; [|eapply invD_step; eauto]]].
  eapply (invR_step fixed true); eauto. apply done_not_late. exact D.
Qed.

(* the stale cancel: "no timeout before the deadline" in full is false of the faithful model.
   The expire loop decides for operation 1 (due), takes its cancel function and drops the lock
   ([PCallCancel] pending); operation 1 completes by another cause, its callback has run, and
   operation 2 (deadline 1000) is started on the same aio; the pending cancel call now reaches
   operation 2 and completes it with A_TIMEDOUT although no clock reading ever exceeded 10.
   [g_early] is decided when the loop decides, so it stays false: that ghost - and the theorem
   aio_timeout_not_early_holds about it - covers the decision, not the delivery. *)
Definition stale_cancel_run : list alabel :=
  [LStart false (Some 5%N) false false; LExpire 10%N; LRun 0; LProvFinish 7%N; LRun 1; LRun 1; LRunCb; LCbDone;
   LStart false (Some 1000%N) false false; LRun 0; LRun 0; LRun 0; LRunCb].

Lemma stale_cancel_delivers_early : forall fixed fdone, exists s1 s2,
  arun fixed fdone aio_init (firstn 9 stale_cancel_run) = Some s1 /\
  a_expire s1 = Some 1000%N /\ p_owns s1 = true /\ g_subs s1 = 2 /\ g_cbs s1 = 1 /\
  arun fixed fdone s1 (skipn 9 stale_cancel_run) = Some s2 /\
  g_cbs s2 = 2 /\ a_result s2 = A_TIMEDOUT /\ g_early s2 = false /\ g_bad_result s2 = false.
Proof.
  intros fixed fdone.
  destruct (arun fixed fdone aio_init (firstn 9 stale_cancel_run)) as [s1|] eqn:E1;
    [|destruct fixed, fdone; vm_compute in E1; discriminate].
  destruct (arun fixed fdone s1 (skipn 9 stale_cancel_run)) as [s2|] eqn:E2;
    [|destruct fixed, fdone; vm_compute in E1; inversion E1; subst; vm_compute in E2; discriminate].
  exists s1, s2.
  destruct fixed, fdone; vm_compute in E1; inversion E1; subst; vm_compute in E2; inversion E2; subst;
    vm_compute; repeat split; reflexivity.
Qed.
