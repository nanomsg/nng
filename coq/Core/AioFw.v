(* AioFw: the framework fields of an nni_aio and, per critical section of aio.c
   (= per record kind of the H2 trace), the function from the fields before to
   the fields after.  The trace conformance check replays every logged record
   through [fw_step]; the lemmas below show that [astep] (AioModel) changes the
   framework fields exactly by these functions, so the functions that are
   checked against the running code are the ones the theorems are about. *)
From Coq Require Import List Arith NArith Bool.
From NngV Require Import Core.AioModel.
Import ListNotations.

Record fw := mkFw { f_stop : bool; f_abort : bool; f_expiring : bool; f_expire_ok : bool; f_sleep : bool;
                    f_cancel : bool; f_on_eq : bool; f_result : N; f_done : bool }.

Definition fw_of (s : aio) : fw :=
  mkFw (a_stop s) (a_abort s) (a_expiring s) (a_expire_ok s) (a_sleep s) (a_cancel s) (a_on_eq s) (a_result s) (a_done s).

Inductive tkind :=
| TStartOk (has_cancel has_deadline : bool) | TStartStopped | TStartAborted | TStartTimeout
| TFinish (rv : N) | TAbort (rv : N) | TStop | TClose | TFini
| TExpire (rv : N) | TExpireDone | TSleepCancel (rv : N) | TReset | TSleepSetup
| TExpireMark | TExpireSkip.

(* None = a record of this kind cannot follow this state *)
Definition fw_step (fdone : bool) (k : tkind) (f : fw) : option fw :=
  let eok := if f_sleep f then f_expire_ok f else false in     (* nni_aio_start: if (!a_sleep) a_expire_ok = false *)
  match k with
  | TStartOk c dl =>
      if f_stop f || f_abort f then None else
      Some (mkFw false false (f_expiring f) eok (f_sleep f) c (dl && c) A_OK false)
  | TStartStopped =>
      (* a_stop, or the whole expire queue is stopping (library shutdown) *)
      Some (mkFw true (f_abort f) (f_expiring f) false false (f_cancel f) (f_on_eq f) A_STOPPED true)
  | TStartAborted =>
      if f_stop f || negb (f_abort f) then None else
      Some (mkFw false false (f_expiring f) false false (f_cancel f) (f_on_eq f) (f_result f) true)
  | TStartTimeout =>
      if f_stop f || f_abort f then None else
      Some (mkFw false false (f_expiring f) false false (f_cancel f) (f_on_eq f) (if eok then A_OK else A_TIMEDOUT) true)
  | TFinish rv =>
      Some (mkFw (f_stop f) (f_abort f) (f_expiring f) (f_expire_ok f) false false false rv true)
  | TAbort rv =>
      if f_cancel f then Some (mkFw (f_stop f) (f_abort f) (f_expiring f) (f_expire_ok f) (f_sleep f) false false (f_result f) (f_done f))
      else if fdone && f_done f
      then Some (mkFw (f_stop f) (f_abort f) (f_expiring f) (f_expire_ok f) (f_sleep f) false false (f_result f) (f_done f))
      else Some (mkFw (f_stop f) true (f_expiring f) (f_expire_ok f) (f_sleep f) false false rv (f_done f))
  | TStop | TFini =>
      if f_expiring f then None else
      Some (mkFw true (f_abort f) false (f_expire_ok f) (f_sleep f) false false (f_result f) (f_done f))
  | TClose =>
      Some (mkFw true (f_abort f) (f_expiring f) (f_expire_ok f) (f_sleep f) false false (f_result f) (f_done f))
  | TExpireMark =>
      (* the scan: a due aio is unlinked from the expire list and held *)
      if f_on_eq f && negb (f_expiring f)
      then Some (mkFw (f_stop f) (f_abort f) true (f_expire_ok f) (f_sleep f) (f_cancel f) false (f_result f) (f_done f))
      else None
  | TExpireSkip =>
      (* its turn in the batch: no longer due (repaired loop) *)
      if f_expiring f then Some (mkFw (f_stop f) (f_abort f) false (f_expire_ok f) (f_sleep f) (f_cancel f) (f_on_eq f) (f_result f) (f_done f))
      else None
  | TExpire rv =>
      (* its turn in the batch: unlinked, cancel function taken; rv = ESTOPPED when the whole queue
         is shutting down, else 0 iff a_expire_ok, else ETIMEDOUT *)
      if negb (f_expiring f) then None else
      let stopping := N.eqb rv A_STOPPED in
      if negb stopping && negb (N.eqb rv (if f_expire_ok f then A_OK else A_TIMEDOUT)) then None else
      let st := if stopping then true else f_stop f in
      let eok := if stopping then f_expire_ok f else false in
      if f_sleep f
      then Some (mkFw st (f_abort f) true eok false false false rv true)
      else Some (mkFw st (f_abort f) true eok (f_sleep f) false false (f_result f) (f_done f))
  | TExpireDone =>
      Some (mkFw (f_stop f) (f_abort f) false (f_expire_ok f) (f_sleep f) (f_cancel f) (f_on_eq f) (f_result f) (f_done f))
  | TSleepCancel rv =>
      if f_sleep f then Some (mkFw (f_stop f) (f_abort f) (f_expiring f) (f_expire_ok f) false (f_cancel f) false (f_result f) (f_done f))
      else None
  | TReset =>
      Some (mkFw (f_stop f) false (f_expiring f) false false (f_cancel f) (f_on_eq f) A_OK false)
  | TSleepSetup =>
      (* nni_sleep_aio after nni_aio_reset: a_sleep = true; a_expire_ok set from the timeouts (either value) *)
      Some (mkFw (f_stop f) (f_abort f) (f_expiring f) (f_expire_ok f) true (f_cancel f) (f_on_eq f) (f_result f) (f_done f))
  end.

Ltac simp_f := cbn [a_stop a_abort a_expiring a_expire_ok a_sleep a_cancel a_on_eq a_expire a_result
                    t_busy t_prep t_queued t_running p_owns p_sleep threads upd_threads fw_of
                    f_stop f_abort f_expiring f_expire_ok f_sleep f_cancel f_on_eq f_result f_done a_done] in *.

Lemma fw_spawn s k : fw_of (spawn s k) = fw_of s.
Proof. destruct k; reflexivity. Qed.
Lemma fw_upd s t : fw_of (upd_threads s t) = fw_of s.
Proof. reflexivity. Qed.

Section Fixed.
Variable fixed : bool.
Variable fdone : bool.

(* nni_aio_start: the four outcomes are the four record kinds *)
Lemma astep_fw_start s zero dl sleep eok s' :
  a_sleep s = sleep -> (sleep = true -> a_expire_ok s = eok) ->   (* nni_sleep_aio has set them (TSleepSetup) *)
  astep fixed fdone s (LStart zero dl sleep eok) = Some s' ->
  exists k, fw_step fdone k (fw_of s) = Some (fw_of s') /\
    k = (if a_stop s then TStartStopped else if a_abort s then TStartAborted else if zero then TStartTimeout
         else TStartOk true (match dl with Some _ => true | None => false end)).
Proof.
  intros <- EO H. cbn [astep] in H. destruct (outstanding s); [discriminate|]. eexists; split; [|reflexivity].
  destruct (a_stop s) eqn:ST; [|destruct (a_abort s) eqn:AB; [|destruct zero]].
  - injection H as <-. unfold spawn. cbn [fw_step]. simp_f. reflexivity.
  - injection H as <-. unfold spawn. cbn [fw_step]. simp_f. rewrite ST, AB. reflexivity.
  - injection H as <-. unfold spawn. cbn [fw_step]. simp_f. rewrite ST, AB. cbn [orb].
    destruct (a_sleep s) eqn:S1; [rewrite (EO eq_refl)|]; reflexivity.
  - injection H as <-. cbn [fw_step]. simp_f. rewrite ST, AB. cbn [orb].
    destruct (a_sleep s) eqn:S1; [rewrite (EO eq_refl)|]; destruct dl; reflexivity.
Qed.

Lemma astep_fw_abort s rv s' : astep fixed fdone s (LAbort rv) = Some s' -> fw_step fdone (TAbort rv) (fw_of s) = Some (fw_of s').
Proof.
  cbn [astep]. destruct (rv =? 0)%N; [discriminate|]. cbn [fw_step]. simp_f.
  destruct (a_cancel s); [|destruct (fdone && a_done s)]; intros H; inversion H; subst; unfold spawn; reflexivity.
Qed.

Lemma astep_fw_stop s s' : astep fixed fdone s LStop = Some s' -> fw_step fdone TStop (fw_of s) = Some (fw_of s').
Proof.
  cbn [astep fw_step]. simp_f. destruct (a_expiring s); [discriminate|]. intros H; inversion H; subst.
  unfold spawn. destruct (a_cancel s); reflexivity.
Qed.

Lemma astep_fw_close s s' : astep fixed fdone s LClose = Some s' -> fw_step fdone TClose (fw_of s) = Some (fw_of s').
Proof. cbn [astep fw_step]. intros H; inversion H; subst. unfold spawn. destruct (a_cancel s); reflexivity. Qed.

Lemma astep_fw_reset s s' : astep fixed fdone s LReset = Some s' -> fw_step fdone TReset (fw_of s) = Some (fw_of s').
Proof. cbn [astep fw_step]. destruct (outstanding s); [discriminate|]. intros H; inversion H; subst. reflexivity. Qed.

(* the expire loop's scan *)
Lemma astep_fw_expire_mark s now s' : astep fixed fdone s (LExpire now) = Some s' ->
  fw_step fdone TExpireMark (fw_of s) = Some (fw_of s').
Proof.
  intros H. cbn [astep] in H. cbn [fw_step]. simp_f. destruct (a_on_eq s && negb (a_expiring s)); [|discriminate].
  destruct (negb match a_expire s with Some e => (e <? now)%N | None => false end); [discriminate|].
  inversion H; subst; clear H. unfold spawn. reflexivity.
Qed.

(* continuations *)
Lemma run_pact_fw s a s1 more : run_pact fixed s a = Some (s1, more) ->
  match a with
  | PFinish rv => fw_step fdone (TFinish rv) (fw_of s) = Some (fw_of s1)
  | PExpireDone => fw_step fdone TExpireDone (fw_of s) = Some (fw_of s1)
  | PCallCancel rv =>
      if p_owns s && p_sleep s then a_sleep s = true -> fw_step fdone (TSleepCancel rv) (fw_of s) = Some (fw_of s1)
      else fw_of s1 = fw_of s        (* an ordinary provider's cancel function touches no framework field *)
  | PExpireProc now =>
      (* the aio's turn in the batch: TExpireSkip, or TExpire and - unless a cancel function is
         called with the lock dropped - TExpireDone in the same critical section *)
      a_expiring s = true ->
      let due := match a_expire s with Some e => (e <? now)%N | None => false end in
      if fixed && negb due then fw_step fdone TExpireSkip (fw_of s) = Some (fw_of s1)
      else
        let rv := if a_expire_ok s then A_OK else A_TIMEDOUT in
        exists f1, fw_step fdone (TExpire rv) (fw_of s) = Some f1 /\
          (if a_sleep s || negb (a_cancel s) then fw_step fdone TExpireDone f1 = Some (fw_of s1) else f1 = fw_of s1)
  | PDispatch | PStopWait => fw_of s1 = fw_of s
  end.
Proof.
  destruct a; cbn [run_pact]; intros H.
  - inversion H; subst. reflexivity.
  - inversion H; subst. reflexivity.
  - unfold do_call_cancel in H. destruct (p_owns s) eqn:O; cbn [andb].
    + destruct (p_sleep s) eqn:PS; inversion H; subst; clear H.
      * intros SL. cbn [fw_step]. simp_f. rewrite SL. reflexivity.
      * simp_f. reflexivity.
    + inversion H; subst. reflexivity.
  - intros EX. cbn zeta. unfold do_expire_proc in H.
    destruct (fixed && negb match a_expire s with Some e => (e <? now)%N | None => false end).
    + inversion H; subst; clear H. cbn [fw_step]. simp_f. rewrite EX. reflexivity.
    + cbn [fw_step]. simp_f. rewrite EX. cbn [negb].
      assert (E1: ((if a_expire_ok s then A_OK else A_TIMEDOUT) =? A_STOPPED)%N = false) by (destruct (a_expire_ok s); reflexivity).
      rewrite E1, N.eqb_refl. cbn [negb andb].
      destruct (a_sleep s) eqn:SL; [|destruct (a_cancel s) eqn:C]; inversion H; subst; clear H;
        (eexists; split; [reflexivity|]); cbn [orb negb]; simp_f; reflexivity.
  - inversion H; subst. reflexivity.
  - destruct (t_busy s =? 0); inversion H; subst. reflexivity.
Qed.
End Fixed.
