(* PipeEvProofs: lemmas about Core/PipeEvModel.v. *)
From Coq Require Import List Arith NArith Bool Lia.
From NngV Require Import Core.PipeEvModel.
Import ListNotations.
Local Open Scope N_scope.

Lemma filter_true : forall last ev, run_cb_filter last ev = true -> last < ev /\ (last = 0 -> ev = 1).
Proof.
  intros last ev. unfold run_cb_filter, EV_NONE, EV_ADD_PRE.
  destruct (N.eqb_spec last 0); destruct (N.eqb_spec ev 1); simpl; try discriminate;
    destruct (N.leb_spec ev last); try discriminate; intros _; split; try lia; intros; try lia.
Qed.

Lemma filter_false_ge : forall last ev, 1 <= last -> run_cb_filter last ev = false -> ev <= last.
Proof.
  intros last ev H. unfold run_cb_filter, EV_NONE.
  destruct (N.eqb_spec last 0); [lia|]. simpl. destruct (N.leb_spec ev last); [auto|discriminate].
Qed.

Lemma filter_pre_from_none : run_cb_filter 0 1 = true.
Proof. reflexivity. Qed.

Fixpoint incr (a : N) (l : list N) : Prop :=
  match l with [] => True | x :: r => a < x /\ incr x r end.
Definition hd_pre (l : list N) : Prop := match l with [] => True | x :: _ => x = 1 end.

Lemma last_indep : forall (r : list N) y d d', last (y :: r) d = last (y :: r) d'.
Proof. induction r as [|z r IH]; intros; [reflexivity|]. change (last (z :: r) d = last (z :: r) d'). apply IH. Qed.

Lemma incr_snoc : forall l a ev, incr a l -> last l a < ev -> incr a (l ++ [ev]).
Proof.
  induction l as [|x r IH]; intros a ev H L.
  - simpl in *. split; [exact L|exact I].
  - destruct H as [H1 H2]. change (a < x /\ incr x (r ++ [ev])). split; [exact H1|]. apply IH; [exact H2|].
    destruct r as [|y r']; [exact L|]. rewrite (last_indep r' y x a). exact L.
Qed.


Lemma incr_weaken : forall l a b, b <= a -> incr a l -> incr b l.
Proof. destruct l; simpl; intros; auto. destruct H0; split; auto; lia. Qed.

(* a strictly increasing list within 1..3 that starts with 1 *)
Lemma ordered_of_incr : forall l, incr 0 l -> hd_pre l -> Forall (fun x => x <= 3) l -> ev_ordered l.
Proof.
  intros l H P F. unfold ev_ordered, EV_ADD_PRE, EV_ADD_POST, EV_REM_POST.
  destruct l as [|x [|y [|z [|u r]]]]; simpl in *; auto.
  - subst x. auto.
  - subst x. destruct H as [_ [H _]]. inversion F as [|? ? _ F1]; subst. inversion F1 as [|? ? Fy _]; subst.
    assert (y = 2 \/ y = 3) as [-> | ->] by lia; auto.
  - subst x. destruct H as [_ [H1 [H2 _]]]. inversion F as [|? ? _ F1]; subst. inversion F1 as [|? ? _ F2]; subst.
    inversion F2 as [|? ? Fz _]; subst. assert (y = 2) by lia. assert (z = 3) by lia. subst. auto 6.
  - subst x. destruct H as [_ [H1 [H2 [H3 _]]]]. inversion F as [|? ? _ F1]; subst. inversion F1 as [|? ? _ F2]; subst.
    inversion F2 as [|? ? _ F3]; subst. inversion F3 as [|? ? Fu _]; subst. lia.
Qed.

Lemma run_cb_seq_incr : forall calls lst,
  incr lst (run_cb_seq calls lst) /\ (lst = 0 -> hd_pre (run_cb_seq calls lst)).
Proof.
  induction calls as [|[w ev] r IH]; intros lst; simpl.
  - split; [exact I|intros; exact I].
  - unfold run_cb1. destruct (w && run_cb_filter lst ev) eqn:E.
    + apply andb_true_iff in E. destruct E as [_ E]. apply filter_true in E. destruct E as [E1 E2].
      simpl. destruct (IH ev) as [I1 _]. split; [split; auto|]. intros Z. simpl. auto.
    + simpl. apply IH.
Qed.

Lemma run_cb_seq_in : forall calls lst x, In x (run_cb_seq calls lst) -> exists w, In (w, x) calls.
Proof.
  induction calls as [|[w ev] r IH]; intros lst x H; simpl in *; [contradiction|].
  unfold run_cb1 in H. destruct (w && run_cb_filter lst ev).
  - simpl in H. destruct H as [<- | H]; [exists w; auto|]. destruct (IH _ _ H) as [w' Hw]. exists w'; auto.
  - simpl in H. destruct (IH _ _ H) as [w' Hw]. exists w'; auto.
Qed.

Theorem run_cb_seq_ordered : forall calls,
  (forall w ev, In (w, ev) calls -> 1 <= ev <= 3) -> ev_ordered (run_cb_seq calls EV_NONE).
Proof.
  intros calls H. destruct (run_cb_seq_incr calls 0) as [I1 I2].
  apply ordered_of_incr; auto. apply Forall_forall. intros x Hx.
  destruct (run_cb_seq_in _ _ _ Hx) as [w Hw]. apply H in Hw. lia.
Qed.

(* with arbitrary event arguments: still strictly increasing and starting with ADD_PRE *)
Theorem run_cb_seq_monotone : forall calls,
  incr 0 (run_cb_seq calls EV_NONE) /\ hd_pre (run_cb_seq calls EV_NONE).
Proof. intros. destruct (run_cb_seq_incr calls 0); auto. Qed.

Lemma Forall_upd : forall (A : Type) (P : A -> Prop) f l i,
  (forall x, P x -> P (f x)) -> Forall P l -> Forall P (upd l i f).
Proof.
  intros A P f. induction l as [|x r IH]; intros i Hf H; simpl.
  - destruct i; constructor.
  - inversion H; subst. destruct i; constructor; auto.
Qed.

(* how one step changes the list of pipes *)
Inductive evolve (okl : plabel -> Prop) (cre : bool) : list pipe -> list pipe -> Prop :=
| ev_refl : forall l, evolve okl cre l l
| ev_upd : forall l i lab, okl lab -> evolve okl cre l (upd l i (fun p => pstep p lab))
| ev_new : forall l, cre = true -> evolve okl cre l (l ++ [pipe_new])
| ev_map : forall l (g : pipe -> bool), okl LClose ->
    evolve okl cre l (map (fun p => if g p then pstep p LClose else p) l).

Lemma evolve_forall : forall (P : pipe -> Prop) (okl : plabel -> Prop) cre l l',
  (cre = true -> P pipe_new) -> (forall p lab, okl lab -> P p -> P (pstep p lab)) ->
  evolve okl cre l l' -> Forall P l -> Forall P l'.
Proof.
  intros P okl cre l l' Hn Hs E. destruct E; intros F; auto.
  - apply Forall_upd; auto.
  - apply Forall_app; split; auto.
  - apply Forall_forall. intros x Hx. apply in_map_iff in Hx. destruct Hx as [y [<- Hy]].
    rewrite Forall_forall in F. destruct (g y); auto.
Qed.

(* labels a step of the socket uses: everything, with LRead carrying the CURRENT s_want_evs *)
Definition okl_of (want : bool) (l : plabel) : Prop :=
  match l with LRead _ w _ _ _ => w = want | _ => True end.

Lemma pipes_set_ser : forall s v, pipes (set_ser s v) = pipes s.
Proof. reflexivity. Qed.
Lemma pipes_plocal : forall s i l, pipes (plocal s i l) = upd (pipes s) i (fun p => pstep p l).
Proof. reflexivity. Qed.
Lemma pipes_set_cb : forall s ev on, pipes (set_cb s ev on) = pipes s.
Proof. intros. unfold set_cb. destruct (_ && _); reflexivity. Qed.

Lemma close_pipe_is_pstep : forall p, close_pipe p = pstep p LClose.
Proof. reflexivity. Qed.

Ltac dmatch := repeat match goal with
  | |- context [match ?x with _ => _ end] => destruct x eqn:?
  end.

(* every operation leaves the pipes alone, steps one of them, adds a fresh one (only while the endpoints
   run) or closes those still on the socket *)
Lemma sstep_evolve : forall s o,
  evolve (okl_of (s_want s)) (negb (s_eps_stopped s)) (pipes s) (pipes (sstep s o)).
Proof.
  intros s o. destruct o; unfold sstep.
  - destruct (s_eps_stopped s); [apply ev_refl|]. apply ev_new. reflexivity.
  - destruct (s_eps_stopped s); [apply ev_refl|]. apply ev_upd; exact I.
  - apply ev_upd. reflexivity.
  - destruct (nth_error (pipes s) i) as [p|]; [|apply ev_refl].
    destruct (at_enter p w) as [[|]|]; [|apply ev_upd; exact I|apply ev_refl].
    destruct (s_ser s); [apply ev_refl|apply ev_upd; exact I].
  - destruct (s_ser s) as [[j w']|]; [|apply ev_refl]. destruct (_ && _); [|apply ev_refl].
    destruct a; [destruct (_ && _); apply ev_upd; exact I|]. rewrite pipes_set_cb. apply ev_refl.
  - destruct (s_ser s) as [[j w']|]; [|apply ev_refl]. destruct (_ && _); [|apply ev_refl]. apply ev_upd; exact I.
  - apply ev_upd; exact I.
  - apply ev_upd; exact I.
  - apply ev_upd; exact I.
  - apply ev_upd; exact I.
  - rewrite pipes_set_cb. apply ev_refl.
  - apply ev_refl.
  - destruct (_ && _); apply ev_refl.
  - destruct (s_eps_stopped s); [|apply ev_refl]. apply (ev_map _ _ (pipes s) (fun p => p_onsock p)). exact I.
  - destruct (_ && _); apply ev_refl.
Qed.

Lemma subseq_snoc_r : forall (A : Type) (a b : list A) x, subseq a b -> subseq a (b ++ [x]).
Proof. intros A a b x H. induction H; simpl; [apply ss_skip; apply ss_nil|apply ss_skip; auto|apply ss_take; auto]. Qed.
Lemma subseq_snoc_both : forall (A : Type) (a b : list A) x, subseq a b -> subseq (a ++ [x]) (b ++ [x]).
Proof. intros A a b x H. induction H; simpl; [apply ss_take; apply ss_nil|apply ss_skip; auto|apply ss_take; auto]. Qed.

(* ordering, for every history: the events fired for a pipe are strictly increasing, begin with ADD_PRE, and the
   callbacks that ran are among them in that order *)
Definition PInvO (p : pipe) : Prop :=
  incr 0 (g_fired p) /\ hd_pre (g_fired p) /\ last (g_fired p) 0 = p_last p /\
  Forall (fun x => x <= 3) (g_fired p) /\ subseq (g_cbs p) (g_fired p).

Lemma hd_pre_snoc : forall l ev, hd_pre l -> (last l 0 = 0 -> ev = 1) -> hd_pre (l ++ [ev]).
Proof.
  destruct l as [|x r]; simpl; intros ev H L; auto.
Qed.

Lemma close_pipe_fields : forall p,
  g_fired (close_pipe p) = g_fired p /\ g_cbs (close_pipe p) = g_cbs p /\ p_last (close_pipe p) = p_last p /\
  p_spc (close_pipe p) = p_spc p /\ p_onsock (close_pipe p) = p_onsock p /\ p_pstarted (close_pipe p) = p_pstarted p /\
  g_closed_at_check (close_pipe p) = g_closed_at_check p /\ g_closed_in_pre (close_pipe p) = g_closed_in_pre p /\
  p_closed (close_pipe p) = true.
Proof. intros p. unfold close_pipe. destruct (p_closed p) eqn:E; simpl; repeat split; auto. Qed.

(* an event passes the filter (fire) *)
Lemma fire_PInvO : forall p q ev, PInvO p -> run_cb_filter (p_last p) ev = true -> ev <= 3 ->
  g_fired q = g_fired p ++ [ev] -> p_last q = ev -> g_cbs q = g_cbs p ++ [ev] \/ g_cbs q = g_cbs p -> PInvO q.
Proof.
  intros p q ev (I1 & H1 & L1 & F1 & S2) Ft E3 A C B. apply filter_true in Ft as [Lt Z].
  unfold PInvO. rewrite A, C. repeat split.
  - apply incr_snoc; auto. rewrite L1. exact Lt.
  - apply hd_pre_snoc; auto. rewrite L1. exact Z.
  - apply last_last.
  - apply Forall_app; split; auto.
  - destruct B as [-> | ->]; [apply subseq_snoc_both|apply subseq_snoc_r]; auto.
Qed.

(* what PInvO reads changes only where an event passes the filter *)
Lemma pstep_fired : forall p l, let q := pstep p l in
  (g_fired q = g_fired p /\ g_cbs q = g_cbs p /\ p_last q = p_last p) \/
  exists ev, run_cb_filter (p_last p) ev = true /\ ev <= 3 /\
    g_fired q = g_fired p ++ [ev] /\ p_last q = ev /\ (g_cbs q = g_cbs p ++ [ev] \/ g_cbs q = g_cbs p).
Proof.
  intros p l. destruct l as [ |w want c1 c2 c3|w|w| | |ok| | ]; simpl.
  - destruct (p_spc p); auto.
  - destruct w; [destruct (p_spc p)|destruct (p_rpc p)]; auto.
  - (* run_cb's serialize section *)
    destruct w; [destruct (p_spc p) as [ | |want cb| | | | |want cb| | ]|destruct (p_rpc p) as [ | | | |want cb| | | | ]];
      auto; unfold enter.
    + destruct want; [destruct (run_cb_filter (p_last p) EV_ADD_PRE) eqn:F|]; auto.
      right. exists EV_ADD_PRE. split; [exact F|split; [discriminate|]]. destruct cb; simpl; auto.
    + destruct want; [destruct (run_cb_filter (p_last p) EV_ADD_POST) eqn:F|]; auto.
      right. exists EV_ADD_POST. split; [exact F|split; [discriminate|]]. destruct cb; simpl; auto.
    + destruct want; [destruct (run_cb_filter (p_last p) EV_REM_POST) eqn:F|]; auto.
      right. exists EV_REM_POST. split; [exact F|split; [discriminate|]]. destruct cb; simpl; auto.
  - destruct w; [destruct (p_spc p)|destruct (p_rpc p)]; auto.
  - destruct (close_pipe_fields p) as (A & B & C & _). destruct (p_spc p); auto.
  - destruct (p_spc p); auto.
  - destruct (close_pipe_fields (mkPipe (p_last p) (p_closed p) SDone (p_rpc p) (p_onsock p) true
                                   (g_fired p) (g_cbs p) (g_closed_at_check p) (g_closed_in_pre p))) as (A & B & C & _).
    destruct (p_spc p); auto. destruct ok; auto.
  - destruct (close_pipe_fields p) as (A & B & C & _). auto.
  - destruct (p_rpc p); auto.
Qed.

Lemma pstep_PInvO : forall p l, PInvO p -> PInvO (pstep p l).
Proof.
  intros p l H. destruct (pstep_fired p l) as [(A & B & C)|(ev & F & E & A & C & B)].
  - unfold PInvO. rewrite A, B, C. exact H.
  - exact (fire_PInvO p _ ev H F E A C B).
Qed.

Lemma pipe_new_PInvO : PInvO pipe_new.
Proof. unfold PInvO, pipe_new; simpl. repeat split; auto; try lia. apply ss_nil. Qed.

Lemma srun_forall : forall (P : pipe -> Prop),
  P pipe_new -> (forall p l, P p -> P (pstep p l)) ->
  forall ops s, Forall P (pipes s) -> Forall P (pipes (srun s ops)).
Proof.
  intros P Hn Hs. induction ops as [|o r IH]; intros s F; simpl; auto.
  apply IH. eapply evolve_forall; [| |apply sstep_evolve|exact F]; auto.
Qed.

Theorem events_ordered_all_histories : forall ops s p,
  s = srun sock_init ops -> In p (pipes s) ->
  ev_ordered (g_fired p) /\ subseq (g_cbs p) (g_fired p).
Proof.
  intros ops s p -> Hin.
  assert (F : Forall PInvO (pipes (srun sock_init ops))).
  { apply srun_forall; [apply pipe_new_PInvO|apply pstep_PInvO|constructor]. }
  rewrite Forall_forall in F. destruct (F _ Hin) as (I1 & H1 & L1 & F1 & S2).
  split; [apply ordered_of_incr; auto|auto].
Qed.

Definition before_post (c : spc) : bool :=
  match c with SIdle | SPreRead | SPreEnter _ _ | SPreInCb | SCheck | SProto => true | _ => false end.

Definition late_pre (c : spc) : bool := match c with SPreInCb | SCheck | SDone => true | _ => false end.

(* a pipe closed inside its ADD_PRE callback (or found closed at the check after it) is never started, and the
   start thread does not go on to ADD_POST *)
Definition PInvJ (p : pipe) : Prop :=
  (p_pstarted p = true -> before_post (p_spc p) = false) /\
  (g_closed_in_pre p = true -> p_closed p = true /\ p_pstarted p = false /\ late_pre (p_spc p) = true) /\
  (g_closed_at_check p = true -> p_pstarted p = false /\ p_spc p = SDone).

(* moves of the start thread's pc that keep PInvJ whatever the flags say: never back before ADD_POST, never out of
   {in the ADD_PRE callback, at the check, done}, never out of done *)
Definition spc_fwd (c v : spc) : bool :=
  (before_post c || negb (before_post v)) && (negb (late_pre c) || late_pre v) &&
  match c, v with SDone, SDone => true | SDone, _ => false | _, _ => true end.

Lemma PInvJ_spc : forall p q, PInvJ p -> p_closed q = p_closed p -> p_pstarted q = p_pstarted p ->
  g_closed_at_check q = g_closed_at_check p -> g_closed_in_pre q = g_closed_in_pre p ->
  spc_fwd (p_spc p) (p_spc q) = true -> PInvJ q.
Proof.
  unfold PInvJ, spc_fwd. intros p q (J1 & J2 & J3) -> -> -> -> F.
  apply andb_true_iff in F as [F F3]. apply andb_true_iff in F as [F1 F2].
  split; [|split].
  - intros S. rewrite (J1 S) in F1. apply negb_true_iff. exact F1.
  - intros G. destruct (J2 G) as (A & B & C). rewrite C in F2. auto.
  - intros G. destruct (J3 G) as (A & B). split; [exact A|]. rewrite B in F3. destruct (p_spc q); try discriminate F3; reflexivity.
Qed.

Lemma spc_fwd_refl : forall c, spc_fwd c c = true.
Proof. destruct c; reflexivity. Qed.

Lemma close_pipe_PInvJ : forall p, PInvJ p -> PInvJ (close_pipe p).
Proof.
  intros p H. unfold close_pipe. destruct (p_closed p); [exact H|]. destruct H as (J1 & J2 & J3).
  split; [exact J1|split; [|exact J3]]. simpl. intros G. destruct (J2 G) as (_ & A & B). auto.
Qed.

Lemma pstep_PInvJ : forall p l, PInvJ p -> PInvJ (pstep p l).
Proof.
  intros p l H.
  destruct l as [ | w want c1 c2 c3 | w | w | | | ok | | ]; simpl.
  - destruct (p_spc p) eqn:E; try exact H; apply (PInvJ_spc p _ H); try reflexivity; simpl; rewrite E; reflexivity.
  - destruct w; [destruct (p_spc p) eqn:E|destruct (p_rpc p)]; try exact H;
      apply (PInvJ_spc p _ H); try reflexivity; simpl; first [apply spc_fwd_refl|rewrite E; reflexivity].
  - destruct w; [destruct (p_spc p) eqn:E|destruct (p_rpc p)]; try exact H;
      unfold enter; destruct want; try destruct (run_cb_filter _ _); try destruct cb;
      apply (PInvJ_spc p _ H); try reflexivity; simpl; first [apply spc_fwd_refl|rewrite E; reflexivity].
  - destruct w; [destruct (p_spc p) eqn:E|destruct (p_rpc p)]; try exact H;
      apply (PInvJ_spc p _ H); try reflexivity; simpl; first [apply spc_fwd_refl|rewrite E; reflexivity].
  - pose proof (close_pipe_PInvJ p H) as (J1 & J2 & J3).
    destruct (close_pipe_fields p) as (_ & _ & _ & F1 & _ & _ & _ & _ & F5).
    destruct (p_spc p) eqn:E; try exact (conj J1 (conj J2 J3)).
    split; [exact J1|split; [intros _; simpl|exact J3]].
    split; [exact F5|split; [|rewrite F1; reflexivity]].
    destruct (p_pstarted (close_pipe p)); [|reflexivity]. specialize (J1 eq_refl). rewrite F1 in J1. discriminate J1.
  - destruct (p_spc p) eqn:E; try exact H. destruct H as (J1 & J2 & J3). rewrite E in *.
    assert (S : p_pstarted p = false) by (destruct (p_pstarted p); [discriminate (J1 eq_refl)|reflexivity]).
    unfold PInvJ; simpl. rewrite S. split; [discriminate|split].
    + intros G. destruct (J2 G) as (-> & _). auto.
    + intros ->. auto.
  - destruct (p_spc p) eqn:E; try exact H. destruct H as (J1 & J2 & J3). rewrite E in *.
    assert (K : PInvJ (mkPipe (p_last p) (p_closed p) (if ok then SPostRead else SDone) (p_rpc p) (p_onsock p) true
                         (g_fired p) (g_cbs p) (g_closed_at_check p) (g_closed_in_pre p))).
    { split; [destruct ok; reflexivity|split; simpl; intros G].
      - destruct (J2 G) as (_ & _ & X). discriminate X.
      - destruct (J3 G) as (_ & X). discriminate X. }
    destruct ok; [exact K|apply close_pipe_PInvJ; exact K].
  - apply close_pipe_PInvJ; exact H.
  - destruct (p_rpc p); try exact H; apply (PInvJ_spc p _ H); try reflexivity; apply spc_fwd_refl.
Qed.

Lemma pipe_new_PInvJ : PInvJ pipe_new.
Proof. unfold PInvJ, pipe_new; simpl. repeat split; intros; discriminate. Qed.

Theorem closed_in_addpre_never_started : forall ops s p,
  s = srun sock_init ops -> In p (pipes s) ->
  (g_closed_in_pre p = true -> p_pstarted p = false) /\
  (g_closed_at_check p = true -> p_pstarted p = false).
Proof.
  intros ops s p -> Hin.
  assert (F : Forall PInvJ (pipes (srun sock_init ops))).
  { apply srun_forall; [apply pipe_new_PInvJ|apply pstep_PInvJ|constructor]. }
  rewrite Forall_forall in F. destruct (F _ Hin) as (K & J & G).
  repeat split; intros; auto.
  - destruct (J H) as (_ & A & _); auto.
  - destruct (G H) as (A & _); auto.
Qed.

Definition pre_phase (c : spc) : bool := match c with SIdle | SPreRead | SPreEnter _ _ => true | _ => false end.
Definition early_phase (c : spc) : bool :=
  match c with SIdle | SPreRead | SPreEnter _ _ | SPreInCb | SCheck | SDone => true | _ => false end.
Definition rem_done (c : rpc) : bool := match c with RRemInCb | RStop | RRemove | RDone => true | _ => false end.
Definition want_pc (p : pipe) : Prop :=
  (forall c, p_spc p <> SPreEnter false c) /\ (forall c, p_spc p <> SPostEnter false c) /\
  (forall c, p_rpc p <> RRemEnter false c).

(* ADD_POST => REM_POST by close.  The last clause carries it: once the reaper is past its REM_POST call, REM_POST
   was fired, or the pipe was closed with nothing beyond ADD_PRE fired and the start thread will not reach ADD_POST *)
Definition PInvR (p : pipe) : Prop :=
  want_pc p /\ p_last p <= 3 /\
  (In 2 (g_fired p) -> 2 <= p_last p) /\
  (p_last p = 3 -> In 3 (g_fired p)) /\
  (pre_phase (p_spc p) = false -> 1 <= p_last p) /\
  (p_rpc p = RNone <-> p_closed p = false) /\
  (p_onsock p = false -> p_rpc p = RDone) /\
  (rem_done (p_rpc p) = true ->
     p_last p = 3 \/ (p_closed p = true /\ p_last p <= 1 /\ early_phase (p_spc p) = true)).

Lemma pipe_new_PInvR : PInvR pipe_new.
Proof.
  unfold PInvR, want_pc, pipe_new; simpl. repeat split; intros; try discriminate; try contradiction; auto.
Qed.

Lemma pre_phase_early : forall c, pre_phase c = true -> early_phase c = true.
Proof. destruct c; auto. Qed.

(* a step of the start thread: only its pc moves *)
Lemma PInvR_start : forall p q, PInvR p ->
  p_last q = p_last p -> g_fired q = g_fired p -> p_closed q = p_closed p -> p_rpc q = p_rpc p ->
  p_onsock q = p_onsock p ->
  (forall c, p_spc q <> SPreEnter false c) -> (forall c, p_spc q <> SPostEnter false c) ->
  (pre_phase (p_spc q) = false -> 1 <= p_last p) ->
  (rem_done (p_rpc p) = true -> early_phase (p_spc p) = true -> early_phase (p_spc q) = true) ->
  PInvR q.
Proof.
  unfold PInvR, want_pc. intros p q ((W1 & W2 & W3) & R1 & R2 & R3 & R4 & R5 & R6 & R7) -> -> -> -> -> N1 N2 P4 P7.
  repeat split; auto; try apply R5.
  intros D. destruct (R7 D) as [L|(C & L & E)]; [left; exact L|right; auto].
Qed.

(* a step of the reaper between close and removal: only its pc moves *)
Lemma PInvR_reap : forall p q, PInvR p ->
  p_last q = p_last p -> g_fired q = g_fired p -> p_closed q = p_closed p -> p_spc q = p_spc p ->
  p_onsock q = p_onsock p ->
  p_rpc p <> RNone -> p_rpc p <> RDone -> p_rpc q <> RNone -> (forall c, p_rpc q <> RRemEnter false c) ->
  (rem_done (p_rpc q) = true -> rem_done (p_rpc p) = true \/ p_last p = 3 \/ p_last p = 0) ->
  PInvR q.
Proof.
  unfold PInvR, want_pc. intros p q ((W1 & W2 & W3) & R1 & R2 & R3 & R4 & R5 & R6 & R7) -> -> -> -> -> A B C N P7.
  assert (CL : p_closed p = true) by (destruct (p_closed p); [reflexivity|elim A; apply R5; reflexivity]).
  repeat split; auto.
  - intros X. elim (C X).
  - intros X. rewrite CL in X. discriminate X.
  - intros X. elim B. auto.
  - intros D. destruct (P7 D) as [X|[X|X]]; auto. right. split; [exact CL|split; [lia|]].
    apply pre_phase_early. destruct (pre_phase (p_spc p)) eqn:PP; [reflexivity|]. specialize (R4 eq_refl). lia.
Qed.

Lemma PInvR_fire : forall p ev cb, PInvR p -> run_cb_filter (p_last p) ev = true -> 1 <= ev <= 3 ->
  ev = 3 \/ (ev = 1 /\ early_phase (p_spc p) = true) \/ (ev = 2 /\ early_phase (p_spc p) = false) ->
  PInvR (fire p ev cb).
Proof.
  unfold PInvR, want_pc. intros p ev cb (W & R1 & R2 & R3 & R4 & R5 & R6 & R7) F [E1 E3] K.
  apply filter_true in F as [F _]. simpl.
  split; [exact W|split; [exact E3|split; [|split; [|split; [intros _; exact E1|split; [exact R5|split; [exact R6|]]]]]]].
  - intros X. apply in_app_iff in X as [X|[<-|[]]]; [specialize (R2 X)|]; lia.
  - intros ->. apply in_app_iff. right. left. reflexivity.
  - intros D. destruct K as [->|[(-> & E)|(-> & E)]]; [left; reflexivity|right|].
    + split; [|split; [lia|exact E]]. destruct (p_closed p); [reflexivity|].
      destruct R5 as [_ R5]. rewrite (R5 eq_refl) in D. discriminate D.
    + destruct (R7 D) as [L|(_ & _ & X)]; [lia|congruence].
Qed.

Lemma PInvR_close : forall p, PInvR p -> PInvR (close_pipe p).
Proof.
  intros p H. unfold close_pipe. destruct (p_closed p) eqn:C; [exact H|].
  destruct H as (W & R1 & R2 & R3 & R4 & R5 & R6 & R7). apply R5 in C.
  unfold PInvR, want_pc; simpl. rewrite C in *. repeat split; auto; try apply W; try discriminate.
  intros X. specialize (R6 X). discriminate R6.
Qed.

Lemma pstep_PInvR : forall p l, okl_of true l -> PInvR p -> PInvR (pstep p l).
Proof.
  intros p l OK H. pose proof H as ((W1 & W2 & W3) & R1 & R2 & R3 & R4 & R5 & R6 & R7).
  destruct l as [ | w want c1 c2 c3 | w | w | | | ok | | ]; simpl.
  - destruct (p_spc p) eqn:E; try exact H.
    apply (PInvR_start p); try exact H; try reflexivity; simpl; try rewrite E; easy.
  - simpl in OK; subst want. destruct w; [destruct (p_spc p) eqn:E|destruct (p_rpc p) eqn:E]; try exact H;
      [apply (PInvR_start p)|apply (PInvR_start p)|apply (PInvR_reap p)]; try exact H; try reflexivity; simpl;
      try rewrite E; try easy.
  - destruct w; [destruct (p_spc p) as [| |want cb| | | | |want cb| |] eqn:E|destruct (p_rpc p) as [| | | |want cb| | | |] eqn:E];
      try exact H; (destruct want; [|exfalso; first [eapply W1; reflexivity|eapply W2; reflexivity|eapply W3; reflexivity]]);
      unfold enter; match goal with |- context [run_cb_filter ?a ?b] => destruct (run_cb_filter a b) eqn:F end.
    + (* ADD_PRE delivered *)
      assert (Q : PInvR (fire p EV_ADD_PRE cb)).
      { apply PInvR_fire; auto; [unfold EV_ADD_PRE; lia|right; left; rewrite E; auto]. }
      destruct cb; (eapply PInvR_start; [exact Q|..]); try reflexivity; simpl; easy.
    + (* ADD_PRE not delivered: something was delivered before *)
      apply (PInvR_start p); try exact H; try reflexivity; simpl; try easy.
      intros _. destruct (N.eq_dec (p_last p) 0) as [Z|Z]; [rewrite Z in F; discriminate F|lia].
    + (* ADD_POST delivered: REM_POST was not, so the reaper has not passed its call yet *)
      assert (Q : PInvR (fire p EV_ADD_POST cb)).
      { apply PInvR_fire; auto; [unfold EV_ADD_POST; lia|right; right; rewrite E; auto]. }
      destruct cb; (eapply PInvR_start; [exact Q|..]); try reflexivity; simpl; try rewrite E; easy.
    + apply (PInvR_start p); try exact H; try reflexivity; simpl; try rewrite E; easy.
    + (* REM_POST delivered *)
      assert (Q : PInvR (fire p EV_REM_POST cb)).
      { apply PInvR_fire; auto. unfold EV_REM_POST; lia. }
      destruct cb; (eapply PInvR_reap; [exact Q|..]); try reflexivity; simpl; try rewrite E; try easy; auto.
    + (* REM_POST not delivered: nothing was ever delivered for this pipe, or REM_POST already *)
      apply (PInvR_reap p); try exact H; try reflexivity; simpl; try rewrite E; try easy.
      intros _. right. destruct (N.eq_dec (p_last p) 0) as [Z|Z]; [right; exact Z|left].
      apply filter_false_ge in F; [unfold EV_REM_POST in F|]; lia.
  - destruct w; [destruct (p_spc p) eqn:E|destruct (p_rpc p) eqn:E]; try exact H;
      [apply (PInvR_start p)|apply (PInvR_start p)|apply (PInvR_reap p)]; try exact H; try reflexivity; simpl;
      try rewrite E; try easy; auto.
  - destruct (p_spc p); exact (PInvR_close p H).
  - destruct (p_spc p) eqn:E; try exact H.
    apply (PInvR_start p); try exact H; try reflexivity; simpl; try (destruct (p_closed p); easy).
    intros D _. destruct (p_closed p); [reflexivity|]. destruct R5 as [_ R5]. rewrite (R5 eq_refl) in D. discriminate D.
  - destruct (p_spc p) eqn:E; try exact H.
    assert (Q : PInvR (mkPipe (p_last p) (p_closed p) (if ok then SPostRead else SDone) (p_rpc p) (p_onsock p) true
                         (g_fired p) (g_cbs p) (g_closed_at_check p) (g_closed_in_pre p))).
    { apply (PInvR_start p); try exact H; try reflexivity; simpl; try rewrite E; try (destruct ok; easy). }
    destruct ok; [exact Q|apply PInvR_close; exact Q].
  - apply PInvR_close; exact H.
  - destruct (p_rpc p) eqn:E; try exact H;
      try (apply (PInvR_reap p); try exact H; try reflexivity; simpl; try rewrite E; try easy; auto; fail).
    assert (C : p_closed p = true) by (destruct (p_closed p); [reflexivity|destruct R5 as [_ R5]; discriminate (R5 eq_refl)]).
    unfold PInvR, want_pc; simpl. rewrite C in *. repeat split; auto; try discriminate.
Qed.

Lemma set_cb_want_true : forall s ev, s_want s = true -> s_want (set_cb s ev true) = true.
Proof.
  intros s ev H. unfold set_cb. destruct (N.ltb_spec EV_NONE ev); destruct (N.ltb_spec ev EV_NUM); simpl; auto.
  unfold EV_NONE, EV_NUM, EV_ADD_PRE, EV_ADD_POST, EV_REM_POST in *.
  destruct (N.eqb_spec ev 1); simpl; auto. destruct (N.eqb_spec ev 2); simpl; [rewrite orb_true_r; reflexivity|].
  destruct (N.eqb_spec ev 3); simpl; [apply orb_true_r|]. lia.
Qed.

Lemma sstep_want : forall s o, s_want s = true -> keeps_cbs o = true -> s_want (sstep s o) = true.
Proof.
  intros s o H K. destruct o; unfold sstep; simpl in K; try subst on;
    try (dmatch; simpl; auto; fail).
  - destruct (s_ser s) as [[j w']|]; auto. destruct (_ && _); auto. destruct a; [destruct (_ && _); auto|].
    simpl in K. subst on. apply set_cb_want_true; auto.
  - apply set_cb_want_true; auto.
Qed.

(* p_onsock is only ever cleared (nni_pipe_remove) *)
Lemma pstep_onsock_false : forall p l, p_onsock p = false -> p_onsock (pstep p l) = false.
Proof. intros p l O. destruct l; simpl; unfold enter, close_pipe; dmatch; simpl; auto. Qed.

Definition SInv (s : sock) : Prop :=
  s_shut_returned s = true -> s_eps_stopped s = true /\ Forall (fun p => p_onsock p = false) (pipes s).

Lemma sstep_eps_mono : forall s o, s_eps_stopped s = true -> s_eps_stopped (sstep s o) = true.
Proof. intros s o H. destruct o; unfold sstep; dmatch; simpl; auto; unfold set_cb; dmatch; simpl; auto; congruence. Qed.

Lemma sstep_shut_flag : forall s o, s_shut_returned (sstep s o) = true ->
  s_shut_returned s = true \/
  (o = OShutWait /\ forallb (fun p => negb (p_onsock p)) (pipes s) = true /\ pipes (sstep s o) = pipes s /\
   s_eps_stopped (sstep s o) = true).
Proof.
  intros s o. destruct o; unfold sstep; try (dmatch; simpl; auto; unfold set_cb; dmatch; simpl; auto; congruence).
  destruct (s_pipes_closed s && forallb (fun p => negb (p_onsock p)) (pipes s)) eqn:E; simpl; auto.
  intros _. right. apply andb_true_iff in E. destruct E. auto.
Qed.

Lemma sstep_SInv : forall s o, SInv s -> SInv (sstep s o).
Proof.
  intros s o H R. destruct (sstep_shut_flag _ _ R) as [R0|(-> & FB & PE & ES)].
  - destruct (H R0) as [E F]. split; [apply sstep_eps_mono; auto|].
    eapply evolve_forall; [| |apply sstep_evolve|exact F].
    + rewrite E. simpl. discriminate.
    + intros p lab _. apply pstep_onsock_false.
  - split; auto. rewrite PE. apply Forall_forall. intros p Hp. rewrite forallb_forall in FB.
    specialize (FB _ Hp). destruct (p_onsock p); auto; discriminate.
Qed.

(* while no registered callback is removed, s_want_evs stays set and every pipe keeps PInvR *)
Lemma srun_PInvR : forall ops s, s_want s = true -> Forall PInvR (pipes s) -> forallb keeps_cbs ops = true ->
  s_want (srun s ops) = true /\ Forall PInvR (pipes (srun s ops)).
Proof.
  induction ops as [|o r IH]; intros s W F K; simpl; auto.
  simpl in K. apply andb_true_iff in K. destruct K as [K1 K2].
  apply IH; auto.
  - apply sstep_want; auto.
  - eapply evolve_forall; [| |apply sstep_evolve|exact F].
    + intros _. apply pipe_new_PInvR.
    + intros q lab OK. apply pstep_PInvR. rewrite W in OK. exact OK.
Qed.

Lemma srun_SInv : forall ops s, SInv s -> SInv (srun s ops).
Proof. induction ops as [|o r IH]; intros s S; simpl; auto. apply IH. apply sstep_SInv; exact S. Qed.

(* by the time pipe_reap has called nni_pipe_run_cb(REM_POST) and it has returned, every pipe that had any
   event has REM_POST *)
Theorem rempost_when_reaped : forall s0 ops s p,
  pipes s0 = [] -> s_want s0 = true -> forallb keeps_cbs ops = true -> s = srun s0 ops -> In p (pipes s) ->
  rem_done (p_rpc p) = true -> In EV_ADD_POST (g_fired p) -> In EV_REM_POST (g_fired p).
Proof.
  intros s0 ops s p P0 W0 K -> Hin RDn A.
  destruct (srun_PInvR ops s0 W0) as [_ F]; [rewrite P0; constructor|exact K|].
  rewrite Forall_forall in F. destruct (F _ Hin) as (_ & B3 & A2 & A3 & _ & _ & OS & RD).
  apply A3. destruct (RD RDn) as [L|(C & L & _)]; auto. apply A2 in A. lia.
Qed.

(* ... and sock_shutdown's wait ends only when every pipe is off s_pipes, hence reaped *)
Theorem addpost_rempost_at_close : forall s0 ops s p,
  pipes s0 = [] -> s_want s0 = true -> s_shut_returned s0 = false ->
  forallb keeps_cbs ops = true -> s = srun s0 ops -> s_shut_returned s = true -> In p (pipes s) ->
  In EV_ADD_POST (g_fired p) -> In EV_REM_POST (g_fired p).
Proof.
  intros s0 ops s p P0 W0 R0 K -> R Hin A.
  apply (rempost_when_reaped s0 ops _ p P0 W0 K eq_refl Hin); [|exact A].
  assert (S : SInv (srun s0 ops)) by (apply srun_SInv; intros X; rewrite R0 in X; discriminate X).
  destruct (S R) as [_ O]. rewrite Forall_forall in O. specialize (O _ Hin).
  destruct (srun_PInvR ops s0 W0) as [_ F]; [rewrite P0; constructor|exact K|].
  rewrite Forall_forall in F. destruct (F _ Hin) as (_ & _ & _ & _ & _ & _ & OS & _).
  rewrite (OS O). reflexivity.
Qed.
