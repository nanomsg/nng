(* ListenerProofs: lemmas about Core/ListenerModel.v. *)
From Coq Require Import List Arith NArith Bool Lia.
From NngV Require Import Core.ListenerModel.
Import ListNotations.
Local Open Scope N_scope.

(* the decision function, for every result code (all of N, not only the enum) *)
Lemma decision_stop_iff : forall rv, listener_accept_decision rv = LaStop <-> stop_code rv = true.
Proof.
  intros rv. unfold listener_accept_decision, stop_code, L_OK, L_ECONNABORTED, L_ECONNRESET, L_ETIMEDOUT,
    L_EPEERAUTH, L_ESTOPPED, L_ECLOSED, L_ECANCELED.
  destruct (N.eqb_spec rv 0); [subst; simpl; split; discriminate|].
  destruct (N.eqb_spec rv 18); [subst; simpl; split; auto|].
  destruct (N.eqb_spec rv 19); [subst; simpl; split; discriminate|].
  destruct (N.eqb_spec rv 5); [subst; simpl; split; discriminate|].
  destruct (N.eqb_spec rv 27); [subst; simpl; split; discriminate|].
  destruct (N.eqb_spec rv 999); [subst; simpl; split; auto|].
  destruct (N.eqb_spec rv 7); [subst; simpl; split; auto|].
  destruct (N.eqb_spec rv 20); [subst; simpl; split; auto|].
  simpl. split; discriminate.
Qed.

Lemma decision_start_iff : forall rv, listener_accept_decision rv = LaStartRearm <-> rv = L_OK.
Proof.
  intros rv. unfold listener_accept_decision, L_OK. destruct (N.eqb_spec rv 0); [split; auto|].
  split; [|contradiction]. repeat match goal with |- context [if ?c then _ else _] => destruct c end; discriminate.
Qed.

(* The single token.
   Every reachable listener has one of six shapes: its one token (the accept aio with the transport or completed,
   the cool-down sleeping or fired) is in exactly one place, or nowhere before the start, after close, or after a
   stop code; no aio was ever started while in use.  A closed listener may keep the stopped timer's result. *)
Definition td_quiet (closed : bool) (td : option N) : Prop :=
  match td with None => True | Some r => closed = true /\ r = L_ESTOPPED end.

Inductive LInv : listener -> Prop :=
| LI_unstarted c n ps lost : LInv (mkListener c false false None None None n ps false lost)
| LI_idle c td n ps lost : td_quiet c td -> (c = false -> lost = true) ->
    LInv (mkListener c true false None None td n ps false lost)
| LI_accepting n ps lost : LInv (mkListener false true true None None None n ps false lost)
| LI_accepted c x td n ps lost : td_quiet c td -> LInv (mkListener c true false (Some x) None td n ps false lost)
| LI_cooling d n ps lost : LInv (mkListener false true false None (Some d) None n ps false lost)
| LI_fired c n ps lost : LInv (mkListener c true false None None (Some L_OK) n ps false lost).

Lemma td_quiet_open : forall td, td_quiet false td -> td = None.
Proof. destruct td; [intros [X _]; discriminate X|reflexivity]. Qed.

Lemma linit_LInv : LInv listener_init.
Proof. constructor. Qed.

(* each callback finds the token where it is called for and puts it in one place; the others change nothing *)
Lemma lstep_LInv : forall l o, LInv l -> LInv (lstep l o).
Proof.
  intros l o H. destruct o; simpl.
  - destruct H; simpl; try (constructor; simpl; auto; fail). destruct c; constructor; exact I.
  - destruct H; simpl; try (constructor; simpl; auto; fail).
  - destruct H as [| | |c [rv p] td ? ? ? Q| |]; simpl; try (constructor; simpl; auto; fail).
    destruct c; [|rewrite (td_quiet_open _ Q)];
      destruct (listener_accept_decision rv); simpl; constructor; simpl; auto; try discriminate.
    intros _; apply orb_true_r.
  - destruct H; simpl; try (constructor; simpl; auto; fail).
  - destruct H as [|c [r|] ? ? ? Q| |c x [r|] ? ? ? Q| |c]; simpl; try (constructor; simpl; auto; fail);
      try (destruct Q as [-> ->]; constructor; simpl; auto; fail).
    destruct c; constructor; exact I.
  - destruct H as [c|c td ? ? ? Q| |c x td ? ? ? Q| |c]; try destruct c; simpl;
      try rewrite (td_quiet_open _ Q); constructor; simpl; auto; discriminate.
Qed.

Lemma lrun_LInv : forall ops l, LInv l -> LInv (lrun l ops).
Proof. induction ops; intros; simpl; auto. apply IHops. apply lstep_LInv; auto. Qed.

Lemma LInv_clash : forall l, LInv l -> g_lclash l = false.
Proof. destruct 1; reflexivity. Qed.

Lemma LInv_live : forall l, LInv l ->
  l_started l = true -> l_closed l = false -> g_llost l = false -> ltokens l = 1%nat.
Proof.
  destruct 1 as [|c td ? ? ? Q L| |c x td ? ? ? Q| |]; simpl; intros S C NL; subst; try discriminate; try reflexivity.
  - discriminate (L eq_refl).
  - rewrite (td_quiet_open _ Q). reflexivity.
Qed.

Theorem accept_rearmed : forall l rv p,
  LInv l -> l_acc_done l = Some (rv, p) -> l_closed l = false -> stop_code rv = false ->
  let l' := lstep l LAccCb in
  g_lclash l' = false /\
  ((l_acc l' = true /\ g_acc_calls l' = S (g_acc_calls l)) \/
   (l_tmo l' = Some L_COOLDOWN_MS /\
    let l'' := lstep (lstep l' LTimerFire) LTimerCb in
    l_acc l'' = true /\ g_acc_calls l'' = S (g_acc_calls l) /\ g_lclash l'' = false)).
Proof.
  intros l rv p I A NC SC l'.
  assert (ND : listener_accept_decision rv <> LaStop) by (rewrite decision_stop_iff; congruence).
  subst l'. destruct I as [| | |c x td ? ? ? Q| |]; simpl in A, NC; try discriminate A.
  injection A as ->. subst c. rewrite (td_quiet_open _ Q). simpl (lstep _ LAccCb).
  destruct (listener_accept_decision rv); [split; [|left]|split; [|left]|split; [|right]|contradiction];
    repeat split.
Qed.

(* the stop codes arrive only after close, if the streams do not invent them *)
Definition NoStop (l : listener) : Prop :=
  g_llost l = false /\
  (l_closed l = false -> forall rv p, l_acc_done l = Some (rv, p) -> stop_code rv = false).

Lemma src_ok_code : forall s, src_ok s = true -> stop_code (fst (src_code s)) = false.
Proof.
  intros [p|rv|rv]; simpl; intros H.
  - reflexivity.
  - apply andb_true_iff in H. destruct H as [_ H]. apply negb_true_iff in H.
    unfold stop_code, L_ECLOSED, L_ECONNSHUT, L_ECONNABORTED, L_ESTOPPED, L_ECANCELED in *.
    destruct (N.eqb_spec rv 7); [reflexivity|].
    destruct (N.eqb_spec rv 18), (N.eqb_spec rv 999), (N.eqb_spec rv 20); simpl in *; try discriminate.
    destruct (N.eqb_spec rv 7); [contradiction|reflexivity].
  - apply andb_true_iff in H. destruct H as [_ H]. apply negb_true_iff in H. exact H.
Qed.

Lemma lstep_NoStop : forall l o, lop_ok o = true -> NoStop l -> NoStop (lstep l o).
Proof.
  intros l o OK [L A]. destruct o as [ | s | | | | ]; simpl.
  - destruct (l_started l); [split; auto|]. unfold accept_start; simpl.
    destruct (l_closed l) eqn:C; split; simpl; auto; intros; try discriminate; try (eapply A; eauto).
  - destruct (l_acc l); [|split; auto]. split; simpl; auto. intros _ rv p E. inversion E as [E0].
    pose proof (src_ok_code s OK) as X. destruct (src_code s); simpl in *. inversion E0; subst. exact X.
  - destruct (l_acc_done l) as [[rv p]|] eqn:E; [|split; auto; intros; congruence].
    destruct (listener_accept_decision rv) eqn:D; unfold accept_start; simpl;
      destruct (l_closed l) eqn:C; split; simpl; auto; intros; try discriminate.
    all: rewrite L; simpl; try reflexivity.
    apply decision_stop_iff in D. rewrite (A eq_refl rv p eq_refl) in D. discriminate.
  - destruct (l_tmo l); split; simpl; auto.
  - destruct (l_tmo_done l); [|split; auto]. destruct (N.eqb n L_OK); [|split; simpl; auto].
    unfold accept_start; simpl. destruct (l_closed l) eqn:C; split; simpl; auto; intros; try discriminate;
    try (eapply A; eauto).
  - destruct (l_closed l) eqn:C; [split; auto; intros; congruence|]. split; simpl; auto. intros; discriminate.
Qed.

Theorem stop_codes_only_after_close : forall ops l,
  forallb lop_ok ops = true -> l = lrun listener_init ops -> g_llost l = false.
Proof.
  intros ops l OK ->.
  assert (H : forall os l0, NoStop l0 -> forallb lop_ok os = true -> NoStop (lrun l0 os)).
  { induction os as [|o r IH]; intros l0 N K; simpl in *; auto. apply andb_true_iff in K. destruct K.
    apply IH; auto. apply lstep_NoStop; auto. }
  destruct (H ops listener_init) as [X _]; auto. split; simpl; auto. intros; discriminate.
Qed.

(* the stop codes do end the loop -- including NNG_ECONNABORTED, which listener.c treats as close-only *)
Lemma econnaborted_stops :
  let l := lrun listener_init [LoStart; LTran (SrcNego L_ECONNABORTED); LAccCb] in
  ltokens l = 0%nat /\ l_closed l = false /\ g_llost l = true.
Proof. vm_compute. auto. Qed.
