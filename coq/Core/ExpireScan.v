(* ExpireScan: the scan of nni_aio_expire_loop (src/core/aio.c) over the expire queue's list:
   every entry whose deadline has passed is moved to the batch while the batch has room
   (NNI_EXPIRE_BATCH entries); every other entry - including a due one that no longer fits -
   lowers eq_next.  The loop sleeps only while now < eq_next, so a due entry left on the list
   makes it scan again at once.  Model: the list holds (aio id, a_expire); eq_next = None is
   NNI_TIME_NEVER. *)
From Coq Require Import List Arith NArith Bool Lia.
Import ListNotations.

Definition qent := (N * N)%type.            (* aio, deadline *)
Definition NNI_EXPIRE_BATCH_MODEL : nat := 100.   (* core/defs.h, tied to the source by Properties_C02.expire_batch_matches_source *)

Definition lower (next : option N) (e : N) : option N :=
  match next with None => Some e | Some n => if (e <? n)%N then Some e else Some n end.

(* one scan: (batch in order, entries left on the list in order, eq_next) *)
Fixpoint scan (now : N) (room : nat) (l : list qent) (next : option N) : list qent * list qent * option N :=
  match l with
  | [] => ([], [], next)
  | (a, e) :: r =>
      if (e <? now)%N && negb (Nat.eqb room 0) then
        let '(b, rest, nx) := scan now (pred room) r next in ((a, e) :: b, rest, nx)
      else
        let '(b, rest, nx) := scan now room r (lower next e) in (b, (a, e) :: rest, nx)
  end.

(* the loop: scan; when the batch is empty and now < eq_next it sleeps (the round sequence ends) *)
Definition sleeps (now : N) (next : option N) : bool := match next with None => true | Some n => (now <? n)%N end.

Fixpoint rounds (fuel : nat) (now : N) (batch : nat) (l : list qent) : list (list qent) * list qent :=
  match fuel with
  | O => ([], l)
  | S f =>
      let '(b, rest, nx) := scan now batch l None in
      match b with
      | [] => ([], rest)                      (* nothing due: the thread waits for eq_next *)
      | _ => if sleeps now nx then ([b], rest)
             else let (bs, fin) := rounds f now batch rest in (b :: bs, fin)
      end
  end.

Definition due (now : N) (x : qent) : bool := (snd x <? now)%N.

Lemma lower_le next e : match lower next e with Some n => (n <= e)%N | None => False end.
Proof. unfold lower. destruct next as [n|]; [|lia]. destruct (N.ltb_spec e n); lia. Qed.
Lemma lower_mono next e : forall n, next = Some n -> match lower next e with Some m => (m <= n)%N | None => False end.
Proof. intros n ->. cbn. destruct (N.ltb_spec e n); lia. Qed.

(* eq_next after a scan is not above the incoming value nor above any entry left on the list *)
Lemma scan_next now : forall l room next b rest nx, scan now room l next = (b, rest, nx) ->
  (forall n, next = Some n -> exists m, nx = Some m /\ (m <= n)%N) /\
  (forall x, In x rest -> exists m, nx = Some m /\ (m <= snd x)%N).
Proof.
  induction l as [|[a e] r IH]; intros room next b rest nx H; cbn [scan] in H.
  - inversion H; subst. split; [intros n ->; exists n; split; [reflexivity|lia]|intros x []].
  - destruct ((e <? now)%N && negb (Nat.eqb room 0)).
    + destruct (scan now (pred room) r next) as [[b1 rest1] nx1] eqn:E. inversion H; subst.
      exact (IH _ _ _ _ _ E).
    + destruct (scan now room r (lower next e)) as [[b1 rest1] nx1] eqn:E. inversion H; subst.
      destruct (IH _ _ _ _ _ E) as [A B]. split.
      * intros n Hn. pose proof (lower_mono next e n Hn) as L. destruct (lower next e) as [m|] eqn:EL; [|contradiction].
        destruct (A m eq_refl) as (m' & -> & Hm'). exists m'. split; [reflexivity|lia].
      * intros x [<-|Hin]; [|exact (B x Hin)]. cbn [snd].
        pose proof (lower_le next e) as L. destruct (lower next e) as [m|] eqn:EL; [|contradiction].
        destruct (A m eq_refl) as (m' & -> & Hm'). exists m'. split; [reflexivity|lia].
Qed.

(* the scan partitions the list, takes only due entries, and takes every due entry while there is room *)
Lemma scan_partition now : forall l room next b rest nx, scan now room l next = (b, rest, nx) ->
  (forall x, In x l <-> In x b \/ In x rest) /\ (forall x, In x b -> due now x = true) /\
  length b <= room /\ length b + length rest = length l /\
  (length b < room -> forall x, In x rest -> due now x = false).
Proof.
  induction l as [|[a e] r IH]; intros room next b rest nx H; cbn [scan] in H.
  - inversion H; subst. cbn. repeat split; try tauto; try lia; intros x []; tauto.
  - destruct (e <? now)%N eqn:D; cbn [andb] in H.
    + destruct (Nat.eqb room 0) eqn:R; cbn [negb] in H.
      * apply Nat.eqb_eq in R. subst room.
        destruct (scan now 0 r (lower next e)) as [[b1 rest1] nx1] eqn:E. inversion H; subst.
        destruct (IH _ _ _ _ _ E) as (P1 & P2 & P3 & P4 & P5). cbn [length In].
        split; [intros x; rewrite P1; tauto|]. split; [exact P2|]. split; [exact P3|]. split; [lia|]. intros; lia.
      * apply Nat.eqb_neq in R.
        destruct (scan now (pred room) r next) as [[b1 rest1] nx1] eqn:E. inversion H; subst.
        destruct (IH _ _ _ _ _ E) as (P1 & P2 & P3 & P4 & P5). cbn [length In].
        split; [intros x; rewrite P1; tauto|]. split.
        { intros x [<-|Hin]; [unfold due; cbn [snd]; exact D|exact (P2 x Hin)]. }
        split; [lia|]. split; [lia|]. intros Hlt x Hin. apply P5; [lia|exact Hin].
    + destruct (scan now room r (lower next e)) as [[b1 rest1] nx1] eqn:E. inversion H; subst.
      destruct (IH _ _ _ _ _ E) as (P1 & P2 & P3 & P4 & P5). cbn [length In].
      split; [intros x; rewrite P1; tauto|]. split; [exact P2|]. split; [exact P3|]. split; [lia|].
      intros Hlt x [<-|Hin]; [unfold due; cbn [snd]; exact D|exact (P5 Hlt x Hin)].
Qed.

(* a due entry left behind keeps the loop awake *)
Theorem scan_due_left_keeps_awake now room l b rest nx :
  scan now room l None = (b, rest, nx) -> forall x, In x rest -> due now x = true -> sleeps now nx = false.
Proof.
  intros H x Hin Hd. destruct (scan_next now l room None b rest nx H) as [_ B].
  destruct (B x Hin) as (m & -> & Hm). unfold due in Hd. apply N.ltb_lt in Hd. cbn [sleeps]. apply N.ltb_ge. lia.
Qed.

Lemma scan_no_due now : forall l room next, (forall x, In x l -> due now x = false) ->
  exists nx, scan now room l next = ([], l, nx).
Proof.
  induction l as [|[a e] r IH]; intros room next H; cbn [scan]; [eexists; reflexivity|].
  assert (D: (e <? now)%N = false) by (apply (H (a, e)); left; reflexivity). rewrite D. cbn [andb].
  destruct (IH room (lower next e)) as (nx & ->); [intros x Hx; apply H; right; exact Hx|]. eexists; reflexivity.
Qed.
Lemma rounds_no_due now batch : forall fuel l, (forall x, In x l -> due now x = false) ->
  rounds fuel now batch l = ([], l).
Proof.
  intros [|f] l H; cbn [rounds]; [reflexivity|]. destruct (scan_no_due now l batch None H) as (nx & ->). reflexivity.
Qed.

(* every due entry is marked within ceil(n / batch) rounds: none is forgotten *)
Theorem rounds_mark_all_due now batch : 0 < batch -> forall fuel l bs fin,
  length l < fuel * batch -> rounds fuel now (batch) l = (bs, fin) ->
  (forall x, In x fin -> due now x = false) /\
  (forall x, In x l <-> In x (concat bs) \/ In x fin) /\
  (forall x, In x (concat bs) -> due now x = true).
Proof.
  intros Hb. induction fuel as [|f IH]; intros l bs fin Hlen H; [cbn in Hlen; lia|].
  cbn [rounds] in H. destruct (scan now batch l None) as [[b rest] nx] eqn:E.
  destruct (scan_partition now l batch None b rest nx E) as (P1 & P2 & P3 & P4 & P5).
  destruct b as [|b0 br] eqn:EB.
  - inversion H; subst. cbn [concat]. split; [apply P5; cbn; lia|]. split; [intros x; rewrite P1; cbn; tauto|intros x []].
  - destruct (sleeps now nx) eqn:SL.
    + inversion H; subst. cbn [concat]. rewrite app_nil_r. split.
      * intros x Hin. destruct (due now x) eqn:D; [|reflexivity].
        rewrite (scan_due_left_keeps_awake now batch l _ _ _ E x Hin D) in SL. discriminate.
      * split; [intros x; apply P1|exact P2].
    + destruct (rounds f now batch rest) as [bs1 fin1] eqn:ER. inversion H; subst.
      destruct (Nat.eq_dec (length (b0 :: br)) batch) as [Hfull|Hnf].
      * assert (Hl: length rest < f * batch) by nia.
        destruct (IH rest bs1 fin Hl ER) as (Q1 & Q2 & Q3). cbn [concat]. split; [exact Q1|]. split.
        -- intros x. rewrite P1, Q2, in_app_iff. tauto.
        -- intros x Hin. apply in_app_or in Hin as [Hin|Hin]; [exact (P2 x Hin)|exact (Q3 x Hin)].
      * (* the batch was not full: nothing due is left, the next scan finds nothing *)
        assert (ND: forall x, In x rest -> due now x = false) by (apply P5; lia).
        rewrite (rounds_no_due now batch f rest ND) in ER. inversion ER; subst. cbn [concat]. rewrite app_nil_r.
        split; [exact ND|]. split; [intros x; apply P1|exact P2].
Qed.

Example rounds_nonvacuous :
  rounds 3 10%N 2 [(1, 3); (2, 50); (3, 4); (4, 5); (5, 9)]%N =
  ([[(1, 3); (3, 4)]; [(4, 5); (5, 9)]]%N, [(2, 50)]%N).
Proof. vm_compute. reflexivity. Qed.
