(* CloseTerm: termination of the shutdown protocol (property C10, close_terminates).
   A lexicographic measure (Phi, PS, L) over the states of Core/CloseModel.v (all repairs
   applied) strictly decreases along every internal step: a step of any thread inside the
   library, of the reaper, or a callback of an operation that close has aborted.  Hence every
   run contains only finitely many internal steps between two steps of the environment (new
   calls of the application, network events), whatever the interleaving.

   Phi  latches not yet set, summed over all objects (every latch is set at most once), plus
        the latches of the objects that pending create calls will still allocate;
   PS   for every endpoint waiting for / undergoing its reap: the pipe items queued behind it
        (decreases when dialer_reap / listener_reap re-queues the endpoint behind its pipes);
   L    work left in the continuations of all threads and the reaper, in the reap queue, and
        callbacks outstanding on objects whose transport side was closed. *)
From Coq Require Import List Arith NArith Bool Lia.
Import ListNotations.
From NngV Require Import Core.CloseModel Core.CloseProofs.

Definition b2n (b : bool) : nat := if b then 1 else 0.

Definition phi_k (k : sockst) : nat :=
  b2n (negb (k_closing k)) + b2n (negb (k_closed k)) + b2n (negb (k_pclosed k)) + b2n (negb (k_shutdone k)) + b2n (negb (k_freed k)).
Definition phi_c (c : ctxst) : nat := b2n (negb (c_closed c)) + b2n (c_onlist c) + b2n (negb (c_freed c)).
Definition e_fresh (e : epst) : bool := negb (e_pub e) && negb (e_freed e).
Definition phi_e (e : epst) : nat :=
  b2n (e_fresh e) + b2n (negb (e_closed e)) + b2n (negb (e_tranclosed e)) + b2n (negb (e_stopped e)) +
  b2n (e_onlist e || e_fresh e) + b2n (negb (e_reapq e)) + b2n (negb (e_freed e)).
Definition phi_p (p : pipest) : nat :=
  b2n (negb (p_closed p)) + b2n (negb (p_tranclosed p)) + b2n (p_inmap p) + b2n (negb (p_stopped p)) +
  b2n (p_onlist p) + b2n (negb (p_freed p)).
Definition PC := 3.   (* phi_c of a new context *)
Definition PE := 7.   (* phi_e of a new endpoint *)
Definition wphi (a : act) : nat :=
  match a with
  | AFind UCtxOpen => PC + 2 | ACtxOpen1 => PC + 1
  | AFind (UEpCreate _) => PE + 2 | AEpCreate1 _ => PE + 1
  | _ => 0
  end.
Definition phi_obj (s : st) : nat := phi_k (sk s) + sum phi_c (ctxs s) + sum phi_e (eps s) + sum phi_p (pipes s).
Definition Phi (s : st) : nat := phi_obj s + sum (sum wphi) (threads s) + sum wphi (reaper s).

Fixpoint count_pipe (l : list ritem) : nat :=
  match l with [] => 0 | RPipe _ :: r => S (count_pipe r) | REp _ :: r => count_pipe r end.
Fixpoint count_ep (l : list ritem) : nat :=
  match l with [] => 0 | RPipe _ :: r => count_ep r | REp _ :: r => S (count_ep r) end.
Fixpoint ps_list (l : list ritem) : nat :=
  match l with [] => 0 | REp _ :: r => count_pipe r + ps_list r | RPipe _ :: r => ps_list r end.
Definition rhead (r : list act) : list ritem := match r with AEpReap e :: _ => [REp e] | _ => [] end.
Definition PS (s : st) : nat := ps_list (rhead (reaper s) ++ rq s).

(* budget of one iteration of sock_shutdown's endpoint loop: the iteration puts [AEpClose e; AShutEp] (w: 7 + 1) in
   the place of AShutEp and lowers nuo by one (cert_shutep), so anything above 7 pays for it *)
Definition BB := 9.
(* where no latch of Phi pays for a step, w a exceeds the total w of the actions run_act hands back for a: the side
   condition [sum w more < w a] of cert_kc, cert_ep, cert_pipe.  w is not recursive, so under AFind the weights of the
   actions of after_find are written out again; w_find checks that copy against w. *)
Definition w (a : act) : nat :=
  match a with
  | ARet _ _ _ => 1
  | AShutBegin _ => 12 | AShutEp => 1 | AShutPipes => 1 | AMsgqClose => 1 | AShutCtxs => 1
  | AWaitCtxs => 1 | AWaitPipes => 1 | AProtoClose => 1
  | ASockClose2 _ => 4 | AWaitRefs => 1 | ASockDestroy => 1 | ASockRele => 1
  | ACtxOpen1 => 6 | ACtxOpen2 _ => 5 | ACtxClose _ => 1 | ACtxRele _ => 1 | ACtxDestroy _ => 1
  | AEpCreate1 _ => 4 | AEpCreate2 _ => 3
  | AEpClose _ => 7 | AEpTranClose _ => 1 | AEpStopWait _ => 1 | AEpClosePipes _ => 1
  | AEpSockRemove _ => 1 | AEpRele _ => 1 | AEpStart _ _ => 2 | AEpReap _ => 3 | AEpDestroy _ => 1
  | APipeClose _ => 1 | APipeRele _ => 1 | APipeTranClose _ => 1 | APipeIdRemove _ => 1
  | APipeStopWait _ => 1 | APipeRemove _ => 1
  | ASubmit _ _ _ => 1
  | AFind u => 2 + sum (fun a => match a with
                                 | AShutBegin _ => 12 | ACtxOpen1 => 6 | AEpCreate1 _ => 4 | AEpClose _ => 7
                                 | AEpStart _ _ => 2 | _ => 1 end) (after_find u)
  end.

(* endpoints still to be closed by the loop: on the list, not closed, not among those whose close is
   already ahead in the same continuation *)
Fixpoint nuo_from (i : nat) (cl : list nat) (es : list epst) : nat :=
  match es with
  | [] => 0
  | e :: r => b2n (e_onlist e && negb (e_closed e) && negb (existsb (Nat.eqb i) cl)) + nuo_from (S i) cl r
  end.
Definition nuo (s : st) (cl : list nat) : nat := nuo_from 0 cl (eps s).

Fixpoint Wt (s : st) (cl : list nat) (l : list act) : nat :=
  match l with
  | [] => 0
  | a :: r =>
      w a + (match a with AShutEp => BB * nuo s cl | _ => 0 end) +
      Wt s (match a with AEpClose e => e :: cl | _ => cl end) r
  end.

Definition wq (i : ritem) : nat := match i with RPipe _ => 6 | REp _ => 4 end.
Definition busy_e (e : epst) : nat := if e_tranclosed e then e_busy e else 0.
Definition busy_p (p : pipest) : nat := if p_tranclosed p then p_busy p else 0.
Definition Ltail (s : st) : nat := sum wq (rq s) + sum busy_e (eps s) + sum busy_p (pipes s).
Definition L (s : st) : nat := sum (Wt s []) (threads s) + Wt s [] (reaper s) + Ltail s.

Definition lt3 (a b : nat * nat * nat) : Prop :=
  let '(a1, a2, a3) := a in let '(b1, b2, b3) := b in
  a1 < b1 \/ (a1 = b1 /\ (a2 < b2 \/ (a2 = b2 /\ a3 < b3))).
Definition M3 (s : st) : nat * nat * nat := (Phi s, PS s, L s).

Lemma lt3_wf : well_founded lt3.
Proof.
  assert (H: forall a b c, Acc lt3 (a, b, c)).
  { induction a as [a IHa] using lt_wf_ind. induction b as [b IHb] using lt_wf_ind. induction c as [c IHc] using lt_wf_ind.
    constructor. intros [[a' b'] c'] Hlt. simpl in Hlt.
    destruct Hlt as [Hlt|[-> [Hlt|[-> Hlt]]]]; auto. }
  intros [[a b] c]; auto.
Qed.

Lemma nuo_from_incl i cl cl' es : (forall j, In j cl -> In j cl') -> nuo_from i cl' es <= nuo_from i cl es.
Proof.
  intros H; revert i; induction es as [|x r IH]; intros i; simpl; auto.
  specialize (IH (S i)).
  destruct (e_onlist x && negb (e_closed x)); simpl; [|lia].
  destruct (existsb (Nat.eqb i) cl) eqn:E; simpl.
  - apply existsb_exists in E as (j & Hj & Ej). assert (X: existsb (Nat.eqb i) cl' = true) by (apply existsb_exists; eauto).
    rewrite X; simpl; lia.
  - destruct (existsb (Nat.eqb i) cl'); simpl; lia.
Qed.

Lemma nuo_from_cons_le i e cl es : nuo_from i (e :: cl) es <= nuo_from i cl es.
Proof. apply nuo_from_incl. simpl; auto. Qed.

(* pointwise: the flags that matter can only go down *)
Definition ep_le (y x : epst) : Prop := e_onlist y && negb (e_closed y) = true -> e_onlist x && negb (e_closed x) = true.

Lemma nuo_from_mono i cl es es' : Forall2 ep_le es' es -> nuo_from i cl es' <= nuo_from i cl es.
Proof.
  intros H; revert i; induction H as [|y x r' r Hyx _ IH]; intros i; simpl; auto.
  specialize (IH (S i)). unfold ep_le in Hyx.
  destruct (e_onlist y && negb (e_closed y)); simpl; [rewrite Hyx by auto; simpl; lia|].
  destruct (e_onlist x && negb (e_closed x) && negb (existsb (Nat.eqb i) cl)); simpl; lia.
Qed.

Lemma Forall2_refl {A} (R : A -> A -> Prop) l : (forall x, R x x) -> Forall2 R l l.
Proof. intros; induction l; constructor; auto. Qed.

Lemma Forall2_upd {A} (R : A -> A -> Prop) (l : list A) i f :
  (forall x, R x x) -> (forall x, R (f x) x) -> Forall2 R (upd l i f) l.
Proof.
  intros Hr Hf; revert i; induction l; intros [|i]; simpl; constructor; auto. apply Forall2_refl; auto.
Qed.

Lemma ep_le_refl x : ep_le x x.  Proof. unfold ep_le; auto. Qed.

Lemma nuo_from_out i cl e es : e < i \/ i + length es <= e -> nuo_from i (e :: cl) es = nuo_from i cl es.
Proof.
  revert i; induction es as [|y r IH]; intros i H; simpl in *; auto.
  replace (i =? e) with false by (symmetry; apply Nat.eqb_neq; lia). simpl. rewrite IH by lia. reflexivity.
Qed.

(* the endpoint at position j counts once if it is on the list and not closed, unless its close is ahead *)
Lemma nuo_from_at i j cl es x : nth_error es j = Some x ->
  nuo_from i cl es =
  nuo_from i ((i + j) :: cl) es + b2n (e_onlist x && negb (e_closed x) && negb (existsb (Nat.eqb (i + j)) cl)).
Proof.
  revert i j; induction es as [|y r IH]; intros i [|j] E; simpl in *; try discriminate.
  - injection E as ->. rewrite Nat.add_0_r, Nat.eqb_refl. simpl. rewrite andb_false_r. simpl.
    rewrite nuo_from_out by lia. lia.
  - replace (i =? i + S j) with false by (symmetry; apply Nat.eqb_neq; lia). simpl.
    replace (i + S j) with (S i + j) by lia. rewrite (IH (S i) j E). lia.
Qed.

Definition eps_le (s1 s : st) : Prop := Forall2 ep_le (eps s1) (eps s).

Lemma nuo_mono s1 s cl : eps_le s1 s -> nuo s1 cl <= nuo s cl.
Proof. intros; apply nuo_from_mono; auto. Qed.

Lemma Wt_mono s1 s l : eps_le s1 s -> forall cl cl', (forall j, In j cl -> In j cl') -> Wt s1 cl' l <= Wt s cl l.
Proof.
  intros Hs; induction l as [|a r IH]; intros cl cl' Hc; simpl; auto.
  assert (Hn: nuo s1 cl' <= nuo s cl).
  { etransitivity; [apply nuo_mono; eauto|]. apply nuo_from_incl; auto. }
  assert (Hr: Wt s1 (match a with AEpClose e => e :: cl' | _ => cl' end) r <= Wt s (match a with AEpClose e => e :: cl | _ => cl end) r).
  { apply IH. destruct a; auto. intros j [->|Hj]; simpl; auto. }
  destruct a; simpl in *; unfold BB; nia.
Qed.

Lemma Wt_mono_same s1 s l cl : eps_le s1 s -> Wt s1 cl l <= Wt s cl l.
Proof. intros; eapply Wt_mono; eauto. Qed.

Lemma eps_le_refl s : eps_le s s.
Proof. apply Forall2_refl; apply ep_le_refl. Qed.

Lemma Wt_cl_le s l e cl : Wt s (e :: cl) l <= Wt s cl l.
Proof. apply Wt_mono; [apply eps_le_refl|]. simpl; auto. Qed.

Lemma sum_Wt_mono s1 s (ts : list (list act)) : eps_le s1 s -> sum (Wt s1 []) ts <= sum (Wt s []) ts.
Proof. intros; apply sum_le; intros; apply Wt_mono_same; auto. Qed.

Lemma count_pipe_app l1 l2 : count_pipe (l1 ++ l2) = count_pipe l1 + count_pipe l2.
Proof. induction l1 as [|[]]; simpl; auto. Qed.
(* every endpoint of l1 gets the pipes of l2 queued behind it *)
Lemma ps_list_app l1 l2 : ps_list (l1 ++ l2) = ps_list l1 + count_ep l1 * count_pipe l2 + ps_list l2.
Proof. induction l1 as [|[q|e] r IH]; simpl; auto. rewrite IH, count_pipe_app. lia. Qed.
Lemma ps_list_app_pipe l p : ps_list (l ++ [RPipe p]) = ps_list l + count_ep l.
Proof. rewrite ps_list_app. simpl. lia. Qed.
Lemma ps_list_app_ep l e : ps_list (l ++ [REp e]) = ps_list l.
Proof. rewrite ps_list_app. simpl. lia. Qed.

(* [H : run_act fx s a = Some (s1, more)] after [simpl]: case on every scrutinee of a match or if in H, until each
   branch of run_act stands alone as None = Some _ or Some _ = Some _; inv_some then substitutes s1 and more *)
Ltac case_matches H :=
  repeat (match type of H with
          | context[match ?x with _ => _ end] => destruct x eqn:?
          | context[if ?x then _ else _] => destruct x eqn:?
          end).
Ltac inv_some H := injection H as <- <-.

Definition noreap (l : list act) : bool := forallb (fun a => match a with AEpReap _ => false | _ => true end) l.

(* what run_act leaves alone: the continuations, the log of returns (but for ARet) and the ghost k_shutdone
   (but for AProtoClose); and it never hands out an AEpReap (only the reaper's next item does) *)
Lemma run_act_frame fx s a s1 more : run_act fx s a = Some (s1, more) ->
  threads s1 = threads s /\ reaper s1 = reaper s /\ noreap more = true /\
  match a with ARet _ _ _ => True | _ => rets s1 = rets s end /\
  match a with AProtoClose => True | _ => k_shutdone (sk s1) = k_shutdone (sk s) end.
Proof.
  intros H.
  destruct a; simpl in H;
    case_matches H; try discriminate H; inv_some H; repeat split; auto.
  all: match goal with |- noreap (after_find ?u) = true => destruct u as [| | | | | | | |[c|] ? ?| | | |]; reflexivity end.
Qed.

(* what one action does to the parts of the measure that do not depend on who runs it *)
Definition cert (s : st) (a : act) (s1 : st) (more : list act) : Prop :=
  phi_obj s1 + sum wphi more <= phi_obj s + wphi a /\
  ( phi_obj s1 + sum wphi more < phi_obj s + wphi a \/
    ( eps_le s1 s /\ rq s1 = rq s /\
      forall rest, Wt s1 [] (more ++ rest) + Ltail s1 < Wt s [] (a :: rest) + Ltail s ) \/
    ( exists e, a = AEpReap e /\ more = [] /\ s1 = set_rq s (rq s ++ [REp e]) /\ ep_has_pipes s e = true /\
                close_pipes 0 (fun p => p_ep p =? e) (pipes s) = (pipes s, []) ) ).

Lemma b2n_le b : b2n b <= 1.  Proof. destruct b; simpl; lia. Qed.

Lemma cert_lt s a s1 more : phi_obj s1 + sum wphi more < phi_obj s + wphi a -> cert s a s1 more.
Proof. intros H; split; [lia|left; exact H]. Qed.

Lemma eps_le_upd s e f : (forall x, ep_le (f x) x) -> eps_le (set_eps s (upd (eps s) e f)) s.
Proof. intros; unfold eps_le; simpl. apply Forall2_upd; auto. apply ep_le_refl. Qed.

Lemma Wt_step_le s1 s rest : eps_le s1 s -> Wt s1 [] rest <= Wt s [] rest.
Proof. apply Wt_mono_same. Qed.

(* nni_pipe_close reaches exactly the listed, not yet closed pipes that [sel] selects *)
Definition hit (sel : pipest -> bool) (p : pipest) : bool := sel p && p_onlist p && negb (p_closed p).

Lemma close_pipes_spec sel l : forall i ps q, close_pipes i sel l = (ps, q) ->
  ps = map (fun x => if hit sel x then pset_closed x else x) l /\
  forall p x, nth_error l p = Some x -> hit sel x = true -> In (RPipe (i + p)) q.
Proof.
  induction l as [|y r IH]; intros i ps q H; simpl in H.
  - injection H as <- <-. split; [reflexivity|]. intros [|p] x E; discriminate E.
  - destruct (close_pipes (S i) sel r) as [r' q'] eqn:Ec. destruct (IH _ _ _ Ec) as [-> Hq].
    fold (hit sel y) in H. split; [simpl; destruct (hit sel y); injection H as <- <-; reflexivity|].
    intros [|p] x E Hx; simpl in E.
    + injection E as ->. rewrite Hx in H. injection H as _ <-. rewrite Nat.add_0_r. left; reflexivity.
    + rewrite Nat.add_succ_r. apply (Hq p x E) in Hx. destruct (hit sel y); injection H as _ <-; simpl; auto.
Qed.

Lemma close_pipes_facts sel l : forall i ps q, close_pipes i sel l = (ps, q) ->
  sum phi_p ps + length q = sum phi_p l /\ sum busy_p ps = sum busy_p l /\ sum wq q = 6 * length q /\
  (q = [] -> ps = l).
Proof.
  induction l as [|p r IH]; intros i ps q H; simpl in H.
  - injection H as <- <-; simpl; auto.
  - destruct (close_pipes (S i) sel r) as [r' q'] eqn:E. specialize (IH _ _ _ E) as (H1 & H2 & H3 & H4).
    destruct (sel p && p_onlist p && negb (p_closed p)) eqn:Es; injection H as <- <-; simpl.
    + apply andb_prop in Es as [_ Ec]. destruct p; simpl in *. unfold phi_p, busy_p in *; simpl in *.
      destruct p_closed; [discriminate|]. simpl. repeat split; try lia. discriminate.
    + repeat split; try lia. intros ->. rewrite H4; auto.
Qed.

Lemma shut_ctxs_facts mk l : forall cs a, shut_ctxs mk l = (cs, a) -> sum phi_c cs <= sum phi_c l.
Proof.
  induction l as [|c r IH]; intros cs a H; simpl in H.
  - injection H as <- <-; simpl; auto.
  - destruct (shut_ctxs mk r) as [r' l'] eqn:E. specialize (IH _ _ eq_refl).
    destruct (c_onlist c) eqn:Eo; [destruct (c_ref c =? 0); [|destruct mk]|]; injection H as <- <-; simpl;
      destruct c; unfold phi_c in *; simpl in *; subst; simpl;
      repeat match goal with |- context[b2n (negb ?b)] => is_var b; destruct b; simpl end; lia.
Qed.

Lemma sum_upd_le {A} (g : A -> nat) l i f : (forall x, g (f x) <= g x) -> sum g (upd l i f) <= sum g l.
Proof. intros Hf; revert i; induction l; intros [|i]; simpl; auto. specialize (Hf a); lia. specialize (IHl i); lia. Qed.
Lemma sum_upd_lt {A} (g : A -> nat) l i f x : nth_error l i = Some x -> g (f x) < g x -> sum g (upd l i f) < sum g l.
Proof. intros E H. pose proof (sum_upd g l i f x E). lia. Qed.
Lemma sum_upd_eq {A} (g : A -> nat) l i f : (forall x, g (f x) = g x) -> sum g (upd l i f) = sum g l.
Proof. intros Hf; revert i; induction l; intros [|i]; simpl; auto; try (rewrite Hf; auto); try (rewrite IHl; auto). Qed.

Lemma Wt_drop s1 s e : (forall cl, nuo s1 cl <= nuo s (e :: cl)) ->
  forall r cl cl', (forall j, In j cl' -> j = e \/ In j cl) -> Wt s1 cl r <= Wt s cl' r.
Proof.
  intros Hn; induction r as [|a r IH]; intros cl cl' Hc; simpl; auto.
  assert (Hn': nuo s1 cl <= nuo s cl').
  { etransitivity; [apply Hn|]. apply nuo_from_incl. intros j Hj. destruct (Hc j Hj) as [->|]; simpl; auto. }
  assert (Hr: Wt s1 (match a with AEpClose e0 => e0 :: cl | _ => cl end) r <= Wt s (match a with AEpClose e0 => e0 :: cl' | _ => cl' end) r).
  { apply IH. destruct a; auto. intros j [->|Hj]; simpl; auto. destruct (Hc j Hj); auto. }
  destruct a; simpl in *; unfold BB; nia.
Qed.

Lemma nuo_closed_irrel s e x cl : nth_error (eps s) e = Some x -> e_closed x = true -> nuo s cl <= nuo s (e :: cl).
Proof. intros E Hc. unfold nuo. rewrite (nuo_from_at 0 e cl (eps s) x E), Hc. simpl. rewrite andb_false_r. simpl. lia. Qed.

Lemma nuo_close_upd s e f cl :
  (forall x, e_closed (f x) = true) -> (forall x, e_onlist (f x) = e_onlist x) ->
  nuo (set_eps s (upd (eps s) e f)) cl <= nuo s (e :: cl).
Proof.
  intros Hf _. unfold nuo; simpl. destruct (nth_error (eps s) e) as [x|] eqn:E.
  - rewrite (nuo_from_at 0 e cl _ (f x) (nth_upd_eq _ _ _ _ E)), Hf. simpl. rewrite andb_false_r, Nat.add_0_r.
    apply nuo_from_mono, Forall2_upd; [apply ep_le_refl|]. intros y. unfold ep_le. rewrite Hf, andb_false_r. discriminate.
  - rewrite nth_upd_none by auto. rewrite nuo_from_out; auto. apply nth_error_None in E. simpl; lia.
Qed.

Definition simple (a : act) : bool := match a with AEpClose _ | AShutEp => false | _ => true end.

Lemma Wt_simple s cl more rest : forallb simple more = true -> Wt s cl (more ++ rest) = sum w more + Wt s cl rest.
Proof.
  induction more as [|a r IH]; simpl; auto. intros H; apply andb_prop in H as [Ha Hr].
  destruct a; simpl in *; try discriminate Ha; rewrite IH by auto; lia.
Qed.

Lemma cert_gen s a s1 more :
  simple a = true -> forallb simple more = true ->
  phi_obj s1 + sum wphi more <= phi_obj s + wphi a ->
  (phi_obj s1 + sum wphi more < phi_obj s + wphi a \/
   (eps_le s1 s /\ rq s1 = rq s /\ sum w more + Ltail s1 < w a + Ltail s)) ->
  cert s a s1 more.
Proof.
  intros Ha Hm Hp [Hlt|(Hle & Hq & Hl)]; split; auto.
  right; left. split; auto. split; auto. intros rest.
  change (a :: rest) with ([a] ++ rest). rewrite !Wt_simple by (auto; simpl; rewrite Ha; reflexivity).
  change (sum w [a]) with (w a + 0). pose proof (Wt_mono_same s1 s rest [] Hle). lia.
Qed.

Lemma Forall2_upd_at {A} (R : A -> A -> Prop) (l : list A) i f x :
  (forall y, R y y) -> nth_error l i = Some x -> R (f x) x -> Forall2 R (upd l i f) l.
Proof.
  intros Hr; revert i; induction l; intros [|i] E Hf; simpl in *; try discriminate.
  - injection E as ->. constructor; auto. apply Forall2_refl; auto.
  - constructor; auto.
Qed.

(* an action that touches at most the socket's own record and the contexts: nothing of L changes *)
Lemma cert_kc s a s1 more :
  (eps s1, pipes s1, rq s1) = (eps s, pipes s, rq s) ->
  simple a = true -> forallb simple more = true -> sum wphi more <= wphi a -> sum w more < w a ->
  phi_k (sk s1) + sum phi_c (ctxs s1) <= phi_k (sk s) + sum phi_c (ctxs s) -> cert s a s1 more.
Proof.
  intros Hv Ha Hm Hw Hl Hk. injection Hv as He Hp Hq.
  apply cert_gen; auto; unfold phi_obj, Ltail, eps_le; rewrite He, Hp, ?Hq; [lia|right].
  split; [apply Forall2_refl; apply ep_le_refl|]. split; [reflexivity|lia].
Qed.
(* below, the side conditions of these lemmas are closed by evaluation; what is left is the statement about the object *)
Ltac only_kc := apply cert_kc; [reflexivity|reflexivity|reflexivity|simpl; unfold PC, PE; lia|simpl; lia|simpl].
Ltac kc_unchanged := only_kc; apply le_n.   (* the socket record and the contexts stay as they are, too *)
Ltac one_ctx := only_kc; apply Nat.add_le_mono_l, sum_upd_le; intros ?; unfold phi_c; simpl.

(* an action that rewrites one endpoint: the endpoint's own latches and outstanding callbacks decide *)
Lemma cert_ep s a s1 more e f x :
  nth_error (eps s) e = Some x ->
  (sk s1, ctxs s1, eps s1, pipes s1) = (sk s, ctxs s, upd (eps s) e f, pipes s) ->
  simple a = true -> forallb simple more = true -> sum wphi more <= wphi a ->
  phi_e (f x) < phi_e x \/
  (rq s1 = rq s /\ phi_e (f x) <= phi_e x /\ ep_le (f x) x /\ sum w more + busy_e (f x) < w a + busy_e x) ->
  cert s a s1 more.
Proof.
  intros E Hv Ha Hm Hw Hx. injection Hv as Hk Hc He Hp.
  pose proof (sum_upd phi_e (eps s) e f x E). pose proof (sum_upd busy_e (eps s) e f x E).
  apply cert_gen; auto; unfold phi_obj, Ltail, eps_le; rewrite Hk, Hc, He, Hp; [lia|].
  destruct Hx as [Hlt|(Hq & Hle & Hel & Hl)]; [left; lia|right].
  split; [eapply Forall2_upd_at; [apply ep_le_refl|exact E|exact Hel]|]. split; [exact Hq|]. rewrite Hq. lia.
Qed.

Lemma cert_pipe s a s1 more p f x :
  nth_error (pipes s) p = Some x ->
  (sk s1, ctxs s1, eps s1, pipes s1) = (sk s, ctxs s, eps s, upd (pipes s) p f) ->
  simple a = true -> forallb simple more = true -> sum wphi more <= wphi a ->
  phi_p (f x) < phi_p x \/
  (rq s1 = rq s /\ phi_p (f x) <= phi_p x /\ sum w more + busy_p (f x) < w a + busy_p x) ->
  cert s a s1 more.
Proof.
  intros E Hv Ha Hm Hw Hx. injection Hv as Hk Hc He Hp.
  pose proof (sum_upd phi_p (pipes s) p f x E). pose proof (sum_upd busy_p (pipes s) p f x E).
  apply cert_gen; auto; unfold phi_obj, Ltail, eps_le; rewrite Hk, Hc, He, Hp; [lia|].
  destruct Hx as [Hlt|(Hq & Hle & Hl)]; [left; lia|right].
  split; [apply Forall2_refl; apply ep_le_refl|]. split; [exact Hq|]. rewrite Hq. lia.
Qed.

Ltac one_ep E := eapply cert_ep; [exact E|reflexivity|reflexivity|reflexivity|simpl; lia|unfold phi_e, e_fresh, busy_e, ep_le; simpl].

Ltac one_pipe E := eapply cert_pipe; [exact E|reflexivity|reflexivity|reflexivity|simpl; lia|unfold phi_p, busy_p; simpl].

Lemma w_find u : w (AFind u) = 2 + sum w (after_find u).
Proof. destruct u as [| | | | | | | |[c|] ? ?| | | |]; reflexivity. Qed.

Lemma find_idx_spec {A} (f : A -> bool) l : forall i j, find_idx f l i = Some j ->
  i <= j /\ exists x, nth_error l (j - i) = Some x /\ f x = true.
Proof.
  induction l as [|y r IH]; intros i j H; simpl in H; [discriminate|].
  destruct (f y) eqn:E.
  - injection H as <-. split; auto. exists y. rewrite Nat.sub_diag; auto.
  - apply IH in H as (Hle & x & Hn & Hf). split; [lia|]. exists x. split; auto.
    replace (j - i) with (S (j - S i)) by lia. auto.
Qed.

Lemma first_ep_spec es e : first_ep es = Some e -> exists x, nth_error es e = Some x /\ e_onlist x = true.
Proof.
  unfold first_ep; intros H.
  destruct (find_idx (fun e0 => e_onlist e0 && negb (e_dialer e0)) es 0) eqn:F.
  - injection H as ->. apply find_idx_spec in F as (_ & y & Hn & Hf). rewrite Nat.sub_0_r in Hn.
    apply andb_prop in Hf as [Hf _]. eauto.
  - apply find_idx_spec in H as (_ & y & Hn & Hf). rewrite Nat.sub_0_r in Hn. eauto.
Qed.

(* nothing measured changes: the continuation has to get lighter *)
Lemma cert_stay s a more :
  sum wphi more <= wphi a -> (forall rest, Wt s [] (more ++ rest) < Wt s [] (a :: rest)) -> cert s a s more.
Proof.
  intros Hw Hl. split; [lia|]. right; left. split; [apply eps_le_refl|]. split; [reflexivity|].
  intros rest. specialize (Hl rest). lia.
Qed.

Lemma cert_epclose s e s1 more : run_act fixes_all s (AEpClose e) = Some (s1, more) -> bad s1 = bad s -> cert s (AEpClose e) s1 more.
Proof.
  intros H Hb. simpl in H.
  destruct (nth_error (eps s) e) as [x|] eqn:E.
  - destruct (e_freed x).
    { inv_some H. simpl in Hb. exfalso. revert Hb. generalize (bad s). intros l X.
      assert (Y: length (l ++ [B_USE_FREED]) = length l) by (rewrite X; auto). rewrite app_length in Y; simpl in Y; lia. }
    destruct (e_closed x) eqn:Ec; inv_some H.
    + (* already closed: only the release *)
      apply cert_stay; [simpl; lia|intros rest]. cbn [Wt w app].
      assert (X: Wt s [] rest <= Wt s [e] rest).
      { apply (Wt_drop s s e); [intros cl; eapply nuo_closed_irrel; eauto|]. intros j [->|[]]; auto. }
      lia.
    + (* the close proper: the closed latch pays *)
      pose proof (sum_upd phi_e (eps s) e eset_closed x E).
      assert (phi_e (eset_closed x) < phi_e x) by (unfold phi_e, e_fresh; simpl; rewrite Ec; simpl; lia).
      apply cert_lt. unfold phi_obj; simpl. lia.
  - inv_some H. apply cert_stay; [simpl; lia|intros rest]. cbn [Wt w app].
    assert (X: Wt s [] rest <= Wt s [e] rest).
    { apply (Wt_drop s s e); [|intros j [->|[]]; auto]. intros cl. unfold nuo. rewrite nuo_from_out; auto.
      apply nth_error_None in E. simpl; lia. }
    lia.
Qed.

Lemma nuo_upd_same s e f cl : (forall x, e_onlist (f x) = e_onlist x) -> (forall x, e_closed (f x) = e_closed x) ->
  nuo (set_eps s (upd (eps s) e f)) cl = nuo s cl.
Proof.
  intros Ho Hc. unfold nuo; simpl. generalize 0. revert e. induction (eps s) as [|y r IH]; intros [|e] i; simpl; auto;
    rewrite ?Ho, ?Hc, ?IH; auto.
Qed.

Lemma cert_shutep s s1 more : run_act fixes_all s AShutEp = Some (s1, more) -> cert s AShutEp s1 more.
Proof.
  intros H. simpl in H.
  destruct (first_ep (eps s)) as [e|] eqn:F; [|inv_some H; apply cert_stay; [simpl; lia|intros rest; cbn [Wt w app]; lia]].
  destruct (first_ep_spec _ _ F) as (x & E & Ho). rewrite E in H.
  destruct (e_closed x) eqn:Ec; [discriminate H|]. inv_some H.
  set (s1 := set_eps s (upd (eps s) e (fun x0 => eset_ref x0 (S (e_ref x0))))).
  assert (Hn: forall cl, nuo s1 cl = nuo s cl) by (intros; apply nuo_upd_same; intros []; reflexivity).
  assert (Hle: eps_le s1 s) by (unfold s1, eps_le; simpl; eapply Forall2_upd_at; [apply ep_le_refl|exact E|unfold ep_le; simpl; auto]).
  unfold cert. split.
  { unfold phi_obj; simpl. pose proof (sum_upd_le phi_e (eps s) e (fun x0 => eset_ref x0 (S (e_ref x0)))) as X.
    lapply X; [lia|intros []; reflexivity]. }
  right; left. split; auto. split; auto. intros rest. cbn [Wt w app].
  rewrite Hn.
  assert (X1: nuo s [e] + 1 <= nuo s []) by (unfold nuo; rewrite (nuo_from_at 0 e [] (eps s) x E), Ho, Ec; simpl; lia).
  assert (X2: Wt s1 [e] rest <= Wt s [] rest) by (apply Wt_mono; auto; intros j []).
  assert (X3: Ltail s1 = Ltail s).
  { unfold Ltail, s1; simpl. rewrite (sum_upd_eq busy_e) by (intros []; reflexivity). auto. }
  unfold BB. nia.
Qed.

(* a find takes a reference on one object, or fails and touches nothing that is measured *)
Lemma cert_find s u s1 more : run_act fixes_all s (AFind u) = Some (s1, more) -> cert s (AFind u) s1 more.
Proof.
  intros H. simpl in H.
  destruct u as [| | |c|d|e|e a|p|[c|] a b| |c|e|p];
    case_matches H; try discriminate H; inv_some H.
  (* the new state shows which object the reference was taken on; a find that fails rewrites none *)
  all: lazymatch goal with
       | |- cert _ (AFind (UEpClose _)) (set_eps _ _) _ => idtac
       | |- cert _ _ (set_ctxs _ _) _ => one_ctx; lia
       | E : nth_error (eps _) _ = Some _ |- cert _ _ (set_eps _ _) _ => one_ep E; right; repeat split; auto; lia
       | E : nth_error (pipes _) _ = Some _ |- cert _ _ (set_pipes _ _) _ => one_pipe E; right; repeat split; auto; lia
       | _ => only_kc; unfold phi_k; simpl; lia
       end.
  (* UEpClose e, found: the close that follows is weighed with e already ahead of it *)
  set (s1 := set_eps _ _).
  assert (Hle: eps_le s1 s) by (apply eps_le_upd; intros x; unfold ep_le; simpl; auto).
  split; [|right; left; split; [exact Hle|split; [reflexivity|intros rest]]].
  - unfold phi_obj, s1; simpl. rewrite (sum_upd_eq phi_e) by (intros []; reflexivity). lia.
  - assert (M: Wt s1 [e] rest <= Wt s [] rest) by (apply Wt_mono; [exact Hle|intros j []]).
    replace (Ltail s1) with (Ltail s) by (unfold Ltail, s1; simpl; rewrite (sum_upd_eq busy_e) by (intros []; reflexivity); reflexivity).
    cbn [app Wt]. rewrite w_find. cbn [after_find sum fold_right w]. lia.
Qed.

Lemma cert_reap s e s1 more : run_act fixes_all s (AEpReap e) = Some (s1, more) -> cert s (AEpReap e) s1 more.
Proof.
  intros H. simpl in H.
  destruct (ep_has_pipes s e) eqn:Ep; [|inv_some H; kc_unchanged].
  destruct (close_pipes 0 (fun p => p_ep p =? e) (pipes s)) as [ps q] eqn:E. inv_some H.
  pose proof (close_pipes_facts _ _ _ _ _ E) as (H1 & H2 & H3 & H4).
  destruct q as [|i q].
  - rewrite H4 in * by auto. replace (set_pipes s (pipes s)) with s by (destruct s; reflexivity). simpl. unfold cert. split; [unfold phi_obj; simpl; lia|].
    right; right. exists e. auto.
  - apply cert_lt; unfold phi_obj; simpl; simpl in *; lia.
Qed.

Lemma cert_all s a s1 more : run_act fixes_all s a = Some (s1, more) -> bad s1 = bad s -> cert s a s1 more.
Proof.
  intros H Hb.
  destruct a;
    lazymatch goal with
    | |- cert _ (AFind _) _ _ => exact (cert_find _ _ _ _ H)
    | |- cert _ AShutEp _ _ => exact (cert_shutep _ _ _ H)
    | |- cert _ (AEpClose _) _ _ => exact (cert_epclose _ _ _ _ H Hb)
    | |- cert _ (AEpReap _) _ _ => exact (cert_reap _ _ _ _ H)
    | _ => simpl in H
    end.
  - (* ARet *) inv_some H. kc_unchanged.
  - (* AShutBegin *)
    destruct (k_device (sk s) && negb dev); [inv_some H; kc_unchanged|].
    destruct (k_closing (sk s)) eqn:Ec; inv_some H; [kc_unchanged|].
    apply cert_lt. unfold phi_obj, phi_k; simpl. rewrite Ec; simpl; lia.
  - (* AShutPipes *)
    destruct (close_pipes 0 (fun _ => true) (pipes s)) as [ps q] eqn:E. inv_some H.
    apply close_pipes_facts in E as (H1 & H2 & H3 & H4).
    destruct q as [|i q].
    + rewrite H4, app_nil_r by auto. kc_unchanged.
    + apply cert_lt. unfold phi_obj; simpl in *; lia.
  - (* AMsgqClose *) destruct (k_phase (sk s)); inv_some H; only_kc; unfold phi_k; simpl; lia.
  - (* AShutCtxs *)
    destruct (shut_ctxs true (ctxs s)) as [cs l] eqn:E. inv_some H. apply shut_ctxs_facts in E. only_kc; lia.
  - (* AWaitCtxs *) destruct (any_ctx_onlist s); [discriminate H|]. inv_some H. kc_unchanged.
  - (* AWaitPipes *) destruct (any_pipe_onlist s); [discriminate H|]. inv_some H. kc_unchanged.
  - (* AProtoClose *) destruct (k_phase (sk s)); inv_some H; only_kc; unfold phi_k; simpl; lia.
  - (* ASockClose2 *)
    destruct (k_closed (sk s)) eqn:Ec; inv_some H; [kc_unchanged|].
    apply cert_lt. unfold phi_obj, phi_k; simpl. rewrite Ec; simpl; lia.
  - (* AWaitRefs *) destruct ((k_ref (sk s) <=? 1) && negb (any_ctx_onlist s)); [|discriminate H]. inv_some H. kc_unchanged.
  - (* ASockDestroy *) rewrite orb_true_r in H. inv_some H. only_kc; unfold phi_k; simpl; lia.
  - (* ASockRele *)
    destruct (k_freed (sk s)); [inv_some H; kc_unchanged|].
    destruct (k_ref (sk s)); inv_some H; kc_unchanged.
  - (* ACtxOpen1 *)
    destruct (k_closed (sk s)); inv_some H; [kc_unchanged|].
    apply cert_lt. unfold phi_obj; simpl. rewrite sum_app; unfold PC, phi_c; simpl; lia.
  - (* ACtxOpen2 *) destruct (k_closing (sk s)); inv_some H; [kc_unchanged|one_ctx; lia].
  - (* ACtxClose *) inv_some H. one_ctx; lia.
  - (* ACtxRele *)
    destruct (nth_error (ctxs s) c) as [x|] eqn:E; [|inv_some H; kc_unchanged].
    destruct (c_freed x); [inv_some H; kc_unchanged|].
    destruct (c_ref x) as [|n]; [inv_some H; kc_unchanged|].
    destruct ((0 <? n) || negb (c_closed x)); inv_some H; one_ctx; lia.
  - (* ACtxDestroy *)
    destruct (nth_error (ctxs s) c) as [x|] eqn:E; [|inv_some H; kc_unchanged].
    destruct (k_freed (sk s)); inv_some H; [kc_unchanged|one_ctx; lia].
  - (* AEpCreate1 *)
    inv_some H. apply cert_lt; unfold phi_obj; simpl; rewrite sum_app; unfold PE, phi_e, e_fresh; simpl; lia.
  - (* AEpCreate2 *)
    destruct (nth_error (eps s) e) as [x|] eqn:E; [|inv_some H; kc_unchanged].
    destruct (e_pub x || e_freed x || e_onlist x) eqn:Eg; [inv_some H; kc_unchanged|].
    apply orb_false_elim in Eg as [Eg Eo]; apply orb_false_elim in Eg as [Epb Ef].
    destruct (k_closing (sk s)); inv_some H; one_ep E; rewrite Epb, Ef, Eo; simpl; lia.
  - (* AEpTranClose *)
    inv_some H.
    destruct (nth_error (eps s) e) as [x|] eqn:E.
    + one_ep E. destruct (e_tranclosed x); simpl; [right; auto with arith|left; lia].
    + rewrite nth_upd_none by auto. kc_unchanged.
  - (* AEpStopWait *)
    destruct (nth_error (eps s) e) as [x|] eqn:E; [|inv_some H; kc_unchanged].
    destruct (e_busy x =? 0); [|discriminate H]. inv_some H.
    one_ep E. right. repeat split; auto; lia.
  - (* AEpClosePipes *)
    destruct (close_pipes 0 (fun p => p_ep p =? e) (pipes s)) as [ps q] eqn:E. inv_some H.
    apply close_pipes_facts in E as (H1 & H2 & H3 & H4).
    destruct q as [|i q].
    + rewrite H4 by auto. rewrite app_nil_r. kc_unchanged.
    + apply cert_lt; unfold phi_obj; simpl; simpl in *; lia.
  - (* AEpSockRemove *)
    destruct (nth_error (eps s) e) as [x|] eqn:E; [|inv_some H; kc_unchanged].
    destruct (e_freed x); [inv_some H; kc_unchanged|].
    destruct (negb (e_closed x && e_stopped x)); [inv_some H; kc_unchanged|].
    destruct (e_onlist x) eqn:Eo; inv_some H; [|kc_unchanged].
    one_ep E. right. rewrite Eo. destruct (negb (e_pub x) && negb (e_freed x)); simpl; repeat split; try discriminate; lia.
  - (* AEpRele *)
    destruct (nth_error (eps s) e) as [x|] eqn:E; [|inv_some H; kc_unchanged].
    destruct (e_freed x); [inv_some H; kc_unchanged|].
    destruct (e_ref x) as [|n]; [inv_some H; kc_unchanged|].
    destruct ((n =? 0) && e_closed x).
    + destruct (e_reapq x) eqn:Er; inv_some H; [kc_unchanged|]. one_ep E. rewrite Er. simpl. lia.
    + inv_some H. one_ep E. right. repeat split; auto; lia.
  - (* AEpStart *)
    destruct (nth_error (eps s) e) as [x|] eqn:E; [|inv_some H; kc_unchanged].
    destruct (e_freed x); [inv_some H; kc_unchanged|].
    destruct (e_stopped x); inv_some H; [kc_unchanged|].
    one_ep E. right. repeat split; auto. destruct (e_tranclosed x); lia.
  - (* AEpDestroy *)
    inv_some H.
    destruct (nth_error (eps s) e) as [x|] eqn:E.
    + one_ep E. right. repeat split; auto. destruct (e_freed x), (e_pub x), (e_onlist x); simpl; lia.
    + rewrite nth_upd_none by auto. kc_unchanged.
  - (* APipeClose *)
    destruct (nth_error (pipes s) p) as [x|] eqn:E; [|inv_some H; kc_unchanged].
    destruct (p_freed x); [inv_some H; kc_unchanged|].
    destruct (p_closed x) eqn:Ec; inv_some H; [kc_unchanged|].
    one_pipe E. rewrite Ec. simpl. lia.
  - (* APipeRele *)
    destruct (nth_error (pipes s) p) as [x|] eqn:E; [|inv_some H; kc_unchanged].
    destruct (p_freed x); [inv_some H; kc_unchanged|].
    destruct (p_ref x) as [|n]; [inv_some H; kc_unchanged|].
    destruct (n =? 0); inv_some H; one_pipe E; right; repeat split; auto; lia.
  - (* APipeTranClose *)
    inv_some H. destruct (nth_error (pipes s) p) as [x|] eqn:E.
    + one_pipe E. destruct (p_tranclosed x); simpl; [right; auto with arith|left; lia].
    + rewrite nth_upd_none by auto. kc_unchanged.
  - (* APipeIdRemove *)
    inv_some H. destruct (nth_error (pipes s) p) as [x|] eqn:E.
    + one_pipe E. right; repeat split; auto; lia.
    + rewrite nth_upd_none by auto. kc_unchanged.
  - (* APipeStopWait *)
    destruct (nth_error (pipes s) p) as [x|] eqn:E; [|inv_some H; kc_unchanged].
    destruct (p_busy x =? 0); [|discriminate H]. inv_some H.
    one_pipe E. right; repeat split; auto; lia.
  - (* APipeRemove *)
    destruct (nth_error (pipes s) p) as [x|] eqn:E; [|inv_some H; kc_unchanged].
    destruct (p_inmap x); inv_some H; one_pipe E; right; repeat split; auto; lia.
  - (* ASubmit *)
    destruct k as [c|].
    + destruct (nth_error (ctxs s) c) as [x|] eqn:E; [|inv_some H; kc_unchanged].
      destruct (c_freed x); [inv_some H; kc_unchanged|].
      destruct (negb (c_pub x)); [inv_some H; kc_unchanged|].
      destruct (has_aio a (subm s)); [inv_some H; kc_unchanged|].
      destruct blocks; inv_some H; [|kc_unchanged].
      one_ctx; lia.
    + destruct (k_freed (sk s)); [inv_some H; kc_unchanged|].
      destruct (has_aio a (subm s)); [inv_some H; kc_unchanged|].
      destruct (k_pclosed (sk s) && k_latch (sk s)); [inv_some H; kc_unchanged|].
      destruct blocks; inv_some H; [|kc_unchanged].
      only_kc; unfold phi_k; simpl; lia.
Qed.

(* a closed pipe that is still on the socket's list is queued for the reaper or being reaped *)
Definition closed_pipe_queued (s : st) : Prop :=
  forall p x, nth_error (pipes s) p = Some x -> p_closed x = true -> p_onlist x = true ->
              In (RPipe p) (rq s) \/ In (APipeRemove p) (reaper s).
Definition reaper_shape (r : list act) : Prop :=
  match r with AEpReap _ :: r' => r' = [] | _ => noreap r = true end.
Definition TInv (s : st) : Prop :=
  closed_pipe_queued s /\ Forall (fun t => noreap t = true) (threads s) /\ reaper_shape (reaper s).

(* the weight of a continuation depends on the state only through the count of endpoints still to close *)
Lemma Wt_nuo_ext s1 s2 : (forall cl, nuo s1 cl = nuo s2 cl) -> forall cl l, Wt s1 cl l = Wt s2 cl l.
Proof. intros E cl l; revert cl; induction l; intros cl; simpl; auto. rewrite IHl, E. auto. Qed.
Lemma Wt_ext s1 s2 : eps s1 = eps s2 -> forall cl l, Wt s1 cl l = Wt s2 cl l.
Proof. intros E. apply Wt_nuo_ext. intros cl; unfold nuo; rewrite E; auto. Qed.

Lemma sum_ext {A} (f g : A -> nat) l : (forall x, f x = g x) -> sum f l = sum g l.
Proof. intros H; induction l; simpl; auto. Qed.

(* L of a state whose continuations weigh what they weigh in [s] *)
Lemma L_ext s' s : (forall cl l, Wt s' cl l = Wt s cl l) ->
  L s' = sum (Wt s []) (threads s') + Wt s [] (reaper s') + Ltail s'.
Proof. intros E. unfold L. rewrite (sum_ext _ (Wt s [])) by (intros; apply E). rewrite E. reflexivity. Qed.

Lemma sum_upd_mono {A} (g g' : A -> nat) l k x y :
  nth_error l k = Some x -> (forall z, g' z <= g z) -> sum g' (upd l k (fun _ => y)) + g x <= sum g l + g' y.
Proof.
  intros E Hg. revert k E; induction l as [|z r IH]; intros [|k] E; simpl in *; try discriminate.
  - injection E as ->. pose proof (sum_le g' g r Hg). lia.
  - specialize (IH k E). specialize (Hg z). lia.
Qed.

Lemma count_pipe_In p l : In (RPipe p) l -> 1 <= count_pipe l.
Proof. induction l as [|[q|e] r IH]; simpl; [tauto| |]; intros [H|H]; try discriminate; try lia. apply IH in H; lia. Qed.

Lemma ep_has_pipes_ex s e : ep_has_pipes s e = true -> exists p x, nth_error (pipes s) p = Some x /\ p_onlist x = true /\ (p_ep x =? e) = true.
Proof.
  unfold ep_has_pipes. rewrite existsb_exists. intros (x & Hin & Hb). apply In_nth_error in Hin as [p Hp].
  apply andb_prop in Hb as [H1 H2]. eauto.
Qed.

Lemma noreap_app l1 l2 : noreap (l1 ++ l2) = noreap l1 && noreap l2.
Proof. unfold noreap. apply forallb_app. Qed.
Lemma noreap_shape r : noreap r = true -> reaper_shape r.
Proof. destruct r as [|[] r]; simpl; auto; discriminate. Qed.
Lemma rhead_noreap r : noreap r = true -> rhead r = [].
Proof. destruct r as [|[] r]; try reflexivity. discriminate. Qed.
(* behind the head of the reaper's continuation there is never an AEpReap *)
Lemma reaper_shape_tail a r : reaper_shape (a :: r) -> noreap r = true.
Proof. destruct a; simpl; intros H; try exact H. subst; reflexivity. Qed.
Lemma reaper_shape_head r e rest : reaper_shape r -> r = AEpReap e :: rest -> rest = [].
Proof. intros H ->; exact H. Qed.

Lemma ps_list_rhead r q : ps_list q <= ps_list (rhead r ++ q).
Proof. destruct r as [|[] r]; simpl; lia. Qed.

Lemma lt3_le a1 a2 a3 b1 b2 b3 :
  a1 <= b1 -> (a1 < b1 \/ (a2 <= b2 /\ (a2 < b2 \/ a3 < b3))) -> lt3 (a1, a2, a3) (b1, b2, b3).
Proof. unfold lt3; intros. lia. Qed.

(* the reaper takes the next item off its queue *)
Lemma next_item_decreases s i q : reaper s = [] -> rq s = i :: q ->
  lt3 (M3 (set_reaper (set_rq s q) match i with RPipe p => pipe_reap_prog p | REp e => [AEpReap e] end)) (M3 s).
Proof.
  intros Erp Eq. set (prog := match i with RPipe p => _ | REp e => _ end). set (s' := set_reaper _ _).
  assert (Hp: sum wphi prog = 0 /\ ps_list (rhead prog ++ q) = ps_list (i :: q) /\ S (Wt s [] prog) = wq i)
    by (destruct i; repeat split; reflexivity).
  destruct Hp as (H1 & H2 & H3).
  unfold M3, Phi, PS. rewrite (L_ext s' s (Wt_ext s' s eq_refl)). unfold L, Ltail, phi_obj, s'.
  cbn [sk ctxs eps pipes threads reaper rq set_reaper set_rq]. rewrite Erp, Eq, H1, H2.
  change (sum wq (i :: q)) with (wq i + sum wq q). cbn [rhead app Wt]. apply lt3_le; lia.
Qed.

(* In [s'] one continuation a :: rest of [s] (a thread's or the reaper's) has become more ++ rest and the
   others are as they were: stated for an arbitrary weight g of continuations, and a smaller one g' for the new state. *)
Definition swaps (s s' : st) (a : act) (rest more : list act) : Prop :=
  forall g g' : list act -> nat, (forall z, g' z <= g z) ->
    sum g' (threads s') + g' (reaper s') + g (a :: rest) <= sum g (threads s) + g (reaper s) + g' (more ++ rest).

(* a critical section with a certificate of the first two kinds lowers the measure, whoever ran it *)
Lemma cert_decreases s a rest s1 more s' :
  (sk s', ctxs s', eps s', pipes s', rq s') = (sk s1, ctxs s1, eps s1, pipes s1, rq s1) -> swaps s s' a rest more -> (rq s1 = rq s -> PS s' <= PS s) ->
  phi_obj s1 + sum wphi more <= phi_obj s + wphi a ->
  phi_obj s1 + sum wphi more < phi_obj s + wphi a \/
  (eps_le s1 s /\ rq s1 = rq s /\ forall rest, Wt s1 [] (more ++ rest) + Ltail s1 < Wt s [] (a :: rest) + Ltail s) ->
  lt3 (M3 s') (M3 s).
Proof.
  intros Hv Hsw Hps Hle Hc. injection Hv as Hk Hcx He Hp Hq.
  assert (P1: phi_obj s' = phi_obj s1) by (unfold phi_obj; rewrite Hk, Hcx, He, Hp; reflexivity).
  pose proof (Hsw (sum wphi) (sum wphi) (fun _ => le_n _)) as P2. rewrite sum_app in P2. change (sum wphi (a :: rest)) with (wphi a + sum wphi rest) in P2.
  unfold M3. apply lt3_le; [unfold Phi; rewrite P1; lia|].
  destruct Hc as [Hlt|(Hel & Hrq & Hw)]; [left; unfold Phi; rewrite P1; lia|right].
  split; [auto|right].
  rewrite (L_ext s' s1 (Wt_ext s' s1 He)). unfold L.
  replace (Ltail s') with (Ltail s1) by (unfold Ltail; rewrite He, Hp, Hq; reflexivity).
  pose proof (Hsw (Wt s []) (Wt s1 []) (fun z => Wt_mono_same s1 s z [] Hel)). specialize (Hw rest). lia.
Qed.

(* dialer_reap / listener_reap found pipes, all closed already: the endpoint goes back to the end of the
   queue, behind at least one of its pipes *)
Lemma requeue_decreases s e :
  closed_pipe_queued s -> reaper s = [AEpReap e] -> ep_has_pipes s e = true ->
  close_pipes 0 (fun p => p_ep p =? e) (pipes s) = (pipes s, []) ->
  lt3 (M3 (set_reaper (set_rq s (rq s ++ [REp e])) [])) (M3 s).
Proof.
  intros Hi2 Erp Hep Hcl.
  assert (Hc: 1 <= count_pipe (rq s)).
  { apply ep_has_pipes_ex in Hep as (p & x & Hn & Ho & Hpe).
    assert (Hc: p_closed x = true).
    { destruct (p_closed x) eqn:Hc; [reflexivity|]. destruct (proj2 (close_pipes_spec _ _ _ _ _ Hcl) p x Hn).
      unfold hit. rewrite Hpe, Ho, Hc. reflexivity. }
    destruct (Hi2 p x Hn Hc Ho) as [Hin|Hin]; [apply count_pipe_In in Hin; exact Hin|].
    rewrite Erp in Hin. destruct Hin as [Hin|[]]; discriminate Hin. }
  unfold M3, Phi, PS, phi_obj. cbn [sk ctxs eps pipes threads reaper rq set_reaper set_rq]. rewrite Erp.
  apply lt3_le; cbn [sum fold_right wphi]; [lia|right].
  cbn [rhead app]. rewrite ps_list_app_ep. cbn [ps_list]. lia.
Qed.

Theorem step_decreases s l s' :
  TInv s -> internal s l = true -> step fixes_all s l = Some s' -> bad s' = bad s -> lt3 (M3 s') (M3 s).
Proof.
  intros (Hi2 & Hnr & Hrs) Hint Hstep Hbad.
  destruct l; try discriminate Hint; cbn [step] in Hstep.
  - (* LRun *)
    destruct (nth_error (threads s) k) as [[|a rest]|] eqn:Et; try discriminate Hstep.
    destruct (run_act fixes_all s a) as [[s1 more]|] eqn:Er; [|discriminate Hstep].
    injection Hstep as <-.
    pose proof (run_act_frame _ _ _ _ _ Er) as (Ft & Fr & _).
    destruct (cert_all _ _ _ _ Er Hbad) as [Cle [Cs|[Cp|(e & -> & _)]]].
    3:{ apply (Forall_nth _ _ _ _ Hnr) in Et. discriminate Et. }
    all: apply (cert_decreases s a rest s1 more); auto; try reflexivity.
    all: try (intros Hq; unfold PS; cbn [reaper rq set_threads]; rewrite Fr, Hq; apply le_n).
    all: intros g g' Hg; cbn [threads reaper set_threads]; rewrite Ft, Fr;
      pose proof (sum_upd_mono g g' _ k _ (more ++ rest) Et Hg); specialize (Hg (reaper s)); lia.
  - (* LReap *)
    destruct (reaper s) as [|a rest] eqn:Erp.
    + destruct (rq s) as [|i q] eqn:Eq; [discriminate Hstep|].
      destruct i; injection Hstep as <-; [apply (next_item_decreases s (RPipe p))|apply (next_item_decreases s (REp e))]; auto.
    + destruct (run_act fixes_all s a) as [[s1 more]|] eqn:Er; [|discriminate Hstep].
      injection Hstep as <-.
      pose proof (run_act_frame _ _ _ _ _ Er) as (Ft & Fr & Hm & _).
      destruct (cert_all _ _ _ _ Er Hbad) as [Cle [Cs|[Cp|(e & -> & -> & -> & Hep & Hcl)]]].
      3:{ rewrite (reaper_shape_head _ _ _ Hrs eq_refl) in *. apply requeue_decreases; auto. }
      all: apply (cert_decreases s a rest s1 more); auto; try reflexivity.
      all: try (intros Hq; unfold PS; cbn [reaper rq set_reaper]; rewrite Erp, Hq;
                rewrite rhead_noreap by (rewrite noreap_app, Hm; apply (reaper_shape_tail a); exact Hrs);
                apply ps_list_rhead).
      all: intros g g' Hg; cbn [threads reaper set_reaper]; rewrite Ft, Erp;
        pose proof (sum_le g' g (threads s) Hg); lia.
  - (* LEpCb: a callback of an endpoint whose transport side is closed was outstanding *)
    cbn [internal] in Hint.
    destruct (nth_error (eps s) e) as [x|] eqn:E; [|discriminate Hint].
    destruct (e_busy x) as [|n] eqn:Eb; [discriminate Hstep|]. injection Hstep as <-.
    set (f := fun x0 => eset_pend (eset_busy x0 n) []).
    pose proof (sum_upd phi_e (eps s) e f x E) as X1. pose proof (sum_upd busy_e (eps s) e f x E) as X2.
    assert (Y: phi_e (f x) = phi_e x /\ busy_e (f x) + 1 = busy_e x) by (unfold busy_e, f; cbn; rewrite Hint, Eb; split; [reflexivity|lia]).
    unfold M3, Phi, PS. rewrite (L_ext (set_done (set_eps s (upd (eps s) e f)) _) s).
    2:{ apply Wt_nuo_ext. intros cl. apply (nuo_upd_same s e f cl); intros []; reflexivity. }
    unfold L, Ltail, phi_obj. cbn [sk ctxs eps pipes threads reaper rq set_done set_eps].
    apply lt3_le; lia.
  - (* LPipeCb *)
    cbn [internal] in Hint.
    destruct (nth_error (pipes s) p) as [x|] eqn:E; [|discriminate Hint].
    destruct (p_busy x) as [|n] eqn:Eb; [discriminate Hstep|]. injection Hstep as <-.
    set (f := fun x0 => pset_busy x0 n).
    pose proof (sum_upd phi_p (pipes s) p f x E) as X1. pose proof (sum_upd busy_p (pipes s) p f x E) as X2.
    assert (Y: phi_p (f x) = phi_p x /\ busy_p (f x) + 1 = busy_p x) by (unfold busy_p, f; cbn; rewrite Hint, Eb; split; [reflexivity|lia]).
    unfold M3, Phi, PS. rewrite (L_ext (set_pipes s (upd (pipes s) p f)) s (Wt_ext (set_pipes s _) s eq_refl)).
    unfold L, Ltail, phi_obj. cbn [sk ctxs eps pipes threads reaper rq set_pipes].
    apply lt3_le; lia.
Qed.

Definition pipes_kept (a : act) (s s1 : st) : Prop :=
  forall p x1, nth_error (pipes s1) p = Some x1 -> p_closed x1 = true -> p_onlist x1 = true ->
    In (RPipe p) (rq s1) \/ (a <> APipeRemove p /\ exists x, nth_error (pipes s) p = Some x /\ p_closed x = true /\ p_onlist x = true).

Lemma pipes_kept_same a s s1 : pipes s1 = pipes s -> (forall p, a <> APipeRemove p) -> pipes_kept a s s1.
Proof. intros E Ha p x1 H1 H2 H3. right. split; auto. rewrite E in H1. eauto. Qed.

Lemma pipes_kept_upd a s s1 p0 f : pipes s1 = upd (pipes s) p0 f ->
  (forall x, p_closed (f x) = p_closed x) -> (forall x, p_onlist (f x) = p_onlist x) -> (forall p, a <> APipeRemove p) ->
  pipes_kept a s s1.
Proof.
  intros E Hc Ho Ha p x1 H1 H2 H3. right. split; auto. rewrite E, nth_upd in H1.
  destruct (Nat.eq_dec p0 p) as [->|]; [|eauto].
  destruct (nth_error (pipes s) p) as [x|]; [|discriminate H1]. injection H1 as <-.
  rewrite Hc in H2; rewrite Ho in H3. eauto.
Qed.

Lemma pipes_kept_close a s s1 sel q : close_pipes 0 sel (pipes s) = (pipes s1, q) ->
  (forall i, In i q -> In i (rq s1)) -> (forall p, a <> APipeRemove p) -> pipes_kept a s s1.
Proof.
  intros E Hq Ha p x1 H1 H2 H3.
  destruct (close_pipes_spec _ _ _ _ _ E) as [Eps Hin]. rewrite Eps, nth_error_map in H1.
  destruct (nth_error (pipes s) p) as [x|] eqn:En; [|discriminate H1]. injection H1 as <-.
  destruct (hit sel x) eqn:Eh; [left; apply Hq, (Hin p x En Eh)|right; eauto].
Qed.

Lemma run_act_I2 fx s a s1 more : run_act fx s a = Some (s1, more) ->
  (exists q, rq s1 = rq s ++ q) /\ pipes_kept a s s1.
Proof.
  intros H.
  assert (Hq0: rq s = rq s ++ []) by (rewrite app_nil_r; auto).
  destruct a; simpl in H.
  (* all but nni_pipe_close and nni_pipe_remove leave the pipes alone, update one keeping p_closed and p_onlist,
     or close some through close_pipes *)
  all: try (case_matches H; try discriminate H; inv_some H;
            (split; [first [exists []; exact Hq0 | eexists; reflexivity]|]);
            first [ apply pipes_kept_same; [reflexivity|intros; discriminate]
                  | eapply pipes_kept_upd; [reflexivity|intros []; reflexivity|intros []; reflexivity|intros; discriminate]
                  | eapply pipes_kept_close; [eassumption|intros i Hi; simpl; rewrite ?in_app_iff; auto|intros; discriminate] ];
            fail).
  - (* nni_pipe_close: the pipe is marked and queued, or nothing changes *)
    assert (Same: (exists q, rq s = rq s ++ q) /\ pipes_kept (APipeClose p) s s)
      by (split; [exists []; exact Hq0|apply pipes_kept_same; [reflexivity|intros; discriminate]]).
    destruct (nth_error (pipes s) p) as [x|] eqn:E0; [|inv_some H; exact Same].
    destruct (p_freed x); [inv_some H; exact Same|].
    destruct (p_closed x); inv_some H; [exact Same|].
    split; [eexists; reflexivity|]. intros p' x1 H1 H2 H3. simpl in *. rewrite nth_upd in H1.
    destruct (Nat.eq_dec p p') as [->|].
    + left. apply in_or_app; right; simpl; auto.
    + right. split; [discriminate|eauto].
  - (* nni_pipe_remove: the pipe leaves the list *)
    destruct (nth_error (pipes s) p) as [x|] eqn:E0.
    + assert (K: forall f s2, pipes s2 = upd (pipes s) p f -> (forall y, p_onlist (f y) = false) ->
                 pipes_kept (APipeRemove p) s s2).
      { intros f s2 Ep Hf p' x1 H1 H2 H3. rewrite Ep, nth_upd in H1. destruct (Nat.eq_dec p p') as [->|].
        - rewrite E0 in H1. injection H1 as <-. rewrite Hf in H3. discriminate H3.
        - right. split; [congruence|eauto]. }
      destruct (p_inmap x); inv_some H.
      * split; [exists []; exact Hq0|]. eapply K; [reflexivity|intros []; reflexivity].
      * split; [exists []; exact Hq0|]. eapply K; [reflexivity|intros []; reflexivity].
    + inv_some H. split; [exists []; exact Hq0|]. intros p' x1 H1 H2 H3. right. split; [|eauto].
      intros X; injection X as <-. rewrite E0 in H1; discriminate H1.
Qed.

Lemma prog_noreap u : noreap (prog u) = true.
Proof. destruct u; reflexivity. Qed.

Lemma Forall_upd_set {A} (P : A -> Prop) (l : list A) i y : Forall P l -> P y -> Forall P (upd l i (fun _ => y)).
Proof. intros H Hy; revert i; induction H; intros [|i]; simpl; constructor; auto. Qed.

Lemma closed_pipe_queued_upd s p f : (forall x, p_closed (f x) = p_closed x) -> (forall x, p_onlist (f x) = p_onlist x) ->
  closed_pipe_queued s -> closed_pipe_queued (set_pipes s (upd (pipes s) p f)).
Proof.
  intros Hc Ho Hi p' x1 H1 H2 H3. simpl in *. rewrite nth_upd in H1.
  destruct (Nat.eq_dec p p') as [->|]; [|eauto].
  destruct (nth_error (pipes s) p') as [x|] eqn:E; [|discriminate H1]. injection H1 as <-.
  rewrite Hc in H2; rewrite Ho in H3. eauto.
Qed.

Theorem TInv_step fx s l s' : TInv s -> step fx s l = Some s' -> TInv s'.
Proof.
  intros (Hi2 & Hnr & Hrs) Hstep.
  destruct l; simpl in Hstep.
  - (* LSpawn *)
    destruct (handle_known s u); [|discriminate Hstep]. injection Hstep as <-.
    split; [exact Hi2|]. split; [|exact Hrs]. simpl. apply Forall_app1; auto. apply prog_noreap.
  - (* LRun *)
    destruct (nth_error (threads s) k) as [[|a rest]|] eqn:Et; try discriminate Hstep.
    destruct (run_act fx s a) as [[s1 more]|] eqn:Er; [|discriminate Hstep]. injection Hstep as <-.
    pose proof (run_act_frame _ _ _ _ _ Er) as (Ft & Fr & Hm & _).
    pose proof (run_act_I2 _ _ _ _ _ Er) as [[q Hq] Hk].
    split; [|split].
    + intros p x1 H1 H2 H3. simpl in *.
      destruct (Hk p x1 H1 H2 H3) as [Hin|(_ & x & E1 & E2 & E3)]; [auto|].
      destruct (Hi2 p x E1 E2 E3) as [Hin|Hin]; [left; rewrite Hq; apply in_or_app; auto|right; rewrite Fr; auto].
    + simpl. rewrite Ft. apply Forall_upd_set; auto.
      rewrite noreap_app, Hm. simpl. pose proof (Forall_nth _ _ _ _ Hnr Et) as Hh. simpl in Hh. apply andb_prop in Hh as [_ Hn]; auto.
    + simpl. rewrite Fr; auto.
  - (* LReap *)
    destruct (reaper s) as [|a rest] eqn:Erp.
    + (* the reaper takes the next item; it was idle, so a closed pipe still on the list is in the queue *)
      assert (Hin: forall p' x, nth_error (pipes s) p' = Some x -> p_closed x = true -> p_onlist x = true -> In (RPipe p') (rq s)).
      { intros p' x H1 H2 H3. destruct (Hi2 p' x H1 H2 H3) as [Hin|Hin]; [exact Hin|]. rewrite Erp in Hin. destruct Hin. }
      destruct (rq s) as [|[p|e] q] eqn:Eq; [discriminate Hstep| |]; injection Hstep as <-.
      * (* a pipe: its APipeRemove is now the reaper's continuation *)
        split; [|split; [exact Hnr|reflexivity]]. intros p' x H1 H2 H3. simpl in *.
        destruct (Hin p' x H1 H2 H3) as [X|X]; [injection X as ->; right; simpl; auto|auto].
      * split; [|split; [exact Hnr|reflexivity]]. intros p' x H1 H2 H3. simpl in *.
        destruct (Hin p' x H1 H2 H3) as [X|X]; [discriminate X|auto].
    + destruct (run_act fx s a) as [[s1 more]|] eqn:Er; [|discriminate Hstep]. injection Hstep as <-.
      pose proof (run_act_frame _ _ _ _ _ Er) as (Ft & Fr & Hm & _).
      pose proof (run_act_I2 _ _ _ _ _ Er) as [[q Hq] Hk].
      split; [|split].
      * intros p x1 H1 H2 H3. simpl in *.
        destruct (Hk p x1 H1 H2 H3) as [Hin|(Hne & x & E1 & E2 & E3)]; [auto|].
        destruct (Hi2 p x E1 E2 E3) as [Hin|Hin]; [left; rewrite Hq; apply in_or_app; auto|].
        right. rewrite Erp in Hin. destruct Hin as [Hin|Hin]; [congruence|]. apply in_or_app; auto.
      * simpl. rewrite Ft; auto.
      * simpl. apply noreap_shape. rewrite noreap_app, Hm. exact (reaper_shape_tail a rest Hrs).
  - (* LEpCb *)
    destruct (nth_error (eps s) e) as [x|]; [|discriminate Hstep].
    destruct (e_busy x); [discriminate Hstep|]. injection Hstep as <-. split; [|split]; auto.
  - (* LPipeCb *)
    destruct (nth_error (pipes s) p) as [x|] eqn:E; [|discriminate Hstep].
    destruct (p_busy x) as [|n]; [discriminate Hstep|]. injection Hstep as <-. split; [|split]; auto.
    apply closed_pipe_queued_upd; auto; intros []; reflexivity.
  - (* LComplete *)
    destruct (has_aio a (k_pend (sk s))); [injection Hstep as <-; split; [|split]; auto|].
    destruct (existsb (fun c => has_aio a (c_pend c)) (ctxs s)); [|discriminate Hstep].
    injection Hstep as <-; split; [|split]; auto.
  - (* LPipeCreate *)
    destruct (nth_error (eps s) e) as [x|]; [|discriminate Hstep].
    destruct (e_tranclosed x || e_freed x || negb (e_onlist x)); [discriminate Hstep|]. injection Hstep as <-.
    split; [|split]; simpl; auto.
    + intros p x1 H1 H2 H3. simpl in *.
      destruct (lt_dec p (length (pipes s))) as [Hl|Hl].
      * rewrite nth_error_app1 in H1 by auto. eauto.
      * rewrite nth_error_app2 in H1 by lia. destruct (p - length (pipes s)) as [|[|]]; simpl in H1; try discriminate H1.
        injection H1 as <-. discriminate H2.
    + apply Forall_app1; auto.
  - (* LPipeOp *)
    destruct (nth_error (pipes s) p) as [x|] eqn:E; [|discriminate Hstep].
    destruct (p_stopped x || p_freed x); [discriminate Hstep|]. injection Hstep as <-. split; [|split]; auto.
    apply closed_pipe_queued_upd; auto; intros []; reflexivity.
  - (* LEpOp *)
    destruct (nth_error (eps s) e) as [x|]; [|discriminate Hstep].
    destruct (e_stopped x || e_freed x); [discriminate Hstep|]. injection Hstep as <-. split; [|split]; auto.
  - (* LDevStart *)
    destruct (k_closing (sk s) || k_closed (sk s) || k_device (sk s) || k_freed (sk s)); [discriminate Hstep|].
    injection Hstep as <-. split; [|split]; auto.
Qed.

Lemma TInv_init ph l f : TInv (init ph l f).
Proof. split; [|split]; simpl; auto. intros [|p] x H; discriminate H. Qed.

Theorem TInv_run fx ls : forall s s', TInv s -> run fx s ls = Some s' -> TInv s'.
Proof.
  induction ls as [|l r IH]; intros s s' Hi H; simpl in H.
  - injection H as <-; auto.
  - destruct (step fx s l) as [s1|] eqn:E; [|discriminate H]. apply (IH s1 s'); auto. eapply TInv_step; eauto.
Qed.

(* every state of every run of the repaired model satisfies the invariant, so: *)
Theorem reachable_step_decreases ph la fi ls s l s' :
  run fixes_all (init ph la fi) ls = Some s ->
  internal s l = true -> step fixes_all s l = Some s' -> bad s' = bad s ->
  lt3 (M3 s') (M3 s).
Proof. intros Hr. apply step_decreases. eapply TInv_run; [apply TInv_init|eauto]. Qed.

Definition all_fixed (fx : fixes) : bool := fx_ephold fx && fx_epid fx && fx_ctxfini fx && fx_lateop fx && fx_ctxopen fx && fx_ctxmark fx.

Lemma all_fixed_eq fx : all_fixed fx = true -> fx = fixes_all.
Proof. destruct fx as [[] [] [] [] [] []]; unfold all_fixed; simpl; intros H; try discriminate H; reflexivity. Qed.

(* the defect that the first repair missing from [fx] leaves in the model (the witnesses of CloseProofs) *)
Definition pinned_defect (fx : fixes) : Prop :=
  match fx with
  | mkFixes false _ _ _ _ _ =>
      exists s, run fx (init PhProto false false) w_ephold = Some s /\ bad s = [B_REF_UNDERFLOW]
  | mkFixes true false _ _ _ _ =>
      exists s, run fx (init PhProto false false) w_epid = Some s /\ bad s = [B_FIND_FREED]
  | mkFixes true true false _ _ _ =>
      exists s, run fx (init PhFini true true) w_ctxfini = Some s /\
                In (USockClose, C_OK, R_DESTROY) (rets s) /\ bad s = [] /\
                (exists x, nth_error (ctxs s) 0 = Some x /\ c_pend x = [1%N]) /\
                (exists s', step fx s (LRun 2) = Some s' /\ bad s' = [B_SOCK_FREED])
  | mkFixes true true true false _ _ =>
      exists s, run fx (init PhProto false false) w_lateop = Some s /\
                In (USockClose, C_OK, R_DESTROY) (rets s) /\ k_freed (sk s) = true /\
                k_pend (sk s) = [1%N] /\ done s = [] /\ no_internal_step fx s
  | mkFixes true true true true false _ =>
      exists s, run fx (init PhFini true true) w_ctxopen = Some s /\
                (exists r, nth_error (threads s) 1 = Some (AWaitCtxs :: r)) /\
                bad s = [] /\ no_internal_step fx s
  | mkFixes true true true true true false =>
      exists s, run fx (init PhFini true true) w_ctxmark = Some s /\
                (exists r, nth_error (threads s) 2 = Some (AWaitCtxs :: r)) /\
                bad s = [] /\ no_internal_step fx s /\ find_ctx s 0 = None
  | mkFixes true true true true true true => False
  end.

Lemma pinned_defect_holds fx : all_fixed fx = false -> pinned_defect fx.
Proof.
  destruct fx as [a b c d e g]. intros H.
  destruct a; [|exact (ephold_refuted b c d e g)].
  destruct b; [|exact (epid_refuted true c d e g)].
  destruct c; [|exact (ctxfini_refuted true true d e g)].
  destruct d; [|exact (lateop_refuted true true true e g)].
  destruct e; [|exact (ctxopen_refuted true true true true g)].
  destruct g; [|exact (ctxmark_refuted true true true true true)].
  unfold all_fixed in H; simpl in H; discriminate H.
Qed.

(* a statement about the repaired form, or else the defect the source's form still has *)
Lemma sel_intro (P : fixes -> Prop) : P fixes_all -> forall fx, if all_fixed fx then P fx else pinned_defect fx.
Proof.
  intros H fx. destruct (all_fixed fx) eqn:E; [|apply pinned_defect_holds; auto].
  apply all_fixed_eq in E; subst; exact H.
Qed.

Definition Terminates (fx : fixes) : Prop :=
  well_founded lt3 /\
  forall ph la fi ls s l s',
    run fx (init ph la fi) ls = Some s ->
    internal s l = true -> step fx s l = Some s' -> bad s' = bad s -> lt3 (M3 s') (M3 s).

Theorem terminates_sel fx : if all_fixed fx then Terminates fx else pinned_defect fx.
Proof. apply (sel_intro Terminates). split; [apply lt3_wf|]. intros; eapply reachable_step_decreases; eauto. Qed.
