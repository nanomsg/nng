(* ProvContract: the PROVIDER CONTRACT of the aio framework (src/core/aio.c) as an
   executable monitor over the event history of ONE nng_aio.

   The theorems of Core/AioProofs.v are about AioModel, in which the provider is
   well-behaved by construction ([LProvFinish] is enabled only while [p_owns]).
   What a real provider (a protocol's send/recv, a stream dialer, the device, ...)
   must do for those theorems to be about it is stated here, on what can be
   OBSERVED of one user aio: the submissions and callbacks (seen by the caller) and
   the framework's records for that aio (nni_aio_start accepted / refused, a
   completion through nni_aio_finish* or the sleep expiry, a_stop latched).

     pc_step m e = None   <=>   event e breaches the contract in monitor state m:
       - a completion for an operation that was already completed (second finish,
         finish after a refused nni_aio_start, finish with nothing submitted),
       - a second nni_aio_start for one submission, a start accepted on a stopped aio,
       - a callback without a completion, a second callback, a callback that reads a
         result other than that of the one completion,
       - nng_aio_stop returning while an operation is outstanding or a callback runs,
       - (the caller's side) a submission while the previous operation is outstanding.

   This file: definitions and the theorems about the monitor alone (what every
   accepted history satisfies, by induction over the history - no bound).  The link
   to AioModel (every run of the model projects to an accepted history, so the
   monitor is the model's interface and not a second specification) is in
   Core/ProvContractLink.v.  The monitor is extracted (coq/extract.d/c02-provc.txt)
   and run by ocaml/drv_provc.ml on the histories harness/wb_opkinds.c observes. *)
From Coq Require Import List Arith NArith Bool Lia.
Import ListNotations.

Inductive pcevent :=
| ESubmit                    (* the caller hands the aio to an operation (nng_socket_recv(s, aio), ...) *)
| EStartOk                   (* nni_aio_start returned true: the provider owns the operation *)
| EStartRefused (rv : N)     (* nni_aio_start returned false: the framework itself completes it with rv *)
| EFinish (rv : N)           (* nni_aio_finish* (or the expiry of a sleep): the provider's completion *)
| ECallback (rv : N)         (* the caller's callback starts (or its skip flag is set) and reads rv *)
| ECbDone                    (* the callback returns *)
| EFwStop                    (* critical section of nni_aio_stop / nni_aio_close / nni_aio_fini: a_stop latched *)
| EStopReturned              (* nng_aio_stop has returned to the caller *)
| EUser (code : N).          (* a disruption by the caller noted in the history (abort code, close of the object):
                                no contract content, never refused *)

Inductive pcphase :=
| PIdle                      (* no operation outstanding *)
| PSubmitted                 (* submitted; the provider has neither started nor completed it yet *)
| POwned                     (* accepted by nni_aio_start: exactly one completion is owed *)
| PCompleted (rv : N).       (* completed once with rv: exactly one callback reading rv is owed *)

Record pcstate := mkPc { pc_phase : pcphase; pc_stopped : bool; pc_running : nat }.

Definition pc_init : pcstate := mkPc PIdle false 0.

Definition pc_step (m : pcstate) (e : pcevent) : option pcstate :=
  match e with
  | ESubmit =>
      match pc_phase m with
      | PIdle => Some (mkPc PSubmitted (pc_stopped m) (pc_running m))
      | _ => None                                  (* one operation at a time (the caller's obligation) *)
      end
  | EStartOk =>
      match pc_phase m with
      | PSubmitted => if pc_stopped m then None    (* an operation accepted on a stopped aio *)
                      else Some (mkPc POwned false (pc_running m))
      | _ => None                                  (* start without submission / second start / start after completion *)
      end
  | EStartRefused rv =>
      match pc_phase m with
      | PSubmitted => Some (mkPc (PCompleted rv) (pc_stopped m) (pc_running m))
      | _ => None
      end
  | EFinish rv =>
      match pc_phase m with
      | PSubmitted | POwned => Some (mkPc (PCompleted rv) (pc_stopped m) (pc_running m))
      | PIdle => None                              (* completion of nothing *)
      | PCompleted _ => None                       (* second completion / completion after a refused start *)
      end
  | ECallback rv =>
      match pc_phase m with
      | PCompleted r => if N.eqb r rv then Some (mkPc PIdle (pc_stopped m) (S (pc_running m)))
                        else None                  (* the callback reads another result than the completion's *)
      | _ => None                                  (* callback without completion / second callback *)
      end
  | ECbDone =>
      match pc_running m with
      | S r => Some (mkPc (pc_phase m) (pc_stopped m) r)
      | O => None
      end
  | EFwStop => Some (mkPc (pc_phase m) true (pc_running m))
  | EStopReturned =>
      match pc_phase m, pc_running m with
      | PIdle, O => Some m
      | _, _ => None                               (* stop returned with an operation outstanding or a callback running *)
      end
  | EUser _ => Some m
  end.

Fixpoint pc_run (m : pcstate) (evs : list pcevent) : option pcstate :=
  match evs with
  | [] => Some m
  | e :: r => match pc_step m e with Some m1 => pc_run m1 r | None => None end
  end.

(* index of the first refused event, for the report of a breach *)
Fixpoint pc_first_breach (m : pcstate) (evs : list pcevent) (k : nat) : option (nat * pcstate) :=
  match evs with
  | [] => None
  | e :: r => match pc_step m e with Some m1 => pc_first_breach m1 r (S k) | None => Some (k, m) end
  end.

(* ---- what a history says ---- *)
Fixpoint omap {A B} (f : A -> option B) (l : list A) : list B :=
  match l with
  | [] => []
  | x :: r => match f x with Some y => y :: omap f r | None => omap f r end
  end.

Definition completion_of (e : pcevent) : option N :=
  match e with EFinish rv | EStartRefused rv => Some rv | _ => None end.
Definition callback_of (e : pcevent) : option N := match e with ECallback rv => Some rv | _ => None end.
Definition submit_of (e : pcevent) : option unit := match e with ESubmit => Some tt | _ => None end.
Definition cbdone_of (e : pcevent) : option unit := match e with ECbDone => Some tt | _ => None end.

Definition completions (evs : list pcevent) : list N := omap completion_of evs.  (* results, in order *)
Definition callbacks (evs : list pcevent) : list N := omap callback_of evs.       (* results read, in order *)
Definition submits (evs : list pcevent) : nat := length (omap submit_of evs).
Definition cbdones (evs : list pcevent) : nat := length (omap cbdone_of evs).

Definition owed_completion (p : pcphase) : nat := match p with PSubmitted | POwned => 1 | _ => 0 end.
Definition owed_callback (p : pcphase) : list N := match p with PCompleted rv => [rv] | _ => [] end.

Lemma omap_app {A B} (f : A -> option B) a b : omap f (a ++ b) = omap f a ++ omap f b.
Proof. induction a as [|x r IH]; cbn; [reflexivity|]. destruct (f x); cbn; rewrite IH; reflexivity. Qed.

Lemma pc_run_app m a b : pc_run m (a ++ b) = match pc_run m a with Some m1 => pc_run m1 b | None => None end.
Proof. revert m. induction a as [|e r IH]; intros m; cbn; [reflexivity|]. destruct (pc_step m e); [apply IH|reflexivity]. Qed.

(* accepted histories are prefix closed: the statements below hold at every moment of a history *)
Theorem pc_prefix_closed m a b m' : pc_run m (a ++ b) = Some m' -> exists m1, pc_run m a = Some m1.
Proof. rewrite pc_run_app. destruct (pc_run m a) as [m1|]; [eauto|discriminate]. Qed.

(* the accounting carried by the monitor state, relative to the history consumed so far *)
Definition Acc (evs : list pcevent) (m : pcstate) : Prop :=
  completions evs = callbacks evs ++ owed_callback (pc_phase m) /\
  submits evs = length (completions evs) + owed_completion (pc_phase m) /\
  length (callbacks evs) = cbdones evs + pc_running m.

Lemma acc_init : Acc [] pc_init.
Proof. repeat split. Qed.

Lemma app_single_length {A} (l : list A) x : length (l ++ [x]) = S (length l).
Proof. rewrite app_length. cbn. lia. Qed.

Ltac acc_fin :=
  cbn [pc_phase pc_running owed_callback owed_completion] in *; rewrite ?app_nil_r in *;
  rewrite ?app_single_length; repeat split; auto; try lia; try congruence.

Lemma acc_step evs m e m' : Acc evs m -> pc_step m e = Some m' -> Acc (evs ++ [e]) m'.
Proof.
  unfold Acc, completions, callbacks, submits, cbdones. intros (A1 & A2 & A3) H.
  rewrite !omap_app. destruct m as [ph st rn]. cbn [pc_phase pc_running pc_stopped] in *.
  destruct e; cbn [pc_step pc_phase pc_running pc_stopped] in H;
    cbn [omap completion_of callback_of submit_of cbdone_of app].
  - (* ESubmit *) destruct ph; inversion H; subst; clear H; acc_fin.
  - (* EStartOk *) destruct ph; try discriminate. destruct st; inversion H; subst; clear H; acc_fin.
  - (* EStartRefused *) destruct ph; inversion H; subst; clear H; acc_fin.
  - (* EFinish *) destruct ph; inversion H; subst; clear H; acc_fin.
  - (* ECallback *) destruct ph as [| | |r]; try discriminate. destruct (N.eqb r rv) eqn:E; [|discriminate].
    apply N.eqb_eq in E. subst r. inversion H; subst; clear H. acc_fin.
  - (* ECbDone *) destruct rn as [|r]; inversion H; subst; clear H. acc_fin.
  - (* EFwStop *) inversion H; subst; clear H. acc_fin.
  - (* EStopReturned *) destruct ph; try discriminate. destruct rn; inversion H; subst; clear H. acc_fin.
  - (* EUser *) inversion H; subst; clear H. acc_fin.
Qed.

Lemma acc_run evs : forall pre m m', Acc pre m -> pc_run m evs = Some m' -> Acc (pre ++ evs) m'.
Proof.
  induction evs as [|e r IH]; intros pre m m' A H; cbn [pc_run] in H.
  - inversion H; subst. rewrite app_nil_r. exact A.
  - destruct (pc_step m e) as [m1|] eqn:S; [|discriminate].
    replace (pre ++ e :: r) with ((pre ++ [e]) ++ r) by (rewrite <- app_assoc; reflexivity).
    eapply IH; [eapply acc_step; eauto|exact H].
Qed.

(* EXACTLY ONCE, for every accepted history of any length: the results of the completions, in
   order, are the results read by the callbacks, in order, plus the one completion whose
   callback is still owed; every submission has exactly one completion except the one
   operation still with the provider; callbacks started = callbacks returned + running. *)
Theorem pc_accepted_exactly_once evs m : pc_run pc_init evs = Some m ->
  completions evs = callbacks evs ++ owed_callback (pc_phase m) /\
  submits evs = length (completions evs) + owed_completion (pc_phase m) /\
  length (callbacks evs) = cbdones evs + pc_running m.
Proof. intros H. exact (acc_run evs [] pc_init m acc_init H). Qed.

(* ... hence once everything submitted has terminated: as many callbacks as submissions, the
   k-th callback read the result of the k-th completion, and there were no other completions *)
Corollary pc_terminated_exactly_once evs m : pc_run pc_init evs = Some m -> pc_phase m = PIdle ->
  submits evs = length (callbacks evs) /\ completions evs = callbacks evs.
Proof.
  intros H I. destruct (pc_accepted_exactly_once evs m H) as (A1 & A2 & _). rewrite I in *. cbn in *.
  rewrite app_nil_r in A1. rewrite A1 in A2. split; [lia|exact A1].
Qed.

(* at no moment of an accepted history are there more callbacks than completions, or more
   completions than submissions (prefix closure + the accounting) *)
Corollary pc_never_more a b m : pc_run pc_init (a ++ b) = Some m ->
  length (callbacks a) <= length (completions a) <= submits a.
Proof.
  intros H. destruct (pc_prefix_closed _ _ _ _ H) as [m1 H1].
  destruct (pc_accepted_exactly_once a m1 H1) as (A1 & A2 & _). rewrite A1 at 1. rewrite A1 in A2. rewrite A1.
  rewrite app_length in *. lia.
Qed.

(* a_stop is latched: after the framework's stop section no operation is accepted any more *)
Lemma pc_stopped_latched evs : forall m m', pc_stopped m = true -> pc_run m evs = Some m' ->
  pc_stopped m' = true /\ ~ In EStartOk evs.
Proof.
  induction evs as [|e r IH]; intros m m' S H; cbn [pc_run] in H.
  - inversion H; subst. split; [exact S|intros []].
  - destruct (pc_step m e) as [m1|] eqn:E; [|discriminate].
    (* no event clears pc_stopped, and pc_step refuses EStartOk while it is set *)
    assert (S1: pc_stopped m1 = true /\ e <> EStartOk).
    { destruct m as [ph st rn]. cbn [pc_stopped] in S. subst st.
      destruct e; cbn [pc_step pc_phase pc_stopped pc_running] in E; try (destruct ph; try discriminate);
        try (destruct rn; try discriminate); try (destruct (N.eqb _ _); try discriminate);
        inversion E; subst; cbn; split; auto; discriminate. }
    destruct S1 as [S1 NE]. destruct (IH m1 m' S1 H) as [S2 NI]. split; [exact S2|].
    intros [X|X]; [exact (NE X)|exact (NI X)].
Qed.

Theorem pc_no_start_after_stop a b m : pc_run pc_init (a ++ EFwStop :: b) = Some m -> ~ In EStartOk b.
Proof.
  rewrite pc_run_app. destruct (pc_run pc_init a) as [m1|]; [|discriminate]. cbn [pc_run pc_step]. intros H.
  eapply (pc_stopped_latched b); [|exact H]. reflexivity.
Qed.

(* when nng_aio_stop returns: every submission so far has had its callback, and every
   callback that started has returned - none is running, none is owed *)
Theorem pc_stop_returned_quiescent a b m : pc_run pc_init (a ++ EStopReturned :: b) = Some m ->
  submits a = length (callbacks a) /\ completions a = callbacks a /\ length (callbacks a) = cbdones a.
Proof.
  rewrite pc_run_app. destruct (pc_run pc_init a) as [m1|] eqn:H1; [|discriminate]. cbn [pc_run pc_step]. intros H.
  destruct (pc_accepted_exactly_once a m1 H1) as (A1 & A2 & A3).
  destruct (pc_phase m1) eqn:P; try discriminate. destruct (pc_running m1) eqn:R; [|discriminate].
  cbn in *. rewrite app_nil_r in A1. rewrite A1 in A2. repeat split; try lia. exact A1.
Qed.

(* the breaches named in the contract are refused (non-vacuity of the monitor): *)
Example pc_refuses_second_finish : pc_run pc_init [ESubmit; EStartOk; EFinish 0; EFinish 0] = None.
Proof. reflexivity. Qed.
Example pc_refuses_finish_after_refused_start :    (* seeded change C02/4: nng_dialer_start_aio on a stopped aio *)
  pc_run pc_init [EFwStop; EStopReturned; ESubmit; EStartRefused 999; EFinish 999] = None.
Proof. reflexivity. Qed.
Example pc_refuses_second_callback : pc_run pc_init [ESubmit; EStartOk; EFinish 0; ECallback 0; ECallback 0] = None.
Proof. reflexivity. Qed.
Example pc_refuses_foreign_result : pc_run pc_init [ESubmit; EStartOk; EFinish 0; EUser 20; ECallback 20] = None.
Proof. reflexivity. Qed.
Example pc_refuses_stop_return_while_owned : pc_run pc_init [ESubmit; EStartOk; EFwStop; EStopReturned] = None.
Proof. reflexivity. Qed.
Example pc_accepts_resubmission_from_callback :
  exists m, pc_run pc_init [ESubmit; EStartOk; EFinish 0; ECallback 0; ESubmit; EStartRefused 5; ECbDone; ECallback 5; ECbDone] = Some m
            /\ pc_phase m = PIdle.
Proof. eexists. split; reflexivity. Qed.
