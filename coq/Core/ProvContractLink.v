(* ProvContractLink: the monitor of Core/ProvContract.v is the INTERFACE of AioModel.

   Every step of the model is projected to the events it exhibits on the aio
   ([ev_of_step]: what the caller and the H2 trace of aio.c would see of that critical
   section); the history of a run is the concatenation.  Theorem: for the repaired
   nni_aio_abort (fdone = true) every run of the model, under every interleaving, projects
   to a history the monitor accepts, and the monitor's accounting of that history is the
   model's ghost accounting (g_subs, g_cbs, g_fin, t_running, a_stop).  So "the history of
   this aio is accepted by pc_step" is exactly what the theorems of AioProofs assume of a
   provider and conclude for the caller; a real provider whose histories are refused is
   outside the model, and one whose histories are accepted gets the conclusions
   (ProvContract.pc_accepted_exactly_once) without reference to the model at all. *)
From Coq Require Import List Arith NArith Bool Lia.
From NngV Require Import Core.AioModel Core.AioProofs Core.ProvContract.
Import ListNotations.

Definition ev_of_pact (fixed : bool) (s : aio) (a : pact) : list pcevent :=
  match a with
  | PFinish rv => [EFinish rv]                       (* nni_aio_finish_impl: the VT_FINISH record *)
  | PExpireProc now =>
      (* the expiry of a sleep completes it right there (the VT_EXPIRE record of a sleeping aio) *)
      let due := match a_expire s with Some e => N.ltb e now | None => false end in
      if fixed && negb due then []
      else if a_sleep s then [EFinish (if a_expire_ok s then A_OK else A_TIMEDOUT)] else []
  | PStopWait => if t_busy s =? 0 then [EStopReturned] else []
  | PDispatch | PCallCancel _ | PExpireDone => []
  end.

Definition ev_of_step (fixed : bool) (s : aio) (l : alabel) : list pcevent :=
  match l with
  | LStart zero dl sleep eok =>
      ESubmit ::
      (if a_stop s then [EStartRefused A_STOPPED]
       else if a_abort s then [EStartRefused (a_result s)]
       else if zero then [EStartRefused (if (if sleep then eok else false) then A_OK else A_TIMEDOUT)]
       else [EStartOk])
  | LRun k => match nth_error (threads s) k with Some (a :: _) => ev_of_pact fixed s a | _ => [] end
  | LRunCb => [ECallback (a_result s)]
  | LCbDone => [ECbDone]
  | LStop | LClose => [EFwStop]
  | LAbort rv => [EUser rv]
  | LProvFinish _ | LExpire _ | LReset => []
  end.

Fixpoint history (fixed fdone : bool) (s : aio) (ls : list alabel) : list pcevent :=
  match ls with
  | [] => []
  | l :: r => ev_of_step fixed s l ++
              match astep fixed fdone s l with Some s1 => history fixed fdone s1 r | None => [] end
  end.

(* PSubmitted corresponds to no model state: LStart emits ESubmit and the outcome of the start in one step *)
Definition Rel (s : aio) (m : pcstate) : Prop :=
  pc_stopped m = a_stop s /\ pc_running m = t_running s /\
  match pc_phase m with
  | PIdle => g_subs s = g_cbs s
  | PSubmitted => False
  | POwned => g_subs s = S (g_cbs s) /\ g_fin s = None
  | PCompleted rv => g_subs s = S (g_cbs s) /\ g_fin s = Some rv
  end.

Lemma rel_init : Rel aio_init pc_init.
Proof. repeat split. Qed.

(* ---- facts about reachable model states (Inv1, InvR of AioProofs) ---- *)
Lemma idle_counts s : Inv1 s -> outstanding s = false -> g_subs s = g_cbs s.
Proof. intros (I1 & _) O. apply outstanding_false in O as [T Q]. lia. Qed.

Lemma fin_thread_counts s rv rest : Inv1 s -> InvR s -> In (PFinish rv :: rest) (threads s) ->
  g_subs s = S (g_cbs s) /\ g_fin s = None.
Proof.
  intros (I1 & I2 & I3 & I4 & I5) HR HIn.
  pose proof (fin_in_threads (threads s) rv rest HIn) as FT. unfold tokens in *.
  split; [|apply (no_fin s HR)]; destruct (p_owns s); lia.
Qed.

Lemma owns_counts s : Inv1 s -> InvR s -> p_owns s = true -> g_subs s = S (g_cbs s) /\ g_fin s = None.
Proof.
  intros HI HR O. split; [|exact (owns_no_fin s HI HR O)].
  destruct HI as (I1 & I2 & I3 & I4 & I5). unfold tokens in *. rewrite O in *. lia.
Qed.

Lemma queued_counts s q : Inv1 s -> InvR s -> t_queued s = S q ->
  g_subs s = S (g_cbs s) /\ g_fin s = Some (a_result s).
Proof.
  intros (I1 & I2 & I3 & I4 & I5) (_ & J2 & J3) Q. pose proof (dsp_le_tok (threads s)) as DT.
  unfold tokens in *. split; [destruct (p_owns s); lia|].
  assert (F: g_fin s <> None) by (apply J3; destruct (p_owns s); lia).
  destruct (g_fin s) as [r|] eqn:E; [|congruence]. rewrite (J2 r eq_refl). reflexivity.
Qed.

(* the phase is determined by the ghost accounting *)
Lemma rel_idle s m : Rel s m -> g_subs s = g_cbs s -> pc_phase m = PIdle.
Proof. intros (_ & _ & R) E. destruct (pc_phase m); [reflexivity|destruct R|destruct R; lia|destruct R; lia]. Qed.
Lemma rel_owned s m : Rel s m -> g_subs s = S (g_cbs s) -> g_fin s = None -> pc_phase m = POwned.
Proof. intros (_ & _ & R) E F. destruct (pc_phase m); [lia|destruct R|reflexivity|destruct R; congruence]. Qed.
Lemma rel_completed s m r : Rel s m -> g_subs s = S (g_cbs s) -> g_fin s = Some r -> pc_phase m = PCompleted r.
Proof. intros (_ & _ & R) E F. destruct (pc_phase m); [lia|destruct R|destruct R; congruence|destruct R; congruence]. Qed.

Ltac simp_l := simp_a; cbn [pc_phase pc_stopped pc_running] in *.

(* a step that leaves the ghost accounting, a_stop and t_running alone, and shows no event *)
Lemma rel_silent s s' m : Rel s m ->
  a_stop s' = a_stop s -> t_running s' = t_running s -> g_subs s' = g_subs s -> g_cbs s' = g_cbs s -> g_fin s' = g_fin s ->
  exists m', pc_run m [] = Some m' /\ Rel s' m'.
Proof.
  intros (R1 & R2 & R3) E1 E2 E3 E4 E5. exists m. split; [reflexivity|]. unfold Rel. rewrite E1, E2, E3, E4, E5. auto.
Qed.

Section Fixed.
Variable fixed : bool.

Theorem rel_step s l s' m : Inv1 s -> InvR s -> Rel s m -> astep fixed true s l = Some s' ->
  exists m', pc_run m (ev_of_step fixed s l) = Some m' /\ Rel s' m'.
Proof.
  intros HI HR R H. pose proof R as (R1 & R2 & R3).
  destruct l as [zero dl sleep eok|rv|rv|now| | |k| | | ]; cbn [astep ev_of_step] in *.
  - (* LStart: submission and the outcome of nni_aio_start *)
    destruct (outstanding s) eqn:O; [discriminate|].
    pose proof (idle_counts s HI O) as E. pose proof (rel_idle s m R E) as P.
    destruct m as [ph st rn]. simp_l. subst ph st rn.
    destruct (a_stop s) eqn:ST; [|destruct (a_abort s); [|destruct zero]]; inversion H; subst; clear H;
      (eexists; split; [cbn; rewrite ?ST; reflexivity|]); unfold Rel, spawn; simp_l; rewrite ?ST; repeat split; auto; lia.
  - (* LProvFinish: the provider unlinks the operation; the completion itself is the PFinish continuation *)
    destruct (p_owns s && negb (p_sleep s)); [|discriminate]. inversion H; subst; clear H.
    apply (rel_silent s _ m R); unfold spawn; reflexivity.
  - destruct (rv =? 0)%N; [discriminate|].
    destruct (a_cancel s); [|destruct (true && a_done s)]; inversion H; subst; clear H;
      (exists m; split; [reflexivity|]); unfold Rel, spawn; simp_l; auto.
  - destruct (a_on_eq s && negb (a_expiring s)); [|discriminate].
    destruct (negb match a_expire s with Some e => (e <? now)%N | None => false end); [discriminate|].
    inversion H; subst; clear H. apply (rel_silent s _ m R); unfold spawn; reflexivity.
  - destruct (a_expiring s); [discriminate|]. inversion H; subst; clear H.
    eexists; split; [reflexivity|]. destruct (a_cancel s); unfold Rel, spawn; cbn [app]; simp_l; auto.
  - inversion H; subst; clear H.
    eexists; split; [reflexivity|]. destruct (a_cancel s); unfold Rel, spawn; simp_l; auto.
  - apply (astep_run fixed true) in H as (a & rest & s1 & more & N & RP & ->). rewrite N.
    destruct a; cbn [run_pact ev_of_pact] in *.
    + inversion RP; subst s1 more; clear RP. apply (rel_silent s _ m R); reflexivity.
    + (* PFinish rv: the completion *)
      inversion RP; subst s1 more; clear RP.
      destruct (fin_thread_counts s rv rest HI HR (nth_error_In _ _ N)) as [E F].
      pose proof (rel_owned s m R E F) as P. destruct m as [ph st rn]. simp_l. subst ph st rn.
      eexists; split; [reflexivity|]. unfold Rel, do_finish; simp_l. rewrite F. auto.
    + unfold do_call_cancel in RP. destruct (p_owns s); inversion RP; subst s1 more; clear RP;
        apply (rel_silent s _ m R); reflexivity.
    + unfold do_expire_proc in RP.
      destruct (fixed && negb match a_expire s with Some e => (e <? now)%N | None => false end).
      * inversion RP; subst s1 more; clear RP. apply (rel_silent s _ m R); reflexivity.
      * destruct (a_sleep s) eqn:SL; [|destruct (a_cancel s)]; inversion RP; subst s1 more; clear RP.
        -- (* a sleep expires: completed here *)
           pose proof HI as (_ & _ & _ & _ & I5). destruct (I5 SL) as [O _].
           destruct (owns_counts s HI HR O) as [E F].
           pose proof (rel_owned s m R E F) as P. destruct m as [ph st rn]. simp_l. subst ph st rn.
           eexists; split; [reflexivity|]. unfold Rel; simp_l. rewrite F. auto.
        -- apply (rel_silent s _ m R); reflexivity.
        -- apply (rel_silent s _ m R); reflexivity.
    + inversion RP; subst s1 more; clear RP. apply (rel_silent s _ m R); reflexivity.
    + (* PStopWait: nni_aio_stop returns *)
      destruct (t_busy s =? 0) eqn:B; inversion RP; subst s1 more; clear RP. apply Nat.eqb_eq in B.
      destruct (unbusy_counts s HI B) as (E & _ & RN & _). pose proof (rel_idle s m R E) as P.
      destruct m as [ph st rn]. simp_l. subst ph st rn. rewrite RN.
      eexists; split; [reflexivity|]. unfold Rel; simp_l. auto.
  - (* LRunCb: the callback reads a_result *)
    destruct (t_queued s) as [|q] eqn:Q; [discriminate|]. inversion H; subst; clear H.
    destruct (queued_counts s q HI HR Q) as [E F].
    pose proof (rel_completed s m _ R E F) as P. destruct m as [ph st rn]. simp_l. subst ph st rn.
    eexists; split; [cbn; rewrite N.eqb_refl; reflexivity|]. unfold Rel; simp_l. repeat split; auto; lia.
  - destruct (t_running s) as [|r] eqn:TR; [discriminate|]. inversion H; subst; clear H.
    destruct m as [ph st rn]. simp_l. subst st rn.
    eexists; split; [reflexivity|]. unfold Rel; simp_l. auto.
  - destruct (outstanding s) eqn:O; [discriminate|]. inversion H; subst; clear H.
    apply (rel_silent s _ m R); reflexivity.
Qed.

(* every run of the model projects to an accepted history, and the monitor ends in the
   state that corresponds to the model's *)
Lemma run_accepted ls : forall s m s', Inv1 s -> Inv2 s -> InvR s -> InvD s -> Rel s m ->
  arun fixed true s ls = Some s' ->
  exists m', pc_run m (history fixed true s ls) = Some m' /\ Rel s' m'.
Proof.
  induction ls as [|l r IH]; intros s m s' A B C D R H; cbn [arun history] in *.
  - inversion H; subst. exists m. split; [reflexivity|exact R].
  - destruct (astep fixed true s l) as [s1|] eqn:S; [|discriminate].
    destruct (rel_step s l s1 m A C R S) as (m1 & P1 & R1).
    assert (C1: InvR s1) by (eapply (invR_step fixed true); eauto; apply done_not_late; exact D).
    destruct (IH s1 m1 s' (inv1_step fixed true s l s1 A S) (inv2_step fixed true s l s1 A B S) C1
                 (invD_step fixed true s l s1 C D S) R1 H) as (m' & P' & R').
    exists m'. split; [|exact R']. rewrite pc_run_app, P1. exact P'.
Qed.
End Fixed.

Theorem model_histories_accepted fixed ls s : arun fixed true aio_init ls = Some s ->
  exists m, pc_run pc_init (history fixed true aio_init ls) = Some m /\ Rel s m.
Proof. intros H. exact (run_accepted fixed ls aio_init pc_init s inv1_init inv2_init invR_init invD_init rel_init H). Qed.

(* the monitor's counts of the projected history are the model's ghost counters *)
Lemma ev_counts fixed s l :
  submits (ev_of_step fixed s l) = match l with LStart _ _ _ _ => 1 | _ => 0 end /\
  length (callbacks (ev_of_step fixed s l)) = match l with LRunCb => 1 | _ => 0 end.
Proof.
  destruct l as [zero dl sleep eok|rv|rv|now| | |k| | | ]; cbn [ev_of_step]; try (split; reflexivity).
  - destruct (a_stop s); [|destruct (a_abort s); [|destruct zero]]; split; reflexivity.
  - destruct (nth_error (threads s) k) as [[|[] ?]|]; cbn [ev_of_pact]; try (split; reflexivity).
    + destruct (fixed && _); [|destruct (a_sleep s)]; split; reflexivity.
    + destruct (t_busy s =? 0); split; reflexivity.
Qed.

Lemma step_counts fixed fd s l s' : astep fixed fd s l = Some s' ->
  g_subs s' = g_subs s + submits (ev_of_step fixed s l) /\
  g_cbs s' = g_cbs s + length (callbacks (ev_of_step fixed s l)).
Proof.
  intros H. destruct (astep_ghost _ _ _ _ _ H) as (S & C & _). destruct (ev_counts fixed s l) as [-> ->]. auto.
Qed.

Lemma submits_app a b : submits (a ++ b) = submits a + submits b.
Proof. unfold submits. rewrite omap_app, app_length. reflexivity. Qed.
Lemma callbacks_app a b : callbacks (a ++ b) = callbacks a ++ callbacks b.
Proof. unfold callbacks. apply omap_app. Qed.

Theorem history_counts fixed fd ls : forall s s', arun fixed fd s ls = Some s' ->
  g_subs s' = g_subs s + submits (history fixed fd s ls) /\
  g_cbs s' = g_cbs s + length (callbacks (history fixed fd s ls)).
Proof.
  induction ls as [|l r IH]; intros s s' H; cbn [arun history] in *.
  - inversion H; subst. cbn. split; lia.
  - destruct (astep fixed fd s l) as [s1|] eqn:S; [|discriminate].
    destruct (step_counts fixed fd s l s1 S) as [A1 A2]. destruct (IH s1 s' H) as [B1 B2].
    rewrite submits_app, callbacks_app, app_length. split; lia.
Qed.
