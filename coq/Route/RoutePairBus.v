(* RoutePairBus: PAIRv1 hop counts through devices, BUS raw devices, the header guard. *)
From Coq Require Import List Arith NArith Bool Lia.
From NngV Require Import Proto.Common Route.RouteModel Route.RouteWords Route.RouteProofs.
From NngV Require Proto.ReqRepBacktrace Proto.PairModel Proto.BusModel.
Import ListNotations.

Lemma xrep_recv_h_transport p ttl w : xrep_recv_h [] p ttl w = Some (f_front_recv reqrep_ops p ttl w).
Proof. reflexivity. Qed.
Lemma xresp_recv_h_transport p ttl w : xresp_recv_h [] p ttl w = Some (f_front_recv survey_ops p ttl w).
Proof. reflexivity. Qed.
Lemma recv_h_panics_iff h0 p ttl w :
  (xrep_recv_h h0 p ttl w = None <-> RT_HEADER_MAX <= length h0 + 4) /\
  (xresp_recv_h h0 p ttl w = None <-> RT_HEADER_MAX <= length h0 + 4).
Proof.
  unfold xrep_recv_h, xresp_recv_h, append_u32_ok.
  destruct (length h0 + 4 <? RT_HEADER_MAX) eqn:E.
  - apply Nat.ltb_lt in E. split; split; try discriminate; lia.
  - apply Nat.ltb_ge in E. split; split; auto.
Qed.

Lemma pair_be32 v : PairModel.be32 v = be32 v.
Proof. reflexivity. Qed.

Lemma get32_be32 v rest : (v < W32)%N -> PairModel.get32 (be32 v ++ rest) = Some (v, rest).
Proof.
  intros H. pose proof (be_bytes v H) as B. rewrite be32_wb. unfold word_be in *. cbn [wb app PairModel.get32].
  destruct B as (_ & _ & _ & _ & E). unfold PairModel.word32. rewrite E. reflexivity.
Qed.

(* classification of ALL 32-bit hop values *)
Lemma pair1_recv_values v body ttl : (v < W32)%N ->
  pair1_recv ttl (be32 v ++ body) =
    if (255 <? v)%N then RClose
    else if (N.of_nat ttl <? v)%N then RDrop
    else RDeliver (mkPmsg (be32 v) body).
Proof.
  intros H. unfold pair1_recv, PairModel.rx_decode, K1raw. cbn [pm_body pm_hdr]. rewrite get32_be32 by exact H.
  destruct (255 <? v)%N; [reflexivity|]. destruct (N.of_nat ttl <? v)%N; reflexivity.
Qed.
Lemma pair1_recv_short ttl w : length w < 4 -> pair1_recv ttl w = RClose.
Proof.
  intros H. unfold pair1_recv, PairModel.rx_decode, K1raw. cbn [pm_body].
  destruct w as [|a [|b [|c [|d r]]]]; cbn [length] in H; try lia; reflexivity.
Qed.
(* arbitrary values in the list (not even bytes) *)
Lemma pair1_recv_any ttl w m : pair1_recv ttl w = RDeliver m ->
  exists a b c d rest, w = [a; b; c; d] ++ rest /\
    (PairModel.word32 a b c d <= 255)%N /\ (PairModel.word32 a b c d <= N.of_nat ttl)%N /\
    m = mkPmsg (be32 (PairModel.word32 a b c d)) rest.
Proof.
  unfold pair1_recv, PairModel.rx_decode, K1raw. cbn [pm_body pm_hdr].
  destruct w as [|a [|b [|c [|d r]]]]; cbn [PairModel.get32]; try discriminate.
  destruct (N.ltb_spec 255 (PairModel.word32 a b c d)); [discriminate|].
  destruct (N.ltb_spec (N.of_nat ttl) (PairModel.word32 a b c d)); [discriminate|].
  intros H1. inversion H1. exists a, b, c, d, r. repeat split; auto.
Qed.

Lemma pair1_send_raw v body : (v < W32)%N ->
  pair1_send true (mkPmsg (be32 v) body) =
    if (255 <=? v)%N then None else Some (be32 ((v + 1) mod 4294967296) ++ body).
Proof.
  intros H. unfold pair1_send, PairModel.norm_send. cbn [pm_hdr].
  rewrite <- (app_nil_r (be32 v)). rewrite get32_be32 by exact H.
  destruct (255 <=? v)%N; [reflexivity|].
  unfold PairModel.wire_form, PairModel.bump. cbn [pm_hdr pm_body]. rewrite get32_be32 by exact H.
  unfold wire_of, ReqRepBacktrace.wire_of. cbn [pm_hdr pm_body]. rewrite app_nil_r. reflexivity.
Qed.
Lemma pair1_send_cooked m : pair1_send false m = Some (be32 1 ++ pm_body m).
Proof. reflexivity. Qed.

Lemma pair1_dev_values v body ttl : (v < W32)%N -> ttl <= 254 ->
  pair1_dev ttl (be32 v ++ body) =
    if (255 <? v)%N then FwdClose
    else if (N.of_nat ttl <? v)%N then FwdDrop
    else FwdSend (be32 (v + 1) ++ body).
Proof.
  intros H Ht. unfold pair1_dev. rewrite pair1_recv_values by exact H.
  destruct (N.ltb_spec 255 v); [reflexivity|]. destruct (N.ltb_spec (N.of_nat ttl) v); [reflexivity|].
  rewrite device_pass_id, pair1_send_raw by exact H.
  destruct (N.leb_spec 255 v); [lia|]. rewrite N.mod_small by lia. reflexivity.
Qed.

(* a pair1 raw device forwards a wire only with the hop count raised by one, and never fails its
   send (which would stop the device) while ttl <= 254 *)
Lemma pair1_dev_cases ttl w : ttl <= 254 ->
  match pair1_dev ttl w with
  | FwdSend w' =>
      exists a b c d rest, w = [a; b; c; d] ++ rest /\ (PairModel.word32 a b c d <= N.of_nat ttl)%N /\
        w' = be32 (PairModel.word32 a b c d + 1) ++ rest
  | FwdStop => False
  | _ => True
  end.
Proof.
  intros Ht. unfold pair1_dev. destruct (pair1_recv ttl w) as [m| |] eqn:E; try exact I.
  apply pair1_recv_any in E. destruct E as (a & b & c & d & rest & Ew & H1 & H2 & Em).
  rewrite device_pass_id. subst m. rewrite pair1_send_raw by (unfold W32; lia).
  destruct (N.leb_spec 255 (PairModel.word32 a b c d)); [lia|]. rewrite N.mod_small by lia.
  exists a, b, c, d, rest. repeat split; auto.
Qed.
Lemma pair1_dev_any ttl w w' : ttl <= 254 -> pair1_dev ttl w = FwdSend w' ->
  exists a b c d rest, w = [a; b; c; d] ++ rest /\ (PairModel.word32 a b c d <= N.of_nat ttl)%N /\
    w' = be32 (PairModel.word32 a b c d + 1) ++ rest.
Proof. intros Ht E. pose proof (pair1_dev_cases ttl w Ht) as C. rewrite E in C. exact C. Qed.
Lemma pair1_dev_never_stops ttl w : ttl <= 254 -> pair1_dev ttl w <> FwdStop.
Proof. intros Ht E. pose proof (pair1_dev_cases ttl w Ht) as C. rewrite E in C. exact C. Qed.

(* chains: the message leaves the sender with hop h (1 for a cooked sender) *)
Fixpoint pfirst_fail (h : N) (i : nat) (ttls : list nat) : option nat :=
  match ttls with
  | [] => None
  | t :: r => if (N.of_nat t <? h)%N then Some i else pfirst_fail (h + 1) (S i) r
  end.
Lemma pfirst_fail_ge : forall ttls h i k, pfirst_fail h i ttls = Some k -> i <= k < i + length ttls.
Proof.
  induction ttls as [|t r IH]; intros h i k H; cbn [pfirst_fail] in H; [discriminate|].
  destruct (N.of_nat t <? h)%N; [inversion H; cbn [length]; lia|]. apply IH in H. cbn [length]. lia.
Qed.

Lemma pair1_chain_wf : forall ttls h i body, Forall (fun t => t <= RT_TTL_MAX) ttls -> (h <= 255)%N ->
  fst (pair1_chain i ttls (be32 h ++ body)) =
    match pfirst_fail h i ttls with
    | None => CArrive (be32 (h + N.of_nat (length ttls)) ++ body)
    | Some k => CDropAt k
    end /\
  length (snd (pair1_chain i ttls (be32 h ++ body))) =
    match pfirst_fail h i ttls with None => length ttls | Some k => k - i end.
Proof.
  induction ttls as [|t r IH]; intros h i body Ht Hh.
  - cbn [pair1_chain pfirst_fail fst snd length]. rewrite N.add_0_r. auto.
  - inversion Ht as [|x l H1 H2]; subst. unfold RT_TTL_MAX in H1. cbn [pair1_chain pfirst_fail].
    rewrite pair1_dev_values by (unfold W32; lia).
    destruct (N.ltb_spec 255 h); [lia|].
    destruct (N.ltb_spec (N.of_nat t) h).
    + cbn [fst snd length]. rewrite Nat.sub_diag. auto.
    + destruct (IH (h + 1)%N (S i) body H2 ltac:(lia)) as [A B].
      destruct (pair1_chain (S i) r (be32 (h + 1) ++ body)) as [c tr] eqn:E. cbn [fst snd] in *.
      rewrite A. split.
      * destruct (pfirst_fail (h + 1) (S i) r); [reflexivity|]. cbn [length]. do 3 f_equal. lia.
      * cbn [length]. rewrite B. destruct (pfirst_fail (h + 1) (S i) r) as [k|] eqn:Ef; [|reflexivity].
        apply pfirst_fail_ge in Ef. lia.
Qed.

(* loops: the hop count after g forwards is at least g *)
Definition plead (g : nat) (w : list N) : Prop :=
  g = 0 \/ exists a b c d rest, w = [a; b; c; d] ++ rest /\ (N.of_nat g <= PairModel.word32 a b c d)%N.

(* [v], [p] and the premise [True] are unused: they fill the [edge_ok p] slot of FloodBound's [fwd_lead] *)
Lemma pair1_fwd_lead (ttl : nat -> nat) T (Httl : forall v, ttl v <= T) (HT : T <= 254) :
  forall (v : nat) (p : N) w w' g, True -> plead g w -> pair1_forward ttl v p w = Some w' -> g < S T /\ plead (S g) w'.
Proof.
  intros v p w w' g _ Hl H. unfold pair1_forward in H.
  destruct (pair1_dev (ttl v) w) as [x| | |] eqn:E; try discriminate. inversion H; subst x.
  specialize (Httl v). apply pair1_dev_any in E; [|lia].
  destruct E as (a & b & c & d & rest & Ew & Hv & Ew').
  assert (G : (N.of_nat g <= PairModel.word32 a b c d)%N).
  { destruct Hl as [->|(a' & b' & c' & d' & rest' & Ew2 & G)]; [lia|].
    rewrite Ew in Ew2. inversion Ew2; subst. exact G. }
  split; [lia|]. right. revert Hv G Ew'. generalize (PairModel.word32 a b c d) as x. intros x Hv G Ew'.
  assert (V : (x + 1 < W32)%N) by (unfold W32; lia).
  pose proof (be_bytes _ V) as B. rewrite Ew', be32_wb. unfold word_be in *. cbn [wb].
  do 5 eexists. split; [reflexivity|]. destruct B as (_ & _ & _ & _ & B). unfold PairModel.word32. rewrite B. lia.
Qed.

Theorem pair1_loops_die (ttl : nat -> nat) (edges : nat -> list (nat * N)) T live :
  (forall v, ttl v <= T) -> T <= 254 ->
  flood nat (pair1_forward ttl) edges (S (S T)) live = [].
Proof.
  intros Httl HT.
  apply (flood_dies nat (pair1_forward ttl) edges (fun _ => True) plead (S T) (pair1_fwd_lead ttl T Httl HT)); auto.
  intros v p w H. split; [exact I|left; reflexivity].
Qed.
Theorem pair1_forwards_bounded (ttl : nat -> nat) (edges : nat -> list (nat * N)) T live k :
  (forall v, ttl v <= T) -> T <= 254 ->
  flood_forwards nat (pair1_forward ttl) edges (S T + k) live = flood_forwards nat (pair1_forward ttl) edges (S T) live.
Proof.
  intros Httl HT.
  pose proof (flood_forwards_bounded nat (pair1_forward ttl) edges (fun _ => True) plead (S T)
                (pair1_fwd_lead ttl T Httl HT) (fun _ _ _ _ => I) k 0 live) as B.
  rewrite Nat.sub_0_r in B. apply B. intros v p w H. split; [exact I|left; reflexivity].
Qed.
(* along one path: at most T + 1 forwards for any wire, at most T when the first hop count is >= 1 *)
Theorem pair1_walk_bounded : forall ttls w T, Forall (fun t => t <= T) ttls -> T <= 254 ->
  forall i, length (snd (pair1_chain i ttls w)) <= S T.
Proof.
  intros ttls w T Ht HT i. rewrite <- (Nat.sub_0_r (S T)).
  apply (walk_bounded pair1_dev (fun t => t <= T) plead (S T) pair1_chain);
    [reflexivity| | |exact Ht|now left|lia].
  - intros j t r w0. cbn [pair1_chain]. destruct (pair1_dev t w0) as [w'| | |]; try reflexivity.
    now destruct (pair1_chain (S j) r w').
  - intros t w0 w' g H1 Hl E.
    apply (pair1_fwd_lead (fun _ => t) T (fun _ => H1) HT 0 0%N w0 w' g I Hl).
    unfold pair1_forward. now rewrite E.
Qed.

Lemma dec_enc32 p : (p < W32)%N -> BusModel.dec32 (BusModel.enc32 p) = p.
Proof.
  intros H. pose proof (be_bytes p H) as B. unfold word_be in B. unfold BusModel.dec32, BusModel.enc32.
  cbn [fold_left]. lia.
Qed.
(* a raw BUS device changes nothing and counts nothing: it only remembers the pipe to skip *)
Lemma bus_dev_spec p w : (p < W32)%N -> bus_dev p w = (p, w).
Proof.
  intros H. unfold bus_dev. rewrite device_pass_id. unfold BusModel.bus_prep. cbn [pm_hdr pm_body app].
  change (4 <=? length (BusModel.enc32 p)) with true. cbn iota.
  change (firstn 4 (BusModel.enc32 p)) with (BusModel.enc32 p). rewrite dec_enc32 by exact H. reflexivity.
Qed.
Lemma bus_no_echo p w bp : (p < W32)%N -> BusModel.bp_id bp = p ->
  BusModel.offer_kind true (fst (bus_dev p w)) bp = BusModel.OSkip.
Proof.
  intros H E. rewrite bus_dev_spec by exact H. cbn [fst]. unfold BusModel.offer_kind. rewrite E, N.eqb_refl. reflexivity.
Qed.

(* any forwarder that never refuses, on a graph in which every node has an out-edge, never dies out *)
Lemma flood_never_dies (node : Type) (forward : node -> N -> list N -> option (list N)) (edges : node -> list (node * N)) :
  (forall v p w, forward v p w <> None) -> (forall v, edges v <> []) ->
  forall g live, live <> [] -> flood node forward edges g live <> [].
Proof.
  intros Hf He. induction g as [|g IH]; intros live Hl; [exact Hl|]. cbn [flood]. apply IH.
  destruct live as [|[[v p] w] r]; [congruence|]. unfold flood_step. cbn [flat_map].
  destruct (forward v p w) as [w'|] eqn:E; [|now apply Hf in E].
  destruct (edges v) as [|e es] eqn:Ee; [now apply He in Ee|]. cbn. discriminate.
Qed.
Lemma flood_forwards_grow (node : Type) (forward : node -> N -> list N -> option (list N)) (edges : node -> list (node * N)) :
  (forall v p w, forward v p w <> None) -> (forall v, edges v <> []) ->
  forall g live, live <> [] -> g <= flood_forwards node forward edges g live.
Proof.
  intros Hf He. induction g as [|g IH]; intros live Hl; [cbn; lia|]. cbn [flood_forwards].
  assert (S1 : flood_step node forward edges live <> []) by (apply (flood_never_dies node forward edges Hf He 1 live Hl)).
  specialize (IH _ S1).
  destruct live as [|[[v p] w] r]; [congruence|]. cbn [filter].
  destruct (forward v p w) as [w'|] eqn:E; [|now apply Hf in E]. cbn [length]. lia.
Qed.
Theorem bus_ring_never_dies (edges : nat -> list (nat * N)) live :
  (forall v, edges v <> []) -> live <> [] ->
  forall g, flood nat bus_forward edges g live <> [] /\ g <= flood_forwards nat bus_forward edges g live.
Proof.
  intros He Hl g. split.
  - apply flood_never_dies; auto. discriminate.
  - apply flood_forwards_grow; auto. discriminate.
Qed.
