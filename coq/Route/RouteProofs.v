(* RouteProofs: devices, chains, loops -- lemmas behind Props/Properties_C13.v.
   Everything about REQ/REP and SURVEYOR/RESPONDENT is proved once, for any family F that
   satisfies RouteWords.famlaws (both do: reqrep_laws, survey_laws). *)
From Coq Require Import List Arith NArith Bool Lia.
From NngV Require Import Proto.Common Route.RouteModel Route.RouteWords.
From NngV Require Proto.ReqRepBacktrace.
Import ListNotations.

Lemma device_pass_id m : device_pass m = m.
Proof. reflexivity. Qed.

Definition gots (o : list dout) : list pmsg := flat_map (fun x => match x with DoGot m => [m] | _ => [] end) o.
Definition sents (o : list dout) : list pmsg := flat_map (fun x => match x with DoSend m => [m] | _ => [] end) o.
Definition frees (o : list dout) : list pmsg := flat_map (fun x => match x with DoFree m => [m] | _ => [] end) o.

Lemma gots_app a b : gots (a ++ b) = gots a ++ gots b. Proof. apply flat_map_app. Qed.
Lemma sents_app a b : sents (a ++ b) = sents a ++ sents b. Proof. apply flat_map_app. Qed.
Lemma frees_app a b : frees (a ++ b) = frees a ++ frees b. Proof. apply flat_map_app. Qed.

(* one callback: the shapes of its output *)
Lemma device_cb_shapes p drv rv got :
  let o := snd (device_cb true p drv rv got) in
  let p' := fst (device_cb true p drv rv got) in
  (exists m, o = [DoGot m; DoSend m] /\ dp_st p = DRecv /\ got = Some m /\ p' = mkDP DSend (Some m)) \/
  (exists m e, o = [DoGot m; DoFree m; DoStop e] /\ dp_st p = DRecv /\ got = Some m /\ dp_st p' = DFini) \/
  (gots o = [] /\ sents o = [] /\ (dp_st p = DFini -> dp_st p' = DFini) /\
   (forall m, In m (frees o) -> dp_st p = DSend /\ dp_msg p = Some m /\ dp_st p' = DFini)).
Proof.
  destruct p as [st msg]. unfold device_cb. cbn [dp_st dp_msg].
  (* only a receiving path looks at [got], only a sending one at its own message *)
  destruct st; [|destruct got as [g|]|destruct msg as [q|]|];
    destruct (N.eqb rv 0) eqn:Erv, (N.eqb drv 0) eqn:Ed;
    cbn [negb orb fst snd app dp_st dp_msg]; rewrite ?Erv, ?Ed;
    cbn [negb orb fst snd app dp_st dp_msg gots sents frees flat_map];
    first [ right; right; split; [reflexivity|split; [reflexivity|split;
              [intros; first [reflexivity|congruence]
              |intros m Hm; cbn in Hm; first [contradiction|destruct Hm as [<-|[]]; repeat split; reflexivity]]]]
          | left; eexists; repeat split; reflexivity
          | right; left; do 2 eexists; repeat split; reflexivity ].
Qed.

(* once finished a path stays finished and neither receives nor sends nor frees *)
Lemma device_fini_quiet : forall evs p o p', dp_st p = DFini -> device_run true p evs = (p', o) ->
  gots o = [] /\ sents o = [] /\ frees o = [].
Proof.
  induction evs as [|[[drv rv] got] r IH]; intros p o p' Hp H; cbn [device_run] in H.
  - inversion H; subst. auto.
  - destruct (device_cb true p drv rv got) as [p1 o1] eqn:E1. destruct (device_run true p1 r) as [p2 o2] eqn:E2.
    injection H as <- <-. pose proof (device_cb_shapes p drv rv got) as S. rewrite E1 in S. cbn [fst snd] in S.
    destruct S as [(m & _ & St & _)|[(m & e & _ & St & _)|(G & Sn & Fi & Fr)]]; try congruence.
    specialize (IH p1 o2 p2 (Fi Hp) E2). destruct IH as (A & B & C).
    rewrite gots_app, sents_app, frees_app, G, Sn, A, B, C. repeat split; auto.
    destruct (frees o1) as [|x l] eqn:Ef; [reflexivity|]. destruct (Fr x (or_introl eq_refl)) as (X & _). congruence.
Qed.

(* every message a path accepts from the source socket is handed to the destination socket,
   the same message (header and body), in order; the only exception is the last accepted one
   when the device is being shut down, and that one is freed *)
Lemma device_forwards : forall evs p p' o, device_run true p evs = (p', o) ->
  exists rest, gots o = sents o ++ rest /\ (rest = [] \/ exists m, rest = [m] /\ In m (frees o)).
Proof.
  induction evs as [|[[drv rv] got] r IH]; intros p p' o H; cbn [device_run] in H.
  - inversion H; subst. exists []. auto.
  - destruct (device_cb true p drv rv got) as [p1 o1] eqn:E1. destruct (device_run true p1 r) as [p2 o2] eqn:E2.
    injection H as <- <-. pose proof (device_cb_shapes p drv rv got) as S. rewrite E1 in S. cbn [fst snd] in S.
    destruct S as [(m & Eo & _)|[(m & e & Eo & _ & _ & Fi)|(G & Sn & _)]].
    + destruct (IH _ _ _ E2) as (rest & A & B). exists rest. subst o1.
      rewrite gots_app, sents_app, frees_app. cbn [gots sents frees flat_map app]. rewrite A. split; [reflexivity|].
      destruct B as [B|(x & B & C)]; [auto|]. right. exists x. auto.
    + destruct (device_fini_quiet _ _ _ _ Fi E2) as (A & B & C). exists [m]. subst o1.
      rewrite gots_app, sents_app, frees_app, A, B, C. cbn [gots sents frees flat_map app]. split; [reflexivity|].
      right. exists m. cbn. auto.
    + destruct (IH _ _ _ E2) as (rest & A & B). exists rest.
      rewrite gots_app, sents_app, frees_app, G, Sn, A. split; [reflexivity|].
      destruct B as [B|(x & B & C)]; [auto|]. right. exists x. split; [exact B|]. apply in_or_app. auto.
Qed.

(* the pinned form (before fix f044c32): a receive that completed and was then aborted leaves its
   message attached; the callback sees the error in the RECV state and frees nothing *)
Lemma device_pinned_leak m :
  let o := snd (device_run false (fst device_start) [(0%N, 20%N, Some m)]) in
  gots o = [m] /\ sents o = [] /\ frees o = [].
Proof. cbn. auto. Qed.

Section Family.
Variable F : famops.
Hypothesis L : famlaws F.

Definition pid_ok (p : N) : Prop := (p < HI32)%N.
Definition id_ok (id : N) : Prop := (REQ_ID_MIN <= id <= REQ_ID_MAX)%N.
Definition hop_ok (h : hop) : Prop := pid_ok (h_pid h) /\ h_ttl h <= RT_TTL_MAX.

Lemma pid_lt p : pid_ok p -> (p < W32)%N.
Proof. unfold pid_ok, HI32, W32. lia. Qed.
Lemma pid_nonend p : pid_ok p -> nonend F (word_be p).
Proof.
  intros H. unfold nonend. rewrite (law_end F L) by (apply pid_lt; exact H).
  unfold pid_ok in H. apply N.leb_gt. exact H.
Qed.
Lemma pids_nonend ps : Forall pid_ok ps -> Forall (nonend F) (map word_be ps).
Proof. induction 1; constructor; auto using pid_nonend. Qed.
Lemma id_isend id : id_ok id -> isend F (word_be id) /\ (id < W32)%N.
Proof.
  unfold id_ok, REQ_ID_MIN, REQ_ID_MAX. intros H. assert (I : (id < W32)%N) by (unfold W32; lia). split; [|exact I].
  unfold isend. rewrite (law_end F L) by exact I. apply N.leb_le. unfold HI32. lia.
Qed.

(* the body is never touched, in either direction, whatever the wire looks like *)
Lemma dev_request_any h w w' : dev_request F h w = FwdSend w' -> w' = be32 (h_pid h) ++ w.
Proof.
  unfold dev_request. destruct (f_front_recv F (h_pid h) (h_ttl h) w) eqn:E; try discriminate.
  intros H. inversion H; subst. rewrite device_pass_id. unfold back_send.
  apply (law_front_any F L) in E. tauto.
Qed.
Lemma dev_reply_any w p w' : dev_reply F w = Some (p, w') ->
  exists a b c d, w = [a; b; c; d] ++ w'.
Proof.
  unfold dev_reply. destruct (f_back_recv F w) eqn:E; try discriminate.
  rewrite device_pass_id. destruct (f_front_send F m) as [[q m']|] eqn:S; try discriminate.
  intros H. inversion H; subst. apply (law_back_any F L) in E. destruct E as (E & _).
  apply (law_send_any F L) in S. destruct S as (a & b & c & d & S1 & S2). exists a, b, c, d.
  rewrite <- E. unfold wire_of, ReqRepBacktrace.wire_of. rewrite S1, S2, <- app_assoc. reflexivity.
Qed.

(* a well-formed request that has crossed `length acc` devices (their pipes: acc, latest first) *)
Lemma dev_request_wf h acc id body : hop_ok h -> Forall pid_ok acc -> id_ok id ->
  dev_request F h (flatp acc ++ be32 id ++ body) =
    if length acc <? h_ttl h then FwdSend (flatp (h_pid h :: acc) ++ be32 id ++ body) else FwdDrop.
Proof.
  intros [Hp Ht] Ha Hid. destruct (id_isend id Hid) as [Ie _]. unfold dev_request.
  unfold flatp at 1. rewrite be32_wb.
  rewrite (law_front F L (map word_be acc) (word_be id) body (h_pid h) (h_ttl h) (pids_nonend acc Ha) Ie Ht).
  rewrite map_length. destruct (length acc <? h_ttl h); [|reflexivity].
  rewrite device_pass_id. unfold back_send, wire_of, ReqRepBacktrace.wire_of. cbn [pm_hdr pm_body].
  rewrite flatp_cons, <- !app_assoc. reflexivity.
Qed.

Lemma dev_reply_wf p ps id body : pid_ok p -> Forall pid_ok ps -> id_ok id -> length ps < 15 ->
  dev_reply F (flatp (p :: ps) ++ be32 id ++ body) = Some (p, flatp ps ++ be32 id ++ body).
Proof.
  intros Hp Hps Hid Hl. destruct (id_isend id Hid) as [Ie _]. unfold dev_reply.
  unfold flatp at 1. rewrite be32_wb.
  rewrite (law_back F L (map word_be (p :: ps)) (word_be id) body (pids_nonend _ (Forall_cons _ Hp Hps)) Ie)
    by (rewrite map_length; cbn [length]; lia).
  rewrite device_pass_id. fold (flatp (p :: ps)). rewrite flatp_cons, <- app_assoc.
  rewrite (law_send F L) by (apply pid_lt; exact Hp).
  unfold wire_of, ReqRepBacktrace.wire_of. cbn [pm_hdr pm_body]. rewrite <- app_assoc. reflexivity.
Qed.

(* what each device crossed puts on the wire: one more pipe id in front each time *)
Fixpoint trace_spec (acc pids : list N) (tail : list N) : list (list N) :=
  match pids with
  | [] => []
  | p :: r => (flatp (p :: acc) ++ tail) :: trace_spec (p :: acc) r tail
  end.
Definition crossed (i : nat) (hops : list hop) : nat :=
  match first_fail i hops with None => length hops | Some k => k - i end.

Lemma trace_spec_length acc pids tail : length (trace_spec acc pids tail) = length pids.
Proof. revert acc. induction pids as [|p r IH]; intros acc; cbn; auto. Qed.

Lemma first_fail_ge : forall hops i k, first_fail i hops = Some k -> i <= k < i + length hops.
Proof.
  induction hops as [|h r IH]; intros i k H; cbn [first_fail] in H; [discriminate|].
  destruct (h_ttl h <? i); [inversion H; cbn [length]; lia|]. apply IH in H. cbn [length]. lia.
Qed.

Lemma first_fail_none : forall hops i, first_fail i hops = None <-> (forall j h, nth_error hops j = Some h -> i + j <= h_ttl h).
Proof.
  induction hops as [|h r IH]; intros i; cbn [first_fail].
  - split; auto. intros _ j h H. destruct j; discriminate.
  - destruct (h_ttl h <? i) eqn:E.
    + split; [discriminate|]. intros H. specialize (H 0 h eq_refl). apply Nat.ltb_lt in E. lia.
    + apply Nat.ltb_ge in E. rewrite IH. split.
      * intros H j x Hj. destruct j; cbn in Hj; [inversion Hj; subst; lia|]. apply H in Hj. lia.
      * intros H j x Hj. specialize (H (S j) x Hj). lia.
Qed.
Lemma first_fail_some : forall hops i k, first_fail i hops = Some k ->
  exists h, nth_error hops (k - i) = Some h /\ h_ttl h < k /\
            forall j x, j < k - i -> nth_error hops j = Some x -> i + j <= h_ttl x.
Proof.
  induction hops as [|h r IH]; intros i k H; cbn [first_fail] in H; [discriminate|].
  destruct (h_ttl h <? i) eqn:E.
  - inversion H; subst. rewrite Nat.sub_diag. exists h. apply Nat.ltb_lt in E. repeat split; auto. intros j x Hj. lia.
  - apply Nat.ltb_ge in E. pose proof (first_fail_ge _ _ _ H) as G. destruct (IH _ _ H) as (x & A & B & C).
    exists x. replace (k - i) with (S (k - S i)) by lia. cbn [nth_error]. repeat split; auto.
    intros j y Hj Hy. destruct j; cbn in Hy; [inversion Hy; subst; lia|]. specialize (C j y ltac:(lia) Hy). lia.
Qed.

Lemma chain_req_wf : forall hops acc i id body,
  Forall hop_ok hops -> Forall pid_ok acc -> id_ok id -> i = S (length acc) ->
  chain_req F i hops (flatp acc ++ be32 id ++ body) =
    (match first_fail i hops with
     | None => CArrive (flatp (rev (map h_pid hops) ++ acc) ++ be32 id ++ body)
     | Some k => CDropAt k
     end,
     trace_spec acc (map h_pid (firstn (crossed i hops) hops)) (be32 id ++ body)).
Proof.
  induction hops as [|h r IH]; intros acc i id body Hh Ha Hid Hi.
  - reflexivity.
  - inversion Hh as [|x l Hh1 Hh2]; subst x l. cbn [chain_req]. rewrite dev_request_wf by assumption.
    unfold crossed. cbn [first_fail]. subst i.
    destruct (length acc <? h_ttl h) eqn:E.
    + assert (E' : (h_ttl h <? S (length acc)) = false) by (apply Nat.ltb_ge; apply Nat.ltb_lt in E; lia).
      rewrite E'.
      rewrite (IH (h_pid h :: acc) (S (S (length acc))) id body Hh2 (Forall_cons _ (proj1 Hh1) Ha) Hid eq_refl).
      unfold crossed. destruct (first_fail (S (S (length acc))) r) as [k|] eqn:Ef.
      * apply first_fail_ge in Ef as G. replace (k - S (length acc)) with (S (k - S (S (length acc)))) by lia.
        cbn [firstn map trace_spec]. reflexivity.
      * cbn [length firstn map trace_spec rev]. rewrite <- app_assoc. reflexivity.
    + assert (E' : (h_ttl h <? S (length acc)) = true) by (apply Nat.ltb_lt; apply Nat.ltb_ge in E; lia).
      rewrite E'. rewrite Nat.sub_diag. reflexivity.
Qed.

Lemma chain_rep_wf : forall ps id body, Forall pid_ok ps -> id_ok id -> length ps <= 15 ->
  chain_rep F (length ps) (flatp ps ++ be32 id ++ body) = (Some (be32 id ++ body), ps).
Proof.
  induction ps as [|p ps IH]; intros id body Hp Hid Hl; [reflexivity|].
  inversion Hp as [|x l H1 H2]; subst. cbn [length chain_rep]. cbn [length] in Hl.
  rewrite dev_reply_wf by (auto; lia). rewrite IH by (auto; lia). reflexivity.
Qed.

(* the replier / respondent at the end of the chain *)
Lemma replier_wf ps id body tr : Forall pid_ok ps -> id_ok id -> tr <= RT_TTL_MAX ->
  f_cooked_recv F tr (flatp ps ++ be32 id ++ body) =
    if length ps <? tr then RDeliver (mkPmsg (flatp ps ++ be32 id) body) else RDrop.
Proof.
  intros Hp Hid Ht. destruct (id_isend id Hid) as [Ie _]. unfold flatp. rewrite be32_wb.
  rewrite (law_cooked F L (map word_be ps) (word_be id) body tr (pids_nonend ps Hp) Ie Ht).
  rewrite map_length. reflexivity.
Qed.

Lemma orig_send_eq id body : orig_send id body = flatp [] ++ be32 id ++ body.
Proof. reflexivity. Qed.

Lemma roundtrip_wf hops tr id body rbody :
  Forall hop_ok hops -> tr <= RT_TTL_MAX -> id_ok id ->
  roundtrip F hops tr id body rbody =
    match first_fail 1 hops with
    | Some k => RtLostAt k (k - 1)
    | None =>
        if length hops <? tr
        then RtDone body (flatp (rev (map h_pid hops)) ++ be32 id) (rev (map h_pid hops)) id rbody
        else RtLostAtReplier (length hops)
    end.
Proof.
  intros Hh Ht Hid. unfold roundtrip. rewrite orig_send_eq.
  rewrite (chain_req_wf hops [] 1 id body Hh (Forall_nil _) Hid eq_refl).
  assert (Hps : Forall pid_ok (rev (map h_pid hops))).
  { apply Forall_rev. apply Forall_map. eapply Forall_impl; [|exact Hh]. intros a [A _]. exact A. }
  destruct (first_fail 1 hops) as [k|] eqn:Ef.
  - rewrite trace_spec_length, map_length. unfold crossed. rewrite Ef.
    apply first_fail_ge in Ef. rewrite firstn_length. f_equal. lia.
  - rewrite app_nil_r. rewrite replier_wf by assumption.
    rewrite rev_length, map_length.
    destruct (length hops <? tr) eqn:E.
    + cbn [pm_hdr pm_body]. unfold cooked_reply, wire_of, ReqRepBacktrace.wire_of. cbn [pm_hdr pm_body].
      rewrite <- app_assoc.
      replace (length hops) with (length (rev (map h_pid hops))) at 1 by (rewrite rev_length, map_length; reflexivity).
      rewrite chain_rep_wf; auto.
      * destruct (id_isend id Hid) as [_ I]. rewrite (law_orig F L) by exact I. reflexivity.
      * rewrite rev_length, map_length. apply Nat.ltb_lt in E. unfold RT_TTL_MAX in Ht. lia.
    + rewrite trace_spec_length, map_length. unfold crossed. rewrite Ef. rewrite firstn_all. reflexivity.
Qed.

End Family.

Section FloodBound.
  Variable node : Type.
  Variable forward : node -> N -> list N -> option (list N).
  Variable edges : node -> list (node * N).
  Variable edge_ok : N -> Prop.
  Variable lead : nat -> list N -> Prop.      (* "has crossed at least g forwarders" *)
  Variable T : nat.
  Hypothesis fwd_lead : forall v p w w' g, edge_ok p -> lead g w -> forward v p w = Some w' -> g < T /\ lead (S g) w'.
  Hypothesis edges_ok : forall v u p, In (u, p) (edges v) -> edge_ok p.

  Definition live_inv (g : nat) (live : list (node * N * list N)) : Prop :=
    forall v p w, In (v, p, w) live -> edge_ok p /\ lead g w.

  Lemma flood_step_inv g live : live_inv g live -> live_inv (S g) (flood_step node forward edges live).
  Proof.
    intros I v p w H. unfold flood_step in H. apply in_flat_map in H. destruct H as ([[v0 p0] w0] & Hin & H).
    destruct (forward v0 p0 w0) as [w'|] eqn:E; [|destruct H].
    apply in_map_iff in H. destruct H as ([u q] & Eq & Hq). cbn [fst snd] in Eq. inversion Eq; subst.
    destruct (I _ _ _ Hin) as [A B]. split; [eapply edges_ok; eauto|]. eapply fwd_lead; eauto.
  Qed.
  (* from generation T on no arrival is forwarded *)
  Lemma live_dead g live : live_inv g live -> T <= g ->
    forall v p w, In (v, p, w) live -> forward v p w = None.
  Proof.
    intros I Hg v p w H. destruct (forward v p w) as [w'|] eqn:E; [|reflexivity].
    destruct (I v p w H) as [A B]. destruct (fwd_lead _ _ _ _ _ A B E). lia.
  Qed.
  Lemma flood_step_dead g live : live_inv g live -> T <= g -> flood_step node forward edges live = [].
  Proof.
    intros I Hg. destruct (flood_step node forward edges live) as [|y l] eqn:E; [reflexivity|].
    assert (H : In y (flood_step node forward edges live)) by (rewrite E; now left).
    apply in_flat_map in H as ([[v p] w] & Hin & H). now rewrite (live_dead g live I Hg v p w Hin) in H.
  Qed.
  Lemma flood_nil g : flood node forward edges g [] = [].
  Proof. induction g; cbn; auto. Qed.
  Lemma flood_forwards_nil g : flood_forwards node forward edges g [] = 0.
  Proof. induction g; cbn; auto. Qed.

  Lemma flood_dies_from : forall k g live, live_inv g live -> T <= g + k -> flood node forward edges (S k) live = [].
  Proof.
    induction k as [|k IH]; intros g live I Hg.
    - cbn [flood]. eapply flood_step_dead; eauto. lia.
    - change (flood node forward edges (S (S k)) live) with (flood node forward edges (S k) (flood_step node forward edges live)).
      apply (IH (S g)); [apply flood_step_inv; exact I|lia].
  Qed.

  (* nothing is alive after T + 1 generations, whatever the graph; no forward happens after generation T *)
  Theorem flood_dies live : live_inv 0 live -> flood node forward edges (S T) live = [].
  Proof. intros I. apply (flood_dies_from T 0 live I). lia. Qed.

  Lemma flood_forwards_stable_from : forall k g live, live_inv g live -> T <= g ->
    flood_forwards node forward edges k live = 0.
  Proof.
    induction k as [|k IH]; intros g live I Hg; [reflexivity|]. cbn [flood_forwards].
    rewrite (flood_step_dead g live I Hg), flood_forwards_nil.
    match goal with |- length (filter ?f live) + _ = 0 => destruct (filter f live) as [|y l] eqn:E end; [reflexivity|].
    assert (H : In y (y :: l)) by now left. rewrite <- E in H. apply filter_In in H as [Hin H].
    destruct y as [[v p] w]. now rewrite (live_dead g live I Hg v p w Hin) in H.
  Qed.
  Theorem flood_forwards_bounded : forall k g live, live_inv g live ->
    flood_forwards node forward edges (T - g + k) live = flood_forwards node forward edges (T - g) live.
  Proof.
    intros k g live. revert k. remember (T - g) as d eqn:Ed. revert g live Ed.
    induction d as [|d IH]; intros g live Ed k I.
    - cbn [plus flood_forwards]. apply (flood_forwards_stable_from k g live I). lia.
    - cbn [plus flood_forwards]. f_equal. apply (IH (S g)); [lia|apply flood_step_inv; exact I].
  Qed.
End FloodBound.

(* along a single path of forwarders [xs]: at most T forwards.  [chain] is any function whose
   trace grows by one wire per forwarding device and stops at the first that does not forward. *)
Lemma walk_bounded {X} (dev : X -> list N -> fwd) (ok : X -> Prop) (lead : nat -> list N -> Prop) T
    (chain : nat -> list X -> list N -> cres * list (list N)) :
  (forall i w, snd (chain i [] w) = []) ->
  (forall i x r w, snd (chain i (x :: r) w) =
     match dev x w with FwdSend w' => w' :: snd (chain (S i) r w') | _ => [] end) ->
  (forall x w w' g, ok x -> lead g w -> dev x w = FwdSend w' -> g < T /\ lead (S g) w') ->
  forall xs g w i, Forall ok xs -> lead g w -> g <= T -> length (snd (chain i xs w)) <= T - g.
Proof.
  intros C0 CS ST. induction xs as [|x r IH]; intros g w i Hx Hl Hg; [rewrite C0; cbn; lia|].
  rewrite CS. inversion Hx as [|y l H1 H2]; subst.
  destruct (dev x w) as [w'| | |] eqn:E; try (cbn; lia).
  destruct (ST _ _ _ _ H1 Hl E) as [A B]. cbn [length].
  specialize (IH (S g) w' (S i) H2 B ltac:(lia)). lia.
Qed.

Section FamilyLoops.
Variable F : famops.
Hypothesis L : famlaws F.

Definition fam_lead (g : nat) (w : list N) : Prop :=
  exists ws rest, w = flat ws ++ rest /\ Forall (nonend F) ws /\ length ws = g.

Lemma fam_lead0 w : fam_lead 0 w.
Proof. exists [], w. repeat split; auto. Qed.

Lemma fam_fwd_lead (ttl : nat -> nat) T (Httl : forall v, ttl v <= T) :
  forall v p w w' g, pid_ok p -> fam_lead g w -> fam_forward F ttl v p w = Some w' -> g < T /\ fam_lead (S g) w'.
Proof.
  intros v p w w' g Hp (ws & rest & Ew & Hw & Hl) H. unfold fam_forward in H.
  destruct (dev_request F (mkHop p (ttl v)) w) as [x| | |] eqn:E; try discriminate. inversion H; subst x.
  pose proof (dev_request_any F L _ _ _ E) as Ew'. cbn [h_pid] in Ew'.
  unfold dev_request in E. cbn [h_pid h_ttl] in E.
  destruct (f_front_recv F p (ttl v) w) as [m| |] eqn:R; try discriminate.
  rewrite Ew in R. apply (law_lead F L) in R; [|exact Hw]. specialize (Httl v). split; [lia|].
  exists (word_be p :: ws), rest. rewrite Ew', Ew, flat_cons, <- be32_wb, <- app_assoc. repeat split; auto.
  - constructor; [apply pid_nonend; assumption|exact Hw].
  - cbn [length]. lia.
Qed.

(* in ANY topology (cycles included) of raw REP|REQ or RESPONDENT|SURVEYOR devices whose receiving
   sockets have ttl <= T, and for ANY initial wire messages: after T + 1 generations nothing is left *)
Theorem fam_loops_die (ttl : nat -> nat) (edges : nat -> list (nat * N)) T live :
  (forall v, ttl v <= T) ->
  (forall v u p, In (u, p) (edges v) -> pid_ok p) ->
  (forall v p w, In (v, p, w) live -> pid_ok p) ->
  flood nat (fam_forward F ttl) edges (S T) live = [].
Proof.
  intros Httl He Hl.
  apply (flood_dies nat (fam_forward F ttl) edges pid_ok fam_lead T (fam_fwd_lead ttl T Httl) He).
  intros v p w H. split; [eapply Hl; eauto|apply fam_lead0].
Qed.
Theorem fam_forwards_bounded (ttl : nat -> nat) (edges : nat -> list (nat * N)) T live k :
  (forall v, ttl v <= T) ->
  (forall v u p, In (u, p) (edges v) -> pid_ok p) ->
  (forall v p w, In (v, p, w) live -> pid_ok p) ->
  flood_forwards nat (fam_forward F ttl) edges (T + k) live = flood_forwards nat (fam_forward F ttl) edges T live.
Proof.
  intros Httl He Hl.
  pose proof (flood_forwards_bounded nat (fam_forward F ttl) edges pid_ok fam_lead T (fam_fwd_lead ttl T Httl) He k 0 live) as B.
  rewrite Nat.sub_0_r in B. apply B. intros v p w H. split; [eapply Hl; eauto|apply fam_lead0].
Qed.

(* along a single path: at most T forwards *)
Theorem fam_walk_bounded : forall hops w T, Forall (fun h => pid_ok (h_pid h) /\ h_ttl h <= T) hops ->
  forall i, length (snd (chain_req F i hops w)) <= T.
Proof.
  intros hops w T Hh i. rewrite <- (Nat.sub_0_r T).
  apply (walk_bounded (dev_request F) (fun h => pid_ok (h_pid h) /\ h_ttl h <= T) fam_lead T (chain_req F));
    [reflexivity| | |exact Hh|apply fam_lead0|lia].
  - intros j h r w0. cbn [chain_req]. destruct (dev_request F h w0) as [w'| | |]; try reflexivity.
    now destruct (chain_req F (S j) r w').
  - intros [hp ht] w0 w' g [Hp Ht] Hl E.
    apply (fam_fwd_lead (fun _ => ht) T (fun _ => Ht) 0 hp w0 w' g Hp Hl).
    unfold fam_forward. now rewrite E.
Qed.

(* every wire whatsoever: Deliver / Drop / Close, bytes only moved, header within capacity;
   more than ttl hop words are never let in *)
Theorem fam_total_bounded p ttl w :
  (match f_front_recv F p ttl w with
   | RDeliver m => wire_of m = be32 p ++ w /\ length (pm_hdr m) <= RT_HEADER_MAX /\ length (pm_hdr m) <= 4 + 4 * ttl
   | _ => True end) /\
  (match f_cooked_recv F ttl w with
   | RDeliver m => wire_of m = w /\ length (pm_hdr m) <= RT_HEADER_MAX /\ length (pm_hdr m) <= 4 * ttl
   | _ => True end) /\
  (match f_back_recv F w with
   | RDeliver m => wire_of m = w /\ length (pm_hdr m) <= RT_HEADER_MAX
   | RDrop => False
   | RClose => True end).
Proof.
  split; [|split].
  - destruct (f_front_recv F p ttl w) eqn:E; auto. apply (law_front_any F L) in E. tauto.
  - destruct (f_cooked_recv F ttl w) eqn:E; auto. apply (law_cooked_any F L) in E. tauto.
  - destruct (f_back_recv F w) eqn:E; auto.
    + apply (law_back_any F L) in E. tauto.
    + now apply (law_back_nodrop F L) in E.
Qed.

Theorem fam_overlong_never_letin ws rest p ttl : Forall (nonend F) ws -> ttl <= length ws ->
  (forall m, f_front_recv F p ttl (flat ws ++ rest) <> RDeliver m) /\
  (forall m, f_cooked_recv F ttl (flat ws ++ rest) <> RDeliver m).
Proof.
  intros Hw Hl. split; intros m H.
  - apply (law_lead F L) in H; auto. lia.
  - apply (law_lead_cooked F L) in H; auto. lia.
Qed.
Theorem fam_back_overlong ws rest : Forall (nonend F) ws -> 16 <= length ws ->
  f_back_recv F (flat ws ++ rest) = RClose.
Proof.
  intros Hw Hl. destruct (f_back_recv F (flat ws ++ rest)) eqn:E; auto.
  - apply (law_lead_back F L) in E; auto. lia.
  - now apply (law_back_nodrop F L) in E.
Qed.
End FamilyLoops.
