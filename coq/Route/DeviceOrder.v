(* DeviceOrder: how many forwarding paths a device runs (device_init, src/core/device.c) and what
   that means for the order of the messages it forwards.

   device_init: s1 / s2 NULL -> reflector (s1 = s2); if s1 cannot receive the two are swapped;
   then   num_paths = 2, reduced to 1 when s2 cannot receive OR (one_for_reflector) s1 == s2.
   Each path is one forwarder  recv(src) ; send(dst) ; recv(src) ; ...  (RouteModel.device_cb).
   one_for_reflector follows the source (Gen/Consts.C13_DEVICE_REFLECTOR_ONE_PATH: the test
   `|| (s1 == s2)` is present in device_init).

   Forwarders that read from the SAME socket race: the socket hands its received messages out in
   arrival order (one FIFO: the upper read queue / the protocol's receive queue), but between a
   forwarder's receive completing and its send being issued (the callback runs on a task thread)
   another forwarder may take and send the next message.  `fwd_run k` is that interleaving
   semantics for k forwarders on one source socket: any schedule of Take i / Put i steps. *)
From Coq Require Import List Arith Bool Lia.
From NngV Require Import Proto.Common.
Import ListNotations.

(* rcv1 / rcv2: NNI_PROTO_FLAG_RCV of the two sockets as passed; same: s1 == s2 (after the NULL rule) *)
Definition device_paths (one_for_reflector rcv1 rcv2 same : bool) : nat :=
  let rcv2' := if rcv1 then rcv2 else rcv1 in        (* after the swap s2 is the old s1 *)
  if negb rcv2' || (same && one_for_reflector) then 1 else 2.
(* path i reads from: false = (swapped) s1, true = (swapped) s2; with same they are one socket.
   The largest number of forwarders reading from one socket: *)
Definition device_readers (one_for_reflector rcv1 rcv2 same : bool) : nat :=
  if same then device_paths one_for_reflector rcv1 rcv2 same else 1.

Inductive fstep := FTake (i : nat) | FPut (i : nat).
Record fstate := mkFS { fs_q : list pmsg; fs_hold : list (nat * pmsg); fs_out : list pmsg }.

Fixpoint holds (i : nat) (l : list (nat * pmsg)) : option pmsg :=
  match l with [] => None | (j, m) :: r => if Nat.eqb j i then Some m else holds i r end.
Fixpoint unhold (i : nat) (l : list (nat * pmsg)) : list (nat * pmsg) :=
  match l with [] => [] | (j, m) :: r => if Nat.eqb j i then r else (j, m) :: unhold i r end.

Definition fwd_step (k : nat) (s : fstate) (e : fstep) : fstate :=
  match e with
  | FTake i =>
      if (i <? k) then
        match holds i (fs_hold s), fs_q s with
        | None, m :: r => mkFS r (fs_hold s ++ [(i, m)]) (fs_out s)     (* receive completes: the message sits in the path's aio *)
        | _, _ => s
        end
      else s
  | FPut i =>
      match holds i (fs_hold s) with
      | Some m => mkFS (fs_q s) (unhold i (fs_hold s)) (fs_out s ++ [m]) (* nni_sock_send(dst): handed to the destination socket *)
      | None => s
      end
  end.
Definition fwd_run (k : nat) (input : list pmsg) (sched : list fstep) : fstate :=
  fold_left (fwd_step k) sched (mkFS input [] []).

Definition inv1 (input : list pmsg) (s : fstate) : Prop :=
  (fs_hold s = [] /\ fs_out s ++ fs_q s = input) \/
  (exists m, fs_hold s = [(0, m)] /\ fs_out s ++ m :: fs_q s = input).

Lemma inv1_step input s e : inv1 input s -> inv1 input (fwd_step 1 s e).
Proof.
  unfold inv1. intros [[H E]|(m & H & E)]; destruct e as [i|i]; cbn [fwd_step]; rewrite H.
  - destruct (i <? 1) eqn:Ei; [|left; auto]. cbn [holds]. destruct (fs_q s) as [|x r] eqn:Q; [left; split; auto; rewrite Q; auto|].
    apply Nat.ltb_lt in Ei. assert (i = 0) by lia. subst i. right. exists x. cbn [fs_hold fs_out fs_q app]. auto.
  - cbn [holds]. left. auto.
  - destruct (i <? 1) eqn:Ei; [|right; eauto]. apply Nat.ltb_lt in Ei. assert (i = 0) by lia. subst i.
    cbn [holds Nat.eqb]. right. eauto.
  - cbn [holds]. destruct (Nat.eqb 0 i) eqn:Ei.
    + left. cbn [fs_hold fs_out fs_q unhold]. rewrite Ei. split; [reflexivity|]. rewrite <- app_assoc. exact E.
    + cbn [holds]. right. eauto.
Qed.
Lemma inv1_run input : forall sched s, inv1 input s -> inv1 input (fold_left (fwd_step 1) sched s).
Proof. induction sched as [|e r IH]; intros s H; cbn [fold_left]; auto using inv1_step. Qed.

(* whatever the schedule, what one forwarder has sent is an initial segment of what arrived, in order *)
Theorem one_forwarder_keeps_order input sched :
  exists rest, input = fs_out (fwd_run 1 input sched) ++ rest.
Proof.
  assert (I : inv1 input (fwd_run 1 input sched)) by (apply inv1_run; unfold inv1; left; auto).
  destruct I as [[_ E]|(m & _ & E)]; eexists; symmetry; exact E.
Qed.
Lemma filter_prefix {A} (f : A -> bool) a rest : filter f (a ++ rest) = filter f a ++ filter f rest.
Proof. apply filter_app. Qed.
(* hence per source (any predicate on messages: the origin pipe in the header, the sender's tag in the
   body): the forwarded messages of that source are an initial segment of its arrivals, in order *)
Theorem one_forwarder_keeps_order_per_source input sched (f : pmsg -> bool) :
  exists rest, filter f input = filter f (fs_out (fwd_run 1 input sched)) ++ rest.
Proof.
  destruct (one_forwarder_keeps_order input sched) as [rest E]. exists (filter f rest).
  rewrite E at 1. apply filter_app.
Qed.
(* and a fair schedule forwards everything: Take 0 ; Put 0 repeated *)
Fixpoint drain (n : nat) : list fstep := match n with 0 => [] | S k => FTake 0 :: FPut 0 :: drain k end.
Lemma drain_run : forall input out, fold_left (fwd_step 1) (drain (length input)) (mkFS input [] out) = mkFS [] [] (out ++ input).
Proof.
  induction input as [|m r IH]; intros out; cbn [length drain fold_left]; [now rewrite app_nil_r|].
  cbn. rewrite IH. rewrite <- app_assoc. reflexivity.
Qed.
Theorem one_forwarder_forwards_all input : fs_out (fwd_run 1 input (drain (length input))) = input.
Proof. unfold fwd_run. rewrite drain_run. reflexivity. Qed.

Definition two_forwarder_witness : list fstep := [FTake 0; FTake 1; FPut 1; FPut 0].
Theorem two_forwarders_reorder m0 m1 :
  fs_out (fwd_run 2 [m0; m1] two_forwarder_witness) = [m1; m0].
Proof. reflexivity. Qed.

Theorem device_paths_spec one rcv1 rcv2 same :
  device_paths one rcv1 rcv2 same =
    if negb (rcv1 && rcv2) then 1                 (* one-way protocols: a single forwarder *)
    else if same && one then 1                    (* reflector *)
    else 2.                                       (* two-way: one forwarder per direction *)
Proof. destruct one, rcv1, rcv2, same; reflexivity. Qed.
Theorem device_one_reader_per_socket rcv1 rcv2 same : device_readers true rcv1 rcv2 same = 1.
Proof. destruct rcv1, rcv2, same; reflexivity. Qed.
Theorem device_reflector_two_readers_without_rule : device_readers false true true true = 2.
Proof. reflexivity. Qed.
