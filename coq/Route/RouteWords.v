(* RouteWords: 32-bit words as byte quadruples, and the laws of the two routed families
   (REQ/REP, SURVEYOR/RESPONDENT) in one common form, proved from the transformer
   definitions of Proto/ReqRepBacktrace.v and Proto/SurveyBacktrace.v. *)
From Coq Require Import List Arith NArith Bool Lia.
From NngV Require Import Proto.Common Route.RouteModel.
From NngV Require Base.Bytes Proto.ReqRepBacktrace Proto.SurveyBacktrace.
Import ListNotations.

Definition word := (N * N * N * N)%type.
Definition wb (w : word) : list N := let '(a, b, c, d) := w in [a; b; c; d].
Definition w0 (w : word) : N := let '(a, _, _, _) := w in a.
Definition flat (ws : list word) : list N := flat_map wb ws.
Definition word_be (v : N) : word :=
  ((v / 16777216) mod 256, (v / 65536) mod 256, (v / 256) mod 256, v mod 256)%N.
Definition flatp (ps : list N) : list N := flat (map word_be ps).

Lemma be32_wb v : be32 v = wb (word_be v).
Proof. reflexivity. Qed.
Lemma be32_sv v : SurveyBacktrace.be32 v = be32 v.
Proof. reflexivity. Qed.
Lemma be32_length v : length (be32 v) = 4.
Proof. reflexivity. Qed.
Lemma wb_length w : length (wb w) = 4.
Proof. destruct w as [[[a b] c] d]. reflexivity. Qed.
Lemma flat_length ws : length (flat ws) = 4 * length ws.
Proof. induction ws as [|w ws IH]; [reflexivity|]. cbn [flat flat_map]. rewrite app_length, wb_length. fold (flat ws). rewrite IH. cbn [length]. lia. Qed.
Lemma flat_cons w ws : flat (w :: ws) = wb w ++ flat ws.
Proof. reflexivity. Qed.
Lemma flat_app a b : flat (a ++ b) = flat a ++ flat b.
Proof. unfold flat. apply flat_map_app. Qed.
Lemma flatp_cons p ps : flatp (p :: ps) = be32 p ++ flatp ps.
Proof. reflexivity. Qed.
Lemma flatp_app a b : flatp (a ++ b) = flatp a ++ flatp b.
Proof. unfold flatp. rewrite map_app. apply flat_app. Qed.
Lemma flatp_length ps : length (flatp ps) = 4 * length ps.
Proof. unfold flatp. rewrite flat_length, map_length. reflexivity. Qed.

(* the bytes of a 32-bit value, recombined *)
Lemma be_bytes v : (v < W32)%N ->
  let '(a, b, c, d) := word_be v in
  (a < 256 /\ b < 256 /\ c < 256 /\ d < 256 /\ a * 16777216 + b * 65536 + c * 256 + d = v)%N.
Proof.
  intros H. unfold word_be, W32 in *. repeat (split; [now apply N.mod_lt|]). exact (Bytes.digits32 v H).
Qed.
Lemma testbit7 x : (x < 256)%N -> N.testbit x 7 = (128 <=? x)%N.
Proof.
  intros H. rewrite N.testbit_eqb. change (2 ^ 7)%N with 128%N.
  pose proof (N.div_mod' x 128) as E. pose proof (N.mod_lt x 128 ltac:(lia)) as M.
  assert (Q : (x / 128 < 2)%N) by (apply N.div_lt_upper_bound; lia).
  rewrite (N.mod_small (x / 128) 2 Q).
  revert E M Q. generalize (x / 128)%N as q. generalize (x mod 128)%N as r. intros r q E M Q.
  destruct (N.leb_spec 128 x); destruct (N.eqb_spec q 1); auto; exfalso; lia.
Qed.
(* the first byte of a 32-bit value has bit 7 set iff the value is >= 2^31 *)
Lemma be_first v : (v < W32)%N -> (w0 (word_be v) < 256 /\ (128 <=? w0 (word_be v)) = (HI32 <=? v))%N.
Proof.
  intros H. pose proof (be_bytes v H) as B. unfold word_be in *. cbn [w0]. unfold W32, HI32 in *.
  destruct B as (A & B & C & D & E). split; [exact A|].
  revert A B C D E. generalize ((v / 16777216) mod 256)%N as a. generalize ((v / 65536) mod 256)%N as b.
  generalize ((v / 256) mod 256)%N as c. generalize (v mod 256)%N as d. intros d c b a A B C D E.
  destruct (N.leb_spec 128 a); destruct (N.leb_spec 2147483648 v); auto; exfalso; lia.
Qed.

Definition nonend (F : famops) (w : word) : Prop := f_end F (w0 w) = false.
Definition isend (F : famops) (w : word) : Prop := f_end F (w0 w) = true.

Record famlaws (F : famops) : Prop := mkLaws {
  (* a well-terminated backtrace of k hop words: letin iff k + 1 <= ttl, with exactly those words moved *)
  law_front : forall ws wend rest p ttl, Forall (nonend F) ws -> isend F wend -> ttl <= RT_TTL_MAX ->
    f_front_recv F p ttl (flat ws ++ wb wend ++ rest) =
      if length ws <? ttl then RDeliver (mkPmsg (be32 p ++ flat ws ++ wb wend) rest) else RDrop;
  law_cooked : forall ws wend rest ttl, Forall (nonend F) ws -> isend F wend -> ttl <= RT_TTL_MAX ->
    f_cooked_recv F ttl (flat ws ++ wb wend ++ rest) =
      if length ws <? ttl then RDeliver (mkPmsg (flat ws ++ wb wend) rest) else RDrop;
  law_back : forall ws wend rest, Forall (nonend F) ws -> isend F wend -> length ws < 16 ->
    f_back_recv F (flat ws ++ wb wend ++ rest) = RDeliver (mkPmsg (flat ws ++ wb wend) rest);
  law_send : forall p h b, (p < W32)%N -> f_front_send F (mkPmsg (be32 p ++ h) b) = Some (p, mkPmsg h b);
  (* any wire that starts with g hop words is letin only when g < ttl *)
  law_lead : forall ws rest p ttl m, Forall (nonend F) ws ->
    f_front_recv F p ttl (flat ws ++ rest) = RDeliver m -> length ws < ttl;
  law_lead_cooked : forall ws rest ttl m, Forall (nonend F) ws ->
    f_cooked_recv F ttl (flat ws ++ rest) = RDeliver m -> length ws < ttl;
  law_lead_back : forall ws rest m, Forall (nonend F) ws ->
    f_back_recv F (flat ws ++ rest) = RDeliver m -> length ws < 16;
  (* every wire whatsoever: bytes are only moved, and the header stays inside its buffer *)
  law_front_any : forall p ttl w m, f_front_recv F p ttl w = RDeliver m ->
    wire_of m = be32 p ++ w /\ length (pm_hdr m) <= RT_HEADER_MAX /\ length (pm_hdr m) <= 4 + 4 * ttl /\ 8 <= length (pm_hdr m);
  law_cooked_any : forall ttl w m, f_cooked_recv F ttl w = RDeliver m ->
    wire_of m = w /\ length (pm_hdr m) <= RT_HEADER_MAX /\ length (pm_hdr m) <= 4 * ttl /\ 4 <= length (pm_hdr m);
  law_back_any : forall w m, f_back_recv F w = RDeliver m ->
    wire_of m = w /\ length (pm_hdr m) <= RT_HEADER_MAX /\ 4 <= length (pm_hdr m);
  law_back_nodrop : forall w, f_back_recv F w <> RDrop;
  law_send_any : forall m p m', f_front_send F m = Some (p, m') ->
    exists a b c d, pm_hdr m = [a; b; c; d] ++ pm_hdr m' /\ pm_body m' = pm_body m;
  law_send_short : forall m, length (pm_hdr m) < 4 -> f_front_send F m = None;
  law_orig : forall id body, (id < W32)%N -> f_orig_recv F (be32 id ++ body) = Some (id, body);
  law_orig_short : forall w, length w < 4 -> f_orig_recv F w = None;
  law_end : forall v, (v < W32)%N -> f_end F (w0 (word_be v)) = (HI32 <=? v)%N
}.

(* The four receive loops (REP / raw REP, RESPONDENT / raw RESPONDENT, raw REQ, raw SURVEYOR)
   are one loop: [E] tests the first byte of a word for the end mark, [out] is the verdict when
   the iterations run out, [full] the verdict when the header buffer is full. *)
Section GLoop.
  Variable E : N -> bool.
  Variables out full : rres.

  Fixpoint gloop (n : nat) (hdr body : list N) : rres :=
    match n with
    | 0 => out
    | S n' =>
        match body with
        | a :: b :: c :: d :: rest =>
            if RT_HEADER_MAX <? length hdr + 4 then full
            else if E a then RDeliver (mkPmsg (hdr ++ [a; b; c; d]) rest)
            else gloop n' (hdr ++ [a; b; c; d]) rest
        | _ => RClose
        end
    end.

  Lemma gloop_word n hdr w rest : length hdr + 4 <= RT_HEADER_MAX ->
    gloop (S n) hdr (wb w ++ rest) =
      if E (w0 w) then RDeliver (mkPmsg (hdr ++ wb w) rest) else gloop n (hdr ++ wb w) rest.
  Proof.
    intros H. destruct w as [[[a b] c] d]. cbn [wb app gloop w0].
    now rewrite (proj2 (Nat.ltb_ge _ _) H).
  Qed.

  Lemma gloop_terminated : forall ws n hdr wend rest,
    Forall (fun w => E (w0 w) = false) ws -> E (w0 wend) = true -> length hdr + 4 * (length ws + 1) <= RT_HEADER_MAX ->
    gloop n hdr (flat ws ++ wb wend ++ rest) =
      if length ws <? n then RDeliver (mkPmsg (hdr ++ flat ws ++ wb wend) rest) else out.
  Proof.
    induction ws as [|w ws IH]; intros n hdr wend rest Hw He Hr; (destruct n; [reflexivity|]); cbn [length] in Hr.
    - cbn [flat flat_map app]. rewrite gloop_word, He by lia. reflexivity.
    - inversion Hw as [|x l H1 H2]; subst. rewrite flat_cons, <- !app_assoc, gloop_word, H1 by lia.
      rewrite IH; [|exact H2|exact He|rewrite app_length, wb_length; lia].
      change (length (w :: ws) <? S n) with (length ws <? n). now rewrite <- !app_assoc.
  Qed.

  (* n hop words and no end mark among them: the hop limit (or the header bound) discards *)
  Lemma gloop_overlong : full = out -> forall ws n hdr rest,
    Forall (fun w => E (w0 w) = false) ws -> n <= length ws -> gloop n hdr (flat ws ++ rest) = out.
  Proof.
    intros EQ. induction ws as [|w ws IH]; intros n hdr rest Hw Hn; (destruct n; [reflexivity|]);
      cbn [length] in Hn; [lia|].
    inversion Hw as [|x l H1 H2]; subst. rewrite flat_cons, <- app_assoc.
    destruct w as [[[a b] c] d]. cbn [wb app gloop w0] in *.
    destruct (_ <? _); [exact EQ|]. rewrite H1. apply IH; [exact H2|lia].
  Qed.

  (* a hop limit [ttl] that fits the header buffer: delivery iff the end mark comes within it *)
  Lemma gloop_hops ws wend rest hdr ttl : full = out ->
    Forall (fun w => E (w0 w) = false) ws -> E (w0 wend) = true -> length hdr + 4 * ttl <= RT_HEADER_MAX ->
    gloop ttl hdr (flat ws ++ wb wend ++ rest) =
      if length ws <? ttl then RDeliver (mkPmsg (hdr ++ flat ws ++ wb wend) rest) else out.
  Proof.
    intros EQ Hw He Hr. destruct (length ws <? ttl) eqn:L.
    - rewrite gloop_terminated, L; auto. apply Nat.ltb_lt in L. lia.
    - apply Nat.ltb_ge in L. now apply gloop_overlong.
  Qed.

  Hypothesis out_quiet : forall m, out <> RDeliver m.
  Hypothesis full_quiet : forall m, full <> RDeliver m.

  Lemma gloop_lead : forall ws n hdr rest m, Forall (fun w => E (w0 w) = false) ws ->
    gloop n hdr (flat ws ++ rest) = RDeliver m ->
    length ws < n /\ length hdr + 4 * (length ws + 1) <= RT_HEADER_MAX.
  Proof.
    induction ws as [|w ws IH]; intros n hdr rest m Hw H; (destruct n; [now apply out_quiet in H|]).
    - cbn [flat flat_map app length gloop] in *. split; [lia|].
      destruct rest as [|a [|b [|c [|d r]]]]; try discriminate.
      destruct (RT_HEADER_MAX <? length hdr + 4) eqn:R; [now apply full_quiet in H|]. apply Nat.ltb_ge in R. lia.
    - inversion Hw as [|x l H1 H2]; subst. rewrite flat_cons, <- app_assoc in H.
      destruct w as [[[a b] c] d]. cbn [wb app gloop w0] in *.
      destruct (RT_HEADER_MAX <? length hdr + 4); [now apply full_quiet in H|]. rewrite H1 in H.
      apply IH in H; [|exact H2]. rewrite app_length in H. cbn [length] in *. lia.
  Qed.

  (* any wire at all: bytes are only moved from the body to the header, whole words, at most n *)
  Lemma gloop_any : forall n hdr body m, gloop n hdr body = RDeliver m ->
    exists w, pm_hdr m = hdr ++ w /\ w ++ pm_body m = body /\ length (pm_hdr m) <= RT_HEADER_MAX /\
              length w <= 4 * n /\ 4 <= length w.
  Proof.
    induction n as [|n IH]; intros hdr body m H; [now apply out_quiet in H|]. cbn [gloop] in H.
    destruct body as [|a [|b [|c [|d rest]]]]; try discriminate.
    destruct (RT_HEADER_MAX <? length hdr + 4) eqn:R; [now apply full_quiet in H|]. apply Nat.ltb_ge in R.
    destruct (E a).
    - inversion H; subst m. cbn [pm_hdr pm_body]. exists [a; b; c; d]. rewrite app_length. cbn [length app].
      repeat split; try reflexivity; lia.
    - apply IH in H. destruct H as (w & H1 & H2 & H3 & H4 & H5). exists ([a; b; c; d] ++ w).
      subst rest. rewrite H1 in *. rewrite !app_length in *. cbn [length] in *. rewrite <- !app_assoc.
      repeat split; try reflexivity; lia.
  Qed.

  Lemma gloop_nodrop : out <> RDrop -> full <> RDrop -> forall n hdr body, gloop n hdr body <> RDrop.
  Proof.
    intros Ho Hf. induction n as [|n IH]; intros hdr body; cbn [gloop]; [exact Ho|].
    destruct body as [|a [|b [|c [|d rest]]]]; try discriminate.
    destruct (_ <? _); [exact Hf|]. destruct (E a); [discriminate|apply IH].
  Qed.
End GLoop.

(* a family whose three receive callbacks are that loop obeys the receive laws *)
Lemma famlaws_of_gloop F :
  (forall p ttl w, f_front_recv F p ttl w = gloop (f_end F) RDrop RDrop ttl (be32 p) w) ->
  (forall ttl w, f_cooked_recv F ttl w = gloop (f_end F) RDrop RDrop ttl [] w) ->
  (forall w, f_back_recv F w = gloop (f_end F) RClose RClose (S (length w)) [] w) ->
  (forall p h b, (p < W32)%N -> f_front_send F (mkPmsg (be32 p ++ h) b) = Some (p, mkPmsg h b)) ->
  (forall m p m', f_front_send F m = Some (p, m') ->
     exists a b c d, pm_hdr m = [a; b; c; d] ++ pm_hdr m' /\ pm_body m' = pm_body m) ->
  (forall m, length (pm_hdr m) < 4 -> f_front_send F m = None) ->
  (forall id body, (id < W32)%N -> f_orig_recv F (be32 id ++ body) = Some (id, body)) ->
  (forall w, length w < 4 -> f_orig_recv F w = None) ->
  (forall v, (v < W32)%N -> f_end F (w0 (word_be v)) = (HI32 <=? v)%N) ->
  famlaws F.
Proof.
  intros FR CK BK S SA SS O OS EN.
  assert (QD: forall m, RDrop <> RDeliver m) by discriminate.
  assert (QC: forall m, RClose <> RDeliver m) by discriminate.
  constructor; unfold nonend, isend; try assumption.
  - intros ws wend rest p ttl Hw He Ht. rewrite FR. apply gloop_hops; auto.
    change (length (be32 p)) with 4. unfold RT_TTL_MAX, RT_HEADER_MAX in *. lia.
  - intros ws wend rest ttl Hw He Ht. rewrite CK. apply (gloop_hops _ _ _ ws wend rest []); auto.
    unfold RT_TTL_MAX, RT_HEADER_MAX in *. cbn [length]. lia.
  - intros ws wend rest Hw He Hl. rewrite BK, gloop_terminated; auto.
    + replace (length ws <? _) with true; [reflexivity|]. symmetry. apply Nat.ltb_lt.
      rewrite !app_length, flat_length, wb_length. lia.
    + unfold RT_HEADER_MAX. cbn [length]. lia.
  - intros ws rest p ttl m Hw H. rewrite FR in H. now apply gloop_lead in H.
  - intros ws rest ttl m Hw H. rewrite CK in H. now apply gloop_lead in H.
  - intros ws rest m Hw H. rewrite BK in H. apply gloop_lead in H as [_ H]; auto.
    unfold RT_HEADER_MAX in H. cbn [length] in H. lia.
  - intros p ttl w m H. rewrite FR in H. apply gloop_any in H as (x & H1 & H2 & H3 & H4 & H5); auto.
    unfold wire_of, ReqRepBacktrace.wire_of. rewrite H1 in *. rewrite <- app_assoc, H2.
    rewrite app_length in *. change (length (be32 p)) with 4 in *. repeat split; try reflexivity; lia.
  - intros ttl w m H. rewrite CK in H. apply gloop_any in H as (x & H1 & H2 & H3 & H4 & H5); auto.
    cbn [app] in H1. unfold wire_of, ReqRepBacktrace.wire_of. rewrite H1 in *. auto.
  - intros w m H. rewrite BK in H. apply gloop_any in H as (x & H1 & H2 & H3 & _ & H5); auto.
    cbn [app] in H1. unfold wire_of, ReqRepBacktrace.wire_of. rewrite H1 in *. auto.
  - intros w. rewrite BK. apply gloop_nodrop; discriminate.
Qed.

Module RRP.
Import ReqRepBacktrace.

Lemma step n hdr a b c d rest :
  bt_loop (S n) hdr (a :: b :: c :: d :: rest) =
    if BT_HEADER_MAX <? length hdr + 4 then BtDrop
    else if (128 <=? a)%N then BtDeliver (mkPmsg (hdr ++ [a; b; c; d]) rest)
    else bt_loop n (hdr ++ [a; b; c; d]) rest.
Proof. reflexivity. Qed.

Lemma short n hdr body : length body < 4 -> bt_loop (S n) hdr body = BtClose.
Proof.
  intros H. destruct body as [|a [|b [|c [|d r]]]]; cbn in H; try lia; reflexivity.
Qed.

Lemma xstep f hdr a b c d rest :
  xreq_loop (S f) hdr (a :: b :: c :: d :: rest) =
    if BT_HEADER_MAX <? length hdr + 4 then BtClose
    else if (128 <=? a)%N then BtDeliver (mkPmsg (hdr ++ [a; b; c; d]) rest)
    else xreq_loop f (hdr ++ [a; b; c; d]) rest.
Proof. reflexivity. Qed.

Lemma bt_loop_gloop n : forall hdr body,
  of_rr (bt_loop n hdr body) = gloop (fun b => (128 <=? b)%N) RDrop RDrop n hdr body.
Proof.
  induction n as [|n IH]; intros hdr body; [reflexivity|].
  destruct body as [|a [|b [|c [|d rest]]]]; try reflexivity.
  rewrite step. cbn [gloop]. change RT_HEADER_MAX with BT_HEADER_MAX.
  destruct (_ <? _); [reflexivity|]. destruct (128 <=? a)%N; [reflexivity|apply IH].
Qed.

Lemma xreq_loop_gloop f : forall hdr body,
  of_rr (xreq_loop f hdr body) = gloop (fun b => (128 <=? b)%N) RClose RClose f hdr body.
Proof.
  induction f as [|f IH]; intros hdr body; [reflexivity|].
  destruct body as [|a [|b [|c [|d rest]]]]; try reflexivity.
  rewrite xstep. cbn [gloop]. change RT_HEADER_MAX with BT_HEADER_MAX.
  destruct (_ <? _); [reflexivity|]. destruct (128 <=? a)%N; [reflexivity|apply IH].
Qed.

Lemma of_rr_inj r r' : of_rr r = of_rr r' -> r = r'.
Proof. destruct r, r'; cbn; congruence. Qed.

Lemma terminated : forall ws n hdr wend rest,
  Forall (fun w => (128 <=? w0 w)%N = false) ws -> (128 <=? w0 wend)%N = true ->
  length hdr + 4 * (length ws + 1) <= BT_HEADER_MAX ->
  bt_loop n hdr (flat ws ++ wb wend ++ rest) =
    if length ws <? n then BtDeliver (mkPmsg (hdr ++ flat ws ++ wb wend) rest) else BtDrop.
Proof.
  intros ws n hdr wend rest Hw He Hr. apply of_rr_inj.
  rewrite bt_loop_gloop, gloop_terminated by assumption. now destruct (_ <? _).
Qed.

Lemma lead : forall ws n hdr rest m,
  Forall (fun w => (128 <=? w0 w)%N = false) ws ->
  bt_loop n hdr (flat ws ++ rest) = BtDeliver m -> length ws < n.
Proof.
  intros ws n hdr rest m Hw H. apply (f_equal of_rr) in H. rewrite bt_loop_gloop in H.
  now apply gloop_lead in H.
Qed.

Lemma any : forall n hdr body m, bt_loop n hdr body = BtDeliver m ->
  exists w, pm_hdr m = hdr ++ w /\ w ++ pm_body m = body /\ length (pm_hdr m) <= BT_HEADER_MAX /\
            length w <= 4 * n /\ 4 <= length w.
Proof.
  intros n hdr body m H. apply (f_equal of_rr) in H. rewrite bt_loop_gloop in H.
  now apply gloop_any in H.
Qed.

Lemma word_of_be32 v rest : (v < W32)%N -> word_of (RouteModel.be32 v ++ rest) = v.
Proof.
  intros H. pose proof (be_bytes v H) as B. rewrite be32_wb. unfold word_be in *.
  unfold word_of. cbn [wb app firstn fold_left]. lia.
Qed.
End RRP.

Module RRP2.
Import ReqRepBacktrace.
(* at least n hop words and no end word among them: the hop limit (or the header bound) discards *)
Lemma overlong : forall ws n hdr rest,
  Forall (fun w => (128 <=? w0 w)%N = false) ws -> n <= length ws ->
  bt_loop n hdr (flat ws ++ rest) = BtDrop.
Proof.
  intros ws n hdr rest Hw Hn. apply RRP.of_rr_inj.
  now rewrite RRP.bt_loop_gloop, gloop_overlong.
Qed.
End RRP2.

Theorem reqrep_laws : famlaws reqrep_ops.
Proof.
  apply famlaws_of_gloop; unfold reqrep_ops;
    cbn [f_end f_front_recv f_cooked_recv f_back_recv f_front_send f_orig_recv].
  - intros p ttl w. apply RRP.bt_loop_gloop.
  - intros ttl w. apply RRP.bt_loop_gloop.
  - intros w. apply RRP.xreq_loop_gloop.
  - (* send *) intros p h b Hp. unfold ReqRepBacktrace.xrep_send. cbn [pm_hdr pm_body].
    rewrite app_length. change (length (be32 p)) with 4. cbn [Nat.ltb Nat.leb plus].
    rewrite RRP.word_of_be32 by exact Hp. reflexivity.
  - (* send any *) intros m p m' H. unfold ReqRepBacktrace.xrep_send in H.
    destruct (length (pm_hdr m) <? 4) eqn:E; [discriminate|]. apply Nat.ltb_ge in E. inversion H; subst. cbn [pm_hdr pm_body].
    destruct (pm_hdr m) as [|a [|b [|c [|d r]]]]; cbn [length] in E; try lia.
    exists a, b, c, d. split; reflexivity.
  - (* send short *) intros m H. unfold ReqRepBacktrace.xrep_send. apply Nat.ltb_lt in H. rewrite H. reflexivity.
  - (* orig *) intros id body Hid. unfold ReqRepBacktrace.req_recv. rewrite app_length. change (length (be32 id)) with 4.
    cbn [Nat.ltb Nat.leb plus]. rewrite RRP.word_of_be32 by exact Hid. cbn [pm_body]. reflexivity.
  - intros w H. unfold ReqRepBacktrace.req_recv. apply Nat.ltb_lt in H. rewrite H. reflexivity.
  - (* end *) intros v Hv. apply be_first in Hv. tauto.
Qed.

Module SVP.
Import SurveyBacktrace.

Lemma bt_move_gloop n : forall hdr body,
  of_sv (bt_move n hdr body) = gloop is_end RDrop RDrop n hdr body.
Proof.
  induction n as [|n IH]; intros hdr body; [reflexivity|]. cbn [bt_move gloop].
  destruct body as [|a [|b [|c [|d rest]]]]; try reflexivity.
  unfold hdr_room. rewrite Nat.ltb_antisym. change RT_HEADER_MAX with HDR_MAX.
  destruct (_ <=? _); [|reflexivity]. destruct (is_end a); [reflexivity|apply IH].
Qed.

Lemma xsurv_move_gloop f : forall hdr body,
  of_sv (xsurv_move f hdr body) = gloop is_end RClose RClose f hdr body.
Proof.
  induction f as [|f IH]; intros hdr body; [reflexivity|]. cbn [xsurv_move gloop].
  destruct body as [|a [|b [|c [|d rest]]]]; try reflexivity.
  unfold hdr_room. rewrite Nat.ltb_antisym. change RT_HEADER_MAX with HDR_MAX.
  destruct (_ <=? _); [|reflexivity]. destruct (is_end a); [reflexivity|apply IH].
Qed.

Lemma of_sv_inj r r' : of_sv r = of_sv r' -> r = r'.
Proof. destruct r, r'; cbn; congruence. Qed.

Lemma terminated : forall ws n hdr wend rest,
  Forall (fun w => is_end (w0 w) = false) ws -> is_end (w0 wend) = true ->
  length hdr + 4 * (length ws + 1) <= HDR_MAX ->
  bt_move n hdr (flat ws ++ wb wend ++ rest) =
    if length ws <? n then BtDeliver (hdr ++ flat ws ++ wb wend) rest else BtDrop.
Proof.
  intros ws n hdr wend rest Hw He Hr. apply of_sv_inj.
  rewrite bt_move_gloop, gloop_terminated by assumption. now destruct (_ <? _).
Qed.

Lemma overlong : forall ws n hdr rest,
  Forall (fun w => is_end (w0 w) = false) ws -> n <= length ws ->
  bt_move n hdr (flat ws ++ rest) = BtDrop.
Proof.
  intros ws n hdr rest Hw Hn. apply of_sv_inj. now rewrite bt_move_gloop, gloop_overlong.
Qed.

Lemma lead : forall ws n hdr rest h b,
  Forall (fun w => is_end (w0 w) = false) ws ->
  bt_move n hdr (flat ws ++ rest) = BtDeliver h b -> length ws < n.
Proof.
  intros ws n hdr rest h b Hw H. apply (f_equal of_sv) in H. rewrite bt_move_gloop in H.
  now apply gloop_lead in H.
Qed.

Lemma any : forall n hdr body h b, bt_move n hdr body = BtDeliver h b ->
  exists w, h = hdr ++ w /\ w ++ b = body /\ length h <= HDR_MAX /\ length w <= 4 * n /\ 4 <= length w.
Proof.
  intros n hdr body h b H. apply (f_equal of_sv) in H. rewrite bt_move_gloop in H.
  now apply gloop_any in H.
Qed.
End SVP.

Theorem survey_laws : famlaws survey_ops.
Proof.
  apply famlaws_of_gloop; unfold survey_ops;
    cbn [f_end f_front_recv f_cooked_recv f_back_recv f_front_send f_orig_recv].
  - intros p ttl w. apply SVP.bt_move_gloop.
  - intros ttl w. apply SVP.bt_move_gloop.
  - intros w. apply SVP.xsurv_move_gloop.
  - (* send *) intros p h b Hp. cbn [pm_hdr pm_body]. pose proof (be_bytes p Hp) as B.
    rewrite be32_wb. unfold word_be in *. cbn [wb app SurveyBacktrace.xresp_send].
    destruct B as (_ & _ & _ & _ & E). unfold SurveyBacktrace.word32.
    match goal with |- Some (?x, _) = _ => replace x with p by lia end. reflexivity.
  - (* send any *) intros m p m' H.
    destruct (pm_hdr m) as [|a [|b [|c [|d r]]]] eqn:E; cbn [SurveyBacktrace.xresp_send] in H; try discriminate.
    inversion H; subst. cbn [pm_hdr pm_body]. exists a, b, c, d. split; reflexivity.
  - (* send short *) intros m H.
    destruct (pm_hdr m) as [|a [|b [|c [|d r]]]]; cbn [length] in H; try lia; reflexivity.
  - (* orig *) intros id body Hid. pose proof (be_bytes id Hid) as B. rewrite be32_wb. unfold word_be in *.
    cbn [wb app SurveyBacktrace.surv_recv]. destruct B as (_ & _ & _ & _ & E). unfold SurveyBacktrace.word32.
    match goal with |- Some (?x, _) = _ => replace x with id by lia end. reflexivity.
  - intros w H. destruct w as [|a [|b [|c [|d r]]]]; cbn [length] in H; try lia; reflexivity.
  - (* end *) intros v Hv. apply be_first in Hv. destruct Hv as [A B]. unfold SurveyBacktrace.is_end.
    rewrite testbit7 by exact A. exact B.
Qed.
