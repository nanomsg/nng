(* Properties_C04: statements only.  C04 -- REQ/REP: replies reach only the
   matching outstanding request; REP answers the origin of the request it most
   recently received, once; out-of-order use fails with NNG_ESTATE.
   Models: Proto/ReqModel.v (req.c), RepModel.v (rep.c), XReqModel.v (xreq.c +
   msgqueue.c entry points), XRepModel.v (xrep.c), ReqRepBacktrace.v (headers).
   The models take the repairs present in the source as boolean parameters
   (rfix / pfix / mqfix, read from Gen/Consts.v by the driver); theorems are
   stated for every value of the parameters unless they say otherwise;
   `..._refuted_w' are vm_compute witnesses on the pinned variant and
   `..._repaired_w' the same history on the repaired variant. *)
From Coq Require Import List Arith NArith Bool ZArith.
From NngV Require Import Gen.Consts Proto.Common Proto.ReqRepBacktrace Proto.ReqModel Proto.RepModel Proto.XReqModel Proto.XRepModel
  Proto.ReqRepProofs Proto.ReqProofs Proto.RepProofs Proto.XReqRepProofs Proto.ReqIdsProofs.
From NngV Require Proto.PollModel Proto.PollReq Proto.PollRepX.
Import ListNotations.

(* a transport completion hands a message to the application only if the arriving
   id is registered (live) for that context -- `matchable': requests[id] = k, the
   request has been handed to a pipe (no send aio), no reply is stashed -- and the
   context has a receive posted; the message is the wire message minus the id *)
Theorem req_reply_only_matching : forall fx s p rv m s' outs a b,
  req_step fx s (PRecvDone p rv m) = (s', outs) ->
  In (Complete a E_OK (Some b)) outs ->
  rv = 0%N /\ exists id k c, req_recv (pm_body m) = Some (id, b) /\ matchable s id k c /\ cx_recv c = Some a.
Proof. exact req_recvdone_delivery. Qed.
Print Assumptions req_reply_only_matching.

(* the only other way a reply reaches the application: a receive posted after a
   matching reply was stashed; and a stash is created by a matching reply only *)
Theorem req_reply_only_matching_stash :
  (forall s k c a nb s' outs b, req_ctx_recv s k c a nb = (s', outs) -> In (Complete a E_OK (Some b)) outs ->
     cx_rep c = Some b /\ cx_recv c = None) /\
  (forall fx s p m s' outs k c' b, req_step fx s (PRecvDone p 0 m) = (s', outs) ->
     ctx_get s' k = Some c' -> cx_rep c' = Some b ->
     (exists c, ctx_get s k = Some c /\ cx_rep c = Some b) \/
     (exists id c, req_recv (pm_body m) = Some (id, b) /\ matchable s id k c /\ cx_recv c = None)).
Proof.
  split; [exact req_recv_delivery|exact req_recvdone_stash].
Qed.
Print Assumptions req_reply_only_matching_stash.

(* at most once: a match retires the id and empties the context, so a duplicate
   (or any later reply with that id) finds nothing to match *)
Theorem req_at_most_once : forall fx s p m s' outs id b k c,
  req_step fx s (PRecvDone p 0 m) = (s', outs) ->
  req_recv (pm_body m) = Some (id, b) -> matchable s id k c ->
  lookup id (rq_ids s') = None /\
  (forall p' m', req_recv (pm_body m') = Some (id, b) ->
     req_step fx s' (PRecvDone p' 0 m') = (s', [TranRecv p'; Free b])) /\
  exists c', ctx_get s' k = Some c' /\ cx_rid c' = 0%N /\ cx_req c' = None /\ cx_recv c' = None /\
             (cx_recv c = None -> cx_rep c' = Some b) /\
             (forall a, cx_recv c = Some a -> In (Complete a E_OK (Some b)) outs /\ cx_rep c' = None).
Proof.
  intros fx s p m s' outs id b k c H ER HM.
  destruct (req_match_consumes fx s p m s' outs id b k c H ER HM) as [H1 H2].
  split; [exact H1|]. split; [|exact H2].
  intros p' m' ER'. apply (proj2 (req_discard_silent fx s' p' m') id b ER').
  unfold matchable_b. now rewrite H1.
Qed.
Print Assumptions req_at_most_once.

(* a discarded reply -- stale, duplicate, another context's already answered id,
   unknown id, id without the high bit, reply before the request is on the wire,
   reply for a context that already holds one: every case is `matchable_b = false'
   -- changes no context (nothing at all) and emits nothing but the re-armed
   receive and Free; a reply shorter than an id disconnects its sender *)
Theorem req_discard_is_silent : forall fx s p m,
  (req_recv (pm_body m) = None -> req_step fx s (PRecvDone p 0 m) = (s, [Free m; ClosePipe p])) /\
  (forall id m', req_recv (pm_body m) = Some (id, m') -> matchable_b s id = false ->
     req_step fx s (PRecvDone p 0 m) = (s, [TranRecv p; Free m'])).
Proof. exact req_discard_silent. Qed.
Print Assumptions req_discard_is_silent.

Theorem req_discard_cases : forall s id,
  (lookup id (rq_ids s) = None -> matchable_b s id = false) /\                                   (* unknown / stale / duplicate / no high bit *)
  (forall k c sa, lookup id (rq_ids s) = Some k -> ctx_get s k = Some c -> cx_send c = Some sa -> matchable_b s id = false) /\   (* not yet on the wire *)
  (forall k c r, lookup id (rq_ids s) = Some k -> ctx_get s k = Some c -> cx_rep c = Some r -> matchable_b s id = false).       (* already has a reply *)
Proof.
  intros s id. unfold matchable_b. split; [intros ->; reflexivity|]. split.
  - intros k c sa -> -> ->. reflexivity.
  - intros k c r -> -> ->. destruct (cx_send c); reflexivity.
Qed.
Print Assumptions req_discard_cases.

(* state errors as coded: receive with nothing outstanding => ESTATE; second
   concurrent receive => ESTATE (no change of state); with the conn_reset mark
   both report ECONNRESET once; a new request cancels the old send / receive pair
   with ECANCELED *)
Theorem req_state_errors :
  (forall s k c a nb, cx_recv c = None -> cx_req c = None -> cx_rep c = None -> cx_creset c = false ->
     req_ctx_recv s k c a nb = (s, [Complete a E_STATE None])) /\
  (forall s k c a nb ra, cx_recv c = Some ra -> cx_creset c = false ->
     req_ctx_recv s k c a nb = (s, [Complete a E_STATE None])) /\
  (forall s k c a nb, (cx_recv c <> None \/ (cx_req c = None /\ cx_rep c = None)) -> cx_creset c = true ->
     exists s', req_ctx_recv s k c a nb = (s', [Complete a E_CONNRESET None]) /\
                exists c', ctx_get s' k = Some c' /\ cx_creset c' = false) /\
  (forall fx s k c a nb m s' outs cl, rq_closed s = false -> req_ctx_send fx s k c a nb m = (s', outs, cl) ->
     (forall ra, cx_recv c = Some ra -> In (Complete ra E_CANCELED None) outs) /\
     (forall sa, cx_send c = Some sa -> In (Complete sa E_CANCELED None) outs)).
Proof.
  split; [exact req_recv_before_send|]. split; [exact req_second_recv|]. split; [exact req_recv_connreset|exact req_send_cancels_old].
Qed.
Print Assumptions req_state_errors.

(* `registered' above means: the request the context holds NOW.  In every state
   reachable from req_init (any history of entry points, callbacks, ticks; op_ok: a
   context number is not opened twice while open) the id map holds, for a context,
   exactly the id of the request message it currently holds -- whose header is that
   id.  Ids are allocated at send time, also for requests that never reach the wire
   (id_alloc: cursor, skip of live ids, wrap -- nni_id_alloc). *)
Theorem req_registered_ids_are_current : forall fx s id k,
  req_reach fx s -> lookup id (rq_ids s) = Some k ->
  exists c r, ctx_get s k = Some c /\ cx_rid c = id /\ cx_req c = Some r /\ pm_hdr r = be32 id /\ cursor_ok id.
Proof. exact req_registered_is_current. Qed.
Print Assumptions req_registered_ids_are_current.
(* hence a request that was abandoned -- send cancelled / timed out / replaced by a
   new send / its receive cancelled / context closed, before or after it reached the
   wire; a refused non-blocking send; an answered request -- leaves no id behind: a
   context without a request message, and a context that is gone, own no id, so a
   reply naming such an id (ids are consecutive, hence predictable) is discarded
   (req_discard_cases, first clause) *)
Theorem req_abandoned_request_leaves_no_id : forall fx s k,
  req_reach fx s -> (ctx_get s k = None \/ exists c, ctx_get s k = Some c /\ cx_req c = None) ->
  forall id, lookup id (rq_ids s) <> Some k.
Proof. exact req_no_request_no_id. Qed.
Print Assumptions req_abandoned_request_leaves_no_id.
(* delivery, full form: only to the context whose current request carries the arriving
   id, after that request has left the send queue, and before any reply was taken *)
Theorem req_reply_only_current_request : forall fx s p rv m s' outs a b,
  req_reach fx s -> req_step fx s (PRecvDone p rv m) = (s', outs) -> In (Complete a E_OK (Some b)) outs ->
  exists id k c r, req_recv (pm_body m) = Some (id, b) /\ ctx_get s k = Some c /\ cx_recv c = Some a /\
    cx_rid c = id /\ cx_req c = Some r /\ pm_hdr r = be32 id /\ cx_send c = None /\ cx_rep c = None.
Proof. exact req_reply_current. Qed.
Print Assumptions req_reply_only_current_request.
Theorem req_ids_invariant_step : forall fx s o s' outs,
  ids_inv s -> op_ok s o -> req_step fx s o = (s', outs) -> ids_inv s' /\ tx_ok outs.
Proof. exact req_step_inv. Qed.
Print Assumptions req_ids_invariant_step.
(* whatever header the application leaves on the message: what a step hands to a
   transport is one request id followed by the body, and the step does not depend on
   that header at all *)
Theorem req_wire_is_id_then_body : forall fx s o s' outs p x,
  req_reach fx s -> op_ok s o -> req_step fx s o = (s', outs) -> In (TranSend p x) outs ->
  exists id, cursor_ok id /\ pm_hdr x = be32 id /\ wire_of x = be32 id ++ pm_body x.
Proof. exact req_step_tx. Qed.
Print Assumptions req_wire_is_id_then_body.
Theorem req_send_ignores_app_header : forall fx s c a nb h h' b,
  req_step fx s (PSend c a nb (mkPmsg h b)) = req_step fx s (PSend c a nb (mkPmsg h' b)).
Proof. exact req_send_header_independent. Qed.
Print Assumptions req_send_ignores_app_header.
(* witness (non-vacuity): a send queued for want of a pipe and cancelled; the peer
   names its never-transmitted id REQ_ID_MIN+1: ignored; the reply to the next request
   (sent with a 4-byte application header, transmitted as id REQ_ID_MIN+2 ++ body) is
   delivered once *)
Theorem req_abandoned_id_witness :
  let outs := outs_of (snd (req_run fx_repaired req_init w_abandon)) in
  nth 1 outs [] = [Complete 0%N E_CANCELED None] /\
  nth 3 outs [] = [Complete 1%N E_OK None; TranSend 1%N (mkPmsg (be32 (REQ_ID_MIN + 2)) [170%N; 2%N])] /\
  nth 5 outs [] = [TranRecv 1%N; Free (mkPmsg [] [187%N])] /\
  nth 6 outs [] = [TranRecv 1%N; Free (mkPmsg (be32 (REQ_ID_MIN + 2)) [170%N; 2%N]); Complete 2%N E_OK (Some (mkPmsg [] [188%N]))] /\
  nth 7 outs [] = [TranRecv 1%N; Free (mkPmsg [] [189%N])].
Proof. exact req_abandoned_id_w. Qed.
Print Assumptions req_abandoned_id_witness.

(* ids: what nni_id_alloc hands out is not registered (fresh among live requests)
   and lies in 0x80000000..0xffffffff; the cursor stays in range *)
Theorem req_id_fresh : forall f ids cur id cur',
  id_alloc f ids cur = Some (id, cur') -> cursor_ok cur ->
  lookup id ids = None /\ cursor_ok id /\ cursor_ok cur'.
Proof. exact id_alloc_fresh. Qed.
Print Assumptions req_id_fresh.

(* C03 clause, threaded through ReqModel: ownership of the request message *)
(* pinned req.c: clone and free are keyed on the current ctx->retry.  Three
   histories: the reference balance of the request goes negative (use after free /
   double free), stays positive with no pointer left (leak), goes negative on a
   timer resend *)
Theorem req_clone_policy_refuted :
  (let '(bal, ok, s) := ledger fx_pinned w_wire req_init w_uaf 0%Z true in ok = false) /\
  (let '(bal, ok, s) := ledger fx_pinned w_wire req_init w_leak 0%Z true in (0 < bal)%Z /\ n_pointers w_wire s = 0) /\
  (let '(bal, ok, s) := ledger fx_pinned w_wire req_init w_resend 0%Z true in ok = false).
Proof. exact req_clone_policy_refuted_w. Qed.
Print Assumptions req_clone_policy_refuted.
(* repaired req.c (per-request snapshot req_retry): the same histories balance.
   PARTIAL: the general conservation law (balance = number of owned pointers for
   every history) is not proved; the repaired policy is checked on these
   histories and by the correspondence runs under ASan/LSan only. *)
Theorem req_ledger_balanced_partial :
  (let '(bal, ok, s) := ledger fx_repaired w_wire req_init w_uaf 0%Z true in ok = true /\ bal = 0%Z /\ n_pointers w_wire s = 0) /\
  (let '(bal, ok, s) := ledger fx_repaired w_wire req_init w_leak 0%Z true in ok = true /\ bal = 0%Z /\ n_pointers w_wire s = 0) /\
  (let '(bal, ok, s) := ledger fx_repaired w_wire req_init w_resend 0%Z true in ok = true /\ bal = Z.of_nat (n_pointers w_wire s)).
Proof. exact req_clone_policy_repaired_w. Qed.
Print Assumptions req_ledger_balanced_partial.

(* the other pinned defects of req.c as witnesses, with the repaired behaviour *)
Theorem req_cancel_send_orphans_recv_refuted :
  nth 2 (outs_of (snd (req_run fx_pinned req_init w_cancel))) [] = [Complete 0%N E_CANCELED None] /\
  exists c, ctx_get (fst (req_run fx_pinned req_init w_cancel)) 0%N = Some c /\ cx_recv c = Some 1%N /\ cx_req c = None.
Proof. exact req_cancel_send_orphans_recv_refuted_w. Qed.
Print Assumptions req_cancel_send_orphans_recv_refuted.
Theorem req_cancel_send_repaired :
  nth 2 (outs_of (snd (req_run fx_repaired req_init w_cancel))) [] = [Complete 1%N E_CANCELED None; Complete 0%N E_CANCELED None].
Proof. exact req_cancel_send_repaired_w. Qed.
Print Assumptions req_cancel_send_repaired.

(* C15 clauses for REQ: non-blocking calls and poll descriptors *)
Theorem req_nonblocking_recv : forall s k c a,
  exists rv mo s', req_ctx_recv s k c a true = (s', [Complete a rv mo]) /\
    (rv = E_AGAIN -> s' = s /\ mo = None /\ cx_recv c = None /\ cx_req c <> None /\ cx_rep c = None) /\
    (cx_recv c = None -> cx_req c <> None -> cx_rep c = None -> rv = E_AGAIN) /\
    (cx_recv c = None -> forall m, cx_rep c = Some m -> rv = E_OK /\ mo = Some m).
Proof. exact req_nb_recv. Qed.
Print Assumptions req_nonblocking_recv.
(* a refused non-blocking send is not a no-op in either variant: it has cancelled
   the context's previous request (by design of req0_ctx_send) *)
Theorem req_nb_send_state_unchanged_refuted : forall fx, fx = fx_pinned \/ fx = fx_repaired ->
  nth 5 (outs_of (snd (req_run fx req_init w_nbsend))) [] = [Free (mkPmsg [] [187%N]); Complete 9%N E_AGAIN None] /\
  nth 6 (outs_of (snd (req_run fx req_init w_nbsend))) [] = [Complete 9%N E_STATE None].
Proof. exact req_nb_send_state_refuted_w. Qed.
Print Assumptions req_nb_send_state_unchanged_refuted.
Theorem req_poll_mirror_refuted :
  let s := fst (req_run fx_pinned req_init w_rdpoll) in
  poll_r (req_poll s) = Some true /\ req_step fx_pinned s (PRecv None 9%N true) = (s, [Complete 9%N E_AGAIN None]).
Proof. exact req_poll_mirror_refuted_w. Qed.
Print Assumptions req_poll_mirror_refuted.
Theorem req_poll_mirror_repaired_witness :
  let s := fst (req_run fx_repaired req_init w_rdpoll) in poll_r (req_poll s) = Some false.
Proof. exact req_poll_mirror_repaired_w. Qed.
Print Assumptions req_poll_mirror_repaired_witness.
(* ... and over ALL reachable states of the repaired model (fx_rdclr = true): the mirror clause of C15 in the
   uniform interface of Proto/PollModel.v (would succeed => descriptor raised; raised => not NNG_EAGAIN), both
   descriptors; the invariant is PollReq.RInv (proved there, restated here because the clause is C04's too) *)
Theorem req_poll_mirror_holds : forall fx, fx_rdclr fx = true -> PollModel.C15_mirror (PollReq.M_req fx).
Proof. exact PollReq.req_c15_mirror. Qed.
Print Assumptions req_poll_mirror_holds.

(* TranSend p x out of rep0_ctx_send only with p = origin pipe and header =
   backtrace of the request the context holds (the one it received last:
   rep_recv_records), body = the caller's; the slot is consumed, so a second send
   fails with ESTATE (rep_send_before_recv_estate) *)
Theorem rep_reply_to_origin_once : forall pf s k c a nb m s' outs p x,
  rep_ctx_send pf s k c a nb m = (s', outs) -> In (TranSend p x) outs ->
  p = rc_pipe c /\ x = rep_send (rc_bt c) m /\ rc_bt c <> [] /\
  exists c', rp_get s' k = Some c' /\ rc_bt c' = [] /\ rc_pipe c' = 0%N.
Proof. exact rep_send_to_origin. Qed.
Print Assumptions rep_reply_to_origin_once.
(* rep0_ctx_send begins with nni_msg_header_clear: for ANY header h the application
   leaves on the reply, what goes to the pipe is backtrace ++ body (at once, or from
   ctx->saio when the pipe was busy), and the whole step is independent of h *)
Theorem rep_reply_wire_is_backtrace_then_body :
  (forall pf s k c a nb h b s' outs p x,
     rep_ctx_send pf s k c a nb (mkPmsg h b) = (s', outs) -> In (TranSend p x) outs ->
     p = rc_pipe c /\ pm_hdr x = rc_bt c /\ pm_body x = b /\ wire_of x = rc_bt c ++ b) /\
  (forall pf s k c a h b s', rep_ctx_send pf s k c a false (mkPmsg h b) = (s', []) ->
     exists c', rp_get s' k = Some c' /\ rc_saio c' = Some (a, mkPmsg (rc_bt c) b)).
Proof. split; [exact rep_reply_wire|exact rep_reply_wire_queued]. Qed.
Print Assumptions rep_reply_wire_is_backtrace_then_body.
Theorem rep_send_ignores_app_header : forall pf s c a nb h h' b,
  rep_step pf s (PSend c a nb (mkPmsg h b)) = rep_step pf s (PSend c a nb (mkPmsg h' b)).
Proof. exact rep_send_header_independent. Qed.
Print Assumptions rep_send_ignores_app_header.
Theorem rep_reply_to_origin_queued :
  (forall pf s k c a m s', rep_ctx_send pf s k c a false m = (s', []) ->
     rp_sendq s' = rp_sendq s ++ [(rc_pipe c, k)] /\
     exists c', rp_get s' k = Some c' /\ rc_saio c' = Some (a, rep_send (rc_bt c) m) /\ rc_bt c' = [] /\ rc_pipe c' = 0%N) /\
  (forall pf s p k c a m, first_on p (rp_sendq s) = Some k -> rp_get s k = Some c -> rc_saio c = Some (a, m) ->
     exists s', rep_step pf s (PSendDone p 0) = (s', [TranSend p m; Complete a E_OK None])).
Proof. split; [exact rep_send_queued|exact rep_senddone_transmits_queued]. Qed.
Print Assumptions rep_reply_to_origin_queued.
Theorem rep_remembers_last_request : forall pf s k c a nb p m rest,
  rp_holding s = (p, m) :: rest ->
  exists s', rep_ctx_recv pf s k c a nb = (s', [TranRecv p; Complete a E_OK (Some (rep_deliver m))]) /\
             exists c', rp_get s' k = Some c' /\ rc_pipe c' = p /\ rc_bt c' = pm_hdr m.
Proof. exact rep_recv_records. Qed.
Print Assumptions rep_remembers_last_request.
Theorem rep_send_before_recv_estate : forall pf s k c a nb m,
  rc_bt c = [] -> exists s', rep_ctx_send pf s k c a nb m = (s', [Complete a E_STATE None]).
Proof. exact rep_send_without_request. Qed.
Print Assumptions rep_send_before_recv_estate.
Theorem rep_second_recv_estate : forall pf s k c a r,
  rp_holding s = [] -> rc_raio c = Some r -> rep_ctx_recv pf s k c a false = (s, [Complete a E_STATE None]).
Proof. exact rep_second_recv. Qed.
Print Assumptions rep_second_recv_estate.

Theorem rep_nonblocking_recv : forall pf s k c a,
  (rp_holding s = [] -> rep_ctx_recv pf s k c a true = (s, [Complete a E_AGAIN None])) /\
  (forall p m rest, rp_holding s = (p, m) :: rest ->
     exists s', rep_ctx_recv pf s k c a true = (s', [TranRecv p; Complete a E_OK (Some (rep_deliver m))])).
Proof. exact rep_nb_recv. Qed.
Print Assumptions rep_nonblocking_recv.
Theorem rep_nb_send_keeps_slot_refuted :
  nth 8 (snd (rep_run pf_pinned rep_init w_rep_ops)) [] = [Complete 9%N E_AGAIN None] /\
  nth 10 (snd (rep_run pf_pinned rep_init w_rep_ops)) [] = [Complete 9%N E_STATE None].
Proof. exact rep_nb_send_keeps_slot_refuted_w. Qed.
Print Assumptions rep_nb_send_keeps_slot_refuted.
Theorem rep_nb_send_keeps_slot_holds : forall pf s k c a m s',
  pf_nbsend pf = true -> rp_get s k = Some c ->
  rep_ctx_send pf s k c a true m = (s', [Complete a E_AGAIN None]) -> rp_get s' k = Some c.
Proof. exact rep_nb_send_refused_keeps. Qed.
Print Assumptions rep_nb_send_keeps_slot_holds.
Theorem rep_poll_mirror_refuted :
  let s := fst (rep_run pf_pinned rep_init w_rep_poll) in
  poll_r (rep_poll s) = Some true /\ fst (rep_step pf_pinned s (PRecv None 9%N true)) = s /\
  snd (rep_step pf_pinned s (PRecv None 9%N true)) = [Complete 9%N E_AGAIN None].
Proof. exact rep_poll_mirror_refuted_w. Qed.
Print Assumptions rep_poll_mirror_refuted.
(* repaired rep.c (rep0_pipe_close clears the descriptor; any values of the other
   flags): in every state reached from rep_init the receive descriptor is raised
   exactly when a non-blocking receive -- on any context -- does not return
   NNG_EAGAIN, and then the receive delivers a request *)
Theorem rep_recv_poll_mirror_holds : forall pf ops k c a,
  pf_rclose pf = true ->
  let s := fst (rep_run pf rep_init ops) in
  (poll_r (rep_poll s) = Some true <->
     snd (rep_ctx_recv pf s k c a true) <> [Complete a E_AGAIN None]) /\
  (poll_r (rep_poll s) = Some true -> exists p m, snd (rep_ctx_recv pf s k c a true) = [TranRecv p; Complete a E_OK (Some (rep_deliver m))]).
Proof. exact rep_recv_poll_mirror. Qed.
Print Assumptions rep_recv_poll_mirror_holds.
Theorem rep_recv_poll_invariant : forall pf s o,
  pf_rclose pf = true -> rep_rinv s -> rep_rinv (fst (rep_step pf s o)).
Proof. exact rep_rinv_step. Qed.
Print Assumptions rep_recv_poll_invariant.
(* the send descriptor and a busy reply pipe: pinned rep.c (only ever raised on
   receive) leaves it raised while another context occupies the socket's reply
   pipe and a non-blocking reply is refused; repaired: cleared, raised again when
   the pipe has sent.  PARTIAL for the repaired variant: witness history only (no
   send-half invariant over all histories is proved in this file) *)
Theorem rep_send_poll_mirror_refuted :
  let s := fst (rep_run (mkPfix true true true false) rep_init w_rep_wbusy) in
  poll_w (rep_poll s) = Some true /\
  snd (rep_step (mkPfix true true true false) s (PSend None 9%N true (mkPmsg [] [4%N]))) = [Complete 9%N E_AGAIN None].
Proof. exact rep_send_poll_mirror_refuted_w. Qed.
Print Assumptions rep_send_poll_mirror_refuted.
Theorem rep_send_poll_mirror_repaired_partial :
  let s := fst (rep_run pf_repaired rep_init w_rep_wbusy) in
  poll_w (rep_poll s) = Some false /\
  poll_w (rep_poll (fst (rep_step pf_repaired s (PSendDone 1%N 0%N)))) = Some true.
Proof. exact rep_send_poll_mirror_repaired_w. Qed.
Print Assumptions rep_send_poll_mirror_repaired_partial.
(* ... the witness above; over ALL reachable states of the repaired REP model both halves of the descriptor mirror
   (C15's clause in the uniform interface of Proto/PollModel.v) hold -- proved in Proto/PollRepX.v, restated here *)
Theorem rep_poll_mirror_holds : forall pf, pf_rclose pf = true -> pf_saio pf = true -> pf_wbusy pf = true ->
  PollModel.C15_mirror (PollRepX.M_rep pf).
Proof. exact PollRepX.rep_c15_mirror. Qed.
Print Assumptions rep_poll_mirror_holds.

(* header laws, shared with C13 *)
Theorem xrep_header_push_pop : forall p ttl wire m,
  (p < 4294967296)%N -> xrep_recv p ttl wire = BtDeliver m ->
  exists m0, xrep_send m = Some (p, m0) /\ pm_hdr m = be32 p ++ pm_hdr m0 /\ pm_body m0 = pm_body m /\
             pm_hdr m0 ++ pm_body m0 = wire /\ length (pm_hdr m0) <= 4 * ttl.
Proof. exact xrep_push_pop. Qed.
Print Assumptions xrep_header_push_pop.
Theorem backtrace_total_bounded : forall n hdr body,
  match bt_loop n hdr body with BtDeliver m => length (pm_hdr m) <= BT_HEADER_MAX | _ => True end.
Proof. exact bt_loop_total. Qed.
Print Assumptions backtrace_total_bounded.
Theorem req_id_roundtrip : forall id m, (id < 4294967296)%N ->
  req_recv (wire_of (req_send id m)) = Some (id, mkPmsg [] (pm_body m)).
Proof. exact req_send_recv. Qed.
Print Assumptions req_id_roundtrip.

Theorem xreq_nonblocking_recv_holds : forall r g s c a,
  (mq_get_waits (xq_urq s) = true -> xreq_step (mkMqfix true r g) s (PRecv c a true) = (s, [Complete a E_AGAIN None])) /\
  (mq_get_waits (xq_urq s) = false ->
     exists s' outs m, xreq_step (mkMqfix true r g) s (PRecv c a true) = (s', outs) /\ In (Complete a E_OK (Some m)) outs).
Proof. exact xreq_nb_recv_repaired. Qed.
Print Assumptions xreq_nonblocking_recv_holds.
Theorem xreq_nonblocking_send_holds : forall r g s c a m,
  (mq_put_waits (xq_uwq s) = true -> xreq_step (mkMqfix true r g) s (PSend c a true m) = (s, [Complete a E_AGAIN None])) /\
  (mq_put_waits (xq_uwq s) = false ->
     exists s' outs, xreq_step (mkMqfix true r g) s (PSend c a true m) = (s', outs) /\ In (Complete a E_OK None) outs).
Proof. exact xreq_nb_send_repaired. Qed.
Print Assumptions xreq_nonblocking_send_holds.
Theorem xrep_nonblocking_holds :
  (forall r g s c a, (mq_get_waits (xp_urq s) = true -> xrep_step (mkMqfix true r g) s (PRecv c a true) = (s, [Complete a E_AGAIN None])) /\
     (mq_get_waits (xp_urq s) = false ->
        exists s' outs m, xrep_step (mkMqfix true r g) s (PRecv c a true) = (s', outs) /\ In (Complete a E_OK (Some m)) outs)) /\
  (forall r g s c a m, exists s' outs, xrep_step (mkMqfix true r g) s (PSend c a true m) = (s', Complete a E_OK None :: outs)).
Proof. split; [exact xrep_nb_recv_repaired|exact xrep_nb_send_repaired]. Qed.
Print Assumptions xrep_nonblocking_holds.
Theorem xreq_nonblocking_recv_refuted :     (* pinned msgqueue.c: nni_aio_start first *)
  let s := xreq_run mf_pinned xreq_init w_xreq_ops in
  poll_r (xreq_poll s) = Some true /\
  xreq_step mf_pinned s (PRecv None 9%N true) = (s, [Complete 9%N E_AGAIN None]) /\
  exists s' m, xreq_step mf_pinned s (PRecv None 9%N false) = (s', [Complete 9%N E_OK (Some m)]).
Proof. exact xreq_nb_recv_refuted_w. Qed.
Print Assumptions xreq_nonblocking_recv_refuted.
Theorem xreq_resize_wakes_refuted :         (* pinned nni_msgq_resize *)
  let s := xreq_run mf_pinned xreq_init w_resize_ops in
  mq_putq (xq_uwq s) <> [] /\ length (mq_q (xq_uwq s)) < mq_cap (xq_uwq s).
Proof. exact xreq_resize_refuted_w. Qed.
Print Assumptions xreq_resize_wakes_refuted.
Theorem xreq_resize_wakes_repaired_partial :   (* PARTIAL: witness history only *)
  let s := xreq_run mf_repaired xreq_init w_resize_ops in mq_putq (xq_uwq s) = [] /\ length (mq_q (xq_uwq s)) = 1.
Proof. exact xreq_resize_repaired_w. Qed.
Print Assumptions xreq_resize_wakes_repaired_partial.
(* nni_msgq_aio_get and blocked writers: pinned (reader side only) leaves a writer
   blocked although the reader made room -- the send descriptor is raised and a
   non-blocking send is still refused; repaired (writer side run as well) *)
Theorem xreq_get_runs_putq_refuted :
  let s := xreq_run (mkMqfix true true false) xreq_init w_getput_ops in
  mq_putq (xq_uwq s) <> [] /\ length (mq_q (xq_uwq s)) < mq_cap (xq_uwq s) /\
  poll_w (xreq_poll s) = Some true /\
  xreq_step (mkMqfix true true false) s (PSend None 9%N true (mkPmsg (be32 2147483651) [7%N])) = (s, [Complete 9%N E_AGAIN None]).
Proof. exact xreq_get_runs_putq_refuted_w. Qed.
Print Assumptions xreq_get_runs_putq_refuted.
Theorem xreq_get_runs_putq_repaired_partial :     (* PARTIAL: witness history only *)
  let s := xreq_run mf_repaired xreq_init w_getput_ops in
  mq_putq (xq_uwq s) = [] /\ length (mq_q (xq_uwq s)) = 1 /\
  In (Complete 2%N E_OK None) (snd (xreq_step mf_repaired (xreq_run mf_repaired xreq_init (firstn 3 w_getput_ops)) (PPipeStart 1%N PROTO_REP))).
Proof. exact xreq_get_runs_putq_repaired_w. Qed.
Print Assumptions xreq_get_runs_putq_repaired_partial.
(* ... the two witnesses above; over ALL reachable states of the raw REQ model with the repaired message queue
   (non-blocking first, resize wakes, get runs the put queue) the mirror holds in its exact form: a descriptor is
   raised IF AND ONLY IF the non-blocking operation succeeds -- proved in Proto/PollRepX.v, restated here *)
Theorem xreq_poll_mirror_holds : forall mf, mf_nb mf = true -> mf_resize mf = true -> mf_getput mf = true ->
  PollModel.C15_mirror_iff (PollRepX.M_xreq mf) /\ PollModel.C15_mirror (PollRepX.M_xreq mf).
Proof. intros mf F1 F2 F3. split; [exact (PollRepX.xreq_c15_mirror_iff mf F1 F2 F3)|exact (PollRepX.xreq_c15_mirror mf F1 F2 F3)]. Qed.
Print Assumptions xreq_poll_mirror_holds.
Theorem xreq_xrep_poll_mirror :
  (forall s, (mq_getq (xq_urq s) = [] -> (poll_r (xreq_poll s) = Some true <-> mq_get_waits (xq_urq s) = false)) /\
             (mq_putq (xq_uwq s) = [] -> (poll_w (xreq_poll s) = Some true <-> mq_put_waits (xq_uwq s) = false))) /\
  (forall s, mq_getq (xp_urq s) = [] -> (poll_r (xrep_poll s) = Some true <-> mq_get_waits (xp_urq s) = false)).
Proof. split; [exact xreq_poll_mirror|exact xrep_poll_mirror]. Qed.
Print Assumptions xreq_xrep_poll_mirror.
Theorem xrep_route_conservation : forall s m s' outs,
  xrep_route s m = (s', outs) ->
  (exists p x, xrep_send m = Some (p, x) /\
     ((outs = [TranSend p x] /\ xp_sendq s' = xp_sendq s) \/
      (outs = [] /\ xp_sendq s' = xp_sendq s ++ [(p, x)]) \/
      (outs = [Free x] /\ xp_sendq s' = xp_sendq s))) \/
  (xrep_send m = None /\ outs = [Free m] /\ s' = s).
Proof. exact xrep_route_conserves. Qed.
Print Assumptions xrep_route_conservation.

Theorem reqrep_consts_match :
  PROTO_REQ = C04_REQ_SELF /\ PROTO_REP = C04_REQ_PEER /\ PROTO_REP = C04_REP_SELF /\ PROTO_REQ = C04_REP_PEER /\
  PROTO_REQ = C04_XREQ_SELF /\ PROTO_REP = C04_XREQ_PEER /\ PROTO_REP = C04_XREP_SELF /\ PROTO_REQ = C04_XREP_PEER /\
  REQ_ID_MIN = C04_REQ_ID_MIN /\ REQ_ID_MAX = C04_REQ_ID_MAX /\
  REQ_RESEND_DEFAULT = Z.of_N C04_REQ_RESEND_DEFAULT /\ REQ_TICK_DEFAULT = Z.of_N C04_REQ_TICK_DEFAULT /\ C04_MS_MIN_NEG = 1%N /\
  BT_TTL_DEFAULT = C04_REQ_TTL_DEFAULT /\ BT_TTL_DEFAULT = C04_REP_TTL_DEFAULT /\ BT_TTL_DEFAULT = C04_XREQ_TTL_DEFAULT /\ BT_TTL_DEFAULT = C04_XREP_TTL_DEFAULT /\
  BT_TTL_MIN = C04_REQ_TTL_MIN /\ BT_TTL_MIN = C04_REP_TTL_MIN /\ BT_TTL_MIN = C04_XREQ_TTL_MIN /\ BT_TTL_MIN = C04_XREP_TTL_MIN /\
  BT_TTL_MAX = C04_TTL_MAX /\ BT_HEADER_MAX = C04_HEADER_BYTES /\ rq_ttl req_init = C04_REQ_TTL_DEFAULT /\ rp_ttl rep_init = C04_REP_TTL_DEFAULT /\
  XREP_PIPE_SENDQ_CAP = C04_XREP_PIPE_SENDQ /\ mq_cap (xq_uwq xreq_init) = C04_SOCK_UWQ_DEFAULT /\ mq_cap (xq_urq xreq_init) = C04_SOCK_URQ_DEFAULT /\
  C04_SOCK_BUF_MAX = 8192%N /\
  E_NOMEM = C04_NNG_ENOMEM /\ E_INVAL = C04_NNG_EINVAL /\ E_CLOSED = C04_NNG_ECLOSED /\ E_AGAIN = C04_NNG_EAGAIN /\ E_NOTSUP = C04_NNG_ENOTSUP /\
  E_STATE = C04_NNG_ESTATE /\ E_PROTO = C04_NNG_EPROTO /\ E_CONNRESET = C04_NNG_ECONNRESET /\ E_CANCELED = C04_NNG_ECANCELED.
Proof. repeat split; reflexivity. Qed.
Print Assumptions reqrep_consts_match.

Example req_exchange_nonvacuous :
  let ops := [PPipeStart 1%N PROTO_REP; PSend None 0%N false w_req; PRecv None 1%N false; PSendDone 1%N 0%N; PRecvDone 1%N 0%N w_reply] in
  nth 4 (outs_of (snd (req_run fx_repaired req_init ops))) [] = [TranRecv 1%N; Free w_wire; Complete 1%N E_OK (Some (mkPmsg [] [187%N]))] /\
  exists k c, matchable (fst (req_run fx_repaired req_init (firstn 4 ops))) (REQ_ID_MIN + 1) k c.
Proof. vm_compute. split; [reflexivity|]. do 2 eexists. repeat split. Qed.
Example rep_exchange_nonvacuous :
  let ops := [PPipeStart 1%N PROTO_REQ; PRecvDone 1%N 0%N (mkPmsg [] ([1%N;2%N;3%N;4%N] ++ be32 2147483649 ++ [9%N])); PRecv None 1%N true;
              PSend None 2%N true (mkPmsg [] [7%N])] in
  nth 3 (snd (rep_run pf_repaired rep_init ops)) [] =
    [TranSend 1%N (mkPmsg ([1%N;2%N;3%N;4%N] ++ be32 2147483649) [7%N]); Complete 2%N E_OK None].
Proof. vm_compute. reflexivity. Qed.
