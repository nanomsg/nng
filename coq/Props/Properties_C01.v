(* Properties_C01: statements only.  C01 -- whole-message integrity on every
   transport, under any segmentation.

   Models: Codec/IovModel.v (nni_aio_iov_advance / _count / set_iov, the send
   loop), Codec/SpFrameModel.v (tcp.c / ipc.c / sockfd.c sender, receiver,
   negotiation), Codec/InprocModel.v (inproc hand-off + nni_msg_pull_up),
   Codec/WsMsgModel.v (C16: websocket message mode), Codec/WsBpModel.v (its
   back-pressure gate), Proto/ReqRepBacktrace.v (the receiving protocol's
   re-parse of a raw header).  All theorems are
   unbounded (induction over message lists, chunk lists, count sequences,
   operation histories); none is a sweep. *)
From Coq Require Import List Arith NArith Bool Lia Sorted.
From NngV Require Import Gen.Consts Base.Bytes Codec.Staged Codec.IovModel Codec.IovProofs
  Codec.SpFrameModel Codec.SpFrameProofs Codec.SpNegoProofs Codec.SpHeaderProofs
  Msg.MsgModel Msg.MsgProofs Codec.InprocModel Codec.InprocProofs
  Codec.WsMsgModel Codec.WsProofs Codec.WsBpModel Codec.WsBpProofs Proto.Common Proto.ReqRepBacktrace.
Import ListNotations.
Local Open Scope N_scope.

(* For ALL message lists [ms] (every message accepted by the size limits of the
   configuration) and ALL ways [ps] of cutting the concatenation of their
   frames into pieces -- pieces of any size: what a readv does not take stays in
   the kernel and every readv returns min(asked, available) -- the receiver as
   coded runs without any out-of-range access (the result is not None), reports
   no error, and delivers exactly the messages, in order, each once: the event
   list is [RAlloc |m1|; RDeliver m1; RAlloc |m2|; RDeliver m2; ...].  It ends
   at a frame boundary (R ... sp_dinit: a read of the next length header is
   posted, nothing buffered). *)
Theorem rx_segmentation_independent : forall cfg ms ps st0,
  rx_init (r_kind cfg) = Some st0 -> Forall (msg_letin cfg) ms -> concat ps = frames cfg ms ->
  exists st', rx_feed_all cfg st0 ps = Some (st', frame_events ms) /\
              SpFrameModel.deliveries (frame_events ms) = map sp_wire ms /\ no_error (frame_events ms) /\
              R cfg st' sp_dinit.
Proof.
  intros cfg ms ps st0 H1 H2 H3. destruct (rx_all_cuts cfg ms ps st0 H1 H2 H3) as (st' & A & B).
  exists st'. split; [exact A|]. split; [apply deliveries_frame_events|]. split; [apply no_error_frame_events|exact B].
Qed.
Print Assumptions rx_segmentation_independent.

(* a prefix of the stream (a connection cut anywhere, the rest still to come or
   never coming), itself cut into pieces in any way: the deliveries are a
   prefix of the messages -- complete messages only -- and no error is raised *)
Theorem rx_prefix_delivers_prefix : forall cfg ms ps pre post st0,
  rx_init (r_kind cfg) = Some st0 -> Forall (msg_letin cfg) ms ->
  pre ++ post = frames cfg ms -> concat ps = pre ->
  exists st' ev, rx_feed_all cfg st0 ps = Some (st', ev) /\
    (exists n, ev = firstn n (frame_events ms)) /\
    (exists j, SpFrameModel.deliveries ev = firstn j (map sp_wire ms)) /\ no_error ev.
Proof. exact rx_all_cuts_prefix. Qed.
Print Assumptions rx_prefix_delivers_prefix.

(* the same through single completions: every piece is what ONE readv returned
   (non-empty, within what was asked for: [fits]) *)
Theorem rx_single_completions : forall cfg ms ps st0,
  rx_init (r_kind cfg) = Some st0 -> Forall (msg_letin cfg) ms -> concat ps = frames cfg ms ->
  fits cfg sp_dinit ps ->
  exists st', rx_steps cfg st0 ps = Some (st', frame_events ms) /\ R cfg st' sp_dinit.
Proof. exact rx_steps_cuts. Qed.
Print Assumptions rx_single_completions.

(* the receiver as coded refines the staged decoder on EVERY byte stream
   (well-formed or not), every piece size: same events, related states *)
Theorem rx_refines_staged : forall cfg c d x, R cfg c d ->
  exists c' ev, rx_feed cfg c x = Some (c', ev) /\ R cfg c' (fst (sp_feed cfg d x)) /\ snd (sp_feed cfg d x) = ev.
Proof. exact rx_feed_refines. Qed.
Print Assumptions rx_refines_staged.

(* Staged.feed_all_concat at the SP instance *)
Theorem rx_staged_segmentation_independent : forall cfg rest p d,
  sp_feed_all cfg d (p :: rest) = sp_feed cfg d (concat (p :: rest)).
Proof. intros cfg. exact (feed_all_concat sp_phase rx_event (sp_want (r_kind cfg)) (sp_cb cfg)). Qed.
Print Assumptions rx_staged_segmentation_independent.

(* nni_aio_iov_advance / nni_aio_iov_count against their specification *)
Theorem iov_advance_correct : forall a n, WF a -> n <= total (live a) ->
  exists a' r, iov_advance a n = Some (a', r) /\ WF a' /\ live a' = drop_iov n (live a) /\
               (a_nio a' <= a_nio a)%nat /\ iov_count a' = Some (total (live a) - n) /\
               forall mem b, iov_bytes mem (live a) = Some b ->
                             iov_bytes mem (live a') = Some (skipn (N.to_nat n) b).
Proof.
  intros a n HW Hn. destruct (iov_advance_spec a n HW Hn) as (a' & r & H1 & H2 & H3 & H4).
  exists a', r. split; [exact H1|]. split; [exact H2|]. split; [exact H3|]. split; [exact H4|]. split.
  - rewrite (iov_count_spec a' H2), H3, (total_drop _ _ Hn). reflexivity.
  - intros mem b HB. rewrite H3. apply iov_bytes_drop; assumption.
Qed.
Print Assumptions iov_advance_correct.

(* For every message and every sequence [ks] of byte counts accepted by the
   stream (each clamped to what is offered): the run stays inside the iov array
   and the buffers (not None), the vector keeps NNI_AIO_MAX_IOV slots with at
   most 3 live entries, the bytes handed to the stream are a prefix of the
   frame, and exactly the frame when the loop finishes; while it has not
   finished, positive counts have made progress at every completion. *)
Theorem tx_partial_writes : forall k m ks,
  exists w a fin, send_msg k m ks = Some (w, a, fin) /\ WF a /\ (a_nio a <= 3)%nat /\
    prefix_of w (frame k m) /\ (fin = true -> w = frame k m) /\
    (fin = false -> Forall (fun x => 0 < x) ks ->
       (length ks <= length w)%nat /\ (ks <> [] -> (length w < length (frame k m))%nat)).
Proof. exact send_msg_spec. Qed.
Print Assumptions tx_partial_writes.

(* termination: positive counts finish the frame within |frame| completions *)
Theorem tx_terminates : forall k m ks, Forall (fun x => 0 < x) ks -> (length (frame k m) <= length ks)%nat ->
  exists a, send_msg k m ks = Some (frame k m, a, true).
Proof. exact send_msg_finishes. Qed.
Print Assumptions tx_terminates.

(* the frame is length ++ header ++ body; one frame through the receiver (any
   cutting) delivers header ++ body; the receiving protocol's hop loop gives
   back exactly (header, body) for every backtrace within TTL and header size *)
Theorem header_travels_in_front : forall cfg m ps st0 ttl p,
  rx_init (r_kind cfg) = Some st0 -> msg_letin cfg m -> concat ps = frame (r_kind cfg) m ->
  backtrace (sp_hdr m) -> (length (sp_hdr m) <= 4 * ttl)%nat ->
  (exists h, N.of_nat (length h) = head_len (r_kind cfg) /\ frame (r_kind cfg) m = h ++ sp_hdr m ++ sp_body m) /\
  (exists st', rx_feed_all cfg st0 ps = Some (st', [RAlloc (N.of_nat (length (sp_wire m))); RDeliver (sp_hdr m ++ sp_body m)])) /\
  ((length (sp_hdr m) <= BT_HEADER_MAX)%nat ->
     rep_recv ttl (sp_hdr m ++ sp_body m) = BtDeliver (mkPmsg (sp_hdr m) (sp_body m))) /\
  ((4 + length (sp_hdr m) <= BT_HEADER_MAX)%nat ->
     xrep_recv p ttl (sp_hdr m ++ sp_body m) = BtDeliver (mkPmsg (be32 p ++ sp_hdr m) (sp_body m))).
Proof.
  intros cfg m ps st0 ttl p HI HA HC HB HT. split; [|split].
  - eexists. split; [apply tx_head_length|reflexivity].
  - destruct (rx_all_cuts cfg [m] ps st0 HI) as (st' & A & _).
    + constructor; [exact HA|constructor].
    + unfold frames. cbn [map concat]. rewrite app_nil_r. exact HC.
    + exists st'. exact A.
  - apply reparse_recovers_header; assumption.
Qed.
Print Assumptions header_travels_in_front.

Theorem nego_tx_any_partial_writes : forall k proto ks,
  exists w st o, nego_tx_run (fst (nego_start k proto)) (sp_header proto) ks = Some (w, st, o) /\
    prefix_of w (sp_header proto) /\ ng_gottx st = N.of_nat (length w) /\ ng_gotrx st = 0 /\
    ((o = [NRecv 8] /\ w = sp_header proto) \/ (o = [] /\ (length w < 8)%nat)) /\
    (Forall (fun x => 0 < x) ks -> (8 <= length ks)%nat -> w = sp_header proto /\ o = [NRecv 8]).
Proof. exact nego_tx_exact. Qed.
Print Assumptions nego_tx_any_partial_writes.

Theorem nego_rx_any_segmentation : forall k proto cs, let s := concat cs in
  exists st o rest, nego_rx_all (nego_sent k proto) cs = Some (st, o, rest) /\
    ((length s < 8)%nat -> ng_done st = false /\ rest = [] /\ only_recv o) /\
    ((8 <= length s)%nat -> ng_done st = true /\ rest = skipn 8 s /\
        exists pre, only_recv pre /\ o = pre ++ [nego_verdict (firstn 8 s)]).
Proof. exact nego_rx_exact. Qed.
Print Assumptions nego_rx_any_segmentation.

Theorem nego_header_roundtrip : forall proto, proto < 65536 ->
  nego_verdict (sp_header proto) = NReady proto.
Proof.
  intros proto H.
  assert (L: length (sp_header proto) = 8%nat) by apply sp_header_length.
  assert (B: bytes_ok (sp_header proto)).
  { unfold sp_header. apply Forall_app. split; [repeat constructor; lia|].
    apply Forall_app. split; [apply be_enc_ok|repeat constructor; lia]. }
  destruct (nego_verdict_exact _ L B) as [Iff _]. apply Iff. auto.
Qed.
Print Assumptions nego_header_roundtrip.

(* [chk]: nni_msg_pull_up tests the result of nni_msg_insert (the repaired
   form); the current source is C01_PULLUP_CHECKS_INSERT (Gen/Consts.v). *)
Theorem inproc_pullup_exact : forall chk m sh, Inv m ->
  exists m', ip_pull_up chk m sh false false = Some (Some m') /\ Inv m' /\ abs m' = ([], m_hdr m ++ body_of m).
Proof. exact pull_up_exact. Qed.
Print Assumptions inproc_pullup_exact.

(* under every allocation oracle: never out of bounds; dropped (None) only on
   an allocation failure; delivered with the header in front of the body --
   except, for the unrepaired text only, in the case exhibited next *)
Theorem inproc_pullup_total : forall chk m sh f1 f2, Inv m ->
  exists r, ip_pull_up chk m sh f1 f2 = Some r /\
    match r with
    | Some m' => Inv m' /\ m_hdr m' = [] /\
        (body_of m' = m_hdr m ++ body_of m \/
         (chk = false /\ f2 = true /\ sh = false /\ (chunk_room (m_body m) <? length (m_hdr m))%nat = false /\
          body_of m' = body_of m))
    | None => f1 || f2 = true
    end.
Proof. exact pull_up_spec. Qed.
Print Assumptions inproc_pullup_total.

(* "delivered completely or not at all" is FALSE of nni_msg_pull_up as pinned
   (chk = false) when the allocation inside nni_msg_insert fails: the failure is
   ignored and the header bytes are lost (the message is delivered truncated).
   Witness: 20 body bytes in a 64-byte chunk with 32 bytes of headroom, a
   40-byte header.  Replayed on the library: `pullup <20 bytes> <40 bytes> 0 0`
   in harness/wb_c01.c. *)
Theorem inproc_pullup_enomem_refuted :
  exists m', ip_pull_up false pullup_witness false false true = Some (Some m') /\
             m_hdr m' = [] /\ body_of m' = repeat 9%N 20 /\ m_hdr pullup_witness = repeat 7%N 40.
Proof. exact pull_up_enomem_loses_header. Qed.
Print Assumptions inproc_pullup_enomem_refuted.

(* every history of sends / receives / cancellations / close on one queue,
   every allocation oracle: each message leaves through the hand-off at most
   once, in the order of the sends; a dropped one had an allocation fail; a
   delivered one is the message sent under that number, pulled up *)
Theorem inproc_fifo_once_partial : forall chk ops, sends_inv ops ->
  exists q outs, ip_run chk ip_init ops = Some (q, outs) /\
    StronglySorted lt (fate_seqs outs) /\ NoDup (fate_seqs outs) /\
    Forall (handoff_ok chk (sent_msgs ops)) (handoffs outs) /\ Forall (drop_ok (sent_msgs ops)) (drops outs).
Proof. exact fifo_once. Qed.
Print Assumptions inproc_fifo_once_partial.
(* _partial: for chk = false [handoff_ok] lets in, for a message whose chunk
   allocation was made to fail, delivery of the body without its header (the
   defect above).  The full statement "delivered whole, in order, once, or
   dropped whole (allocation failure only)" holds of the repaired text under
   every oracle, and of both texts when no allocation fails: *)
Theorem inproc_fifo_once_repaired : forall ops, sends_inv ops ->
  exists q outs, ip_run true ip_init ops = Some (q, outs) /\
    StronglySorted lt (fate_seqs outs) /\ NoDup (fate_seqs outs) /\
    Forall (fun sm => exists m f1 f2, nth_error (sent_msgs ops) (fst sm) = Some (m, f1, f2) /\
                      abs (snd sm) = ([], m_hdr m ++ body_of m)) (handoffs outs) /\
    Forall (drop_ok (sent_msgs ops)) (drops outs).
Proof. exact fifo_whole_or_nothing. Qed.
Print Assumptions inproc_fifo_once_repaired.

Theorem inproc_fifo_once : forall chk ops, sends_inv ops -> no_alloc_failure ops ->
  exists q outs, ip_run chk ip_init ops = Some (q, outs) /\
    StronglySorted lt (map fst (handoffs outs)) /\ drops outs = [] /\
    Forall (fun sm => exists m f1 f2, nth_error (sent_msgs ops) (fst sm) = Some (m, f1, f2) /\
                      abs (snd sm) = ([], m_hdr m ++ body_of m)) (handoffs outs).
Proof. exact fifo_exact_no_failure. Qed.
Print Assumptions inproc_fifo_once.

(* which of the two texts the current source is *)
Theorem inproc_current_source :
  C01_PULLUP_CHECKS_INSERT = false \/ C01_PULLUP_CHECKS_INSERT = true.
Proof. destruct C01_PULLUP_CHECKS_INSERT; auto. Qed.
Print Assumptions inproc_current_source.

(* (C16) the SP websocket transport sends header ++ body as one message:
   fragmented at any fragsize, encoded, cut anywhere, it is reassembled exactly *)
Theorem ws_message_roundtrip : forall cfg fragsize (m : sp_msg) keys,
  c_isstream cfg = false -> N.of_nat (length (sp_wire m)) < 2 ^ 64 ->
  let frs := ws_send_frames false false fragsize (sp_wire m) in
  (length frs <= length keys)%nat -> Forall (fun k => length k = 4%nat) keys ->
  letin_along cfg ws_init frs ->
  forall p rest, concat (p :: rest) = ws_encode_frames (negb (c_server cfg)) keys frs ->
  let '(d, e) := ws_feed_all cfg ws_dinit (p :: rest) in
  WsProofs.deliveries e = [sp_hdr m ++ sp_body m] /\ d = ws_dinit.
Proof.
  intros cfg fragsize m keys H1 H2. cbv zeta. intros H3 H4 H5 p rest H6.
  apply (ws_fragmentation_bytes cfg false fragsize (sp_wire m) keys H1); auto. discriminate.
Qed.
Print Assumptions ws_message_roundtrip.

(* back-pressure: receivers come and go while frames arrive.  With the gate of
   ws_start_read as written (the generated constant C01_WS_READ_GATE_RXQ, tied
   below), for ANY interleaving of frame arrivals and receive requests the
   messages handed over are a prefix of the FIN-delimited groups of the frames
   that arrived: the boundary of a message does not depend on whether a
   receiver was waiting.  (Frame level; data frames of well-formed sequences.) *)
Theorem ws_boundaries_independent_of_receivers : forall evs,
  let D := snd (bp_run true bp_init evs) in
  D = firstn (length D) (messages (arrived evs)).
Proof. exact bp_boundaries_independent_of_receivers. Qed.
Print Assumptions ws_boundaries_independent_of_receivers.

(* the read-ahead variant of the gate merges messages that arrive while nobody
   receives (why the gate matters) *)
Theorem ws_readahead_gate_refuted :
  let evs := [BRecv; BArrive (mkFr true [65]); BArrive (mkFr true [66]); BArrive (mkFr true [67]); BRecv; BRecv] in
  snd (bp_run false bp_init evs) = [[65]; [66; 67]] /\ snd (bp_run true bp_init evs) = [[65]; [66]; [67]].
Proof. exact bp_readahead_merges. Qed.
Print Assumptions ws_readahead_gate_refuted.

Theorem c01_consts_match :
  MAX_IOV = NNI_AIO_MAX_IOV /\
  (head_len KTcp, head_len KIpc) = (C01_TCP_HEAD_LEN, C01_IPC_HEAD_LEN) /\
  MAX_STREAM_MSGSZ = C01_MAX_STREAM_MSGSZ /\ RECVMAXSZ_DEFAULT = C01_RECVMAXSZ_DEFAULT /\
  (NNG_ENOMEM, NNG_EPROTO, NNG_EMSGSIZE, NNG_ECLOSED, NNG_ECONNSHUT) =
    (C01_NNG_ENOMEM, C01_NNG_EPROTO, C01_NNG_EMSGSIZE, C01_NNG_ECLOSED, C01_NNG_ECONNSHUT) /\
  sp_header 0 = C01_NEGO_HEADER /\ C01_RX_CHECKS_BEFORE_ALLOC = true /\ C01_IPC_TYPE_CHECK = true /\
  C01_WS_READ_GATE_RXQ = true.
Proof. repeat split; reflexivity. Qed.
Print Assumptions c01_consts_match.

Example rx_nonvacuous :
  let cfg := mkRxCfg KIpc 100 1000 in
  let ms := [mkSp [128; 0; 0; 1] [3; 4; 5]; mkSp [] []; mkSp [] [9]] in
  Forall (msg_letin cfg) ms /\
  (exists st0, rx_init KIpc = Some st0 /\
     option_map snd (rx_feed_all cfg st0 [firstn 7 (frames cfg ms); skipn 7 (frames cfg ms)]) =
       Some [RAlloc 7; RDeliver [128; 0; 0; 1; 3; 4; 5]; RAlloc 0; RDeliver []; RAlloc 1; RDeliver [9]]).
Proof.
  cbv zeta. split.
  - repeat constructor; cbn; lia.
  - eexists. split; [reflexivity|]. vm_compute. reflexivity.
Qed.

Example tx_nonvacuous :
  option_map (fun r => fst (fst r)) (send_msg KTcp (mkSp [1; 2] [3; 4; 5]) [3; 1; 7; 100]) =
    Some [0; 0; 0; 0; 0; 0; 0; 5; 1; 2; 3; 4; 5].
Proof. vm_compute. reflexivity. Qed.

Example inproc_nonvacuous :
  exists m, msg_alloc 5 false false = Some (0%N, Some m) /\
    sends_inv [ISend 1 m false false false; IRecv 2] /\ no_alloc_failure [ISend 1 m false false false; IRecv 2].
Proof.
  destruct (alloc_spec 5) as (m & A & HI & _). exists m. split; [exact A|]. split.
  - intros a m0 sh f1 f2 [H|[H|[]]]; inversion H; subst; exact HI.
  - intros a m0 sh f1 f2 [H|[H|[]]]; inversion H; subst; auto.
Qed.
