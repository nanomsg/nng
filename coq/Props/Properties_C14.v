(* Properties_C14: statements only.  C14 -- pipe events are ordered; dialers redial,
   listeners keep accepting.

   Objects (all in Core/):
     PipeEvModel   one socket's pipes: nni_pipe_run_cb's filter, the threads in
                   listener_start_pipe / dialer_start_pipe, the reaper in pipe_reap, callbacks
                   that close pipes or change the registration, sock_shutdown.  A history
                   [srun s ops] is any list of critical sections by any number of threads, in
                   any order the locks allow (a step whose guard is false changes nothing).
     DialerModel   one dialer: d_pipe, d_currtime/d_inirtime/d_maxrtime, the back-off timer
                   with the random draw as an argument, dialer_connect_cb by result class.
     ListenerModel one listener: listener_accept_cb as a function of the result code.
   What is proved is the decision logic over all histories of these steps (PARTIAL with
   respect to real schedules exactly as C02: mutual exclusion of the mutexes, the atomicity
   of p_closed, nni_aio_stop's guarantee and the transports' behaviour are assumptions named
   at the theorems that use them). *)
From Coq Require Import List Arith NArith ZArith Bool String.
From NngV Require Import Gen.Consts Core.PipeEvModel Core.PipeEvProofs Core.DialerModel Core.DialerProofs
  Core.ListenerModel Core.ListenerProofs Core.PipeEvConsts Core.SfdqModel Core.SfdqProofs.
Import ListNotations.

(* 1. ORDER.  (a) For ANY sequence of nni_pipe_run_cb calls on a pipe -- any event arguments
   the three call sites can pass, any interleaving, each call with its own reading of
   s_want_evs -- the events delivered are ADD_PRE, ADD_POST, REM_POST in that order, each at
   most once, never ADD_POST or REM_POST without ADD_PRE.  (b) The same for every pipe in
   every reachable state of the whole socket model (callbacks closing pipes or
   re-registering, closes from any thread, socket shutdown at any point); the callbacks
   actually invoked are a subsequence of the events delivered. *)
Theorem events_ordered_at_most_once :
  (forall calls : list (bool * N), (forall w ev, In (w, ev) calls -> (1 <= ev <= 3)%N) ->
     ev_ordered (run_cb_seq calls EV_NONE)) /\
  (forall ops s p, s = srun sock_init ops -> In p (pipes s) ->
     ev_ordered (g_fired p) /\ subseq (g_cbs p) (g_fired p)).
Proof. split; [exact run_cb_seq_ordered|exact events_ordered_all_histories]. Qed.
Print Assumptions events_ordered_at_most_once.

Example events_ordered_nonvacuous :
  (* a pipe accepted, then closed by the peer: ADD_PRE, ADD_POST, REM_POST, callbacks for all three *)
  let ops := [ONotify 1 true; ONotify 2 true; ONotify 3 true; OCreate; OStart 0;
              OCbRead 0 WStart; OCbEnter 0 WStart; OCbExit 0 WStart; OCheck 0; OProto 0 true;
              OCbRead 0 WStart; OCbEnter 0 WStart; OCbExit 0 WStart;
              OClose 0; OReap 0; OReap 0; OCbRead 0 WReap; OCbEnter 0 WReap; OCbExit 0 WReap; OReap 0; OReap 0] in
  map g_fired (pipes (srun sock_init ops)) = [[EV_ADD_PRE; EV_ADD_POST; EV_REM_POST]] /\
  map g_cbs (pipes (srun sock_init ops)) = [[EV_ADD_PRE; EV_ADD_POST; EV_REM_POST]] /\
  (* the racy order: the reaper's REM_POST call comes before the start thread's ADD_POST call *)
  let ops2 := [ONotify 3 true; OCreate; OStart 0; OCbRead 0 WStart; OCbEnter 0 WStart; OCheck 0; OProto 0 true;
               OCbRead 0 WStart; OClose 0; OReap 0; OReap 0; OCbRead 0 WReap; OCbEnter 0 WReap; OCbExit 0 WReap;
               OCbEnter 0 WStart] in
  map g_fired (pipes (srun sock_init ops2)) = [[EV_ADD_PRE; EV_REM_POST]] /\
  map g_cbs (pipes (srun sock_init ops2)) = [[EV_REM_POST]].
Proof. vm_compute. repeat split; reflexivity. Qed.

(* 2. REM_POST BY CLOSE.  In histories in which no registered callback is removed again
   (so that "a registered notification" exists until the end: [keeps_cbs]; at least one
   callback is registered before the first pipe exists), when sock_shutdown's wait for s_pipes to drain is
   over -- nng_socket_close cannot return earlier -- every pipe that was delivered ADD_POST
   has been delivered REM_POST.  More precisely (second part) this holds as soon as
   pipe_reap's nni_pipe_run_cb(REM_POST) has returned, and pipe_reap removes the pipe from
   s_pipes only after that.  Assumptions visible in the model: endpoints are closed and
   stopped before the pipes are closed, and a stopped endpoint starts no pipe (C02
   aio_stop_quiesces); nni_pipe_remove is the only place that unlinks a pipe. *)
Theorem addpost_implies_rempost_by_close :
  (forall s0 ops s p,
     pipes s0 = [] -> s_want s0 = true -> s_shut_returned s0 = false ->
     forallb keeps_cbs ops = true -> s = srun s0 ops -> s_shut_returned s = true -> In p (pipes s) ->
     In EV_ADD_POST (g_fired p) -> In EV_REM_POST (g_fired p)) /\
  (forall s0 ops s p,
     pipes s0 = [] -> s_want s0 = true -> forallb keeps_cbs ops = true -> s = srun s0 ops -> In p (pipes s) ->
     rem_done (p_rpc p) = true -> In EV_ADD_POST (g_fired p) -> In EV_REM_POST (g_fired p)).
Proof. split; [exact addpost_rempost_at_close|exact rempost_when_reaped]. Qed.
Print Assumptions addpost_implies_rempost_by_close.

Example addpost_rempost_nonvacuous :
  let s0 := srun sock_init [ONotify 2 true] in
  let ops := [OCreate; OStart 0; OCbRead 0 WStart; OCbEnter 0 WStart; OCheck 0; OProto 0 true;
              OCbRead 0 WStart; OCbEnter 0 WStart; OCbExit 0 WStart;
              OShutBegin; OShutEps; OShutPipes; OReap 0; OReap 0; OCbRead 0 WReap; OCbEnter 0 WReap;
              OReap 0; OShutWait; OReap 0; OShutWait] in
  pipes s0 = [] /\ s_want s0 = true /\ forallb keeps_cbs ops = true /\
  s_shut_returned (srun s0 ops) = true /\
  map g_fired (pipes (srun s0 ops)) = [[EV_ADD_PRE; EV_ADD_POST; EV_REM_POST]] /\
  (* the first OShutWait is refused: the pipe is still on s_pipes *)
  s_shut_returned (srun s0 (firstn 18 ops)) = false.
Proof. vm_compute. repeat split; reflexivity. Qed.

(* the hypothesis matters: if the application unregisters everything while the pipe is being
   removed and registers again before ADD_POST is attempted, ADD_POST is delivered and REM_POST never
   (the ADD_POST callback runs for a pipe that has already been removed; no REM_POST will follow) *)
Example addpost_without_rempost_when_unregistered :
  let ops := [ONotify 2 true; OCreate; OStart 0; OCbRead 0 WStart; OCbEnter 0 WStart; OCheck 0; OProto 0 true;
              ONotify 2 false; OClose 0; OReap 0; OReap 0; OCbRead 0 WReap; OCbEnter 0 WReap; OReap 0; OReap 0;
              ONotify 2 true; OCbRead 0 WStart; OCbEnter 0 WStart; OCbExit 0 WStart] in
  map g_fired (pipes (srun sock_init ops)) = [[EV_ADD_PRE; EV_ADD_POST]] /\
  map p_rpc (pipes (srun sock_init ops)) = [RDone] /\ map p_onsock (pipes (srun sock_init ops)) = [false].
Proof. vm_compute. repeat split; reflexivity. Qed.

(* 3. REJECTED IN ADD_PRE.  A pipe that was closed inside its own ADD_PRE callback -- more
   generally, any pipe that *_start_pipe finds closed after ADD_PRE -- never reaches the
   protocol's pipe_start, in any history.  The protocol models of coq/Proto learn of a pipe
   only through PPipeStart, post their first receive and send there, and an [op_ok]
   environment never delivers PSendDone/PRecvDone for a pipe that was not started: such
   a pipe carries no application message. *)
Theorem reject_in_addpre_carries_nothing : forall ops s p,
  s = srun sock_init ops -> In p (pipes s) ->
  (g_closed_in_pre p = true -> p_pstarted p = false) /\
  (g_closed_at_check p = true -> p_pstarted p = false).
Proof. exact closed_in_addpre_never_started. Qed.
Print Assumptions reject_in_addpre_carries_nothing.

Example reject_in_addpre_nonvacuous :
  let ops := [ONotify 1 true; OCreate; OStart 0; OCbRead 0 WStart; OCbEnter 0 WStart;
              OCbAct 0 WStart (CbClose 0); OCbExit 0 WStart; OCheck 0; OProto 0 true;
              OReap 0; OReap 0; OCbRead 0 WReap; OCbEnter 0 WReap] in
  map g_closed_in_pre (pipes (srun sock_init ops)) = [true] /\
  map p_pstarted (pipes (srun sock_init ops)) = [false] /\
  map g_fired (pipes (srun sock_init ops)) = [[EV_ADD_PRE; EV_REM_POST]].
Proof. vm_compute. repeat split; reflexivity. Qed.

(* What the model also shows (outside C14's words; reported as a defect of the pinned tree, key
   pipe-start-overtaken-by-reap, repaired by /repo 91744d5): nothing in the model orders pipe_reap after
   *_start_pipe, and nothing in the pinned code did.  A pipe closed by
   another thread right after the closed-check is torn down completely -- protocol pipe_close and
   pipe_stop, statistics unregistered, removed from the socket -- and only THEN handed to the
   protocol's pipe_start (and its statistics registered) by the start thread.  The events are
   ADD_PRE, REM_POST, as the theorems above demand; the memory-safety consequence (statistics node and
   protocol list entry of a freed pipe) was reproduced on the library under ASan with exactly this
   schedule (`racestart` in harness/wb_pipeev.c). *)
Example startup_overtaken_by_teardown_witness :
  let ops := [ONotify 1 true; ONotify 3 true; OCreate; OStart 0; OCbRead 0 WStart; OCbEnter 0 WStart; OCbExit 0 WStart;
              OCheck 0;                                  (* not closed: go on to pipe_start *)
              OClose 0; OReap 0; OReap 0; OCbRead 0 WReap; OCbEnter 0 WReap; OCbExit 0 WReap; OReap 0; OReap 0] in
  map p_rpc (pipes (srun sock_init ops)) = [RDone] /\ map p_pstarted (pipes (srun sock_init ops)) = [false] /\
  map p_pstarted (pipes (srun sock_init (ops ++ [OProto 0 true]))) = [true] /\
  map g_fired (pipes (srun sock_init (ops ++ [OProto 0 true; OCbRead 0 WStart; OCbEnter 0 WStart]))) = [[EV_ADD_PRE; EV_REM_POST]].
Proof. vm_compute. repeat split; reflexivity. Qed.

(* 4. ONE PIPE PER DIALER.  In every history (both variants of the two repairs, any
   settings, any draws, any result codes, close at any point) a dialer holds at most one
   of: its pipe (d_pipe), its armed back-off timer, a connect in flight (or the pending
   callback of either); in particular a new pipe is handed to nni_pipe_start only when
   d_pipe is NULL, a timer is never armed twice and connect is never called while one is
   pending ([g_clash] records any such event). *)
Theorem dialer_one_pipe : forall fixmax wide inir maxr ops d,
  d = drun fixmax wide (dialer_init inir maxr) ops ->
  (tokens d <= 1)%nat /\ g_clash d = false /\ (d_started d = false -> tokens d = 0%nat).
Proof.
  intros fixmax wide inir maxr ops d ->.
  pose proof (drun_DInv fixmax wide ops _ (dinit_DInv inir maxr)) as I.
  destruct (DInv_tokens _ I) as (A & C & _). split; [exact A|split; [exact (DInv_clash _ I)|exact C]].
Qed.
Print Assumptions dialer_one_pipe.

Example dialer_one_pipe_nonvacuous :
  (* connect, pipe, pipe lost, timer, redial, failure, timer, redial, second pipe, close with the pipe up *)
  let ops := [DStart false; DConnDone 0%N 1; DConnCb 0%Z; DPipeRemoved 1 5%Z; DTimerFire; DTimerCb; DConnDone 6%N 0;
              DConnCb 7%Z; DTimerFire; DTimerCb; DConnDone 0%N 2; DConnCb 0%Z] in
  let d := drun false false (dialer_init 10 100) ops in
  d_pipe d = Some 2 /\ tokens d = 1%nat /\ g_att d = 3 /\ g_clash d = false /\
  tokens (drun false false d [DClose; DPipeRemoved 2 0%Z]) = 0%nat.
Proof. vm_compute. repeat split; reflexivity. Qed.

(* 5. DELAY BOUND.  Every delay drawn is non-negative and strictly below the larger of the
   two reconnect times configured at the moment of the draw (0 when both are 0), for all
   draws, all result codes and all histories in which
     - the configured times are durations 0 <= t <= INT32_MAX, and, in the pinned form of
       dialer_timer_start_locked (`d_currtime *= 2`), not above 2^30-1 whenever a non-zero
       maximum is set (otherwise the doubling overflows int32: [redial_backoff_overflow_refuted]);
     - a change of RECONNMAXT to v happens when d_currtime <= max(d_inirtime, v) -- always
       true when the maximum is raised, when no back-off is in progress, or in the repaired
       form in which the option restarts the back-off (flag fixmax).  RECONNMINT may be
       changed at any time (it restarts the back-off).
   The condition is exact for the pinned form: [redial_delay_exactness].  No overflow
   occurs under these conditions ([g_ovf] = false). *)
Theorem redial_delay_bounded : forall fixmax wide inir maxr ops d,
  cfg_ok wide inir maxr -> drun_cov fixmax wide (dialer_init inir maxr) ops ->
  d = drun fixmax wide (dialer_init inir maxr) ops ->
  g_ovf d = false /\ (0 <= d_curr d <= Z.max (d_inir d) (d_maxr d))%Z /\
  forall dl i m, In (dl, i, m) (g_delays d) -> (0 <= dl /\ (dl < Z.max i m \/ (dl = 0 /\ Z.max i m = 0)))%Z.
Proof. exact delay_bounded. Qed.
Print Assumptions redial_delay_bounded.

(* ... and for the tree as it is now (both repairs present: the flags regenerated from the source are
   true, otherwise this proof no longer checks): NO condition on when the options are changed, any
   durations 0 <= t <= INT32_MAX *)
Theorem redial_delay_bounded_holds : forall inir maxr ops d,
  (0 <= inir <= INT32_MAX)%Z -> (0 <= maxr <= INT32_MAX)%Z -> Forall op_in_range ops ->
  d = drun C14_RECONNMAX_RESETS C14_BACKOFF_WIDE (dialer_init inir maxr) ops ->
  g_ovf d = false /\ (0 <= d_curr d <= Z.max (d_inir d) (d_maxr d))%Z /\
  forall dl i m, In (dl, i, m) (g_delays d) -> (0 <= dl /\ (dl < Z.max i m \/ (dl = 0 /\ Z.max i m = 0)))%Z.
Proof. exact delay_bounded_repaired. Qed.
Print Assumptions redial_delay_bounded_holds.

Example redial_delay_holds_nonvacuous :
  (* the maximum lowered to 0 in the middle of a back-off, huge times *)
  Forall op_in_range midchange_run /\
  map fst (map fst (firstn 2 (g_delays (drun C14_RECONNMAX_RESETS C14_BACKOFF_WIDE (dialer_init 10 1000) midchange_run)))) = [9; 0]%Z /\
  g_ovf (drun C14_RECONNMAX_RESETS C14_BACKOFF_WIDE (dialer_init 1073741824 2147483647) overflow_run) = false.
Proof.
  split; [|vm_compute; split; reflexivity].
  unfold midchange_run, fail_round. repeat (constructor; [simpl; try exact I; unfold INT32_MAX; split; discriminate|]). constructor.
Qed.

Example redial_delay_nonvacuous :
  let ops := [DStart false; DConnDone 6%N 0; DConnCb 123456789%Z; DTimerFire; DTimerCb; DConnDone 5%N 0; DConnCb 77%Z;
              DSetMax 5000%Z; DSetMin 200%Z; DTimerFire; DTimerCb; DConnDone 0%N 7; DConnCb 0%Z; DPipeRemoved 7 4242%Z] in
  cfg_ok false 100 1000 /\ drun_cov false false (dialer_init 100 1000) ops /\
  map fst (map fst (g_delays (drun false false (dialer_init 100 1000) ops))) = [42; 77; 89]%Z /\
  d_curr (drun false false (dialer_init 100 1000) ops) = 400%Z.
Proof.
  vm_compute.
  repeat match goal with
  | |- _ /\ _ => split
  | |- True => exact I
  | |- _ = _ => reflexivity
  | |- _ -> False => let X := fresh in intro X; discriminate X
  | |- false = true \/ _ => right
  | |- _ \/ _ => left; split; let X := fresh in intro X; discriminate X
  | |- _ \/ _ => right
  end.
Qed.

(* exactness of the condition on RECONNMAXT (pinned form): if after the change d_currtime
   exceeds both configured times, the next draw can be as long as d_currtime - 1 *)
Theorem redial_delay_exactness : forall wide d v,
  (0 <= v)%Z -> (Z.max (d_inir d) v < d_curr d <= INT32_MAX)%Z -> d_closed d = false ->
  exists rnd, forall d', d' = timer_start wide (dstep false wide d (DSetMax v)) rnd ->
    exists dl, hd_error (g_delays d') = Some (dl, d_inir d, v) /\ (Z.max (d_inir d) v <= dl)%Z.
Proof. exact uncovered_change_exceeds. Qed.
Print Assumptions redial_delay_exactness.

(* ... a lowered non-zero maximum is in force again after one more timer start; a maximum lowered
   to 0 is not, until the next successful connection or change of RECONNMINT: *)
Theorem redial_lowered_max_recovers : forall d v rnd,
  (0 < v <= HALF32)%Z -> (0 <= d_curr d <= HALF32)%Z ->
  (d_curr (timer_start false (dstep false false d (DSetMax v)) rnd) <= v)%Z.
Proof. exact lowered_max_recovers. Qed.
Print Assumptions redial_lowered_max_recovers.

(* The unconditional statement was FALSE of the pinned tree (replayed on the library: the delays
   stayed below 1000 ms although 10 ms / 0 were configured; repaired by /repo 2107908, after which
   the flag reads true, the first conjunct is vacuous and [redial_delay_bounded_holds] applies). *)
Theorem redial_delay_midchange_refuted :
  (C14_RECONNMAX_RESETS = false ->
     hd_error (g_delays (drun C14_RECONNMAX_RESETS C14_BACKOFF_WIDE (dialer_init 10 1000) midchange_run)) = Some (999, 10, 0)%Z) /\
  hd_error (g_delays (drun true C14_BACKOFF_WIDE (dialer_init 10 1000) midchange_run)) = Some (9, 10, 0)%Z.
Proof.
  split; [|vm_compute; reflexivity].
  destruct C14_RECONNMAX_RESETS; intros H; [discriminate H|]. vm_compute. reflexivity.
Qed.
Print Assumptions redial_delay_midchange_refuted.

(* `d_currtime *= 2` overflowed int32 for configured times of 2^30 ms and more (UBSan on the pinned
   library: "signed integer overflow: 1073741824 * 2"); the repaired form (/repo 4a05a49) does not *)
Theorem redial_backoff_overflow_refuted :
  (C14_BACKOFF_WIDE = false ->
     g_ovf (drun C14_RECONNMAX_RESETS C14_BACKOFF_WIDE (dialer_init 1073741824 2147483647) overflow_run) = true) /\
  g_ovf (drun C14_RECONNMAX_RESETS true (dialer_init 1073741824 2147483647) overflow_run) = false.
Proof.
  split; [|vm_compute; reflexivity].
  destruct C14_BACKOFF_WIDE; intros H; [discriminate H|]. vm_compute. reflexivity.
Qed.
Print Assumptions redial_backoff_overflow_refuted.

(* 6. REDIAL UNTIL CLOSED (progress form).  In every reachable state of an open dialer:
   (a) when its pipe is removed the timer is armed (with a delay bounded as in 5.);
   (b) when a background dial fails with any code other than the three close codes the
       timer is armed;
   (c) when the armed timer expires the transport's connect is called again;
   (d) hence a started, open dialer that has not been handed a close code always holds
       exactly one of {pipe, armed timer, connect in flight}: it is never idle.
   The three codes after which dialer_connect_cb does nothing (NNG_ECLOSED, NNG_ECANCELED,
   NNG_ESTOPPED) are the ones nni_dialer_close produces; that a transport does not produce
   them for another reason is the assumption [g_lost d = false] of (d). *)
Theorem redial_until_closed : forall fixmax wide inir maxr ops d,
  d = drun fixmax wide (dialer_init inir maxr) ops ->
  (forall p rnd, d_pipe d = Some p -> d_closed d = false ->
     let d' := dstep fixmax wide d (DPipeRemoved p rnd) in
     d_pipe d' = None /\ d_tmo d' = Some (draw_delay (d_curr d) rnd) /\ g_clash d' = false) /\
  (forall rv q rnd, d_conn_done d = Some (rv, q) -> dialer_connect_class rv = DcRetry -> d_user d = false ->
     d_closed d = false ->
     let d' := dstep fixmax wide d (DConnCb rnd) in
     d_tmo d' = Some (draw_delay (d_curr d) rnd) /\ g_clash d' = false /\ d_started d' = d_started d) /\
  (forall dl, d_tmo d = Some dl -> dl <> (-1)%Z ->
     let d' := dstep fixmax wide (dstep fixmax wide d DTimerFire) DTimerCb in
     d_conn d' = true /\ g_att d' = S (g_att d) /\ g_clash d' = false /\ d_tmo d' = None) /\
  (d_started d = true -> d_closed d = false -> g_lost d = false -> tokens d = 1%nat) /\
  (forall rv, dialer_connect_class rv = DcRetry <-> rv <> D_OK /\ rv <> D_ECLOSED /\ rv <> D_ECANCELED /\ rv <> D_ESTOPPED).
Proof.
  intros fixmax wide inir maxr ops d ->.
  pose proof (drun_DInv fixmax wide ops _ (dinit_DInv inir maxr)) as I.
  split; [intros; apply pipe_loss_arms_timer; auto|].
  split; [intros; eapply failed_dial_arms_timer; eauto|].
  split; [intros; eapply timer_expiry_dials; eauto|].
  split; [apply (DInv_tokens _ I)|].
  intros rv. apply connect_class_spec.
Qed.
Print Assumptions redial_until_closed.

Example redial_until_closed_nonvacuous :
  let d := drun false false (dialer_init 100 0) [DStart false; DConnDone 0%N 3; DConnCb 0%Z] in
  d_pipe d = Some 3 /\ d_closed d = false /\ tokens d = 1%nat /\
  let d2 := drun false false d [DPipeRemoved 3 250%Z; DTimerFire; DTimerCb; DConnDone 6%N 0] in
  d_conn_done d2 = Some (6%N, 0) /\ dialer_connect_class 6%N = DcRetry /\ d_user d2 = false /\ g_att d2 = 2.
Proof. vm_compute. repeat split; reflexivity. Qed.

(* 6b. WHICH DIAL FAILURES END THE REDIALING.  dialer_connect_cb's switch, as parsed from dialer.c on this run, is
   the model's classification: exactly NNG_ECLOSED, NNG_ECANCELED and NNG_ESTOPPED end it (they mean "the
   application closed / stopped this dialer"), success starts the pipe, EVERY other code arms the timer.
   And no transport gives one of the three codes (nor, to a listener, one of its four stop codes) to the core's
   connect / accept aio outside the context of the endpoint's own close: [C14_TRAN_FAIL_SITES] lists every literal
   completion code of the endpoint functions of src/sp/transport with its context (regenerated from the source:
   inproc listener close / no listener -> ECONNREFUSED, negotiation failure -> EPROTO / ECONNSHUT, busy -> EBUSY,
   allocation -> ENOMEM, udp handshake timeout -> ETIMEDOUT; own close -> ECLOSED / ECONNABORTED).  A transport that
   starts to report NNG_ECLOSED for a peer-side event (e.g. the peer's listener going away while a connect is
   queued on it) breaks this proof.  Codes that are not literals (results of the stream layer handed through) are
   outside this table: assumption [src_ok] of 7. *)
Theorem dial_failure_classification :
  (forall rv, dialer_connect_class rv = DcNothing <-> rv = D_ECLOSED \/ rv = D_ECANCELED \/ rv = D_ESTOPPED) /\
  (forall rv, dialer_connect_class rv = DcStart <-> rv = D_OK) /\
  (forall rv, dclass_num (dialer_connect_class rv) = tab_lookup C14_DIALER_CASES C14_DIALER_DEFAULT rv) /\
  C14_DIALER_RETRY_SHAPE = true.
Proof.
  split; [|split; [|split; [exact dialer_table_matches|reflexivity]]]; intros rv; apply connect_class_spec.
Qed.
Print Assumptions dial_failure_classification.

Theorem transport_failure_codes_redial :
  (forall f fn code, In (f, fn, code, false) C14_TRAN_FAIL_SITES ->
     dialer_connect_class code = DcRetry /\ listener_accept_decision code <> LaStop) /\
  List.length C14_TRAN_FAIL_SITES = C14_TRAN_FAIL_SITE_COUNT /\ (40 <= C14_TRAN_FAIL_SITE_COUNT)%nat.
Proof.
  split; [|exact tran_fail_sites_counted].
  intros f fn code H. pose proof tran_fail_sites_ok as A. rewrite forallb_forall in A. specialize (A _ H).
  unfold tran_site_ok in A. simpl in A. apply andb_true_iff in A. destruct A as [A B].
  split.
  - destruct (dialer_connect_class code); simpl in A; try discriminate; reflexivity.
  - intros X. apply decision_stop_iff in X. rewrite X in B. discriminate.
Qed.
Print Assumptions transport_failure_codes_redial.

Example transport_failure_codes_nonvacuous :
  In ("inproc.c"%string, "inproc_ep_close"%string, 6%N, false) C14_TRAN_FAIL_SITES /\
  In ("inproc.c"%string, "inproc_ep_close"%string, 7%N, true) C14_TRAN_FAIL_SITES /\
  In ("tcp.c"%string, "tcptran_pipe_nego_cb"%string, 31%N, false) C14_TRAN_FAIL_SITES.
Proof. repeat split; repeat (first [left; reflexivity|right]). Qed.

(* 7. THE LISTENER KEEPS ACCEPTING.  listener_accept_cb, for EVERY result code rv (all of N,
   a fortiori every value of the generated nng_err enum):
     (a) the accept is not re-armed exactly for the four codes NNG_ECONNABORTED, NNG_ESTOPPED,
         NNG_ECLOSED, NNG_ECANCELED;
     (b) for every other code, in every reachable state of an open listener, the transport's
         accept is called again by the callback itself, or the 100 ms cool-down is armed and
         its expiry calls it; an open started listener that has not seen a stop code always
         holds exactly one of {accept pending, cool-down armed};
     (c) the switch parsed from listener.c on this run is this decision function. *)
Theorem listener_rearms :
  (forall rv, listener_accept_decision rv = LaStop <-> stop_code rv = true) /\
  (forall ops l rv p, l = lrun listener_init ops -> l_acc_done l = Some (rv, p) -> l_closed l = false ->
     stop_code rv = false ->
     let l' := lstep l LAccCb in
     g_lclash l' = false /\
     ((l_acc l' = true /\ g_acc_calls l' = S (g_acc_calls l)) \/
      (l_tmo l' = Some L_COOLDOWN_MS /\
       let l'' := lstep (lstep l' LTimerFire) LTimerCb in
       l_acc l'' = true /\ g_acc_calls l'' = S (g_acc_calls l) /\ g_lclash l'' = false))) /\
  (forall ops l, l = lrun listener_init ops ->
     g_lclash l = false /\ (l_started l = true -> l_closed l = false -> g_llost l = false -> ltokens l = 1%nat)) /\
  (forall rv, lact_num (listener_accept_decision rv) = tab_lookup C14_LISTENER_CASES C14_LISTENER_DEFAULT rv).
Proof.
  split; [exact decision_stop_iff|].
  split; [intros ops l rv p -> A C S; apply (accept_rearmed (lrun listener_init ops) rv p); auto; apply lrun_LInv; apply linit_LInv|].
  split; [|exact listener_table_matches].
  intros ops l ->. pose proof (lrun_LInv ops _ linit_LInv) as I. split; [exact (LInv_clash _ I)|exact (LInv_live _ I)].
Qed.
Print Assumptions listener_rearms.

Example listener_rearms_nonvacuous :
  (* ENOMEM (2): cool-down, then re-armed; EPROTO (13) likewise; ECONNRESET (19) at once *)
  let l := lrun listener_init [LoStart; LTran (SrcAccept 2%N)] in
  l_acc_done l = Some (2%N, 0) /\ l_closed l = false /\ stop_code 2%N = false /\
  l_tmo (lstep l LAccCb) = Some 100%N /\
  l_acc (lrun l [LAccCb; LTimerFire; LTimerCb]) = true /\
  l_acc (lrun listener_init [LoStart; LTran (SrcNego 19%N); LAccCb]) = true /\
  l_tmo (lrun listener_init [LoStart; LTran (SrcNego 13%N); LAccCb]) = Some 100%N.
Proof. vm_compute. repeat split; reflexivity. Qed.

(* The four stop codes are produced only by close -- PARTIAL: proved for the transport shape of
   tcp.c / ipc.c / tls.c / sockfd.c (the accept aio is completed by a match, by the negotiation
   callback's error path, which maps NNG_ECLOSED to NNG_ECONNSHUT, by the accept callback's error
   path, or by the endpoint's close) under the ASSUMPTION [src_ok] that streams and the platform
   accept do not hand up NNG_ECONNABORTED / NNG_ESTOPPED / NNG_ECANCELED (nor, for the accept
   path, NNG_ECLOSED) while the endpoint is open.  What is missing: models of the stream layers
   that would discharge [src_ok]; the generated shape facts cover the literal occurrences
   (C14_ECONNABORTED_CLOSE_ONLY, C14_NEGO_MAPS_ECLOSED), not codes translated from errno.
   If a stream did deliver NNG_ECONNABORTED the loop would end for good ([listener_econnaborted_stops]). *)
Theorem listener_stop_codes_only_by_close_partial : forall ops l,
  forallb lop_ok ops = true -> l = lrun listener_init ops -> g_llost l = false.
Proof. exact stop_codes_only_after_close. Qed.
Print Assumptions listener_stop_codes_only_by_close_partial.

Example listener_stop_codes_nonvacuous :
  let ops := [LoStart; LTran (SrcNego L_ECLOSED); LAccCb; LTimerFire; LTimerCb; LTran (SrcAccept 2%N); LAccCb;
              LTimerFire; LTimerCb; LTran (SrcMatch 4); LAccCb; LoClose; LAccCb] in
  forallb lop_ok ops = true /\ g_llost (lrun listener_init ops) = false /\
  g_lpipes (lrun listener_init ops) = [4] /\ l_closed (lrun listener_init ops) = true.
Proof. vm_compute. repeat split; reflexivity. Qed.

Theorem listener_econnaborted_stops :
  let l := lrun listener_init [LoStart; LTran (SrcNego L_ECONNABORTED); LAccCb] in
  ltokens l = 0%nat /\ l_closed l = false /\ g_llost l = true.
Proof. exact econnaborted_stops. Qed.
Print Assumptions listener_econnaborted_stops.

(* 8. THE SOCKET-FD LISTENER'S HAND-OVER QUEUE (src/core/sockfd.c).  "A listener keeps accepting
   further connections": every descriptor the listener takes over (NNG_OPT_SOCKET_FD returns 0) is
   handed to exactly one accept, in FIFO order, or closed by the listener (at close, or when the
   stream cannot be allocated) -- none lost, none handed out or closed twice.
   Object: Core/SfdqModel.v, one step per entry point (all run under l->mtx), the array listen_q
   with checked accesses, flags [fixed] (the shift in sfd_start_conn) and [fixclose] (close empties
   the queue).  Spec: a plain list queue ([sp_step]).
   (a) refinement: with both repairs every step of the listener is the step of the list queue, with
       equal outputs, and no access leaves the array;
   (b) conservation over ALL histories: the descriptors taken over, in order, are exactly those that
       left (delivered or closed), in order, followed by those still queued; after close nothing is
       queued; consequently nothing leaves twice;
   (c) the statement for the tree as it is, behind the flags regenerated from the source. *)
Theorem sfdq_refines_fifo : forall cap s o s' outs,
  SfInv cap s -> sf_step true true cap s o = (s', outs) ->
  SfInv cap s' /\ sp_step cap (sf_abs s) o = (sf_abs s', outs).
Proof. exact sf_step_refines. Qed.
Print Assumptions sfdq_refines_fifo.

Theorem sfdq_none_lost_none_duplicated : forall cap ops s tr,
  sf_run true true cap (sfdl_init cap) ops = (s, tr) ->
  (flat_map took tr = flat_map left_of tr ++ firstn (sf_cnt s) (sf_q s) /\
   sf_poison s = false /\ ~ In SfOob (flat_map snd tr) /\ (sf_closed s = true -> sf_cnt s = 0)) /\
  (NoDup (flat_map took tr) -> NoDup (flat_map left_of tr)).
Proof. intros. split; [eapply sfdq_conservation; eauto|eapply sfdq_no_duplicates; eauto]. Qed.
Print Assumptions sfdq_none_lost_none_duplicated.

Theorem sfdq_holds_when_repaired :
  C14_SFDQ_SHIFT_FIXED = true -> C14_SFDQ_CLOSE_RESETS = true ->
  forall ops s tr,
  sf_run C14_SFDQ_SHIFT_FIXED C14_SFDQ_CLOSE_RESETS C14_SFD_LISTEN_QUEUE (sfdl_init C14_SFD_LISTEN_QUEUE) ops = (s, tr) ->
  flat_map took tr = flat_map left_of tr ++ firstn (sf_cnt s) (sf_q s) /\
  ~ In SfOob (flat_map snd tr) /\ (sf_closed s = true -> sf_cnt s = 0) /\
  (NoDup (flat_map took tr) -> NoDup (flat_map left_of tr)).
Proof.
  intros H1 H2 ops s tr R. rewrite H1, H2 in R.
  destruct (sfdq_conservation _ _ _ _ R) as (A & _ & B & C). repeat split; auto.
  eapply sfdq_no_duplicates; eauto.
Qed.
Print Assumptions sfdq_holds_when_repaired.

(* the tree as it is: both repairs are present and sfd_listener_set_fd has the shape the model was written from
   (closed -> ECLOSED, full -> ENOSPC, append, serve the oldest waiting accept); any of the three flags reading
   false makes this proof fail, and an unrecognised shift / close function is reported by the drop-in itself *)
Theorem sfdq_shapes_current :
  C14_SFDQ_SHIFT_FIXED = true /\ C14_SFDQ_CLOSE_RESETS = true /\ C14_SFDQ_SETFD_SHAPE_OK = true.
Proof. repeat split; reflexivity. Qed.
Print Assumptions sfdq_shapes_current.

Theorem sfdq_holds_current : forall ops s tr,
  sf_run C14_SFDQ_SHIFT_FIXED C14_SFDQ_CLOSE_RESETS C14_SFD_LISTEN_QUEUE (sfdl_init C14_SFD_LISTEN_QUEUE) ops = (s, tr) ->
  flat_map took tr = flat_map left_of tr ++ firstn (sf_cnt s) (sf_q s) /\
  ~ In SfOob (flat_map snd tr) /\ (sf_closed s = true -> sf_cnt s = 0) /\
  (NoDup (flat_map took tr) -> NoDup (flat_map left_of tr)).
Proof. destruct sfdq_shapes_current as (A & B & _). exact (sfdq_holds_when_repaired A B). Qed.
Print Assumptions sfdq_holds_current.

Example sfdq_nonvacuous :
  (* accepts before and after the descriptors, a full queue (ENOSPC for the 17th), a failed stream allocation,
     a cancelled accept, close with descriptors queued, a second close (= stop) *)
  let ops := [SfAccept 0 true; SfAccept 1 true; SfSetFd 1 true; SfCancel 1 20%N] ++
             map (fun k => SfSetFd (N.of_nat (10 + k)) true) (seq 0 17) ++
             [SfAccept 2 true; SfAccept 3 false; SfSetFd 40 true; SfClose; SfClose; SfSetFd 41 true; SfAccept 4 true] in
  let tr := snd (sf_run true true 16 (sfdl_init 16) ops) in
  flat_map took tr = ([1] ++ map (fun k => N.of_nat (10 + k)) (seq 0 16) ++ [40])%N /\
  flat_map left_of tr = flat_map took tr /\
  flat_map delivered1 (flat_map snd tr) = [1; 10]%N /\
  NoDup (flat_map took tr).
Proof.
  vm_compute. repeat split.
  repeat (constructor; [simpl; intros X; repeat (destruct X as [X|X]; [discriminate X|]); exact X|]). constructor.
Qed.

(* The pinned forms do not satisfy it.  [sfdq_shift_refuted]: three descriptors queued, three accepts:
   the first descriptor is handed out three times, the other two are never delivered and not even closed
   at close (replayed on the library: findings/c14/sfd-listen-queue-shift.txt); with a full queue the shift
   reads listen_q[NNG_SFD_LISTEN_QUEUE].  [sfdq_close_twice_refuted]: close followed by stop closes the
   queued descriptors twice (on the library the second close hits whatever the application opened in
   between).  Both statements are behind the flags: vacuous once the source is repaired. *)
Theorem sfdq_shift_refuted :
  C14_SFDQ_SHIFT_FIXED = false ->
  (let tr := snd (sf_run C14_SFDQ_SHIFT_FIXED C14_SFDQ_CLOSE_RESETS C14_SFD_LISTEN_QUEUE (sfdl_init C14_SFD_LISTEN_QUEUE) shift_witness) in
   flat_map took tr = [11; 12; 13]%N /\ flat_map left_of tr = [11; 11; 11]%N) /\
  In SfOob (flat_map snd (snd (sf_run C14_SFDQ_SHIFT_FIXED C14_SFDQ_CLOSE_RESETS C14_SFD_LISTEN_QUEUE
                                  (sfdl_init C14_SFD_LISTEN_QUEUE) (full_queue_ops C14_SFD_LISTEN_QUEUE)))).
Proof.
  destruct C14_SFDQ_SHIFT_FIXED; intros H; [discriminate H|].
  destruct C14_SFDQ_CLOSE_RESETS; vm_compute; auto 30.
Qed.
Print Assumptions sfdq_shift_refuted.

Theorem sfdq_close_twice_refuted :
  C14_SFDQ_CLOSE_RESETS = false ->
  flat_map left_of (snd (sf_run C14_SFDQ_SHIFT_FIXED C14_SFDQ_CLOSE_RESETS C14_SFD_LISTEN_QUEUE
                           (sfdl_init C14_SFD_LISTEN_QUEUE) close_twice_witness)) = [21; 22; 21; 22]%N.
Proof.
  destruct C14_SFDQ_CLOSE_RESETS; intros H; [discriminate H|].
  destruct C14_SFDQ_SHIFT_FIXED; vm_compute; reflexivity.
Qed.
Print Assumptions sfdq_close_twice_refuted.

Theorem sfdq_repaired_witnesses :
  flat_map left_of (snd (sf_run true true C14_SFD_LISTEN_QUEUE (sfdl_init C14_SFD_LISTEN_QUEUE) shift_witness)) = [11; 12; 13]%N /\
  flat_map left_of (snd (sf_run true true C14_SFD_LISTEN_QUEUE (sfdl_init C14_SFD_LISTEN_QUEUE) close_twice_witness)) = [21; 22]%N /\
  SF_ENOSPC = C14_ENOSPC /\ SF_ENOMEM = C14_ENOMEM /\ SF_ECLOSED = C14_ECLOSED.
Proof. vm_compute. repeat split; reflexivity. Qed.
Print Assumptions sfdq_repaired_witnesses.

(* the literals, tables and code shapes the models use are those of the current source *)
Theorem c14_consts_match :
  (EV_NONE = C14_PIPE_EV_NONE /\ EV_ADD_PRE = C14_PIPE_EV_ADD_PRE /\ EV_ADD_POST = C14_PIPE_EV_ADD_POST /\
   EV_REM_POST = C14_PIPE_EV_REM_POST /\ EV_NUM = C14_PIPE_EV_NUM /\
   D_ECLOSED = C14_ECLOSED /\ D_ECANCELED = C14_ECANCELED /\ D_ESTOPPED = C14_ESTOPPED /\ D_EBUSY = C14_EBUSY /\
   L_ECLOSED = C14_ECLOSED /\ L_ECANCELED = C14_ECANCELED /\ L_ESTOPPED = C14_ESTOPPED /\
   L_ECONNABORTED = C14_ECONNABORTED /\ L_ECONNRESET = C14_ECONNRESET /\ L_ETIMEDOUT = C14_ETIMEDOUT /\
   L_EPEERAUTH = C14_EPEERAUTH /\ L_ECONNSHUT = C14_ECONNSHUT /\ L_EBUSY = C14_EBUSY /\
   L_COOLDOWN_MS = C14_LISTENER_COOLDOWN_MS) /\
  (C14_RUNCB_SHAPE_OK = true /\ C14_START_PIPE_ORDER_OK = true /\ C14_REAP_ORDER_OK = true /\
   C14_SHUTDOWN_ORDER_OK = true /\ C14_REMOVE_KICKS = true /\ C14_DIALER_RETRY_SHAPE = true /\
   C14_LISTENER_TIMER_REARMS = true /\ C14_ECONNABORTED_CLOSE_ONLY = true /\
   forallb snd C14_NEGO_MAPS_ECLOSED = true) /\
  (forall rv, dclass_num (dialer_connect_class rv) = tab_lookup C14_DIALER_CASES C14_DIALER_DEFAULT rv) /\
  (forallb (fun kv => negb (N.eqb (lact_num (listener_accept_decision (snd kv))) 3) || stop_code (snd kv)) C14_ERR_ENUM = true /\
   map snd (filter (fun kv => stop_code (snd kv)) C14_ERR_ENUM) = [C14_ECLOSED; C14_ECONNABORTED; C14_ECANCELED; C14_ESTOPPED]).
Proof. split; [exact c14_literals|]. split; [exact c14_shapes|]. split; [exact dialer_table_matches|exact enum_sweep]. Qed.
Print Assumptions c14_consts_match.
