(* Properties_C18: statements only.  C18 -- socket buffers are bounded FIFOs;
   identifiers unique and in range (the id-map statements live in IdMap/IdMapProps.v). *)
From Coq Require Import List Arith NArith.
From NngV Require Import Queue.LmqModel Queue.LmqSpec Queue.LmqProofs Queue.MsgqModel Queue.MsgqProofs.
Import ListNotations.

(* lmq (the per-protocol queues behind RECVBUF/SENDBUF): every history of
   put/get/flush/resize from any state satisfying the invariant runs without an
   out-of-range ring access (the model returns None for those) and is
   observationally the bounded FIFO of LmqSpec: put appends unless full
   (EAGAIN, unchanged), get pops the oldest, resize keeps the first min(len,cap')
   messages in order and frees exactly the rest, flush frees all. *)
Theorem lmq_refines_fifo : forall ops q, LInv q ->
  exists outs q', lmq_run true q ops = Some (outs, q') /\ LInv q' /\ (outs, labs q') = fifo_run (labs q) ops.
Proof. exact lmq_run_refines. Qed.
Print Assumptions lmq_refines_fifo.

Theorem lmq_init_ok : forall cap fail, exists q, lmq_init true cap fail = Some q /\ LInv q /\
  snd (labs q) = [] /\ (fail = false -> q_cap q = cap) /\ (fail = true -> q_cap q = Nat.min cap 2).
Proof. exact lmq_init_inv. Qed.
Print Assumptions lmq_init_ok.

Theorem lmq_ring_indices_in_range : forall q, LInv q ->
  q_len q <= q_cap q /\ q_get q < length (q_cells q) /\ q_put q < length (q_cells q).
Proof. exact lmq_bounded. Qed.
Print Assumptions lmq_ring_indices_in_range.

(* the pinned tree (before the fix: commit) wrote outside the ring *)
Theorem lmq_resize_pinned_refuted : lmq_unfixed_witness = None.
Proof. exact lmq_resize_unfixed_refuted. Qed.
Print Assumptions lmq_resize_pinned_refuted.

(* msgq (raw sockets' queues): one step = one critical section.  Every step
   is total (no out-of-range access), keeps ring, waiter and depth invariants,
   and obeys the per-operation law (FIFO in acceptance order, resize frees only
   the oldest and only as many as exceed cap+1, failed operations change nothing). *)
Theorem msgq_step_ok : forall q o, AllInv q ->
  exists rv q' outs, msgq_step true q o = Some (rv, q', outs) /\ AllInv q' /\ step_law q o rv q' outs.
Proof. exact msgq_step_spec. Qed.
Print Assumptions msgq_step_ok.

(* every history from any invariant state: total, invariants kept, and the
   concatenation of everything accepted equals the concatenation of everything
   delivered or freed followed by what is still buffered -- never reordered,
   duplicated or lost *)
Theorem msgq_refines_fifo : forall ops q, AllInv q ->
  exists q' res, msgq_run true q ops = Some (q', res) /\ AllInv q' /\ length res = length ops /\
    items q ++ run_acc ops res = run_con res ++ items q'.
Proof. exact msgq_run_spec. Qed.
Print Assumptions msgq_refines_fifo.

Theorem msgq_init_ok : forall cap, AllInv (msgq_init cap) /\ items (msgq_init cap) = [].
Proof. exact msgq_init_inv. Qed.
Print Assumptions msgq_init_ok.

(* depth: never more than cap + 1 (the documented in-flight slot, reachable
   only through a shrink); ring indices in range; a blocked reader implies an
   empty queue and no blocked writer *)
Theorem msgq_ring_indices_in_range : forall q, AllInv q ->
  mq_len q <= mq_cap q + 1 /\ mq_get q < mq_alloc q /\ mq_put q < mq_alloc q /\
  (mq_getq q <> [] -> mq_len q = 0 /\ mq_putq q = []).
Proof. exact msgq_bounded. Qed.
Print Assumptions msgq_ring_indices_in_range.

Theorem msgq_depth_le_cap_without_shrink : forall q o rv q' outs, AllInv q -> mq_len q <= mq_cap q ->
  (forall c f, o <> MResize c f) ->
  msgq_step true q o = Some (rv, q', outs) -> mq_len q' <= mq_cap q'.
Proof. exact msgq_len_le_cap. Qed.
Print Assumptions msgq_depth_le_cap_without_shrink.

Theorem msgq_resize_pinned_refuted : msgq_unfixed_witness = None.
Proof. exact msgq_resize_unfixed_refuted. Qed.
Print Assumptions msgq_resize_pinned_refuted.

(* no blocked writer while the queue has room: an invariant of every history since fix
   e654d99 (nni_msgq_aio_get runs the writer side too); the pinned form kept a writer waiting
   on an empty queue (witness; replayed through raw REQ, findings/known_findings.txt) *)
Theorem msgq_no_writer_waits_with_room : forall ops q q' res, AllInv q -> WaitInv q ->
  msgq_run true q ops = Some (q', res) -> WaitInv q'.
Proof. exact msgq_waitinv_run. Qed.
Print Assumptions msgq_no_writer_waits_with_room.
Theorem msgq_get_leaves_writer_pinned_refuted :
  exists q res, msgq_get_witness false = Some (q, res) /\ mq_putq q = [(201, 2)]%N /\ mq_len q = 0 /\ mq_cap q = 1.
Proof. exact msgq_get_leaves_writer_refuted. Qed.
Print Assumptions msgq_get_leaves_writer_pinned_refuted.
Example msgq_waitinv_nonvacuous : AllInv (msgq_init 1) /\ WaitInv (msgq_init 1) /\
  exists q res, msgq_get_witness true = Some (q, res) /\ mq_putq q = [] /\ mq_len q = 1.
Proof. split; [apply msgq_init_inv|]. split; [intros H; exfalso; apply H; reflexivity|exact msgq_get_takes_writer_on_witness]. Qed.

Example lmq_inv_nonvacuous : exists q, lmq_run true (mkLmq 2 0 1 0 0 0 [0;0]%N) [LResize 5 false; LPut 1%N; LPut 2%N; LGet] = Some (fst (fifo_run (2, []) [LResize 5 false; LPut 1%N; LPut 2%N; LGet]), q) /\ LInv q /\ q_len q = 1.
Proof.
  destruct (lmq_run_refines [LResize 5 false; LPut 1%N; LPut 2%N; LGet] (mkLmq 2 0 1 0 0 0 [0;0]%N)) as (outs & q & R & HI & E).
  { exists 1. cbn. repeat split; auto. }
  exists q. vm_compute in R. inversion R; subst. repeat split; auto.
Qed.
Example msgq_inv_nonvacuous : exists q r, msgq_run true (msgq_init 2) [MTryPut 1%N; MAioGet 7%N true; MTryPut 2%N] = Some (q, r) /\ AllInv q /\ mq_len q = 1.
Proof.
  destruct (msgq_run_spec [MTryPut 1%N; MAioGet 7%N true; MTryPut 2%N] (msgq_init 2) (proj1 (msgq_init_inv 2))) as (q & r & R & HI & _).
  exists q, r. split; [exact R|]. split; [exact HI|]. vm_compute in R. inversion R; subst. reflexivity.
Qed.
