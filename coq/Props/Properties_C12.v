(* Properties_C12: statements only.  C12 -- REQ keeps retrying until answered; no
   hang when retry is disabled.  Model: Proto/ReqModel.v (req.c); time is the N
   carried by PTick; `pending s k m' = context k is on the send queue holding
   request m (its request is intact). *)
From Coq Require Import List Arith NArith Bool ZArith.
From NngV Require Import Gen.Consts Proto.Common Proto.ReqRepBacktrace Proto.ReqModel Proto.ReqProofs.
From NngV Require Import Proto.PollModel Proto.PollReq Proto.ReqProgressProofs.
From NngV Require Proto.ReqIdsProofs Proto.ReqStashProofs.
Import ListNotations.

(* PARTIAL: stated for a pipe whose `contexts' list holds exactly this context (the
   walk over several contexts awaiting replies on one pipe is covered by the
   correspondence runs only).  Retry enabled: the context last written to the lost
   pipe is back on the send queue with its request intact, or already transmitted
   again because another pipe was ready *)
Theorem req_requeue_on_pipe_loss_partial : forall fx s p k c m s' outs,
  rq_plist s = [(p, k)] -> ctx_get s k = Some c -> retry_on fx c = true -> cx_req c = Some m ->
  req_step fx s (PPipeClose p) = (s', outs) ->
  pending s' k m \/ exists q, In (TranSend q m) outs.
Proof. exact req_pipe_loss_requeues. Qed.
Print Assumptions req_requeue_on_pipe_loss_partial.

(* the retry timer fires (strictly after its deadline) with the clock at or past
   the context's retry time: queued again, or transmitted at once *)
Theorem req_resend_on_tick : forall fx s now d k c m s' outs,
  rq_closed s = false -> rq_active s = true -> rq_tickdl s = Some d -> (d < now)%N ->
  In k (rq_retryq s) -> ctx_get s k = Some c -> cx_req c = Some m -> (cx_rtime c <= now)%N ->
  req_step fx s (PTick now) = (s', outs) ->
  pending s' k m \/ exists p, In (TranSend p m) outs.
Proof. exact req_tick_resends. Qed.
Print Assumptions req_resend_on_tick.

(* non-empty send queue and a ready pipe: the head request goes to the head pipe *)
Theorem req_sent_when_pipe_ready : forall fx s k sq p rd c m,
  rq_sendq s = k :: sq -> rq_ready s = p :: rd -> ctx_get s k = Some c -> cx_req c = Some m ->
  exists s' outs cl, run_send_queue fx s = (s', outs, cl) /\ In (TranSend p m) outs.
Proof. exact req_sent_when_ready. Qed.
Print Assumptions req_sent_when_pipe_ready.

(* running the send queue never loses a queued request: still queued and intact, or transmitted *)
Theorem req_queue_never_drops : forall fx s k m s' outs cl,
  pending s k m -> run_send_queue fx s = (s', outs, cl) -> pending s' k m \/ exists p, In (TranSend p m) outs.
Proof. exact run_send_queue_pending. Qed.
Print Assumptions req_queue_never_drops.

(* req_progress as bounded progress.  The single steps of the liveness argument:
   (1) pipe loss or (2) an expired retry time put the request back on the send
   queue (theorems above), (3) a pipe that becomes ready takes the head of the
   queue in that very step, (4) a matching reply completes the posted receive in
   that very step ... *)
Theorem req_progress_steps :
  (forall fx s p k sq c m s' outs,
     rq_ready s = [] -> rq_sendq s = k :: sq -> ctx_get s k = Some c -> cx_req c = Some m ->
     req_step fx s (PPipeStart p PROTO_REP) = (s', outs) -> In (TranSend p m) outs) /\
  (forall fx s p m id b k c a,
     req_recv (pm_body m) = Some (id, b) -> matchable s id k c -> cx_recv c = Some a ->
     exists s', exists outs, req_step fx s (PRecvDone p 0 m) = (s', outs) /\ In (Complete a E_OK (Some b)) outs).
Proof. split; [exact req_pipe_start_progress|exact req_match_completes]. Qed.
Print Assumptions req_progress_steps.
(* ... and (5) the induction over the position in the send queue: a request at
   position i of the queue is transmitted after i+1 pipe-ready events, on the
   (i+1)-th of those pipes, whatever else is queued before or behind it (`run_outs'
   = the outputs of a list of steps, `starts ps' = PPipeStart p for p in ps).
   First for any state whose queued contexts hold requests, then for every
   reachable state of the repaired model (where that, and "no pipe idle while
   requests wait", are consequences of the reachable-state invariant RInv).
   Reachable here is PollModel.reachable (M_req fx), under PollReq's contract req_ok; the
   stash theorems further down use ReqIdsProofs.req_reach, which asks only op_ok. *)
Theorem req_queue_position_progress : forall fx ps s pre k post c m,
  rq_ready s = [] ->
  rq_sendq s = pre ++ k :: post ->
  (forall k', In k' (rq_sendq s) -> exists c' m', ctx_get s k' = Some c' /\ cx_req c' = Some m') ->
  ctx_get s k = Some c -> cx_req c = Some m ->
  length ps = S (length pre) ->
  exists p, In p ps /\ In (TranSend p m) (snd (run_outs fx s (starts ps))).
Proof. exact ReqProgressProofs.req_queue_position_progress. Qed.
Print Assumptions req_queue_position_progress.
Theorem req_queue_position_exact : forall fx ps s pre k post c m,
  rq_ready s = [] -> rq_sendq s = pre ++ k :: post ->
  (forall k', In k' (rq_sendq s) -> exists c' m', ctx_get s k' = Some c' /\ cx_req c' = Some m') ->
  ctx_get s k = Some c -> cx_req c = Some m ->
  length pre < length ps ->
  In (TranSend (nth (length pre) ps 0%N) m) (snd (run_outs fx s (starts ps))).
Proof. exact ReqProgressProofs.req_queue_position_exact. Qed.
Print Assumptions req_queue_position_exact.
Theorem req_queue_position_progress_reachable : forall fx ps s pre k post,
  fx_rdclr fx = true -> reachable (M_req fx) s ->
  rq_sendq s = pre ++ k :: post ->
  length ps = S (length pre) ->
  exists c m, ctx_get s k = Some c /\ cx_req c = Some m /\
    exists p, In p ps /\ In (TranSend p m) (snd (run_outs fx s (starts ps))).
Proof. exact ReqProgressProofs.req_queue_position_progress_reachable. Qed.
Print Assumptions req_queue_position_progress_reachable.
(* non-vacuity: three requests queued with no pipe; three pipes; the third request
   leaves on the third pipe *)
Example req_queue_position_nonvacuous :
  rq_ready s_queue3 = [] /\ rq_sendq s_queue3 = [0%N; 1%N] ++ 2%N :: [] /\
  reachable (M_req fx_repaired) s_queue3 /\
  In (TranSend 3%N w_wire3) (snd (run_outs fx_repaired s_queue3 (starts [1%N; 2%N; 3%N]))).
Proof.
  destruct ReqProgressProofs.req_queue_position_nonvacuous as (A & B & _ & _ & R & O).
  split; [exact A|]. split; [exact B|]. split; [exact R|]. rewrite O. cbn. tauto.
Qed.
(* PARTIAL (what is still missing of req_progress): the composition of (1)-(5)
   into one statement over whole histories (loss or tick, requeue, position
   argument, reply) under a fairness assumption on pipe arrivals. *)

(* resending disabled (PARTIAL in the same sense as above: single context on the
   pipe's list): the loss of the connection never queues the request again; it
   completes the pending receive with NNG_ECONNRESET, or marks the context so that
   the next receive reports NNG_ECONNRESET (req_state_errors, third clause) *)
Theorem req_noretry_at_most_once_and_reset_partial : forall fx s p k c s' outs,
  rq_plist s = [(p, k)] -> ctx_get s k = Some c -> retry_on fx c = false ->
  req_step fx s (PPipeClose p) = (s', outs) ->
  ~ In k (rq_sendq s') /\
  exists c', ctx_get s' k = Some c' /\ cx_req c' = None /\ cx_recv c' = None /\
    (forall a, cx_recv c = Some a -> In (Complete a E_CONNRESET None) outs) /\
    (cx_recv c = None -> cx_creset c' = true).
Proof. exact req_pipe_loss_noretry. Qed.
Print Assumptions req_noretry_at_most_once_and_reset_partial.

(* pinned req.c: with resending disabled a reply that was received and stashed is
   thrown away when its connection goes afterwards (the receive reports
   NNG_ECONNRESET); repaired: it is delivered *)
Theorem req_stashed_reply_survives_refuted :
  nth 6 (outs_of (snd (req_run fx_pinned req_init w_stash))) [] = [Complete 9%N E_CONNRESET None].
Proof. exact req_stashed_reply_survives_refuted_w. Qed.
Print Assumptions req_stashed_reply_survives_refuted.
Theorem req_stashed_reply_survives_repaired_witness :
  nth 6 (outs_of (snd (req_run fx_repaired req_init w_stash))) [] = [Complete 9%N E_OK (Some (mkPmsg [] [187%N]))].
Proof. exact req_stashed_reply_survives_repaired_w. Qed.
Print Assumptions req_stashed_reply_survives_repaired_witness.
(* ... and for every reachable state of the repaired model (fx_stash = true;
   reachability = ReqIdsProofs.req_reach, contract: a context number is not
   opened twice), whatever the resend time: a context that holds a stashed reply
   is on no pipe's list and not on the send queue (invariant stash_inv), so the
   loss of ANY connection leaves that context exactly as it was -- the reply,
   conn_reset and the posted receive -- and the next receive delivers the reply *)
Theorem req_stash_invariant : forall fx s,
  fx_stash fx = true -> ReqIdsProofs.req_reach fx s -> ReqStashProofs.stash_inv s.
Proof. exact ReqStashProofs.reach_stash. Qed.
Print Assumptions req_stash_invariant.
Theorem req_stashed_ctx_untouched_by_pipe_loss : forall fx s k c m p s' outs,
  fx_stash fx = true -> ReqIdsProofs.req_reach fx s -> ctx_get s k = Some c -> cx_rep c = Some m ->
  req_step fx s (PPipeClose p) = (s', outs) -> ctx_get s' k = Some c.
Proof. exact ReqStashProofs.req_stashed_ctx_untouched_by_pipe_loss. Qed.
Print Assumptions req_stashed_ctx_untouched_by_pipe_loss.
Theorem req_stashed_reply_delivered_after_pipe_loss : forall fx s k c m p s' outs,
  fx_stash fx = true -> ReqIdsProofs.req_reach fx s -> ctx_get s k = Some c -> cx_rep c = Some m -> cx_recv c = None ->
  req_step fx s (PPipeClose p) = (s', outs) ->
  forall co a nb, ckey co = k -> exists s'', req_step fx s' (PRecv co a nb) = (s'', [Complete a E_OK (Some m)]).
Proof. exact ReqStashProofs.req_stashed_reply_delivered_after_pipe_loss. Qed.
Print Assumptions req_stashed_reply_delivered_after_pipe_loss.
(* the pinned recv_cb really breaks the invariant (so fx_stash = true is needed) *)
Theorem req_stash_invariant_pinned_refuted :
  exists s, ReqIdsProofs.req_reach fx_pinned s /\ ~ ReqStashProofs.stash_inv s.
Proof. eexists. exact ReqStashProofs.req_stash_inv_refuted_pinned_w. Qed.
Print Assumptions req_stash_invariant_pinned_refuted.
(* the hypotheses above are met by a concrete reachable state with resending disabled *)
Example req_stashed_nonvacuous :
  fx_stash fx_repaired = true /\ ReqIdsProofs.req_reach fx_repaired ReqStashProofs.w_stashed /\
  ctx_get ReqStashProofs.w_stashed 0%N = Some ReqStashProofs.w_stashed_ctx /\
  cx_rep ReqStashProofs.w_stashed_ctx = Some (mkPmsg [] [187%N]) /\ cx_recv ReqStashProofs.w_stashed_ctx = None /\
  retry_on fx_repaired ReqStashProofs.w_stashed_ctx = false.
Proof. destruct ReqStashProofs.req_stashed_hypotheses_w as (A & B & C & D & E & F & _). repeat (split; [assumption|]). assumption. Qed.

Theorem req_retry_consts_match :
  REQ_RESEND_DEFAULT = Z.of_N C04_REQ_RESEND_DEFAULT /\ REQ_TICK_DEFAULT = Z.of_N C04_REQ_TICK_DEFAULT /\
  rq_retry req_init = REQ_RESEND_DEFAULT /\ rq_tick req_init = REQ_TICK_DEFAULT /\ E_CONNRESET = C04_NNG_ECONNRESET.
Proof. repeat split; reflexivity. Qed.
Print Assumptions req_retry_consts_match.

(* non-vacuity: a request is sent, its pipe is lost, a new pipe appears: it goes out
   again with the same id; a tick past the resend time sends it a third time *)
Example req_retry_nonvacuous :
  let ops := [PSetOpt None (OResendTime 5000); PPipeStart 1%N PROTO_REP; PSend None 0%N false w_req; PPipeClose 1%N;
              PPipeStart 2%N PROTO_REP; PSendDone 2%N 0%N; PTick 7000%N] in
  nth 2 (outs_of (snd (req_run fx_repaired req_init ops))) [] = [Arm 1000%N; Complete 0%N E_OK None; TranSend 1%N w_wire] /\
  nth 4 (outs_of (snd (req_run fx_repaired req_init ops))) [] = [TranSend 2%N w_wire; TranRecv 2%N] /\
  nth 6 (outs_of (snd (req_run fx_repaired req_init ops))) [] = [Arm 8000%N; TranSend 2%N w_wire].
Proof. vm_compute. repeat split; reflexivity. Qed.
