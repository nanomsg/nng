(* Properties_C13: statements only.  C13 -- devices route replies back correctly and hop limits
   kill loops.

   Model: Route/RouteModel.v.  nng_device (core/device.c) is the composition
       raw receive of socket A  ;  device_cb leaves the message in the aio  ;  raw send of socket B
   where the raw receive / send header transformers are the ones the protocol models of C04 / C07 /
   C08 / C09 already use (Proto/ReqRepBacktrace.v, SurveyBacktrace.v, PairModel.v, BusModel.v).
   F ranges over the two routed families reqrep_ops (REQ/REP) and survey_ops (SURVEYOR/RESPONDENT);
   every theorem about F is proved for ANY family that satisfies RouteWords.famlaws, and both do
   (routed_families_satisfy_laws).

   Environment contract (read from the sources by tools/gen_consts_d/c13_route.py, consts match below):
     pid_ok p  : pipe ids are < 2^31 (core/pipe.c allocates them in [1, 0x7fffffff]);
     id_ok id  : request / survey ids are in [0x80000000, 0xffffffff] (req.c, survey.c);
     ttl       : NNG_OPT_MAXTTL is settable only to 1 .. NNI_MAX_MAX_TTL (= 15);
     transports hand a received message to the protocol with an empty nni_msg header.

   What is NOT modelled here: the queues between the sockets and the device (best-effort drops under
   back-pressure: C06/C18), the aio machinery of device_cb (C02), close/teardown (C10).  A message
   that is lost to back-pressure is "not forwarded" -- the theorems say what happens to messages that
   ARE forwarded and bound how often that can be. *)
From Coq Require Import List Arith NArith Bool Lia.
From NngV Require Import Gen.Consts Proto.Common Route.RouteModel Route.RouteWords Route.RouteProofs Route.RoutePairBus Route.DeviceOrder.
From NngV Require Proto.ReqRepBacktrace Proto.SurveyBacktrace Proto.PairModel Proto.BusModel.
Import ListNotations.

Theorem routed_families_satisfy_laws : famlaws reqrep_ops /\ famlaws survey_ops.
Proof. split; [exact reqrep_laws|exact survey_laws]. Qed.
Print Assumptions routed_families_satisfy_laws.

(* device.c: the message a path hands to the destination socket is the very message the source
   socket delivered (header and body); over any sequence of callbacks of a path (any results, any
   d->rv seen) the messages sent are, in order, the messages received, except that the last received
   one may instead be freed when the device is shutting down (stated for the form of device_cb the
   current source has, Gen/Consts.C13_DEVICE_FREES_ATTACHED = true; the form first pinned leaked a
   message whose receive completed just before the path was aborted: device_pinned_form_leaked).
   Per direction, on ANY wire message (no well-formedness assumed): what a REQ/REP or SURVEY device
   forwards is the wire it got with exactly one word (the receiving pipe's id) put in front; what it
   forwards back is the wire it got with exactly one word taken off the front; a PAIRv1 device
   replaces the leading hop word by hop + 1; a BUS device forwards the wire unchanged. *)
Theorem device_body_unchanged :
  (forall m, device_pass m = m) /\
  (forall evs p p' o, device_run C13_DEVICE_FREES_ATTACHED p evs = (p', o) ->
     exists rest, gots o = sents o ++ rest /\ (rest = [] \/ exists m, rest = [m] /\ In m (frees o))) /\
  (forall F, famlaws F -> forall h w w', dev_request F h w = FwdSend w' -> w' = be32 (h_pid h) ++ w) /\
  (forall F, famlaws F -> forall w p w', dev_reply F w = Some (p, w') -> exists a b c d, w = [a; b; c; d] ++ w') /\
  (forall ttl w w', ttl <= 254 -> pair1_dev ttl w = FwdSend w' ->
     exists a b c d rest, w = [a; b; c; d] ++ rest /\ (PairModel.word32 a b c d <= N.of_nat ttl)%N /\
       w' = be32 (PairModel.word32 a b c d + 1) ++ rest) /\
  (forall p w, (p < W32)%N -> bus_dev p w = (p, w)).
Proof.
  split; [exact device_pass_id|]. split; [exact device_forwards|]. split; [exact dev_request_any|].
  split; [exact dev_reply_any|]. split; [exact pair1_dev_any|exact bus_dev_spec].
Qed.
Print Assumptions device_body_unchanged.

(* the tree as first pinned (device_cb freed the attached message only in the SEND state; repaired by
   f044c32): receive completes with a message, the path is aborted before the callback runs (result
   replaced by the abort's code 20 = NNG_ECANCELED) -> the message is neither sent nor freed *)
Theorem device_pinned_form_leaked : forall m,
  let o := snd (device_run false (fst device_start) [(0%N, 20%N, Some m)]) in
  gots o = [m] /\ sents o = [] /\ frees o = [].
Proof. exact device_pinned_leak. Qed.
Print Assumptions device_pinned_form_leaked.

(* device_init runs one forwarder (recv ; send ; recv ...) per direction: a single one when the far socket
   cannot receive, a single one for a reflector (s1 == s2), two otherwise (one per direction, each reading
   its own socket) -- so with the rule the current source has (C13_DEVICE_REFLECTOR_ONE_PATH) no socket is
   read by more than one forwarder.  One forwarder on a socket, under EVERY schedule of its receive
   completions and sends: what it has handed to the destination socket is an initial segment of what the
   source socket delivered, in the same order -- hence in order per source pipe / per sender (any predicate
   on messages) -- and a fair schedule forwards everything.  (Messages the sockets drop under back-pressure
   never reach / leave the forwarder: dropped, never reordered.) *)
Theorem device_keeps_order :
  (forall one rcv1 rcv2 same, device_paths one rcv1 rcv2 same =
     if negb (rcv1 && rcv2) then 1 else if same && one then 1 else 2) /\
  (forall rcv1 rcv2 same, device_readers C13_DEVICE_REFLECTOR_ONE_PATH rcv1 rcv2 same = 1) /\
  (forall input sched, exists rest, input = fs_out (fwd_run 1 input sched) ++ rest) /\
  (forall input sched (f : pmsg -> bool), exists rest, filter f input = filter f (fs_out (fwd_run 1 input sched)) ++ rest) /\
  (forall input, fs_out (fwd_run 1 input (drain (length input))) = input).
Proof.
  split; [exact device_paths_spec|]. split; [exact device_one_reader_per_socket|].
  split; [exact one_forwarder_keeps_order|]. split; [exact one_forwarder_keeps_order_per_source|exact one_forwarder_forwards_all].
Qed.
Print Assumptions device_keeps_order.

(* without the reflector rule (`|| (s1 == s2)` missing in device_init) a reflector runs two forwarders on
   its one socket, and two forwarders on one socket reorder: both receives complete (m0 to path 0, m1 to
   path 1), path 1's callback runs first -- m1 is forwarded before m0.  Replayed on the real library by the
   `order` cases of checks/c13.py against a tree with that change (seeded/C09/6). *)
Theorem device_two_forwarders_keep_order_refuted :
  device_readers false true true true = 2 /\
  forall m0 m1, fs_out (fwd_run 2 [m0; m1] [FTake 0; FTake 1; FPut 1; FPut 0]) = [m1; m0].
Proof. split; [exact device_reflector_two_readers_without_rule|exact two_forwarders_reorder]. Qed.
Print Assumptions device_two_forwarders_keep_order_refuted.

(* A requester (surveyor) sends id ++ body through devices 1..n (hops, in travel order: device i
   receives on pipe h_pid and its receiving raw socket has ttl h_ttl) to a replier (respondent) with
   ttl tr, which answers rbody.
   - The request that reaches device i carries i words.  It is forwarded by every device up to the
     first one with ttl < i (first_fail) and discarded there; the wires put on the far side of the
     devices crossed are exactly id-terminated backtraces growing by one pipe id per device
     (trace_spec), and there is no further wire: nothing is forwarded past the failing hop, nothing
     is delivered.
   - If no device fails, the replier gets it iff n + 1 <= tr; otherwise it is discarded there.
   - If delivered, the replier sees the original body, saves the backtrace [p_n .. p_1 id]; its reply
     is routed by device n to pipe p_n, ..., by device 1 to pipe p_1 -- each device popping exactly
     one word -- and what arrives on the requester's connection is id ++ rbody: the requester's socket
     finds the ORIGINAL id and the reply body (C04 / C07 then hand it to the context owning id). *)
Theorem chain_roundtrip : forall F, famlaws F -> forall hops tr id body rbody,
  Forall hop_ok hops -> tr <= RT_TTL_MAX -> id_ok id ->
  chain_req F 1 hops (orig_send id body) =
    (match first_fail 1 hops with
     | None => CArrive (flatp (rev (map h_pid hops)) ++ be32 id ++ body)
     | Some k => CDropAt k
     end,
     trace_spec [] (map h_pid (firstn (crossed 1 hops) hops)) (be32 id ++ body)) /\
  roundtrip F hops tr id body rbody =
    match first_fail 1 hops with
    | Some k => RtLostAt k (k - 1)
    | None =>
        if length hops <? tr
        then RtDone body (flatp (rev (map h_pid hops)) ++ be32 id) (rev (map h_pid hops)) id rbody
        else RtLostAtReplier (length hops)
    end /\
  (first_fail 1 hops = None <-> forall j h, nth_error hops j = Some h -> 1 + j <= h_ttl h) /\
  (forall k, first_fail 1 hops = Some k ->
     exists h, nth_error hops (k - 1) = Some h /\ h_ttl h < k /\
               forall j x, j < k - 1 -> nth_error hops j = Some x -> 1 + j <= h_ttl x).
Proof.
  intros F L hops tr id body rbody Hh Ht Hid. split; [|split; [|split]].
  - pose proof (chain_req_wf F L hops [] 1 id body Hh (Forall_nil _) Hid eq_refl) as H.
    rewrite app_nil_r in H. exact H.
  - apply roundtrip_wf; assumption.
  - apply first_fail_none.
  - apply first_fail_some.
Qed.
Print Assumptions chain_roundtrip.

(* the reply leg on its own: n devices unwind n words and choose exactly the pipes the request came in on *)
Theorem chain_reply_unwinds : forall F, famlaws F -> forall ps id rbody,
  Forall pid_ok ps -> id_ok id -> length ps <= 15 ->
  chain_rep F (length ps) (flatp ps ++ be32 id ++ rbody) = (Some (be32 id ++ rbody), ps) /\
  f_orig_recv F (be32 id ++ rbody) = Some (id, rbody).
Proof.
  intros F L ps id rbody Hp Hid Hl. split; [apply chain_rep_wf; assumption|].
  apply (law_orig F L). unfold id_ok, REQ_ID_MIN, REQ_ID_MAX, W32 in *. lia.
Qed.
Print Assumptions chain_reply_unwinds.

(* ANY topology: nodes are devices, `edges v` lists where the far side of device v is connected
   (node, pipe id there) -- an arbitrary function, so cycles, fan-out and self-loops are included;
   `live` is any list of wire messages arriving anywhere (arbitrary bytes: a raw peer may inject
   anything).  A forwarded message is assumed to reach EVERY out-edge (an over-approximation of
   REQ's "one ready pipe").  With every receiving socket's ttl <= T:
     - after T + 1 generations nothing is alive, and the number of forwards does not grow after
       generation T (so it is finite, whatever the graph);
     - along a single path at most T forwards happen.
   Unbounded in the size of the graph, the number of messages and their content; by induction. *)
Theorem ttl_kills_loops : forall F, famlaws F ->
  forall (ttl : nat -> nat) (edges : nat -> list (nat * N)) T live,
  (forall v, ttl v <= T) ->
  (forall v u p, In (u, p) (edges v) -> pid_ok p) ->
  (forall v p w, In (v, p, w) live -> pid_ok p) ->
  flood nat (fam_forward F ttl) edges (S T) live = [] /\
  (forall k, flood_forwards nat (fam_forward F ttl) edges (T + k) live = flood_forwards nat (fam_forward F ttl) edges T live).
Proof.
  intros F L ttl edges T live H1 H2 H3. split.
  - apply fam_loops_die; assumption.
  - intros k. apply fam_forwards_bounded; assumption.
Qed.
Print Assumptions ttl_kills_loops.

Theorem ttl_bounds_every_path : forall F, famlaws F -> forall hops w T i,
  Forall (fun h => pid_ok (h_pid h) /\ h_ttl h <= T) hops ->
  length (snd (chain_req F i hops w)) <= T.
Proof. intros F L hops w T i H. apply fam_walk_bounded; assumption. Qed.
Print Assumptions ttl_bounds_every_path.

(* PAIRv1 (hop count instead of a backtrace): T + 1 forwards for an arbitrary wire (a raw peer may
   start at hop 0; a cooked sender starts at 1), nothing alive after T + 2 generations *)
Theorem ttl_kills_loops_pair1 : forall (ttl : nat -> nat) (edges : nat -> list (nat * N)) T live,
  (forall v, ttl v <= T) -> T <= 254 ->
  flood nat (pair1_forward ttl) edges (S (S T)) live = [] /\
  (forall k, flood_forwards nat (pair1_forward ttl) edges (S T + k) live = flood_forwards nat (pair1_forward ttl) edges (S T) live) /\
  (forall ttls w i, Forall (fun t => t <= T) ttls -> length (snd (pair1_chain i ttls w)) <= S T).
Proof.
  intros ttl edges T live H1 H2. split; [apply pair1_loops_die; assumption|].
  split; [intros k; apply pair1_forwards_bounded; assumption|].
  intros ttls w i H. apply pair1_walk_bounded; assumption.
Qed.
Print Assumptions ttl_kills_loops_pair1.

(* BUS has no hop limit at all (bus.c has no NNG_OPT_MAXTTL and its header carries only the pipe to
   skip): the statement "forwarding loops always die out" is FALSE for raw BUS devices -- on every
   graph in which each device has somewhere to forward to (e.g. two devices in a ring) a single
   message is forwarded for ever.  What BUS does guarantee is the one-socket rule: the raw send never
   returns a message to the pipe it came from. *)
Theorem ttl_kills_loops_bus_refuted :
  (forall (edges : nat -> list (nat * N)) live, (forall v, edges v <> []) -> live <> [] ->
     forall g, flood nat bus_forward edges g live <> [] /\ g <= flood_forwards nat bus_forward edges g live) /\
  (forall p w bp, (p < W32)%N -> BusModel.bp_id bp = p ->
     BusModel.offer_kind true (fst (bus_dev p w)) bp = BusModel.OSkip).
Proof. split; [exact bus_ring_never_dies|exact bus_no_echo]. Qed.
Print Assumptions ttl_kills_loops_bus_refuted.

(* For EVERY wire message (any list, any length, any values) and every pipe id and ttl the receive
   functions are total with the three outcomes Deliver / Drop / Close (by construction: rres), and
     - a delivered message consists of exactly the bytes received (after the pipe id for the raw
       REP / RESPONDENT), split into header and body; nothing is invented or lost;
     - its header never exceeds the header capacity (and 4 + 4 * ttl bytes);
     - the raw REQ / SURVEYOR receive never drops silently: it delivers or disconnects;
     - a wire that starts with ttl or more hop words (no end mark among them) is never let in by
       REP / raw REP / RESPONDENT / raw RESPONDENT; one with 16 or more is a disconnect for raw REQ /
       raw SURVEYOR (the header is full);
     - nni_msg_header_append_u32's panic is unreachable on a message from a transport (empty header),
       and would fire exactly when the header already held 60 bytes or more;
     - the raw REP / RESPONDENT send frees a message whose header is shorter than a pipe id. *)
Theorem backtrace_total_bounded : forall F, famlaws F -> forall p ttl w,
  (match f_front_recv F p ttl w with
   | RDeliver m => wire_of m = be32 p ++ w /\ length (pm_hdr m) <= RT_HEADER_MAX /\ length (pm_hdr m) <= 4 + 4 * ttl
   | _ => True end) /\
  (match f_cooked_recv F ttl w with
   | RDeliver m => wire_of m = w /\ length (pm_hdr m) <= RT_HEADER_MAX /\ length (pm_hdr m) <= 4 * ttl
   | _ => True end) /\
  (match f_back_recv F w with
   | RDeliver m => wire_of m = w /\ length (pm_hdr m) <= RT_HEADER_MAX
   | RDrop => False
   | RClose => True end) /\
  (forall ws rest, Forall (nonend F) ws -> ttl <= length ws ->
     (forall m, f_front_recv F p ttl (flat ws ++ rest) <> RDeliver m) /\
     (forall m, f_cooked_recv F ttl (flat ws ++ rest) <> RDeliver m)) /\
  (forall ws rest, Forall (nonend F) ws -> 16 <= length ws -> f_back_recv F (flat ws ++ rest) = RClose) /\
  (forall m, length (pm_hdr m) < 4 -> f_front_send F m = None).
Proof.
  intros F L p ttl w. pose proof (fam_total_bounded F L p ttl w) as (A & B & C).
  split; [exact A|]. split; [exact B|]. split; [exact C|].
  split; [intros ws rest; apply fam_overlong_never_letin; assumption|].
  split; [intros ws rest; apply fam_back_overlong; assumption|]. apply (law_send_short F L).
Qed.
Print Assumptions backtrace_total_bounded.

Theorem header_guard_unreachable_from_transports : forall h0 p ttl w,
  xrep_recv_h [] p ttl w = Some (f_front_recv reqrep_ops p ttl w) /\
  xresp_recv_h [] p ttl w = Some (f_front_recv survey_ops p ttl w) /\
  (xrep_recv_h h0 p ttl w = None <-> RT_HEADER_MAX <= length h0 + 4) /\
  (xresp_recv_h h0 p ttl w = None <-> RT_HEADER_MAX <= length h0 + 4).
Proof.
  intros h0 p ttl w. split; [apply xrep_recv_h_transport|]. split; [apply xresp_recv_h_transport|].
  apply recv_h_panics_iff.
Qed.
Print Assumptions header_guard_unreachable_from_transports.

(* well-formed backtraces: let in iff the number of hop words is below the ttl, for every ttl 1..15 *)
Theorem backtrace_wellformed_classified : forall F, famlaws F -> forall ws wend rest p ttl,
  Forall (nonend F) ws -> isend F wend -> ttl <= RT_TTL_MAX ->
  f_front_recv F p ttl (flat ws ++ wb wend ++ rest) =
    (if length ws <? ttl then RDeliver (mkPmsg (be32 p ++ flat ws ++ wb wend) rest) else RDrop) /\
  f_cooked_recv F ttl (flat ws ++ wb wend ++ rest) =
    (if length ws <? ttl then RDeliver (mkPmsg (flat ws ++ wb wend) rest) else RDrop) /\
  (length ws < 16 -> f_back_recv F (flat ws ++ wb wend ++ rest) = RDeliver (mkPmsg (flat ws ++ wb wend) rest)).
Proof.
  intros F L ws wend rest p ttl Hw He Ht. split; [apply (law_front F L); assumption|].
  split; [apply (law_cooked F L); assumption|]. intros Hl. apply (law_back F L); assumption.
Qed.
Print Assumptions backtrace_wellformed_classified.

(* every 32-bit hop value v, every ttl: > 0xff disconnects, > ttl is discarded with the connection
   kept, otherwise let in with header v; fewer than 4 bytes disconnects; a device forwards a
   message it lets in with v + 1 and its send never fails (which would stop the device); through a
   chain of devices with ttls t_1..t_n a message that left its sender with hop h is discarded by the
   first device j with t_j < h + j - 1 and otherwise arrives with hop h + n *)
Theorem pair1_hops_all_values :
  (forall v body ttl, (v < W32)%N ->
     pair1_recv ttl (be32 v ++ body) =
       if (255 <? v)%N then RClose else if (N.of_nat ttl <? v)%N then RDrop else RDeliver (mkPmsg (be32 v) body)) /\
  (forall ttl w, length w < 4 -> pair1_recv ttl w = RClose) /\
  (forall v body ttl, (v < W32)%N -> ttl <= 254 ->
     pair1_dev ttl (be32 v ++ body) =
       if (255 <? v)%N then FwdClose else if (N.of_nat ttl <? v)%N then FwdDrop else FwdSend (be32 (v + 1) ++ body)) /\
  (forall ttl w, ttl <= 254 -> pair1_dev ttl w <> FwdStop) /\
  (forall m, pair1_send false m = Some (be32 1 ++ pm_body m)) /\
  (forall ttls h i body, Forall (fun t => t <= RT_TTL_MAX) ttls -> (h <= 255)%N ->
     fst (pair1_chain i ttls (be32 h ++ body)) =
       match pfirst_fail h i ttls with
       | None => CArrive (be32 (h + N.of_nat (length ttls)) ++ body)
       | Some k => CDropAt k
       end /\
     length (snd (pair1_chain i ttls (be32 h ++ body))) =
       match pfirst_fail h i ttls with None => length ttls | Some k => k - i end).
Proof.
  split; [exact pair1_recv_values|]. split; [exact pair1_recv_short|]. split; [exact pair1_dev_values|].
  split; [exact pair1_dev_never_stops|]. split; [exact pair1_send_cooked|exact pair1_chain_wf].
Qed.
Print Assumptions pair1_hops_all_values.

Theorem route_consts_match :
  RT_HEADER_MAX = C13_MAX_HEADER_SIZE /\ RT_HEADER_MAX = C13_HEADER_BUF_BYTES /\
  RT_HEADER_MAX = (NNI_MAX_MAX_TTL + MSG_HEADER_WORDS_EXTRA) * 4 /\
  ReqRepBacktrace.BT_HEADER_MAX = RT_HEADER_MAX /\ SurveyBacktrace.HDR_MAX = RT_HEADER_MAX /\
  RT_TTL_MAX = C13_MAX_TTL /\ RT_TTL_MAX = NNI_MAX_MAX_TTL /\
  ReqRepBacktrace.BT_TTL_MAX = RT_TTL_MAX /\ SurveyBacktrace.TTL_MAX = RT_TTL_MAX /\ PairModel.PAIR_TTL_MAX = RT_TTL_MAX /\
  RT_TTL_MIN = C13_REP_TTL_MIN /\ RT_TTL_MIN = C13_XREP_TTL_MIN /\ RT_TTL_MIN = C13_RESPOND_TTL_MIN /\
  RT_TTL_MIN = C13_XRESPOND_TTL_MIN /\ RT_TTL_MIN = C13_PAIR1_TTL_MIN /\
  PIPE_ID_MIN = C13_PIPE_ID_MIN /\ PIPE_ID_MAX = C13_PIPE_ID_MAX /\ (PIPE_ID_MAX + 1 = HI32)%N /\
  REQ_ID_MIN = C13_REQ_ID_MIN /\ REQ_ID_MAX = C13_REQ_ID_MAX /\
  REQ_ID_MIN = C13_SURVEY_ID_MIN /\ REQ_ID_MAX = C13_SURVEY_ID_MAX /\
  REQ_ID_MIN = HI32 /\ (REQ_ID_MAX + 1 = W32)%N /\
  4 + 4 * RT_TTL_MAX = RT_HEADER_MAX /\
  C13_DEVICE_FREES_ATTACHED = true /\
  C13_DEVICE_REFLECTOR_ONE_PATH = true /\
  (forall p, (PIPE_ID_MIN <= p <= PIPE_ID_MAX)%N -> pid_ok p).
Proof.
  repeat (split; [reflexivity|]). intros p H. unfold pid_ok, PIPE_ID_MIN, PIPE_ID_MAX, HI32 in *. lia.
Qed.
Print Assumptions route_consts_match.

Definition c13_hops : list hop := [mkHop 5 8; mkHop 77 2; mkHop 1000 15].
Definition c13_id : N := 2147483651.      (* 0x80000003 *)

Example c13_contract_nonvacuous :
  Forall hop_ok c13_hops /\ id_ok c13_id /\ Forall pid_ok [1000; 77; 5]%N.
Proof.
  unfold hop_ok, id_ok, pid_ok, c13_hops, c13_id, HI32, REQ_ID_MIN, REQ_ID_MAX, RT_TTL_MAX. cbn [h_pid h_ttl].
  repeat constructor; lia.
Qed.

(* three devices, all ttls large enough, replier ttl 4: delivered; the reply comes back through pipes
   1000, 77, 5 to the requester, with the original id *)
Example c13_roundtrip_delivered_nonvacuous :
  roundtrip reqrep_ops c13_hops 4 c13_id [170; 1]%N [187; 2]%N =
    RtDone [170; 1]%N
           ([0; 0; 3; 232;  0; 0; 0; 77;  0; 0; 0; 5;  128; 0; 0; 3]%N)%N
           [1000; 77; 5]%N c13_id [187; 2]%N
  /\ roundtrip survey_ops c13_hops 4 c13_id [170; 1]%N [187; 2]%N =
    RtDone [170; 1]%N
           ([0; 0; 3; 232;  0; 0; 0; 77;  0; 0; 0; 5;  128; 0; 0; 3]%N)%N
           [1000; 77; 5]%N c13_id [187; 2]%N.
Proof. split; vm_compute; reflexivity. Qed.
(* replier ttl 3 < 4 words: discarded at the replier after three forwards; second device with ttl 1:
   discarded there after one forward *)
Example c13_roundtrip_dropped_nonvacuous :
  roundtrip reqrep_ops c13_hops 3 c13_id [170; 1]%N [187; 2]%N = RtLostAtReplier 3 /\
  roundtrip survey_ops [mkHop 5 8; mkHop 77 1; mkHop 1000 15] 15 c13_id [170; 1]%N [187; 2]%N = RtLostAt 2 1 /\
  first_fail 1 [mkHop 5 8; mkHop 77 1; mkHop 1000 15] = Some 2.
Proof. repeat split; vm_compute; reflexivity. Qed.

(* a two-device cycle (0 -> 1 -> 0 ...) with ttl 3 and 2: a request injected at device 0 is forwarded
   3 times in all and then nothing is left *)
Definition c13_ring (v : nat) : list (nat * N) := match v with 0 => [(1, 9%N)] | _ => [(0, 8%N)] end.
Definition c13_ring_ttl (v : nat) : nat := match v with 0 => 3 | _ => 2 end.
Example c13_loop_nonvacuous :
  let live := [(0, 7%N, orig_send c13_id [1; 2; 3]%N)] in
  flood nat (fam_forward reqrep_ops c13_ring_ttl) c13_ring 2 live <> [] /\
  flood nat (fam_forward reqrep_ops c13_ring_ttl) c13_ring 4 live = [] /\
  flood_forwards nat (fam_forward reqrep_ops c13_ring_ttl) c13_ring 10 live = 3 /\
  flood_forwards nat (pair1_forward c13_ring_ttl) c13_ring 10 [(0, 7%N, be32 1 ++ [9]%N)] = 3 /\
  flood_forwards nat bus_forward c13_ring 10 [(0, 7%N, [9]%N)] = 10.
Proof. cbv zeta. repeat split; try (vm_compute; reflexivity). vm_compute. discriminate. Qed.

(* malformed input from a raw peer: 16 hop words and no id -> discarded (ttl 15) by the raw REP,
   disconnect by the raw REQ; three bytes -> disconnect *)
Example c13_malformed_nonvacuous :
  let long := flat_map (fun _ => [0; 0; 0; 1]%N) (seq 0 16) ++ [1; 2]%N in
  f_front_recv reqrep_ops 5 15 long = RDrop /\ f_back_recv reqrep_ops long = RClose /\
  f_front_recv survey_ops 5 15 [1; 2; 3]%N = RClose /\ f_cooked_recv reqrep_ops 15 [128; 0; 0; 1; 66]%N = RDeliver (mkPmsg [128; 0; 0; 1]%N [66]%N) /\
  pair1_recv 8 (be32 9 ++ [1]%N) = RDrop /\ pair1_recv 8 (be32 256 ++ [1]%N) = RClose /\
  pair1_dev 8 (be32 8 ++ [1]%N) = FwdSend (be32 9 ++ [1]%N).
Proof. cbv zeta. repeat split; vm_compute; reflexivity. Qed.
