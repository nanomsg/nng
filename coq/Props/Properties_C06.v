(* Properties_C06: statements only.  C06 -- PUSH/PULL: each message to at most
   one puller, none lost while connected; back-pressure. *)
From Coq Require Import List Arith NArith Bool.
From NngV Require Import Gen.Consts Proto.Common Proto.PushModel Proto.PushGuard Proto.PullModel Proto.PushProofs Proto.PullProofs Proto.PipelineProofs Proto.PushSubmit.
Import ListNotations.

(* one step of the pusher (= one critical section of push.c), under the
   environment's contract op_ok (pipes started once, completions only for sends
   in flight, an aio submitted once at a time): invariants kept and, as
   multisets, owned + accepted (+ discarded input) = owned' + taken by the
   transport of exactly that pipe + freed -- nothing duplicated, nothing lost *)
Theorem push_conservation_step : forall s o s' outs,
  PInv s -> op_ok s o -> push_step s o = (s', outs) ->
  PInv s' /\ forall x, cnt x (owned s ++ accepted s o outs ++ arrived o) = cnt x (owned s' ++ wire s o ++ freed outs).
Proof. exact push_step_law. Qed.
Print Assumptions push_conservation_step.

(* every well-formed history, from any invariant state *)
Theorem push_conservation : forall ops s, PInv s -> WInv s -> ops_ok s ops ->
  let (s', tr) := push_run s ops in
  PInv s' /\ WInv s' /\ forall x, cnt x (owned s ++ tr_accepted tr) = cnt x (owned s' ++ tr_out tr).
Proof. exact push_run_law. Qed.
Print Assumptions push_conservation.

(* messages are handed to the transports in exactly the order they were
   ACCEPTED into the buffer, for every step that is not a buffer resize.  (It says
   nothing about the order among blocked senders -- the property's "send order" is the submission-order
   law further down.) *)
Theorem push_per_pipe_fifo : forall s o s' outs,
  PInv s -> op_ok s o -> (forall c op, o <> PSetOpt c op) ->
  push_step s o = (s', outs) ->
  ps_wq s ++ accepted s o outs = txs outs ++ ps_wq s'.
Proof. exact push_order_law. Qed.
Print Assumptions push_per_pipe_fifo.

(* back-pressure: with no ready pipe and a full buffer a blocking send is queued
   (no completion, nothing transmitted, nothing dropped) ... *)
Theorem push_blocks_when_full : forall s c a m,
  can_accept s = false ->
  push_step s (PSend c a false m) = (mkPush (ps_pl s) (ps_wq s) (ps_cap s) (ps_aq s ++ [(a, m)]) (ps_sending s) (ps_writable s), []).
Proof. exact push_backpressure. Qed.
Print Assumptions push_blocks_when_full.

(* ... and a non-blocking send completes at once: with NNG_EAGAIN, no change of
   state and the message left with the caller, exactly when it cannot be
   accepted; otherwise with success *)
Theorem push_nonblocking_send : forall s c a m s' outs,
  push_step s (PSend c a true m) = (s', outs) ->
  exists rv rest, outs = Complete a rv None :: rest /\ ps_aq s' = ps_aq s /\
    (rv = E_AGAIN <-> can_accept s = false) /\ (rv = E_AGAIN -> s' = s /\ rest = []) /\
    (rv <> E_AGAIN -> rv = E_OK).
Proof. exact push_nb_immediate. Qed.
Print Assumptions push_nonblocking_send.

(* the puller: invariants, conservation (held + arrived = held' + delivered + freed),
   and delivery in arrival order for every step other than a pipe close *)
Theorem pull_conservation_step : forall s o s' outs,
  LInvP s -> pull_step s o = (s', outs) ->
  LInvP s' /\
  (forall x, cnt x (lheld s ++ arrived o) = cnt x (lheld s' ++ delivered outs ++ freed outs)) /\
  ((forall p, o <> PPipeClose p) -> (forall p m, o = PRecvDone p 0 m -> has_id p (pl_closed s) = false) ->
     lheld s ++ arrived o = delivered outs ++ lheld s').
Proof. exact pull_step_law. Qed.
Print Assumptions pull_conservation_step.

Theorem pull_conservation : forall ops s, LInvP s ->
  let (s', tr) := pull_run s ops in
  LInvP s' /\ forall x, cnt x (lheld s ++ ptr_arrived tr) = cnt x (lheld s' ++ ptr_delivered tr ++ ptr_freed tr).
Proof. exact pull_run_law. Qed.
Print Assumptions pull_conservation.

(* end to end: one pusher, any number of pullers, each behind a connection
   that stays up and loses nothing (the link law, the only hypothesis about the
   environment besides the contract op_ok): every accepted message is, as a
   multiset, delivered to exactly one pulling application, or still buffered /
   in flight / held, or was explicitly freed (buffer shrink, failed transport
   send, pipe close).  Stated with Section variables; see PipelineProofs. *)
Theorem pushpull_conservation :
  forall (push_ops : list pop) (pipes : list N) (pull_ops : N -> list pop) (inflight : N -> list pmsg),
    ops_ok push_init push_ops -> NoDup pipes ->
    (forall o s outs q rv, In (o, s, outs) (snd (push_run push_init push_ops)) -> o = PSendDone q rv -> wire s o <> [] -> In q pipes) ->
    (forall p x, In p pipes ->
       cnt x (wire_on p (snd (push_run push_init push_ops))) =
       cnt x (ptr_arrived (snd (pull_run pull_init (pull_ops p)))) + cnt x (inflight p)) ->
    forall x,
    cnt x (tr_accepted (snd (push_run push_init push_ops))) =
      sumf pipes (fun p => cnt x (ptr_delivered (snd (pull_run pull_init (pull_ops p)))))
      + cnt x (owned (fst (push_run push_init push_ops))) + sumf pipes (fun p => cnt x (inflight p))
      + sumf pipes (fun p => cnt x (lheld (fst (pull_run pull_init (pull_ops p)))))
      + cnt x (tr_freed (snd (push_run push_init push_ops)))
      + sumf pipes (fun p => cnt x (ptr_freed (snd (pull_run pull_init (pull_ops p))))).
Proof. exact pipeline_conservation. Qed.
Print Assumptions pushpull_conservation.

Theorem pushpull_init_invariants : (PInv push_init /\ WInv push_init) /\ LInvP pull_init.
Proof. split; [exact push_init_inv|exact pull_init_inv]. Qed.
Print Assumptions pushpull_init_invariants.

(* push.c as it is now: the model run against the code is PushGuard.push0_step = push_step_g fc fr, i.e.
   push_step with the closed-pipe guard (fc, fix 8475361) and the text of push0_set_send_buf_len the source has
   (fr: blocked senders move into a resized buffer -- the repair of finding push-resize-overtakes-blocked).
   Outside the successful send completion of a closed pipe it is push_step_r fr; push_step_r fr is push_step on
   everything but NNG_OPT_SENDBUF, and with fr = false on that too -- so every theorem above is about the code
   as it is, and push_repaired_resize_keeps_laws carries conservation and the descriptor mirror over to fr = true *)
Theorem push_guard_is_push_step : forall fc fr g o, stale_done g o = false -> (fr = false \/ is_resize o = false) ->
  pg_s (fst (push_step_g fc fr g o)) = fst (push_step (pg_s g) o) /\ snd (push_step_g fc fr g o) = snd (push_step (pg_s g) o).
Proof. intros fc fr g o H R. exact (proj2 (PushGuard_contract fc fr g o H R)). Qed.
Print Assumptions push_guard_is_push_step.
Theorem push_guard_is_push_step_r : forall fc fr g o, stale_done g o = false ->
  pg_s (fst (push_step_g fc fr g o)) = fst (push_step_r fr (pg_s g) o) /\ snd (push_step_g fc fr g o) = snd (push_step_r fr (pg_s g) o).
Proof. exact PushGuard_contract_r. Qed.
Print Assumptions push_guard_is_push_step_r.
Theorem push_repaired_resize_keeps_laws : forall fr s o s' outs,
  PInv s -> op_ok s o -> push_step_r fr s o = (s', outs) ->
  (PInv s' /\ forall x, cnt x (owned s ++ accepted s o outs ++ arrived o) = cnt x (owned s' ++ wire s o ++ freed outs)) /\
  (WInv s -> WInv s').
Proof. intros fr s o s' outs HI Hok H. split; [exact (push_step_r_law fr s o s' outs HI Hok H)|intros W; exact (push_r_writable_mirror fr s o s' outs HI W H)]. Qed.
Print Assumptions push_repaired_resize_keeps_laws.
(* a pipe whose pipe_close has run is never on the ready list again (so no message is handed to
   a pipe that is being destroyed), over every history in which pipe ids are not reused *)
Theorem push_closed_pipe_never_ready : forall fr ops g, CInv g -> fresh_all true fr g ops -> CInv (push_run_g true fr g ops).
Proof. exact push_closed_never_ready. Qed.
Print Assumptions push_closed_pipe_never_ready.
Theorem push_closed_pipe_ready_pinned_refuted : forall fr,
  let g := push_run_g false fr pushg_init push_stale_witness in
  fresh_all false fr pushg_init push_stale_witness /\ In 1%N (pg_closed g) /\ In 1%N (ps_pl (pg_s g)) /\
  exists g' rest, push_step_g false fr g (PSend None 2%N true (mkPmsg [] [2%N])) = (g', Complete 2%N E_OK None :: TranSend 1%N (mkPmsg [] [2%N]) :: rest).
Proof. exact push_closed_pipe_ready_refuted. Qed.
Print Assumptions push_closed_pipe_ready_pinned_refuted.
Theorem push_current_source_guarded :
  C06_PUSH_CLOSED_GUARD_FIXED = true /\ push0_step = push_step_g true C06_PUSH_RESIZE_ADMITS_FIXED.
Proof. split; reflexivity. Qed.
Print Assumptions push_current_source_guarded.

(* Send order is SUBMISSION order.
   pend s = send buffer ++ blocked senders (queue order); entered o outs = the message of a send that was not
   refused on the spot.  One step of the guarded model (any fc; fr = true, or any step that is not a
   NNG_OPT_SENDBUF call), from a state with QInv (a blocked sender => the buffer is full), under the contract
   op_ok: QInv is kept;  pend s ++ entered = handed to the transports ++ pend s'  exactly, unless the step removes
   submitted messages on purpose (sub_loss: the message of a cancelled / timed-out blocked send -- exactly that
   one --, the excess of a buffer shrink, the waiters at socket close); then the right side is an in-order
   sub-sequence of the left and the multisets differ by exactly sub_loss.
   (A buffer shrink drops the newest excess messages: nni_lmq_resize, documented and expected by push_test --
   outside the property, stated as sub_loss / freed, never silently.) *)
Theorem push_submission_order_step : forall fc fr g o g' outs,
  PInv (pg_s g) -> QInv (pg_s g) -> op_ok (pg_s g) o -> (fr = true \/ is_resize o = false) ->
  push_step_g fc fr g o = (g', outs) ->
  (QInv (pg_s g') /\
   (sub_loss (pg_s g) o = [] -> pend (pg_s g) ++ entered o outs = txs outs ++ pend (pg_s g')) /\
   sublist (txs outs ++ pend (pg_s g')) (pend (pg_s g) ++ entered o outs) /\
   (forall x, cnt x (pend (pg_s g) ++ entered o outs) = cnt x (txs outs ++ pend (pg_s g') ++ sub_loss (pg_s g) o))) /\
  PInv (pg_s g').
Proof. exact push_submission_step_g. Qed.
Print Assumptions push_submission_order_step.

(* every history: what reached the transports (all connections together, in hand-over order), then the buffer,
   then the blocked senders, is an in-order sub-sequence of the sends in the order they were submitted; with
   nothing removed on purpose the transmitted sequence is a PREFIX of the submitted one *)
Theorem push_submission_order : forall fc fr ops g,
  (fr = true \/ no_resize ops) -> PInv (pg_s g) -> QInv (pg_s g) -> ops_ok_g fc fr g ops ->
  let (g', tr) := push_run_gt fc fr g ops in
  PInv (pg_s g') /\ QInv (pg_s g') /\
  sublist (tr_tx tr ++ pend (pg_s g')) (pend (pg_s g) ++ tr_entered tr) /\
  (tr_subloss tr = [] -> tr_tx tr ++ pend (pg_s g') = pend (pg_s g) ++ tr_entered tr) /\
  (forall x, cnt x (pend (pg_s g) ++ tr_entered tr) = cnt x (tr_tx tr ++ pend (pg_s g') ++ tr_subloss tr)).
Proof. exact push_submission_order_law. Qed.
Print Assumptions push_submission_order.

(* the property's clause: what ONE connection carries is an in-order sub-sequence of the application's sends in
   submission order *)
Theorem push_per_connection_send_order : forall fc fr ops p g,
  (fr = true \/ no_resize ops) -> PInv (pg_s g) -> QInv (pg_s g) -> ops_ok_g fc fr g ops ->
  sublist (tr_tx_on p (snd (push_run_gt fc fr g ops))) (pend (pg_s g) ++ tr_entered (snd (push_run_gt fc fr g ops))).
Proof. exact push_per_pipe_submission_order. Qed.
Print Assumptions push_per_connection_send_order.

(* a cancelled / timed-out blocked send leaves with exactly its own message *)
Theorem push_cancel_removes_exactly_that_message : forall s a rv m,
  PInv s -> In (a, m) (ps_aq s) -> rv <> 0%N ->
  exists s', push_step s (PCancel a rv) = (s', [Complete a rv None]) /\
    ps_wq s' = ps_wq s /\ ps_aq s' = remove_aio a (ps_aq s) /\ sub_loss s (PCancel a rv) = [m] /\
    sublist (pend s') (pend s) /\ forall x, cnt x (pend s) = cnt x (pend s') + cnt x [m].
Proof. exact push_cancel_removes_only_that. Qed.
Print Assumptions push_cancel_removes_exactly_that_message.

(* the pinned push0_set_send_buf_len (fr = false): the law is FALSE once the buffer grows under blocked senders --
   sends 1 2 3 on one connection arrive as 3 1 2 (finding push-resize-overtakes-blocked; replayed on the
   implementation by checks/c06.py) -- and right after the resize senders are blocked although there is room *)
Theorem push_submission_order_pinned_resize_refuted : forall fc,
  ops_ok_g fc false pushg_init resize_witness /\
  let (g, tr) := push_run_gt fc false pushg_init resize_witness in
  tr_entered tr = [m_ 1; m_ 2; m_ 3] /\ tr_tx tr = [m_ 3; m_ 1; m_ 2] /\ tr_tx_on 1%N tr = tr_tx tr /\
  tr_subloss tr = [] /\ pend (pg_s g) = [] /\
  ~ sublist (tr_tx_on 1%N tr) (pend push_init ++ tr_entered tr).
Proof. exact push_submission_order_refuted_pinned. Qed.
Print Assumptions push_submission_order_pinned_resize_refuted.
Theorem push_blocked_sender_with_room_pinned_refuted : forall fc,
  let s := pg_s (fst (push_run_gt fc false pushg_init (firstn 3 resize_witness))) in
  ps_aq s <> [] /\ wq_full s = false /\ ps_writable s = true.
Proof. exact push_blocked_sender_not_full_refuted_pinned. Qed.
Print Assumptions push_blocked_sender_with_room_pinned_refuted.
Theorem push_submission_order_repaired_on_witness : forall fc,
  ops_ok_g fc true pushg_init resize_witness /\
  let (g, tr) := push_run_gt fc true pushg_init resize_witness in
  tr_tx tr = [m_ 1; m_ 2; m_ 3] /\ tr_entered tr = tr_tx tr /\ tr_subloss tr = [].
Proof. exact push_submission_order_on_resize_witness. Qed.
Print Assumptions push_submission_order_repaired_on_witness.

(* a pipe the protocol refuses at start (the peer is not a PULL socket) takes nothing: no receive armed, no
   message handed over, no completion, state untouched -- a message is never lost to a connection that was
   never valid *)
Theorem push_rejected_pipe_takes_nothing : forall fc fr g p peer,
  peer <> PROTO_PULL -> push_step_g fc fr g (PPipeStart p peer) = (g, [Reject E_PROTO]).
Proof. exact PushSubmit.push_rejected_pipe_takes_nothing. Qed.
Print Assumptions push_rejected_pipe_takes_nothing.
(* the numbers and the shape of push.c these statements rest on, read from the source on every run *)
Theorem push_source_shape :
  PROTO_PULL = C06_PUSH_PEER /\ PROTO_PUSH = C06_PUSH_SELF /\ C06_PUSH_BUF_MAX = 8192%N /\
  C06_PUSH_START_CHECKS_PEER_FIRST = true /\ C06_PUSH_WAITERS_FIFO = true.
Proof. exact push_consts_match. Qed.
Print Assumptions push_source_shape.

(* non-vacuity of the order laws: four senders blocked at once (SENDBUF 1) drained by one puller; a cancel in the
   middle of the queue; buffered + blocked messages surviving two wrong-protocol peers *)
Example push_submission_order_nonvacuous : forall fc fr,
  ops_ok_g fc fr pushg_init blocked_witness /\
  let (g, tr) := push_run_gt fc fr pushg_init blocked_witness in
  tr_entered tr = [m_ 1; m_ 2; m_ 3; m_ 4] /\ tr_tx tr = [m_ 1; m_ 2; m_ 3; m_ 4] /\ tr_tx_on 1%N tr = tr_tx tr /\
  tr_subloss tr = [] /\ pend (pg_s g) = [].
Proof. exact push_submission_order_on_blocked_witness. Qed.
Example push_cancel_nonvacuous : forall fc fr,
  ops_ok_g fc fr pushg_init cancel_witness /\
  let (g, tr) := push_run_gt fc fr pushg_init cancel_witness in
  tr_entered tr = [m_ 1; m_ 2; m_ 3; m_ 4] /\ tr_tx tr = [m_ 1; m_ 2; m_ 4] /\ tr_subloss tr = [m_ 3] /\ pend (pg_s g) = [].
Proof. exact push_submission_order_on_cancel_witness. Qed.
Example push_rejected_pipe_nonvacuous : forall fc fr,
  ops_ok_g fc fr pushg_init reject_witness /\
  let (g, tr) := push_run_gt fc fr pushg_init reject_witness in
  tr_tx_on 1%N tr = [] /\ tr_tx_on 2%N tr = [] /\ tr_tx_on 3%N tr = [m_ 1; m_ 2; m_ 3] /\ tr_entered tr = [m_ 1; m_ 2; m_ 3].
Proof. exact push_rejected_pipe_witness. Qed.
Example push_qinv_init : PInv (pg_s pushg_init) /\ QInv (pg_s pushg_init).
Proof. split; [exact (proj1 push_init_inv)|exact push_init_qinv]. Qed.

(* non-vacuity: a concrete well-formed history moves a message end to end *)
Example push_history_nonvacuous :
  ops_ok push_init [PSetOpt None (OSendBuf 2); PSend None 1%N true (mkPmsg [] [7%N]); PPipeStart 5%N PROTO_PULL; PSendDone 5%N 0%N] /\
  tr_out (snd (push_run push_init [PSetOpt None (OSendBuf 2); PSend None 1%N true (mkPmsg [] [7%N]); PPipeStart 5%N PROTO_PULL; PSendDone 5%N 0%N])) = [mkPmsg [] [7%N]].
Proof. split; [cbn; repeat split; auto; tauto|vm_compute; reflexivity]. Qed.
