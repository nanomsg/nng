(* Properties_C11: statements only.  C11 -- hostile or broken peers cannot
   crash, wedge or bypass size limits.

   The receive paths are TOTAL Gallina functions over ARBITRARY byte streams:
   the stream transports' receiver as coded (SpFrameModel.rx_feed) and its staged
   form (sp_feed), the negotiation (the nego_rx functions), the composed connection
   (SpConnModel.conn_feed), the protocols' header checks (proto_check over
   Proto/ReqRepBacktrace.v, SurveyBacktrace.v, PairModel.rx_decode), the UDP
   datagram classifier (udp_classify), the endpoint bookkeeping (ep_step), and
   C16's WebSocket / HTTP decoders.  What is proved is the logic of these
   decoders; that the C neither crashes nor corrupts memory outside them is
   observed (ASan/UBSan runs of checks/c11.py), not proved: C11 is PARTIAL. *)
From Coq Require Import List NArith Lia.
From NngV Require Import Gen.Consts Base.Bytes Codec.Staged
  Codec.SpFrameModel Codec.SpFrameProofs Codec.SpHeaderProofs
  Codec.SpConnModel Codec.SpConnProofs Codec.SpLedgerModel Codec.SpLedgerProofs
  Proto.Common Proto.ReqRepBacktrace Codec.WsMsgModel Codec.WsProofs Codec.HttpLineModel Codec.HttpProofs.
Import ListNotations.
Local Open Scope N_scope.

(* rx_total.  Every byte stream, cut into pieces in any way, from any reachable state of
   the receiver as coded (R cfg c d: in particular the initial one): the run is
   defined (Gallina totality = termination; the fuel of rx_feed is proved
   sufficient by the refinement; no array / buffer access out of range), it ends
   either closed (rx_posted = false) or waiting for a positive number of bytes
   (rx_outcome_ok), every event is an allocation request, a delivery or an error,
   and every allocation request -- made BEFORE anything of the body is read --
   and every delivery is within NNI_MAX_STREAM_MSGSZ and within a non-zero
   RECVMAXSZ ([ev_ok]). *)
Theorem rx_total : forall cfg ps c d, R cfg c d -> phase_ok cfg (d_inner d) ->
  exists c' ev, rx_feed_all cfg c ps = Some (c', ev) /\ Forall (ev_ok cfg) ev /\ rx_outcome_ok c' /\
                exists d', R cfg c' d' /\ phase_ok cfg (d_inner d').
Proof. exact rx_total_all. Qed.
Print Assumptions rx_total.

Theorem rx_total_from_start : forall cfg ps st0, rx_init (r_kind cfg) = Some st0 ->
  exists c' ev, rx_feed_all cfg st0 ps = Some (c', ev) /\ Forall (ev_ok cfg) ev /\ rx_outcome_ok c'.
Proof.
  intros cfg ps st0 HI.
  destruct (rx_total_all cfg ps st0 sp_dinit (rx_init_related cfg st0 HI) I) as (c' & ev & H1 & H2 & H3 & _). eauto.
Qed.
Print Assumptions rx_total_from_start.

(* truncation at any point (EOF, reset, timeout): the message being filled is
   discarded, the user aio fails, nothing partial is delivered, nothing is read
   any more *)
Theorem rx_truncation_closes : forall st rv, rx_posted st = true ->
  rx_fail st rv = (mkRx (rx_head st) None (rx_aio st) false, [RError rv]).
Proof. intros st rv H. unfold rx_fail. rewrite H. reflexivity. Qed.
Print Assumptions rx_truncation_closes.

(* the limits hold of the staged decoder on every stream (and, through
   rx_refines_staged, of the receiver as coded) *)
Theorem rx_limits_every_stream : forall cfg d x, phase_ok cfg (d_inner d) ->
  phase_ok cfg (d_inner (fst (sp_feed cfg d x))) /\ Forall (ev_ok cfg) (snd (sp_feed cfg d x)).
Proof. exact feed_events_ok. Qed.
Print Assumptions rx_limits_every_stream.

(* a length field above a non-zero RECVMAXSZ (or invalid: > NNI_MAX_STREAM_MSGSZ)
   closes the connection with NNG_EMSGSIZE before any allocation; nothing of it
   and nothing after it is delivered *)
Theorem rcvmax_never_delivered : forall cfg len rest,
  len < 2 ^ 64 -> msg_size_valid len = false \/ (0 < r_rcvmax cfg /\ r_rcvmax cfg < len) ->
  sp_feed cfg sp_dinit (tx_head (r_kind cfg) len ++ rest) = (mkD PDead [], [RError NNG_EMSGSIZE]) /\
  forall more, sp_feed cfg (mkD PDead []) more = (mkD PDead [], []).
Proof.
  intros cfg len rest H1 H2. split; [apply oversize_closes; assumption|]. intros more. apply feed_dead.
Qed.
Print Assumptions rcvmax_never_delivered.

(* and no delivery at all exceeds a non-zero RECVMAXSZ, on any stream *)
Theorem rcvmax_bounds_every_delivery : forall cfg x m, 0 < r_rcvmax cfg ->
  In (RDeliver m) (snd (sp_feed cfg sp_dinit x)) -> N.of_nat (length m) <= r_rcvmax cfg.
Proof.
  intros cfg x m HP HIn. destruct (feed_events_ok cfg sp_dinit x I) as [_ HF].
  pose proof (proj1 (Forall_forall _ _) HF _ HIn) as H. cbn in H. destruct H as [_ H]. auto.
Qed.
Print Assumptions rcvmax_bounds_every_delivery.

(* whatever 8 bytes come first, however they are cut, whatever follows: unless
   they are exactly 00 'S' 'P' 00 <the protocol pipe_start insists on> 00 00 the
   connection is closed with NNG_EPROTO and nothing is delivered *)
Theorem negotiation_rejects_all_but_expected : forall cfg ps, let s := concat ps in
  (8 <= length s)%nat -> bytes_ok (firstn 8 s) -> cc_expect cfg < 65536 ->
  firstn 8 s <> sp_header (cc_expect cfg) ->
  conn_feed_all cfg (conn_init cfg) ps = Some (CClosed, [CClose NNG_EPROTO]).
Proof. exact conn_rejects_bad_header. Qed.
Print Assumptions negotiation_rejects_all_but_expected.

Theorem negotiation_short_then_gone : forall cfg ps rv, (length (concat ps) < 8)%nat ->
  exists ng', conn_feed_all cfg (conn_init cfg) ps = Some (CNego ng', []) /\
              conn_eof (CNego ng') rv = (CClosed, [CClose rv]).
Proof. exact conn_short_header. Qed.
Print Assumptions negotiation_short_then_gone.

(* the composed connection is total on every stream and a closed connection
   stays closed and silent *)
Theorem conn_total_every_stream : forall cfg ps,
  exists st' ev, conn_feed_all cfg (conn_init cfg) ps = Some (st', ev).
Proof.
  intros cfg ps. destruct (conn_total cfg ps (conn_init cfg) (conn_init_inv cfg)) as (st' & ev & H & _). eauto.
Qed.
Print Assumptions conn_total_every_stream.

Theorem conn_no_delivery_after_close : forall cfg ps, conn_feed_all cfg CClosed ps = Some (CClosed, []).
Proof. exact conn_closed_absorbs. Qed.
Print Assumptions conn_no_delivery_after_close.

Theorem malformed_header_never_delivered :
  (* REP / raw REP: only a backtrace (hops without, request id with the high bit) within TTL and header size *)
  (forall ttl pipe wire h b,
     (proto_check (PrRep ttl) pipe wire = AppDeliver h b ->
        backtrace h /\ wire = h ++ b /\ (length h <= 4 * ttl)%nat /\ (length h <= BT_HEADER_MAX)%nat) /\
     (proto_check (PrXRep ttl) pipe wire = AppDeliver h b ->
        exists w, backtrace w /\ h = ReqRepBacktrace.be32 pipe ++ w /\ wire = w ++ b /\ (length w <= 4 * ttl)%nat /\
                  (length h <= BT_HEADER_MAX)%nat)) /\
  (* every protocol with a header: fewer than 4 bytes => the connection is closed, nothing delivered *)
  (forall p pipe wire, (length wire < 4)%nat -> p <> PrPlain -> (0 < proto_ttl p)%nat ->
     proto_check p pipe wire = PipeClose) /\
  (* PAIRv1: the hop count is a byte within the TTL *)
  (forall raw ttl pipe wire h b, proto_check (PrPair1 raw ttl) pipe wire = AppDeliver h b ->
     exists v, v <= 255 /\ v <= N.of_nat ttl /\ h = PairModel.be32 v /\ (length wire = 4 + length b)%nat).
Proof. split; [exact rep_delivers_only_backtraces|]. split; [exact short_header_closes|exact pair1_hop_rules]. Qed.
Print Assumptions malformed_header_never_delivered.
(* _partial in this respect: for the SURVEY family (surveyor, respondent and
   their raw forms) only the "too short => close" clause is stated here; the
   shape of what their hop loop delivers is Properties_C07 / C13's business. *)

Theorem udp_classifier_total_and_bounded :
  (forall ep dgram payload, udp_classify ep dgram = UData payload ->
     exists p hdr rest, ue_pipe ep = Some p /\ dgram = hdr ++ rest /\ length hdr = UDP_HDR /\
       N.of_nat (length payload) <= up_rcvmax p /\ (length payload <= length rest)%nat /\
       payload = firstn (length payload) rest /\ nth 0 hdr 0 = 1 /\ nth 1 hdr 0 = OPCODE_DATA) /\
  (forall ep dgram, ((length dgram < UDP_HDR)%nat -> udp_classify ep dgram = UIgnore) /\
                    (nth 0 dgram 0 <> 1 -> udp_classify ep dgram = UIgnore)) /\
  (forall ep ver op t0 t1 p0 p1 q0 q1 rest, ver = 1 -> 4 <= op ->
     udp_classify ep (ver :: op :: t0 :: t1 :: p0 :: p1 :: q0 :: q1 :: rest) = UDisc DISC_PROTO).
Proof. split; [exact udp_data_bounded|]. split; [exact udp_ignores_garbage|exact udp_unknown_opcode]. Qed.
Print Assumptions udp_classifier_total_and_bounded.

(* As far as the models carry it:
   (1) a connection's receive path is a function of that connection's bytes
       and configuration alone (conn_feed has no other argument): nothing a
       peer sends can change the state of another connection's decoder;
   (2) at the endpoint, a failed negotiation of pipe p closes p only, leaves
       every other negotiating / waiting pipe where it was, and completes at
       most the one pending accept (with the error); the core then posts the
       next accept, and an accept posted while negotiated pipes wait completes
       at once with the longest-waiting one; a pipe is only ever accepted after
       its own negotiation succeeded.
   NOT modelled (observed by checks/c11.py only): the listener's 100 ms pause
   after an accept failed with NNG_EPROTO / NNG_ECONNSHUT, the protocols'
   per-pipe state after a close (C04..C09), socket-level resources. *)
Theorem only_offender_dropped_partial :
  (forall s p rv, let '(s', o) := ep_step s (EpNegoFail p rv) in
     e_wait s' = e_wait s /\ e_nego s' = remove_id p (e_nego s) /\ e_closed s' = e_closed s /\
     (forall q, In (EpPipeClosed q) o -> q = p) /\ (forall q, ~ In (EpAccepted q) o) /\
     (length (filter (fun x => match x with EpAcceptFail _ => true | _ => false end) o) <= 1)%nat /\
     (forall q, q <> p -> In q (e_nego s) -> In q (e_nego s'))) /\
  (forall ops, EpInv (fst (ep_run ep_init ops))) /\
  (forall s p r, e_closed s = false -> e_user s = false -> e_wait s = p :: r ->
     ep_step s EpAccept = (mkEp false (e_nego s) r false, [EpAccepted p])) /\
  (forall ops p, In (EpAccepted p) (snd (ep_run ep_init ops)) -> In (EpNegoOk p) ops).
Proof.
  split; [exact nego_fail_only_offender|]. split; [intros ops; apply ep_inv_run; exact ep_init_inv|].
  split; [exact accept_takes_first_waiting|exact ep_accepts_only_negotiated].
Qed.
Print Assumptions only_offender_dropped_partial.

(* The ledger of one connection (descriptor, the transport's pipe reference,
   list membership, the message being filled) under the release actions the
   source has (C11_NEGO_ERR_RELEASES, tied below): on EVERY byte stream, every
   cutting, a connection that has reached the dropped state holds nothing, a
   live one holds exactly [held], and its going away at any point (EOF, reset,
   negotiation timeout) empties the ledger.  Correspondence: the flood family
   of checks/c11.py (descriptor count back at the baseline, listener still
   accepting under a lowered RLIMIT_NOFILE). *)
Theorem dropped_connection_ledger_empty : forall cfg ps,
  exists st l, lconn_feed_all cfg good (linit cfg) ps = Some (st, l) /\
    (st = CClosed -> l = []) /\ l = held st /\ snd (lconn_eof good (st, l)) = [].
Proof. exact dropped_means_empty. Qed.
Print Assumptions dropped_connection_ledger_empty.

(* without the nni_pipe_rele of the negotiation error path every refused
   handshake keeps its descriptor and its pipe *)
Theorem nego_error_path_without_rele_refuted :
  let cfg := mkCC (mkRxCfg KTcp 0 1000) 80 81 PrPlain 1 in
  lconn_feed_all cfg (mkLF false) (linit cfg) [[78; 79; 84; 45; 83; 80; 33; 33]] = Some (CClosed, [RFd; RPipeRef]) /\
  lconn_feed_all cfg good (linit cfg) [[78; 79; 84; 45; 83; 80; 33; 33]] = Some (CClosed, []) /\
  snd (lconn_eof (mkLF false) (linit cfg)) = [RFd; RPipeRef].
Proof. exact nego_leak_without_rele. Qed.
Print Assumptions nego_error_path_without_rele_refuted.

(* the WebSocket frame decoder and the HTTP head parser are total functions of
   the byte stream, independent of its segmentation; after the first rule
   violation nothing is delivered any more *)
Theorem ws_http_total :
  (forall cfg rest p d, ws_feed_all cfg d (p :: rest) = ws_feed cfg d (concat (p :: rest))) /\
  (forall cfg pieces d, w_stage (d_inner d) = SHalt -> snd (ws_feed_all cfg d pieces) = []) /\
  (forall keep strict isreq rest p st,
     http_feed_all keep strict isreq st (p :: rest) = http_feed keep strict isreq st (concat (p :: rest))).
Proof.
  split; [intros cfg; exact (feed_all_concat ws_state ws_event ws_want (ws_cb cfg))|].
  split; [exact ws_no_delivery_after_halt|exact http_feed_all_concat].
Qed.
Print Assumptions ws_http_total.

Theorem c11_consts_match :
  (OPCODE_DATA, OPCODE_CREQ, OPCODE_CACK, OPCODE_DISC, OPCODE_MESH) =
    (C11_UDP_OPCODE_DATA, C11_UDP_OPCODE_CREQ, C11_UDP_OPCODE_CACK, C11_UDP_OPCODE_DISC, C11_UDP_OPCODE_MESH) /\
  (DISC_TYPE, DISC_REFUSED, DISC_MSGSIZE, DISC_NEGO, DISC_PROTO, DISC_NOBUF) =
    (C11_UDP_DISC_TYPE, C11_UDP_DISC_REFUSED, C11_UDP_DISC_MSGSIZE, C11_UDP_DISC_NEGO, C11_UDP_DISC_PROTO, C11_UDP_DISC_NOBUF) /\
  N.of_nat UDP_HDR = C11_UDP_HDR_LEN /\ C11_UDP_DATA_CHECKS = true /\
  C01_RX_CHECKS_BEFORE_ALLOC = true /\ C01_IPC_TYPE_CHECK = true /\ C11_NEGO_ERR_RELEASES = true /\
  MAX_STREAM_MSGSZ = C01_MAX_STREAM_MSGSZ /\ sp_header 0 = C01_NEGO_HEADER /\
  (NNG_EPROTO, NNG_EMSGSIZE, NNG_ECONNSHUT) = (C01_NNG_EPROTO, C01_NNG_EMSGSIZE, C01_NNG_ECONNSHUT).
Proof. repeat split; reflexivity. Qed.
Print Assumptions c11_consts_match.

Example oversize_nonvacuous :
  let cfg := mkRxCfg KTcp 100 1000 in
  snd (sp_feed cfg sp_dinit (tx_head KTcp 101 ++ [1; 2; 3])) = [RError NNG_EMSGSIZE] /\
  snd (sp_feed cfg sp_dinit (tx_head KTcp 3 ++ [1; 2; 3])) = [RAlloc 3; RDeliver [1; 2; 3]].
Proof. split; vm_compute; reflexivity. Qed.

Example bad_header_nonvacuous :
  let cfg := mkCC (mkRxCfg KTcp 0 1000) 16 16 PrPlain 1 in
  conn_feed_all cfg (conn_init cfg) [[0; 83; 80]; [0; 0; 17; 0; 0; 0; 0]] = Some (CClosed, [CClose NNG_EPROTO]) /\
  option_map snd (conn_feed_all cfg (conn_init cfg) [[0; 83; 80]; [0; 0; 16; 0; 0; 0; 0]; [0; 0; 0; 0; 0; 1; 7]]) =
    Some [CDeliver [] [7]].
Proof. split; vm_compute; reflexivity. Qed.

Example udp_nonvacuous :
  udp_classify (mkUE false false (Some (mkUP 16 100 false)) false) [1; 0; 16; 0; 2; 0; 0; 0; 65; 66; 67] = UData [65; 66] /\
  udp_classify (mkUE false false (Some (mkUP 16 1 false)) false) [1; 0; 16; 0; 2; 0; 0; 0; 65; 66; 67] = UDisc DISC_MSGSIZE /\
  udp_classify (mkUE false false (Some (mkUP 16 100 false)) false) [1; 0; 16; 0; 9; 0; 0; 0; 65; 66; 67] = UDisc DISC_MSGSIZE.
Proof. repeat split; vm_compute; reflexivity. Qed.
