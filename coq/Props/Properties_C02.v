(* Properties_C02: statements only.  C02 -- every asynchronous operation completes
   exactly once.  The object is the interleaving semantics of one nni_aio
   (Core/AioModel.v): a run [arun aio_init ls] is any sequence of critical
   sections of aio.c / taskq.c / the provider, by any number of threads, in any
   order the locks allow; continuations a thread has not yet executed may be
   overtaken by any other step.  Every theorem quantifies over all runs, and
   (except where said) over both forms of the expire loop ([fixed] = false: the
   pinned tree; true: the repaired one). *)
From Coq Require Import List Arith NArith ZArith Bool.
From NngV Require Import Gen.Consts Core.AioModel Core.AioProofs Core.AioFw Core.ExpireScan Core.AioDeadline Core.AioDeadlineProofs.
From NngV Require Import Core.ProvContract Core.ProvContractLink.
Import ListNotations.

(* exactly once: in every reachable state each submitted operation has exactly one
   completion token -- with the provider, being finished, being dispatched,
   queued, or already run as a callback; never more callbacks than submissions;
   at most one completion in flight; the task's busy count is exact *)
Theorem aio_at_most_once : forall fixed fdone ls s, arun fixed fdone aio_init ls = Some s ->
  g_subs s = g_cbs s + t_queued s + tokens s /\ g_cbs s <= g_subs s /\ tokens s + t_queued s <= 1 /\
  t_busy s = (if t_prep s then 1 else 0) + t_queued s + t_running s.
Proof. exact aio_exactly_once. Qed.
Print Assumptions aio_at_most_once.

(* once nni_aio_stop has returned, every operation submitted before has had its
   callback, and no callback of such an operation starts afterwards *)
Theorem aio_stop_quiesces : forall fixed fdone ls s, arun fixed fdone aio_init ls = Some s ->
  g_cb_after_stop s = false /\ (g_stop_returned s = true -> g_subs_at_stop s <= g_cbs s).
Proof. exact AioProofs.aio_stop_quiesces. Qed.
Print Assumptions aio_stop_quiesces.

(* the state in which nni_aio_stop returns: nothing queued, running or in flight *)
Theorem aio_stop_returns_idle : forall fixed fdone s k rest s',
  Inv1 s -> nth_error (threads s) k = Some (PStopWait :: rest) -> astep fixed fdone s (LRun k) = Some s' ->
  t_queued s' = 0 /\ t_running s' = 0 /\ tokens s' = 0 /\ g_cbs s' = g_subs s' /\ a_stop s' = a_stop s.
Proof. exact aio_stop_return_state. Qed.
Print Assumptions aio_stop_returns_idle.

(* result consistency, the part that holds: in runs where no abort arrives between
   the completion of an operation and its callback ("late" abort), every callback
   reads the result of the completion that won *)
Theorem aio_result_consistent_partial : forall fixed fdone ls s s',
  Inv1 s -> Inv2 s -> InvR s -> arun_nl fixed fdone s ls -> arun fixed fdone s ls = Some s' -> g_bad_result s' = false.
Proof. exact AioProofs.aio_result_consistent_partial. Qed.
Print Assumptions aio_result_consistent_partial.

(* in full, for the source as it is now (the form of nni_aio_abort is read from aio.c on every
   run; fix e9a11c8): in EVERY run every callback reads the result of the completion that won *)
Theorem aio_result_consistent : forall fixed ls s,
  arun fixed C02_ABORT_DONE_FIXED aio_init ls = Some s -> g_bad_result s = false.
Proof.
  intros fixed ls s H.
  exact (aio_result_consistent_holds fixed ls aio_init s inv1_init inv2_init invR_init invD_init H).
Qed.
Print Assumptions aio_result_consistent.

(* ... and the pinned nni_aio_abort (before fix e9a11c8), for which it did not hold: an abort that arrives
   after an operation has completed with success, before its callback has run,
   makes the callback read the abort's code (the known finding aio-late-abort-result) *)
Theorem aio_result_refuted : forall fixed, exists s, arun fixed false aio_init late_abort_run = Some s /\ g_bad_result s = true.
Proof. exact AioProofs.aio_result_refuted. Qed.
Print Assumptions aio_result_refuted.

(* when nni_aio_stop / nni_aio_fini has returned the expire thread holds no reference to the
   aio (not marked, no continuation of the expire loop pending, off the expire list for good):
   the memory may be released *)
Theorem aio_stop_no_expire_reference : forall fixed fdone ls s,
  arun fixed fdone aio_init ls = Some s -> g_stop_returned s = true ->
  a_expiring s = false /\ exp_threads (threads s) = 0 /\ a_on_eq s = false.
Proof. intros fixed fdone ls s H. exact (proj2 (AioProofs.aio_stop_no_expire_reference fixed fdone ls aio_init s invE_init H)). Qed.
Print Assumptions aio_stop_no_expire_reference.

(* the expire loop's scan over the whole queue (Core/ExpireScan.v: batch limit and eq_next):
   no due operation is forgotten - a due entry that does not fit into the batch keeps the loop
   awake, and within ceil(n / batch) rounds every due entry has been taken, in queue order,
   and nothing that is not due *)
Theorem expire_scan_due_left_keeps_awake : forall now room l b rest nx,
  scan now room l None = (b, rest, nx) -> forall x, In x rest -> due now x = true -> sleeps now nx = false.
Proof. exact scan_due_left_keeps_awake. Qed.
Print Assumptions expire_scan_due_left_keeps_awake.
Theorem expire_rounds_mark_all_due : forall now batch, 0 < batch -> forall fuel l bs fin,
  length l < fuel * batch -> rounds fuel now batch l = (bs, fin) ->
  (forall x, In x fin -> due now x = false) /\
  (forall x, In x l <-> In x (concat bs) \/ In x fin) /\
  (forall x, In x (concat bs) -> due now x = true).
Proof. exact rounds_mark_all_due. Qed.
Print Assumptions expire_rounds_mark_all_due.
Theorem expire_batch_matches_source : NNI_EXPIRE_BATCH_MODEL = C02_NNI_EXPIRE_BATCH.
Proof. reflexivity. Qed.
Print Assumptions expire_batch_matches_source.
(* a check of the code's shape, regenerated on every run: the scan loop of the source still has
   the two-branch form that [scan] models (due and room: into the batch; else: lower eq_next) *)
Theorem expire_scan_shape_current : C02_EXPIRE_SCAN_SHAPE = true.
Proof. reflexivity. Qed.
Print Assumptions expire_scan_shape_current.

(* progress: every step of the library's own threads strictly decreases a measure, so
   from any state the completion machinery reaches quiescence within mu steps
   once the environment stops issuing new operations *)
Theorem aio_bounded_to_completion : forall fixed fdone s l s', internal l -> astep fixed fdone s l = Some s' -> mu s' < mu s.
Proof. exact aio_internal_decreases. Qed.
Print Assumptions aio_bounded_to_completion.

(* the expire loop's scan marks only operations whose deadline has passed ... *)
Theorem aio_scan_marks_only_due : forall fixed fdone s now s',
  astep fixed fdone s (LExpire now) = Some s' -> exists e, a_expire s = Some e /\ (e < now)%N.
Proof.
  intros fixed fdone s now s' H. cbn [astep] in H. destruct (a_on_eq s && negb (a_expiring s)); [|discriminate].
  destruct (a_expire s) as [e|]; cbn in H; [|discriminate].
  destruct (e <? now)%N eqn:E; cbn in H; [|discriminate]. exists e. split; auto. now apply N.ltb_lt.
Qed.
Print Assumptions aio_scan_marks_only_due.

(* ... and, in the source as it is now (the form of the loop is read from aio.c on every
   run), the expire loop never DECIDES to time out an operation whose deadline has not passed
   ([g_early] is set at the moment the loop, holding the lock, picks the result for a batch
   entry).  Partial: the property also needs the decision to reach the operation it was made
   for - see aio_timeout_stale_cancel_refuted below. *)
Theorem aio_timeout_never_early_partial : forall fdone ls s s',
  g_early s = false -> arun C02_EXPIRE_RECHECK_FIXED fdone s ls = Some s' -> g_early s' = false.
Proof. exact aio_timeout_not_early_holds. Qed.
Print Assumptions aio_timeout_never_early_partial.

(* the full statement - no operation completes with a timeout before its own deadline - is
   false of the faithful model, in both forms of the loop: the loop drops its lock before it
   calls the cancel function it took from operation 1; operation 1 completes by another cause,
   its callback runs, operation 2 (deadline 1000) starts on the same aio, and the pending call
   cancels operation 2 with A_TIMEDOUT while no clock reading exceeded 10.  On the real code:
   known finding expire-stale-cancel-early-timeout (checks/c02_opkinds.py reproduces it). *)
Theorem aio_timeout_stale_cancel_refuted : forall fixed fdone, exists s1 s2,
  arun fixed fdone aio_init (firstn 9 stale_cancel_run) = Some s1 /\
  a_expire s1 = Some 1000%N /\ p_owns s1 = true /\ g_subs s1 = 2 /\ g_cbs s1 = 1 /\
  arun fixed fdone s1 (skipn 9 stale_cancel_run) = Some s2 /\
  g_cbs s2 = 2 /\ a_result s2 = A_TIMEDOUT /\ g_early s2 = false /\ g_bad_result s2 = false.
Proof. exact stale_cancel_delivers_early. Qed.
Print Assumptions aio_timeout_stale_cancel_refuted.

(* the pinned tree did deliver one (repaired by a fix: commit): operation 1 is marked by the
   scan; while the loop has its lock dropped for an earlier entry of the batch it completes
   and operation 2 with a later deadline starts on the same aio; the loop cancels it *)
Theorem aio_timeout_early_refuted : forall fdone,
  exists s, arun false fdone aio_init early_timeout_run = Some s /\ g_early s = true.
Proof. exact AioProofs.aio_timeout_early_refuted. Qed.
Print Assumptions aio_timeout_early_refuted.
Theorem aio_timeout_early_repaired : forall fdone,
  exists s, arun true fdone aio_init early_timeout_run = Some s /\ g_early s = false /\ p_owns s = true /\ a_expiring s = false.
Proof. exact AioProofs.aio_timeout_early_repaired. Qed.
Print Assumptions aio_timeout_early_repaired.

(* the functions the H2 trace conformance replays are the framework-field
   projections of the model's steps *)
Theorem aio_model_steps_are_trace_functions : forall fixed fdone,
  (forall s rv s', astep fixed fdone s (LAbort rv) = Some s' -> fw_step fdone (TAbort rv) (fw_of s) = Some (fw_of s')) /\
  (forall s s', astep fixed fdone s LStop = Some s' -> fw_step fdone TStop (fw_of s) = Some (fw_of s')) /\
  (forall s s', astep fixed fdone s LClose = Some s' -> fw_step fdone TClose (fw_of s) = Some (fw_of s')) /\
  (forall s s', astep fixed fdone s LReset = Some s' -> fw_step fdone TReset (fw_of s) = Some (fw_of s')) /\
  (forall s now s', astep fixed fdone s (LExpire now) = Some s' -> fw_step fdone TExpireMark (fw_of s) = Some (fw_of s')).
Proof.
  intros fixed fdone. repeat split;
    [apply astep_fw_abort|apply astep_fw_stop|apply astep_fw_close|apply astep_fw_reset|apply astep_fw_expire_mark].
Qed.
Print Assumptions aio_model_steps_are_trace_functions.

Theorem aio_model_start_is_trace_function : forall fixed fdone s zero dl sleep eok s',
  a_sleep s = sleep -> (sleep = true -> a_expire_ok s = eok) ->
  astep fixed fdone s (LStart zero dl sleep eok) = Some s' ->
  exists k, fw_step fdone k (fw_of s) = Some (fw_of s') /\
    k = (if a_stop s then TStartStopped else if a_abort s then TStartAborted else if zero then TStartTimeout
         else TStartOk true (match dl with Some _ => true | None => false end)).
Proof. exact astep_fw_start. Qed.
Print Assumptions aio_model_start_is_trace_function.

Theorem aio_model_continuations_are_trace_functions : forall fixed fdone s a s1 more, run_pact fixed s a = Some (s1, more) ->
  match a with
  | PFinish rv => fw_step fdone (TFinish rv) (fw_of s) = Some (fw_of s1)
  | PExpireDone => fw_step fdone TExpireDone (fw_of s) = Some (fw_of s1)
  | PCallCancel rv =>
      if p_owns s && p_sleep s then a_sleep s = true -> fw_step fdone (TSleepCancel rv) (fw_of s) = Some (fw_of s1)
      else fw_of s1 = fw_of s
  | PExpireProc now =>
      a_expiring s = true ->
      let due := match a_expire s with Some e => (e <? now)%N | None => false end in
      if fixed && negb due then fw_step fdone TExpireSkip (fw_of s) = Some (fw_of s1)
      else
        let rv := if a_expire_ok s then A_OK else A_TIMEDOUT in
        exists f1, fw_step fdone (TExpire rv) (fw_of s) = Some f1 /\
          (if a_sleep s || negb (a_cancel s) then fw_step fdone TExpireDone f1 = Some (fw_of s1) else f1 = fw_of s1)
  | PDispatch | PStopWait => fw_of s1 = fw_of s
  end.
Proof. exact run_pact_fw. Qed.
Print Assumptions aio_model_continuations_are_trace_functions.

Theorem aio_consts_match : A_STOPPED = NNG_ESTOPPED /\ A_TIMEDOUT = NNG_ETIMEDOUT /\ A_CANCELED = NNG_ECANCELED.
Proof. repeat split; reflexivity. Qed.
Print Assumptions aio_consts_match.

(* non-vacuity: a run with a submission, a timeout and a stop reaches a state that has
   run its callback exactly once *)
Example aio_run_nonvacuous :
  exists s, arun true true aio_init [LStart false (Some 100%N) false false; LExpire 200%N; LRun 0; LRun 0; LRun 0; LRun 0; LRun 0; LRunCb; LCbDone; LStop; LRun 0]
            = Some s /\ g_subs s = 1 /\ g_cbs s = 1 /\ g_stop_returned s = true.
Proof. eexists. split; [vm_compute; reflexivity|auto]. Qed.

(* a check of the code's *shape*, regenerated from the source on every run: at every
   call site of nni_aio_start outside the tests the result is honoured (tested,
   returned, or explicitly discarded where documented) -- the one obligation of the
   provider contract that is syntactic, extended to the providers that have no model *)
Theorem aio_start_sites_guarded : forallb (fun x => snd x) AIO_START_SITES = true.
Proof. vm_compute. reflexivity. Qed.
Print Assumptions aio_start_sites_guarded.

(* The PROVIDER CONTRACT as a monitor over the observable history of one aio
   (Core/ProvContract.v: submissions, nni_aio_start accepted/refused, completions, callbacks,
   a_stop, return of nng_aio_stop).  The theorems above are about AioModel, whose provider is
   well-behaved by construction; [pc_step] says what that means on observations, so that it can
   be checked of the REAL providers (harness/wb_opkinds.c feeds the extracted monitor the
   histories of user aios on every operation kind).  For every accepted history, of any length: *)

(* exactly once, with one result: the completions' results, in order, are the results the
   callbacks read, in order (plus the one whose callback is owed); every submission has
   exactly one completion (except the one still with the provider) *)
Theorem provider_contract_exactly_once : forall evs m, pc_run pc_init evs = Some m ->
  completions evs = callbacks evs ++ owed_callback (pc_phase m) /\
  submits evs = length (completions evs) + owed_completion (pc_phase m) /\
  length (callbacks evs) = cbdones evs + pc_running m.
Proof. exact pc_accepted_exactly_once. Qed.
Print Assumptions provider_contract_exactly_once.

Theorem provider_contract_terminated : forall evs m, pc_run pc_init evs = Some m -> pc_phase m = PIdle ->
  submits evs = length (callbacks evs) /\ completions evs = callbacks evs.
Proof. exact pc_terminated_exactly_once. Qed.
Print Assumptions provider_contract_terminated.

(* ... at every moment of the history (accepted histories are prefix closed) *)
Theorem provider_contract_never_more : forall a b m, pc_run pc_init (a ++ b) = Some m ->
  length (callbacks a) <= length (completions a) <= submits a.
Proof. exact pc_never_more. Qed.
Print Assumptions provider_contract_never_more.

(* once nng_aio_stop has returned: nothing owed, nothing running; once a_stop is latched
   no operation is accepted any more *)
Theorem provider_contract_stop_returned : forall a b m, pc_run pc_init (a ++ EStopReturned :: b) = Some m ->
  submits a = length (callbacks a) /\ completions a = callbacks a /\ length (callbacks a) = cbdones a.
Proof. exact pc_stop_returned_quiescent. Qed.
Print Assumptions provider_contract_stop_returned.
Theorem provider_contract_no_start_after_stop : forall a b m,
  pc_run pc_init (a ++ EFwStop :: b) = Some m -> ~ In EStartOk b.
Proof. exact pc_no_start_after_stop. Qed.
Print Assumptions provider_contract_no_start_after_stop.

(* the link: the monitor is the model's interface, not a second specification.  For the source
   as it is now (form of nni_aio_abort read from aio.c) EVERY run of AioModel, under every
   interleaving, projects (ProvContractLink.ev_of_step: what the caller and the trace see of each
   critical section) to a history the monitor accepts, ending in the monitor state that
   corresponds to the model state; and the monitor's counts are the model's ghost counters *)
Theorem aio_model_histories_accepted : forall fixed ls s,
  arun fixed C02_ABORT_DONE_FIXED aio_init ls = Some s ->
  exists m, pc_run pc_init (history fixed C02_ABORT_DONE_FIXED aio_init ls) = Some m /\ Rel s m.
Proof. exact model_histories_accepted. Qed.
Print Assumptions aio_model_histories_accepted.
Theorem aio_model_history_counts : forall fixed fdone ls s, arun fixed fdone aio_init ls = Some s ->
  g_subs s = submits (history fixed fdone aio_init ls) /\
  g_cbs s = length (callbacks (history fixed fdone aio_init ls)).
Proof. intros fixed fdone ls s H. exact (history_counts fixed fdone ls aio_init s H). Qed.
Print Assumptions aio_model_history_counts.

(* the pinned nni_aio_abort (before fix e9a11c8) is refused by the monitor: the late-abort run
   makes the callback read a result other than the completion's *)
Theorem provider_contract_refuses_late_abort :
  pc_run pc_init (history true false aio_init late_abort_run) = None.
Proof. vm_compute. reflexivity. Qed.
Print Assumptions provider_contract_refuses_late_abort.

(* the two breaches the seeded changes C02/4 and C02/5 are instances of: a completion after a
   refused nni_aio_start is refused; an accepted operation that is never completed is accepted
   as a history (it breaches nothing yet) but owes a completion for ever - liveness, which the
   harness checks as "lost completion" *)
Example provider_contract_refuses_finish_after_refused_start :
  pc_run pc_init [EFwStop; EStopReturned; ESubmit; EStartRefused NNG_ESTOPPED; EFinish NNG_ESTOPPED] = None.
Proof. reflexivity. Qed.
Example provider_contract_owed_completion :
  exists m, pc_run pc_init [ESubmit; EStartOk] = Some m /\ owed_completion (pc_phase m) = 1.
Proof. eexists. split; reflexivity. Qed.

(* "the configured duration": which deadline an operation gets (Core/AioDeadline.v: a_timeout, a_expire,
   a_use_expire and every function of aio.c that touches them; the result is the [zero]/[dl] argument of
   LStart above).  For the source as it is now (the three places that retire an absolute expiry are read
   from aio.c on every run) and for every history of nng_aio_set_timeout, nng_aio_set_expire,
   nni_aio_normalize_timeout, starts (accepted or refused), sleeps and completions: the deadline used is the
   one the specification names - the relative timeout counted from the start, unless an absolute expiry
   was set for exactly this operation *)
Theorem aio_deadline_is_configured : forall os,
  dl_run C02_DL_SET_CLEARS C02_DL_FINISH_CLEARS C02_DL_START_CONSUMES dl_init os = sp_run sp_init os.
Proof. exact deadline_is_configured. Qed.
Print Assumptions aio_deadline_is_configured.

(* a relative timeout d > 0 in force and no absolute expiry pending: the deadline is now + d *)
Theorem aio_deadline_relative : forall (s : sp) (now : N), s_abs s = None -> (0 < s_timeout s)%Z ->
  sp_verdict s now = VDeadline (Some (after now (s_timeout s))).
Proof. exact sp_verdict_rel. Qed.
Print Assumptions aio_deadline_relative.

(* each of the three is needed: without any one of them some history gets another deadline
   (the pinned tree lacked the third: finding stale-use-expire) *)
Theorem aio_deadline_refuted : forall fset ffin fcons, fset && ffin && fcons = false ->
  exists os, dl_run fset ffin fcons dl_init os <> sp_run sp_init os.
Proof. exact deadline_refuted. Qed.
Print Assumptions aio_deadline_refuted.
