(* Properties_C20: statements only.  C20 -- a failed allocation yields a clean error,
   never a crash, hang or leak.

   PROOF ONLY FOR THE MODELLED ALLOCATION SITES (coq/AllocFail):
     message.c    NNI_ALLOC_STRUCT in nni_msg_alloc / nni_msg_dup, nni_zalloc in
                  nni_chunk_grow (append, insert, realloc, reserve, the _uN forms,
                  nni_msg_alloc) and nni_chunk_dup; nni_msg_unique, nni_msg_pull_up
     idhash.c     NNI_ALLOC_STRUCTS in id_resize (nni_id_set / nni_id_alloc / nni_id_remove)
     lmq.c        nni_alloc in nni_lmq_resize (and nni_lmq_init's use of it)
     msgqueue.c   NNI_ALLOC_STRUCT + nni_zalloc in nni_msgq_init, nni_zalloc in nni_msgq_resize
     url.c        NNI_ALLOC_STRUCT in nng_url_parse / nng_url_clone, the long-URL nni_strdup,
                  nni_alloc in nni_url_clone_inline
     sub.c        NNI_ALLOC_STRUCT + nni_alloc in sub0_ctx_subscribe
     websocket.c  nni_msg_alloc in ws_read_finish_msg and the lock it runs under
   Every theorem quantifies over EVERY oracle (every combination of failing positions,
   not only a single failure).  All other allocation sites of the library are reached
   only by the generated site table (a check of shape) and by the fault enumeration
   of checks/c20.py, which is not proof.

   Sizes of C structs (SZ_MSG ...) are universally quantified positive parameters;
   the white-box harness reads the real values from the library. *)
From Coq Require Import List Arith NArith Bool Permutation.
From Coq Require String.
From NngV Require Import Gen.Consts Base.ListX Base.Bytes
  Msg.MsgModel Msg.MsgSpec Msg.MsgProofs
  Queue.LmqModel Queue.LmqSpec Queue.LmqProofs Queue.MsgqModel Queue.MsgqProofs
  AllocFail.AfBase AllocFail.AfMsg AllocFail.AfMsgProofs AllocFail.AfQueue AllocFail.AfQueueProofs.
From NngV Require IdMap.IdMapModel IdMap.IdMapSpec IdMap.IdMapProofs AllocFail.AfIdMap AllocFail.AfIdMapProofs.
From NngV Require Url.UrlParseModel Url.UrlParseProofs AllocFail.AfUrl AllocFail.AfUrlProofs.
From NngV Require Proto.Common Proto.SubModel AllocFail.AfSub AllocFail.AfWs AllocFail.AfSubWsProofs.
Import ListNotations.

(* message.c *)

(* One public operation on a message, every oracle: it runs to completion (no
   out-of-bounds access, no panic), keeps the invariant, calls the allocator at most
   once; if that call is refused the operation returns NNG_ENOMEM and the message
   is EXACTLY as before (concretely, not only as two strings) and nothing is leaked;
   otherwise it does what the two-strings specification says.  In both cases the blocks
   the message owns afterwards are the blocks it owned before plus what the call
   allocated minus what it freed. *)
Theorem msg_step_enomem_clean : forall SZ_MSG m o (orc : oracle), Inv m ->
  step_clean SZ_MSG m o (run (msg_step_o true m o) orc) (ledger (msg_step_o true m o) orc).
Proof. exact msg_step_o_clean. Qed.
Print Assumptions msg_step_enomem_clean.

(* nng_msg_alloc: two allocations; whichever is refused, NNG_ENOMEM, no message, and
   what was allocated has been freed again *)
Theorem msg_alloc_enomem_clean : forall SZ_MSG, 0 < SZ_MSG -> forall sz (orc : oracle),
  alloc_clean SZ_MSG (run (msg_alloc_o SZ_MSG sz) orc) (ledger (msg_alloc_o SZ_MSG sz) orc) sz.
Proof. exact msg_alloc_o_clean. Qed.
Print Assumptions msg_alloc_enomem_clean.

Theorem msg_dup_enomem_clean : forall SZ_MSG, 0 < SZ_MSG -> forall m (orc : oracle), Inv m ->
  dup_clean SZ_MSG m (run (msg_dup_o SZ_MSG m) orc) (ledger (msg_dup_o SZ_MSG m) orc).
Proof. exact msg_dup_o_clean. Qed.
Print Assumptions msg_dup_enomem_clean.

(* freeing returns every block the message owns *)
Theorem msg_free_balanced : forall SZ_MSG, 0 < SZ_MSG -> forall m (orc : oracle), Inv m ->
  balanced (msg_owned SZ_MSG m) (ledger (msg_free_o SZ_MSG m) orc) [] /\
  ncalls (ledger (msg_free_o SZ_MSG m) orc) = 0.
Proof. exact msg_free_o_balanced. Qed.
Print Assumptions msg_free_balanced.

(* nni_msg_unique on a shared message: the documented best-effort loss of that one
   message (NULL), never of memory; the original stays with its other owners *)
Theorem msg_unique_enomem_clean : forall SZ_MSG, 0 < SZ_MSG -> forall m shared (orc : oracle), Inv m ->
  let r := run (msg_unique_o SZ_MSG m shared) orc in
  let t := ledger (msg_unique_o SZ_MSG m shared) orc in
  (shared = false -> r = Some (Some m) /\ t = []) /\
  (shared = true ->
     (failed t = true -> r = Some None /\ self_balanced t) /\
     (failed t = false -> exists m', r = Some (Some m') /\ Inv m' /\ abs m' = abs m /\
                                     balanced [] t (msg_owned SZ_MSG m'))).
Proof. exact msg_unique_o_clean. Qed.
Print Assumptions msg_unique_enomem_clean.

(* nni_msg_pull_up, duplicate path (shared, or no room for the header): NULL, the
   original untouched (the caller -- inproc -- frees it: loss of one message) *)
Theorem msg_pull_up_dup_enomem_clean : forall SZ_MSG, 0 < SZ_MSG -> forall insert_checked m shared (orc : oracle),
  Inv m -> (chunk_room (m_body m) <? length (m_hdr m)) || shared = true ->
  let r := run (msg_pull_up_o SZ_MSG true insert_checked m shared) orc in
  let t := ledger (msg_pull_up_o SZ_MSG true insert_checked m shared) orc in
  (failed t = true -> r = Some None /\ self_balanced t) /\
  (failed t = false -> r = msg_pull_up true m shared false false).
Proof. exact msg_pull_up_o_dup_clean. Qed.
Print Assumptions msg_pull_up_dup_enomem_clean.

(* nni_msg_pull_up, in-place path, THE CODE AS IT IS: the result of nni_msg_insert is
   ignored; when that insert has to grow the chunk (room for the header but not the 8
   bytes of slack the split needs) and the allocation is refused, the message is
   delivered with its header silently dropped.  Witness: nng_msg_alloc(0),
   nng_msg_insert(30 bytes), a 32-byte header.  Replayed on the library by
   harness/wb_allocfail.c (`pullup` script); see findings/c20-proposed.txt. *)
Theorem msg_pull_up_enomem_lost_header_refuted : forall SZ_MSG, 0 < SZ_MSG ->
  exists m, Inv m /\ m_hdr m <> [] /\
    run (msg_pull_up_o SZ_MSG true false m false) [false] = Some (Some (mkMsg [] (m_body m))).
Proof. exact pull_up_lost_header_refuted. Qed.
Print Assumptions msg_pull_up_enomem_lost_header_refuted.

(* any history of operations, one oracle threaded through all of them: runs to the
   end, invariant kept (so every later call behaves), ledger balanced over the whole
   history; with no refusal the outputs are those of the specification *)
Theorem msg_history_enomem_clean : forall SZ_MSG, 0 < SZ_MSG -> forall ops m (orc : oracle), Inv m ->
  exists outs m', run (msg_run_o true m ops) orc = Some (outs, m') /\ Inv m' /\
    length outs = length ops /\
    balanced (msg_owned SZ_MSG m) (ledger (msg_run_o true m ops) orc) (msg_owned SZ_MSG m') /\
    (failed (ledger (msg_run_o true m ops) orc) = false ->
       exists fl, spec_run (abs m) (combine ops fl) outs (abs m') /\ length fl = length ops).
Proof. exact msg_run_o_clean. Qed.
Print Assumptions msg_history_enomem_clean.

(* lmq.c *)
Theorem lmq_resize_enomem_clean : forall SZ_PTR, 0 < SZ_PTR -> forall q cap (orc : oracle), LInv q ->
  let r := run (lmq_resize_o SZ_PTR true q cap) orc in
  let t := ledger (lmq_resize_o SZ_PTR true q cap) orc in
  exists rv q' freed, r = Some (rv, q', freed) /\ LInv q' /\
    balanced (lmq_owned SZ_PTR q) t (lmq_owned SZ_PTR q') /\ ncalls t = 1 /\
    (failed t = true -> rv = ENOMEM_q /\ q' = q /\ freed = [] /\ self_balanced t) /\
    (failed t = false -> (LFreed rv freed, labs q') = fifo_step (labs q) (LResize cap false)).
Proof. exact lmq_resize_o_clean. Qed.
Print Assumptions lmq_resize_enomem_clean.

(* nni_lmq_init never fails: the documented fallback of a refused ring is capacity 2 *)
Theorem lmq_init_enomem_clean : forall SZ_PTR, 0 < SZ_PTR -> forall cap (orc : oracle),
  let r := run (lmq_init_o SZ_PTR true cap) orc in
  let t := ledger (lmq_init_o SZ_PTR true cap) orc in
  exists q, r = Some q /\ LInv q /\ balanced [] t (lmq_owned SZ_PTR q) /\ snd (labs q) = [] /\
    (failed t = false -> q_cap q = cap) /\
    (failed t = true -> q_cap q = 2 /\ 2 < cap /\ self_balanced t).
Proof. exact lmq_init_o_clean. Qed.
Print Assumptions lmq_init_enomem_clean.

Theorem lmq_history_enomem_clean : forall SZ_PTR, 0 < SZ_PTR -> forall ops q (orc : oracle), LInv q ->
  exists outs q', run (lmq_run_o SZ_PTR true q ops) orc = Some (outs, q') /\ LInv q' /\
    balanced (lmq_owned SZ_PTR q) (ledger (lmq_run_o SZ_PTR true q ops) orc) (lmq_owned SZ_PTR q') /\
    q_len q' <= q_cap q' /\ length outs = length ops.
Proof. exact lmq_run_o_clean. Qed.
Print Assumptions lmq_history_enomem_clean.

Theorem lmq_fini_balanced : forall SZ_PTR q (orc : oracle),
  balanced (lmq_owned SZ_PTR q) (ledger (lmq_fini_o SZ_PTR q) orc) [] /\
  ncalls (ledger (lmq_fini_o SZ_PTR q) orc) = 0.
Proof. exact lmq_fini_o_balanced. Qed.
Print Assumptions lmq_fini_balanced.

(* msgqueue.c *)
Theorem msgq_init_enomem_clean : forall SZ_PTR SZ_MSGQ, 0 < SZ_PTR -> 0 < SZ_MSGQ -> forall cap (orc : oracle),
  let r := run (msgq_init_o SZ_PTR SZ_MSGQ cap) orc in
  let t := ledger (msgq_init_o SZ_PTR SZ_MSGQ cap) orc in
  ncalls t <= 2 /\
  (failed t = true -> r = (ENOMEM_q, None) /\ self_balanced t) /\
  (failed t = false -> exists q, r = (0%N, Some q) /\ AllInv q /\ items q = [] /\ mq_cap q = cap /\
                                 balanced [] t (msgq_owned SZ_PTR SZ_MSGQ q)).
Proof. exact msgq_init_o_clean. Qed.
Print Assumptions msgq_init_enomem_clean.

Theorem msgq_resize_enomem_clean : forall SZ_PTR SZ_MSGQ, 0 < SZ_PTR -> 0 < SZ_MSGQ -> forall q cap (orc : oracle), AllInv q ->
  let r := run (msgq_resize_o SZ_PTR true q cap) orc in
  let t := ledger (msgq_resize_o SZ_PTR true q cap) orc in
  exists rv q' outs, r = Some (rv, q', outs) /\ AllInv q' /\
    balanced (msgq_owned SZ_PTR SZ_MSGQ q) t (msgq_owned SZ_PTR SZ_MSGQ q') /\ ncalls t <= 1 /\
    (failed t = true -> rv = ENOMEM_q /\ q' = q /\ outs = [] /\ self_balanced t) /\
    (failed t = false -> step_law q (MResize cap false) rv q' outs).
Proof. exact msgq_resize_o_clean. Qed.
Print Assumptions msgq_resize_enomem_clean.

Theorem msgq_fini_balanced : forall SZ_PTR SZ_MSGQ q (orc : oracle),
  balanced (msgq_owned SZ_PTR SZ_MSGQ q) (ledger (msgq_fini_o SZ_PTR SZ_MSGQ q) orc) [] /\
  ncalls (ledger (msgq_fini_o SZ_PTR SZ_MSGQ q) orc) = 0.
Proof. exact msgq_fini_o_balanced. Qed.
Print Assumptions msgq_fini_balanced.

(* ledgers of consecutive calls add up; other objects' blocks are a frame *)
Theorem ledger_compose : forall a t1 b t2 c, balanced a t1 b -> balanced b t2 c -> balanced a (t1 ++ t2) c.
Proof. exact balanced_trans. Qed.
Print Assumptions ledger_compose.
Theorem ledger_frame : forall a t b f, balanced a t b -> balanced (a ++ f) t (b ++ f).
Proof. exact balanced_frame. Qed.
Print Assumptions ledger_frame.

(* allocate; any history under any oracle; free: everything is returned
   ("fini after failure balances to zero", for the message object) *)
Theorem msg_fini_after_failure_balanced : forall SZ_MSG, 0 < SZ_MSG -> forall sz ops (o1 o2 o3 : oracle),
  failed (ledger (msg_alloc_o SZ_MSG sz) o1) = false ->
  exists m m', run (msg_alloc_o SZ_MSG sz) o1 = Some (0%N, Some m) /\
    run (msg_run_o true m ops) o2 = Some (fst (match run (msg_run_o true m ops) o2 with Some x => x | None => ([], m) end), m') /\
    balanced [] (ledger (msg_alloc_o SZ_MSG sz) o1 ++ ledger (msg_run_o true m ops) o2 ++ ledger (msg_free_o SZ_MSG m') o3) [].
Proof.
  intros SZ_MSG Hp sz ops o1 o2 o3 F.
  destruct (msg_alloc_o_clean SZ_MSG Hp sz o1) as (_ & _ & S). destruct (S F) as (m & R & HI & _ & _ & B0).
  destruct (msg_run_o_clean SZ_MSG Hp ops m o2 HI) as (outs & m' & R1 & HI' & _ & B1 & _).
  destruct (msg_free_o_balanced SZ_MSG Hp m' o3 HI') as [B2 _].
  exists m, m'. split; [exact R|]. split; [rewrite R1; reflexivity|].
  eapply balanced_trans; [exact B0|]. eapply balanced_trans; [exact B1|exact B2].
Qed.
Print Assumptions msg_fini_after_failure_balanced.

Example c20_inv_nonvacuous : exists m, msg_alloc 100 false false = Some (0%N, Some m) /\ Inv m.
Proof. destruct (alloc_spec 100) as (m & A & HI & _). eauto. Qed.

(* the failure branch of the step theorem is reachable: a freshly allocated message,
   an append that must grow, an oracle that refuses *)
Example c20_failure_reachable :
  exists m, Inv m /\ failed (ledger (msg_step_o true m (Append (repeat 1%N 200))) [false]) = true.
Proof.
  destruct (alloc_spec 10) as (m & A & HI & _). exists m. split; [exact HI|].
  unfold msg_alloc in A. vm_compute in A. inversion A; subst. vm_compute. reflexivity.
Qed.

Example c20_lmq_nonvacuous : exists q, lmq_init true 8 false = Some q /\ LInv q.
Proof. destruct (lmq_init_inv 8 false) as (q & I & HI & _). eauto. Qed.

Example c20_msgq_nonvacuous : AllInv (msgq_init 4).
Proof. apply msgq_init_inv. Qed.

(* idhash.c *)
(* nni_id_set: a refused table allocation gives NNG_ENOMEM with the map exactly as it
   was (up to the "registered" mark of a static map), the invariant -- hence every later
   call -- intact, nothing leaked; otherwise the finite-map specification *)
Theorem idmap_set_enomem_clean : forall SZ_ENT, 0 < SZ_ENT -> forall fixed m k v (orc : oracle),
  IdMapProofs.Inv fixed m ->
  let r := run (AfIdMap.id_set_o SZ_ENT m k v) orc in
  let t := ledger (AfIdMap.id_set_o SZ_ENT m k v) orc in
  exists rv m', r = IdMapModel.IdOk (rv, m') /\ IdMapProofs.Inv fixed m' /\
    IdMapSpec.id_spec_rel (IdMapProofs.abs m) (IdMapModel.IoSet k v (failed t)) (IdMapModel.OutRv rv) (IdMapProofs.abs m') /\
    balanced (AfIdMap.idmap_owned SZ_ENT m) t (AfIdMap.idmap_owned SZ_ENT m') /\ ncalls t <= 1 /\
    (failed t = true -> rv = IdMapModel.id_ENOMEM /\ m' = AfIdMapProofs.reg m /\ self_balanced t) /\
    (failed t = false -> rv = 0%N).
Proof. exact AfIdMapProofs.id_set_o_clean. Qed.
Print Assumptions idmap_set_enomem_clean.

(* nni_id_remove: the shrink is best effort ("it's ok if we can't"): the removal
   succeeds, the table keeps its size *)
Theorem idmap_remove_enomem_clean : forall SZ_ENT, 0 < SZ_ENT -> forall fixed m k (orc : oracle),
  IdMapProofs.Inv fixed m ->
  let r := run (AfIdMap.id_remove_o SZ_ENT m k) orc in
  let t := ledger (AfIdMap.id_remove_o SZ_ENT m k) orc in
  exists rv m', r = IdMapModel.IdOk (rv, m') /\ IdMapProofs.Inv fixed m' /\
    IdMapSpec.id_spec_rel (IdMapProofs.abs m) (IdMapModel.IoRemove k (failed t)) (IdMapModel.OutRv rv) (IdMapProofs.abs m') /\
    balanced (AfIdMap.idmap_owned SZ_ENT m) t (AfIdMap.idmap_owned SZ_ENT m') /\ ncalls t <= 1 /\
    (failed t = true -> rv = 0%N /\ self_balanced t /\ IdMapModel.id_cap m' = IdMapModel.id_cap m).
Proof. exact AfIdMapProofs.id_remove_o_clean. Qed.
Print Assumptions idmap_remove_enomem_clean.

(* nni_id_alloc: NNG_ENOMEM, no id issued, contents unchanged (IdMapSpec.id_spec_fail_step:
   only the cursor has moved past the id that would have been issued) *)
Theorem idmap_alloc_enomem_clean : forall SZ_ENT, 0 < SZ_ENT -> forall fixed m v rnd (orc : oracle),
  IdMapProofs.Inv fixed m ->
  let r := run (AfIdMap.id_alloc_o SZ_ENT fixed m v rnd) orc in
  let t := ledger (AfIdMap.id_alloc_o SZ_ENT fixed m v rnd) orc in
  exists rv ido m', r = IdMapModel.IdOk (rv, ido, m') /\ IdMapProofs.Inv fixed m' /\
    IdMapSpec.id_spec_rel (IdMapProofs.abs m) (IdMapModel.IoAlloc v rnd (failed t)) (IdMapModel.OutAlloc rv ido) (IdMapProofs.abs m') /\
    balanced (AfIdMap.idmap_owned SZ_ENT m) t (AfIdMap.idmap_owned SZ_ENT m') /\ ncalls t <= 1 /\
    (failed t = true -> rv = IdMapModel.id_ENOMEM /\ ido = None /\ self_balanced t /\
                        IdMapModel.id_cap m' = IdMapModel.id_cap m).
Proof. exact AfIdMapProofs.id_alloc_o_clean. Qed.
Print Assumptions idmap_alloc_enomem_clean.

Theorem idmap_history_enomem_clean : forall SZ_ENT, 0 < SZ_ENT -> forall fixed ops m (orc : oracle),
  IdMapProofs.Inv fixed m ->
  exists outs m', run (AfIdMap.id_run_o SZ_ENT fixed m ops) orc = IdMapModel.IdOk (outs, m') /\
    IdMapProofs.Inv fixed m' /\
    balanced (AfIdMap.idmap_owned SZ_ENT m) (ledger (AfIdMap.id_run_o SZ_ENT fixed m ops) orc) (AfIdMap.idmap_owned SZ_ENT m') /\
    length outs = length ops /\ ncalls (ledger (AfIdMap.id_run_o SZ_ENT fixed m ops) orc) <= length ops.
Proof. exact AfIdMapProofs.id_run_o_clean. Qed.
Print Assumptions idmap_history_enomem_clean.

Theorem idmap_fini_balanced : forall SZ_ENT m (orc : oracle),
  balanced (AfIdMap.idmap_owned SZ_ENT m) (ledger (AfIdMap.id_fini_o SZ_ENT m) orc) [] /\
  IdMapModel.id_cap (run (AfIdMap.id_fini_o SZ_ENT m) orc) = 0.
Proof. exact AfIdMapProofs.id_fini_o_balanced. Qed.
Print Assumptions idmap_fini_balanced.

(* url.c *)
(* nng_url_parse with the long-URL copy TESTED (the repaired form), every oracle,
   every input: NNG_ENOMEM with everything returned, or exactly the verdict of C19's
   parser; a successful parse owns the struct and, for a long URL, one buffer *)
Theorem url_parse_enomem_clean : forall SZ_URL, 0 < SZ_URL -> forall fx resolver raw (orc : oracle),
  let r := run (AfUrl.url_parse_o SZ_URL true fx resolver raw) orc in
  let t := ledger (AfUrl.url_parse_o SZ_URL true fx resolver raw) orc in
  ncalls t <= 2 /\
  (failed t = true -> r = AfUrl.URes AfUrl.U_ENOMEM None /\ self_balanced t) /\
  (failed t = false ->
     match UrlParseModel.url_parse fx resolver raw with
     | UrlParseModel.UVal u => r = AfUrl.URes 0%N (Some u) /\ balanced [] t (AfUrl.url_owned SZ_URL u)
     | UrlParseModel.UErr rv => r = AfUrl.URes rv None /\ self_balanced t
     | UrlParseModel.UOob => r = AfUrl.UCrash
     end).
Proof. exact AfUrlProofs.url_parse_o_clean. Qed.
Print Assumptions url_parse_enomem_clean.

(* the code as pinned does not test nni_strdup: struct granted, copy refused, a URL of
   >= 128 bytes after the scheme => NULL dereference.  Replayed on the library
   (API program `url`, k = 8: SEGV in nni_url_parse_inline_inner). *)
Theorem url_parse_strdup_enomem_refuted : forall SZ_URL, 0 < SZ_URL ->
  run (AfUrl.url_parse_o SZ_URL false UrlParseModel.fx_repaired (fun _ => None) AfUrlProofs.long_raw) [true; false]
  = AfUrl.UCrash.
Proof. exact AfUrlProofs.url_parse_strdup_unchecked_refuted. Qed.
Print Assumptions url_parse_strdup_enomem_refuted.

(* which of the two speaks about the tree as it is: the generated flag *)
Theorem url_parse_current_source : forall SZ_URL, 0 < SZ_URL ->
  if URL_STRDUP_CHECKED
  then forall fx resolver raw (orc : oracle),
         failed (ledger (AfUrl.url_parse_o SZ_URL URL_STRDUP_CHECKED fx resolver raw) orc) = true ->
         run (AfUrl.url_parse_o SZ_URL URL_STRDUP_CHECKED fx resolver raw) orc = AfUrl.URes AfUrl.U_ENOMEM None
  else exists raw (orc : oracle),
         run (AfUrl.url_parse_o SZ_URL URL_STRDUP_CHECKED UrlParseModel.fx_repaired (fun _ => None) raw) orc = AfUrl.UCrash.
Proof.
  intros SZ Hp. destruct URL_STRDUP_CHECKED eqn:E.
  - intros fx res raw orc F. now destruct (AfUrlProofs.url_parse_o_clean SZ Hp fx res raw orc) as (_ & X & _); destruct (X F).
  - exists AfUrlProofs.long_raw, [true; false]. now apply AfUrlProofs.url_parse_strdup_unchecked_refuted.
Qed.
Print Assumptions url_parse_current_source.

Theorem url_clone_enomem_clean : forall SZ_URL, 0 < SZ_URL -> forall u (orc : oracle), UrlParseProofs.buf_ok u ->
  let r := run (AfUrl.url_clone_o SZ_URL true u) orc in
  let t := ledger (AfUrl.url_clone_o SZ_URL true u) orc in
  ncalls t <= 2 /\
  (failed t = true -> r = AfUrl.URes AfUrl.U_ENOMEM None /\ self_balanced t) /\
  (failed t = false -> r = AfUrl.URes 0%N (Some u) /\ balanced [] t (AfUrl.url_owned SZ_URL u)).
Proof. exact AfUrlProofs.url_clone_o_clean. Qed.
Print Assumptions url_clone_enomem_clean.

Theorem url_free_balanced : forall SZ_URL u (orc : oracle),
  balanced (AfUrl.url_owned SZ_URL u) (ledger (AfUrl.url_free_o SZ_URL u) orc) [] /\
  ncalls (ledger (AfUrl.url_free_o SZ_URL u) orc) = 0.
Proof. exact AfUrlProofs.url_free_o_balanced. Qed.
Print Assumptions url_free_balanced.

(* sub.c *)
Theorem sub_subscribe_enomem_clean : forall SZ_TOPIC, 0 < SZ_TOPIC -> forall fixed s k t (orc : oracle),
  let r := run (AfSub.sub_subscribe_o SZ_TOPIC fixed s k t) orc in
  let l := ledger (AfSub.sub_subscribe_o SZ_TOPIC fixed s k t) orc in
  ncalls l <= 2 /\
  (failed l = true -> r = (s, [Common.OptRv Common.E_NOMEM]) /\ self_balanced l) /\
  (failed l = false ->
     r = SubModel.sub_step fixed s (Common.PSetOpt k (Common.OSub t)) /\ frees l = [] /\
     allocs l = if AfSub.sub_adds s k t then AfSub.topic_blocks SZ_TOPIC t else []).
Proof. exact AfSubWsProofs.sub_subscribe_o_clean. Qed.
Print Assumptions sub_subscribe_enomem_clean.

Theorem sub_unsubscribe_balanced : forall SZ_TOPIC fixed s k t (orc : oracle),
  let r := run (AfSub.sub_unsubscribe_o SZ_TOPIC fixed s k t) orc in
  let l := ledger (AfSub.sub_unsubscribe_o SZ_TOPIC fixed s k t) orc in
  r = SubModel.sub_step fixed s (Common.PSetOpt k (Common.OUnsub t)) /\ ncalls l = 0 /\ allocs l = [] /\
  Permutation (frees l) (if AfSub.sub_drops s k t then AfSub.topic_blocks SZ_TOPIC t else []).
Proof. exact AfSubWsProofs.sub_unsubscribe_o_clean. Qed.
Print Assumptions sub_unsubscribe_balanced.

(* websocket.c *)
(* the code as pinned: ws_read_finish_msg, running with ws->mtx held, answers a refused
   nni_msg_alloc with ws_close_error, which locks ws->mtx: self-deadlock.  Replayed on
   the library (API programs *:ws; "pthread_mutex_lock: Resource deadlock avoided"). *)
Theorem ws_enomem_deadlock_refuted : forall SZ_MSG SZ_FRAME, 0 < SZ_MSG ->
  AfWs.w_held AfSubWsProofs.ws_witness = true /\
  In AfWs.WDeadlock (snd (fst (run (AfWs.ws_read_finish_msg_o SZ_MSG SZ_FRAME false AfSubWsProofs.ws_witness) [false]))).
Proof. exact AfSubWsProofs.ws_enomem_deadlock_refuted. Qed.
Print Assumptions ws_enomem_deadlock_refuted.

(* the repaired form (ws_close called directly): never a second lock; a refused
   allocation fails the receive with NNG_ENOMEM and closes the connection (the
   documented loss of one connection) with the queued frames still owned by it *)
Theorem ws_read_finish_enomem_clean : forall SZ_MSG SZ_FRAME, 0 < SZ_MSG -> forall w (orc : oracle),
  AfWs.w_held w = true ->
  let r := run (AfWs.ws_read_finish_msg_o SZ_MSG SZ_FRAME true w) orc in
  let t := ledger (AfWs.ws_read_finish_msg_o SZ_MSG SZ_FRAME true w) orc in
  let w' := fst (fst r) in let outs := snd (fst r) in
  ~ In AfWs.WDeadlock outs /\ AfWs.w_held w' = true /\
  (failed t = true ->
     exists a rest, AfWs.w_recvq w = a :: rest /\ snd r = None /\ self_balanced t /\
       hd_error outs = Some (AfWs.WFinish a ENOMEM 0) /\ AfWs.w_closed w' = true /\ AfWs.w_recvq w' = [] /\
       AfWs.w_rxq w' = AfWs.w_rxq w) /\
  (failed t = false ->
     (outs = [] /\ w' = w /\ snd r = None /\ t = []) \/
     (exists a rest m, AfWs.w_recvq w = a :: rest /\ outs = [AfWs.WFinish a 0%N (list_sum (AfWs.w_rxq w))] /\
        snd r = Some m /\ Inv m /\ abs m = ([], zeros (list_sum (AfWs.w_rxq w))) /\
        AfWs.w_rxq w' = [] /\ AfWs.w_recvq w' = rest /\
        balanced (AfWs.ws_owned SZ_FRAME w) t (msg_owned SZ_MSG m))).
Proof. exact AfSubWsProofs.ws_read_finish_msg_o_clean. Qed.
Print Assumptions ws_read_finish_enomem_clean.

Theorem ws_current_source : forall SZ_MSG SZ_FRAME, 0 < SZ_MSG ->
  if WS_FINISH_RELOCK_FIXED
  then forall w (orc : oracle), AfWs.w_held w = true ->
         ~ In AfWs.WDeadlock (snd (fst (run (AfWs.ws_read_finish_msg_o SZ_MSG SZ_FRAME WS_FINISH_RELOCK_FIXED w) orc)))
  else exists w (orc : oracle), AfWs.w_held w = true /\
         In AfWs.WDeadlock (snd (fst (run (AfWs.ws_read_finish_msg_o SZ_MSG SZ_FRAME WS_FINISH_RELOCK_FIXED w) orc))).
Proof.
  intros SM SF Hp. destruct WS_FINISH_RELOCK_FIXED.
  - intros w orc H. apply (AfSubWsProofs.ws_read_finish_msg_o_clean SM SF Hp w orc H).
  - exists AfSubWsProofs.ws_witness, [false]. apply (AfSubWsProofs.ws_enomem_deadlock_refuted SM SF Hp).
Qed.
Print Assumptions ws_current_source.

(* Every direct allocation call in src/ outside tests / TLS / Windows / tools
   (nni_alloc, nni_zalloc, NNI_ALLOC_STRUCT(S), nni_strdup, nni_msg_alloc, nni_aio_alloc,
   nni_asprintf, the resize / id-map / url entry points ...) either has its result
   compared with NULL (its status tested) before the first use -- as decided by the
   scanner tools/gen_consts_d/c20_sites.py, or by its table of hand-read justifications
   for the idioms it cannot see -- or is one of the sites below, which are genuinely
   unchecked in the pinned tree and were each confirmed by an injection run.
   A check of SHAPE regenerated from the source on every run; not a semantic proof.
   PARTIAL: the full statement `forallb as_checked ALLOC_SITES = true` is false of the
   pinned tree because of exactly these sites. *)
(* "<program> k=<n>" below: harness/wb_c20api.c run as `wb_c20api <program> n n`, its n-th allocation refused *)
Section SiteTable.
Import String.
Definition KNOWN_UNCHECKED : list (String.string * String.string) :=
  [ ("nni_aio_sys_init", "nni_zalloc");               (* aio.c: the expire-queue array; init k=6 *)
    ("nni_url_parse_inline_inner", "nni_strdup");     (* url.c: the long-URL copy; url k=8 *)
    ("nni_msg_pull_up", "nni_msg_insert") ]%string.   (* message.c: result ignored; wb pullup script *)
Definition site_known (s : alloc_site) : bool :=
  existsb (fun k => String.eqb (as_fn s) (fst k) && String.eqb (as_callee s) (snd k)) KNOWN_UNCHECKED.

Theorem alloc_sites_checked_partial :
  forallb (fun s => as_checked s || site_known s) ALLOC_SITES = true /\
  List.length ALLOC_SITES = ALLOC_SITES_COUNT /\ 100 <= ALLOC_SITES_COUNT.
Proof. split; [vm_compute; reflexivity|]. split; [vm_compute; reflexivity|]. apply Nat.leb_le. vm_compute. reflexivity. Qed.
Print Assumptions alloc_sites_checked_partial.
End SiteTable.

(* the literals of the wrappers are those of the current source *)
Theorem c20_consts_match :
  ENOMEM = C20_NNG_ENOMEM /\ ENOMEM_q = C20_NNG_ENOMEM /\ IdMapModel.id_ENOMEM = C20_NNG_ENOMEM /\
  AfUrl.U_ENOMEM = C20_NNG_ENOMEM /\ Common.E_NOMEM = C20_NNG_ENOMEM /\
  AfWs.WS_ECLOSED = C20_NNG_ECLOSED /\ AfWs.WS_CLOSE_INTERNAL = C20_WS_CLOSE_INTERNAL /\
  C20_WS_SHORT_FRAME = 126 /\ UrlParseModel.STATIC_SZ = C20_URL_STATIC /\
  MSG_HEADROOM = 32 /\ MSG_HEADROOM2 = 32 /\ MSG_BIG = 1024.
Proof. repeat split; reflexivity. Qed.
Print Assumptions c20_consts_match.
