(* Properties_C05: statements only.  C05 -- PUB/SUB: delivery iff a current
   subscription prefixes the body (src/sp/protocol/pubsub0/sub.c, pub.c, xsub.c).

   Models: SubModel.sub_step fixed   (fixed = sub0_ctx_unsubscribe clears the recv pollable)
           PubModel.pub_step
           XsubModel.xsub_step mq_fixed rs_fixed   (the two repairs of src/core/msgqueue.c)
   One step = one critical section of the protocol's mutex, so a theorem over all
   lists of steps covers all interleavings.  Theorems that do not mention `fixed`
   hold for both variants.  The variant the current source has is tied to
   Gen/Consts.v by pubsub_consts_match. *)
From Coq Require Import List Arith NArith Bool.
From NngV Require Import Gen.Consts Proto.Common Proto.PushProofs Proto.SubModel Proto.PubModel Proto.XsubModel
  Proto.PubSubCur Proto.PubSubProofs Proto.PubSubProofs2 Proto.PubSubProofs3.
Import ListNotations.

(* sub0_matches decides "some topic of the list is a prefix of the body"; the empty topic
   matches every body, no topic matches nothing, a topic longer than the body never matches *)
Theorem prefix_dec_correct : forall topics body,
  (sub0_matches topics body = true <-> exists t, In t topics /\ is_prefix t body) /\
  (In [] topics -> sub0_matches topics body = true) /\
  sub0_matches [] body = false /\
  ((forall t, In t topics -> length body < length t) -> sub0_matches topics body = false).
Proof.
  intros. split; [apply matches_correct|]. split; [apply matches_empty_topic|]. split; [reflexivity|apply matches_longer_never].
Qed.
Print Assumptions prefix_dec_correct.

(* For each arriving body and each context: the context takes the message (hands it to its
   oldest waiting receiver, or appends it to its buffer) if and only if one of ITS current topics
   is a prefix of the body at that moment (and the buffer rule lets it in: see
   sub_full_drops_exactly_one); otherwise the context, its waiters and its buffer are untouched.
   arrival_spec spells out both directions case by case; completions of the step are exactly the
   per-context ones. *)
Theorem sub_delivery_iff_prefix : forall fixed s p m s' outs,
  sub_step fixed s (PRecvDone p 0%N m) = (s', outs) ->
  sb_ctxs s' = map (fun c => ctx_after c m) (sb_ctxs s) /\
  (forall a rv x, In (Complete a rv x) outs <-> exists c, In c (sb_ctxs s) /\ In (Complete a rv x) (ctx_compl c m)) /\
  (forall c, In c (sb_ctxs s) ->
     (ctx_accepts c m = true <-> subscribed c m /\ has_room c) /\
     arrival_spec c m (ctx_after c m) (ctx_compl c m) (ctx_dropped c m)).
Proof.
  intros fixed s p m s' outs H. destruct (sub_arrival_law fixed s p m s' outs H) as (A & B & C).
  split; [exact A|]. split; [exact B|]. intros c Hc. split; [apply ctx_accepts_iff|apply C; exact Hc].
Qed.
Print Assumptions sub_delivery_iff_prefix.

(* contexts filter independently: (1) what an arrival does to a context depends on that context
   and the message only, wherever it sits and whatever the other contexts are; (2) an operation
   addressed to context k (receive, option, subscribe, unsubscribe, open, close) leaves the list
   of all other contexts exactly as it was *)
Theorem sub_contexts_independent :
  (forall fixed s1 s2 p1 p2 m i j c,
     nth_error (sb_ctxs s1) i = Some c -> nth_error (sb_ctxs s2) j = Some c ->
     nth_error (sb_ctxs (fst (sub_step fixed s1 (PRecvDone p1 0%N m)))) i =
     nth_error (sb_ctxs (fst (sub_step fixed s2 (PRecvDone p2 0%N m)))) j) /\
  (forall fixed s o k s' outs, targets o k -> sub_step fixed s o = (s', outs) ->
     filter (fun c => negb (cid_eqb (sc_id c) k)) (sb_ctxs s') = filter (fun c => negb (cid_eqb (sc_id c) k)) (sb_ctxs s)).
Proof. split; [exact sub_arrival_independent|exact sub_targeted_independent]. Qed.
Print Assumptions sub_contexts_independent.

(* unsubscribe: the topic is gone, the buffer keeps exactly the bodies that still match a
   remaining topic, in their old order (filter), the others are freed; nothing else changes *)
Theorem sub_unsubscribe_purges : forall fixed s k c t s' outs,
  find_ctx k (sb_ctxs s) = Some c -> In t (sc_topics c) -> NoDup (sc_topics c) ->
  sub_step fixed s (PSetOpt k (OUnsub t)) = (s', outs) ->
  exists c', find_ctx k (sb_ctxs s') = Some c' /\
    (forall x, In x (sc_topics c') <-> In x (sc_topics c) /\ x <> t) /\ NoDup (sc_topics c') /\
    sc_lmq c' = filter (fun m => sub0_matches (sc_topics c') (pm_body m)) (sc_lmq c) /\
    (forall m, In m (sc_lmq c') -> subscribed c' m) /\
    (forall m, In m (sc_lmq c) -> subscribed c' m -> In m (sc_lmq c')) /\
    freed outs = filter (fun m => negb (sub0_matches (sc_topics c') (pm_body m))) (sc_lmq c) /\
    In (OptRv E_OK) outs /\
    sc_id c' = sc_id c /\ sc_cap c' = sc_cap c /\ sc_rq c' = sc_rq c /\ sc_prefnew c' = sc_prefnew c.
Proof. exact sub_unsubscribe_law. Qed.
Print Assumptions sub_unsubscribe_purges.

(* full buffer, subscribed, nobody waiting: exactly one message goes per arrival -- the oldest
   if PREFNEW (the new one is appended, the length stays), otherwise the new one (nothing changes) *)
Theorem sub_full_drops_exactly_one : forall c m,
  subscribed c m -> sc_rq c = [] -> sc_cap c <= length (sc_lmq c) -> 1 <= sc_cap c ->
  (sc_prefnew c = true ->
     exists old r, sc_lmq c = old :: r /\ ctx_after c m = set_lmq c (r ++ [m]) /\ ctx_dropped c m = [old] /\
                   length (sc_lmq (ctx_after c m)) = length (sc_lmq c)) /\
  (sc_prefnew c = false -> ctx_after c m = c /\ ctx_compl c m = [] /\ ctx_dropped c m = [] /\ ctx_accepts c m = false).
Proof. exact sub_full_law. Qed.
Print Assumptions sub_full_drops_exactly_one.

Theorem sub_subscribe_duplicate_ignored : forall fixed s k c t,
  find_ctx k (sb_ctxs s) = Some c -> In t (sc_topics c) ->
  sub_step fixed s (PSetOpt k (OSub t)) = (s, [OptRv E_OK]).
Proof. exact sub_subscribe_duplicate. Qed.
Print Assumptions sub_subscribe_duplicate_ignored.

Theorem sub_subscribe_adds : forall fixed s k c t,
  find_ctx k (sb_ctxs s) = Some c -> ~ In t (sc_topics c) ->
  exists s', sub_step fixed s (PSetOpt k (OSub t)) = (s', [OptRv E_OK]) /\
    find_ctx k (sb_ctxs s') = Some (set_topics c (sc_topics c ++ [t])) /\ sb_readable s' = sb_readable s.
Proof. exact sub_subscribe_new. Qed.
Print Assumptions sub_subscribe_adds.

Theorem sub_unsubscribe_unknown_enoent : forall fixed s k c t,
  find_ctx k (sb_ctxs s) = Some c -> ~ In t (sc_topics c) ->
  sub_step fixed s (PSetOpt k (OUnsub t)) = (s, [OptRv E_NOENT]).
Proof. exact sub_unsubscribe_unknown. Qed.
Print Assumptions sub_unsubscribe_unknown_enoent.

(* the invariant (one step, then every history from the initial state): every queued body
   matches some current topic of its own context; waiting receivers imply an empty buffer;
   depth within 1..cap; topics and context ids without duplicates *)
Theorem sub_invariant_step : forall fixed s o s' outs,
  SInv s -> sub_op_ok s o -> sub_step fixed s o = (s', outs) -> SInv s'.
Proof. exact sub_step_inv. Qed.
Print Assumptions sub_invariant_step.

Theorem sub_queue_invariant : forall fixed ops,
  sub_ops_ok fixed sub_init ops ->
  let s := fst (sub_run fixed sub_init ops) in
  SInv s /\ forall c m, In c (sb_ctxs s) -> In m (sc_lmq c) -> subscribed c m.
Proof. exact sub_queue_invariant_run. Qed.
Print Assumptions sub_queue_invariant.

(* per receiver (context k, alive throughout the history) and per publisher: what k was handed
   followed by what it still buffers is a subsequence d of the arrivals (tagged with the pipe they
   came on); hence, restricted to any one publisher p, a subsequence of p's messages: nothing
   invented, altered, duplicated or reordered *)
Theorem sub_order_no_dup_per_publisher : forall fixed k ops s,
  SInv s -> sub_ops_ok fixed s ops -> Forall (keeps_ctx k) ops -> lmq_of k s = [] ->
  let (s', tr) := sub_run fixed s ops in
  exists d : list (N * pmsg),
    Sublist d (tr_arrivals tr) /\ map snd d = tr_got k tr ++ lmq_of k s' /\
    forall p, Sublist (filter (fun x => N.eqb (fst x) p) d) (filter (fun x => N.eqb (fst x) p) (tr_arrivals tr)).
Proof. exact sub_order_per_publisher. Qed.
Print Assumptions sub_order_no_dup_per_publisher.

Theorem sub_order_step_law : forall fixed s o s' outs k,
  SInv s -> keeps_ctx k o -> sub_step fixed s o = (s', outs) ->
  Sublist (got_of k s o outs ++ lmq_of k s') (lmq_of k s ++ arrived o) /\
  (find_ctx k (sb_ctxs s) <> None -> find_ctx k (sb_ctxs s') <> None).
Proof. exact sub_order_step. Qed.
Print Assumptions sub_order_step_law.

(* conservation with duplicates: owned + arrived + copies made = owned' + handed to the
   application + freed, as multisets, for every step and every history *)
Theorem sub_conservation_step : forall fixed s o s' outs,
  SInv s -> sub_step fixed s o = (s', outs) ->
  forall x, cnt x (owned s ++ arrived o ++ dups s o) = cnt x (owned s' ++ delivered outs ++ freed outs).
Proof. exact sub_conservation_step_law. Qed.
Print Assumptions sub_conservation_step.

Theorem sub_conservation : forall fixed ops s, SInv s -> sub_ops_ok fixed s ops ->
  let (s', tr) := sub_run fixed s ops in
  forall x, cnt x (owned s ++ tr_in tr) = cnt x (owned s' ++ tr_outm tr).
Proof. exact sub_conservation_run. Qed.
Print Assumptions sub_conservation.

(* non-blocking receive: completes in the same step and is never queued; NNG_EAGAIN exactly
   when that context's buffer is empty -- exactly when the blocking form would have been queued --
   with the state unchanged; otherwise the oldest buffered message *)
Theorem sub_nb_immediate : forall fixed s k a s' outs,
  sub_step fixed s (PRecv k a true) = (s', outs) ->
  exists rv x, outs = [Complete a rv x] /\
    (forall c, In c (sb_ctxs s') -> ~ In a (sc_rq c) \/ exists c0, In c0 (sb_ctxs s) /\ In a (sc_rq c0)) /\
    (rv = E_AGAIN -> s' = s /\ x = None /\ exists c, find_ctx k (sb_ctxs s) = Some c /\ sc_lmq c = []) /\
    (rv = E_OK -> exists c m rest, find_ctx k (sb_ctxs s) = Some c /\ sc_lmq c = m :: rest /\ x = Some m /\
                  find_ctx k (sb_ctxs s') = Some (set_lmq c rest)) /\
    (rv = E_AGAIN \/ rv = E_OK \/ (rv = E_CLOSED /\ find_ctx k (sb_ctxs s) = None /\ s' = s)).
Proof. exact sub_nb_recv. Qed.
Print Assumptions sub_nb_immediate.

Theorem sub_nb_succeeds_if_possible : forall fixed s k a c,
  find_ctx k (sb_ctxs s) = Some c ->
  (sc_lmq c = [] <-> snd (sub_step fixed s (PRecv k a false)) = []) /\
  (sc_lmq c = [] <-> snd (sub_step fixed s (PRecv k a true)) = [Complete a E_AGAIN None]).
Proof. exact sub_blocking_queues_iff. Qed.
Print Assumptions sub_nb_succeeds_if_possible.

(* the recv descriptor.  Repaired sub0_ctx_unsubscribe (what the current source has, see
   pubsub_consts_match): in every reachable state it is raised iff a non-blocking receive on the
   socket would succeed.  Pinned form: refuted (sub "a", publish "abc", unsubscribe "a"), but the
   "no missed wake-up" half holds for both. *)
Theorem sub_poll_mirror_holds : forall ops,
  sub_ops_ok true sub_init ops ->
  let s := fst (sub_run true sub_init ops) in
  forall a, poll_r (sub_poll s) = Some true <-> exists m, snd (sub_step true s (PRecv None a true)) = [Complete a E_OK (Some m)].
Proof. exact sub_mirror_holds. Qed.
Print Assumptions sub_poll_mirror_holds.

Theorem sub_poll_mirror_pinned_refuted :
  (exists ops, sub_ops_ok false sub_init ops /\ ~ RInv (fst (sub_run false sub_init ops))) /\
  (sub_ops_ok false sub_init refute_ops /\
   let s := fst (sub_run false sub_init refute_ops) in
   poll_r (sub_poll s) = Some true /\ snd (sub_step false s (PRecv None 9%N true)) = [Complete 9%N E_AGAIN None]).
Proof. split; [exact sub_mirror_pinned_refuted|exact sub_mirror_refuted_witness]. Qed.
Print Assumptions sub_poll_mirror_pinned_refuted.

Theorem sub_poll_no_missed_wakeup : forall fixed ops,
  sub_ops_ok fixed sub_init ops ->
  let s := fst (sub_run fixed sub_init ops) in
  forall a m, snd (sub_step fixed s (PRecv None a true)) = [Complete a E_OK (Some m)] -> poll_r (sub_poll s) = Some true.
Proof. exact sub_no_missed_wakeup. Qed.
Print Assumptions sub_poll_no_missed_wakeup.

(* a send always completes at once with success -- blocking or not makes no difference -- and
   the state has no place where a user aio could be queued *)
Theorem pub_send_never_blocks : forall s c a nb m,
  exists pre, pub_step s (PSend c a nb m) =
    (mkPub (map (fun p => fst (pipe_send p m)) (pb_pipes s)) (pb_sendbuf s), pre ++ [Free m; Complete a E_OK None]) /\
    (forall a' rv x, ~ In (Complete a' rv x) pre) /\
    pub_step s (PSend c a true m) = pub_step s (PSend c a false m).
Proof. exact pub_send_immediate. Qed.
Print Assumptions pub_send_never_blocks.

(* fan-out: every started, not yet closed pipe gets the message exactly once -- straight to its
   transport if idle, else at the tail of its queue, dropping the oldest queued message when the
   queue is full; closed pipes get nothing *)
Theorem pub_fanout_each_pipe_once : forall p m, fanout_spec p m (fst (pipe_send p m)) (snd (pipe_send p m)).
Proof. exact pub_fanout_law. Qed.
Print Assumptions pub_fanout_each_pipe_once.

(* per-pipe FIFO: what pipe p's transport is handed in a step, followed by what p still queues,
   is a subsequence of what it queued followed by what the application sent in that step *)
Theorem pub_per_pipe_fifo : forall s o s' outs p,
  PubInv s -> pub_step s o = (s', outs) -> (forall peer, o <> PPipeStart p peer) ->
  Sublist (txs_on p outs ++ q_of p s') (q_of p s ++ sent_by_app o).
Proof. exact pub_pipe_fifo_step. Qed.
Print Assumptions pub_per_pipe_fifo.

Theorem pub_invariant_step : forall s o s' outs, PubInv s -> pub_op_ok s o -> pub_step s o = (s', outs) -> PubInv s'.
Proof. exact pub_step_inv. Qed.
Print Assumptions pub_invariant_step.

(* conservation: owned + (the caller's message and one clone per open pipe | a received message)
   = owned' + taken by the transports + freed *)
Theorem pub_conservation : forall ops s, PubInv s -> pub_ops_ok s ops ->
  let (s', tr) := pub_run s ops in
  PubInv s' /\ forall y, cnt y (pub_owned s ++ ptr_in tr) = cnt y (pub_owned s' ++ ptr_out tr).
Proof. exact pub_conservation_run. Qed.
Print Assumptions pub_conservation.

(* the send descriptor is always raised and a non-blocking send never answers NNG_EAGAIN *)
Theorem pub_poll_mirror_holds : forall s c a m,
  poll_w (pub_poll s) = Some true /\ In (Complete a E_OK None) (snd (pub_step s (PSend c a true m))) /\
  ~ In (Complete a E_AGAIN None) (snd (pub_step s (PSend c a true m))).
Proof. exact pub_poll_mirror. Qed.
Print Assumptions pub_poll_mirror_holds.

(* no filtering: an arriving message goes to the oldest waiting reader, else into the socket's
   upper read queue if there is room, else it is discarded -- whatever its body *)
Theorem xsub_no_filtering : forall mf rf s p m,
  xs_closed s = false ->
  (forall a r, xs_rq s = a :: r ->
     xsub_step mf rf s (PRecvDone p 0%N m) = (run_notify (mkXsub (xs_q s) (xs_cap s) r false (xs_recvable s)), [Complete a E_OK (Some m); TranRecv p])) /\
  (xs_rq s = [] -> length (xs_q s) < xs_cap s ->
     xsub_step mf rf s (PRecvDone p 0%N m) = (run_notify (mkXsub (xs_q s ++ [m]) (xs_cap s) [] false (xs_recvable s)), [TranRecv p])) /\
  (xs_rq s = [] -> xs_cap s <= length (xs_q s) ->
     xsub_step mf rf s (PRecvDone p 0%N m) = (s, [Free m; TranRecv p])).
Proof. exact xsub_arrival_law. Qed.
Print Assumptions xsub_no_filtering.

(* everything goes through the queue in order, and is conserved *)
Theorem xsub_through_urq : forall mf rf s o s' outs,
  XInv s -> xsub_step mf rf s o = (s', outs) ->
  XInv s' /\
  Sublist (delivered outs ++ xs_q s') (xs_q s ++ arrived o) /\
  (forall x, cnt x (xs_q s ++ arrived o) = cnt x (xs_q s' ++ delivered outs ++ freed outs)).
Proof. exact xsub_step_law. Qed.
Print Assumptions xsub_through_urq.

(* non-blocking receive and descriptor, repaired nni_msgq_aio_get (current source): immediate,
   NNG_EAGAIN iff nothing is queued iff the blocking form would wait, state unchanged then; the
   descriptor is raised iff the non-blocking receive would succeed.  Pinned form: refuted. *)
Theorem xsub_nb_holds : forall rf s k a s' outs,
  XInv s -> xsub_step true rf s (PRecv k a true) = (s', outs) ->
  exists rv x, outs = [Complete a rv x] /\ xs_rq s' = xs_rq s /\
    (rv = E_AGAIN <-> xs_q s = []) /\ (rv = E_AGAIN -> s' = s /\ x = None) /\
    (rv <> E_AGAIN -> rv = E_OK /\ exists m r, xs_q s = m :: r /\ x = Some m /\ xs_q s' = r) /\
    (xs_q s = [] <-> snd (xsub_step true rf s (PRecv k a false)) = []) /\
    (poll_r (xsub_poll s) = Some true <-> rv <> E_AGAIN).
Proof. exact xsub_nb_fixed. Qed.
Print Assumptions xsub_nb_holds.

Theorem xsub_nb_succeeds_if_possible_pinned_refuted :
  exists s, XInv s /\ poll_r (xsub_poll s) = Some true /\
    snd (xsub_step false false s (PRecv None 9%N true)) = [Complete 9%N E_AGAIN None] /\
    snd (xsub_step false false s (PRecv None 9%N false)) <> [].
Proof. exact xsub_nb_pinned_refuted. Qed.
Print Assumptions xsub_nb_succeeds_if_possible_pinned_refuted.

(* the literals of the models are those of the current source, and the current source has the
   repaired variants (Gen/Consts.v is regenerated from /repo on every run) *)
Theorem pubsub_consts_match :
  PROTO_PUB = C05_PROTO_PUB /\ PROTO_SUB = C05_PROTO_SUB /\
  SUB_DEFAULT_RECV_BUF = C05_SUB_DEFAULT_RECV_BUF_LEN /\ SUB_DEFAULT_PREFNEW = C05_SUB_DEFAULT_PREFER_NEW /\
  SUB_RECVBUF_MIN = C05_SUB_RECVBUF_MIN /\ SUB_RECVBUF_MAX = C05_SUB_RECVBUF_MAX /\
  PUB_DEFAULT_SENDBUF = C05_PUB_DEFAULT_SENDBUF /\ PUB_SENDBUF_MIN = C05_PUB_SENDBUF_MIN /\ PUB_SENDBUF_MAX = C05_PUB_SENDBUF_MAX /\
  XSUB_DEFAULT_RECVBUF = C05_SOCK_URQ_DEFAULT /\ C05_SOCK_RECVBUF_MIN = 0%N /\ C05_SOCK_RECVBUF_MAX = 8192%N /\
  E_INVAL = C05_NNG_EINVAL /\ E_CLOSED = C05_NNG_ECLOSED /\ E_AGAIN = C05_NNG_EAGAIN /\ E_NOTSUP = C05_NNG_ENOTSUP /\
  E_NOENT = C05_NNG_ENOENT /\ E_PROTO = C05_NNG_EPROTO /\
  sub_step_cur = sub_step true /\ xsub_step_cur = xsub_step true true.
Proof. repeat split; reflexivity. Qed.
Print Assumptions pubsub_consts_match.

Example sub_history_nonvacuous :
  let ops := [PPipeStart 1%N PROTO_PUB; PCtxOpen 5%N; PSetOpt (Some 5%N) (OSub [97%N]); PSetOpt None (OSub []);
              PRecv (Some 5%N) 3%N false; PRecvDone 1%N 0%N (mkPmsg [] [97%N; 98%N]); PRecvDone 1%N 0%N (mkPmsg [] [98%N])] in
  sub_ops_ok true sub_init ops /\ Forall (keeps_ctx None) ops /\
  tr_got (Some 5%N) (snd (sub_run true sub_init ops)) = [mkPmsg [] [97%N; 98%N]] /\
  lmq_of None (fst (sub_run true sub_init ops)) = [mkPmsg [] [97%N; 98%N]; mkPmsg [] [98%N]] /\
  lmq_of (Some 5%N) (fst (sub_run true sub_init ops)) = [].
Proof.
  cbv zeta. split; [vm_compute; repeat split; auto; intros [H|[]]; discriminate|]. split.
  - apply Forall_forall; intros o Ho; cbn in Ho.
    repeat (destruct Ho as [<-|Ho]; [cbn; try exact I; discriminate|]); contradiction.
  - vm_compute. repeat split; reflexivity.
Qed.

Example pub_history_nonvacuous :
  let ops := [PSetOpt None (OSendBuf 1); PPipeStart 1%N PROTO_SUB; PSend None 1%N true (mkPmsg [] [1%N]);
              PSend None 2%N true (mkPmsg [] [2%N]); PSend None 3%N true (mkPmsg [] [3%N]); PSendDone 1%N 0%N] in
  pub_ops_ok pub_init ops /\ PubInv pub_init /\
  q_of 1%N (fst (pub_run pub_init ops)) = [] /\
  txs_on 1%N (flat_map (fun x => snd x) (snd (pub_run pub_init ops))) = [mkPmsg [] [1%N]; mkPmsg [] [3%N]].
Proof.
  cbv zeta. split; [vm_compute; repeat split; auto|]. split; [exact pub_init_inv|]. vm_compute. split; reflexivity.
Qed.
