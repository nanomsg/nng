(* Properties_C07: statements only.  C07 -- SURVEY: only responses to the current
   survey, only before its deadline; the respondent answers the origin of the survey it
   most recently received, once.  Models: Proto/SurveyModel (survey.c), RespondModel
   (respond.c), XSurveyModel (xsurvey.c + msgqueue.c entry points), XRespondModel
   (xrespond.c), SurveyBacktrace (the pure header/body transformers, shared with C13).

   Not proved in this round (stated so rather than weakened silently): the surveyor's
   receive-descriptor mirror as an invariant over histories (the model raises/clears it
   where survey.c does; checked by the correspondence only), the respondent's mirror
   invariant for the fully repaired source, and the cnt-style conservation laws of
   PROTO_GUIDE 4(c) for the four models. *)
From Coq Require Import List Arith NArith Bool ZArith.
From NngV Require Import Gen.Consts Proto.Common Proto.SurveyBacktrace Proto.SurveyModel Proto.RespondModel
  Proto.XSurveyModel Proto.XRespondModel Proto.SurveyProofs Proto.RespondProofs Proto.XSurveyProofs.
Import ListNotations.

(* every message the model hands to the application -- in any step, from any state satisfying the
   invariant -- carries the current (non-zero) survey id of the context that gets it, and gets there
   either through the receive being posted (deadline not passed) or as that context's oldest pending
   receive being completed by an arriving response *)
Theorem survey_only_current_id : forall fx s o s' outs a m,
  SInv s -> surv_op_ok o -> surv_step fx s o = (s', outs) -> In (Complete a E_OK (Some m)) outs ->
  exists k c, kget k (sv_ctxs s) = Some c /\ sc_survey c <> 0%N /\ hdr_id (pm_hdr m) = sc_survey c /\
    ((exists cc nb, o = PRecv cc a nb /\ ckey cc = k /\ (Z.of_N (sv_now s) < sc_expire c)%Z) \/
     (exists r p rv w, sc_rq c = a :: r /\ o = PRecvDone p rv w)).
Proof. exact surv_delivery_only_current. Qed.
Print Assumptions survey_only_current_id.

(* the invariant holds initially and is kept by every step (the contract: transports deliver the wire
   message in the body) *)
Theorem survey_invariant : SInv surv_init /\
  forall fx s o s' outs, SInv s -> surv_op_ok o -> surv_step fx s o = (s', outs) -> SInv s'.
Proof. exact (conj surv_init_inv surv_step_inv). Qed.
Print Assumptions survey_invariant.

(* a response whose id no context owns (stale, foreign, unknown, without the high bit, zero) is freed;
   no context, pipe or descriptor changes and the pipe goes on receiving *)
Theorem survey_only_current_id_unowned : forall fx s p m id h b,
  surv_recv (pm_body m) = Some (id, h, b) -> find_owner id (sv_ctxs s) = None ->
  surv_step fx s (PRecvDone p 0 m) = (s, [Free (mkPmsg (pm_hdr m ++ h) b); TranRecv p]).
Proof. exact surv_unowned_response_discarded. Qed.
Print Assumptions survey_only_current_id_unowned.

(* a response whose id a context owns reaches that context only; all others are untouched *)
Theorem survey_only_current_id_owned : forall fx s p m id h b k c s' outs,
  NoDup (map fst (sv_ctxs s)) ->
  surv_recv (pm_body m) = Some (id, h, b) -> find_owner id (sv_ctxs s) = Some (k, c) ->
  surv_step fx s (PRecvDone p 0 m) = (s', outs) ->
  sc_survey c = id /\ id <> 0%N /\
  (forall k', k' <> k -> kget k' (sv_ctxs s') = kget k' (sv_ctxs s)) /\
  sv_pipes s' = sv_pipes s /\
  (forall a rv x, In (Complete a rv x) outs ->
     rv = E_OK /\ x = Some (mkPmsg (pm_hdr m ++ h) b) /\ exists r, sc_rq c = a :: r) /\
  (sc_rq c = [] -> length (sc_lmq c) < SURV_RECV_BUF ->
     exists c', kget k (sv_ctxs s') = Some c' /\ sc_lmq c' = sc_lmq c ++ [mkPmsg (pm_hdr m ++ h) b] /\ sc_survey c' = id).
Proof. exact surv_owned_response. Qed.
Print Assumptions survey_only_current_id_owned.

(* a response shorter than 4 bytes disconnects its sender *)
Theorem survey_short_response_disconnects : forall fx s p m,
  length (pm_body m) < 4 -> surv_step fx s (PRecvDone p 0 m) = (s, [Free m; ClosePipe p]).
Proof. exact surv_short_response_disconnects. Qed.
Print Assumptions survey_short_response_disconnects.

(* a new survey cancels the context's pending receives (NNG_ECANCELED), frees its queued responses,
   retires the old id and installs a fresh one: in range, different from every other context's;
   deadline = clock + survey time; no other context changes *)
Theorem survey_new_aborts_old : forall fx s c a nb m cx s' outs,
  (ID_LO <= sv_cur s <= ID_HI)%N ->
  get_ctx s c = Some cx -> surv_step fx s (PSend c a nb m) = (s', outs) ->
  (forall r, In r (sc_rq cx) -> In (Complete r E_CANCELED None) outs) /\
  (forall x, In x (sc_lmq cx) -> In (Free x) outs) /\
  (forall r rv x, In (Complete r rv x) outs -> r <> a -> In r (sc_rq cx) /\ rv = E_CANCELED /\ x = None) /\
  (In (Complete a E_OK None) outs ->
     exists cx', get_ctx s' c = Some cx' /\ sc_lmq cx' = [] /\ sc_rq cx' = [] /\
       (ID_LO <= sc_survey cx' <= ID_HI)%N /\
       sc_expire cx' = (Z.of_N (sv_now s) + sc_stime cx)%Z /\
       (forall k' c', k' <> ckey c -> In (k', c') (sv_ctxs s) -> sc_survey c' <> sc_survey cx') /\
       (forall k', k' <> ckey c -> kget k' (sv_ctxs s') = kget k' (sv_ctxs s))).
Proof. exact surv_new_survey_aborts_old. Qed.
Print Assumptions survey_new_aborts_old.

(* id freshness: what the generator hands out is in range (= 32 bits, high bit set), not in use, and
   leaves the cursor in range *)
Theorem survey_id_fresh : forall fuel live cur id cur',
  (ID_LO <= cur <= ID_HI)%N -> id_alloc fuel live cur = Some (id, cur') ->
  ~ In id live /\ (ID_LO <= id <= ID_HI)%N /\ (ID_LO <= cur' <= ID_HI)%N.
Proof. exact surv_id_alloc_fresh. Qed.
Print Assumptions survey_id_fresh.
Theorem survey_id_high_bit : forall id, (ID_LO <= id <= ID_HI)%N <-> (N.testbit id 31 = true /\ id < 4294967296)%N.
Proof. exact id_range_high_bit. Qed.
Print Assumptions survey_id_high_bit.

Theorem survey_recv_estate_without_survey : forall fx s c a nb cx,
  get_ctx s c = Some cx -> sc_survey cx = 0%N ->
  surv_step fx s (PRecv c a nb) = (s, [Complete a E_STATE None]).
Proof. exact surv_recv_estate_no_survey. Qed.
Print Assumptions survey_recv_estate_without_survey.

Theorem survey_recv_estate_after_deadline : forall fx s c a nb cx,
  get_ctx s c = Some cx -> (sc_expire cx <= Z.of_N (sv_now s))%Z ->
  surv_step fx s (PRecv c a nb) = (s, [Complete a E_STATE None]).
Proof. exact surv_recv_estate_after_deadline. Qed.
Print Assumptions survey_recv_estate_after_deadline.

(* the expiry event: receives pending at the deadline complete with NNG_ETIMEDOUT, the id is retired,
   nothing is delivered (this is the clamped expiry; a receive's own shorter timeout is survey_recv_own_timeout_retires) *)
Theorem survey_pending_times_out : forall fx s now k c a s' outs,
  kget k (sv_ctxs s) = Some c -> In a (sc_rq c) -> (sc_expire c < Z.of_N now)%Z ->
  surv_step fx s (PTick now) = (s', outs) ->
  In (Complete a E_TIMEDOUT None) outs /\
  (exists c', kget k (sv_ctxs s') = Some c' /\ sc_survey c' = 0%N /\ sc_rq c' = []) /\
  (forall a' rv x, In (Complete a' rv x) outs -> rv = E_TIMEDOUT /\ x = None).
Proof. exact surv_pending_times_out. Qed.
Print Assumptions survey_pending_times_out.

(* a receive whose own timeout ends before the survey's deadline (the link layer's PCancel a 5), or one that
   the application cancels: it completes with that error, nothing is delivered, the survey is retired (as coded) *)
Theorem survey_recv_own_timeout_retires : forall fx s a rv k c s' outs,
  kget k (sv_ctxs s) = Some c -> In a (sc_rq c) ->
  (forall k' c', In (k', c') (sv_ctxs s) -> In a (sc_rq c') -> k' = k) ->
  surv_step fx s (PCancel a rv) = (s', outs) ->
  outs = [Complete a rv None] /\
  exists c', kget k (sv_ctxs s') = Some c' /\ sc_survey c' = 0%N /\ sc_rq c' = remove_id a (sc_rq c) /\ sc_lmq c' = sc_lmq c.
Proof. exact surv_recv_cancel_retires. Qed.
Print Assumptions survey_recv_own_timeout_retires.

(* late responses: from a state in which the context has nothing pending and the clock is at or past the
   deadline (reached when the expiry event has run, or by time passing with no receive posted), no history
   whatsoever -- responses with any ids, other contexts' traffic, receives, cancels, ticks forward in time --
   delivers a message to that context until the application sends a new survey on it.  (While a receive is
   pending a response can still win the race against the expiry event itself: that window closes with
   survey_pending_times_out.) *)
Theorem survey_late_response_never_delivered : forall fx ops s k,
  SInv s -> dead_ctx s k -> surv_ops_ok fx s k ops ->
  forall o s1 outs a m, In (o, s1, outs) (snd (surv_run fx s ops)) -> In (Complete a E_OK (Some m)) outs ->
  forall c, kget k (sv_ctxs s1) = Some c -> ~ In a (sc_rq c) /\ (forall cc nb, o = PRecv cc a nb -> ckey cc <> k).
Proof. exact surv_late_never_delivered. Qed.
Print Assumptions survey_late_response_never_delivered.

(* fan-out: each pipe on s->pipes is offered the survey exactly once (idle: transmitted now; busy with
   room: queued; busy and full: not -- the drop rule as coded; closed: skipped) *)
Theorem survey_fanout_each_pipe_once : forall m l,
  fst (fanout m l) = map (fun px => (fst px, offer m (snd px))) l /\
  snd (fanout m l) = map (fun px => TranSend (fst px) m) (filter (fun px => negb (sp_closed (snd px)) && negb (sp_busy (snd px))) l).
Proof. exact surv_fanout_each_pipe_once. Qed.
Print Assumptions survey_fanout_each_pipe_once.

(* non-blocking receive: with the repair of surv0_ctx_recv's clamp test (present in the source iff
   C07_SURV_NBRECV_FIXED) it completes at once, EAGAIN exactly when the blocking form would wait, state unchanged *)
Theorem surveyor_nb_recv_immediate : forall s c a s' outs,
  surv_step true s (PRecv c a true) = (s', outs) ->
  exists rv x, outs = [Complete a rv x] /\
    (rv = E_AGAIN <-> surv_recv_would_wait s c = true) /\ (rv = E_AGAIN -> s' = s /\ x = None) /\
    (forall k cx', In (k, cx') (sv_ctxs s') -> exists k0 cx, In (k0, cx) (sv_ctxs s) /\ sc_rq cx' = sc_rq cx).
Proof. exact surv_nb_recv_immediate. Qed.
Print Assumptions surveyor_nb_recv_immediate.
(* ... and without it (the source as pinned; fixed by 73ad6a8) the NONBLOCK receive is queued until the deadline *)
Theorem surveyor_nb_recv_immediate_refuted :
  exists s a, snd (surv_step false s (PRecv None a true)) = [Arm 1000%N] /\
              exists cx, kget 0%N (sv_ctxs (fst (surv_step false s (PRecv None a true)))) = Some cx /\ sc_rq cx = [a].
Proof. exact surv_nb_recv_immediate_refuted. Qed.
Print Assumptions surveyor_nb_recv_immediate_refuted.

Theorem respond_to_origin_once : forall fx s c a m cx s' outs,
  rget_ctx s c = Some cx -> rc_bt cx <> [] -> (rf_sbusy fx = true -> rc_saio cx = None) ->
  resp_step fx s (PSend c a false m) = (s', outs) ->
  (exists cx', rget_ctx s' c = Some cx' /\ rc_bt cx' = [] /\ rc_pipe cx' = 0%N) /\
  (forall q w, In (q, w) (rtxs outs) -> q = rc_pipe cx /\ w = mkPmsg (rc_bt cx) (pm_body m)) /\
  length (rtxs outs) <= 1 /\
  match live_pipe (rc_pipe cx) (rs_pipes s) with
  | None => outs = [Complete a E_OK None; Free (mkPmsg (rc_bt cx) (pm_body m))]
  | Some x => if rp_busy x
              then outs = [] /\ exists cx', rget_ctx s' c = Some cx' /\ rc_saio cx' = Some (a, mkPmsg (rc_bt cx) (pm_body m))
              else outs = [TranSend (rc_pipe cx) (mkPmsg (rc_bt cx) (pm_body m)); Complete a E_OK None]
  end.
Proof. exact resp_to_origin_once. Qed.
Print Assumptions respond_to_origin_once.

(* the origin recorded is that of the survey most recently received by the context (either delivery path) *)
Theorem respond_origin_is_latest_survey : forall fx s p m hdr body x k rest c a s' outs,
  pm_hdr m = [] -> resp_recv (rs_ttl s) (pm_body m) = BtDeliver hdr body ->
  live_pipe p (rs_pipes s) = Some x -> rs_recvq s = k :: rest -> kget k (rs_ctxs s) = Some c -> rc_raio c = Some a ->
  resp_step fx s (PRecvDone p 0 m) = (s', outs) ->
  outs = [TranRecv p; Complete a E_OK (Some (mkPmsg [] body))] /\
  exists c', kget k (rs_ctxs s') = Some c' /\ rc_pipe c' = p /\ rc_bt c' = hdr /\ rc_raio c' = None.
Proof. exact resp_recv_records_origin_cb. Qed.
Print Assumptions respond_origin_is_latest_survey.
Theorem respond_origin_is_latest_survey_waiting : forall fx s c a nb cx p rest x msg tl s' outs,
  rget_ctx s c = Some cx -> rs_recvpipes s = p :: rest -> kget p (rs_pipes s) = Some x -> rp_rmsg x = msg :: tl ->
  resp_step fx s (PRecv c a nb) = (s', outs) ->
  outs = [TranRecv p; Complete a E_OK (Some (mkPmsg [] (pm_body msg)))] /\
  exists cx', rget_ctx s' c = Some cx' /\ rc_pipe cx' = p /\ rc_bt cx' = pm_hdr msg.
Proof. exact resp_recv_records_origin_direct. Qed.
Print Assumptions respond_origin_is_latest_survey_waiting.
Theorem respond_queued_response_same_pipe : forall fx s p x k rest c a m s' outs,
  kget p (rs_pipes s) = Some x -> rp_sendq x = k :: rest -> kget k (rs_ctxs s) = Some c -> rc_saio c = Some (a, m) ->
  resp_step fx s (PSendDone p 0) = (s', outs) -> outs = [TranSend p m; Complete a E_OK None].
Proof. exact resp_send_done_takes_queued. Qed.
Print Assumptions respond_queued_response_same_pipe.

Theorem respond_estate : forall fx s c a m cx s' outs,
  rget_ctx s c = Some cx -> rc_bt cx = [] ->
  resp_step fx s (PSend c a false m) = (s', outs) ->
  outs = [Complete a E_STATE None] /\ rs_ctxs s' = rs_ctxs s /\ rs_pipes s' = rs_pipes s.
Proof. exact resp_send_estate. Qed.
Print Assumptions respond_estate.
Theorem respond_estate_second_recv : forall fx s c a cx a0,
  rget_ctx s c = Some cx -> rc_raio cx = Some a0 -> rs_recvpipes s = [] ->
  resp_step fx s (PRecv c a false) = (s, [Complete a E_STATE None]).
Proof. exact resp_second_recv_estate. Qed.
Print Assumptions respond_estate_second_recv.

(* NONBLOCK send: holds for the model with every repair; refuted for the source as it is (respond.c
   resp0_ctx_send starts the aio first -- known finding respondent-nb-send-eagain, kept because the
   repository's own respond_test expects ETIMEDOUT there) *)
Theorem respondent_nb_send_immediate : forall s c a m s' outs,
  resp_step rfix_all s (PSend c a true m) = (s', outs) ->
  exists rv, In (Complete a rv None) outs /\
    (rv = E_AGAIN <-> resp_send_would_wait s c = true) /\ (rv = E_AGAIN -> s' = s /\ outs = [Complete a E_AGAIN None]) /\
    (forall k cx', In (k, cx') (rs_ctxs s') -> forall w, rc_saio cx' = Some (a, w) -> exists cx, In (k, cx) (rs_ctxs s) /\ rc_saio cx = Some (a, w)).
Proof. exact resp_nb_send_immediate. Qed.
Print Assumptions respondent_nb_send_immediate.
Theorem respondent_nb_send_refuted :
  resp_poll resp_w1 = mkPoll (Some false) (Some true) /\ resp_send_would_wait resp_w1 None = false /\
  snd (resp_step rfix_none resp_w1 (PSend None 2%N true (mkPmsg [] [9%N]))) = [Complete 2%N E_AGAIN None] /\
  resp_poll (fst (resp_step rfix_none resp_w1 (PSend None 2%N true (mkPmsg [] [9%N])))) = mkPoll (Some false) (Some false) /\
  snd (resp_step rfix_none resp_w1 (PSend None 2%N false (mkPmsg [] [9%N]))) =
    [TranSend 1%N (mkPmsg [128%N; 0%N; 0%N; 1%N] [9%N]); Complete 2%N E_OK None].
Proof. exact resp_nb_send_refuted. Qed.
Print Assumptions respondent_nb_send_refuted.
(* descriptor mirror of the respondent: refuted on the source as pinned (witnesses; each repaired since:
   8bf1af0, 2483f2a, e658c2e -- the same histories on the repaired model show the descriptor down) *)
Theorem respondent_poll_w_mirror_refuted :
  resp_poll (rrun rfix_none resp_w_busy) = mkPoll (Some false) (Some true) /\ resp_send_would_wait (rrun rfix_none resp_w_busy) None = true /\
  resp_poll (rrun rfix_all resp_w_busy) = mkPoll (Some false) (Some false).
Proof. exact resp_poll_w_mirror_refuted. Qed.
Print Assumptions respondent_poll_w_mirror_refuted.
Theorem respondent_poll_r_mirror_refuted :
  resp_poll (rrun rfix_none resp_r_close) = mkPoll (Some true) (Some false) /\
  snd (resp_step rfix_none (rrun rfix_none resp_r_close) (PRecv None 5%N true)) = [Complete 5%N E_AGAIN None] /\
  resp_poll (rrun rfix_all resp_r_close) = mkPoll (Some false) (Some false).
Proof. exact resp_poll_r_mirror_refuted. Qed.
Print Assumptions respondent_poll_r_mirror_refuted.
(* a second response while the context's first is still queued: the pinned source links the context twice
   into the pipe's list (the C panics in nni_list_append; repaired by 08762d5: NNG_ESTATE) *)
Theorem respondent_second_queued_send_refuted :
  (exists x, kget 1%N (rs_pipes (rrun rfix_none resp_two_sends)) = Some x /\ rp_sendq x = [0%N; 0%N]) /\
  (exists x, kget 1%N (rs_pipes (rrun rfix_all resp_two_sends)) = Some x /\ rp_sendq x = [0%N]) /\
  snd (resp_step rfix_all (rrun rfix_all (removelast resp_two_sends)) (PSend None 6%N false (mkPmsg [] [11%N]))) = [Complete 6%N E_STATE None].
Proof. exact resp_second_queued_send_refuted. Qed.
Print Assumptions respondent_second_queued_send_refuted.

(* backtrace functions, shared with C13 *)
Theorem backtrace_header_bounded : forall n hdr body,
  match bt_move n hdr body with BtDeliver h _ => length h <= HDR_MAX | _ => True end.
Proof. exact bt_move_header_bounded. Qed.
Print Assumptions backtrace_header_bounded.
Theorem backtrace_bytes_conserved : forall n hdr body h b,
  bt_move n hdr body = BtDeliver h b ->
  h ++ b = hdr ++ body /\ length h <= HDR_MAX /\ length hdr < length h /\ length h <= length hdr + 4 * n.
Proof. exact bt_move_deliver. Qed.
Print Assumptions backtrace_bytes_conserved.
(* k hop words and a terminating id: delivered iff k + 1 <= ttl, else dropped *)
Theorem backtrace_ttl_rule : forall ws n hdr wend rest,
  Forall (fun w => is_end (wfirst w) = false) ws -> is_end (wfirst wend) = true ->
  length hdr + 4 * (length ws + 1) <= HDR_MAX ->
  bt_move n hdr (flat ws ++ wbytes wend ++ rest) =
    if length ws <? n then BtDeliver (hdr ++ flat ws ++ wbytes wend) rest else BtDrop.
Proof. exact bt_move_terminated. Qed.
Print Assumptions backtrace_ttl_rule.
(* k hop words and then fewer than 4 bytes: disconnect if k < ttl, else dropped *)
Theorem backtrace_short_body_rule : forall ws n hdr (tl : list N),
  Forall (fun w => is_end (wfirst w) = false) ws -> length tl < 4 ->
  length hdr + 4 * length ws <= HDR_MAX ->
  bt_move n hdr (flat ws ++ tl) = if length ws <? n then BtClose else BtDrop.
Proof. exact bt_move_unterminated. Qed.
Print Assumptions backtrace_short_body_rule.
(* for ttl <= 15 the header (empty or holding the pipe id) always has room: "header full => drop" is dead code *)
Theorem backtrace_header_never_full : forall (hdr : list N) n k,
  length hdr <= 4 -> n <= TTL_MAX -> k < n -> length hdr + 4 * (k + 1) <= HDR_MAX.
Proof. exact bt_room. Qed.
Print Assumptions backtrace_header_never_full.
(* what the raw respondent passes up routes back: pipe id first, popped again by its send, the rest is the
   cooked respondent's backtrace *)
Theorem xrespond_backtrace_roundtrip : forall p ttl wire h b,
  (p < 4294967296)%N -> xresp_recv p ttl wire = BtDeliver h b ->
  exists bt, h = be32 p ++ bt /\ xresp_send h = Some (p, bt) /\ bt ++ b = wire /\ resp_recv ttl wire = BtDeliver bt b.
Proof. exact xresp_roundtrip. Qed.
Print Assumptions xrespond_backtrace_roundtrip.
Theorem surveyor_id_roundtrip : forall id body, (id < 4294967296)%N ->
  surv_recv (surv_send id body) = Some (id, be32 id, body).
Proof. exact surv_send_recv. Qed.
Print Assumptions surveyor_id_roundtrip.
Theorem xsurveyor_recv_never_drops : forall wire, xsurv_recv wire <> BtDrop.
Proof. exact xsurv_recv_never_drops. Qed.
Print Assumptions xsurveyor_recv_never_drops.

Theorem xrespond_recv_drop : forall fx s p m,
  xresp_recv p (xr_ttl s) (pm_body m) = BtDrop -> xresp_step fx s (PRecvDone p 0 m) = (s, [Free m; TranRecv p]).
Proof. exact xresp_recv_drop. Qed.
Print Assumptions xrespond_recv_drop.
Theorem xrespond_recv_close : forall fx s p m,
  xresp_recv p (xr_ttl s) (pm_body m) = BtClose -> xresp_step fx s (PRecvDone p 0 m) = (s, [Free m; ClosePipe p]).
Proof. exact xresp_recv_close. Qed.
Print Assumptions xrespond_recv_close.
Theorem xrespond_send_routes : forall fx s a m p bt x s' outs,
  (p < 4294967296)%N -> pm_hdr m = be32 p ++ bt -> kget p (xr_pipes s) = Some x -> xp_closed x = false -> xp_busy x = false ->
  xresp_step fx s (PSend None a false m) = (s', outs) ->
  outs = [Complete a E_OK None; TranSend p (mkPmsg bt (pm_body m))].
Proof. exact xresp_send_routes. Qed.
Print Assumptions xrespond_send_routes.
Theorem xsurveyor_recv_malformed_disconnects : forall fx s p m,
  (forall h b, xsurv_recv (pm_body m) <> BtDeliver h b) -> xsurv_step fx s (PRecvDone p 0 m) = (s, [Free m; ClosePipe p]).
Proof. exact xsurv_recv_malformed. Qed.
Print Assumptions xsurveyor_recv_malformed_disconnects.
(* NONBLOCK receive on the raw sockets' upper queue, repaired msgqueue.c (fc1e6a0) / refuted for the pinned one *)
Theorem raw_nb_recv_immediate : forall u a u' outs,
  urq_user_recv mqfix_all u a true = (u', outs) ->
  (urq_get_waits u = true -> u' = u /\ outs = [Complete a E_AGAIN None]) /\
  (urq_get_waits u = false -> exists m r, outs = Complete a E_OK (Some m) :: r /\ uq_readers u' = []).
Proof. exact urq_nb_recv_immediate. Qed.
Print Assumptions raw_nb_recv_immediate.
Theorem raw_nb_recv_refuted :
  exists u a, urq_recvable u = true /\ urq_get_waits u = false /\ urq_user_recv mqfix_none u a true = (u, [Complete a E_AGAIN None]).
Proof. exact urq_nb_recv_refuted. Qed.
Print Assumptions raw_nb_recv_refuted.
Theorem raw_recv_descriptor_mirror : forall u, uq_readers u = [] -> urq_recvable u = negb (urq_get_waits u).
Proof. exact urq_recvable_mirror. Qed.
Print Assumptions raw_recv_descriptor_mirror.
(* the upper read queue of the raw sockets under the repaired msgqueue.c (65cda67 resize runs the queues,
   e654d99 aio_get runs the writers): blocked readers <=> nothing to read, blocked writers => queue full.
   Kept by every step of both raw models; a user receive establishes it from any state *)
Theorem raw_queue_invariant_xsurveyor : forall fx s o s' outs, mf_resize fx = true -> mf_getput fx = true ->
  UInv (xs_urq s) -> xsurv_step fx s o = (s', outs) -> UInv (xs_urq s').
Proof. exact xsurv_urq_inv. Qed.
Print Assumptions raw_queue_invariant_xsurveyor.
Theorem raw_queue_invariant_xrespondent : forall fx s o s' outs, mf_resize fx = true -> mf_getput fx = true ->
  UInv (xr_urq s) -> xresp_step fx s o = (s', outs) -> UInv (xr_urq s').
Proof. exact xresp_urq_inv. Qed.
Print Assumptions raw_queue_invariant_xrespondent.
Theorem raw_queue_invariant_init : UInv (xs_urq xsurv_init) /\ UInv (xr_urq xresp_init).
Proof. exact (conj uinv_init uinv_init). Qed.
Print Assumptions raw_queue_invariant_init.
Theorem raw_get_establishes_invariant : forall fx u a, mf_getput fx = true ->
  UInv (fst (urq_get_fx fx u a)) /\ uq_cap (fst (urq_get_fx fx u a)) = uq_cap u.
Proof. exact uinv_get. Qed.
Print Assumptions raw_get_establishes_invariant.
(* ... refuted for nni_msgq_aio_get as pinned: the reader takes the buffered message, the blocked writer stays
   blocked although the queue has room (repaired by e654d99) *)
Theorem raw_get_leaves_writer_blocked_refuted :
  exists u a, UInv u /\ ~ UInv (fst (urq_get_fx mqfix_none u a)) /\ UInv (fst (urq_get_fx mqfix_all u a)).
Proof. exact XSurveyProofs.raw_get_leaves_writer_blocked_refuted. Qed.
Print Assumptions raw_get_leaves_writer_blocked_refuted.
(* descriptor mirror of the raw sockets, exact on every state satisfying the invariant: the receive descriptor
   is raised iff a NONBLOCK receive would not return EAGAIN; the send descriptor is always raised and a NONBLOCK
   send is always accepted (xsurveyor_nb_send_immediate / xrespondent_nb_send_immediate) *)
Theorem xsurveyor_poll_mirror : forall fx s a, mf_nb fx = true -> UInv (xs_urq s) ->
  (poll_r (xsurv_poll s) = Some true <-> snd (xsurv_step fx s (PRecv None a true)) <> [Complete a E_AGAIN None]) /\
  poll_w (xsurv_poll s) = Some true.
Proof. intros fx s a H1 H2. exact (conj (xsurv_poll_r_mirror fx s a H1 H2) (xsurv_poll_w_mirror s)). Qed.
Print Assumptions xsurveyor_poll_mirror.
Theorem xrespondent_poll_mirror : forall fx s a, mf_nb fx = true -> UInv (xr_urq s) ->
  (poll_r (xresp_poll s) = Some true <-> snd (xresp_step fx s (PRecv None a true)) <> [Complete a E_AGAIN None]) /\
  poll_w (xresp_poll s) = Some true.
Proof. intros fx s a H1 H2. exact (conj (xresp_poll_r_mirror fx s a H1 H2) (xresp_poll_w_mirror s)). Qed.
Print Assumptions xrespondent_poll_mirror.
Theorem raw_recv_descriptor_mirror_inv : forall u, UInv u -> urq_recvable u = negb (urq_get_waits u).
Proof. exact urq_recvable_mirror_inv. Qed.
Print Assumptions raw_recv_descriptor_mirror_inv.

Theorem xsurveyor_nb_send_immediate : forall s a m s' outs c,
  xsurv_step mqfix_all s (PSend c a true m) = (s', outs) -> exists r, outs = Complete a E_OK None :: r.
Proof. exact xsurv_nb_send_immediate. Qed.
Print Assumptions xsurveyor_nb_send_immediate.
Theorem xrespondent_nb_send_immediate : forall s a m s' outs c,
  xresp_step mqfix_all s (PSend c a true m) = (s', outs) -> exists r, outs = Complete a E_OK None :: r.
Proof. exact xresp_nb_send_immediate. Qed.
Print Assumptions xrespondent_nb_send_immediate.

Theorem survey_consts_match :
  PROTO_SURVEYOR = C07_SURV_SELF /\ PROTO_RESPONDENT = C07_SURV_PEER /\ C07_XSURV_SELF = PROTO_SURVEYOR /\ C07_XSURV_PEER = PROTO_RESPONDENT /\
  C07_RESP_SELF = PROTO_RESPONDENT /\ C07_RESP_PEER = PROTO_SURVEYOR /\ C07_XRESP_SELF = PROTO_RESPONDENT /\ C07_XRESP_PEER = PROTO_SURVEYOR /\
  SURV_TIME_DEFAULT = Z.of_N C07_SURVEY_TIME_DEFAULT /\ SURV_RECV_BUF = C07_SURV_RECV_BUF /\ SURV_SEND_BUF = C07_SURV_SEND_BUF /\
  ID_LO = C07_SURVEY_ID_LO /\ ID_HI = C07_SURVEY_ID_HI /\ ID_LO = IDMAP_SURVEY_LO /\ ID_HI = IDMAP_SURVEY_HI /\
  TTL_DEFAULT = C07_TTL_DEFAULT /\ TTL_MAX = NNI_MAX_MAX_TTL /\ C07_TTL_MIN = 1 /\
  HDR_MAX = 4 * (NNI_MAX_MAX_TTL + MSG_HEADER_WORDS_EXTRA) /\
  XSURV_SENDQ = C07_XSURV_SENDQ /\ XRESP_SENDQ = C07_XRESP_SENDQ /\ URQ_DEFAULT = C07_URQ_DEFAULT /\ UWQ_DEFAULT = C07_UWQ_DEFAULT /\
  BUF_OPT_MAX = C07_BUF_OPT_MAX /\ C07_BUF_OPT_MIN = 0%N /\
  E_STATE = C07_NNG_ESTATE /\ E_TIMEDOUT = C07_NNG_ETIMEDOUT /\ E_CANCELED = C07_NNG_ECANCELED /\ E_AGAIN = C07_NNG_EAGAIN /\
  E_CLOSED = C07_NNG_ECLOSED /\ E_PROTO = C07_NNG_EPROTO /\ E_INVAL = C07_NNG_EINVAL /\ E_NOTSUP = C07_NNG_ENOTSUP /\ E_NOMEM = C07_NNG_ENOMEM.
Proof. repeat split; reflexivity. Qed.
Print Assumptions survey_consts_match.

(* non-vacuity: a concrete history meets the hypotheses of the late-response theorem -- a survey is sent,
   a receive is posted, the clock passes the deadline (ETIMEDOUT), then a response with the right id arrives *)
Example survey_history_nonvacuous :
  let s0 := fst (surv_run true surv_init [PPipeStart 1%N PROTO_RESPONDENT; PSend None 1%N false (mkPmsg [] [7%N]); PRecv None 2%N false; PTick 2000%N]) in
  SInv s0 /\ dead_ctx s0 0%N /\
  surv_ops_ok true s0 0%N [PRecvDone 1%N 0%N (mkPmsg [] [128%N; 0%N; 0%N; 1%N; 9%N]); PRecv None 3%N false] /\
  map (fun x => snd x) (snd (surv_run true s0 [PRecvDone 1%N 0%N (mkPmsg [] [128%N; 0%N; 0%N; 1%N; 9%N]); PRecv None 3%N false])) =
    [[Free (mkPmsg [128%N; 0%N; 0%N; 1%N] [9%N]); TranRecv 1%N]; [Complete 3%N E_STATE None]].
Proof.
  cbv zeta. split; [|split; [|split]].
  - apply surv_run_inv; [exact surv_init_inv|repeat constructor].
  - intros c Hc. vm_compute in Hc. inversion Hc; subst. cbn. split; [reflexivity|]. vm_compute. discriminate.
  - cbn [surv_ops_ok]. repeat split; try exact I; try (intros (c & a & nb & m & E & _); discriminate); try (intros (c & E & _); discriminate).
  - vm_compute. reflexivity.
Qed.
