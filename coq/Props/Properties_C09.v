(* Properties_C09: statements only.  C09 -- BUS: a message sent on a BUS socket is
   offered to every currently connected peer at most once and never comes back
   to the sender; raw mode spares the pipe named in the header; send never
   blocks; per-peer order; whole-message drops.

   Model: Proto/BusModel.v (src/sp/protocol/bus0/bus.c, cooked and raw), one step
   = one critical section of bus0_sock.mtx.  [fixed] selects the form of
   bus0_sock_send: false = the pinned code (nni_aio_start(aio, NULL, NULL) before
   the fan-out), true = without that call; which one the current source has is
   read from it on every run (Gen/Consts.v BUS_SEND_NO_AIO_START) and that is what
   the correspondence run executes.  Everything below holds for both forms unless
   it says otherwise; the one clause the pinned form violates is
   bus_nonblock_send_refuted.

   BInv: pipe ids distinct, queue lengths within capacity, an idle pipe has an
   empty queue and nothing in flight, at most one message attached per pipe,
   receive queue within capacity, a waiting receiver implies an empty receive
   queue, the receive descriptor mirrors "receive queue non-empty".
   op_ok (the environment's contract): a pipe is started once with an id in the
   pipe id range (non-zero, 32 bit: IdMapProps.idmap_alloc_fresh_in_range), a transport completion
   belongs to a transport send in flight, an aio is submitted once at a time. *)
From Coq Require Import List Arith NArith Bool.
From NngV Require Import Gen.Consts Proto.Common Proto.PushProofs Proto.PullProofs
  Proto.BusModel Proto.BusProofs.
Import ListNotations.

(* the invariant is one: it holds initially and every step keeps it *)
Theorem bus_invariant :
  (forall raw, BInv (bus_init raw)) /\
  (forall fixed s o s' outs, BInv s -> op_ok s o -> bus_step fixed s o = (s', outs) -> BInv s').
Proof. split; [exact bus_init_inv|exact bus_step_inv]. Qed.
Print Assumptions bus_invariant.

(* fan-out: an accepted send is offered to every started pipe exactly as
   offer_kind says -- skipped (raw, named in the header), handed to the transport
   (idle pipe), appended whole to the pipe's queue (busy, room), or dropped
   (busy, queue full) -- and to nobody else; per pipe at most one copy leaves the
   step (transport or queue), never two *)
Theorem bus_fanout_each_peer_at_most_once : forall fixed s c a nb m s' outs,
  BInv s -> bus_step fixed s (PSend c a nb m) = (s', outs) -> accepts fixed nb = true ->
  forall p,
    find_pipe p (bs_pipes s') = option_map (offer_pipe (bs_raw s) (origin s m) (sent_as s m)) (find_pipe p (bs_pipes s)) /\
    txs_on p outs = match find_pipe p (bs_pipes s) with
                    | Some bp => match offer_kind (bs_raw s) (origin s m) bp with ODirect => [sent_as s m] | _ => [] end
                    | None => []
                    end /\
    length (txs_on p outs) + (length (pq p s') - length (pq p s)) <= 1.
Proof. exact bus_fanout_law. Qed.
Print Assumptions bus_fanout_each_peer_at_most_once.

(* never echoed.
   (1) any mode: a send step delivers nothing to the sender's own application and
       leaves its receive side alone; messages go to started pipes only (a socket
       has no pipe to itself);
   (2) raw: if the header starts with the id of pipe p, then p is the origin, the
       word is removed (the rest of the header travels), nothing is transmitted
       or queued on p, and every other started pipe is offered the message
       (transmitted at once if idle, appended to its queue if busy with room);
   (3) a message that arrives on pipe p is delivered or buffered -- in raw mode
       with p's id appended to its header, in cooked mode as it is -- or, with no
       receiver waiting and the receive queue full, freed whole. *)
Theorem bus_never_echo :
  (forall fixed s c a nb m s' outs,
     bus_step fixed s (PSend c a nb m) = (s', outs) ->
     delivered outs = [] /\ bs_rq s' = bs_rq s /\ bs_wait s' = bs_wait s /\ bs_readable s' = bs_readable s /\
     forall p, txs_on p outs <> [] -> In p (pipe_ids s)) /\
  (forall fixed s c a nb m s' outs p hdr_rest,
     BInv s -> bs_raw s = true -> (p < 4294967296)%N -> pm_hdr m = enc32 p ++ hdr_rest ->
     bus_step fixed s (PSend c a nb m) = (s', outs) ->
     origin s m = p /\ sent_as s m = mkPmsg hdr_rest (pm_body m) /\
     txs_on p outs = [] /\ find_pipe p (bs_pipes s') = find_pipe p (bs_pipes s) /\
     (accepts fixed nb = true -> forall q bq, q <> p -> find_pipe q (bs_pipes s) = Some bq ->
        offer_kind true p bq <> OSkip /\
        (bp_busy bq = false -> txs_on q outs = [mkPmsg hdr_rest (pm_body m)]) /\
        (bp_busy bq = true -> length (bp_q bq) < bp_cap bq -> pq q s' = bp_q bq ++ [mkPmsg hdr_rest (pm_body m)]))) /\
  (forall fixed s p m s' outs,
     bus_step fixed s (PRecvDone p 0 m) = (s', outs) ->
     let m' := if bs_raw s then mkPmsg (pm_hdr m ++ enc32 p) (pm_body m) else m in
     (delivered outs = [m'] /\ bs_rq s' = bs_rq s) \/
     (delivered outs = [] /\ bs_rq s' = bs_rq s ++ [m']) \/
     (delivered outs = [] /\ s' = s /\ outs = [Free m'; TranRecv p] /\ bs_wait s = [] /\ bs_rcap s <= length (bs_rq s))).
Proof. split; [exact bus_send_no_self_delivery|split; [exact bus_raw_skips_origin|exact bus_recv_stamps_origin]]. Qed.
Print Assumptions bus_never_echo.

(* the one-socket raw device (src/core/device.c forwards the message with its
   header untouched): what arrived on p and is sent again as delivered goes out
   with an empty header and never on p *)
Theorem bus_raw_device_never_echo : forall fixed s p body c a nb s' outs,
  BInv s -> bs_raw s = true -> (p < 4294967296)%N ->
  bus_step fixed s (PSend c a nb (mkPmsg ([] ++ enc32 p) body)) = (s', outs) ->
  origin s (mkPmsg ([] ++ enc32 p) body) = p /\ sent_as s (mkPmsg ([] ++ enc32 p) body) = mkPmsg [] body /\ txs_on p outs = [].
Proof. exact bus_raw_device_roundtrip. Qed.
Print Assumptions bus_raw_device_never_echo.

(* send never blocks: whatever the state and the flags, the send completes in
   the same step and no aio is queued (the model has no send wait list at all);
   the completion is success, except for the pinned form's refusal of a
   non-blocking send (bus_nonblock_send_refuted) *)
Theorem bus_send_never_blocks : forall fixed s c a nb m s' outs,
  bus_step fixed s (PSend c a nb m) = (s', outs) ->
  bs_wait s' = bs_wait s /\
  ((accepts fixed nb = true /\ completions outs = [(a, E_OK)]) \/
   (fixed = false /\ nb = true /\ outs = [Complete a E_AGAIN None])).
Proof. exact bus_send_immediate. Qed.
Print Assumptions bus_send_never_blocks.

(* per-peer FIFO.  One step, any pipe p: queue before ++ accepted for p =
   handed to p's transport ++ queue after ++ cut off the tail (pipe close, queue
   shrink); only a send step accepts anything (taken), so BUS never forwards what
   it received.  Any well-formed history: transmissions on p followed by p's queue
   are a subsequence of (queue before ++ everything accepted for p, in order) --
   no reordering, no duplication -- and exactly equal when nothing was cut *)
Theorem bus_per_peer_fifo :
  (forall fixed p s o s' outs, BInv s -> op_ok s o -> bus_step fixed s o = (s', outs) ->
     pq p s ++ taken p fixed s o = txs_on p outs ++ pq p s' ++ cut p s o) /\
  (forall fixed p ops s, BInv s -> ops_ok fixed s ops ->
     let (s', tr) := bus_run fixed s ops in
     sublist (tr_txs p tr ++ pq p s') (pq p s ++ tr_taken p fixed tr) /\
     (tr_cut p tr = [] -> tr_txs p tr ++ pq p s' = pq p s ++ tr_taken p fixed tr)).
Proof. split; [exact bus_fifo_step|exact bus_run_fifo]. Qed.
Print Assumptions bus_per_peer_fifo.

(* dropped whole: a pipe whose queue is full keeps exactly its state (no partial
   message, survivors untouched), nothing is transmitted on it, the sender's
   reference is released once; every queue after a send is the queue before or
   the queue before with the whole message appended; on the receive side a full
   queue (no receiver waiting) frees the whole message and changes nothing *)
Theorem bus_drop_whole : forall fixed s, BInv s ->
  (forall c a nb m s' outs p bp, bus_step fixed s (PSend c a nb m) = (s', outs) -> accepts fixed nb = true ->
     find_pipe p (bs_pipes s) = Some bp -> offer_kind (bs_raw s) (origin s m) bp = ODropped ->
     find_pipe p (bs_pipes s') = Some bp /\ txs_on p outs = [] /\ bp_cap bp <= length (bp_q bp) /\
     freed outs = [sent_as s m]) /\
  (forall c a nb m s' outs p, bus_step fixed s (PSend c a nb m) = (s', outs) ->
     pq p s' = pq p s \/ pq p s' = pq p s ++ [sent_as s m]) /\
  (forall p m s' outs, bus_step fixed s (PRecvDone p 0 m) = (s', outs) ->
     bs_wait s = [] -> bs_rcap s <= length (bs_rq s) ->
     s' = s /\ outs = [Free (if bs_raw s then mkPmsg (pm_hdr m ++ enc32 p) (pm_body m) else m); TranRecv p]).
Proof. exact bus_drop_whole_law. Qed.
Print Assumptions bus_drop_whole.

(* receive side: one step: buffered ++ arrived (stamped) = delivered ++
   buffered after ++ dropped (and what is dropped is freed in the same step);
   histories: deliveries followed by the buffer are a subsequence of the arrivals
   of all peers in arrival order -- so each peer's messages come in that peer's
   order, none twice -- and exactly the arrivals when nothing was dropped *)
Theorem bus_recv_per_peer_order :
  (forall fixed s o s' outs, BInv s -> bus_step fixed s o = (s', outs) ->
     bs_rq s ++ stamped s o = delivered outs ++ bs_rq s' ++ rcut s o /\
     (forall x, In x (rcut s o) -> In (Free x) outs)) /\
  (forall fixed ops s, BInv s -> ops_ok fixed s ops ->
     let (s', tr) := bus_run fixed s ops in
     sublist (tr_delivered tr ++ bs_rq s') (bs_rq s ++ tr_stamped tr) /\
     (tr_rcut tr = [] -> tr_delivered tr ++ bs_rq s' = bs_rq s ++ tr_stamped tr)).
Proof. split; [exact bus_recv_fifo_step|exact bus_run_recv_order]. Qed.
Print Assumptions bus_recv_per_peer_order.

(* conservation of references (the C clones once per pipe that takes the
   message and frees the sender's reference): as multisets, owned + lost + taken
   out of user aios + clones + arrivals = owned' + lost' + consumed by the
   transports + freed + delivered; never both, never neither *)
Theorem bus_conservation_one_step : forall fixed s o s' outs,
  BInv s -> op_ok s o -> bus_step fixed s o = (s', outs) ->
  forall x, cnt x (owned s ++ bs_lost s ++ slot s o ++ clones fixed s o ++ stamped s o) =
            cnt x (owned s' ++ bs_lost s' ++ bwire s o ++ freed outs ++ delivered outs).
Proof. exact bus_conservation_step. Qed.
Print Assumptions bus_conservation_one_step.

Theorem bus_conservation : forall fixed ops s, BInv s -> ops_ok fixed s ops ->
  let (s', tr) := bus_run fixed s ops in
  BInv s' /\
  forall x, cnt x (owned s ++ bs_lost s ++ tr_in fixed tr) = cnt x (owned s' ++ bs_lost s' ++ tr_out tr).
Proof. exact bus_run_conservation. Qed.
Print Assumptions bus_conservation.

(* "lost" (taken out of the aio, then neither sent, freed nor put back) grows only
   in the refused non-blocking send of the pinned form; never when fixed *)
Theorem bus_nothing_lost : forall fixed s o s' outs,
  bus_step fixed s o = (s', outs) ->
  bs_lost s' = bs_lost s \/
  (exists c a m, o = PSend c a true m /\ fixed = false /\ bs_lost s' = bs_lost s ++ [sent_as s m] /\
                 outs = [Complete a E_AGAIN None]).
Proof. exact bus_lost_only_by_refused_send. Qed.
Print Assumptions bus_nothing_lost.

(* non-blocking receive and the receive descriptor: immediate; EAGAIN exactly
   when the descriptor is not raised (= nothing buffered = the blocking form would
   be queued: bus_recv_blocks_when_empty); nothing changes then *)
Theorem bus_nonblock_recv : forall fixed s c a s' outs,
  BInv s -> bus_step fixed s (PRecv c a true) = (s', outs) ->
  exists rv m, outs = [Complete a rv m] /\ bs_wait s' = bs_wait s /\
    (rv = E_AGAIN <-> poll_r (bus_poll s) = Some false) /\ (rv = E_AGAIN -> s' = s /\ m = None) /\
    (rv <> E_AGAIN -> rv = E_OK /\ exists x r, bs_rq s = x :: r /\ m = Some x /\ bs_rq s' = r).
Proof. exact bus_nb_recv. Qed.
Print Assumptions bus_nonblock_recv.

Theorem bus_recv_blocks_when_empty : forall fixed s c a,
  bs_rq s = [] ->
  bus_step fixed s (PRecv c a false) =
    (mkBus (bs_raw s) (bs_pipes s) [] (bs_rcap s) (bs_wait s ++ [a]) (bs_sendbuf s) (bs_sending s) (bs_readable s) (bs_lost s), []).
Proof. exact bus_recv_blocks. Qed.
Print Assumptions bus_recv_blocks_when_empty.

(* non-blocking send and the send descriptor ("always writable").
   Without the nni_aio_start call: the non-blocking send IS the blocking one
   (which never queues): success at once, descriptor raised -- both halves of
   the mirror. *)
Theorem bus_nonblock_send_holds_when_fixed : forall s c a m,
  bus_step true s (PSend c a true m) = bus_step true s (PSend c a false m) /\
  completions (snd (bus_step true s (PSend c a true m))) = [(a, E_OK)] /\
  poll_w (bus_poll s) = Some true.
Proof. exact bus_nb_send_fixed. Qed.
Print Assumptions bus_nonblock_send_holds_when_fixed.

(* The pinned form violates it (vm_compute witness: one idle peer): the descriptor
   is raised and the blocking send transmits at once, yet the non-blocking send
   returns EAGAIN, transmits nothing, and the message has already left the aio
   (with its header cleared / trimmed).  Replayed on the library by checks/c09.py
   (open bus0; conn 112; sendnb => rv=8, pipe idle, poll w=1). *)
Theorem bus_nonblock_send_refuted :
  BInv bus_nb_witness_state /\ poll_w (bus_poll bus_nb_witness_state) = Some true /\
  snd (bus_step false bus_nb_witness_state (PSend None 5%N false bus_nb_witness_msg)) =
    [TranSend 1%N bus_nb_witness_msg; Free bus_nb_witness_msg; Complete 5%N E_OK None] /\
  snd (bus_step false bus_nb_witness_state (PSend None 5%N true bus_nb_witness_msg)) = [Complete 5%N E_AGAIN None] /\
  bs_lost (fst (bus_step false bus_nb_witness_state (PSend None 5%N true bus_nb_witness_msg))) = [bus_nb_witness_msg].
Proof. exact bus_nb_send_pinned_refuted. Qed.
Print Assumptions bus_nonblock_send_refuted.

(* poll descriptors, on every state satisfying the invariant (hence every
   reachable one): the receive descriptor is raised exactly when a non-blocking
   receive succeeds and lowered exactly when it says EAGAIN (no missed wake-up, no
   busy loop); the send descriptor is always raised, and -- without the
   nni_aio_start call -- a non-blocking send always succeeds (the pinned form:
   bus_nonblock_send_refuted) *)
Theorem bus_poll_mirror : forall fixed s c a,
  BInv s ->
  (poll_r (bus_poll s) = Some true <-> completions (snd (bus_step fixed s (PRecv c a true))) = [(a, E_OK)]) /\
  (poll_r (bus_poll s) = Some false <-> completions (snd (bus_step fixed s (PRecv c a true))) = [(a, E_AGAIN)]) /\
  poll_w (bus_poll s) = Some true /\
  (fixed = true -> forall m, completions (snd (bus_step fixed s (PSend c a true m))) = [(a, E_OK)]).
Proof. exact bus_poll_mirror_law. Qed.
Print Assumptions bus_poll_mirror.

(* the literals of the model are those of the current source *)
Theorem bus_consts_match :
  PROTO_BUS = BUS_PROTO_SELF /\ PROTO_BUS = BUS_PROTO_PEER /\ BUS_SENDBUF_DEFAULT = BUS_SENDBUF /\
  BUS_RECVBUF_DEFAULT = BUS_RECVBUF /\ BUS_BUF_MIN = BUS_BUF_LO /\ BUS_BUF_MAX = BUS_BUF_HI /\
  E_AGAIN = 8%N /\ E_PROTO = 13%N.
Proof. repeat split; reflexivity. Qed.
Print Assumptions bus_consts_match.

(* non-vacuity: a raw socket, depth 1, three peers; a message whose header
   names pipe 2 goes to pipes 1 and 3 only; two more fill and overflow the queues
   (the third is dropped whole); completions drain them in order; a message
   arriving on pipe 3 is delivered with [3] in its header *)
Definition nv_ops : list pop :=
  [PSetOpt None (OSendBuf 1); PPipeStart 1%N PROTO_BUS; PPipeStart 2%N PROTO_BUS; PPipeStart 3%N PROTO_BUS;
   PSend None 10%N false (mkPmsg [0%N; 0%N; 0%N; 2%N] [1%N]);
   PSend None 11%N false (mkPmsg [] [2%N]);
   PSend None 12%N false (mkPmsg [] [3%N]);
   PSendDone 1%N 0%N; PSendDone 1%N 0%N;
   PRecvDone 3%N 0%N (mkPmsg [] [9%N]); PRecv None 13%N true].
Example bus_history_nonvacuous :
  ops_ok true (bus_init true) nv_ops /\
  tr_txs 1%N (snd (bus_run true (bus_init true) nv_ops)) = [mkPmsg [] [1%N]; mkPmsg [] [2%N]] /\
  tr_txs 2%N (snd (bus_run true (bus_init true) nv_ops)) = [mkPmsg [] [2%N]] /\
  tr_taken 1%N true (snd (bus_run true (bus_init true) nv_ops)) = [mkPmsg [] [1%N]; mkPmsg [] [2%N]] /\
  tr_taken 2%N true (snd (bus_run true (bus_init true) nv_ops)) = [mkPmsg [] [2%N]; mkPmsg [] [3%N]] /\
  tr_delivered (snd (bus_run true (bus_init true) nv_ops)) = [mkPmsg [0%N; 0%N; 0%N; 3%N] [9%N]].
Proof.
  split; [|vm_compute; repeat split; reflexivity].
  vm_compute. repeat split; auto; try discriminate; try (intros H; repeat destruct H as [H|H]; try discriminate; try contradiction).
Qed.
