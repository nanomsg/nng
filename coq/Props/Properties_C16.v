(* Properties_C16: statements only.  C16 -- WebSocket/HTTP codecs:
   segmentation-independent and rule-enforcing. *)
From Coq Require Import List Arith NArith Bool Lia.
From NngV Require Import Gen.Consts Base.ListX Base.Bytes Codec.Staged Codec.WsFrameModel Codec.WsMsgModel
  Codec.ChunkedModel Codec.B64Model Codec.HttpLineModel Codec.CodecSpec
  Codec.HttpBufModel Codec.WsProofs Codec.ChunkedProofs Codec.HttpProofs Codec.HttpBufProofs Codec.B64Proofs
  Codec.HttpIov Codec.HttpIovProofs.
Import ListNotations.
Local Open Scope N_scope.

(* ---------------------------------------------------------------- (a) *)
(* What ws_frame_prep_tx / ws_msg_init_control write as a header is read back
   by the header part of ws_read_cb as the same opcode, FIN bit, mask bit,
   payload length (for every length below 2^64, in particular below 2^63), with
   the "minimal encoding" test passing, the header length the decoder asks
   for, and the masking key. *)
Theorem ws_hdr_roundtrip : forall op final len, op < 128 -> len < 2 ^ 63 ->
  hdr_decodes (ws_hdr op final len) op final false len [] /\
  forall key, length key = 4%nat ->
    hdr_decodes (set_mask_bit (ws_hdr op final len) ++ key) op final true len key.
Proof.
  intros op final len Ho Hl.
  assert (H64: len < 2 ^ 64) by (eapply N.lt_trans; [exact Hl|reflexivity]).
  split; [exact (ws_hdr_unmasked op final len Ho H64)|].
  intros key Hk. exact (ws_hdr_masked op final len key Ho H64 Hk).
Qed.
Print Assumptions ws_hdr_roundtrip.

(* every emitted frame uses the shortest length form and is masked iff the sender is a client *)
Theorem ws_encode_minimal : forall server key op final payload,
  N.of_nat (length payload) < 2 ^ 64 ->
  exists h0 h1 rest, ws_encode server key op final payload = h0 :: h1 :: rest /\
    hd_masked h1 = negb server /\ minimal_form (hd_len7 h1) (N.of_nat (length payload)).
Proof. exact ws_encode_shortest_form. Qed.
Print Assumptions ws_encode_minimal.

Theorem mask_involutive : forall key l, mask_bytes key (mask_bytes key l) = l.
Proof. exact mask_bytes_involutive. Qed.
Print Assumptions mask_involutive.

(* the 16/8/4/1 stride loop of ws_apply_mask computes the bytewise definition *)
Theorem mask_strided_eq_bytewise : forall key l, mask_strided key l = mask_bytes key l.
Proof. exact mask_strided_eq. Qed.
Print Assumptions mask_strided_eq_bytewise.

(* decode after encode, through the staged decoder: a frame emitted by the
   opposite role and accepted by the size limits produces exactly the effect of
   ws_read_frame_cb on (opcode, FIN, unmasked payload) *)
Theorem ws_frame_roundtrip : forall cfg s key op final payload,
  w_stage s = SHead -> op < 128 -> length key = 4%nat -> N.of_nat (length payload) < 2 ^ 64 ->
  frame_letin cfg s op (N.of_nat (length payload)) ->
  ws_feed cfg (mkD s []) (ws_encode (negb (c_server cfg)) key op final payload) =
    let '(s1, e1) := ws_frame_cb cfg s op final payload in (mkD s1 [], e1).
Proof. exact ws_feed_frame. Qed.
Print Assumptions ws_frame_roundtrip.

(* ---------------------------------------------------------------- (b) *)
(* feeding a ++ b = feeding a, then b: same final state, events concatenated *)
Theorem ws_segmentation_independent : forall cfg d a b,
  ws_feed cfg d (a ++ b) =
    let '(d1, e1) := ws_feed cfg d a in let '(d2, e2) := ws_feed cfg d1 b in (d2, e1 ++ e2).
Proof. exact ws_feed_app. Qed.
Print Assumptions ws_segmentation_independent.

(* hence every way of cutting a stream into pieces gives the events of the uncut stream *)
Theorem ws_any_split_same_events : forall cfg rest p d,
  ws_feed_all cfg d (p :: rest) = ws_feed cfg d (concat (p :: rest)).
Proof. intros cfg. exact (feed_all_concat ws_state ws_event ws_want (ws_cb cfg)). Qed.
Print Assumptions ws_any_split_same_events.

Theorem chunk_segmentation_independent : forall st a b,
  chunk_feed st (a ++ b) =
    let '(s1, e1) := chunk_feed st a in let '(s2, e2) := chunk_feed s1 b in (s2, e1 ++ e2).
Proof. exact chunk_feed_app. Qed.
Print Assumptions chunk_segmentation_independent.

(* HTTP head parser (http_rd_buf keeps the unconsumed bytes and repeats
   nni_http_req_parse / nni_http_res_parse when more arrive): for both variants
   of the parser text and for requests and responses *)
Theorem http_segmentation_independent : forall keep strict isreq st a b,
  http_feed keep strict isreq st (a ++ b) =
    let '(s1, e1) := http_feed keep strict isreq st a in
    let '(s2, e2) := http_feed keep strict isreq s1 b in (s2, e1 ++ e2).
Proof. exact http_feed_app. Qed.
Print Assumptions http_segmentation_independent.

Theorem http_any_split_same_events : forall keep strict isreq rest p st,
  http_feed_all keep strict isreq st (p :: rest) = http_feed keep strict isreq st (concat (p :: rest)).
Proof. exact http_feed_all_concat. Qed.
Print Assumptions http_any_split_same_events.

(* The read buffer of the connection (http_rd_buf / http_rd_cb, flavors REQ and
   RES): bufsz bytes, every physical read limited to the room left, complete
   lines consumed, the incomplete line pulled up to the front, "too large"
   only when that line then fills the whole buffer.  For a stream of ANY total
   length in which no stretch of bufsz bytes is without a line feed (every line
   fits), read in whatever pieces, the events and the connection state are
   those of the unbounded parser on the whole stream: the buffer is
   transparent, and so the outcome does not depend on the cuts. *)
Theorem http_rdbuf_transparent : forall keep strict isreq bufsz pieces, (0 < bufsz)%nat ->
  lines_fit bufsz (concat pieces) ->
  let '(r, e1) := rd_feed_all true keep strict isreq bufsz rd_init pieces in
  let '(u, e2) := http_feed keep strict isreq hfeed_init (concat pieces) in
  e1 = e2 /\ rd_conn r = hf_conn u /\ rd_done r = hf_done u.
Proof. intros keep strict isreq bufsz pieces _. apply rd_buffer_transparent. Qed.
Print Assumptions http_rdbuf_transparent.

Theorem http_rdbuf_segmentation_independent : forall keep strict isreq bufsz p1 p2, (0 < bufsz)%nat ->
  concat p1 = concat p2 -> lines_fit bufsz (concat p1) ->
  snd (rd_feed_all true keep strict isreq bufsz rd_init p1) = snd (rd_feed_all true keep strict isreq bufsz rd_init p2) /\
  rd_conn (fst (rd_feed_all true keep strict isreq bufsz rd_init p1)) =
  rd_conn (fst (rd_feed_all true keep strict isreq bufsz rd_init p2)).
Proof. intros keep strict isreq bufsz p1 p2 _. apply rd_segmentation_independent. Qed.
Print Assumptions http_rdbuf_segmentation_independent.

(* with the full-buffer test made BEFORE the pull-up ([pull_first] = false) a
   53-byte request with lines of at most 16 bytes, buffer of 40 bytes, is
   answered 431 when it arrives in one piece and 200 when cut at byte 30; the
   code as it is (C16_RDBUF_PULLUP_FIRST = true) answers 200 both times *)
Theorem http_rdbuf_test_before_pullup_refuted :
  (let '(r, e) := rd_feed_all false true true true 40 rd_init [small_req] in get_status (rd_conn r) = 431) /\
  (let '(r, e) := rd_feed_all false true true true 40 rd_init [firstn 30 small_req; skipn 30 small_req] in
     get_status (rd_conn r) = 200) /\
  (let '(r, e) := rd_feed_all true true true true 40 rd_init [small_req] in get_status (rd_conn r) = 200) /\
  (let '(r, e) := rd_feed_all true true true true 40 rd_init [firstn 30 small_req; skipn 30 small_req] in
     get_status (rd_conn r) = 200).
Proof. exact test_before_pullup_depends_on_cuts. Qed.
Print Assumptions http_rdbuf_test_before_pullup_refuted.

(* Reads with several io-vector elements (nng_http_read_all / nng_http_read, HTTP_RD_FULL / RAW).
   Codec/HttpIov.v: part of the read is served from the connection's read buffer, the used-up
   elements are dropped from the front of the user aio's vector (nni_aio_set_iov: ascending copy
   inside one array), the rest is a physical read into the user's buffers.  Repaired code: the
   vector the physical read gets, and the one the user aio keeps, are exactly the elements not
   yet used up, whatever the vector and however many elements the buffered bytes consumed. *)
Theorem http_read_iov_physical_read_gets_the_rest : forall a off, (off <= length a)%nat ->
  rd_vector true a off = skipn off a /\ user_vector a off = skipn off a.
Proof. intros a off H. split; [exact (rd_vector_fixed a off H)|exact (user_vector_spec a off H)]. Qed.
Print Assumptions http_read_iov_physical_read_gets_the_rest.
(* the code as pinned passed the pointer from before the copy: with one element used up and two
   left, the physical read got the LAST element twice -- the body ABCDEFGHIJKL read into three
   elements of 4 with 6 bytes buffered arrives as ABCD / EF?? / KLIJ with count 12 and no error *)
Theorem http_read_iov_stale_pointer_pinned_refuted :
  (1 <= length w_vec)%nat /\ rd_vector false w_vec 1 <> skipn 1 w_vec /\
  http_read_full false w_body 6 [4; 4; 4]%nat = ([[65; 66; 67; 68]; [69; 70; 238; 238]; [75; 76; 73; 74]]%N, 12%nat).
Proof.
  destruct rd_vector_pinned_w as (A & B & C). split; [exact A|]. split; [rewrite B, C; discriminate|exact http_read_full_pinned_w].
Qed.
Print Assumptions http_read_iov_stale_pointer_pinned_refuted.
Example http_read_iov_nonvacuous :
  http_read_full true w_body 6 [4; 4; 4]%nat = ([[65; 66; 67; 68]; [69; 70; 71; 72]; [73; 74; 75; 76]]%N, 12%nat) /\
  http_read_full true w_body 5 [2; 3; 7]%nat = ([[65; 66]; [67; 68; 69]; [70; 71; 72; 73; 74; 75; 76]]%N, 12%nat).
Proof. destruct http_read_full_fixed_w as (A & _ & C). split; assumption. Qed.

(* the line scanner itself: a decision taken on a prefix is never revised *)
Theorem http_line_scan_restartable : forall a b,
  http_scan_line (a ++ b) =
    match http_scan_line a with
    | SLine line rest => SLine line (rest ++ b)
    | SProto => SProto
    | SAgain => http_scan_line (a ++ b)
    end.
Proof. exact scan_line_split. Qed.
Print Assumptions http_line_scan_restartable.

Theorem http_scan_continues : forall l lc acc m,
  scan_from lc acc l = SAgain ->
  scan_from lc acc (l ++ m) = scan_from (fst (scan_state lc acc l)) (snd (scan_state lc acc l)) m.
Proof. exact scan_from_app_again. Qed.
Print Assumptions http_scan_continues.

(* ---------------------------------------------------------------- (c) *)
(* every listed rule violation fails the connection with the code computed by
   the checks in code order; [ws_fail] is: queue a close frame with the code,
   report EClose code, deliver nothing, stop reading *)
Theorem ws_decoder_rejects :
  (forall cfg s h0 h1 ext, snd (hd_len h1 ext) = false ->
     ws_header_done cfg s h0 h1 ext = ws_fail s WS_CLOSE_PROTOCOL_ERR) /\
  (forall cfg s h0 h1 ext len, hd_len h1 ext = (len, true) -> 0 < c_maxframe cfg -> c_maxframe cfg < len ->
     ws_header_done cfg s h0 h1 ext = ws_fail s WS_CLOSE_TOO_BIG) /\
  (forall cfg s h0 h1 ext len, hd_len h1 ext = (len, true) ->
     (c_maxframe cfg <? len) && (0 <? c_maxframe cfg) = false ->
     c_isstream cfg = false -> 0 < c_recvmax cfg -> c_ctl_counts cfg || (N.land (hd_op h0) 8 =? 0) = true ->
     c_recvmax cfg < len + sum_len (w_rxq s) ->
     ws_header_done cfg s h0 h1 ext = ws_fail s WS_CLOSE_TOO_BIG) /\
  (forall cfg s h0 h1 ext len, hd_len h1 ext = (len, true) ->
     (c_maxframe cfg <? len) && (0 <? c_maxframe cfg) = false ->
     recvmax_exceeded cfg s (hd_op h0) len = false ->
     hd_masked h1 = negb (c_server cfg) ->
     ws_header_done cfg s h0 h1 ext = ws_fail s WS_CLOSE_PROTOCOL_ERR) /\
  (forall cfg s op final payload, known_op op = false ->
     ws_frame_cb cfg s op final payload = ws_fail s WS_CLOSE_PROTOCOL_ERR) /\
  (forall h0, h0 < 256 -> negb (N.land h0 112 =? 0) = true -> known_op (hd_op h0) = false) /\
  (forall cfg s final payload, w_inmsg s = false ->
     ws_frame_cb cfg s WS_CONT final payload = ws_fail s WS_CLOSE_PROTOCOL_ERR) /\
  (forall cfg s final payload, w_inmsg s = true ->
     ws_frame_cb cfg s WS_BINARY final payload = ws_fail s WS_CLOSE_PROTOCOL_ERR) /\
  (forall cfg s final payload, c_recv_text cfg = false ->
     ws_frame_cb cfg s WS_TEXT final payload = ws_fail s WS_CLOSE_UNSUPP_FORMAT) /\
  (forall cfg s op final payload, op = WS_PING \/ op = WS_PONG -> 125 < N.of_nat (length payload) ->
     ws_frame_cb cfg s op final payload = ws_fail s WS_CLOSE_PROTOCOL_ERR) /\
  (forall s code, snd (ws_fail s code) = [ETx WS_CLOSE (be_enc 2 code); EClose code] /\
                  w_stage (fst (ws_fail s code)) = SHalt).
Proof.
  repeat apply conj.
  - exact reject_nonminimal.
  - exact reject_maxframe.
  - exact reject_recvmax.
  - exact reject_mask.
  - exact reject_unknown_op.
  - exact rsv_is_unknown_op.
  - exact reject_cont_without_start.
  - exact reject_data_in_message.
  - exact reject_text.
  - exact reject_big_control.
  - exact ws_fail_shape.
Qed.
Print Assumptions ws_decoder_rejects.

(* once failed (or closed), whatever arrives in whatever pieces produces no event at all *)
Theorem ws_no_delivery_after_error : forall cfg pieces d,
  w_stage (d_inner d) = SHalt -> snd (ws_feed_all cfg d pieces) = [].
Proof. exact ws_no_delivery_after_halt. Qed.
Print Assumptions ws_no_delivery_after_error.

(* RECVMAXSZ and interleaved control frames.  In the text pinned at e917035
   (and as long as C16_RECVMAX_COUNTS_CONTROL is true) the running test of
   ws_read_cb adds the payload of ping/pong/close frames to the size of the
   message being assembled: a 10-byte message with RECVMAXSZ 10 is refused
   (1009) when a 5-byte ping arrives between its two fragments -- the
   reassembly property fails for that configuration; with the control frames
   left out of the sum ([c_ctl_counts] = false) it is delivered. *)
Definition ctl_recvmax_witness : list byte :=
  ws_encode_frames false (repeat [17; 34; 51; 68] 3)
    [(WS_BINARY, false, [49; 50; 51; 52; 53; 54; 55; 56]); (WS_PING, true, [65; 66; 67; 68; 69]); (WS_CONT, true, [57; 48])].
Theorem ws_recvmax_control_pinned_refuted :
  snd (ws_feed (mkCfg true false DEF_MAXRXFRAME 10 false (2 ^ 40) true) ws_dinit ctl_recvmax_witness) =
    [ETx WS_CLOSE (be_enc 2 WS_CLOSE_TOO_BIG); EClose WS_CLOSE_TOO_BIG].
Proof. vm_compute. reflexivity. Qed.
Print Assumptions ws_recvmax_control_pinned_refuted.
Theorem ws_recvmax_control_holds :
  snd (ws_feed (mkCfg true false DEF_MAXRXFRAME 10 false (2 ^ 40) false) ws_dinit ctl_recvmax_witness) =
    [ETx WS_PONG [65; 66; 67; 68; 69]; EDeliver [49; 50; 51; 52; 53; 54; 55; 56; 57; 48]] /\
  (forall cfg s len, c_ctl_counts cfg = false -> recvmax_exceeded cfg s WS_PING len = false /\
                     recvmax_exceeded cfg s WS_PONG len = false /\ recvmax_exceeded cfg s WS_CLOSE len = false).
Proof.
  split; [vm_compute; reflexivity|]. intros cfg s len H. unfold recvmax_exceeded. rewrite H.
  repeat split; cbn; rewrite !andb_false_r; reflexivity.
Qed.
Print Assumptions ws_recvmax_control_holds.

(* ---------------------------------------------------------------- (d) *)
(* A well-formed frame sequence [msg_seq]: any number of messages, each a single
   final data frame or a first frame followed by continuation frames, with
   ping/pong frames (<= 125 bytes) anywhere, also inside messages.  Its
   encoding by the opposite role, cut into pieces in any way, makes the
   decoder deliver exactly the concatenations of the data frames of each
   message, and leaves it in its initial state.  [letin_along]: every frame
   passes the configured size limits (see ws_limits_unlimited below). *)
Theorem ws_reassembly_exact : forall cfg frs ms keys,
  c_isstream cfg = false -> msg_seq cfg frs ms -> frames_encodable keys frs -> letin_along cfg ws_init frs ->
  forall p rest, concat (p :: rest) = ws_encode_frames (negb (c_server cfg)) keys frs ->
  let '(d, e) := ws_feed_all cfg ws_dinit (p :: rest) in deliveries e = ms /\ d = ws_dinit.
Proof. exact ws_reassembly_bytes. Qed.
Print Assumptions ws_reassembly_exact.

(* the same at the level of complete frames (effect of ws_read_frame_cb / ws_read_finish_msg) *)
Theorem ws_reassembly_frames : forall cfg, c_isstream cfg = false -> forall frs ms, msg_seq cfg frs ms ->
  let '(s1, e1) := ws_frames_run cfg (mkWs SHead false []) frs in
  deliveries e1 = ms /\ s1 = mkWs SHead false [].
Proof. exact ws_sequence_reassembles. Qed.
Print Assumptions ws_reassembly_frames.

(* reassemble (fragment fs m) = m, through the bytes and the decoder of the
   opposite role, for every fragment size (0 = no fragmentation) and every
   way of cutting the byte stream *)
Theorem ws_fragmentation_roundtrip : forall cfg send_text fragsize data keys,
  c_isstream cfg = false -> (send_text = true -> c_recv_text cfg = true) ->
  N.of_nat (length data) < 2 ^ 64 ->
  let frs := ws_send_frames false send_text fragsize data in
  (length frs <= length keys)%nat -> Forall (fun k => length k = 4%nat) keys ->
  letin_along cfg ws_init frs ->
  forall p rest, concat (p :: rest) = ws_encode_frames (negb (c_server cfg)) keys frs ->
  let '(d, e) := ws_feed_all cfg ws_dinit (p :: rest) in deliveries e = [data] /\ d = ws_dinit.
Proof. exact ws_fragmentation_bytes. Qed.
Print Assumptions ws_fragmentation_roundtrip.

(* the shape of the fragments: first has the data opcode, the others CONT,
   exactly the last is final, none exceeds fragsize, together they are the data *)
Theorem ws_fragment_shape_holds : forall send_text fragsize data, 0 < fragsize ->
  let frs := ws_send_frames false send_text fragsize data in
  concat (map fr_payload frs) = data /\
  frs <> [] /\ fr_final (last frs (0, true, [])) = true /\
  Forall (fun f => fr_final f = false -> N.of_nat (length (fr_payload f)) = fragsize) frs /\
  Forall (fun f => N.of_nat (length (fr_payload f)) <= fragsize) frs /\
  fr_op (hd (0, true, []) frs) = (if send_text then WS_TEXT else WS_BINARY) /\
  Forall (fun f => fr_op f = WS_CONT) (tl frs).
Proof.
  intros send_text fragsize data H. unfold ws_send_frames. split.
  - apply ws_fragment_concat. auto.
  - exact (ws_fragment_shape send_text fragsize H (S (length data)) 0 data (Nat.lt_succ_diag_r _)).
Qed.
Print Assumptions ws_fragment_shape_holds.

(* without configured limits every frame the allocator can hold is accepted *)
Theorem ws_limits_unlimited : forall cfg, c_maxframe cfg = 0 -> c_recvmax cfg = 0 -> forall frs s,
  Forall (fun f => N.of_nat (length (fr_payload f)) <= c_allocmax cfg) frs -> letin_along cfg s frs.
Proof. exact letin_unlimited. Qed.
Print Assumptions ws_limits_unlimited.

(* ---------------------------------------------------------------- (e) *)
(* a hex digit multiplies the size by 16 and adds its value exactly when that
   does not exceed SIZE_MAX (otherwise EMSGSIZE): no wrap is reachable; a
   chunk is accepted only if size + 2 and total + size do not wrap and the total
   stays within maxsz; the total stays within maxsz along every run *)
Theorem chunked_value_and_limits :
  (forall cl c d, hex_digit c = Some d -> d < 16 ->
     if SIZE_MAX <? cl_size cl * 16 + d
     then ingest_len cl c = (cl, NNG_EMSGSIZE)
     else exists cl', ingest_len cl c = (cl', 0) /\ cl_size cl' = cl_size cl * 16 + d /\
                      cl_total cl' = cl_total cl /\ cl_maxsz cl' = cl_maxsz cl /\ cl_state cl' = cl_state cl) /\
  (forall cl cl', ingest_newline cl 10 = (cl', 0) -> cl_size cl <> 0 ->
     cl_total cl' = cl_total cl + cl_size cl /\ cl_total cl + cl_size cl <= SIZE_MAX /\
     cl_size cl + 2 <= SIZE_MAX /\ (0 < cl_maxsz cl -> cl_total cl' <= cl_maxsz cl) /\
     cl_maxsz cl' = cl_maxsz cl /\ cl_state cl' = CS_DATA) /\
  (forall buf cl used c r n, chunks_loop cl buf used = (c, r, n) -> total_ok cl -> total_ok c).
Proof. exact (conj ingest_len_digit (conj ingest_newline_limits chunks_loop_total)). Qed.
Print Assumptions chunked_value_and_limits.

(* ---------------------------------------------------------------- (f) *)
(* every frame the encoder emits -- any known opcode, control frames final and
   at most 125 bytes (what ws_msg_init_control enforces), any payload below
   2^63 bytes -- satisfies the independent grammar of RFC 6455 5.2 for a sender
   of that role *)
Theorem emit_well_formed : forall (server : bool) (key : list byte) (op : N) (final : bool) (payload : list byte),
  ws_known_op op -> (8 <= op -> final = true /\ N.of_nat (length payload) <= 125) ->
  N.of_nat (length payload) < 2 ^ 63 -> bytes_ok payload -> bytes_ok key -> length key = 4%nat ->
  wf_ws_frame server (ws_encode server key op final payload).
Proof. exact ws_encode_wf. Qed.
Print Assumptions emit_well_formed.

(* corollary: it is accepted by the decoder model of the opposite role *)
Theorem emit_accepted_by_peer : forall cfg s key op final payload,
  w_stage s = SHead -> op < 128 -> length key = 4%nat -> N.of_nat (length payload) < 2 ^ 64 ->
  frame_letin cfg s op (N.of_nat (length payload)) ->
  fst (ws_feed cfg (mkD s []) (ws_encode (negb (c_server cfg)) key op final payload)) =
    mkD (fst (ws_frame_cb cfg s op final payload)) [].
Proof.
  intros. rewrite ws_feed_frame by assumption. destruct (ws_frame_cb cfg s op final payload). reflexivity.
Qed.
Print Assumptions emit_accepted_by_peer.
(* The HTTP heads nng emits (http_snprintf) are not modelled; wf_http_head is
   evaluated on every head observed in the correspondence run. *)

(* ---------------------------------------------------------------- (g) *)
(* a request line without two spaces, or with an unsupported version, yields
   400 / 505 (and the status stays there while the headers are read); a status
   line without two spaces or with a bad code yields EPROTO and changes
   nothing; a header line without ':' yields EPROTO; a bare CR or a control
   character ends the scan with EPROTO wherever the buffer was cut *)
Theorem http_malformed_rejected :
  (forall h line, get_status h < 400 -> ~ In 32 line -> req_parse_line h line = set_code h 400 None) /\
  (forall h a b, get_status h < 400 -> ~ In 32 a -> ~ In 32 b ->
     req_parse_line h (a ++ 32 :: b) = set_code h 400 None) /\
  (forall h m u v, get_status h < 400 -> ~ In 32 m -> ~ In 32 u -> canon_simple u = CanonOk u ->
     version_ok v = false -> req_parse_line h (m ++ 32 :: u ++ 32 :: v) = set_code h 505 None) /\
  (forall isreq h l, h_code (fst (parse_header isreq h l)) = h_code h) /\
  (forall strict h line, ~ In 32 line -> res_parse_line strict h line = (h, NNG_EPROTO)) /\
  (forall strict h v c r, ~ In 32 v -> ~ In 32 c -> status_code strict c = None ->
     res_parse_line strict h (v ++ 32 :: c ++ 32 :: r) = (h, NNG_EPROTO)) /\
  (forall isreq h line, ~ In 58 line -> parse_header isreq h line = (h, NNG_EPROTO)) /\
  (forall pre lc acc c rest, scan_from lc acc pre = SAgain -> fst (scan_state lc acc pre) = 13 -> c <> 10 ->
     scan_from lc acc (pre ++ c :: rest) = SProto) /\
  (forall pre lc acc c rest, scan_from lc acc pre = SAgain -> c < 32 -> c <> 10 -> c <> 13 ->
     scan_from lc acc (pre ++ c :: rest) = SProto).
Proof.
  exact (conj req_line_no_space (conj req_line_one_space (conj req_line_bad_version (conj parse_header_code
        (conj res_line_no_space (conj res_line_bad_code (conj header_no_colon (conj scan_bare_cr scan_control_char)))))))).
Qed.
Print Assumptions http_malformed_rejected.

(* request header line without ':' -- the text pinned at e917035 ([keep] = false)
   dropped it silently; since 8f01e0e ([keep] = true) the parse ends with
   EPROTO at that line wherever it stands, and nothing is delivered as valid *)
Theorem http_req_header_nocolon_pinned_refuted :
  let '(h, rv, rest) := req_parse false hconn_init req_nocolon_witness in
  rv = 0 /\ get_status h = 200 /\ h_hdrs h = [] /\ rest = [].
Proof. exact req_header_nocolon_pinned. Qed.
Print Assumptions http_req_header_nocolon_pinned_refuted.

Theorem http_req_header_nocolon_holds :
  (forall f h buf line rest, http_scan_line buf = SLine line rest -> line <> [] -> h_parsed h = true ->
     ~ In 58 line ->
     parse_loop (handle_req true) (fun h => set_parsed h false) (S f) h buf = (set_parsed h false, NNG_EPROTO, rest)) /\
  (let '(h, rv, rest) := req_parse true hconn_init req_nocolon_witness in rv = NNG_EPROTO /\ rest = [13; 10]).
Proof. exact (conj req_nocolon_stops req_header_nocolon_fixed). Qed.
Print Assumptions http_req_header_nocolon_holds.

(* status code -- the pinned text read it with atoi ("200x" = 200); since
   df9e40d an accepted status line is  version SP 3DIGIT SP reason  with the
   first digit 1-9, and the status stored is the value of the three digits *)
Theorem http_status_3digit_pinned_refuted :
  let '(h, rv, rest) := res_parse false hconn_init res_200x_witness in rv = 0 /\ get_status h = 200.
Proof. exact res_status_200x_pinned. Qed.
Print Assumptions http_status_3digit_pinned_refuted.

Theorem http_status_3digit_holds :
  (forall h line h', res_parse_line true h line = (h', 0) ->
     exists v a b c reason, line = v ++ 32 :: [a; b; c] ++ 32 :: reason /\ version_ok v = true /\
       49 <= a <= 57 /\ 48 <= b <= 57 /\ 48 <= c <= 57 /\
       h_code h' = (a - 48) * 100 + (b - 48) * 10 + (c - 48) /\ 100 <= h_code h' <= 999) /\
  (let '(h, rv, rest) := res_parse true hconn_init res_200x_witness in rv = NNG_EPROTO).
Proof. exact (conj res_line_strict_shape res_status_200x_fixed). Qed.
Print Assumptions http_status_3digit_holds.

(* the response parser reports a header without ':' in both variants *)
Theorem http_res_header_nocolon_rejected : forall strict,
  let '(h, rv, rest) := res_parse strict hconn_init res_nocolon_witness in rv = NNG_EPROTO.
Proof. exact res_header_nocolon_rejected. Qed.
Print Assumptions http_res_header_nocolon_rejected.

(* nni_base64_encode computes the RFC 4648 encoding and nni_base64_decode
   inverts it, for byte strings of every length; only alphabet and pad
   characters are emitted *)
Theorem b64_roundtrip_holds : forall l, bytes_ok l ->
  b64_encode_all l = spec_b64_encode l /\ b64_decode_all (b64_encode_all l) = l.
Proof. exact b64_roundtrip. Qed.
Print Assumptions b64_roundtrip_holds.

Theorem b64_alphabet_only : forall l, bytes_ok l ->
  forallb (fun c => b64_alphabet c || (c =? 61)) (spec_b64_encode l) = true.
Proof. exact spec_alphabet. Qed.
Print Assumptions b64_alphabet_only.

(* the literals of the models are those of the current source *)
Theorem codec_consts_match :
  (WS_CONT, WS_TEXT, WS_BINARY, WS_CLOSE, WS_PING, WS_PONG) =
    (C16_WS_CONT, C16_WS_TEXT, C16_WS_BINARY, C16_WS_CLOSE, C16_WS_PING, C16_WS_PONG) /\
  (WS_CLOSE_NORMAL_CLOSE, WS_CLOSE_PROTOCOL_ERR, WS_CLOSE_UNSUPP_FORMAT, WS_CLOSE_TOO_BIG, WS_CLOSE_INTERNAL) =
    (C16_WS_CLOSE_NORMAL_CLOSE, C16_WS_CLOSE_PROTOCOL_ERR, C16_WS_CLOSE_UNSUPP_FORMAT, C16_WS_CLOSE_TOO_BIG,
     C16_WS_CLOSE_INTERNAL) /\
  (DEF_RECVMAX, DEF_MAXRXFRAME, DEF_MAXTXFRAME, WS_INIT_FRAGSIZE) =
    (C16_WS_DEF_RECVMAX, C16_WS_DEF_MAXRXFRAME, C16_WS_DEF_MAXTXFRAME, C16_WS_INIT_FRAGSIZE) /\
  (C16_WS_CONTROL_MAX, C16_WS_LEN7_LIMIT, C16_WS_LEN16_LIMIT, C16_WS_MIN64, C16_WS_MIN16) = (125, 126, 65536, 65536, 126) /\
  (C16_CHUNK_RADIX, C16_CHUNK_RADIX_MUL, C16_CHUNK_TAIL, C16_CHUNK_TAIL_GUARD) = (16, 16, 2, 2) /\
  (NNG_ENOMEM, NNG_EAGAIN, NNG_ENOTSUP, NNG_EPROTO, NNG_EMSGSIZE) =
    (C16_NNG_ENOMEM, C16_NNG_EAGAIN, C16_NNG_ENOTSUP, C16_NNG_EPROTO, C16_NNG_EMSGSIZE) /\
  http_versions = C16_HTTP_VERSIONS /\
  map b64_char (map N.of_nat (seq 0 64)) = C16_B64_ENCODE /\
  map b64_val (map N.of_nat (seq 0 256)) = C16_B64_DECODE.
Proof. repeat split; vm_compute; reflexivity. Qed.
Print Assumptions codec_consts_match.

(* The correspondence run instantiates the models with these generated flags
   (req_parse C16_REQ_PARSE_KEEPS_ERR, res_parse C16_STATUS_STRICT, eff_recvmax /
   eff_fragsize with the C16_DIALER_COPIES flags): the current source is the repaired text,
   for which the _holds theorems above are the relevant ones.  Should one of
   the repairs be undone, the flag flips, the model follows, this theorem stops
   checking, and the probes of checks/c16.py report the defect with a replay. *)
Theorem codec_current_source_repaired :
  (C16_REQ_PARSE_KEEPS_ERR, C16_STATUS_STRICT, C16_DIALER_COPIES_RECVMAX, C16_DIALER_COPIES_FRAGSIZE,
   C16_RDBUF_PULLUP_FIRST, C16_RDBUF_IOV_REFETCH) = (true, true, true, true, true, true) /\ (0 < N.to_nat C16_HTTP_BUFSIZE)%nat.
Proof. split; [reflexivity|]. apply Nat.ltb_lt. vm_compute. reflexivity. Qed.
Print Assumptions codec_current_source_repaired.

(* a client built from the current dialer code has no message limit and the ws_init fragment size *)
Theorem ws_dialer_limits_as_coded : forall recvmax fragsize,
  eff_recvmax C16_DIALER_COPIES_RECVMAX false recvmax = (if C16_DIALER_COPIES_RECVMAX then recvmax else 0) /\
  eff_fragsize C16_DIALER_COPIES_FRAGSIZE false fragsize = (if C16_DIALER_COPIES_FRAGSIZE then fragsize else WS_INIT_FRAGSIZE) /\
  eff_recvmax C16_DIALER_COPIES_RECVMAX true recvmax = recvmax /\ eff_fragsize C16_DIALER_COPIES_FRAGSIZE true fragsize = fragsize.
Proof. intros. unfold eff_recvmax, eff_fragsize. repeat split; destruct C16_DIALER_COPIES_RECVMAX, C16_DIALER_COPIES_FRAGSIZE; reflexivity. Qed.
Print Assumptions ws_dialer_limits_as_coded.

(* the hypotheses of ws_frame_roundtrip are satisfiable with the default
   configuration, and the decoder then delivers the payload *)
Example frame_roundtrip_nonvacuous :
  let cfg := mkCfg true false DEF_MAXRXFRAME DEF_RECVMAX false (2 ^ 40) false in
  frame_letin cfg ws_init WS_BINARY 5 /\
  snd (ws_feed cfg ws_dinit (ws_encode false [1; 2; 3; 4] WS_BINARY true [72; 101; 108; 108; 111])) =
    [EDeliver [72; 101; 108; 108; 111]].
Proof. split; [repeat split|]; vm_compute; reflexivity. Qed.

Example reassembly_nonvacuous :
  let cfg := mkCfg true false 0 0 false (2 ^ 40) false in
  let frs := [(WS_BINARY, false, [1]); (WS_PING, true, [9]); (WS_CONT, false, [2]); (WS_PONG, true, []);
              (WS_CONT, true, [3]); (WS_BINARY, true, [4; 5])] in
  msg_seq cfg frs [[1; 2; 3]; [4; 5]] /\ frames_encodable (repeat [7; 7; 7; 7] 6) frs /\
  letin_along cfg ws_init frs /\
  deliveries (snd (ws_feed cfg ws_dinit (ws_encode_frames false (repeat [7; 7; 7; 7] 6) frs))) = [[1; 2; 3]; [4; 5]].
Proof.
  cbv zeta. split; [|split; [|split]].
  - apply (MS_frag _ WS_BINARY [1] [(WS_PING, true, [9]); (WS_CONT, false, [2]); (WS_PONG, true, []); (WS_CONT, true, [3])]
             [[2]; [3]] [(WS_BINARY, true, [4; 5])] [[4; 5]]).
    + left; reflexivity.
    + apply MT_ctl; [reflexivity|]. apply MT_cont. apply MT_ctl; [reflexivity|]. apply MT_last.
    + apply MS_single; [left; reflexivity|apply MS_nil].
  - split; [|split; [cbn; lia|repeat constructor]]. repeat constructor; cbn; lia.
  - apply letin_unlimited; try reflexivity. repeat constructor; cbn; lia.
  - vm_compute. reflexivity.
Qed.

Example chunk_feed_nonvacuous :
  snd (chunk_feed (cfeed_init 0 (2 ^ 40)) [52; 13; 10; 119; 105; 107; 105; 13; 10; 48; 13; 10; 13; 10]) =
    [CDeliver [[119; 105; 107; 105]]].
Proof. vm_compute. reflexivity. Qed.
