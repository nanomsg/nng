(* Properties_C10 -- "Close always terminates, completes everything, invalidates handles".
   Statements only.  Model: Core/CloseModel.v (one socket with its contexts, endpoints and pipes;
   one step = one critical section; any number of threads).  The source's form of the five
   close-path defects found with the model is read from Gen/Consts.v (the C10_FX flags): each theorem is
   stated for that form -- the property for the repaired form, the defect's witness otherwise. *)
From Coq Require Import List Arith NArith Bool.
Import ListNotations.
From NngV Require Import Gen.Consts Queue.MsgqModel Core.CloseModel Core.CloseProofs Core.CloseTerm Core.CloseSafe Core.CloseMsgq.

Definition cur_fixes : fixes := mkFixes C10_FX_EPHOLD C10_FX_EPID C10_FX_CTXFINI C10_FX_LATEOP C10_FX_CTXOPEN C10_FX_CTXMARK.

Theorem c10_consts_match :
  C_EBUSY = C10_EBUSY /\ C_ECLOSED = C10_ECLOSED /\ C_ENOENT = C10_ENOENT /\ C_ENOTSUP = C10_ENOTSUP.
Proof. repeat split. Qed.
Print Assumptions c10_consts_match.

(* close_terminates, part 1: a well-founded measure strictly decreases along every internal step
   (a critical section of any thread inside the library, of the reaper, or a callback of an
   operation whose transport side close has shut) of every reachable state, for every interleaving
   and any number of threads, objects and pending operations.  (A step that trips an assertion
   -- the [bad] log grows -- is excluded; see double_close_partial.) *)
Theorem close_terminates_measure :
  if all_fixed cur_fixes then
    well_founded lt3 /\
    forall ph la fi ls s l s',
      run cur_fixes (init ph la fi) ls = Some s ->
      internal s l = true -> step cur_fixes s l = Some s' -> bad s' = bad s ->
      lt3 (M3 s') (M3 s)
  else pinned_defect cur_fixes.
Proof. exact (terminates_sel cur_fixes). Qed.
Print Assumptions close_terminates_measure.

(* non-vacuity: a run with a context, a pending receive on it and one on the socket, then close *)
Example close_terminates_nonvacuous :
  exists s s', run fixes_all (init PhFini true true)
                 ([LSpawn UCtxOpen] ++ runs 0 6 ++ [LSpawn (USubmit (Some 0) 1%N true)] ++ runs 1 4 ++
                  [LSpawn USockClose] ++ runs 2 5) = Some s /\
               internal s (LRun 2) = true /\ step fixes_all s (LRun 2) = Some s' /\ bad s' = bad s.
Proof. eexists; eexists; split; [vm_compute; reflexivity|]. split; [reflexivity|]. split; vm_compute; reflexivity. Qed.

(* close_handles_invalid.  In every state of every run (any interleaving, any number of threads and
   objects): once the nng_socket_close that ran the shutdown has returned 0 (role R_SHUT: the first
   closer), a find on the socket's handle, on every context handle, on every dialer/listener handle the
   application was given and on every pipe handle fails (NNG_ECLOSED / NNG_ENOENT) -- in that state and,
   the log of returns only growing, in every later one.  For the close that destroyed the socket
   (R_DESTROY; it may be a second, concurrent closer) the socket's and the contexts' handles are invalid
   unconditionally, the endpoints' and pipes' once the first closer's shutdown has completed
   (k_shutdone) -- that it always has by then rests on the reference counts (the destroyer waits for
   s_ref <= 1 and the first closer holds a reference until it is done), which are cross-checked by the
   exhaustive search of checks/c10.py but not proved: close_handles_invalid is full for R_SHUT and
   PARTIAL for R_DESTROY in that one respect.  Returns of further concurrent closers: late_closer_refuted. *)
Theorem close_handles_invalid :
  if all_fixed cur_fixes then
    forall ph la fi ls s, run cur_fixes (init ph la fi) ls = Some s ->
      (In (USockClose, C_OK, R_SHUT) (rets s) -> handles_invalid s) /\
      (In (USockClose, C_OK, R_DESTROY) (rets s) ->
         find_sock s <> None /\ (forall c, find_ctx s c <> None) /\ (k_shutdone (sk s) = true -> handles_invalid s))
  else pinned_defect cur_fixes.
Proof. exact (handles_sel cur_fixes). Qed.
Print Assumptions close_handles_invalid.

(* close_completes_pending.  When the first closer has returned 0 no operation is pending on any context
   or on any endpoint the application knows; when the destroying closer has returned 0 nothing is pending
   on the socket or any context either (endpoints: as above).  What "pending on" means for a protocol is
   abstract here (the sets k_pend / c_pend / e_pend, emptied with NNG_ECLOSED by the protocol's
   sock_close / sock_fini / ctx_fini, nni_msgq_close and the dialer's connect callback).  An operation
   of a socket whose protocol completes only in sock_fini (req0) is completed by the destroying closer,
   not necessarily before the first closer returns. *)
Theorem close_completes_pending :
  if all_fixed cur_fixes then
    forall ph la fi ls s, run cur_fixes (init ph la fi) ls = Some s ->
      (In (USockClose, C_OK, R_SHUT) (rets s) ->
         (forall c x, nth_error (ctxs s) c = Some x -> c_pend x = []) /\
         (forall e x, nth_error (eps s) e = Some x -> e_pub x = true -> e_pend x = [])) /\
      (In (USockClose, C_OK, R_DESTROY) (rets s) ->
         k_pend (sk s) = [] /\ (forall c x, nth_error (ctxs s) c = Some x -> c_pend x = []) /\
         (k_shutdone (sk s) = true -> forall e x, nth_error (eps s) e = Some x -> e_pub x = true -> e_pend x = []))
  else pinned_defect cur_fixes.
Proof. exact (pending_sel cur_fixes). Qed.
Print Assumptions close_completes_pending.

(* non-vacuity of both: a run in which a context and the socket have a receive pending, a dialer exists,
   and one nng_socket_close runs to its end (it is the first closer and the destroyer) *)
Definition nv_run : option st :=
  run fixes_all (init PhFini true true)
      ([LSpawn UCtxOpen] ++ runs 0 6 ++ [LSpawn (USubmit (Some 0) 1%N true)] ++ runs 1 4 ++
       [LSpawn (USubmit None 2%N true)] ++ runs 2 4 ++ [LSpawn (UEpCreate true)] ++ runs 3 5 ++
       [LSpawn USockClose] ++ runs 4 18 ++ reaps 4 ++ runs 4 3).
Example close_returns_nonvacuous :
  match nv_run with
  | Some s => sock_ret R_DESTROY s = true /\ done s = [(1%N, C_ECLOSED); (2%N, C_ECLOSED)] /\
              length (ctxs s) = 1 /\ length (eps s) = 1 /\ bad s = []
  | None => False
  end.
Proof. vm_compute. repeat split. Qed.

(* double_close (PARTIAL).  Proved: a further nng_socket_close on a handle whose find fails returns an
   error and touches nothing (with close_handles_invalid: the second close after a completed close gets
   NNG_ECLOSED); a concurrent closer returns 0 or NNG_ECLOSED / NNG_EBUSY by construction of the
   program.  Not proved: that no step of the repaired model ever acts on released state (the [bad] log
   stays empty: reference counts never underflow, no action runs on a destroyed object) and that no
   state without an enabled step exists while a close is under way -- both are checked exhaustively over
   all interleavings of 27 small scenarios on every run (checks/c10.py, ocaml/drv_c10.ml explore), and are
   false of the pinned forms (pinned_defect); on the real library they are runtime facts (ASan, watchdog). *)
Theorem double_close_partial :
  forall fx s, find_sock s <> None ->
    exists rv, run_act fx s (AFind USockClose) = Some (s, [ARet USockClose rv R_NA]) /\ rv <> C_OK.
Proof. exact second_close_fails. Qed.
Print Assumptions double_close_partial.

(* contexts: sock_shutdown marks EVERY context closed and destroys the idle ones; a context that another
   thread's call references at that instant (between its nni_ctx_find and its nni_ctx_rele) is destroyed by
   its last release.  For all interleavings: a context is destroyed iff it has left s_ctxs, a destroyed
   context has nothing pending, ctx_fini runs only on contexts still on the list (at most once each), and
   when the destroying close has returned every context has been destroyed (exactly once).  Termination
   with busy contexts is part of close_terminates_measure.  With C10_FX_CTXMARK = false (only idle
   contexts marked) the selected statement is the witness: the busy context stays open, valid and on
   s_ctxs, no step is enabled, nng_socket_close never returns. *)
Theorem close_contexts_destroyed :
  if all_fixed cur_fixes then
    forall ph la fi ls s, run cur_fixes (init ph la fi) ls = Some s ->
      (forall c x, nth_error (ctxs s) c = Some x ->
         (c_freed x = true <-> c_onlist x = false) /\ (c_freed x = true -> c_pend x = [])) /\
      (In (USockClose, C_OK, R_DESTROY) (rets s) -> forall c x, nth_error (ctxs s) c = Some x -> c_freed x = true)
  else pinned_defect cur_fixes.
Proof. exact (contexts_sel cur_fixes). Qed.
Print Assumptions close_contexts_destroyed.

Theorem ctxmark_refuted_witness : forall a b c d e,
  exists s, run (mkFixes a b c d e false) (init PhFini true true) w_ctxmark = Some s /\
            (exists r, nth_error (threads s) 2 = Some (AWaitCtxs :: r)) /\
            bad s = [] /\ no_internal_step (mkFixes a b c d e false) s /\ find_ctx s 0 = None.
Proof. exact ctxmark_refuted. Qed.
Print Assumptions ctxmark_refuted_witness.

(* the step of the close model that closes the upper queues of a raw socket assumes that nni_msgq_close
   completes every waiting reader and writer with NNG_ECLOSED; this is that statement, proved of the msgq
   model of C18 (whatever capacity, fill and number of waiters) *)
Theorem msgq_close_completes_all_waiters :
  forall fixed q rv q' outs, msgq_step fixed q MClose = Some (rv, q', outs) ->
    mq_getq q' = [] /\ mq_putq q' = [] /\ mq_closed q' = true /\
    forall a, In a (waiters q) -> In (Done a ECLOSED None) outs.
Proof. exact msgq_close_completes_waiters. Qed.
Print Assumptions msgq_close_completes_all_waiters.

Example msgq_close_nonvacuous :
  match msgq_run true (msgq_init 1) [MAioPut 1%N 11%N true; MAioPut 2%N 12%N true; MAioPut 3%N 13%N true; MClose] with
  | Some (q, _) => mq_putq q = [] /\ mq_closed q = true
  | None => False
  end.
Proof. vm_compute. auto. Qed.

(* pipes: the strict reading ("after nng_pipe_close returns, further calls fail") is false of the
   code: nng_pipe_close marks the pipe and queues it for the reaper; the id leaves the map in
   pipe_reap, after the REM_POST callback (which may still query the pipe). *)
Theorem pipe_handle_refuted :
  exists s, run fixes_all (init PhProto false false) w_pipe = Some s /\
            (exists ro, In (UPipeClose 0, C_OK, ro) (rets s)) /\ find_pipe s 0 = None /\
            (exists x, nth_error (pipes s) 0 = Some x /\ p_closed x = true /\ p_freed x = false).
Proof. exact pipe_handle_witness. Qed.
Print Assumptions pipe_handle_refuted.

(* a third concurrent nng_socket_close returns 0 as soon as it sees s_closed, while the first
   closer may not have closed the endpoints yet: their handles are still valid at that moment *)
Theorem late_closer_refuted :
  exists s, run fixes_all (init PhProto false false) w_late = Some s /\
            In (USockClose, C_OK, R_LATE) (rets s) /\ find_ep s 0 = None /\ bad s = [] /\
            (exists x, nth_error (eps s) 0 = Some x /\ e_pub x = true).
Proof. exact late_closer_witness. Qed.
Print Assumptions late_closer_refuted.
