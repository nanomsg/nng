(* Properties_C17: statements only.  C17 -- nng_msg behaves as two byte strings. *)
From Coq Require Import List NArith.
From NngV Require Import Gen.Consts Base.ListX Base.Bytes Msg.MsgModel Msg.MsgProofs.
Import ListNotations.

(* Every history of public operations from any state satisfying the
   invariant (in particular from nng_msg_alloc n, for every n) runs to the end
   without any out-of-bounds access or panic (the model returns None for those),
   keeps the invariant, and is observationally the history of string
   operations of MsgSpec: same return codes (EINVAL exactly where the spec
   says), same values read, same two byte strings; ENOMEM only where an
   allocation was made to fail, and then with no change. *)
Theorem msg_refines_spec : forall ops m, Inv m ->
  exists outs m', run m ops = Some (outs, m') /\ Inv m' /\ spec_run (abs m) ops outs (abs m').
Proof. exact run_refines. Qed.
Print Assumptions msg_refines_spec.

Theorem msg_alloc_ok : forall sz,
  exists m, msg_alloc sz false false = Some (0%N, Some m) /\ Inv m /\
            abs m = ([], zeros sz) /\ sz <= msg_capacity m.
Proof. exact alloc_spec. Qed.
Print Assumptions msg_alloc_ok.

(* single step: never out of bounds, never a panic *)
Theorem msg_in_bounds : forall m o fail, Inv m -> exists r, msg_step true m o fail = Some r.
Proof. exact step_total. Qed.
Print Assumptions msg_in_bounds.

Theorem msg_step_refines : forall m o fail rv v m',
  Inv m -> msg_step true m o fail = Some (rv, v, m') -> step_ok m o fail rv v m'.
Proof. exact step_refines. Qed.
Print Assumptions msg_step_refines.

Theorem msg_cap_ge_len : forall m, Inv m -> msg_len m <= msg_capacity m.
Proof. exact cap_ge_len. Qed.
Print Assumptions msg_cap_ge_len.

Theorem msg_be_codec_insert_trim : forall m k u m1,
  Inv m -> msg_step true m (InsertU k u) false = Some (0%N, None, m1) ->
  exists m2, msg_step true m1 (TrimU k) false = Some (0%N, Some (u mod 256 ^ N.of_nat k)%N, m2)
             /\ abs m2 = abs m /\ Inv m2.
Proof. exact insert_trim_u. Qed.
Print Assumptions msg_be_codec_insert_trim.

Theorem msg_be_codec_append_chop : forall m k u m1,
  Inv m -> msg_step true m (AppendU k u) false = Some (0%N, None, m1) ->
  exists m2, msg_step true m1 (ChopU k) false = Some (0%N, Some (u mod 256 ^ N.of_nat k)%N, m2)
             /\ abs m2 = abs m /\ Inv m2.
Proof. exact append_chop_u. Qed.
Print Assumptions msg_be_codec_append_chop.

Theorem be_roundtrip : forall n v, (v < 256 ^ N.of_nat n)%N -> be_dec (be_enc n v) = v.
Proof. exact be_dec_enc_small. Qed.
Print Assumptions be_roundtrip.

(* a duplicate is an equal message with its own store: in the model a
   message is a value, so operations on either cannot affect the other; that
   the C shares nothing is what the correspondence run observes *)
Theorem msg_dup_equal : forall m, Inv m ->
  exists m', msg_dup m false false = Some (0%N, Some m') /\ Inv m' /\ abs m' = abs m /\
             msg_capacity m' = msg_capacity m.
Proof. exact msg_dup_spec. Qed.
Print Assumptions msg_dup_equal.

(* the insert of the tree as pinned (before the fix: commit) lost data *)
Theorem msg_insert_unfixed_refuted :
  exists m3, insert_witness = Some (0%N, None, m3) /\
             snd (abs m3) <> repeat 120%N 40 ++ [65;66;67;68;69;70;71;72]%N.
Proof. exact insert_unfixed_refuted. Qed.
Print Assumptions msg_insert_unfixed_refuted.

(* the literals of the model are those of the current source (Gen/Consts.v is
   regenerated from /repo on every run) *)
Theorem msg_consts_match :
  HDR_CAP = 4 * (NNI_MAX_MAX_TTL + MSG_HEADER_WORDS_EXTRA) /\ MSG_HEADROOM = 32 /\ MSG_HEADROOM2 = 32 /\ MSG_BIG = 1024.
Proof. repeat split; reflexivity. Qed.
Print Assumptions msg_consts_match.

(* non-vacuity: a concrete non-trivial state satisfies the invariant *)
Example inv_nonvacuous :
  exists m, msg_alloc 100 false false = Some (0%N, Some m) /\ Inv m /\ msg_len m = 100.
Proof.
  destruct (alloc_spec 100) as (m & A & HI & Ha & _). exists m. repeat split; try apply HI; auto.
  unfold msg_len. destruct HI as [HC _]. rewrite <- (cabs_length _ HC).
  unfold abs in Ha. inversion Ha as [[H0 H1]]. rewrite H1. apply zeros_length.
Qed.
