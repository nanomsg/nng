(* MsgqProofs: ring indices in range, FIFO order, bounds, waiter invariants. *)
From Coq Require Import List Arith Lia NArith Bool.
From NngV Require Import Base.Ring Queue.LmqModel Queue.MsgqModel.
Import ListNotations.

Ltac simp_m := cbn [fst snd mq_cap mq_len mq_get mq_put mq_closed mq_cells mq_putq mq_getq
                    mq_sendable mq_recvable set_ring set_qs run_notify] in *.

Definition items (q : msgq) : list N := window 0%N (mq_cells q) (mq_get q) (mq_len q).
Definition pending (q : msgq) : list N := items q ++ map snd (mq_putq q).

Definition MInv (q : msgq) : Prop :=
  mq_cap q + 2 <= mq_alloc q /\ mq_len q <= mq_alloc q /\ mq_get q < mq_alloc q /\
  mq_put q = (mq_get q + mq_len q) mod mq_alloc q.

(* waiter invariants: a blocked reader means nothing is queued or waiting to be
   written; a blocked writer means the buffer is at capacity *)
Definition QInv (q : msgq) : Prop :=
  (mq_getq q <> [] -> mq_len q = 0 /\ mq_putq q = []) /\
  (mq_putq q <> [] -> mq_cap q <= mq_len q).

Fixpoint consumed (outs : list mout) : list N :=
  match outs with
  | [] => []
  | Done _ _ (Some m) :: r => m :: consumed r
  | MFree m :: r => m :: consumed r
  | _ :: r => consumed r
  end.

Fixpoint accepted (outs : list mout) : list N :=
  match outs with
  | [] => []
  | Accept _ m :: r => m :: accepted r
  | _ :: r => accepted r
  end.

Lemma consumed_app a b : consumed (a ++ b) = consumed a ++ consumed b.
Proof. induction a as [|[? ? [m|]|? ?|m] a IH]; cbn; rewrite ?IH; reflexivity. Qed.
Lemma accepted_app a b : accepted (a ++ b) = accepted a ++ accepted b.
Proof. induction a as [|[? ? ?|? ?|m] a IH]; cbn; rewrite ?IH; reflexivity. Qed.
Lemma consumed_free l : consumed (map MFree l) = l.
Proof. induction l; cbn; congruence. Qed.
Lemma accepted_free l : accepted (map MFree l) = [].
Proof. induction l; cbn; auto. Qed.

(* FIFO in acceptance order across outs: what was buffered, then what outs accepts from the
   waiting writers (in their order), is what outs hands out or frees, then what stays buffered *)
Definition flows (q : msgq) (outs : list mout) (q' : msgq) : Prop :=
  items q ++ accepted outs = consumed outs ++ items q' /\
  map snd (mq_putq q) = accepted outs ++ map snd (mq_putq q').

Lemma flows_refl q : flows q [] q.
Proof. split; [apply app_nil_r|reflexivity]. Qed.

Lemma flows_trans q o1 q1 o2 q2 : flows q o1 q1 -> flows q1 o2 q2 -> flows q (o1 ++ o2) q2.
Proof.
  intros [I1 W1] [I2 W2]. split; rewrite accepted_app, ?consumed_app.
  - rewrite app_assoc, I1, <- !app_assoc. f_equal. exact I2.
  - rewrite W1, W2. apply app_assoc.
Qed.

Lemma flows_free q l q' : items q = l ++ items q' -> mq_putq q' = mq_putq q -> flows q (map MFree l) q'.
Proof. intros I W. split; rewrite accepted_free, ?consumed_free; [rewrite app_nil_r; exact I|now rewrite W]. Qed.

Lemma wrap_eqb g n : 0 < n -> g <= n -> (if g =? n then 0 else g) = g mod n.
Proof.
  intros Hn Hg. destruct (g =? n) eqn:E.
  - apply Nat.eqb_eq in E. subst. now rewrite Nat.mod_same by lia.
  - apply Nat.eqb_neq in E. now rewrite Nat.mod_small by lia.
Qed.
Lemma wrap_geb g n : 0 < n -> g <= n -> (if is_geb g n then 0 else g) = g mod n.
Proof.
  intros Hn Hg. unfold is_geb. destruct (n <=? g) eqn:E.
  - apply Nat.leb_le in E. assert (g = n) by lia. subst. now rewrite Nat.mod_same by lia.
  - apply Nat.leb_gt in E. now rewrite Nat.mod_small by lia.
Qed.

Definition good_wrap (w : nat -> nat -> bool) : Prop :=
  forall g n, 0 < n -> g <= n -> (if w g n then 0 else g) = g mod n.

Lemma ring_put_spec q m : MInv q -> mq_len q < mq_alloc q ->
  exists q', ring_put q m = Some q' /\ MInv q' /\ items q' = items q ++ [m] /\
             mq_len q' = mq_len q + 1 /\ mq_cap q' = mq_cap q /\ mq_putq q' = mq_putq q /\
             mq_getq q' = mq_getq q /\ mq_alloc q' = mq_alloc q /\ mq_closed q' = mq_closed q.
Proof.
  intros (Hc & Hl & Hg & Hp) Hlt. unfold ring_put, mq_alloc in *.
  assert (Hpl: mq_put q < length (mq_cells q)) by (rewrite Hp; apply Nat.mod_upper_bound; lia).
  rewrite wr_Some by exact Hpl. eexists; split; [reflexivity|].
  unfold MInv, items, mq_alloc. simp_m. rewrite upd_length.
  rewrite wrap_eqb by lia.
  repeat split; auto; try lia.
  - rewrite Hp, Nat.add_mod_idemp_l by lia. f_equal. lia.
  - rewrite Hp, Nat.add_1_r. apply window_put. exact Hlt.
Qed.

Lemma ring_get_spec w q : good_wrap w -> MInv q -> 0 < mq_len q ->
  exists m q', ring_get w q = Some (m, q') /\ MInv q' /\ items q = m :: items q' /\
             mq_len q' = mq_len q - 1 /\ mq_cap q' = mq_cap q /\ mq_putq q' = mq_putq q /\
             mq_getq q' = mq_getq q /\ mq_alloc q' = mq_alloc q /\ mq_closed q' = mq_closed q /\
             mq_cells q' = mq_cells q.
Proof.
  intros Hw (Hc & Hl & Hg & Hp) Hlt. unfold ring_get, mq_alloc in *.
  rewrite (rd_Some 0%N) by exact Hg. do 2 eexists; split; [reflexivity|].
  unfold MInv, items, mq_alloc. simp_m. rewrite Hw by lia.
  repeat split; auto; try lia.
  - apply Nat.mod_upper_bound. lia.
  - rewrite Hp, Nat.add_mod_idemp_l by lia. f_equal. lia.
  - destruct (mq_len q) as [|n]; [lia|]. rewrite window_get by exact Hg.
    replace (S n - 1) with n by lia. reflexivity.
Qed.

Lemma set_qs_inv q a b : MInv q -> MInv (set_qs q a b).
Proof. unfold MInv, mq_alloc. simp_m. auto. Qed.

Lemma run_putq_spec fuel : forall q, MInv q -> (mq_getq q <> [] -> mq_len q = 0) ->
  exists q' outs, run_putq fuel q = Some (q', outs) /\ MInv q' /\
    flows q outs q' /\
    (forall x, ~ In (MFree x) outs) /\
    mq_cap q' = mq_cap q /\
    mq_len q' <= Nat.max (mq_len q) (mq_cap q) /\
    (mq_getq q' <> [] -> mq_len q' = mq_len q) /\ (mq_getq q = [] -> mq_getq q' = []) /\
    (length (mq_putq q) <= fuel ->
       (mq_getq q' <> [] -> mq_putq q' = []) /\ (mq_putq q' <> [] -> mq_cap q <= mq_len q')).
Proof.
  induction fuel as [|f IH]; intros q HI Hr; cbn [run_putq].
  - exists q, []. split; [reflexivity|]. split; [exact HI|]. split; [apply flows_refl|]. split; [intros x []|].
    repeat split; auto; try lia.
    + intros _. destruct (mq_putq q); [reflexivity|cbn in H; lia].
    + intros Hw. destruct (mq_putq q); [congruence|cbn in H; lia].
  - destruct (mq_putq q) as [|[wa m] wrest] eqn:EW.
    { exists q, []. rewrite EW. split; [reflexivity|]. split; [exact HI|]. split; [apply flows_refl|]. split; [intros x []|].
      repeat split; auto; try lia; congruence. }
    destruct (mq_getq q) as [|ra rrest] eqn:ER.
    + destruct (mq_len q <? mq_cap q) eqn:EL.
      * apply Nat.ltb_lt in EL.
        pose proof HI as (Hc & _).
        destruct (ring_put_spec (set_qs q wrest []) m (set_qs_inv _ _ _ HI)) as
            (q1 & P & HI1 & Hit & Hl1 & Hc1 & Hp1 & Hg1 & Ha1 & _).
        { unfold mq_alloc in *. simp_m. lia. }
        rewrite P. simp_m.
        destruct (IH q1 HI1) as (q' & outs & R & HI' & (Hi & Hw) & Hnf & Hc' & Hmax & Hgl & Hge & Hfin).
        { rewrite Hg1. congruence. }
        rewrite R. exists q', (Accept wa m :: outs).
        unfold mq_alloc in *. simp_m.
        split; [reflexivity|]. split; [exact HI'|]. split.
        { split; cbn [consumed accepted].
          - rewrite <- Hi, Hit. unfold items. simp_m. now rewrite <- app_assoc.
          - rewrite EW. cbn [map snd app]. rewrite <- Hw, Hp1. reflexivity. }
        split; [intros x [X|X]; [discriminate|exact (Hnf x X)]|].
        assert (G': mq_getq q' = []) by (apply Hge; exact Hg1).
        split; [congruence|]. split; [lia|].
        split; [intros Hne; congruence|]. split; [auto|].
        intros Hf. cbn [length] in Hf. destruct Hfin as [F1 F2]; [rewrite Hp1; lia|].
        split; [exact F1|]. intros Hw'. rewrite <- Hc1. auto.
      * apply Nat.ltb_ge in EL. exists q, []. rewrite EW, ER.
        split; [reflexivity|]. split; [exact HI|]. split; [apply flows_refl|]. split; [intros x []|].
        repeat split; auto; try lia; try congruence.
    + (* a reader is waiting: hand over directly *)
      assert (HL0: mq_len q = 0) by (apply Hr; congruence).
      destruct (IH (set_qs q wrest rrest) (set_qs_inv _ _ _ HI)) as
          (q' & outs & R & HI' & (Hi & Hw) & Hnf & Hc' & Hmax & Hgl & Hge & Hfin).
      { simp_m. auto. }
      rewrite R. exists q', (Done ra 0%N (Some m) :: Accept wa m :: outs).
      unfold mq_alloc in *. simp_m.
      split; [reflexivity|]. split; [exact HI'|]. split.
      { split; cbn [consumed accepted].
        - rewrite <- app_comm_cons, <- Hi. unfold items. simp_m. rewrite HL0. reflexivity.
        - rewrite EW. cbn [map snd app]. rewrite <- Hw. reflexivity. }
      split; [intros x [X|[X|X]]; [discriminate|discriminate|exact (Hnf x X)]|].
      split; [congruence|]. split; [lia|].
      split; [intros Hne; rewrite Hgl by exact Hne; reflexivity|]. split; [congruence|].
      intros Hf. cbn [length] in Hf. apply Hfin. lia.
Qed.

Lemma good_eqb : good_wrap Nat.eqb.
Proof. intros g n. apply wrap_eqb. Qed.
Lemma good_geb : good_wrap is_geb.
Proof. intros g n. apply wrap_geb. Qed.

Lemma run_getq_spec fuel : forall q, MInv q ->
  exists q' outs, run_getq fuel q = Some (q', outs) /\ MInv q' /\
    flows q outs q' /\
    (forall x, ~ In (MFree x) outs) /\
    mq_cap q' = mq_cap q /\
    mq_len q' <= mq_len q /\
    (length (mq_getq q) <= fuel -> mq_getq q' <> [] -> mq_len q' = 0 /\ mq_putq q' = []).
Proof.
  induction fuel as [|f IH]; intros q HI; cbn [run_getq].
  - exists q, []. split; [reflexivity|]. split; [exact HI|]. split; [apply flows_refl|]. split; [intros x []|].
    split; [reflexivity|]. split; [lia|].
    intros Hf Hne. destruct (mq_getq q); [congruence|cbn in Hf; lia].
  - destruct (mq_getq q) as [|ra rrest] eqn:ER.
    { exists q, []. rewrite ER. split; [reflexivity|]. split; [exact HI|]. split; [apply flows_refl|]. split; [intros x []|].
      split; [reflexivity|]. split; [lia|].
      intros _ Hne. congruence. }
    destruct (mq_len q =? 0) eqn:EL; cbn [negb].
    + apply Nat.eqb_eq in EL.
      destruct (mq_putq q) as [|[wa m] wrest] eqn:EW.
      * exists q, []. rewrite ER, EW. split; [reflexivity|]. split; [exact HI|]. split; [apply flows_refl|]. split; [intros x []|].
        split; [reflexivity|]. split; [lia|]. auto.
      * destruct (IH (set_qs q wrest rrest) (set_qs_inv _ _ _ HI)) as
            (q' & outs & R & HI' & (Hi & Hw) & Hnf & Hc' & Hmono & Hfin).
        rewrite R. exists q', (Accept wa m :: Done ra 0%N (Some m) :: outs).
        unfold mq_alloc in *. simp_m.
        split; [reflexivity|]. split; [exact HI'|]. split.
        { split; cbn [consumed accepted].
          - rewrite <- app_comm_cons, <- Hi. unfold items. simp_m. rewrite EL. reflexivity.
          - rewrite EW. cbn [map snd app]. rewrite <- Hw. reflexivity. }
        split; [intros x [X|[X|X]]; [discriminate|discriminate|exact (Hnf x X)]|].
        split; [congruence|]. split; [lia|].
        intros Hf. cbn [length] in Hf. apply Hfin. lia.
    + apply Nat.eqb_neq in EL.
      destruct (ring_get_spec Nat.eqb q good_eqb HI ltac:(lia)) as
          (m & q1 & G & HI1 & Hit & Hl1 & Hc1 & Hp1 & Hg1 & Ha1 & Hcl1 & _).
      rewrite G.
      destruct (IH (set_qs q1 (mq_putq q1) rrest) (set_qs_inv _ _ _ HI1)) as
          (q' & outs & R & HI' & (Hi & Hw) & Hnf & Hc' & Hmono & Hfin).
      rewrite R. exists q', (Done ra 0%N (Some m) :: outs).
      unfold mq_alloc in *. simp_m.
      split; [reflexivity|]. split; [exact HI'|]. split.
      { split; cbn [consumed accepted].
        - rewrite <- app_comm_cons, <- Hi, Hit. unfold items. simp_m. reflexivity.
        - rewrite <- Hw. simp_m. now rewrite Hp1. }
      split; [intros x [X|X]; [discriminate|exact (Hnf x X)]|].
      split; [congruence|]. split; [lia|].
      intros Hf. cbn [length] in Hf. apply Hfin. lia.
Qed.

Lemma items_length q : length (items q) = mq_len q.
Proof. apply window_length. Qed.

Lemma drain_spec w fuel : good_wrap w -> forall q, MInv q -> mq_len q <= fuel ->
  exists q', drain w fuel q = Some (q', map MFree (items q)) /\ MInv q' /\ mq_len q' = 0 /\
    mq_cap q' = mq_cap q /\ mq_putq q' = mq_putq q /\
    mq_getq q' = mq_getq q /\ mq_closed q' = mq_closed q.
Proof.
  intros Hw. induction fuel as [|f IH]; intros q HI Hf; cbn [drain].
  - exists q. assert (E0: mq_len q = 0) by lia. split; [unfold items; rewrite E0; reflexivity|]. split; [exact HI|]. repeat split; auto.
  - destruct (mq_len q =? 0) eqn:EL.
    + apply Nat.eqb_eq in EL. exists q. split; [unfold items; rewrite EL; reflexivity|]. split; [exact HI|]. repeat split; auto.
    + apply Nat.eqb_neq in EL.
      destruct (ring_get_spec w q Hw HI ltac:(lia)) as
          (m & q1 & G & HI1 & Hit & Hl1 & Hc1 & Hp1 & Hg1 & Ha1 & Hcl1 & _).
      rewrite G. destruct (IH q1 HI1 ltac:(lia)) as (q' & D & HI' & L0 & Hc' & Hp' & Hg' & Hcl').
      rewrite D, Hit. exists q'. split; [reflexivity|]. split; [exact HI'|]. repeat split; congruence.
Qed.

(* the drop loop frees a prefix [l] of the buffered messages *)
Lemma drop_excess_spec w fuel cap : good_wrap w -> forall q, MInv q -> mq_len q <= fuel ->
  exists q' l, drop_excess w fuel cap q = Some (q', map MFree l) /\ MInv q' /\
    mq_len q' = Nat.min (mq_len q) (cap + 1) /\
    items q = l ++ items q' /\ mq_cap q' = mq_cap q /\ mq_putq q' = mq_putq q /\
    mq_getq q' = mq_getq q /\ mq_alloc q' = mq_alloc q.
Proof.
  intros Hw. induction fuel as [|f IH]; intros q HI Hf; cbn [drop_excess].
  - exists q, []. split; [reflexivity|]. split; [exact HI|]. repeat split; auto. lia.
  - destruct (cap + 1 <? mq_len q) eqn:EL.
    + apply Nat.ltb_lt in EL.
      destruct (ring_get_spec w q Hw HI ltac:(lia)) as
          (m & q1 & G & HI1 & Hit & Hl1 & Hc1 & Hp1 & Hg1 & Ha1 & Hcl1 & _).
      rewrite G. destruct (IH q1 HI1 ltac:(lia)) as (q' & l & D & HI' & L0 & Hcon & Hc' & Hp' & Hg' & Ha').
      rewrite D. exists q', (m :: l). split; [reflexivity|]. split; [exact HI'|]. split; [lia|].
      split; [rewrite Hit, Hcon; reflexivity|]. repeat split; congruence.
    + apply Nat.ltb_ge in EL. exists q, []. split; [reflexivity|]. split; [exact HI|]. repeat split; auto. lia.
Qed.

Lemma copy_ring_spec fuel : forall old og q, og < length old -> MInv q ->
  mq_len q + fuel < mq_alloc q ->
  exists q', copy_ring fuel old og q = Some q' /\ MInv q' /\
    items q' = items q ++ window 0%N old og fuel /\ mq_len q' = mq_len q + fuel /\
    mq_cap q' = mq_cap q /\ mq_putq q' = mq_putq q /\ mq_getq q' = mq_getq q /\
    mq_alloc q' = mq_alloc q /\ mq_closed q' = mq_closed q.
Proof.
  induction fuel as [|f IH]; intros old og q Hog HI Hroom; cbn [copy_ring].
  - exists q. rewrite window_0, app_nil_r, Nat.add_0_r. split; [reflexivity|]. split; [exact HI|]. repeat split; reflexivity.
  - rewrite (rd_Some 0%N) by exact Hog.
    destruct (ring_put_spec q (nth og old 0%N) HI ltac:(lia)) as
        (q1 & P & HI1 & Hit & Hl1 & Hc1 & Hp1 & Hg1 & Ha1 & Hcl1).
    rewrite P.
    destruct (IH old (if og + 1 =? length old then 0 else og + 1) q1) as
        (q' & C & HI' & Hit' & Hl' & Hc' & Hp' & Hg' & Ha' & Hcl').
    { rewrite wrap_eqb by lia. apply Nat.mod_upper_bound. lia. }
    { exact HI1. } { lia. }
    rewrite C. exists q'. split; [reflexivity|]. split; [exact HI'|].
    split. { rewrite Hit', Hit, window_get by exact Hog. rewrite wrap_eqb by lia.
             rewrite <- app_assoc. reflexivity. }
    split; [lia|]. repeat split; congruence.
Qed.

(* the array of nni_msgq_resize: kept when it is large enough, otherwise a new one of cap + 2
   cells into which the buffered messages are copied in order *)
Lemma regrow_spec cap q : MInv q -> mq_len q <= cap + 1 ->
  exists q2,
    (if negb (mq_alloc q <? cap + 2)
     then Some (mkMsgq cap (mq_len q) (mq_get q) (mq_put q) (mq_closed q) (mq_cells q)
                       (mq_putq q) (mq_getq q) (mq_sendable q) (mq_recvable q))
     else copy_ring (mq_len q) (mq_cells q) (mq_get q)
            (mkMsgq cap 0 0 0 (mq_closed q) (repeat 0%N (cap + 2)) (mq_putq q) (mq_getq q)
                    (mq_sendable q) (mq_recvable q))) = Some q2 /\
    MInv q2 /\ items q2 = items q /\ mq_len q2 = mq_len q /\ mq_cap q2 = cap /\
    mq_putq q2 = mq_putq q /\ mq_getq q2 = mq_getq q.
Proof.
  intros HI Hlen. pose proof HI as (A1 & A2 & A3 & A4).
  destruct (mq_alloc q <? cap + 2) eqn:EG; cbn [negb].
  - apply Nat.ltb_lt in EG.
    set (qn := mkMsgq cap 0 0 0 (mq_closed q) (repeat 0%N (cap + 2)) (mq_putq q) (mq_getq q)
                      (mq_sendable q) (mq_recvable q)).
    assert (HIn: MInv qn).
    { unfold MInv, mq_alloc, qn. simp_m. rewrite repeat_length. repeat split; try lia.
      rewrite Nat.mod_small; lia. }
    destruct (copy_ring_spec (mq_len q) (mq_cells q) (mq_get q) qn A3 HIn) as
        (q2 & C & HI2 & Hit2 & Hl2 & Hc2 & Hp2 & Hg2 & _).
    { unfold mq_alloc, qn. simp_m. rewrite repeat_length. lia. }
    exists q2. split; [exact C|]. split; [exact HI2|]. unfold qn in *; simp_m.
    split; [rewrite Hit2; unfold items at 1; simp_m; reflexivity|]. repeat split; auto; lia.
  - apply Nat.ltb_ge in EG. eexists. split; [reflexivity|]. split.
    { unfold MInv, mq_alloc in *. simp_m. repeat split; auto; lia. }
    unfold items. simp_m. repeat split; auto.
Qed.

Definition BInv (q : msgq) : Prop := mq_len q <= mq_cap q + 1.
Definition QInv1 (q : msgq) : Prop := mq_getq q <> [] -> mq_len q = 0 /\ mq_putq q = [].
Definition AllInv (q : msgq) : Prop := MInv q /\ QInv1 q /\ BInv q.

Lemma notify_inv q : AllInv q -> AllInv (run_notify q).
Proof. intros (A & B & C). unfold AllInv, MInv, QInv1, BInv, mq_alloc in *. simp_m. auto. Qed.
Lemma notify_items q : items (run_notify q) = items q.
Proof. reflexivity. Qed.

(* FIFO in acceptance order: the buffered messages, followed by the messages
   accepted in this step (writers completed, in that order; a successful
   tryput), are exactly the messages handed to readers or freed in this step,
   in that order, followed by what stays buffered. *)
Definition step_law (q : msgq) (o : mop) (rv : N) (q' : msgq) (outs : list mout) : Prop :=
  match o with
  | MAioPut a m ok =>
      (* refused by nni_aio_start (only reached when the operation would have to wait) *)
      (q' = q /\ outs = [] /\ ok = false /\
       (mq_putq q <> [] \/ (mq_getq q = [] /\ mq_cap q <= mq_len q))) \/
      (items q ++ accepted outs = consumed outs ++ items q' /\ mq_cap q' = mq_cap q /\
       map snd (mq_putq q) ++ [m] = accepted outs ++ map snd (mq_putq q'))
  | MAioGet a ok =>
      (q' = q /\ outs = [] /\ ok = false /\
       (mq_getq q <> [] \/ (mq_len q = 0 /\ mq_putq q = []))) \/
      (items q ++ accepted outs = consumed outs ++ items q' /\ mq_cap q' = mq_cap q /\
       map snd (mq_putq q) = accepted outs ++ map snd (mq_putq q'))
  | MTryPut m =>
      (rv = 0%N /\ items q ++ [m] = consumed outs ++ items q' /\ accepted outs = [] /\
       mq_putq q' = mq_putq q) \/
      (rv <> 0%N /\ q' = q /\ outs = [] /\
       (rv = ECLOSED /\ mq_closed q = true \/
        rv = EAGAIN /\ mq_getq q = [] /\ mq_cap q <= mq_len q))
  | MCancel a rv' => items q' = items q /\ consumed outs = [] /\ accepted outs = [] /\ mq_cap q' = mq_cap q /\
                     mq_putq q' = filter (fun p => negb (N.eqb (fst p) a)) (mq_putq q)
  | MClose => consumed outs = items q /\ accepted outs = [] /\ mq_len q' = 0 /\ mq_putq q' = [] /\
              mq_getq q' = [] /\ mq_closed q' = true
  | MResize cap fail =>
      (rv = ENOMEM_q /\ q' = q /\ outs = [] /\ fail = true) \/
      (* first the oldest messages beyond cap+1 are freed (and only those), then the
         waiter queues are re-run: the FIFO law holds for the whole step *)
      (rv = 0%N /\ mq_cap q' = cap /\
       exists dropped rest, outs = dropped ++ rest /\
         (forall o, In o dropped -> exists m, o = MFree m) /\
         length dropped = mq_len q - Nat.min (mq_len q) (cap + 1) /\
         (forall o, In o rest -> forall m, o <> MFree m) /\
         items q ++ accepted outs = consumed outs ++ items q' /\
         map snd (mq_putq q) = accepted outs ++ map snd (mq_putq q'))
  | MNotify => items q' = items q /\ mq_putq q' = mq_putq q /\ outs = []
  end.

Lemma consumed_fail_all rv l : consumed (fail_all rv l) = [] /\ accepted (fail_all rv l) = [].
Proof. induction l; cbn; auto. Qed.

Lemma filter_nil_keep {A} (f : A -> bool) l : l = [] -> filter f l = [].
Proof. intros ->. reflexivity. Qed.

Lemma run_getq_no_reader fuel q : mq_getq q = [] -> run_getq fuel q = Some (q, []).
Proof. intros E. destruct fuel; cbn [run_getq]; [reflexivity|]. rewrite E. reflexivity. Qed.

Lemma map_snd_nil {A B} (l : list (A * B)) : map snd l = [] -> l = [].
Proof. destruct l; [reflexivity|discriminate]. Qed.

(* no writer waits while there is room *)
Definition WaitInv (q : msgq) : Prop := mq_putq q <> [] -> mq_cap q <= mq_len q.

(* one walk over msgq_step: the step is total, keeps the invariants, obeys its law, keeps
   WaitInv, and only a resize can leave more than mq_cap messages buffered.  The five facts share
   the case analysis of msgq_step and its run_putq_spec / run_getq_spec instances, so they are proved
   together; msgq_step_spec, msgq_len_le_cap and msgq_waitinv_step are the projections. *)
Theorem msgq_step_full q o : AllInv q ->
  exists rv q' outs, msgq_step true q o = Some (rv, q', outs) /\ AllInv q' /\ step_law q o rv q' outs /\
    (WaitInv q -> WaitInv q') /\
    (mq_len q <= mq_cap q -> (forall c f, o <> MResize c f) -> mq_len q' <= mq_cap q').
Proof.
  intros (HI & HQ & HB). pose proof HI as (Hc & Hl & Hg & Hp). unfold WaitInv.
  destruct o as [a m ok|a ok|m|a rv0| |cap fail|]; cbn [msgq_step].
  - match goal with |- context [if ?b then _ else _] => destruct b eqn:MS end.
    { exists 0%N, q, []. split; [reflexivity|]. split; [split; auto|]. split; [|auto]. cbn [step_law]. left.
      apply andb_true_iff in MS as [MS OK]. destruct ok; [discriminate|].
      split; [reflexivity|]. split; [reflexivity|]. split; [reflexivity|].
      apply orb_true_iff in MS as [MS|MS].
      - left. destruct (mq_putq q); [discriminate|congruence].
      - right. apply andb_true_iff in MS as [G L]. apply Nat.leb_le in L.
        destruct (mq_getq q); [auto|discriminate]. }
    set (q1 := set_qs q (mq_putq q ++ [(a, m)]) (mq_getq q)).
    destruct (run_putq_spec (length (mq_putq q1)) q1 (set_qs_inv _ _ _ HI)) as
        (q2 & outs & R & HI2 & (Hi & Hw) & _ & Hc2 & Hmax & Hgl & Hge & Hfin).
    { unfold q1; simp_m. intros Hne. apply HQ; auto. }
    destruct (Hfin (le_n _)) as [F1 F2].
    rewrite R. exists 0%N, (run_notify q2), outs. split; [reflexivity|]. split; [|split; [|split]].
    + apply notify_inv. split; [exact HI2|]. split.
      * intros Hne. split; [|auto].
        rewrite (Hgl Hne). unfold q1; simp_m.
        assert (Hq: mq_getq q <> []) by (intros E; apply Hne, Hge; exact E).
        apply HQ; exact Hq.
      * unfold BInv in *. unfold q1 in *; simp_m. lia.
    + cbn [step_law]. right. rewrite notify_items. split; [exact Hi|]. split.
      * simp_m. unfold q1 in Hc2; simp_m. exact Hc2.
      * simp_m. rewrite <- Hw. unfold q1; simp_m. rewrite map_app. reflexivity.
    + intros _ Hne. simp_m. rewrite Hc2. exact (F2 Hne).
    + intros Hle _. simp_m. unfold q1 in *; simp_m. lia.
  - match goal with |- context [if ?b then _ else _] => destruct b eqn:MS end.
    { exists 0%N, q, []. split; [reflexivity|]. split; [split; auto|]. split; [|auto]. cbn [step_law]. left.
      apply andb_true_iff in MS as [MS OK]. destruct ok; [discriminate|].
      split; [reflexivity|]. split; [reflexivity|]. split; [reflexivity|].
      apply orb_true_iff in MS as [MS|MS].
      - left. destruct (mq_getq q); [discriminate|congruence].
      - right. apply andb_true_iff in MS as [L P]. apply Nat.eqb_eq in L.
        destruct (mq_putq q); [auto|discriminate]. }
    set (q1 := set_qs q (mq_putq q) (mq_getq q ++ [a])).
    destruct (run_getq_spec (length (mq_getq q1)) q1 (set_qs_inv _ _ _ HI)) as
        (q2 & outs & R & HI2 & Fl2 & _ & Hc2 & Hmono & Hfin).
    rewrite R.
    assert (Pre2: mq_getq q2 <> [] -> mq_len q2 = 0) by (intros Hne; apply Hfin; auto).
    destruct (run_putq_spec (length (mq_putq q2)) q2 HI2 Pre2) as
        (q3 & o3 & R3 & HI3 & Fl3 & _ & Hc3 & Hmax3 & Hgl3 & Hge3 & Hfin3).
    destruct (Hfin3 (le_n _)) as [F1 F2].
    rewrite R3. exists 0%N, (run_notify q3), (outs ++ o3). split; [reflexivity|]. split; [|split; [|split]].
    + apply notify_inv. split; [exact HI3|]. split.
      * intros Hne. split; [|auto].
        rewrite (Hgl3 Hne).
        assert (Hq: mq_getq q2 <> []) by (intros E; apply Hne, Hge3; exact E).
        apply Hfin; auto.
      * unfold BInv in *. unfold q1 in *; simp_m. lia.
    + cbn [step_law]. right. destruct (flows_trans _ _ _ _ _ Fl2 Fl3) as [Hi Hw].
      split; [exact Hi|]. split; [|exact Hw]. simp_m. unfold q1 in Hc2; simp_m. lia.
    + intros _ Hne. simp_m. rewrite Hc3. exact (F2 Hne).
    + intros Hle _. simp_m. unfold q1 in *; simp_m. lia.
  - destruct (mq_closed q) eqn:ECl.
    { exists ECLOSED, q, []. split; [reflexivity|]. split; [split; auto|]. split; [|auto].
      cbn. right. split; [discriminate|]. auto 10. }
    destruct (mq_getq q) as [|ra rrest] eqn:ER.
    + destruct (mq_len q <? mq_cap q) eqn:EL.
      * apply Nat.ltb_lt in EL.
        destruct (ring_put_spec q m HI ltac:(unfold mq_alloc in *; lia)) as
            (q1 & P & HI1 & Hit & Hl1 & Hc1 & Hp1 & Hg1 & Ha1 & _).
        rewrite P. exists 0%N, (run_notify q1), []. split; [reflexivity|]. split; [|split; [|split]].
        -- apply notify_inv. split; [exact HI1|]. split.
           ++ intros Hne. rewrite Hg1, ER in Hne. congruence.
           ++ unfold BInv in *. lia.
        -- cbn [step_law]. left. split; [reflexivity|]. rewrite notify_items.
           cbn [consumed accepted app]. rewrite Hit. simp_m. auto.
        -- intros HW Hne. simp_m. rewrite Hp1 in Hne. specialize (HW Hne). lia.
        -- intros _ _. simp_m. lia.
      * apply Nat.ltb_ge in EL. exists EAGAIN, q, []. split; [reflexivity|]. split; [split; auto|]. split; [|auto].
        cbn. right. split; [discriminate|]. auto 10.
    + destruct (HQ ltac:(congruence)) as [L0 W0].
      exists 0%N, (run_notify (set_qs q (mq_putq q) rrest)), [Done ra 0%N (Some m)].
      split; [reflexivity|]. split; [|split; [|simp_m; auto]].
      * apply notify_inv. split; [apply set_qs_inv; exact HI|]. split.
        -- intros _. simp_m. auto.
        -- unfold BInv in *. simp_m. lia.
      * cbn [step_law]. left. split; [reflexivity|]. rewrite notify_items.
        unfold items. simp_m. rewrite L0. cbn. auto.
  - eexists _, _, _. split; [reflexivity|]. split; [|split; [|split]].
    + apply notify_inv. split; [apply set_qs_inv; exact HI|]. split.
      * intros Hne. simp_m.
        assert (Hq: mq_getq q <> []). { intros E. rewrite E in Hne. cbn in Hne. congruence. }
        destruct (HQ Hq) as [L0 W0]. split; [exact L0|]. rewrite W0. reflexivity.
      * unfold BInv in *. simp_m. exact HB.
    + cbn [step_law]. rewrite notify_items. simp_m.
      split; [reflexivity|]. destruct (_ || _); cbn; auto.
    + intros HW Hne. simp_m. apply HW. intros E. rewrite E in Hne. apply Hne. reflexivity.
    + simp_m. auto.
  - set (q0 := mkMsgq (mq_cap q) (mq_len q) (mq_get q) (mq_put q) true (mq_cells q) (mq_putq q) (mq_getq q)
                      (mq_sendable q) (mq_recvable q)).
    assert (HI0: MInv q0) by (unfold MInv, mq_alloc, q0 in *; simp_m; auto).
    destruct (drain_spec is_geb (mq_len q0) good_geb q0 HI0 (le_n _)) as
        (q1 & D & HI1 & L0 & Hc1 & Hp1 & Hg1 & Hcl1).
    rewrite D. eexists _, _, _. split; [reflexivity|]. split; [|split; [|split]].
    + split; [apply set_qs_inv; exact HI1|]. split.
      * intros Hne. simp_m. congruence.
      * unfold BInv. simp_m. lia.
    + cbn [step_law]. simp_m.
      destruct (consumed_fail_all ECLOSED (mq_getq q1)) as [C1 A1].
      destruct (consumed_fail_all ECLOSED (map fst (mq_putq q1))) as [C2 A2].
      rewrite !consumed_app, !accepted_app, C1, C2, A1, A2, !app_nil_r, consumed_free, accepted_free.
      repeat split; auto.
    + intros _ Hne. simp_m. congruence.
    + intros _ _. simp_m. lia.
  - destruct ((mq_alloc q <? cap + 2) && fail) eqn:EF.
    { apply andb_true_iff in EF as [_ ->]. exists ENOMEM_q, q, []. split; [reflexivity|]. split; [split; auto|].
      split; [|auto]. cbn. left. auto. }
    destruct (drop_excess_spec is_geb (mq_len q) cap good_geb q HI (le_n _)) as
        (q1 & l & D & HI1 & L1 & Hit & Hc1 & Hp1 & Hg1 & Ha1).
    rewrite D.
    destruct (regrow_spec cap q1 HI1 ltac:(lia)) as (q2 & RG & HI2 & Hit2 & Hl2 & Hc2 & Hp2 & Hg2).
    rewrite Ha1 in RG. rewrite RG.
    assert (Pre2: mq_getq q2 <> [] -> mq_len q2 = 0).
    { intros Hne. rewrite Hg2, Hg1 in Hne. destruct (HQ Hne) as [L0 _]. lia. }
    destruct (run_putq_spec (length (mq_putq q2)) q2 HI2 Pre2) as
        (q3 & o3 & R3 & HI3 & Fl3 & Hnf3 & Hc3 & Hmax3 & Hgl3 & Hge3 & Hfin3).
    rewrite R3. destruct (Hfin3 (le_n _)) as [F1 F2].
    destruct (run_getq_spec (length (mq_getq q3)) q3 HI3) as
        (q4 & o4 & R4 & HI4 & Fl4 & Hnf4 & Hc4 & Hmono4 & Hfin4).
    rewrite R4. exists 0%N, (run_notify q4), (map MFree l ++ o3 ++ o4). split; [reflexivity|].
    split; [|split; [|split]].
    + apply notify_inv. split; [exact HI4|]. split.
      * intros Hne. apply Hfin4; auto.
      * unfold BInv. lia.
    + cbn [step_law]. right. split; [reflexivity|]. split; [simp_m; lia|].
      exists (map MFree l), (o3 ++ o4). split; [reflexivity|].
      split. { intros o Hin. apply in_map_iff in Hin as (x & <- & _). eauto. }
      split. { pose proof (f_equal (@length N) Hit) as E. rewrite app_length, !items_length in E.
        rewrite map_length. lia. }
      split.
      { intros o Hin x ->. apply in_app_or in Hin as [Hin|Hin]; [exact (Hnf3 x Hin)|exact (Hnf4 x Hin)]. }
      refine (flows_trans _ _ _ _ _ (flows_free q l q2 _ _) (flows_trans _ _ _ _ _ Fl3 Fl4)); congruence.
    + (* the writers were run first: either no reader is left and run_getq does nothing,
         or no writer is left *)
      intros _ Hne. simp_m. destruct (mq_getq q3) as [|r0 rr] eqn:EG3.
      * rewrite (run_getq_no_reader _ q3 EG3) in R4. inversion R4; subst q4 o4. rewrite Hc3. exact (F2 Hne).
      * destruct Fl4 as [_ Hw4]. rewrite F1 in Hw4 by congruence. symmetry in Hw4.
        apply app_eq_nil in Hw4 as [_ Hw4]. apply map_snd_nil in Hw4. congruence.
    + intros _ Hnr. exfalso. eapply Hnr; reflexivity.
  - exists 0%N, (run_notify q), []. split; [reflexivity|]. split; [apply notify_inv; split; auto|].
    split; [cbn; auto|]. simp_m. auto.
Qed.

Theorem msgq_step_spec q o : AllInv q ->
  exists rv q' outs, msgq_step true q o = Some (rv, q', outs) /\ AllInv q' /\ step_law q o rv q' outs.
Proof. intros HI. destruct (msgq_step_full q o HI) as (rv & q' & outs & S & HI' & L & _). exists rv, q', outs. auto. Qed.

Lemma msgq_init_inv cap : AllInv (msgq_init cap) /\ items (msgq_init cap) = [].
Proof.
  unfold AllInv, MInv, QInv1, BInv, mq_alloc, msgq_init, items. simp_m. rewrite repeat_length.
  repeat split; try lia; try congruence. rewrite Nat.mod_small; lia.
Qed.

Definition step_acc (o : mop) (rv : N) (outs : list mout) : list N :=
  accepted outs ++ match o with MTryPut m => if (rv =? 0)%N then [m] else [] | _ => [] end.

Lemma step_law_uniform q o rv q' outs :
  AllInv q' -> step_law q o rv q' outs -> items q ++ step_acc o rv outs = consumed outs ++ items q'.
Proof.
  intros HI' L. unfold step_acc. destruct o as [a m ok|a ok|m|a rv0| |cap fail|]; cbn [step_law] in L.
  - destruct L as [(-> & -> & _)|(L & _)]; [cbn; now rewrite app_nil_r|now rewrite app_nil_r].
  - destruct L as [(-> & -> & _)|(L & _)]; [cbn; now rewrite app_nil_r|now rewrite app_nil_r].
  - destruct L as [(-> & L & A & _)|(Hrv & -> & -> & _)].
    + rewrite A. cbn. exact L.
    + destruct (rv =? 0)%N eqn:E; [apply N.eqb_eq in E; congruence|]. cbn. now rewrite app_nil_r.
  - destruct L as (L & C & A & _). rewrite C, A, L. cbn. now rewrite app_nil_r.
  - destruct L as (C & A & L0 & _). rewrite C, A. cbn. rewrite app_nil_r.
    unfold items at 3. rewrite L0. cbn. now rewrite app_nil_r.
  - destruct L as [(-> & -> & -> & _)|(-> & _ & dropped & rest & -> & _ & _ & _ & L & _)].
    + cbn. now rewrite app_nil_r.
    + rewrite app_nil_r. exact L.
  - destruct L as (L & _ & ->). cbn. now rewrite app_nil_r, L.
Qed.

Fixpoint run_acc (ops : list mop) (res : list (N * list mout)) : list N :=
  match ops, res with
  | o :: r, (rv, outs) :: rr => step_acc o rv outs ++ run_acc r rr
  | _, _ => []
  end.
Fixpoint run_con (res : list (N * list mout)) : list N :=
  match res with
  | [] => []
  | (_, outs) :: rr => consumed outs ++ run_con rr
  end.

(* every history: no out-of-range ring access (the run is total), all
   invariants kept, and FIFO in acceptance order over the whole history *)
Theorem msgq_run_spec ops : forall q, AllInv q ->
  exists q' res, msgq_run true q ops = Some (q', res) /\ AllInv q' /\ length res = length ops /\
    items q ++ run_acc ops res = run_con res ++ items q'.
Proof.
  induction ops as [|o r IH]; intros q HI.
  - exists q, []. split; [reflexivity|]. split; [exact HI|]. split; [reflexivity|]. cbn [run_acc run_con app]. apply app_nil_r.
  - cbn [msgq_run]. destruct (msgq_step_spec q o HI) as (rv & q1 & outs & S & HI1 & L). rewrite S.
    destruct (IH q1 HI1) as (q2 & rr & R & HI2 & Hlen & F). rewrite R.
    exists q2, ((rv, outs) :: rr). split; [reflexivity|]. split; [exact HI2|]. split; [cbn; lia|].
    cbn [run_acc run_con]. rewrite app_assoc, (step_law_uniform _ _ _ _ _ HI1 L).
    rewrite <- !app_assoc. f_equal. exact F.
Qed.

Theorem msgq_bounded q : AllInv q ->
  mq_len q <= mq_cap q + 1 /\ mq_get q < mq_alloc q /\ mq_put q < mq_alloc q /\
  (mq_getq q <> [] -> mq_len q = 0 /\ mq_putq q = []).
Proof.
  intros ((Hc & Hl & Hg & Hp) & HQ & HB). repeat split; auto.
  - rewrite Hp. apply Nat.mod_upper_bound. lia.
  - apply HQ; auto.
  - apply HQ; auto.
Qed.

(* without a shrink the depth bound is the configured capacity *)
Theorem msgq_len_le_cap q o rv q' outs : AllInv q -> mq_len q <= mq_cap q ->
  (forall c f, o <> MResize c f) ->
  msgq_step true q o = Some (rv, q', outs) -> mq_len q' <= mq_cap q'.
Proof.
  intros HI Hle Hnr S. destruct (msgq_step_full q o HI) as (rv1 & q1 & o1 & S1 & _ & _ & _ & B).
  rewrite S in S1. inversion S1; subst. auto.
Qed.

(* the pinned tree: the wrap test `mq_get > mq_alloc` lets the drop loop read past the array *)
Definition msgq_unfixed_witness : option (msgq * list (N * list mout)) :=
  msgq_run false (msgq_init 4)
    [MTryPut 1; MTryPut 2; MTryPut 3; MTryPut 4; MAioGet 101 true; MAioGet 102 true; MAioGet 103 true;
     MAioGet 104 true; MTryPut 5; MTryPut 6; MTryPut 7; MTryPut 8; MResize 0 false]%N.
Theorem msgq_resize_unfixed_refuted : msgq_unfixed_witness = None.
Proof. vm_compute. reflexivity. Qed.

(* no writer waits while there is room (since fix e654d99: nni_msgq_aio_get runs the writer side
   too); the pinned form left a blocked writer waiting on an empty queue *)
Theorem msgq_waitinv_step q o rv q' outs : AllInv q -> WaitInv q ->
  msgq_step true q o = Some (rv, q', outs) -> WaitInv q'.
Proof.
  intros HI HW S. destruct (msgq_step_full q o HI) as (rv1 & q1 & o1 & S1 & _ & _ & W & _).
  rewrite S in S1. inversion S1; subst. auto.
Qed.

Theorem msgq_waitinv_run ops : forall q q' res, AllInv q -> WaitInv q ->
  msgq_run true q ops = Some (q', res) -> WaitInv q'.
Proof.
  induction ops as [|o r IH]; intros q q' res HI HW H; cbn [msgq_run] in H.
  - inversion H; subst. exact HW.
  - destruct (msgq_step_spec q o HI) as (rv & q1 & outs & S & HI1 & _). rewrite S in H.
    destruct (msgq_run true q1 r) as [[q2 res2]|] eqn:E; [|discriminate]. inversion H; subst.
    eapply IH; [exact HI1| |exact E]. eapply msgq_waitinv_step; [exact HI|exact HW|exact S].
Qed.

(* the pinned nni_msgq_aio_get: capacity 1, one message buffered, a writer blocks, a reader takes
   the buffered message: the writer keeps waiting although the queue is empty *)
Definition msgq_get_witness (fixed : bool) : option (msgq * list (N * list mout)) :=
  msgq_run fixed (msgq_init 1) [MTryPut 1; MAioPut 201 2 true; MAioGet 101 true]%N.
Theorem msgq_get_leaves_writer_refuted :
  exists q res, msgq_get_witness false = Some (q, res) /\ mq_putq q = [(201, 2)]%N /\ mq_len q = 0 /\ mq_cap q = 1.
Proof. eexists _, _. split; [vm_compute; reflexivity|repeat split]. Qed.
Theorem msgq_get_takes_writer_on_witness :
  exists q res, msgq_get_witness true = Some (q, res) /\ mq_putq q = [] /\ mq_len q = 1.
Proof. eexists _, _. split; [vm_compute; reflexivity|repeat split]. Qed.
