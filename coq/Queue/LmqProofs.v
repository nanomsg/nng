(* LmqProofs: lmq refines a bounded FIFO; ring indices stay in range. *)
From Coq Require Import List Arith Lia NArith Bool.
From NngV Require Import Base.Ring Queue.LmqModel Queue.LmqSpec.
From NngV Require Base.ListX.
Import ListNotations.

(* q_alloc does not occur: the model only carries it along, the ring is q_cells whether inline or
   allocated (1 <= k: at least the two inline cells) *)
Definition LInv (q : lmq) : Prop :=
  exists k, length (q_cells q) = 2 ^ k /\ q_mask q = Nat.ones k /\ 1 <= k /\
            q_cap q <= length (q_cells q) /\ q_len q <= q_cap q /\
            q_get q < length (q_cells q) /\
            q_put q = (q_get q + q_len q) mod length (q_cells q).
Definition labs (q : lmq) : fifo := (q_cap q, window 0%N (q_cells q) (q_get q) (q_len q)).

Ltac simp_q := cbn [fst snd q_cap q_alloc q_cells q_get q_len q_put q_mask] in *.

Lemma put_spec q x : LInv q ->
  exists r, lmq_put q x = Some r /\ LInv (snd r) /\ (LRv (fst r) None, labs (snd r)) = fifo_step (labs q) (LPut x).
Proof.
  intros (k & HL & HM & Hk & Hca & Hlc & Hg & Hp).
  unfold lmq_put, labs. cbn [fifo_step]. rewrite window_length.
  destruct (q_cap q <=? q_len q) eqn:E.
  - eexists; split; [reflexivity|]. cbn [fst snd]. split; [exists k; auto 10|reflexivity].
  - apply Nat.leb_gt in E.
    assert (Hpl: q_put q < length (q_cells q)) by (rewrite Hp; apply Nat.mod_upper_bound; lia).
    rewrite wr_Some by exact Hpl.
    eexists; split; [reflexivity|]. simp_q. split.
    + exists k. simp_q. rewrite upd_length. repeat split; auto; try lia.
      rewrite HM, Nat.land_ones, <- HL. rewrite Hp.
      rewrite Nat.add_mod_idemp_l by lia. f_equal. lia.
    + f_equal. f_equal. rewrite Hp. rewrite Nat.add_1_r. apply window_put. lia.
Qed.

Lemma get_spec q : LInv q ->
  exists r, lmq_get q = Some r /\ LInv (snd r) /\
            (LRv (fst (fst r)) (snd (fst r)), labs (snd r)) = fifo_step (labs q) LGet.
Proof.
  intros (k & HL & HM & Hk & Hca & Hlc & Hg & Hp).
  unfold lmq_get, labs. cbn [fifo_step].
  destruct (q_len q) as [|n] eqn:EL.
  - cbn [Nat.eqb]. eexists; split; [reflexivity|]. cbn [fst snd]. split.
    + exists k. rewrite EL. auto 10.
    + rewrite EL. reflexivity.
  - cbn [Nat.eqb]. rewrite (rd_Some 0%N) by exact Hg.
    eexists; split; [reflexivity|]. simp_q.
    rewrite window_get by exact Hg. split.
    + exists k. simp_q. repeat split; auto; try lia.
      * rewrite HM, Nat.land_ones, <- HL. apply Nat.mod_upper_bound. lia.
      * rewrite HM, Nat.land_ones, <- HL. rewrite Hp.
        rewrite Nat.add_mod_idemp_l by lia. f_equal. lia.
    + rewrite HM, Nat.land_ones, <- HL. replace (S n - 1) with n by lia. reflexivity.
Qed.

Lemma get_n_spec k : forall q, LInv q ->
  exists l q', lmq_get_n q k = Some (l, q') /\ LInv q' /\ l = firstn k (snd (labs q)) /\
               labs q' = (q_cap q, skipn k (snd (labs q))).
Proof.
  induction k as [|k IH]; intros q HI.
  - exists [], q. repeat split; auto.
  - cbn [lmq_get_n]. destruct (get_spec q HI) as ([[rv m] q1] & G & HI1 & S). rewrite G.
    destruct (IH q1 HI1) as (l & q2 & G2 & HI2 & Hl & Ha).
    unfold labs in *. cbn [fifo_step fst snd] in *.
    destruct (window 0%N (q_cells q) (q_get q) (q_len q)) as [|m0 rest]; injection S as -> -> Ec Ew.
    + exists [], q1. rewrite Ec, Ew. repeat split; auto.
    + rewrite G2. exists (m0 :: l), q2. rewrite Ew in Hl, Ha. rewrite Ec in Ha. cbn [firstn skipn].
      repeat split; auto. now rewrite Hl.
Qed.

Lemma flush_spec q : LInv q ->
  exists l q', lmq_flush q = Some (l, q') /\ LInv q' /\ l = snd (labs q) /\ labs q' = (q_cap q, []).
Proof.
  intros HI. unfold lmq_flush. destruct (get_n_spec (q_len q) q HI) as (l & q' & G & HI' & Hl & Ha).
  exists l, q'. repeat split; auto.
  - rewrite Hl. unfold labs; cbn [snd]. apply firstn_all2. now rewrite window_length.
  - rewrite Ha. f_equal. unfold labs; cbn [snd]. apply skipn_all2. now rewrite window_length.
Qed.

Lemma pow2ge_spec fuel : forall j cap, cap <= fuel + 2 ^ j ->
  exists j', pow2ge fuel (2 ^ j) cap = 2 ^ j' /\ j <= j' /\ cap <= 2 ^ j'.
Proof.
  induction fuel as [|f IH]; intros j cap H; cbn [pow2ge].
  - exists j. repeat split; auto; lia.
  - destruct (2 ^ j <? cap) eqn:E.
    + apply Nat.ltb_lt in E. replace (2 * 2 ^ j) with (2 ^ (S j)) by (cbn; lia).
      destruct (IH (S j) cap) as (j' & A & B & C). { cbn. pose proof (ListX.pow2_pos j). lia. }
      exists j'. repeat split; auto; lia.
    + apply Nat.ltb_ge in E. exists j. repeat split; auto.
Qed.

Lemma resize_spec q cap fail : LInv q ->
  exists r, lmq_resize true q cap fail = Some r /\ LInv (snd (fst r)) /\
            (LFreed (fst (fst r)) (snd r), labs (snd (fst r))) = fifo_step (labs q) (LResize cap fail).
Proof.
  intros HI. unfold lmq_resize. unfold labs at 2. cbn [fifo_step].
  destruct fail.
  - eexists; split; [reflexivity|]. cbn [fst snd]. split; auto.
  - destruct (get_n_spec cap q HI) as (taken & q1 & G & HI1 & Ht & Ha1). rewrite G.
    destruct (flush_spec q1 HI1) as (freed & q2 & F & _ & Hf & _). rewrite F.
    eexists; split; [reflexivity|]. cbn [fst snd].
    destruct (pow2ge_spec cap 1 cap) as (j & P & Hj & Hcap). { cbn. lia. }
    change (2 ^ 1) with 2 in P. rewrite P.
    assert (Hlen: length taken <= cap).
    { rewrite Ht. rewrite firstn_length. lia. }
    pose proof (ListX.pow2_pos j).
    split.
    + exists j. simp_q.
      rewrite app_length, repeat_length.
      replace (length taken + (2 ^ j - length taken)) with (2 ^ j) by lia.
      repeat split; auto; try lia.
      * rewrite Nat.ones_equiv. lia.
      * replace (2 ^ j - 1) with (Nat.pred (2 ^ j)) by lia.
        rewrite <- Nat.ones_equiv, Nat.land_ones. reflexivity.
    + unfold labs. cbn [q_cap q_cells q_get q_len]. rewrite window_prefix.
      rewrite Hf, Ha1. cbn [snd]. unfold labs in Ht; cbn [snd] in Ht. now rewrite Ht.
Qed.

Theorem lmq_step_refines q o : LInv q ->
  exists out q', lmq_step true q o = Some (out, q') /\ LInv q' /\ (out, labs q') = fifo_step (labs q) o.
Proof.
  intros HI. destruct o as [x| | |c f]; cbn [lmq_step].
  - destruct (put_spec q x HI) as ([rv q'] & P & HI' & S). rewrite P. eauto.
  - destruct (get_spec q HI) as ([[rv m] q'] & P & HI' & S). rewrite P. eauto.
  - destruct (flush_spec q HI) as (l & q' & P & HI' & Hl & Ha). rewrite P.
    exists (LFreed 0%N l), q'. repeat split; auto. unfold labs at 2. cbn [fifo_step].
    rewrite Ha, Hl. reflexivity.
  - destruct (resize_spec q c f HI) as ([[rv q'] l] & P & HI' & S). rewrite P. eauto.
Qed.

Theorem lmq_run_refines ops : forall q, LInv q ->
  exists outs q', lmq_run true q ops = Some (outs, q') /\ LInv q' /\ (outs, labs q') = fifo_run (labs q) ops.
Proof.
  induction ops as [|o r IH]; intros q HI.
  - exists [], q. repeat split; auto.
  - cbn [lmq_run fifo_run]. destruct (lmq_step_refines q o HI) as (out & q1 & S & HI1 & E).
    rewrite S, <- E. destruct (IH q1 HI1) as (outs & q2 & R & HI2 & E2). rewrite R, <- E2.
    exists (out :: outs), q2. repeat split; auto.
Qed.

Theorem lmq_init_inv cap fail : exists q, lmq_init true cap fail = Some q /\ LInv q /\
  snd (labs q) = [] /\ (fail = false -> q_cap q = cap) /\ (fail = true -> q_cap q = Nat.min cap 2).
Proof.
  unfold lmq_init.
  set (q0 := mkLmq 2 0 1 0 0 0 [0%N; 0%N]).
  assert (HI0: forall c, c <= 2 -> LInv (mkLmq c 0 1 0 0 0 [0%N; 0%N])).
  { intros c Hc. exists 1. cbn. repeat split; auto; lia. }
  destruct (2 <? cap) eqn:E.
  - apply Nat.ltb_lt in E.
    destruct (resize_spec q0 cap fail (HI0 2 ltac:(lia))) as ([[rv q'] l] & P & HI' & S). rewrite P.
    exists q'. cbn [fst snd] in *. split; [reflexivity|]. split; [auto|].
    unfold labs in *. cbn [fifo_step q0 q_cap q_len q_cells q_get window seq map snd] in *.
    destruct fail; injection S as _ _ C W.
    + rewrite W. repeat split; auto; try discriminate. intros _. lia.
    + rewrite firstn_nil in W. rewrite W. repeat split; auto; discriminate.
  - apply Nat.ltb_ge in E. eexists; split; [reflexivity|]. split; [apply HI0; lia|].
    cbn. repeat split; auto. intros _. lia.
Qed.

Theorem lmq_bounded q : LInv q -> q_len q <= q_cap q /\ q_get q < length (q_cells q) /\ q_put q < length (q_cells q).
Proof.
  intros (k & HL & HM & Hk & Hca & Hlc & Hg & Hp). repeat split; auto.
  rewrite Hp. apply Nat.mod_upper_bound. lia.
Qed.

(* the pinned tree: lmq_put = len (unmasked) lets the next put write outside the ring *)
Definition lmq_unfixed_witness : option (list lout * lmq) :=
  match lmq_init false 8 false with
  | Some q => lmq_run false q [LPut 1; LPut 2; LPut 3; LPut 4; LPut 5; LResize 4 false; LGet; LPut 6]%N
  | None => None
  end.
Theorem lmq_resize_unfixed_refuted : lmq_unfixed_witness = None.
Proof. vm_compute. reflexivity. Qed.
