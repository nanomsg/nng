(* AfQueueProofs: lmq.c / msgqueue.c under every allocation oracle. *)
From Coq Require Import List Arith Lia Bool NArith Permutation.
From NngV Require Import Base.Ring Queue.LmqModel Queue.LmqSpec Queue.LmqProofs Queue.MsgqModel Queue.MsgqProofs
  AllocFail.AfBase AllocFail.AfQueue.
Import ListNotations.

Lemma le_pow2ge fuel : forall a cap, a <= pow2ge fuel a cap.
Proof.
  induction fuel as [|f IH]; intros a cap; cbn [pow2ge]; [lia|].
  destruct (a <? cap); [|lia]. specialize (IH (2 * a) cap). lia.
Qed.

Lemma lmq_resize_alloc fx q cap rv q' fr :
  lmq_resize fx q cap false = Some (rv, q', fr) -> rv = 0%N /\ q_alloc q' = pow2ge cap 2 cap.
Proof.
  unfold lmq_resize. destruct (lmq_get_n q cap) as [[taken q1]|]; [|discriminate].
  destruct (lmq_flush q1) as [[freed q2]|]; [|discriminate].
  intros H; inversion H; subst. auto.
Qed.

(* only nni_lmq_resize replaces the ring *)
Lemma lmq_get_n_alloc k : forall q l q', lmq_get_n q k = Some (l, q') -> q_alloc q' = q_alloc q.
Proof.
  induction k as [|k IH]; intros q l q'; cbn [lmq_get_n]; [intros X; inversion X; reflexivity|].
  unfold lmq_get. destruct (q_len q =? 0); [intros X; inversion X; reflexivity|].
  destruct (rd _ _); [|discriminate].
  match goal with |- context [lmq_get_n ?a k] => destruct (lmq_get_n a k) as [[l2 q2]|] eqn:G end; [|discriminate].
  intros X; inversion X; subst. now rewrite (IH _ _ _ G).
Qed.

(* the ring array of a msgq changes size only in nni_msgq_resize *)
Lemma ring_put_alloc q m q' : ring_put q m = Some q' -> mq_alloc q' = mq_alloc q.
Proof.
  unfold ring_put, wr. destruct (mq_put q <? length (mq_cells q)); [|discriminate].
  intros H; inversion H; subst. unfold mq_alloc, set_ring; cbn [mq_cells]. apply upd_length.
Qed.
Lemma ring_get_alloc w q m q' : ring_get w q = Some (m, q') -> mq_alloc q' = mq_alloc q.
Proof.
  unfold ring_get. destruct (rd _ _); [|discriminate]. intros H; inversion H; subst. reflexivity.
Qed.
Lemma set_qs_alloc q a b : mq_alloc (set_qs q a b) = mq_alloc q.
Proof. reflexivity. Qed.
Lemma run_notify_alloc q : mq_alloc (run_notify q) = mq_alloc q.
Proof. reflexivity. Qed.

Lemma run_putq_alloc fuel : forall q q' outs, run_putq fuel q = Some (q', outs) -> mq_alloc q' = mq_alloc q.
Proof.
  induction fuel as [|f IH]; intros q q' outs; cbn [run_putq]; [intros H; inversion H; reflexivity|].
  destruct (mq_putq q) as [|[wa m] wrest]; [intros H; inversion H; reflexivity|].
  destruct (mq_getq q) as [|ra rrest].
  - destruct (mq_len q <? mq_cap q); [|intros H; inversion H; reflexivity].
    destruct (ring_put _ m) as [q1|] eqn:RP; [|discriminate].
    destruct (run_putq f q1) as [[q2 o2]|] eqn:R; [|discriminate].
    intros H; inversion H; subst. rewrite (IH _ _ _ R), (ring_put_alloc _ _ _ RP). reflexivity.
  - destruct (run_putq f _) as [[q2 o2]|] eqn:R; [|discriminate].
    intros H; inversion H; subst. rewrite (IH _ _ _ R). reflexivity.
Qed.

Lemma run_getq_alloc fuel : forall q q' outs, run_getq fuel q = Some (q', outs) -> mq_alloc q' = mq_alloc q.
Proof.
  induction fuel as [|f IH]; intros q q' outs; cbn [run_getq]; [intros H; inversion H; reflexivity|].
  destruct (mq_getq q) as [|ra rrest]; [intros H; inversion H; reflexivity|].
  destruct (negb (mq_len q =? 0)).
  - destruct (ring_get Nat.eqb q) as [[m q1]|] eqn:RG; [|discriminate].
    destruct (run_getq f _) as [[q2 o2]|] eqn:R; [|discriminate].
    intros H; inversion H; subst. rewrite (IH _ _ _ R). cbn. apply (ring_get_alloc _ _ _ _ RG).
  - destruct (mq_putq q) as [|[wa m] wrest]; [intros H; inversion H; reflexivity|].
    destruct (run_getq f _) as [[q2 o2]|] eqn:R; [|discriminate].
    intros H; inversion H; subst. rewrite (IH _ _ _ R). reflexivity.
Qed.

Lemma drop_excess_alloc w fuel cap : forall q q' outs,
  drop_excess w fuel cap q = Some (q', outs) -> mq_alloc q' = mq_alloc q.
Proof.
  induction fuel as [|f IH]; intros q q' outs; cbn [drop_excess]; [intros H; inversion H; reflexivity|].
  destruct (cap + 1 <? mq_len q); [|intros H; inversion H; reflexivity].
  destruct (ring_get w q) as [[m q1]|] eqn:RG; [|discriminate].
  destruct (drop_excess w f cap q1) as [[q2 o2]|] eqn:R; [|discriminate].
  intros H; inversion H; subst. rewrite (IH _ _ _ R). apply (ring_get_alloc _ _ _ _ RG).
Qed.

Lemma copy_ring_alloc fuel : forall old og q q', copy_ring fuel old og q = Some q' -> mq_alloc q' = mq_alloc q.
Proof.
  induction fuel as [|f IH]; intros old og q q'; cbn [copy_ring]; [intros H; inversion H; reflexivity|].
  destruct (rd old og); [|discriminate]. destruct (ring_put q _) as [q1|] eqn:RP; [|discriminate].
  intros H. rewrite (IH _ _ _ _ H). apply (ring_put_alloc _ _ _ RP).
Qed.

Lemma msgq_resize_alloc fx q cap rv q' outs :
  msgq_step fx q (MResize cap false) = Some (rv, q', outs) ->
  rv = 0%N /\ mq_alloc q' = if mq_alloc q <? cap + 2 then cap + 2 else mq_alloc q.
Proof.
  cbn [msgq_step]. rewrite andb_false_r.
  destruct (drop_excess _ (mq_len q) cap q) as [[q1 o1]|] eqn:DE; [|discriminate].
  pose proof (drop_excess_alloc _ _ _ _ _ _ DE) as A1.
  destruct (mq_alloc q <? cap + 2) eqn:G; cbn [negb].
  - destruct (copy_ring _ _ _ _) as [q2|] eqn:CR; [|discriminate].
    pose proof (copy_ring_alloc _ _ _ _ _ CR) as A2.
    destruct (run_putq _ q2) as [[q3 o3]|] eqn:RP; [|discriminate].
    destruct (run_getq _ q3) as [[q4 o4]|] eqn:RG; [|discriminate].
    intros H; inversion H; subst. split; [reflexivity|].
    rewrite run_notify_alloc, (run_getq_alloc _ _ _ _ RG), (run_putq_alloc _ _ _ _ RP), A2.
    unfold mq_alloc; cbn [mq_cells]. apply repeat_length.
  - match goal with |- context [run_putq ?n ?x] => destruct (run_putq n x) as [[q3 o3]|] eqn:RP end; [|discriminate].
    destruct (run_getq _ q3) as [[q4 o4]|] eqn:RG; [|discriminate].
    intros H; inversion H; subst. split; [reflexivity|].
    rewrite run_notify_alloc, (run_getq_alloc _ _ _ _ RG), (run_putq_alloc _ _ _ _ RP). exact A1.
Qed.

Section LmqAFProofs.
  Variable SZ_PTR : nat.
  Hypothesis SZ_PTR_pos : 0 < SZ_PTR.
  Notation lowned := (lmq_owned SZ_PTR).

  Lemma ring_size_pos cap : 0 < SZ_PTR * pow2ge cap 2 cap.
  Proof. pose proof (le_pow2ge cap 2 cap). nia. Qed.

  Lemma lmq_resize_o_guarded fx q cap :
    lmq_resize_o SZ_PTR fx q cap =
    guarded (Some (SZ_PTR * pow2ge cap 2 cap)) (q_alloc q =? 0) (SZ_PTR * q_alloc q) (lmq_resize fx q cap).
  Proof. reflexivity. Qed.

  (* the blocks of a queue whose ring has just been allocated *)
  Lemma lowned_fresh q cap : q_alloc q = pow2ge cap 2 cap -> lowned q = [SZ_PTR * pow2ge cap 2 cap].
  Proof.
    intros AL. unfold lmq_owned. rewrite AL. pose proof (le_pow2ge cap 2 cap).
    now destruct (pow2ge cap 2 cap); [lia|].
  Qed.

  Theorem lmq_resize_o_clean q cap (orc : oracle) : LInv q ->
    let r := run (lmq_resize_o SZ_PTR true q cap) orc in
    let t := ledger (lmq_resize_o SZ_PTR true q cap) orc in
    exists rv q' freed, r = Some (rv, q', freed) /\ LInv q' /\ balanced (lowned q) t (lowned q') /\
      ncalls t = 1 /\
      (failed t = true -> rv = ENOMEM_q /\ q' = q /\ freed = [] /\ self_balanced t) /\
      (failed t = false -> (LFreed rv freed, labs q') = fifo_step (labs q) (LResize cap false)).
  Proof using SZ_PTR_pos.
    intros HI. cbn zeta. rewrite lmq_resize_o_guarded.
    destruct (guarded_cases (Some (SZ_PTR * pow2ge cap 2 cap)) (q_alloc q =? 0) (SZ_PTR * q_alloc q)
                (lmq_resize true q cap) orc) as (_ & [(F & -> & T)|(F & -> & a & SA & T)]); [|rewrite F, T..].
    { intros a E. inversion E. apply ring_size_pos. }
    - destruct (resize_spec q cap false HI) as ([[rv q'] fr] & R & HI' & SP). cbn [fst snd] in *.
      pose proof (lmq_resize_alloc _ _ _ _ _ _ R) as [-> AL].
      exists 0%N, q', fr. split; [exact R|]. split; [exact HI'|].
      split; [rewrite (lowned_fresh _ _ AL); apply (balanced_realloc [])|].
      split; [now destruct (q_alloc q =? 0)|]. split; [discriminate|intros _; exact SP].
    - exists ENOMEM_q, q, []. split; [reflexivity|]. split; [exact HI|]. split; [apply balanced_fail|].
      split; [reflexivity|]. split; [|discriminate]. intros _. repeat split. apply self_balanced_fail.
  Qed.

  (* nni_lmq_init: never fails; the documented fallback is capacity 2 *)
  Theorem lmq_init_o_clean cap (orc : oracle) :
    let r := run (lmq_init_o SZ_PTR true cap) orc in
    let t := ledger (lmq_init_o SZ_PTR true cap) orc in
    exists q, r = Some q /\ LInv q /\ balanced [] t (lowned q) /\ snd (labs q) = [] /\
      (failed t = false -> q_cap q = cap) /\
      (failed t = true -> q_cap q = 2 /\ 2 < cap /\ self_balanced t).
  Proof using SZ_PTR_pos.
    cbn zeta. unfold lmq_init_o.
    destruct (2 <? cap) eqn:C.
    - rewrite run_bind_ret, ledger_bind_ret.
      destruct (nalloc_pos _ orc (ring_size_pos cap)) as [[-> ->]|[-> ->]]; cbn [negb].
      + destruct (lmq_init_inv cap false) as (q & I & HI & Hemp & Hc1 & Hc2).
        exists q. split; [exact I|]. split; [exact HI|].
        assert (AL: q_alloc q = pow2ge cap 2 cap).
        { unfold lmq_init in I. rewrite C in I.
          destruct (lmq_resize true _ cap false) as [[[rv q1] fr]|] eqn:R; [|discriminate].
          inversion I; subst. now apply lmq_resize_alloc in R as [_ R]. }
        split; [rewrite (lowned_fresh _ _ AL); apply Permutation_refl|].
        split; [exact Hemp|]. split; [intros _; now apply Hc1|discriminate].
      + destruct (lmq_init_inv cap true) as (q & I & HI & Hemp & Hc1 & Hc2).
        exists q. split; [exact I|]. split; [exact HI|].
        assert (Q: q = mkLmq 2 0 1 0 0 0 [0%N; 0%N]).
        { unfold lmq_init in I. rewrite C in I. now inversion I. }
        split; [subst q; apply balanced_fail|].
        split; [exact Hemp|]. split; [discriminate|].
        intros _. subst q. apply Nat.ltb_lt in C. split; [reflexivity|]. split; [exact C|apply self_balanced_fail].
    - destruct (lmq_init_inv cap false) as (q & I & HI & Hemp & Hc1 & Hc2).
      exists q. split; [exact I|]. split; [exact HI|].
      assert (Q: q_alloc q = 0). { unfold lmq_init in I. rewrite C in I. now inversion I. }
      split; [unfold lmq_owned; rewrite Q; apply balanced_nil|].
      split; [exact Hemp|]. split; [intros _; now apply Hc1|discriminate].
  Qed.

  (* nni_lmq_fini: the ring goes back *)
  Theorem lmq_fini_o_balanced q (orc : oracle) :
    balanced (lowned q) (ledger (lmq_fini_o SZ_PTR q) orc) [] /\ ncalls (ledger (lmq_fini_o SZ_PTR q) orc) = 0.
  Proof using.
    unfold lmq_fini_o, lmq_owned. rewrite ledger_bind_ret, ledger_free_if.
    destruct (q_alloc q =? 0); split; auto; apply Permutation_refl.
  Qed.

  (* histories of lmq operations under one oracle *)
  Definition unlop (o : lop_o) (f : bool) : lop :=
    match o with OPut x => LPut x | OGet => LGet | OFlush => LFlush | OResize c => LResize c f end.

  Theorem lmq_step_o_clean q o (orc : oracle) : LInv q ->
    let r := run (lmq_step_o SZ_PTR true q o) orc in
    let t := ledger (lmq_step_o SZ_PTR true q o) orc in
    exists out q', r = Some (out, q') /\ LInv q' /\ balanced (lowned q) t (lowned q') /\
      (out, labs q') = fifo_step (labs q) (unlop o (failed t)) /\
      (failed t = true -> q' = q).
  Proof using SZ_PTR_pos.
    intros HI. cbn zeta.
    (* put, get and flush keep the ring *)
    assert (KEEP: forall o', (forall out q', lmq_step true q o' = Some (out, q') -> q_alloc q' = q_alloc q) ->
              exists out q', lmq_step true q o' = Some (out, q') /\ LInv q' /\ balanced (lowned q) [] (lowned q') /\
                (out, labs q') = fifo_step (labs q) o' /\ (false = true -> q' = q)).
    { intros o' Ha. destruct (lmq_step_refines q o' HI) as (out & q' & S & HI' & SP).
      exists out, q'. split; [exact S|]. split; [exact HI'|]. split; [|split; [exact SP|discriminate]].
      unfold lmq_owned. rewrite (Ha _ _ S). apply balanced_nil. }
    destruct o as [x| | |cap]; cbn [lmq_step_o unlop].
    - apply (KEEP (LPut x)). intros out q'. cbn [lmq_step]. unfold lmq_put.
      destruct (_ <=? _); [now inversion 1|]. destruct (wr _ _ _); now inversion 1.
    - apply (KEEP LGet). intros out q'. cbn [lmq_step]. unfold lmq_get.
      destruct (_ =? _); [now inversion 1|]. destruct (rd _ _); now inversion 1.
    - apply (KEEP LFlush). intros out q'. cbn [lmq_step]. unfold lmq_flush.
      destruct (lmq_get_n q (q_len q)) as [[l q1]|] eqn:G; inversion 1; subst. apply (lmq_get_n_alloc _ _ _ _ G).
    - rewrite run_bind_ret, ledger_bind_ret.
      destruct (lmq_resize_o_clean q cap orc HI) as (rv & q' & fr & -> & HI' & B & _ & F & S).
      exists (LFreed rv fr), q'. split; [reflexivity|]. split; [exact HI'|]. split; [exact B|].
      destruct (failed _).
      + destruct (F eq_refl) as (-> & -> & -> & _). now split.
      + split; [now apply S|discriminate].
  Qed.

  Theorem lmq_run_o_clean ops : forall q (orc : oracle), LInv q ->
    exists outs q', run (lmq_run_o SZ_PTR true q ops) orc = Some (outs, q') /\ LInv q' /\
      balanced (lowned q) (ledger (lmq_run_o SZ_PTR true q ops) orc) (lowned q') /\
      q_len q' <= q_cap q' /\ length outs = length ops.
  Proof using SZ_PTR_pos.
    induction ops as [|o r IH]; intros q orc HI.
    - exists [], q. split; [reflexivity|]. split; [exact HI|].
      split; [apply balanced_nil|]. split; [apply (lmq_bounded q HI)|reflexivity].
    - destruct (lmq_step_o_clean q o orc HI) as (out & q1 & R & HI1 & B1 & _).
      cbn [lmq_run_o]. rewrite run_bind, ledger_bind, R, run_bind_ret, ledger_bind_ret.
      destruct (IH q1 (rest (lmq_step_o SZ_PTR true q o) orc) HI1) as (outs & q2 & -> & HI2 & B2 & L2 & N2).
      exists (out :: outs), q2. split; [reflexivity|]. split; [exact HI2|].
      split; [eapply balanced_trans; eauto|]. split; [exact L2|cbn; now rewrite N2].
  Qed.
End LmqAFProofs.

Section MsgqAFProofs.
  Variable SZ_PTR SZ_MSGQ : nat.
  Hypothesis SZ_PTR_pos : 0 < SZ_PTR.
  Hypothesis SZ_MSGQ_pos : 0 < SZ_MSGQ.
  Notation mowned := (msgq_owned SZ_PTR SZ_MSGQ).

  Theorem msgq_init_o_clean cap (orc : oracle) :
    let r := run (msgq_init_o SZ_PTR SZ_MSGQ cap) orc in
    let t := ledger (msgq_init_o SZ_PTR SZ_MSGQ cap) orc in
    ncalls t <= 2 /\
    (failed t = true -> r = (ENOMEM_q, None) /\ self_balanced t) /\
    (failed t = false -> exists q, r = (0%N, Some q) /\ AllInv q /\ items q = [] /\ mq_cap q = cap /\
                                   balanced [] t (mowned q)).
  Proof using SZ_PTR_pos SZ_MSGQ_pos.
    cbn zeta. apply_cleanly_at. apply cleanly_alloc1; [exact SZ_MSGQ_pos|reflexivity|].
    apply cleanly_alloc_undo; [nia|reflexivity|]. apply cleanly_ret.
    destruct (msgq_init_inv cap) as [HA HI]. exists (msgq_init cap).
    split; [reflexivity|]. split; [exact HA|]. split; [exact HI|]. split; [reflexivity|].
    unfold msgq_owned, mq_alloc, msgq_init; cbn [mq_cells]. rewrite repeat_length. apply Permutation_refl.
  Qed.

  Lemma msgq_resize_o_guarded fx q cap :
    msgq_resize_o SZ_PTR fx q cap =
    guarded (if mq_alloc q <? cap + 2 then Some (SZ_PTR * (cap + 2)) else None) false (SZ_PTR * mq_alloc q)
            (fun f => msgq_step fx q (MResize cap f)).
  Proof. unfold msgq_resize_o. now destruct (_ <? _). Qed.

  Theorem msgq_resize_o_clean q cap (orc : oracle) : AllInv q ->
    let r := run (msgq_resize_o SZ_PTR true q cap) orc in
    let t := ledger (msgq_resize_o SZ_PTR true q cap) orc in
    exists rv q' outs, r = Some (rv, q', outs) /\ AllInv q' /\ balanced (mowned q) t (mowned q') /\
      ncalls t <= 1 /\
      (failed t = true -> rv = ENOMEM_q /\ q' = q /\ outs = [] /\ self_balanced t) /\
      (failed t = false -> step_law q (MResize cap false) rv q' outs).
  Proof using SZ_PTR_pos SZ_MSGQ_pos.
    intros HI. cbn zeta. rewrite msgq_resize_o_guarded.
    destruct (guarded_cases (if mq_alloc q <? cap + 2 then Some (SZ_PTR * (cap + 2)) else None) false
                (SZ_PTR * mq_alloc q) (fun f => msgq_step true q (MResize cap f)) orc)
      as (NC & [(F & -> & T)|(F & -> & a & SA & T)]).
    { intros a. destruct (_ <? _); intros E; inversion E. nia. }
    - destruct (msgq_step_spec q (MResize cap false) HI) as (rv & q' & outs & S & HI' & LAW).
      pose proof (msgq_resize_alloc _ _ _ _ _ _ S) as [-> AL].
      exists 0%N, q', outs. rewrite F. split; [exact S|]. split; [exact HI'|].
      split; [|split; [exact NC|split; [discriminate|intros _; exact LAW]]].
      rewrite T. unfold msgq_owned. rewrite AL.
      destruct (mq_alloc q <? cap + 2); [apply (balanced_realloc [SZ_MSGQ] false)|apply balanced_nil].
    - rewrite F, T. destruct (mq_alloc q <? cap + 2) eqn:G; [|discriminate].
      exists ENOMEM_q, q, []. split; [cbn [msgq_step]; now rewrite G|]. split; [exact HI|].
      split; [apply balanced_fail|]. split; [cbn; lia|]. split; [|discriminate].
      intros _. repeat split. apply self_balanced_fail.
  Qed.

  Theorem msgq_fini_o_balanced q (orc : oracle) :
    balanced (mowned q) (ledger (msgq_fini_o SZ_PTR SZ_MSGQ q) orc) [] /\
    ncalls (ledger (msgq_fini_o SZ_PTR SZ_MSGQ q) orc) = 0.
  Proof using.
    split; [apply perm_swap|reflexivity].
  Qed.
End MsgqAFProofs.
