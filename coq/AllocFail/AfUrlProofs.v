(* AfUrlProofs: nng_url_parse / nng_url_clone under every allocation oracle. *)
From Coq Require Import List Arith Lia Bool NArith Permutation.
From NngV Require Import Base.ListX Url.UrlParseModel Url.UrlParseProofs
  AllocFail.AfBase AllocFail.AfUrl.
Import ListNotations.

(* the buffer size recorded by a successful parse is decided by the first two phases *)
Lemma url_parse_phases fx resolver raw :
  match parse_scheme (fx_scheme fx) raw with
  | UOob => url_parse fx resolver raw = UOob
  | UErr rv => url_parse fx resolver raw = UErr rv
  | UVal (sch, len) =>
      match c_strlen raw len with
      | None => url_parse fx resolver raw = UOob
      | Some slen =>
          forall u, url_parse fx resolver raw = UVal u ->
                    u_bufsz u = if (STATIC_SZ <=? slen)%nat then (slen + 1)%nat else O
      end
  end.
Proof.
  unfold url_parse. destruct (parse_scheme (fx_scheme fx) raw) as [|rv|[sch len]]; cbn [ubind]; try reflexivity.
  unfold parse_buffer. destruct (c_strlen raw len) as [slen|]; cbn [ubind ulift]; [|reflexivity].
  destruct (sub raw len (slen + 1)) as [d|]; cbn [ubind ulift]; [|discriminate].
  set (bsz := if (STATIC_SZ <=? slen)%nat then (slen + 1)%nat else O).
  assert (E: (if (STATIC_SZ <=? slen)%nat then UVal (d, (slen + 1)%nat)
              else UVal (d ++ uzeros (STATIC_SZ - (slen + 1)), O)) =
             UVal (if (STATIC_SZ <=? slen)%nat then d else d ++ uzeros (STATIC_SZ - (slen + 1)), bsz)).
  { unfold bsz. destruct (STATIC_SZ <=? slen)%nat; reflexivity. }
  rewrite E. cbn [ubind]. clear E.
  set (buf := if (STATIC_SZ <=? slen)%nat then d else d ++ uzeros (STATIC_SZ - (slen + 1))).
  intros u. destruct (is_path_only sch).
  - intros H; inversion H; reflexivity.
  - destruct (parse_authority buf) as [|?|[b3 p]]; cbn [ubind]; try discriminate.
    destruct (parse_userinfo b3) as [|?|[[b4 ui] h]]; cbn [ubind]; try discriminate.
    destruct (lower_host b4 h) as [|?|b5]; cbn [ubind]; try discriminate.
    destruct (canon_at (fx_utf8 fx) b5 p) as [|?|b6]; cbn [ubind]; try discriminate.
    destruct (parse_qf b6 p) as [|?|[[b7 q] f]]; cbn [ubind]; try discriminate.
    destruct (parse_hostport (fx_bracket fx) resolver sch b7 h) as [|?|[[b8 h'] port]]; cbn [ubind]; try discriminate.
    intros H; inversion H; reflexivity.
Qed.

Section UrlAFProofs.
  Variable SZ_URL : nat.
  Hypothesis SZ_URL_pos : 0 < SZ_URL.
  Notation owned := (url_owned SZ_URL).

  (* the repaired form: every oracle *)
  Theorem url_parse_o_clean fx resolver raw (orc : oracle) :
    let r := run (url_parse_o SZ_URL true fx resolver raw) orc in
    let t := ledger (url_parse_o SZ_URL true fx resolver raw) orc in
    ncalls t <= 2 /\
    (failed t = true -> r = URes U_ENOMEM None /\ self_balanced t) /\
    (failed t = false ->
       match url_parse fx resolver raw with
       | UVal u => r = URes 0%N (Some u) /\ balanced [] t (owned u)
       | UErr rv => r = URes rv None /\ self_balanced t
       | UOob => r = UCrash
       end).
  Proof using SZ_URL_pos.
    cbn zeta. apply_cleanly_at. unfold url_parse_o.
    apply cleanly_alloc1; [exact SZ_URL_pos|reflexivity|].
    pose proof (url_parse_phases fx resolver raw) as PH.
    destruct (parse_scheme (fx_scheme fx) raw) as [|rv|[sch len]].
    - apply cleanly_ret. now rewrite PH.
    - apply cleanly_quiet; intros o; [reflexivity|]. rewrite PH. split; [reflexivity|apply Permutation_refl].
    - destruct (c_strlen raw len) as [slen|]; [|apply cleanly_ret; now rewrite PH].
      (* with or without the heap copy, the rest of the parse only frees: on an error both
         blocks, on success none, and [u_bufsz] records the copy *)
      destruct (STATIC_SZ <=? slen)%nat.
      + apply cleanly_alloc_undo; [lia|reflexivity|].
        apply cleanly_quiet; intros o; [now destruct (url_parse fx resolver raw)|].
        destruct (url_parse fx resolver raw) as [|rv|u].
        * reflexivity.
        * split; [reflexivity|apply perm_swap].
        * split; [reflexivity|]. unfold url_owned. rewrite (PH u eq_refl), Nat.add_1_r. apply Permutation_refl.
      + apply cleanly_quiet; intros o; [now destruct (url_parse fx resolver raw)|].
        destruct (url_parse fx resolver raw) as [|rv|u].
        * reflexivity.
        * split; [reflexivity|apply Permutation_refl].
        * split; [reflexivity|]. unfold url_owned. rewrite (PH u eq_refl). apply Permutation_refl.
  Qed.

  (* the code as pinned: a URL of 128 bytes or more after the scheme, the struct granted,
     the copy refused => a NULL pointer is dereferenced *)
  Definition long_raw : list N :=
    ([116; 99; 112; 58; 47; 47] ++ repeat 97 140 ++ [0])%N.     (* "tcp://" "a" x 140 *)

  Theorem url_parse_strdup_unchecked_refuted :
    run (url_parse_o SZ_URL false fx_repaired (fun _ => None) long_raw) [true; false] = UCrash.
  Proof using SZ_URL_pos.
    unfold run, url_parse_o, bind. unfold nalloc at 1.
    destruct (SZ_URL =? 0) eqn:Z; [apply Nat.eqb_eq in Z; lia|].
    cbn [alloc negb fst snd]. vm_compute. reflexivity.
  Qed.

  Theorem url_parse_strdup_checked_same_input :
    run (url_parse_o SZ_URL true fx_repaired (fun _ => None) long_raw) [true; false] = URes U_ENOMEM None.
  Proof using SZ_URL_pos.
    unfold run, url_parse_o, bind. unfold nalloc at 1.
    destruct (SZ_URL =? 0) eqn:Z; [apply Nat.eqb_eq in Z; lia|].
    cbn [alloc negb fst snd]. vm_compute. reflexivity.
  Qed.

  Theorem url_clone_o_clean u (orc : oracle) : buf_ok u ->
    let r := run (url_clone_o SZ_URL true u) orc in
    let t := ledger (url_clone_o SZ_URL true u) orc in
    ncalls t <= 2 /\
    (failed t = true -> r = URes U_ENOMEM None /\ self_balanced t) /\
    (failed t = false -> r = URes 0%N (Some u) /\ balanced [] t (owned u)).
  Proof using SZ_URL_pos.
    intros BO. cbn zeta. apply_cleanly_at. unfold url_clone_o, url_owned. rewrite (url_clone_equal u BO).
    apply cleanly_alloc1; [exact SZ_URL_pos|reflexivity|].
    destruct (u_bufsz u =? 0) eqn:Z0.
    - apply cleanly_ret. split; [reflexivity|apply Permutation_refl].
    - apply cleanly_alloc_undo; [apply Nat.eqb_neq in Z0; lia|reflexivity|].
      apply cleanly_ret. split; [reflexivity|apply Permutation_refl].
  Qed.

  Theorem url_free_o_balanced u (orc : oracle) :
    balanced (owned u) (ledger (url_free_o SZ_URL u) orc) [] /\ ncalls (ledger (url_free_o SZ_URL u) orc) = 0.
  Proof using.
    unfold ledger, url_free_o, bind, free_if, free, ret, balanced, url_owned.
    destruct (u_bufsz u =? 0); cbn; split; auto. apply perm_swap.
  Qed.
End UrlAFProofs.
