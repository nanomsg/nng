(* AfMsgProofs: message.c under every allocation oracle. *)
From Coq Require Import List Arith Lia Bool NArith Permutation.
From NngV Require Import Base.ListX Msg.MsgModel Msg.MsgSpec Msg.MsgProofs
  AllocFail.AfBase AllocFail.AfMsg.
Import ListNotations.

(* [grow_allocsz] and its callers predict whether nni_chunk_grow reaches nni_zalloc; the model
   looks at [fail] exactly then, and a refused allocation leaves the chunk as it was. *)
Lemma grow_fail c n h :
  chunk_grow c n h true =
  match grow_allocsz c n h with None => chunk_grow c n h false | Some _ => Some (ENOMEM, c) end.
Proof.
  unfold grow_allocsz, chunk_grow. destruct (ptr_inside c) as [hr|].
  - now destruct (_ && _).
  - now destruct (ch_cap c <=? _).
Qed.

Lemma append_fail c d n :
  chunk_append c d n true =
  match append_allocsz c n with None => chunk_append c d n false | Some _ => Some (ENOMEM, c) end.
Proof.
  unfold append_allocsz, chunk_append. destruct (n =? 0); [reflexivity|].
  rewrite grow_fail. now destruct (grow_allocsz c (n + ch_len c) 0).
Qed.

(* nni_chunk_insert first normalises a NULL ch_ptr to ch_buf *)
Definition repoint (c : chunk) : chunk :=
  mkChunk (ch_buf c) (ch_len c) (Some (match ch_ptr c with Some o => o | None => 0 end)).

Lemma repoint_inv c : CInv c -> repoint c = c.
Proof. intros (off & Hp & _). unfold repoint. rewrite Hp. destruct c; cbn in *. now subst. Qed.

Lemma insert_fail fx c d :
  chunk_insert fx c d true =
  match insert_allocsz c (length d) with
  | None => chunk_insert fx c d false
  | Some _ => Some (ENOMEM, repoint c)
  end.
Proof.
  unfold insert_allocsz, chunk_insert. fold (repoint c). rewrite grow_fail.
  destruct (_ <? ch_cap c).
  - destruct (length d <=? _); [reflexivity|].
    destruct (_ <=? ch_cap c); [reflexivity|].
    now destruct (grow_allocsz (repoint c) 0 (length d)).
  - now destruct (grow_allocsz (repoint c) 0 (length d)).
Qed.

Lemma step_none_irrelevant fx m o :
  step_allocsz m o = None -> msg_step fx m o true = msg_step fx m o false.
Proof.
  destruct o; cbn [step_allocsz msg_step]; try reflexivity.
  - rewrite append_fail. now intros ->.
  - rewrite insert_fail. now intros ->.
  - destruct (ch_len (m_body m) <? n); [|reflexivity]. rewrite append_fail. now intros ->.
  - rewrite grow_fail. now intros ->.
  - rewrite append_fail. now intros ->.
  - rewrite insert_fail. unfold byte. now intros ->.
Qed.

Lemma step_fail fx m o : Inv m ->
  msg_step fx m o true =
  match step_allocsz m o with None => msg_step fx m o false | Some _ => Some (ENOMEM, None, m) end.
Proof.
  intros [HC _].
  (* a refusal at the chunk level is a refusal of the whole step, with the message as it was *)
  assert (WB: forall (a : option nat) r,
    with_body m (match a with None => r | Some _ => Some (ENOMEM, m_body m) end) =
    match a with None => with_body m r | Some _ => Some (ENOMEM, None, m) end).
  { intros [a|] r; [|reflexivity]. cbn [with_body]. now rewrite same_msg. }
  (* the other operations never look at [fail] *)
  destruct o; cbn [step_allocsz msg_step]; try reflexivity.
  - rewrite append_fail. apply WB.
  - rewrite insert_fail, (repoint_inv _ HC). apply WB.
  - destruct (ch_len (m_body m) <? n); [|reflexivity]. rewrite append_fail. apply WB.
  - rewrite grow_fail. apply WB.
  - rewrite append_fail. apply WB.
  - rewrite insert_fail, (repoint_inv _ HC). unfold byte. apply WB.
Qed.

Lemma grow_allocsz_ge c n h a : CInv c -> grow_allocsz c n h = Some a -> ch_cap c <= a /\ 0 < a.
Proof.
  intros (off & Hp & Hlt & Hle). unfold grow_allocsz.
  rewrite (ptr_inside_inv _ _ Hp Hlt).
  destruct (_ && _) eqn:E; [discriminate|]. intros H; inversion H; subst. lia.
Qed.

Lemma step_allocsz_ge m o a : Inv m -> step_allocsz m o = Some a -> ch_cap (m_body m) <= a /\ 0 < a.
Proof.
  intros [HC _].
  assert (AP: forall n, append_allocsz (m_body m) n = Some a -> ch_cap (m_body m) <= a /\ 0 < a).
  { intros n. unfold append_allocsz. destruct (n =? 0); [discriminate|]. now apply grow_allocsz_ge. }
  assert (IN: forall n, insert_allocsz (m_body m) n = Some a -> ch_cap (m_body m) <= a /\ 0 < a).
  { intros n. unfold insert_allocsz. fold (repoint (m_body m)). rewrite (repoint_inv _ HC).
    destruct (_ <? _); [destruct (n <=? _); [discriminate|]; destruct (_ <=? _); [discriminate|]|];
      now apply grow_allocsz_ge. }
  destruct o; cbn [step_allocsz]; try discriminate.
  - apply AP.
  - apply IN.
  - destruct (_ <? _); [apply AP|discriminate].
  - now apply grow_allocsz_ge.
  - apply AP.
  - apply IN.
Qed.

Lemma grow_cap c n h rv c' :
  chunk_grow c n h false = Some (rv, c') ->
  rv = 0%N /\ ch_cap c' = match grow_allocsz c n h with Some a => a | None => ch_cap c end.
Proof.
  unfold grow_allocsz, chunk_grow. destruct (ptr_inside c) as [hr|].
  - destruct (_ && _).
    + intros H; inversion H; subst; auto.
    + destruct (sub _ _ _) as [d|]; [|discriminate].
      destruct (blit _ _ _) as [nb|] eqn:B; [|discriminate].
      intros H; inversion H; subst. split; [reflexivity|].
      apply blit_length in B as [B _]. unfold ch_cap; cbn [ch_buf]. rewrite B. apply zeros_length.
  - destruct (ch_cap c <=? _); intros H; inversion H; subst; split; try reflexivity.
    unfold ch_cap; cbn [ch_buf]. apply zeros_length.
Qed.

Lemma append_cap c d n rv c' :
  chunk_append c d n false = Some (rv, c') ->
  rv = 0%N /\ ch_cap c' = match append_allocsz c n with Some a => a | None => ch_cap c end.
Proof.
  unfold append_allocsz, chunk_append. destruct (n =? 0).
  - intros H; inversion H; subst; auto.
  - destruct (chunk_grow c (n + ch_len c) 0 false) as [[rv1 c1]|] eqn:G; [|discriminate].
    apply grow_cap in G as [-> G]. cbn [N.eqb negb].
    destruct d as [d|].
    + destruct (blit _ _ _) as [nb|] eqn:B; [|discriminate]. intros H; inversion H; subst.
      apply blit_length in B as [B _]. split; [reflexivity|]. unfold ch_cap in *; cbn [ch_buf]. now rewrite B.
    + destruct (_ <=? _); [|discriminate]. intros H; inversion H; subst. split; [reflexivity|exact G].
Qed.

(* the local [finish] of chunk_insert, the common tail of its branches, unfolded *)
Lemma insert_finish_cap (c2 : chunk) o (d : list byte) rv c' :
  match blit (ch_buf c2) o d with
  | None => None
  | Some nb => Some (0%N, mkChunk nb (ch_len c2 + length d) (Some o))
  end = Some (rv, c') -> rv = 0%N /\ ch_cap c' = ch_cap c2.
Proof.
  destruct (blit _ _ _) as [nb|] eqn:B; [|discriminate]. intros H; inversion H; subst.
  apply blit_length in B as [B _]. split; [reflexivity|]. unfold ch_cap; cbn [ch_buf]. exact B.
Qed.

(* its local [grow], the common tail of the two branches that need a bigger store, unfolded *)
Lemma insert_grow_cap (c0 : chunk) (d : list byte) rv c' :
  match chunk_grow c0 0 (length d) false with
  | None => None
  | Some (rv, c1) =>
      if negb (rv =? 0)%N then Some (rv, c1) else
      match ch_ptr c1 with
      | Some o => if length d <=? o
                  then match blit (ch_buf c1) (o - length d) d with
                       | None => None
                       | Some nb => Some (0%N, mkChunk nb (ch_len c1 + length d) (Some (o - length d)))
                       end
                  else None
      | None => None
      end
  end = Some (rv, c') ->
  rv = 0%N /\ ch_cap c' = match grow_allocsz c0 0 (length d) with Some a => a | None => ch_cap c0 end.
Proof.
  destruct (chunk_grow c0 0 (length d) false) as [[rv1 c1]|] eqn:G; [|discriminate].
  apply grow_cap in G as [-> G]. cbn [N.eqb negb].
  destruct (ch_ptr c1) as [o|]; [|discriminate]. destruct (length d <=? o); [|discriminate].
  intros H. apply insert_finish_cap in H as [-> H]. now rewrite H, G.
Qed.

Lemma insert_cap fx c d rv c' :
  chunk_insert fx c d false = Some (rv, c') ->
  rv = 0%N /\ ch_cap c' = match insert_allocsz c (length d) with Some a => a | None => ch_cap c end.
Proof.
  unfold insert_allocsz, chunk_insert. fold (repoint c).
  destruct (_ <? ch_cap c); [|apply (insert_grow_cap (repoint c))].
  destruct (length d <=? _); [apply insert_finish_cap|].
  destruct (_ <=? ch_cap c); [|apply (insert_grow_cap (repoint c))].
  (* the split: the room at both ends is evened out inside the same store *)
  destruct (sub _ _ _) as [old|]; [|discriminate].
  destruct (blit (ch_buf c) _ old) as [nb|] eqn:B; [|discriminate].
  intros H. apply insert_finish_cap in H as [-> H]. split; [reflexivity|].
  rewrite H. unfold ch_cap; cbn [ch_buf]. apply blit_length in B as [B _]. exact B.
Qed.

(* the capacity (= size of the backing store) after a step that was not refused memory *)
Lemma step_cap fx m o rv v m' :
  msg_step fx m o false = Some (rv, v, m') ->
  ch_cap (m_body m') = match step_allocsz m o with Some a => a | None => ch_cap (m_body m) end.
Proof.
  assert (WB: forall r rv v m', with_body m r = Some (rv, v, m') ->
              exists c, r = Some (rv, c) /\ m_body m' = c).
  { intros r rv0 v0 m0 H. apply with_body_inv in H as (c & -> & _ & ->). eauto. }
  assert (TR: forall c n, ch_cap (snd (chunk_trim c n)) = ch_cap c).
  { intros c n. unfold chunk_trim. destruct (_ <? _); reflexivity. }
  assert (CH: forall c n, ch_cap (snd (chunk_chop c n)) = ch_cap c).
  { intros c n. unfold chunk_chop. destruct (_ <? _); reflexivity. }
  assert (HA: forall d, m_body (snd (hdr_append m d)) = m_body m).
  { intros d. unfold hdr_append. destruct (_ <? _); reflexivity. }
  assert (HIN: forall d, m_body (snd (hdr_insert m d)) = m_body m).
  { intros d. unfold hdr_insert. destruct (_ <? _); reflexivity. }
  destruct o; cbn [step_allocsz msg_step]; intros H.
  - (* Append *) apply WB in H as (c & H & ->). now apply append_cap in H.
  - (* Insert *) apply WB in H as (c & H & ->). now apply insert_cap in H.
  - (* Trim *) inversion H; subst. cbn [m_body snd]. apply TR.
  - (* Chop *) inversion H; subst. cbn [m_body snd]. apply CH.
  - (* HAppend *) inversion H; subst. now rewrite HA.
  - (* HInsert *) inversion H; subst. now rewrite HIN.
  - (* HTrim *) destruct (length (m_hdr m) <? _); inversion H; subst; reflexivity.
  - (* HChop *) destruct (length (m_hdr m) <? _); inversion H; subst; reflexivity.
  - (* Realloc *) destruct (ch_len (m_body m) <? n).
    + apply WB in H as (c & H & ->). now apply append_cap in H.
    + inversion H; subst. cbn [m_body snd]. apply CH.
  - (* Reserve *) apply WB in H as (c & H & ->). now apply grow_cap in H.
  - (* Clear *) inversion H; subst. reflexivity.
  - (* HClear *) inversion H; subst. reflexivity.
  - (* AppendU *) apply WB in H as (c & H & ->). now apply append_cap in H.
  - (* InsertU *) apply WB in H as (c & H & ->). now apply insert_cap in H.
  - (* TrimU *) destruct (msg_len m <? k); [inversion H; subst; reflexivity|].
    destruct (msg_body m); [|discriminate]. inversion H; subst. cbn [m_body]. apply TR.
  - (* ChopU *) destruct (msg_len m <? k); [inversion H; subst; reflexivity|].
    destruct (msg_body m); [|discriminate]. inversion H; subst. cbn [m_body]. apply CH.
  - (* HAppendU *) inversion H; subst. now rewrite HA.
  - (* HInsertU *) inversion H; subst. now rewrite HIN.
  - (* HTrimU *) destruct (length (m_hdr m) <? _); inversion H; subst; reflexivity.
  - (* HChopU *) destruct (length (m_hdr m) <? _); inversion H; subst; reflexivity.
Qed.

Lemma cap_nonzero m : Inv m -> (ch_cap (m_body m) =? 0) = false.
Proof. intros [(off & _ & Hlt & _) _]. apply Nat.eqb_neq. lia. Qed.

Section MsgAFProofs.
  Variable SZ_MSG : nat.
  Notation owned := (msg_owned SZ_MSG).

  Lemma owned_inv m : Inv m -> owned m = [SZ_MSG; ch_cap (m_body m)].
  Proof. intros HI. unfold msg_owned. now rewrite (cap_nonzero _ HI). Qed.

  (* what one operation does under an arbitrary oracle *)
  Definition step_clean (m : msg) (o : op) (r : option (N * option N * msg)) (t : list aev) : Prop :=
    exists rv v m', r = Some (rv, v, m') /\ Inv m' /\ balanced (owned m) t (owned m') /\
      ncalls t <= 1 /\
      (* some allocation was refused: NNG_ENOMEM, the message is exactly as before, nothing leaked *)
      (failed t = true -> rv = ENOMEM /\ v = None /\ m' = m /\ self_balanced t) /\
      (* none was refused: the operation did what the two-strings specification says *)
      (failed t = false -> spec_rel (abs m) o rv v (abs m')).

  Lemma msg_step_o_guarded fx m o :
    msg_step_o fx m o =
    guarded (step_allocsz m o) (ch_cap (m_body m) =? 0) (ch_cap (m_body m)) (msg_step fx m o).
  Proof. reflexivity. Qed.

  Theorem msg_step_o_clean m o (orc : oracle) :
    Inv m -> step_clean m o (run (msg_step_o true m o) orc) (ledger (msg_step_o true m o) orc).
  Proof.
    intros HI. unfold step_clean. rewrite msg_step_o_guarded.
    destruct (guarded_cases (step_allocsz m o) (ch_cap (m_body m) =? 0) (ch_cap (m_body m)) (msg_step true m o) orc)
      as (NC & [(F & -> & T)|(F & -> & a & SA & T)]).
    { intros a SA. now apply (step_allocsz_ge _ _ _ HI SA). }
    - (* not refused: the model runs with [fail = false] *)
      destruct (step_total m o false HI) as [[[rv v] m'] ST].
      destruct (step_refines _ _ _ _ _ _ HI ST) as [HI' [(_ & _ & _ & X)|SR]]; [discriminate|].
      exists rv, v, m'. rewrite F. split; [exact ST|]. split; [exact HI'|].
      split; [|split; [exact NC|split; [discriminate|intros _; exact SR]]].
      rewrite T, (cap_nonzero _ HI), (owned_inv _ HI), (owned_inv _ HI'), (step_cap _ _ _ _ _ _ ST).
      destruct (step_allocsz m o); [apply (balanced_realloc [SZ_MSG] false)|apply balanced_nil].
    - (* refused: NNG_ENOMEM, nothing has changed *)
      rewrite F, T, (step_fail true _ _ HI), SA. exists ENOMEM, None, m.
      split; [reflexivity|]. split; [exact HI|]. split; [apply balanced_fail|]. split; [cbn; lia|].
      split; [|discriminate]. intros _. repeat split. apply self_balanced_fail.
  Qed.

  Lemma msg_alloc_sz_pos sz : 0 < msg_alloc_sz sz.
  Proof.
    unfold msg_alloc_sz. destruct ((1024 <=? sz) && _) eqn:E; [|lia].
    apply andb_true_iff in E as [E _]. apply Nat.leb_le in E. lia.
  Qed.

  (* the fresh store has room for the body: the append that follows does not grow it *)
  Lemma append_allocsz_fits tot hw n :
    hw < tot -> n + hw <= tot -> append_allocsz (mkChunk (zeros tot) 0 (Some hw)) n = None.
  Proof.
    intros H1 H2. unfold append_allocsz. destruct (n =? 0); [reflexivity|].
    unfold grow_allocsz, ptr_inside, ch_cap. cbn [ch_ptr ch_buf ch_len]. rewrite zeros_length.
    destruct (hw <? tot) eqn:E; [|apply Nat.ltb_ge in E; lia].
    replace (Nat.max 0 hw) with hw by lia.
    destruct (_ && _) eqn:E2; [reflexivity|].
    apply andb_false_iff in E2 as [E2|E2]; apply Nat.leb_gt in E2; lia.
  Qed.

  Lemma msg_alloc_cap sz m :
    msg_alloc sz false false = Some (0%N, Some m) -> ch_cap (m_body m) = msg_alloc_sz sz.
  Proof.
    unfold msg_alloc, msg_alloc_sz. cbn [negb].
    destruct ((1024 <=? sz) && (N.land (N.of_nat sz) (N.of_nat sz - 1) =? 0)%N) eqn:P;
      rewrite grow0_spec; cbn [N.eqb negb];
      (destruct (chunk_append _ None sz false) as [[rv c']|] eqn:A; [|discriminate]);
      apply append_cap in A as [-> A]; intros H; inversion H; subst; cbn [m_body]; rewrite A.
    - apply andb_true_iff in P as [P _]. apply Nat.leb_le in P.
      rewrite append_allocsz_fits by lia. unfold ch_cap; cbn [ch_buf]. rewrite zeros_length. lia.
    - rewrite append_allocsz_fits by lia. unfold ch_cap; cbn [ch_buf]. rewrite zeros_length. lia.
  Qed.

  Lemma msg_alloc_refused sz : msg_alloc sz false true = Some (ENOMEM, None).
  Proof. unfold msg_alloc. now destruct (_ && _). Qed.

  Definition alloc_clean (r : option (N * option msg)) (t : list aev) (sz : nat) : Prop :=
    ncalls t <= 2 /\
    (failed t = true -> r = Some (ENOMEM, None) /\ self_balanced t) /\
    (failed t = false -> exists m, r = Some (0%N, Some m) /\ Inv m /\ abs m = ([], zeros sz) /\
                                   sz <= msg_capacity m /\ balanced [] t (owned m)).

  Hypothesis SZ_MSG_pos : 0 < SZ_MSG.

  Theorem msg_alloc_o_clean sz (orc : oracle) :
    alloc_clean (run (msg_alloc_o SZ_MSG sz) orc) (ledger (msg_alloc_o SZ_MSG sz) orc) sz.
  Proof using SZ_MSG_pos.
    unfold alloc_clean. apply_cleanly_at. apply cleanly_alloc1; [exact SZ_MSG_pos|reflexivity|].
    apply cleanly_alloc_undo; [apply msg_alloc_sz_pos|apply msg_alloc_refused|].
    apply cleanly_ret. destruct (alloc_spec sz) as (m & A & HI & Ha & Hc).
    exists m. rewrite (owned_inv _ HI), (msg_alloc_cap _ _ A).
    split; [exact A|]. split; [exact HI|]. split; [exact Ha|]. split; [exact Hc|apply Permutation_refl].
  Qed.

  Definition dup_clean (m : msg) (r : option (N * option msg)) (t : list aev) : Prop :=
    ncalls t <= 2 /\
    (failed t = true -> r = Some (ENOMEM, None) /\ self_balanced t) /\
    (failed t = false -> exists m', r = Some (0%N, Some m') /\ Inv m' /\ abs m' = abs m /\
                                    balanced [] t (owned m')).

  Lemma msg_dup_cap m m' : msg_dup m false false = Some (0%N, Some m') -> ch_cap (m_body m') = ch_cap (m_body m).
  Proof.
    unfold msg_dup, chunk_dup. cbn [negb].
    destruct (ch_ptr (m_body m)) as [off|].
    - destruct (ch_len (m_body m) =? 0).
      + cbn. intros H; inversion H; subst. unfold ch_cap; cbn. apply zeros_length.
      + destruct (sub _ _ _); [|discriminate]. destruct (blit _ _ _) as [nb|] eqn:B; [|discriminate].
        cbn. intros H; inversion H; subst. apply blit_length in B as [B _].
        unfold ch_cap at 1; cbn. rewrite B. apply zeros_length.
    - destruct (ch_len (m_body m) =? 0); [|discriminate].
      cbn. intros H; inversion H; subst. unfold ch_cap; cbn. apply zeros_length.
  Qed.

  Theorem msg_dup_o_clean m (orc : oracle) :
    Inv m -> dup_clean m (run (msg_dup_o SZ_MSG m) orc) (ledger (msg_dup_o SZ_MSG m) orc).
  Proof using SZ_MSG_pos.
    intros HI. unfold dup_clean. apply_cleanly_at. apply cleanly_alloc1; [exact SZ_MSG_pos|reflexivity|].
    apply cleanly_alloc_undo; [|reflexivity|].
    { pose proof (cap_nonzero _ HI) as E. apply Nat.eqb_neq in E. lia. }
    apply cleanly_ret. destruct (msg_dup_spec m HI) as (m' & D & HI' & Ha & _).
    exists m'. rewrite (owned_inv _ HI'), (msg_dup_cap _ _ D).
    split; [exact D|]. split; [exact HI'|]. split; [exact Ha|apply Permutation_refl].
  Qed.

  (* nni_msg_free: everything the message owns goes back *)
  Theorem msg_free_o_balanced m (orc : oracle) :
    Inv m -> balanced (owned m) (ledger (msg_free_o SZ_MSG m) orc) [] /\ ncalls (ledger (msg_free_o SZ_MSG m) orc) = 0.
  Proof using SZ_MSG_pos.
    intros HI. unfold ledger, msg_free_o, bind, free_store. rewrite (owned_inv _ HI), (cap_nonzero _ HI).
    split; [apply perm_swap|reflexivity].
  Qed.

  (* nni_msg_unique: loss of the message, never of memory *)
  Theorem msg_unique_o_clean m shared (orc : oracle) :
    Inv m ->
    let r := run (msg_unique_o SZ_MSG m shared) orc in
    let t := ledger (msg_unique_o SZ_MSG m shared) orc in
    (shared = false -> r = Some (Some m) /\ t = []) /\
    (shared = true ->
       (failed t = true -> r = Some None /\ self_balanced t) /\
       (failed t = false -> exists m', r = Some (Some m') /\ Inv m' /\ abs m' = abs m /\ balanced [] t (owned m'))).
  Proof using SZ_MSG_pos.
    intros HI. cbn zeta. split; intros ->; [now split|].
    unfold msg_unique_o. cbn [negb]. rewrite run_bind_ret, ledger_bind_ret.
    destruct (msg_dup_o_clean m orc HI) as (_ & F & S). split; intros Hf.
    - destruct (F Hf) as [-> B]. auto.
    - destruct (S Hf) as (m' & -> & HI' & Ha & B). eauto.
  Qed.

  (* the duplicate path: NULL on failure with the original untouched and nothing leaked *)
  Theorem msg_pull_up_o_dup_clean ic m shared (orc : oracle) :
    Inv m -> (chunk_room (m_body m) <? length (m_hdr m)) || shared = true ->
    let r := run (msg_pull_up_o SZ_MSG true ic m shared) orc in
    let t := ledger (msg_pull_up_o SZ_MSG true ic m shared) orc in
    (failed t = true -> r = Some None /\ self_balanced t) /\
    (failed t = false -> r = msg_pull_up true m shared false false).
  Proof using SZ_MSG_pos.
    intros HI C. cbn zeta.
    assert (NULL: forall f1 f2, msg_alloc (msg_len m + length (m_hdr m)) f1 f2 = Some (ENOMEM, None) ->
                                msg_pull_up true m shared f1 f2 = Some None).
    { intros f1 f2 E. unfold msg_pull_up. now rewrite C, (msg_body_abs _ HI), E. }
    apply (cleanly_at 2 (Some None) (fun r _ => r = msg_pull_up true m shared false false)).
    unfold msg_pull_up_o. rewrite C.
    apply cleanly_alloc1; [exact SZ_MSG_pos|now apply NULL|].
    apply cleanly_alloc_undo; [apply msg_alloc_sz_pos|apply NULL, msg_alloc_refused|].
    (* the copy is made; nni_msg_free(m) releases storage only when m was unshared *)
    apply cleanly_quiet; intros o; [|apply run_bind_ret].
    rewrite ledger_bind_ret. destruct shared; [reflexivity|]. now apply msg_free_o_balanced.
  Qed.

  (* the in-place path as the C is: if the ignored nni_msg_insert had to grow the chunk
     and was refused, the message is returned with its header dropped *)
  Definition pull_up_witness : msg :=
    (* nng_msg_alloc(0); nng_msg_insert(30 bytes): capacity 64, offset 2, 34 bytes of room;
       a 32-byte header *)
    mkMsg (repeat 7%N 32) (mkChunk (repeat 0%N 64) 30 (Some 2)).

  Theorem pull_up_lost_header_refuted :
    exists m, Inv m /\ m_hdr m <> [] /\
      run (msg_pull_up_o SZ_MSG true false m false) [false] = Some (Some (mkMsg [] (m_body m))).
  Proof using SZ_MSG_pos.
    exists pull_up_witness. split; [|split].
    - split; [exists 2; unfold ch_cap; cbn; repeat split; lia|cbn; unfold HDR_CAP; lia].
    - discriminate.
    - vm_compute. reflexivity.
  Qed.

  (* histories: the oracle threaded through any sequence of operations *)
  Theorem msg_run_o_clean ops : forall m (orc : oracle), Inv m ->
    exists outs m', run (msg_run_o true m ops) orc = Some (outs, m') /\ Inv m' /\
      length outs = length ops /\
      balanced (owned m) (ledger (msg_run_o true m ops) orc) (owned m') /\
      (failed (ledger (msg_run_o true m ops) orc) = false ->
         exists fl, spec_run (abs m) (combine ops fl) outs (abs m') /\ length fl = length ops).
  Proof using SZ_MSG_pos.
    induction ops as [|o r IH]; intros m orc HI.
    - exists [], m. split; [reflexivity|]. split; [exact HI|]. split; [reflexivity|].
      split; [apply balanced_nil|]. intros _. exists []. split; [constructor|reflexivity].
    - destruct (msg_step_o_clean m o orc HI) as (rv & v & m1 & R & HI1 & B1 & _ & _ & S1).
      cbn [msg_run_o]. rewrite run_bind, ledger_bind, R, run_bind_ret, ledger_bind_ret, failed_app.
      destruct (IH m1 (rest (msg_step_o true m o) orc) HI1) as (outs & m2 & -> & HI2 & L2 & B2 & S2).
      exists ((rv, v) :: outs), m2. split; [reflexivity|]. split; [exact HI2|].
      split; [cbn; now rewrite L2|]. split; [eapply balanced_trans; eauto|].
      intros Hf. apply orb_false_iff in Hf as [F1 F2].
      destruct (S2 F2) as (fl & SR & Lf). exists (false :: fl). split; [|cbn; now rewrite Lf].
      cbn [combine]. econstructor; [apply S1, F1|exact SR].
  Qed.
End MsgAFProofs.
