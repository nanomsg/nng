(* AfSubWsProofs: SUB subscribe/unsubscribe and the WebSocket receive-completion path
   under every allocation oracle. *)
From Coq Require Import List Arith Lia Bool NArith Permutation.
From NngV Require Import Base.ListX Msg.MsgModel Msg.MsgProofs
  Proto.Common Proto.SubModel AllocFail.AfBase AllocFail.AfMsg AllocFail.AfMsgProofs
  AllocFail.AfSub AllocFail.AfWs.
Import ListNotations.

Section SubAFProofs.
  Variable SZ_TOPIC : nat.
  Hypothesis SZ_TOPIC_pos : 0 < SZ_TOPIC.

  Theorem sub_subscribe_o_clean fixed s k t (orc : oracle) :
    let r := run (sub_subscribe_o SZ_TOPIC fixed s k t) orc in
    let l := ledger (sub_subscribe_o SZ_TOPIC fixed s k t) orc in
    ncalls l <= 2 /\
    (failed l = true -> r = (s, [OptRv E_NOMEM]) /\ self_balanced l) /\
    (failed l = false ->
       r = sub_step fixed s (PSetOpt k (OSub t)) /\ frees l = [] /\
       allocs l = if sub_adds s k t then topic_blocks SZ_TOPIC t else []).
  Proof using SZ_TOPIC_pos.
    cbn zeta. apply_cleanly_at. unfold sub_subscribe_o, topic_blocks.
    destruct (sub_adds s k t); [|now apply cleanly_ret].
    apply cleanly_alloc1; [exact SZ_TOPIC_pos|reflexivity|].
    destruct (length t =? 0) eqn:L0; [now apply cleanly_ret|].
    apply cleanly_alloc_undo; [apply Nat.eqb_neq in L0; lia|reflexivity|]. now apply cleanly_ret.
  Qed.

  Theorem sub_unsubscribe_o_clean fixed s k t (orc : oracle) :
    let r := run (sub_unsubscribe_o SZ_TOPIC fixed s k t) orc in
    let l := ledger (sub_unsubscribe_o SZ_TOPIC fixed s k t) orc in
    r = sub_step fixed s (PSetOpt k (OUnsub t)) /\ ncalls l = 0 /\ allocs l = [] /\
    Permutation (frees l) (if sub_drops s k t then topic_blocks SZ_TOPIC t else []).
  Proof using.
    cbn zeta. unfold run, ledger, sub_unsubscribe_o, topic_blocks.
    destruct (sub_drops s k t).
    - unfold bind, free_if, free, ret. destruct (length t =? 0); cbn [negb fst snd app];
        (split; [reflexivity|]); (split; [reflexivity|]); (split; [reflexivity|]); cbn.
      + apply Permutation_refl.
      + apply perm_swap.
    - unfold ret. cbn. auto.
  Qed.

  (* what a successful subscribe allocated is what the matching unsubscribe frees *)
  Theorem sub_subscribe_unsubscribe_balanced fixed s k t (o1 o2 : oracle) :
    sub_adds s k t = true ->
    let l1 := ledger (sub_subscribe_o SZ_TOPIC fixed s k t) o1 in
    failed l1 = false ->
    let s1 := fst (run (sub_subscribe_o SZ_TOPIC fixed s k t) o1) in
    sub_drops s1 k t = true ->
    Permutation (allocs l1) (frees (ledger (sub_unsubscribe_o SZ_TOPIC fixed s1 k t) o2)).
  Proof using SZ_TOPIC_pos.
    cbn zeta. intros A F D.
    destruct (sub_subscribe_o_clean fixed s k t o1) as (_ & _ & S). destruct (S F) as (_ & _ & AL).
    rewrite AL, A.
    destruct (sub_unsubscribe_o_clean fixed (fst (run (sub_subscribe_o SZ_TOPIC fixed s k t) o1)) k t o2) as (_ & _ & _ & P).
    rewrite D in P. now apply Permutation_sym.
  Qed.
End SubAFProofs.

Section WsAFProofs.
  Variable SZ_MSG SZ_FRAME : nat.
  Hypothesis SZ_MSG_pos : 0 < SZ_MSG.

  (* ws_frame_fini of the queued frames returns every block they own *)
  Lemma free_frames_balanced l : forall orc : oracle,
    balanced (flat_map (frame_blocks SZ_FRAME) l) (ledger (free_frames SZ_FRAME l) orc) [] /\
    ncalls (ledger (free_frames SZ_FRAME l) orc) = 0.
  Proof using.
    induction l as [|len r IH]; intros orc; cbn [free_frames flat_map]; [split; [apply balanced_nil|reflexivity]|].
    rewrite !ledger_bind, ledger_free_if, app_assoc, ncalls_app.
    destruct (IH (rest (free SZ_FRAME) (rest (free_if (negb (len <? 126)) len) orc))) as [B ->].
    split; [|now destruct (len <? 126)].
    apply (balanced_par _ _ [] _ _ []); [|exact B].
    unfold frame_blocks. destruct (len <? 126); [apply Permutation_refl|apply perm_swap].
  Qed.

  (* the pinned form: a refused message allocation makes the thread lock ws->mtx again *)
  Definition ws_witness : ws := mkWs true false [10] [1%N] false.

  Theorem ws_enomem_deadlock_refuted :
    w_held ws_witness = true /\
    In WDeadlock (snd (fst (run (ws_read_finish_msg_o SZ_MSG SZ_FRAME false ws_witness) [false]))).
  Proof using SZ_MSG_pos.
    split; [reflexivity|]. unfold run, ws_read_finish_msg_o, ws_witness. cbn [w_recvq w_inmsg w_rxq orb list_sum].
    unfold bind, msg_alloc_o, bind. unfold nalloc at 1.
    destruct (SZ_MSG =? 0) eqn:Z; [apply Nat.eqb_eq in Z; lia|].
    cbn. right. left. reflexivity.
  Qed.

  (* the repaired form, every state reached with the lock held, every oracle *)
  Theorem ws_read_finish_msg_o_clean w (orc : oracle) :
    w_held w = true ->
    let r := run (ws_read_finish_msg_o SZ_MSG SZ_FRAME true w) orc in
    let t := ledger (ws_read_finish_msg_o SZ_MSG SZ_FRAME true w) orc in
    let w' := fst (fst r) in let outs := snd (fst r) in
    ~ In WDeadlock outs /\ w_held w' = true /\
    (failed t = true ->
       (* the receive fails with NNG_ENOMEM and the connection is closed (the documented
          loss of one connection); the queued frames stay owned by the connection *)
       exists a rest, w_recvq w = a :: rest /\ snd r = None /\ self_balanced t /\
         hd_error outs = Some (WFinish a ENOMEM 0) /\ w_closed w' = true /\ w_recvq w' = [] /\
         w_rxq w' = w_rxq w) /\
    (failed t = false ->
       (outs = [] /\ w' = w /\ snd r = None /\ t = []) \/
       (exists a rest m, w_recvq w = a :: rest /\ outs = [WFinish a 0%N (list_sum (w_rxq w))] /\
          snd r = Some m /\ Inv m /\ abs m = ([], zeros (list_sum (w_rxq w))) /\
          w_rxq w' = [] /\ w_recvq w' = rest /\
          balanced (ws_owned SZ_FRAME w) t (msg_owned SZ_MSG m))).
  Proof using SZ_MSG_pos.
    intros HH. cbn zeta. unfold ws_read_finish_msg_o.
    (* no receiver waits, or no complete message is queued: nothing happens *)
    destruct (w_recvq w) as [|a rs] eqn:RQ.
    { cbn. split; [tauto|]. split; [exact HH|]. split; [discriminate|]. intros _. left. auto. }
    destruct (w_inmsg w || match w_rxq w with [] => true | _ => false end).
    { cbn. split; [tauto|]. split; [exact HH|]. split; [discriminate|]. intros _. left. auto. }
    rewrite run_bind, ledger_bind.
    destruct (msg_alloc_o_clean SZ_MSG SZ_MSG_pos (list_sum (w_rxq w)) orc) as (_ & F & S).
    destruct (failed (ledger (msg_alloc_o SZ_MSG (list_sum (w_rxq w))) orc)) eqn:Ft.
    - (* refused: ws_close runs under the lock that is already held *)
      destruct (F eq_refl) as [-> SB]. unfold ws_close, ENOMEM. cbn [run ledger ret fst snd w_held w_inmsg w_rxq w_recvq w_closed].
      rewrite app_nil_r, Ft. split.
      { cbn [In]. intros [X|X]; [discriminate|]. apply in_app_or in X as [X|X].
        - apply in_map_iff in X as (? & X & _). discriminate.
        - destruct (w_closed w); cbn in X; [tauto|destruct X as [X|X]; [discriminate|tauto]]. }
      split; [exact HH|]. split; [|discriminate]. intros _.
      exists a, rs. split; [reflexivity|]. split; [reflexivity|]. split; [exact SB|].
      split; [reflexivity|]. auto.
    - (* granted: the frames are handed back, the message has their total length *)
      destruct (S eq_refl) as (m & -> & HI & Ha & _ & B).
      rewrite run_bind_ret, ledger_bind_ret, failed_app, Ft.
      destruct (free_frames_balanced (w_rxq w) (rest (msg_alloc_o SZ_MSG (list_sum (w_rxq w))) orc)) as [FB FQ].
      rewrite (quiet_not_failed _ FQ). cbn [fst snd orb].
      split; [cbn [In]; intros [X|X]; [discriminate|tauto]|]. split; [exact HH|].
      split; [discriminate|]. intros _. right.
      exists a, rs, m. split; [reflexivity|]. split; [reflexivity|]. split; [reflexivity|].
      split; [exact HI|]. split; [exact Ha|]. split; [reflexivity|]. split; [reflexivity|].
      rewrite <- (app_nil_r (msg_owned SZ_MSG m)). exact (balanced_par _ _ _ _ _ _ B FB).
  Qed.
End WsAFProofs.
