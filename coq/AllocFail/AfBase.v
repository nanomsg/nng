(* AfBase: the allocation oracle and the allocation ledger of C20 (DESIGN 4.2, 5/C20).
   Definitions and their algebra only.

   An oracle is the list of booleans "the k-th allocation succeeds" (true), consumed
   one entry per call of the pluggable allocator; an exhausted oracle succeeds.
   Every wrapper of coq/AllocFail runs in the monad
        M A = oracle -> A * oracle * list aev
   whose third component is the *ledger* of the call: the sizes allocated, the sizes
   whose allocation was refused, and the sizes freed, in program order.  The ledger is
   what harness/wb_allocfail.c records in its accounting allocator, so that allocation
   counts, sizes and failure positions are part of the white-box comparison.

   nni_alloc(0) / nni_zalloc(0) return NULL *without* calling the allocator
   (src/platform/posix/posix_alloc.c): [nalloc 0] consumes nothing and fails. *)
From Coq Require Import List Arith Lia Bool Permutation.
Import ListNotations.

Definition oracle := list bool.

Inductive aev := AAlloc (sz : nat) | AFail (sz : nat) | AFree (sz : nat).

Definition M (A : Type) : Type := oracle -> A * oracle * list aev.

Definition ret {A} (a : A) : M A := fun o => (a, o, []).
Definition bind {A B} (m : M A) (f : A -> M B) : M B :=
  fun o => let '(a, o1, t1) := m o in
           let '(b, o2, t2) := f a o1 in (b, o2, t1 ++ t2).
Notation "x <-- m ;; k" := (bind m (fun x => k)) (at level 61, m at next level, right associativity).

Definition alloc (sz : nat) : M bool :=
  fun o => match o with
           | [] => (true, [], [AAlloc sz])
           | true :: r => (true, r, [AAlloc sz])
           | false :: r => (false, r, [AFail sz])
           end.
(* nni_alloc / nni_zalloc *)
Definition nalloc (sz : nat) : M bool := if sz =? 0 then ret false else alloc sz.
(* nni_free(p, sz) of a non-NULL block; freeing NULL is no event *)
Definition free (sz : nat) : M unit := fun o => (tt, o, [AFree sz]).
Definition free_if (b : bool) (sz : nat) : M unit := if b then free sz else ret tt.

Definition run {A} (m : M A) (o : oracle) : A := fst (fst (m o)).
Definition ledger {A} (m : M A) (o : oracle) : list aev := snd (m o).
Definition rest {A} (m : M A) (o : oracle) : oracle := snd (fst (m o)).

Fixpoint allocs (t : list aev) : list nat :=
  match t with [] => [] | AAlloc s :: r => s :: allocs r | _ :: r => allocs r end.
Fixpoint frees (t : list aev) : list nat :=
  match t with [] => [] | AFree s :: r => s :: frees r | _ :: r => frees r end.
Fixpoint nfails (t : list aev) : nat :=
  match t with [] => 0 | AFail _ :: r => S (nfails r) | _ :: r => nfails r end.
Definition failed (t : list aev) : bool := negb (nfails t =? 0).
(* number of calls of the allocator (what the harness counts) *)
Fixpoint ncalls (t : list aev) : nat :=
  match t with [] => 0 | AFree _ :: r => ncalls r | _ :: r => S (ncalls r) end.

(* The call moved the object from owning the blocks [before] to owning [after]:
   everything it allocated is either owned afterwards or was freed by it, and
   everything it freed was owned before or allocated by it. *)
Definition balanced (before : list nat) (t : list aev) (after : list nat) : Prop :=
  Permutation (allocs t ++ before) (frees t ++ after).
(* no leak by a call that leaves the object as it was *)
Definition self_balanced (t : list aev) : Prop := Permutation (allocs t) (frees t).

Lemma allocs_app a b : allocs (a ++ b) = allocs a ++ allocs b.
Proof. induction a as [|[]]; cbn; congruence. Qed.
Lemma frees_app a b : frees (a ++ b) = frees a ++ frees b.
Proof. induction a as [|[]]; cbn; congruence. Qed.
Lemma nfails_app a b : nfails (a ++ b) = nfails a + nfails b.
Proof. induction a as [|[]]; cbn; congruence. Qed.
Lemma ncalls_app a b : ncalls (a ++ b) = ncalls a + ncalls b.
Proof. induction a as [|[]]; cbn; congruence. Qed.
Lemma failed_app a b : failed (a ++ b) = failed a || failed b.
Proof. unfold failed. rewrite nfails_app. now destruct (nfails a). Qed.
Lemma nfails_le_ncalls t : nfails t <= ncalls t.
Proof. induction t as [|[]]; cbn; lia. Qed.
Lemma quiet_not_failed t : ncalls t = 0 -> failed t = false.
Proof. intros H. pose proof (nfails_le_ncalls t). unfold failed. now replace (nfails t) with 0 by lia. Qed.

(* [self_balanced] is [balanced] for an object that owns the same blocks before and after *)
Lemma balanced_same own t : balanced own t own <-> self_balanced t.
Proof.
  unfold balanced, self_balanced. split; intros H.
  - now apply Permutation_app_inv_r in H.
  - now apply Permutation_app_tail.
Qed.

Lemma balanced_nil own : balanced own [] own.
Proof. unfold balanced. cbn. apply Permutation_refl. Qed.

(* composition: ledgers of consecutive calls add up *)
Lemma balanced_trans a t1 b t2 c : balanced a t1 b -> balanced b t2 c -> balanced a (t1 ++ t2) c.
Proof.
  unfold balanced. intros H1 H2. rewrite allocs_app, frees_app.
  (* allocs t1 ++ allocs t2 ++ a  ~  allocs t2 ++ (allocs t1 ++ a) ~ allocs t2 ++ frees t1 ++ b
     ~ frees t1 ++ (allocs t2 ++ b) ~ frees t1 ++ frees t2 ++ c *)
  eapply Permutation_trans.
  { rewrite <- app_assoc. apply Permutation_app_swap_app. }
  eapply Permutation_trans.
  { apply Permutation_app_head. exact H1. }
  eapply Permutation_trans.
  { apply Permutation_app_swap_app. }
  rewrite <- app_assoc. apply Permutation_app_head. exact H2.
Qed.

(* a frame of blocks owned by other objects is untouched *)
Lemma balanced_frame a t b f : balanced a t b -> balanced (a ++ f) t (b ++ f).
Proof.
  unfold balanced. intros H. rewrite !app_assoc. now apply Permutation_app_tail.
Qed.

(* calls on different objects side by side *)
Lemma balanced_par a t1 b c t2 d : balanced a t1 b -> balanced c t2 d -> balanced (a ++ c) (t1 ++ t2) (b ++ d).
Proof.
  unfold balanced. intros H1 H2. rewrite allocs_app, frees_app.
  assert (MID: forall x y u v : list nat, Permutation ((x ++ y) ++ u ++ v) ((x ++ u) ++ y ++ v)).
  { intros. rewrite <- !app_assoc. apply Permutation_app_head. rewrite !app_assoc.
    apply Permutation_app_tail, Permutation_app_comm. }
  eapply perm_trans; [apply MID|]. eapply perm_trans; [apply Permutation_app; eassumption|apply MID].
Qed.

(* bind, componentwise *)
Lemma run_bind {A B} (m : M A) (f : A -> M B) o : run (bind m f) o = run (f (run m o)) (rest m o).
Proof. unfold run, rest, bind. destruct (m o) as [[a o1] t1]. cbn. now destruct (f a o1) as [[b o2] t2]. Qed.
Lemma ledger_bind {A B} (m : M A) (f : A -> M B) o :
  ledger (bind m f) o = ledger m o ++ ledger (f (run m o)) (rest m o).
Proof. unfold run, rest, ledger, bind. destruct (m o) as [[a o1] t1]. cbn. now destruct (f a o1) as [[b o2] t2]. Qed.
(* [x <-- m ;; ret (g x)]: the ledger is that of [m] *)
Lemma run_bind_ret {A B} (m : M A) (g : A -> B) o : run (x <-- m ;; ret (g x)) o = g (run m o).
Proof. now rewrite run_bind. Qed.
Lemma ledger_bind_ret {A B} (m : M A) (g : A -> B) o : ledger (x <-- m ;; ret (g x)) o = ledger m o.
Proof. rewrite ledger_bind. apply app_nil_r. Qed.

Lemma ledger_free_if b s o : ledger (free_if b s) o = if b then [AFree s] else [].
Proof. now destruct b. Qed.

Lemma alloc_nil sz : alloc sz [] = (true, [], [AAlloc sz]).
Proof. reflexivity. Qed.
Lemma alloc_true sz r : alloc sz (true :: r) = (true, r, [AAlloc sz]).
Proof. reflexivity. Qed.
Lemma alloc_false sz r : alloc sz (false :: r) = (false, r, [AFail sz]).
Proof. reflexivity. Qed.

Definition all_true (o : oracle) : Prop := Forall (fun b => b = true) o.
Lemma alloc_all_true sz o : all_true o -> exists o', alloc sz o = (true, o', [AAlloc sz]) /\ all_true o'.
Proof.
  intros H. destruct o as [|b r]; cbn.
  - eexists; split; [reflexivity|constructor].
  - inversion H; subst. eexists; split; [reflexivity|assumption].
Qed.

(* nni_alloc of a positive size calls the allocator once *)
Lemma nalloc_pos s o : 0 < s ->
  (run (nalloc s) o = true /\ ledger (nalloc s) o = [AAlloc s]) \/
  (run (nalloc s) o = false /\ ledger (nalloc s) o = [AFail s]).
Proof.
  intros H. destruct s; [lia|]. destruct o as [|[] r]; cbn; auto.
Qed.

Lemma balanced_fail own s : balanced own [AFail s] own.
Proof. apply Permutation_refl. Qed.
Lemma self_balanced_fail s : self_balanced [AFail s].
Proof. apply perm_nil. Qed.

(* a store [old] (absent if [c]) replaced by a new one of size [a]; [pre] is kept *)
Lemma balanced_realloc pre (c : bool) old a :
  balanced (pre ++ if c then [] else [old]) (AAlloc a :: if c then [] else [AFree old]) (pre ++ [a]).
Proof.
  unfold balanced. destruct c; cbn [allocs frees app].
  - rewrite app_nil_r. apply Permutation_cons_append.
  - apply perm_trans with (a :: old :: pre); [constructor; apply Permutation_sym, Permutation_cons_append|].
    apply perm_trans with (old :: a :: pre); [apply perm_swap|constructor; apply Permutation_cons_append].
Qed.

(* The discipline of an allocating entry point.
   Within [n] calls of the allocator [m] either is refused memory -- it then returns [e], having
   freed what it had allocated and the blocks [held] that were allocated for it before -- or it
   is not, and [Q] holds of its result and ledger. *)
Definition cleanly {A} (held : list nat) (n : nat) (e : A) (Q : A -> list aev -> Prop) (m : M A) : Prop :=
  forall o, ncalls (ledger m o) <= n /\
    (failed (ledger m o) = true -> run m o = e /\ Permutation (held ++ allocs (ledger m o)) (frees (ledger m o))) /\
    (failed (ledger m o) = false -> Q (run m o) (ledger m o)).

(* code that does not call the allocator *)
Lemma cleanly_quiet {A} held n (e : A) (Q : A -> list aev -> Prop) m :
  (forall o, ncalls (ledger m o) = 0) -> (forall o, Q (run m o) (ledger m o)) -> cleanly held n e Q m.
Proof.
  intros Hq HQ o. rewrite (quiet_not_failed _ (Hq o)), Hq.
  split; [lia|]. split; [discriminate|]. intros _. apply HQ.
Qed.
Lemma cleanly_ret {A} held n (e : A) (Q : A -> list aev -> Prop) x : Q x [] -> cleanly held n e Q (ret x).
Proof. intros H. now apply cleanly_quiet. Qed.

(* the two shapes of a guarded allocation: "p = alloc(s); if (p == NULL) return e;" and
   "q = alloc(s); if (q == NULL) { free(p, u); return e; }" *)
Definition alloc1 {A} (s : nat) (e : A) (k : M A) : M A :=
  ok <-- nalloc s ;; if negb ok then ret e else k.
Definition alloc_undo {A} (s u : nat) (e : A) (k : M A) : M A :=
  ok <-- nalloc s ;; if ok then k else _ <-- free u ;; ret e.

(* [e'] is a model call equal to [e] only by a lemma; a separate premise keeps [apply] from
   unifying the two *)
Lemma cleanly_alloc1 {A} n (e e' : A) (Q : A -> list aev -> Prop) s k : 0 < s -> e' = e ->
  cleanly [s] n e (fun r t => Q r (AAlloc s :: t)) k -> cleanly [] (S n) e Q (alloc1 s e' k).
Proof.
  intros Hs -> Hk o. unfold alloc1. rewrite run_bind, ledger_bind.
  destruct (nalloc_pos s o Hs) as [[-> ->]|[-> ->]]; cbn [negb].
  - destruct (Hk (rest (nalloc s) o)) as (N & F & S). split; [cbn; lia|]. split; [exact F|exact S].
  - split; [cbn; lia|]. split; [|discriminate]. intros _. split; [reflexivity|apply perm_nil].
Qed.

Lemma cleanly_alloc_undo {A} n (e e' : A) (Q : A -> list aev -> Prop) s u k : 0 < s -> e' = e ->
  cleanly [u; s] n e (fun r t => Q r (AAlloc s :: t)) k -> cleanly [u] (S n) e Q (alloc_undo s u e' k).
Proof.
  intros Hs -> Hk o. unfold alloc_undo. rewrite run_bind, ledger_bind.
  destruct (nalloc_pos s o Hs) as [[-> ->]|[-> ->]].
  - destruct (Hk (rest (nalloc s) o)) as (N & F & S). split; [cbn; lia|]. split; [exact F|exact S].
  - split; [cbn; lia|]. split; [|discriminate]. intros _. split; [reflexivity|apply Permutation_refl].
Qed.

(* what the discipline says of one run of a complete entry point *)
Lemma cleanly_at {A} n (e : A) (Q : A -> list aev -> Prop) m o : cleanly [] n e Q m ->
  ncalls (ledger m o) <= n /\
  (failed (ledger m o) = true -> run m o = e /\ self_balanced (ledger m o)) /\
  (failed (ledger m o) = false -> Q (run m o) (ledger m o)).
Proof. intros H. exact (H o). Qed.
(* [apply cleanly_at] with [Q] read off the third clause of the goal *)
Ltac apply_cleanly_at :=
  match goal with |- _ /\ _ /\ (failed (ledger ?m ?o) = false -> ?C) =>
    let C' := eval pattern (run m o), (ledger m o) in C in
    match C' with ?Q _ _ => apply (cleanly_at _ _ Q m o) end
  end.

(* One guarded reallocation.
   If the operation needs a store of size [a] the oracle is asked; granted, the old store [old]
   (absent if [c]) is freed after the copy.  The model function [body] then runs with the flag
   "the allocation was refused". *)
Definition guarded {A} (need : option nat) (c : bool) (old : nat) (body : bool -> A) : M A :=
  match need with
  | None => ret (body false)
  | Some a => ok <-- nalloc a ;;
              if ok then _ <-- free_if (negb c) old ;; ret (body false) else ret (body true)
  end.

Lemma guarded_cases {A} need c old (body : bool -> A) o : (forall a, need = Some a -> 0 < a) ->
  let t := ledger (guarded need c old body) o in
  let r := run (guarded need c old body) o in
  ncalls t <= 1 /\
  ((failed t = false /\ r = body false /\
    t = match need with None => [] | Some a => AAlloc a :: if c then [] else [AFree old] end) \/
   (failed t = true /\ r = body true /\ exists a, need = Some a /\ t = [AFail a])).
Proof.
  intros Hp. destruct need as [a|]; cbn [guarded].
  - rewrite run_bind, ledger_bind.
    destruct (nalloc_pos a o (Hp a eq_refl)) as [[-> ->]|[-> ->]].
    + destruct c; cbn; (split; [lia|]); left; auto.
    + cbn. split; [lia|]. right. eauto.
  - cbn. split; [lia|]. left. auto.
Qed.
