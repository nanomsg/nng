(* AfIdMapProofs: idhash.c under every allocation oracle. *)
From Coq Require Import List Arith Lia Bool NArith Permutation.
From NngV Require Import IdMap.IdMapModel IdMap.IdMapSpec IdMap.IdMapLemmas IdMap.IdMapProofs
  AllocFail.AfBase AllocFail.AfIdMap.
Import ListNotations.

(* the state id_resize leaves behind when it does not replace the table *)
Definition reg (m : id_map) : id_map := if id_static m then set_registered m else m.

Lemma reg_cap m : id_cap (reg m) = id_cap m.
Proof. unfold reg. destruct (id_static m); reflexivity. Qed.
Lemma reg_count m : id_count (reg m) = id_count m.
Proof. unfold reg. destruct (id_static m); reflexivity. Qed.

Lemma nth_error_lt' {A} (T : list A) i e : nth_error T i = Some e -> i < length T.
Proof. intros H. apply nth_error_Some. congruence. Qed.

Lemma ins_loop_length fuel : forall T cap k v idx load asrt T' l,
  ins_loop T cap k v idx load fuel asrt = IdOk (T', l) -> length T' = length T.
Proof.
  induction fuel as [|f IH]; intros T cap k v idx load asrt T' l H; cbn [ins_loop] in H; [discriminate|].
  destruct (nth_error T idx) as [e|] eqn:E; [|discriminate].
  pose proof (nth_error_lt' _ _ _ E) as Hlt.
  destruct (ie_val e).
  - apply IH in H. rewrite H. now apply tupd_length.
  - destruct (asrt && _); [discriminate|]. inversion H; subst. now apply tupd_length.
Qed.

Lemma rehash_length old : forall T cap load T' l,
  rehash old T cap load = IdOk (T', l) -> length T' = length T.
Proof.
  induction old as [|e rest IH]; intros T cap load T' l H; cbn [rehash] in H; [inversion H; reflexivity|].
  destruct (ie_val e) as [v|]; [|now apply IH in H].
  destruct (ins_loop T cap (ie_key e) v _ load cap true) as [[T1 l1]|] eqn:I; cbn [id_bind] in H; [|discriminate].
  apply IH in H. rewrite H. now apply ins_loop_length in I.
Qed.

Lemma rm_loop_length fuel : forall T cap index probe load T' l,
  rm_loop T cap index probe load fuel = IdOk (T', l) -> length T' = length T.
Proof.
  induction fuel as [|f IH]; intros T cap index probe load T' l H; cbn [rm_loop] in H; [discriminate|].
  destruct (id_dec load) as [load'|]; cbn [id_bind] in H; [|discriminate].
  destruct (nth_error T probe) as [e|] eqn:E; [|discriminate].
  pose proof (nth_error_lt' _ _ _ E) as Hlt.
  destruct (probe =? index).
  - inversion H; subst. now apply tupd_length.
  - destruct (ie_skips e); [discriminate|]. apply IH in H. rewrite H. now apply tupd_length.
Qed.

Lemma new_cap_ge8 c nc : id_new_cap c = IdOk nc -> 8 <= nc.
Proof.
  unfold id_new_cap, ID_MIN_CAP.
  assert (G: forall fuel a t r, 8 <= a -> grow_cap a t fuel = IdOk r -> 8 <= r).
  { induction fuel as [|f IH]; intros a t r Ha; cbn [grow_cap]; [discriminate|].
    destruct (a <? t); [apply IH; lia|intros H; inversion H; subst; lia]. }
  apply G. lia.
Qed.

Lemma resize_newcap_ge8 m nc : resize_newcap m = IdOk (Some nc) -> 8 <= nc.
Proof.
  unfold resize_newcap. destruct (_ && _); [discriminate|].
  destruct (id_new_cap (id_count m)) as [nc'|e] eqn:N; cbn [id_bind]; [|discriminate].
  destruct (nc' =? _); [discriminate|]. intros H; inversion H; subst. eapply new_cap_ge8; eauto.
Qed.

(* What the resize of [m] that ran with flag [f] returned.  [resize_newcap] predicts it: no
   allocation, the table keeps its size; an allocation refused, NNG_ENOMEM and only the
   "registered" mark may have changed; granted, the table has the predicted size. *)
Definition resize_outcome (m : id_map) (f : bool) (rv : N) (m' : id_map) : Prop :=
  match resize_newcap m with
  | IdErr _ => False
  | IdOk None => rv = 0%N /\ id_cap m' = id_cap m
  | IdOk (Some nc) => if f then rv = id_ENOMEM /\ m' = reg m else rv = 0%N /\ id_cap m' = nc
  end.

Lemma id_resize_outcome m f rv m' : id_resize m f = IdOk (rv, m') -> resize_outcome m f rv m'.
Proof.
  unfold resize_outcome, resize_newcap, id_resize.
  destruct (_ && _); [intros H; inversion H; auto|].
  change (if id_static m then set_registered m else m) with (reg m). rewrite reg_cap, reg_count.
  destruct (id_new_cap (id_count m)) as [nc|e]; cbn [id_bind]; [|discriminate].
  destruct (nc =? id_cap m); [intros H; inversion H; subst; split; [reflexivity|apply reg_cap]|].
  destruct f; [intros H; inversion H; auto|].
  destruct (id_thresholds nc) as [minl maxl].
  destruct (rehash _ _ nc 0) as [[T l]|e] eqn:R; cbn [id_bind]; [|discriminate].
  intros X; inversion X; subst. split; [reflexivity|].
  unfold id_cap; cbn [id_entries]. apply rehash_length in R. rewrite R. apply repeat_length.
Qed.

Lemma id_set_outcome m k v f rv m' : id_set m k v f = IdOk (rv, m') -> resize_outcome m f rv m'.
Proof.
  unfold id_set. destruct (id_resize m f) as [[rv1 m1]|e] eqn:RS; cbn [id_bind]; [|discriminate].
  apply id_resize_outcome in RS. intros H.
  (* after a resize that returned 0 the table keeps the size it has then, and 0 is returned *)
  assert (T: rv1 = 0%N -> rv = 0%N /\ id_cap m' = id_cap m1).
  { intros ->. cbn [N.eqb negb] in H.
    destruct (id_find m1 k) as [[index|]|e]; cbn [id_bind] in H; [| |discriminate].
    - destruct (nth_error (id_entries m1) index) as [e|] eqn:NE; inversion H; subst. split; [reflexivity|].
      unfold id_cap, set_table; cbn [id_entries]. apply tupd_length. eapply nth_error_lt'; eauto.
    - destruct (ins_loop _ _ _ _ _ _ _ _) as [[T l]|e] eqn:I; cbn [id_bind] in H; inversion H; subst.
      split; [reflexivity|]. unfold id_cap, set_table; cbn [id_entries]. now apply ins_loop_length in I. }
  unfold resize_outcome in *. destruct (resize_newcap m) as [[nc|]|e]; [destruct f| |exact RS].
  - destruct RS as [-> ->]. now inversion H.
  - destruct RS as [-> <-]. now apply T.
  - destruct RS as [-> <-]. now apply T.
Qed.

Lemma id_remove_unfold m k f :
  id_remove m k f =
  match remove_mid m k with
  | IdErr e => IdErr e
  | IdOk None => IdOk (id_ENOENT, m)
  | IdOk (Some m1) => do '(_, m') <- id_resize m1 f; IdOk (0%N, m')
  end.
Proof.
  unfold id_remove, remove_mid. destruct (id_find m k) as [[index|]|e]; cbn [id_bind]; try reflexivity.
  destruct (rm_loop _ _ _ _ _ _) as [[T l]|e]; cbn [id_bind]; [|reflexivity].
  destruct (id_dec (id_count m)) as [c|e]; cbn [id_bind]; reflexivity.
Qed.

Lemma remove_mid_cap m k m1 : remove_mid m k = IdOk (Some m1) -> id_cap m1 = id_cap m.
Proof.
  unfold remove_mid. destruct (id_find m k) as [[index|]|e]; cbn [id_bind]; try discriminate.
  destruct (rm_loop _ _ _ _ _ _) as [[T l]|e] eqn:R; cbn [id_bind]; [|discriminate].
  destruct (id_dec (id_count m)) as [c|e]; cbn [id_bind]; [|discriminate].
  intros H; inversion H; subst. unfold id_cap, set_table; cbn [id_entries]. now apply rm_loop_length in R.
Qed.

Lemma id_alloc_unfold fx m v rnd f :
  id_alloc fx m v rnd f =
  match alloc_mid fx m rnd with
  | IdErr e => IdErr e
  | IdOk None => IdOk (id_ENOMEM, None, m)
  | IdOk (Some (id, m1)) =>
      do '(rv, m') <- id_set m1 id v f;
      if (rv =? 0)%N then IdOk (0%N, Some id, m') else IdOk (rv, None, m')
  end.
Proof.
  unfold id_alloc, alloc_mid. destruct (_ <? _)%N; [reflexivity|].
  match goal with |- context [alloc_loop fx ?a ?b ?c] => destruct (alloc_loop fx a b c) as [[id dyn]|e] end;
    cbn [id_bind]; reflexivity.
Qed.

Lemma alloc_mid_cap fx m rnd id m1 : alloc_mid fx m rnd = IdOk (Some (id, m1)) -> id_cap m1 = id_cap m.
Proof.
  unfold alloc_mid. destruct (_ <? _)%N; [discriminate|].
  match goal with |- context [alloc_loop fx ?a ?b ?c] => destruct (alloc_loop fx a b c) as [[id' dyn]|e] end;
    cbn [id_bind]; [|discriminate].
  intros H; inversion H; subst. destruct (id_dyn_val m =? 0)%N; reflexivity.
Qed.

Section IdMapAFProofs.
  Variable SZ_ENT : nat.
  Hypothesis SZ_ENT_pos : 0 < SZ_ENT.
  Notation owned := (idmap_owned SZ_ENT).

  Lemma owned_cap_eq m m' : id_cap m' = id_cap m -> owned m' = owned m.
  Proof. unfold idmap_owned. now intros ->. Qed.

  Lemma with_resize_guarded {A} m0 (body : bool -> id_res A) :
    with_resize SZ_ENT m0 body =
    match resize_newcap m0 with
    | IdErr e => ret (IdErr e)
    | IdOk need => guarded (option_map (Nat.mul SZ_ENT) need) (id_cap m0 =? 0) (SZ_ENT * id_cap m0) body
    end.
  Proof. unfold with_resize. now destruct (resize_newcap m0) as [[nc|]|e]. Qed.

  (* The oracle-driven resize of [m0] around a model function [body] whose result (the map
     [mapof x]) went through that resize: the wrapper runs the model with the flag "the
     allocation was refused", and its ledger accounts for the change of table. *)
  Lemma with_resize_spec {A} (m0 : id_map) (body : bool -> id_res A) (mapof : A -> id_map) (orc : oracle) :
    (forall f x, body f = IdOk x -> exists rv, resize_outcome m0 f rv (mapof x)) ->
    let t := ledger (with_resize SZ_ENT m0 body) orc in
    ncalls t <= 1 /\
    (failed t = true -> self_balanced t /\ exists nc, resize_newcap m0 = IdOk (Some nc)) /\
    (forall x, body (failed t) = IdOk x ->
       run (with_resize SZ_ENT m0 body) orc = IdOk x /\ balanced (owned m0) t (owned (mapof x))).
  Proof using SZ_ENT_pos.
    intros HB. cbn zeta. rewrite with_resize_guarded. unfold resize_outcome in HB.
    destruct (resize_newcap m0) as [need|e] eqn:RN.
    2:{ split; [cbn; lia|]. split; [discriminate|]. intros x Hx. now destruct (HB _ _ Hx). }
    destruct (guarded_cases (option_map (Nat.mul SZ_ENT) need) (id_cap m0 =? 0) (SZ_ENT * id_cap m0) body orc)
      as (NC & [(F & R & T)|(F & R & a & SA & T)]).
    { destruct need as [nc|]; intros a E; inversion E. pose proof (resize_newcap_ge8 _ _ RN). nia. }
    - rewrite F, R. split; [exact NC|]. split; [discriminate|]. intros x Hx. split; [exact Hx|].
      rewrite T. destruct (HB _ _ Hx) as [rv O]. destruct need as [nc|]; destruct O as [_ O].
      + (* a new table of the predicted size *)
        unfold idmap_owned at 2. rewrite O.
        replace (nc =? 0) with false by (pose proof (resize_newcap_ge8 _ _ RN); now destruct nc).
        apply (balanced_realloc []).
      + rewrite (owned_cap_eq _ _ O). apply balanced_nil.
    - rewrite F, R, T. split; [cbn; lia|]. destruct need as [nc|]; [|discriminate].
      split; [intros _; split; [apply self_balanced_fail|eauto]|]. intros x Hx. split; [exact Hx|].
      destruct (HB _ _ Hx) as [rv [_ ->]]. rewrite (owned_cap_eq _ _ (reg_cap m0)). apply balanced_fail.
  Qed.

  Theorem id_set_o_clean fixed m k v (orc : oracle) : Inv fixed m ->
    let r := run (id_set_o SZ_ENT m k v) orc in
    let t := ledger (id_set_o SZ_ENT m k v) orc in
    exists rv m', r = IdOk (rv, m') /\ Inv fixed m' /\
      id_spec_rel (abs m) (IoSet k v (failed t)) (OutRv rv) (abs m') /\
      balanced (owned m) t (owned m') /\ ncalls t <= 1 /\
      (failed t = true -> rv = id_ENOMEM /\ m' = reg m /\ self_balanced t) /\
      (failed t = false -> rv = 0%N).
  Proof using SZ_ENT_pos.
    intros HI. cbn zeta. unfold id_set_o.
    destruct (with_resize_spec m (id_set m k v) snd orc) as (NC & F & W).
    { intros f [rv m'] S. exists rv. now apply id_set_outcome in S. }
    set (t := ledger (with_resize SZ_ENT m (id_set m k v)) orc) in *.
    destruct (set_refines fixed m k v (failed t) HI) as (rv & m' & S & HI' & SR).
    destruct (W _ S) as [R B]. exists rv, m'.
    repeat (split; [assumption|]).
    apply id_set_outcome in S. unfold resize_outcome in S. split; intros Ft; rewrite Ft in S.
    - destruct (F Ft) as (SB & nc & RN). rewrite RN in S. destruct S as [-> ->]. auto.
    - destruct (resize_newcap m) as [[nc|]|e]; [apply S|apply S|contradiction].
  Qed.

  (* nni_id_remove: a refused shrink is ignored ("it's ok if we can't") *)
  Theorem id_remove_o_clean fixed m k (orc : oracle) : Inv fixed m ->
    let r := run (id_remove_o SZ_ENT m k) orc in
    let t := ledger (id_remove_o SZ_ENT m k) orc in
    exists rv m', r = IdOk (rv, m') /\ Inv fixed m' /\
      id_spec_rel (abs m) (IoRemove k (failed t)) (OutRv rv) (abs m') /\
      balanced (owned m) t (owned m') /\ ncalls t <= 1 /\
      (failed t = true -> rv = 0%N /\ self_balanced t /\ id_cap m' = id_cap m).
  Proof using SZ_ENT_pos.
    intros HI. cbn zeta. unfold id_remove_o.
    pose proof (id_remove_unfold m k) as U.
    destruct (remove_mid m k) as [[m1|]|e] eqn:RM.
    - pose proof (remove_mid_cap _ _ _ RM) as C1.
      (* the model's result went through the resize of [m1] and is 0 *)
      assert (O: forall f rv m', id_remove m k f = IdOk (rv, m') -> rv = 0%N /\ exists rv1, resize_outcome m1 f rv1 m').
      { intros f rv m'. rewrite U. destruct (id_resize m1 f) as [[rv1 m2]|e] eqn:RS; cbn [id_bind]; [|discriminate].
        intros H; inversion H; subst. split; [reflexivity|]. exists rv1. now apply id_resize_outcome. }
      destruct (with_resize_spec m1 (id_remove m k) snd orc) as (NC & F & W).
      { intros f [rv m'] S. now apply O in S. }
      set (t := ledger (with_resize SZ_ENT m1 (id_remove m k)) orc) in *.
      destruct (remove_refines fixed m k (failed t) HI) as (rv & m' & S & HI' & SR).
      destruct (W _ S) as [R B]. rewrite (owned_cap_eq _ _ C1) in B. exists rv, m'.
      repeat (split; [assumption|]).
      intros Ft. destruct (F Ft) as (SB & nc & RN). destruct (O _ _ _ S) as (-> & rv1 & X).
      unfold resize_outcome in X. rewrite RN, Ft in X. destruct X as [_ ->]. rewrite reg_cap. auto.
    - (* NNG_ENOENT: no resize *)
      destruct (remove_refines fixed m k false HI) as (rv & m' & S & HI' & SR).
      exists rv, m'. split; [exact S|]. split; [exact HI'|]. split; [exact SR|].
      rewrite U in S. inversion S; subst. split; [apply balanced_nil|]. split; [cbn; lia|discriminate].
    - destruct (remove_refines fixed m k false HI) as (rv & m' & S & _). rewrite U in S. discriminate.
  Qed.

  (* nni_id_alloc: on a refused table allocation NNG_ENOMEM, no id issued, the map's
     contents unchanged; the cursor has moved past the id that would have been issued *)
  Theorem id_alloc_o_clean fixed m v rnd (orc : oracle) : Inv fixed m ->
    let r := run (id_alloc_o SZ_ENT fixed m v rnd) orc in
    let t := ledger (id_alloc_o SZ_ENT fixed m v rnd) orc in
    exists rv ido m', r = IdOk (rv, ido, m') /\ Inv fixed m' /\
      id_spec_rel (abs m) (IoAlloc v rnd (failed t)) (OutAlloc rv ido) (abs m') /\
      balanced (owned m) t (owned m') /\ ncalls t <= 1 /\
      (failed t = true -> rv = id_ENOMEM /\ ido = None /\ self_balanced t /\ id_cap m' = id_cap m).
  Proof using SZ_ENT_pos.
    intros HI. cbn zeta. unfold id_alloc_o.
    pose proof (id_alloc_unfold fixed m v rnd) as U.
    destruct (alloc_mid fixed m rnd) as [[[id m1]|]|e] eqn:AM.
    - pose proof (alloc_mid_cap _ _ _ _ _ AM) as C1.
      (* the model's result is that of nni_id_set on [m1] *)
      assert (O: forall f rv ido m', id_alloc fixed m v rnd f = IdOk (rv, ido, m') ->
                 exists rv1, resize_outcome m1 f rv1 m' /\ (rv1 <> 0%N -> rv = rv1 /\ ido = None)).
      { intros f rv ido m'. rewrite U. destruct (id_set m1 id v f) as [[rv1 m2]|e] eqn:IS; cbn [id_bind]; [|discriminate].
        apply id_set_outcome in IS. intros H. exists rv1.
        destruct (rv1 =? 0)%N eqn:Z; inversion H; subst; (split; [exact IS|]); [apply N.eqb_eq in Z; tauto|auto]. }
      destruct (with_resize_spec m1 (id_alloc fixed m v rnd) snd orc) as (NC & F & W).
      { intros f [[rv ido] m'] S. destruct (O _ _ _ _ S) as (rv1 & X & _). eauto. }
      set (t := ledger (with_resize SZ_ENT m1 (id_alloc fixed m v rnd)) orc) in *.
      destruct (alloc_refines fixed m v rnd (failed t) HI) as (rv & ido & m' & S & HI' & SR).
      destruct (W _ S) as [R B]. rewrite (owned_cap_eq _ _ C1) in B. exists rv, ido, m'.
      repeat (split; [assumption|]).
      intros Ft. destruct (F Ft) as (SB & nc & RN). destruct (O _ _ _ _ S) as (rv1 & X & Y).
      unfold resize_outcome in X. rewrite RN, Ft in X. destruct X as [-> ->].
      destruct Y as [-> ->]; [discriminate|]. rewrite reg_cap. auto.
    - (* the range is full: no resize *)
      destruct (alloc_refines fixed m v rnd false HI) as (rv & ido & m' & S & HI' & SR).
      exists rv, ido, m'. split; [exact S|]. split; [exact HI'|]. split; [exact SR|].
      rewrite U in S. inversion S; subst. split; [apply balanced_nil|]. split; [cbn; lia|discriminate].
    - destruct (alloc_refines fixed m v rnd false HI) as (rv & ido & m' & S & _). rewrite U in S. discriminate.
  Qed.

  (* nni_id_map_fini: the table goes back *)
  Theorem id_fini_o_balanced m (orc : oracle) :
    balanced (owned m) (ledger (id_fini_o SZ_ENT m) orc) [] /\
    id_cap (run (id_fini_o SZ_ENT m) orc) = 0.
  Proof using.
    unfold id_fini_o. rewrite run_bind_ret, ledger_bind_ret, ledger_free_if. split.
    - unfold idmap_owned. destruct (id_cap m =? 0); apply Permutation_refl.
    - unfold id_map_fini, id_cap. destruct (id_entries m) eqn:E; [now rewrite E|reflexivity].
  Qed.

  Theorem id_step_o_clean fixed m o (orc : oracle) : Inv fixed m ->
    let r := run (id_step_o SZ_ENT fixed m o) orc in
    let t := ledger (id_step_o SZ_ENT fixed m o) orc in
    exists out m', r = IdOk (out, m') /\ Inv fixed m' /\
      id_spec_rel (abs m) (unop o (failed t)) out (abs m') /\
      balanced (owned m) t (owned m') /\ ncalls t <= 1.
  Proof using SZ_ENT_pos.
    intros HI. cbn zeta.
    (* the operations that do not write: the model leaves the map as it is *)
    assert (RO: forall o', (forall out m', id_step fixed m o' = IdOk (out, m') -> m' = m) ->
              exists out m', id_step fixed m o' = IdOk (out, m') /\ Inv fixed m' /\
                id_spec_rel (abs m) o' out (abs m') /\ balanced (owned m) [] (owned m') /\ 0 <= 1).
    { intros o' Hm. destruct (step_refines fixed m o' HI) as (out & m' & S & HI' & SR).
      exists out, m'. rewrite (Hm _ _ S) at 4.
      split; [exact S|]. split; [exact HI'|]. split; [exact SR|]. split; [apply balanced_nil|lia]. }
    destruct o as [k v|k|k|v rnd| |]; cbn [id_step_o unop]; rewrite ?run_bind_ret, ?ledger_bind_ret.
    - destruct (id_set_o_clean fixed m k v orc HI) as (rv & m' & -> & HI' & SR & B & NC & _). cbn [id_bind]. eauto 10.
    - apply RO. intros out m'. cbn [id_step]. destruct (id_get m k); cbn [id_bind]; now inversion 1.
    - destruct (id_remove_o_clean fixed m k orc HI) as (rv & m' & -> & HI' & SR & B & NC & _). cbn [id_bind]. eauto 10.
    - destruct (id_alloc_o_clean fixed m v rnd orc HI) as (rv & ido & m' & -> & HI' & SR & B & NC & _). cbn [id_bind]. eauto 10.
    - apply RO. intros out m'. cbn [id_step]. destruct (id_visit_all m); cbn [id_bind]; now inversion 1.
    - apply RO. intros out m'. cbn [id_step]. now inversion 1.
  Qed.

  Theorem id_run_o_clean fixed ops : forall m (orc : oracle), Inv fixed m ->
    exists outs m', run (id_run_o SZ_ENT fixed m ops) orc = IdOk (outs, m') /\ Inv fixed m' /\
      balanced (owned m) (ledger (id_run_o SZ_ENT fixed m ops) orc) (owned m') /\
      length outs = length ops /\
      ncalls (ledger (id_run_o SZ_ENT fixed m ops) orc) <= length ops.
  Proof using SZ_ENT_pos.
    induction ops as [|o r IH]; intros m orc HI.
    - exists [], m. split; [reflexivity|]. split; [exact HI|].
      split; [apply balanced_nil|]. split; [reflexivity|cbn; lia].
    - destruct (id_step_o_clean fixed m o orc HI) as (out & m1 & R & HI1 & _ & B1 & N1).
      cbn [id_run_o]. rewrite run_bind, ledger_bind, R, run_bind_ret, ledger_bind_ret, ncalls_app.
      destruct (IH m1 (rest (id_step_o SZ_ENT fixed m o) orc) HI1) as (outs & m2 & -> & HI2 & B2 & L2 & N2).
      exists (out :: outs), m2. split; [reflexivity|]. split; [exact HI2|].
      split; [eapply balanced_trans; eauto|]. split; [cbn; now rewrite L2|cbn [length]; lia].
  Qed.
End IdMapAFProofs.
