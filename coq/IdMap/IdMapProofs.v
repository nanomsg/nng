(* IdMapProofs: the invariants I1-I4 of DESIGN Appendix D for the model of
   idhash.c, correctness of id_find, the store / walk-back / rehash loops, and the
   refinement of the finite-map + cyclic-cursor specification, lifted to all
   operation histories.  Stdlib only; closed under the global context. *)
From Coq Require Import List Arith Lia NArith Bool Permutation.
From NngV Require Import Base.ListX IdMap.IdMapModel IdMap.IdMapSpec IdMap.ProbeOrder IdMap.IdMapLemmas.
Import ListNotations.

Definition lvb (e : id_entry) : nat := if ie_live e then 1 else 0.
Definition lv (T : list id_entry) (i : nat) : nat :=
  match nth_error T i with Some e => lvb e | None => 0 end.

(* d(k): the probe distance of the key stored in cell i *)
Definition edist (cap : nat) (e : id_entry) (i : nat) : nat := dist cap (id_index cap (ie_key e)) i.
(* the cells the key of cell i was skipped over: p_0(k) .. p_{d(k)-1}(k) *)
Definition epref (cap : nat) (e : id_entry) (i : nat) : list nat :=
  pref cap (id_index cap (ie_key e)) (edist cap e i).

(* how often the live key of cell i crosses cell c *)
Definition cr (T : list id_entry) (c i : nat) : nat :=
  match nth_error T i with
  | Some e => if ie_live e then count_occ Nat.eq_dec (epref (length T) e i) c else 0
  | None => 0
  end.
(* the contribution of cell i to id_load *)
Definition ld (T : list id_entry) (i : nat) : nat :=
  match nth_error T i with
  | Some e => if ie_live e then S (edist (length T) e i) else 0
  | None => 0
  end.

(* lv, ld and cr (at a fixed crossed cell) have one shape: a live cell with key k at
   index i contributes G (length T) k i.  By unfolding, lv T is cellf (fun _ _ _ => 1) T,
   ld T is cellf Gld T and cr T c is cellf (Gcr c) T. *)
Definition cellf (G : nat -> N -> nat -> nat) (T : list id_entry) (i : nat) : nat :=
  match nth_error T i with
  | Some e => if ie_live e then G (length T) (ie_key e) i else 0
  | None => 0
  end.
Definition Gld (n : nat) (k : N) (i : nat) : nat := S (dist n (id_index n k) i).
Definition Gcr (c n : nat) (k : N) (i : nat) : nat :=
  count_occ Nat.eq_dec (pref n (id_index n k) (dist n (id_index n k) i)) c.

Definition uniq (T : list id_entry) : Prop :=
  forall i j ei ej, nth_error T i = Some ei -> nth_error T j = Some ej ->
    ie_live ei = true -> ie_live ej = true -> ie_key ei = ie_key ej -> i = j.

Record TInv (T : list id_entry) : Prop := {
  ti_uniq : uniq T;                                   (* live keys occupy distinct cells *)
  ti_skips : forall c e, nth_error T c = Some e ->    (* I1 *)
               ie_skips e = sumf (length T) (cr T c);
  ti_vacant : forall c e, nth_error T c = Some e ->   (* I2 *)
               ie_val e = None -> ie_key e = 0%N }.

Definition thresholds_ok (m : id_map) : Prop :=
  (id_cap m = 0 /\ id_min_load m = 0 /\ id_max_load m = 0) \/
  (id_cap m = 8 /\ id_min_load m = 0 /\ id_max_load m = 5) \/
  (8 < id_cap m /\ id_min_load m = id_cap m / 8 /\ id_max_load m = id_cap m * 2 / 3).

Record MInv (m : id_map) : Prop := {
  mi_cap : id_cap m = 0 \/ exists k, 3 <= k /\ id_cap m = 2 ^ k;
  mi_tinv : TInv (id_entries m);
  mi_count : id_count m = sumf (id_cap m) (lv (id_entries m));      (* I3 *)
  mi_load : id_load m = sumf (id_cap m) (ld (id_entries m));        (* I3 *)
  mi_thr : thresholds_ok m }.

(* ri_fixed: the unrepaired wrap test of nni_id_alloc (fixed = false) is right only for a range that
   does not end at 2^64-1 (u64max_ops of IdMapThms.v is the history on which it issues id 0) *)
Record RInv (fixed : bool) (m : id_map) : Prop := {
  ri_lo : (1 <= id_min_val m)%N;
  ri_lohi : (id_min_val m <= id_max_val m)%N;
  ri_hi : (id_max_val m < U64)%N;
  ri_fixed : fixed = true \/ (id_max_val m + 1 < U64)%N;
  ri_dyn : id_dyn_val m = 0%N \/ (id_min_val m <= id_dyn_val m <= id_max_val m)%N }.

Definition Inv (fixed : bool) (m : id_map) : Prop := MInv m /\ RInv fixed m.

(* what MInv says of a table of 2^k cells and its two counters, apart from the thresholds *)
Record Tbl (k : nat) (T : list id_entry) (cnt load : nat) : Prop := {
  tb_len : length T = 2 ^ k;
  tb_inv : TInv T;
  tb_cnt : cnt = sumf (2 ^ k) (lv T);
  tb_load : load = sumf (2 ^ k) (ld T) }.

Definition abs_list (T : list id_entry) : id_amap :=
  flat_map (fun e => match ie_val e with Some v => [(ie_key e, v)] | None => [] end) T.
Definition abs (m : id_map) : id_spec :=
  mkIdSpec (abs_list (id_entries m)) (id_min_val m) (id_max_val m) (id_random m) (id_dyn_val m).

Lemma live_val e : ie_live e = true <-> exists v, ie_val e = Some v.
Proof. unfold ie_live. destruct (ie_val e); split; intros; eauto; try discriminate. destruct H; discriminate. Qed.
Lemma dead_val e : ie_live e = false <-> ie_val e = None.
Proof. unfold ie_live. destruct (ie_val e); split; intros; auto; discriminate. Qed.

Lemma nth_error_lt {A} (T : list A) i : i < length T -> exists e, nth_error T i = Some e.
Proof. intros H. destruct (nth_error T i) eqn:E; [eauto|]. apply nth_error_None in E. lia. Qed.

Lemma abs_In T k v : In (k, v) (abs_list T) <->
  exists c e, nth_error T c = Some e /\ ie_key e = k /\ ie_val e = Some v.
Proof.
  unfold abs_list. rewrite in_flat_map. split.
  - intros (e & Hin & H). apply In_nth_error in Hin. destruct Hin as [c Hc].
    exists c, e. destruct (ie_val e); [|contradiction]. destruct H as [H|[]]. inversion H; subst. auto.
  - intros (c & e & Hc & Hk & Hv). exists e. split; [eapply nth_error_In; eauto|].
    rewrite Hv. left. now subst.
Qed.

Lemma uniq_tail e T : uniq (e :: T) -> uniq T.
Proof.
  intros U i j ei ej Hi Hj Li Lj K. assert (S i = S j); [|lia]. eapply U; eauto.
Qed.

Lemma abs_NoDup T : uniq T -> NoDup (map fst (abs_list T)).
Proof.
  induction T as [|e T IH]; intros U; [constructor|].
  specialize (IH (uniq_tail _ _ U)). cbn [abs_list flat_map]. fold (abs_list T).
  destruct (ie_val e) as [v|] eqn:Ev; [|exact IH].
  cbn. constructor; [|exact IH]. intros Hin. apply in_map_iff in Hin.
  destruct Hin as ([k' v'] & Hk & Hin). cbn in Hk. subst k'. apply abs_In in Hin.
  destruct Hin as (c & e' & Hc & Hk & Hv).
  assert (0 = S c); [|lia]. apply (U 0 (S c) e e' eq_refl Hc); [apply live_val; eauto..|now symmetry].
Qed.

Lemma abs_length T : length (abs_list T) = sumf (length T) (lv T).
Proof.
  unfold lv. rewrite (sumf_map_nth T (fun o => match o with Some e => lvb e | None => 0 end)).
  induction T as [|e T IH]; [reflexivity|]. cbn [abs_list flat_map map list_sum]. fold (abs_list T).
  rewrite app_length, IH. unfold lvb at 2, ie_live. unfold list_sum. destruct (ie_val e); cbn [length fold_right]; lia.
Qed.

Lemma cr_cellf T c : cr T c = cellf (Gcr c) T.
Proof. reflexivity. Qed.

(* a key does not cross its own cell *)
Lemma Gcr_self p n k : Gcr p n k p = 0.
Proof.
  apply count_occ_not_In. intros Hin. apply pref_In in Hin. destruct Hin as (i & Hi & E).
  exact (dist_min _ _ _ i Hi E).
Qed.

Lemma cellf_at G T i e : nth_error T i = Some e ->
  cellf G T i = if ie_live e then G (length T) (ie_key e) i else 0.
Proof. intros H. unfold cellf. now rewrite H. Qed.

Lemma cellf_le_sum G T i e : nth_error T i = Some e ->
  (if ie_live e then G (length T) (ie_key e) i else 0) <= sumf (length T) (cellf G T).
Proof. intros H. rewrite <- (cellf_at G T i e H). apply sumf_ge, nth_error_Some. congruence. Qed.

Lemma live_counted T c e : nth_error T c = Some e -> ie_live e = true -> 1 <= sumf (length T) (lv T).
Proof. intros Hc L. pose proof (cellf_le_sum (fun _ _ _ => 1) T c e Hc) as X. now rewrite L in X. Qed.

Section Find.
Variables (T : list id_entry) (k : nat).
Hypothesis HL : length T = 2 ^ k.
Hypothesis HT : TInv T.

(* r is the cell holding id live, if there is one *)
Lemma find_loop_spec id r :
  match r with
  | Some c => exists e, nth_error T c = Some e /\ ie_live e = true /\ ie_key e = id
  | None => forall c e, nth_error T c = Some e -> ie_live e = true -> ie_key e <> id
  end ->
  find_loop T id (id_index (2 ^ k) id) (id_index (2 ^ k) id) (2 ^ k) = IdOk r.
Proof.
  intros Hr. set (s := id_index (2 ^ k) id).
  assert (Hs: s < 2 ^ k) by apply id_index_lt.
  (* after n probes without a hit the loop has not yet come to the cell of the key *)
  assert (G: forall fuel n, n + fuel = 2 ^ k -> n < 2 ^ k ->
             (forall c, r = Some c -> n <= dist (2 ^ k) s c) ->
             find_loop T id s (path (2 ^ k) s n) fuel = IdOk r).
  { induction fuel as [|f IH]; intros n Hn Hlt Hb; [lia|]. cbn [find_loop].
    assert (Hp: path (2 ^ k) s n < length T) by (rewrite HL; apply path_lt; [apply pow2_pos|assumption]).
    destruct (nth_error_lt T _ Hp) as [e' He']. rewrite He'.
    destruct ((ie_key e' =? id)%N && ie_live e') eqn:Em.
    { apply andb_true_iff in Em. destruct Em as [Ek El]. apply N.eqb_eq in Ek. destruct r as [c|].
      - destruct Hr as (e & Hc & Lc & Kc). do 2 f_equal. eapply (ti_uniq T HT); eauto. congruence.
      - now elim (Hr _ _ He' El). }
    rewrite HL, id_next_nxt. change (nxt (2 ^ k) (path (2 ^ k) s n)) with (path (2 ^ k) s (S n)).
    destruct r as [c|].
    - (* the key of cell c crosses this cell, whose skip count is therefore not 0 *)
      destruct Hr as (e & Hc & Lc & Kc). specialize (Hb c eq_refl).
      assert (Hc': c < length T) by (apply nth_error_Some; congruence).
      destruct (dist_spec k s c Hs ltac:(lia)) as (Dlt & Dp & _).
      assert (Hnd: n < dist (2 ^ k) s c).
      { destruct (Nat.eq_dec n (dist (2 ^ k) s c)) as [E|]; [|lia]. exfalso.
        rewrite E, Dp, Hc in He'. inversion He'; subst e'. rewrite Kc, N.eqb_refl, Lc in Em. discriminate. }
      assert (Sk: 1 <= ie_skips e').
      { rewrite (ti_skips T HT _ e' He'). eapply Nat.le_trans; [|apply (cellf_le_sum (Gcr (path (2 ^ k) s n)) T c e Hc)].
        rewrite Lc, Kc, HL. apply (count_occ_In Nat.eq_dec), pref_In. exists n. split; [exact Hnd|reflexivity]. }
      destruct (ie_skips e' =? 0) eqn:E0; [apply Nat.eqb_eq in E0; lia|].
      destruct (path (2 ^ k) s (S n) =? s) eqn:Ew.
      { apply Nat.eqb_eq in Ew. assert (S n = 0); [|lia]. apply (path_inj k s); try lia. exact Ew. }
      apply IH; [lia|lia|]. intros c0 E. inversion E; subst c0. lia.
    - destruct (ie_skips e' =? 0); [reflexivity|].
      destruct (path (2 ^ k) s (S n) =? s) eqn:Ew; [reflexivity|].
      apply Nat.eqb_neq in Ew. apply IH; [lia| |discriminate].
      destruct (Nat.eq_dec (S n) (2 ^ k)) as [E|]; [|lia].
      exfalso. apply Ew. rewrite E. now apply path_period. }
  apply (G (2 ^ k) 0); [lia|apply pow2_pos|lia].
Qed.
End Find.

Lemma abs_keys T id : In id (map fst (abs_list T)) <->
  exists c e, nth_error T c = Some e /\ ie_live e = true /\ ie_key e = id.
Proof.
  rewrite in_map_iff. split.
  - intros ([k v] & <- & H). apply abs_In in H. destruct H as (c & e & Hc & Hk & Hv).
    exists c, e. repeat split; auto. apply live_val; eauto.
  - intros (c & e & Hc & L & K). apply live_val in L. destruct L as [v Hv].
    exists (id, v). split; [reflexivity|]. apply abs_In. eauto.
Qed.

Lemma dead_of_notin T id : ~ In id (map fst (abs_list T)) ->
  forall c e, nth_error T c = Some e -> ie_live e = true -> ie_key e <> id.
Proof. intros H c e Hc L K. apply H, abs_keys. eauto. Qed.

Lemma id_find_spec m id : MInv m ->
  (exists c e, id_find m id = IdOk (Some c) /\ nth_error (id_entries m) c = Some e /\
               ie_live e = true /\ ie_key e = id) \/
  (id_find m id = IdOk None /\ ~ In id (map fst (abs_list (id_entries m)))).
Proof.
  intros HI. pose proof (mi_tinv m HI) as HT. pose proof (mi_count m HI) as MC. unfold id_find.
  destruct (am_get (abs_list (id_entries m)) id) as [v|] eqn:E.
  - left. apply am_get_In, abs_In in E. destruct E as (c & e & Hc & Hk & Hv).
    exists c, e. assert (L: ie_live e = true) by (apply live_val; eauto).
    repeat split; auto.
    pose proof (live_counted _ c e Hc L) as X. fold (id_cap m) in X. rewrite <- MC in X.
    destruct (id_count m =? 0) eqn:E0; [apply Nat.eqb_eq in E0; lia|].
    destruct (mi_cap m HI) as [Z|(k & _ & Hcap)]; [rewrite MC, Z in X; elim (Nat.nle_succ_0 _ X)|].
    rewrite Hcap. apply (find_loop_spec _ k Hcap HT id (Some c)). eauto.
  - right. apply am_get_None in E. split; [|exact E].
    destruct (id_count m =? 0) eqn:E0; [reflexivity|].
    destruct (mi_cap m HI) as [Z|(k & _ & Hcap)]; [now rewrite MC, Z in E0|].
    rewrite Hcap. exact (find_loop_spec _ k Hcap HT id None (dead_of_notin _ id E)).
Qed.

Lemma id_get_spec m id : MInv m -> id_get m id = IdOk (am_get (abs_list (id_entries m)) id).
Proof.
  intros HI. unfold id_get.
  destruct (id_find_spec m id HI) as [(c & e & F & Hc & L & K)|[F D]]; rewrite F; cbn [id_bind].
  - rewrite Hc. f_equal. apply live_val in L. destruct L as [v Hv]. rewrite Hv.
    symmetry. apply In_am_get; [apply abs_NoDup, (mi_tinv m HI)|]. apply abs_In. eauto.
  - f_equal. symmetry. now apply am_get_None.
Qed.

(* T' is T with cell p set to (kp, vp), its skip count kept, and the skip count n of
   every other cell c changed to g c n: the common form of a store, a removal and an
   overwrite *)
Definition reshaped (T T' : list id_entry) (p : nat) (kp : N) (vp : option N) (g : nat -> nat -> nat) : Prop :=
  length T' = length T /\
  forall c e, nth_error T c = Some e ->
    nth_error T' c = Some (if c =? p then mkIdEntry kp (ie_skips e) vp
                           else mkIdEntry (ie_key e) (g c (ie_skips e)) (ie_val e)).

Section Reshaped.
Variables (T T' : list id_entry) (p : nat) (kp : N) (vp : option N) (g : nat -> nat -> nat).
Hypothesis HR : reshaped T T' p kp vp g.

Lemma rs_cell c e' : nth_error T' c = Some e' -> exists e, nth_error T c = Some e.
Proof. intros H. apply nth_error_lt. rewrite <- (proj1 HR). apply nth_error_Some. congruence. Qed.

Lemma rs_other c e' : c <> p -> nth_error T' c = Some e' ->
  exists e, nth_error T c = Some e /\ ie_key e' = ie_key e /\ ie_val e' = ie_val e /\
            ie_skips e' = g c (ie_skips e).
Proof.
  intros Hne Hc. destruct (rs_cell c e' Hc) as [e He]. pose proof (proj2 HR c e He) as P.
  apply Nat.eqb_neq in Hne. rewrite Hne, Hc in P. inversion P; subst e'. exists e. cbn. auto.
Qed.

Lemma rs_at e : nth_error T p = Some e -> nth_error T' p = Some (mkIdEntry kp (ie_skips e) vp).
Proof. intros He. pose proof (proj2 HR p e He) as P. now rewrite Nat.eqb_refl in P. Qed.

Lemma rs_cellf G i : i <> p -> cellf G T' i = cellf G T i.
Proof.
  intros Hne. unfold cellf. rewrite (proj1 HR). destruct (nth_error T' i) as [e'|] eqn:E.
  - destruct (rs_other i e' Hne E) as (e & He & Hk & Hv & _). rewrite He. unfold ie_live. now rewrite Hv, Hk.
  - apply nth_error_None in E. rewrite (proj1 HR) in E. apply nth_error_None in E. now rewrite E.
Qed.

(* the sums change by what cell p contributed before and contributes now *)
Lemma rs_sum G e : nth_error T p = Some e ->
  sumf (length T) (cellf G T') + (if ie_live e then G (length T) (ie_key e) p else 0)
  = sumf (length T) (cellf G T) + match vp with Some _ => G (length T) kp p | None => 0 end.
Proof.
  intros He. assert (Hp: p < length T) by (apply nth_error_Some; congruence).
  pose proof (sumf_upd (length T) (cellf G T) (cellf G T') p Hp (fun i _ Hne => rs_cellf G i Hne)) as H.
  rewrite (cellf_at G T p e He), (cellf_at G T' p _ (rs_at e He)), (proj1 HR) in H.
  unfold ie_live at 2 in H. cbn [ie_val ie_key] in H. destruct vp; exact H.
Qed.

Lemma rs_uniq : uniq T ->
  (forall c e, c <> p -> nth_error T c = Some e -> ie_live e = true -> vp <> None -> ie_key e <> kp) ->
  uniq T'.
Proof.
  intros U Hnew.
  assert (A: forall j ei ej, nth_error T' p = Some ei -> nth_error T' j = Some ej -> j <> p ->
             ie_live ei = true -> ie_live ej = true -> ie_key ei <> ie_key ej).
  { intros j ei ej Hi Hj Ej Li Lj K. destruct (rs_cell p ei Hi) as [e He].
    rewrite (rs_at e He) in Hi. inversion Hi; subst ei. cbn [ie_key] in K.
    destruct (rs_other j ej Ej Hj) as (e2 & He2 & Hk2 & Hv2 & _).
    apply (Hnew j e2 Ej He2); [unfold ie_live in *; now rewrite <- Hv2| |congruence].
    intros E. rewrite E in Li. discriminate. }
  intros i j ei ej Hi Hj Li Lj K.
  destruct (Nat.eq_dec i p) as [Ei|Ei]; destruct (Nat.eq_dec j p) as [Ej|Ej]; [congruence| | |].
  - subst i. now elim (A j ei ej Hi Hj Ej Li Lj).
  - subst j. now elim (A i ej ei Hj Hi Ei Lj Li).
  - destruct (rs_other i ei Ei Hi) as (e1 & He1 & Hk1 & Hv1 & _).
    destruct (rs_other j ej Ej Hj) as (e2 & He2 & Hk2 & Hv2 & _).
    apply (U i j e1 e2); auto; [unfold ie_live in *; now rewrite <- Hv1|unfold ie_live in *; now rewrite <- Hv2|congruence].
Qed.

Lemma rs_vacant : (forall c e, nth_error T c = Some e -> ie_val e = None -> ie_key e = 0%N) ->
  (vp = None -> kp = 0%N) ->
  forall c e', nth_error T' c = Some e' -> ie_val e' = None -> ie_key e' = 0%N.
Proof.
  intros V Hk c e' Hc Hv. destruct (Nat.eq_dec c p) as [E|E].
  - subst c. destruct (rs_cell p e' Hc) as [e He]. rewrite (rs_at e He) in Hc. inversion Hc; subst e'. auto.
  - destruct (rs_other c e' E Hc) as (e & He & Hk' & Hv' & _). rewrite Hk'. apply (V c e He). congruence.
Qed.

(* table invariant and counters survive when g takes from every other skip count the crossings
   of the old content of cell p and adds those of the new, and the counters move by what the
   cell counted for before and counts for now; the premises after the cell's entry, in order: no other
   live cell has the new key, a vacated cell gets key 0, the skip counts, the count, the load *)
Lemma rs_Tbl k e cnt load cnt' load' : Tbl k T cnt load -> nth_error T p = Some e ->
  (forall c e', c <> p -> nth_error T c = Some e' -> ie_live e' = true -> vp <> None -> ie_key e' <> kp) ->
  (vp = None -> kp = 0%N) ->
  (forall c n, c <> p -> (if ie_live e then Gcr c (length T) (ie_key e) p else 0) <= n ->
     g c n + (if ie_live e then Gcr c (length T) (ie_key e) p else 0)
     = n + match vp with Some _ => Gcr c (length T) kp p | None => 0 end) ->
  cnt' + (if ie_live e then 1 else 0) = cnt + match vp with Some _ => 1 | None => 0 end ->
  load' + (if ie_live e then Gld (2 ^ k) (ie_key e) p else 0)
  = load + match vp with Some _ => Gld (2 ^ k) kp p | None => 0 end ->
  Tbl k T' cnt' load'.
Proof.
  intros [HL HT -> ->] He Hu Hk Hg Hc Hl.
  pose proof (rs_sum (fun _ _ _ => 1) e He) as X1. pose proof (rs_sum Gld e He) as X2. rewrite HL in X1, X2.
  change (cellf (fun _ _ _ => 1)) with lv in X1. change (cellf Gld) with ld in X2.
  split; [exact (eq_trans (proj1 HR) HL)| |lia|lia]. split.
  - exact (rs_uniq (ti_uniq T HT) Hu).
  - intros c e' Hc'. rewrite (proj1 HR), cr_cellf. pose proof (rs_sum (Gcr c) e He) as X.
    destruct (Nat.eq_dec c p) as [E|E].
    + subst c. rewrite (rs_at e He) in Hc'. inversion Hc'; subst e'. cbn [ie_skips].
      rewrite (ti_skips T HT p e He), cr_cellf. rewrite !Gcr_self in X. destruct (ie_live e), vp; lia.
    + destruct (rs_other c e' E Hc') as (e0 & H0 & _ & _ & Sk). rewrite Sk, (ti_skips T HT c e0 H0), cr_cellf.
      pose proof (cellf_le_sum (Gcr c) T p e He) as Y.
      specialize (Hg c _ E Y). lia.
  - exact (rs_vacant (ti_vacant T HT) Hk).
Qed.

Lemma rs_abs e0 k' v' : nth_error T p = Some e0 ->
  (In (k', v') (abs_list T') <->
   (vp = Some v' /\ k' = kp) \/
   (exists c e, c <> p /\ nth_error T c = Some e /\ ie_key e = k' /\ ie_val e = Some v')).
Proof.
  intros H0. rewrite abs_In. split.
  - intros (c & e' & Hc & Hk & Hv). destruct (Nat.eq_dec c p) as [E|E].
    + subst c. rewrite (rs_at e0 H0) in Hc. inversion Hc; subst e'. left. auto.
    + destruct (rs_other c e' E Hc) as (e & He & Hk2 & Hv2 & _). right. exists c, e. repeat split; congruence.
  - intros [[Hv ->]|(c & e & Hne & Hc & Hk & Hv)].
    + exists p, (mkIdEntry kp (ie_skips e0) vp). split; [exact (rs_at e0 H0)|auto].
    + pose proof (proj2 HR c e Hc) as P. apply Nat.eqb_neq in Hne. rewrite Hne in P.
      eexists c, _. split; [exact P|auto].
Qed.
End Reshaped.

(* the bindings of T outside a live cell p are those with another key *)
Lemma abs_In_off T p ep k' v' : uniq T -> nth_error T p = Some ep -> ie_live ep = true ->
  (exists c e, c <> p /\ nth_error T c = Some e /\ ie_key e = k' /\ ie_val e = Some v') <->
  In (k', v') (abs_list T) /\ k' <> ie_key ep.
Proof.
  intros U Hp Lp. rewrite abs_In. split.
  - intros (c & e & Hne & Hc & Hk & Hv). split; [eauto|]. intros E. apply Hne.
    apply (U c p e ep); auto; [apply live_val; eauto|congruence].
  - intros [(c & e & Hc & Hk & Hv) Hne]. exists c, e. repeat split; auto.
    intros ->. rewrite Hp in Hc. inversion Hc; subst. congruence.
Qed.

Lemma reshaped_ext T T' p kp vp g g' : (forall c n, g c n = g' c n) ->
  reshaped T T' p kp vp g -> reshaped T T' p kp vp g'.
Proof. intros E [HL P]. split; [exact HL|]. intros c e Hc. now rewrite (P c e Hc), E. Qed.

Lemma reshaped_write T p e kp vp : nth_error T p = Some e ->
  reshaped T (tupd T p (mkIdEntry kp (ie_skips e) vp)) p kp vp (fun _ n => n).
Proof.
  intros He. assert (Hp: p < length T) by (apply nth_error_Some; congruence).
  split; [now apply tupd_length|]. intros c e0 Hc. rewrite tupd_nth by exact Hp. destruct (c =? p) eqn:E.
  - apply Nat.eqb_eq in E. subst c. rewrite He in Hc. now inversion Hc.
  - rewrite Hc. now destruct e0.
Qed.

(* one probe more at the front: both loops change the skip count of the cell s they leave by h
   and go on from nxt s; gg m is what m such changes do to a count *)
Lemma reshaped_probe cap T T' s p kp vp (gg : nat -> nat -> nat) h d e0 :
  (forall m n, gg (S m) n = gg m (h n)) -> nth_error T s = Some e0 -> s <> p ->
  reshaped (tupd T s (mkIdEntry (ie_key e0) (h (ie_skips e0)) (ie_val e0))) T' p kp vp
           (fun c n => gg (count_occ Nat.eq_dec (pref cap (nxt cap s) d) c) n) ->
  reshaped T T' p kp vp (fun c n => gg (count_occ Nat.eq_dec (pref cap s (S d)) c) n).
Proof.
  intros Hgg H0 Hne [HL P]. assert (Hs: s < length T) by (apply nth_error_Some; congruence).
  rewrite tupd_length in HL by exact Hs. split; [exact HL|]. intros c e Hc.
  specialize (P c). rewrite tupd_nth in P by exact Hs. rewrite pref_succ. destruct (c =? s) eqn:E.
  - apply Nat.eqb_eq in E. subst c. rewrite H0 in Hc. inversion Hc; subst e.
    rewrite (P _ eq_refl). apply Nat.eqb_neq in Hne. rewrite Hne.
    rewrite count_occ_cons_eq by reflexivity. now rewrite Hgg.
  - rewrite (P e Hc). apply Nat.eqb_neq in E. now rewrite count_occ_cons_neq by congruence.
Qed.

(* vacant cells never carry a skip count: holds while a table is only filled *)
Definition NoTomb (T : list id_entry) : Prop :=
  forall c e, nth_error T c = Some e -> ie_val e = None -> ie_skips e = 0.

Lemma ins_loop_char k id v asrt : forall d T s load fuel ed,
  length T = 2 ^ k -> s < 2 ^ k -> d < fuel ->
  (forall i, i < d -> exists e, nth_error T (path (2 ^ k) s i) = Some e /\ ie_live e = true) ->
  nth_error T (path (2 ^ k) s d) = Some ed -> ie_val ed = None ->
  (asrt = true -> ie_skips ed = 0) ->
  exists T', ins_loop T (2 ^ k) id v s load fuel asrt = IdOk (T', load + d + 1) /\
             reshaped T T' (path (2 ^ k) s d) id (Some v)
                      (fun c n => n + count_occ Nat.eq_dec (pref (2 ^ k) s d) c).
Proof.
  induction d as [|d IH]; intros T s load fuel ed HL Hs Hf Hocc Hd Hv Ha;
    (destruct fuel as [|f]; [lia|]); cbn [ins_loop].
  - cbn [path] in *. rewrite Hd, Hv.
    assert (A: asrt && negb (ie_skips ed =? 0) = false).
    { destruct asrt; [|reflexivity]. rewrite Ha by reflexivity. reflexivity. }
    rewrite A. eexists. split; [f_equal; f_equal; lia|].
    eapply reshaped_ext; [|exact (reshaped_write T s ed id (Some v) Hd)]. intros c n. cbn. lia.
  - destruct (Hocc 0 ltac:(lia)) as (e0 & He0 & L0). cbn [path] in He0. rewrite He0.
    destruct (live_val e0) as [LV _]. destruct (LV L0) as [v0 Hv0]. rewrite Hv0.
    assert (Hne: s <> path (2 ^ k) s (S d)).
    { intros E. rewrite <- E, He0 in Hd. inversion Hd; subst. congruence. }
    rewrite id_next_nxt.
    destruct (IH (tupd T s (mkIdEntry (ie_key e0) (S (ie_skips e0)) (Some v0))) (nxt (2 ^ k) s) (S load) f ed)
      as (T' & R & P).
    + rewrite tupd_length; lia.
    + apply nxt_lt, pow2_pos.
    + lia.
    + intros i Hi. rewrite <- path_succ_r, tupd_nth by lia. destruct (Hocc (S i) ltac:(lia)) as (e & He & Le).
      destruct (path (2 ^ k) s (S i) =? s); [|eauto]. eexists. split; reflexivity.
    + rewrite <- path_succ_r, tupd_nth by lia. destruct (path (2 ^ k) s (S d) =? s) eqn:E; [|exact Hd].
      apply Nat.eqb_eq in E. congruence.
    + exact Hv.
    + exact Ha.
    + exists T'. split; [rewrite R; f_equal; f_equal; lia|].
      rewrite <- path_succ_r, <- Hv0 in P.
      apply (reshaped_probe (2 ^ k) _ _ _ _ _ _ (fun m n => n + m) S d e0); [intros; lia|exact He0|exact Hne|exact P].
Qed.

Lemma first_vacant k T s : length T = 2 ^ k -> s < 2 ^ k -> sumf (2 ^ k) (lv T) < 2 ^ k ->
  exists d, d < 2 ^ k /\ lv T (path (2 ^ k) s d) = 0 /\ forall i, i < d -> lv T (path (2 ^ k) s i) <> 0.
Proof.
  intros HL Hs Hv.
  destruct (sumf_vacancy (2 ^ k) (lv T)) as (c & Hc & Hz); [|assumption|].
  { intros i _. unfold lv, lvb. destruct (nth_error T i) as [e|]; [destruct (ie_live e)|]; lia. }
  destruct (path_surj k s c Hs Hc) as (n & Hn & En).
  destruct (Wf_nat.dec_inh_nat_subset_has_unique_least_element (fun n => lv T (path (2 ^ k) s n) = 0))
    as (d & (Pd & Hmin) & _).
  - intros x. destruct (Nat.eq_dec (lv T (path (2 ^ k) s x)) 0); [now left|now right].
  - exists n. now rewrite En.
  - exists d. assert (d <= n) by (apply Hmin; now rewrite En). split; [lia|]. split; [assumption|].
    intros i Hi Hz'. specialize (Hmin i Hz'). lia.
Qed.

Lemma lv_live T p : lv T p <> 0 -> exists e, nth_error T p = Some e /\ ie_live e = true.
Proof.
  unfold lv, lvb. destruct (nth_error T p) as [e|]; [|lia]. destruct (ie_live e) eqn:E; [eauto|lia].
Qed.
Lemma lv_vacant T p : p < length T -> lv T p = 0 -> exists e, nth_error T p = Some e /\ ie_val e = None.
Proof.
  intros Hp. unfold lv, lvb. destruct (nth_error_lt T p Hp) as [e He]. rewrite He.
  destruct (ie_live e) eqn:E; [lia|]. intros _. exists e. split; [reflexivity|now apply dead_val].
Qed.

Section Stored.
Variables (k : nat) (T T' : list id_entry) (id v : N) (d cnt load : nat).
Let s := id_index (2 ^ k) id.
Let p := path (2 ^ k) s d.
Hypothesis HTb : Tbl k T cnt load.
Hypothesis Hd : d < 2 ^ k.
Hypothesis Hocc : forall i, i < d -> lv T (path (2 ^ k) s i) <> 0.
Hypothesis Hvac : lv T p = 0.
Hypothesis Hdead : forall c e, nth_error T c = Some e -> ie_live e = true -> ie_key e <> id.
Hypothesis HS : reshaped T T' p id (Some v) (fun c n => n + count_occ Nat.eq_dec (pref (2 ^ k) s d) c).

Let HL : length T = 2 ^ k := tb_len _ _ _ _ HTb.
Let Hs : s < 2 ^ k := id_index_lt k id.
Let Hp : p < 2 ^ k := path_lt _ _ _ (pow2_pos k) Hs.

Lemma st_vac : exists e, nth_error T p = Some e /\ ie_val e = None.
Proof. apply lv_vacant; [rewrite HL; exact Hp|exact Hvac]. Qed.

Lemma st_dist_p : dist (2 ^ k) s p = d.
Proof. apply dist_path; assumption. Qed.

Lemma st_Tbl : Tbl k T' (S cnt) (load + d + 1).
Proof.
  destruct st_vac as (e0 & H0 & V0). apply dead_val in V0.
  apply (rs_Tbl _ _ _ _ _ _ HS k e0 cnt load _ _ HTb H0); rewrite ?V0, ?HL; unfold Gcr, Gld; fold s; rewrite ?st_dist_p.
  - intros c e _ Hc L _. exact (Hdead c e Hc L).
  - discriminate.
  - intros c n _ _. lia.
  - lia.
  - lia.
Qed.

Lemma st_NoTomb : NoTomb T -> NoTomb T'.
Proof.
  destruct st_vac as (e0 & H0 & _).
  intros NT c e' Hc Hv. destruct (Nat.eq_dec c p) as [E|E].
  - subst c. rewrite (rs_at _ _ _ _ _ _ HS e0 H0) in Hc. inversion Hc; subst e'. discriminate.
  - destruct (rs_other _ _ _ _ _ _ HS c e' E Hc) as (e & He & Hk & Hv' & Sk). rewrite Sk.
    rewrite (NT c e He) by congruence. cbn [Nat.add].
    apply count_occ_not_In.
    intros Hin. apply pref_In in Hin. destruct Hin as (i & Hi & Ei).
    apply (Hocc i Hi). rewrite Ei. unfold lv. rewrite He. unfold lvb, ie_live. rewrite <- Hv', Hv. reflexivity.
Qed.

Lemma st_abs k' v' : In (k', v') (abs_list T') <-> (k' = id /\ v' = v) \/ In (k', v') (abs_list T).
Proof.
  destruct st_vac as (e0 & H0 & V0). rewrite (rs_abs _ _ _ _ _ _ HS e0 k' v' H0), abs_In. split.
  - intros [[E ->]|(c & e & _ & H)]; [left; split; congruence|right; eauto].
  - intros [[-> ->]|(c & e & Hc & Hk & Hv)]; [left; auto|]. right. exists c, e. repeat split; auto.
    intros ->. congruence.
Qed.
End Stored.

Lemma rm_loop_char k c : forall d T s load fuel,
  length T = 2 ^ k -> s < 2 ^ k -> d < fuel -> d < load ->
  (forall i, i < d -> path (2 ^ k) s i <> c) -> path (2 ^ k) s d = c ->
  (forall c', c' < 2 ^ k -> exists e, nth_error T c' = Some e /\
                                      count_occ Nat.eq_dec (pref (2 ^ k) s d) c' <= ie_skips e) ->
  exists T', rm_loop T (2 ^ k) c s load fuel = IdOk (T', load - d - 1) /\
    reshaped T T' c 0%N None (fun c' n => n - count_occ Nat.eq_dec (pref (2 ^ k) s d) c').
Proof.
  induction d as [|d IH]; intros T s load fuel HL Hs Hf Hl Hne Hd Hsk;
    (destruct fuel as [|f]; [lia|]); (destruct load as [|load']; [lia|]); cbn [rm_loop id_dec id_bind].
  - cbn [path] in Hd. subst c. destruct (Hsk s Hs) as (e & He & _). rewrite He, Nat.eqb_refl.
    eexists. split; [f_equal; f_equal; lia|].
    eapply reshaped_ext; [|exact (reshaped_write T s e 0%N None He)]. intros c' n. cbn. lia.
  - assert (Hsc: s <> c) by (apply (Hne 0); lia).
    destruct (Hsk s Hs) as (e0 & He0 & Hc0). rewrite He0.
    apply Nat.eqb_neq in Hsc. rewrite Hsc. apply Nat.eqb_neq in Hsc.
    rewrite pref_succ, count_occ_cons_eq in Hc0 by reflexivity.
    destruct (ie_skips e0) as [|sk] eqn:Esk; [lia|].
    rewrite id_next_nxt.
    destruct (IH (tupd T s (mkIdEntry (ie_key e0) sk (ie_val e0))) (nxt (2 ^ k) s) load' f) as (T' & R & P).
    + rewrite tupd_length; lia.
    + apply nxt_lt, pow2_pos.
    + lia.
    + lia.
    + intros i Hi. rewrite <- path_succ_r. apply Hne. lia.
    + now rewrite <- path_succ_r.
    + intros c' Hc'. rewrite tupd_nth by lia. destruct (c' =? s) eqn:E.
      * apply Nat.eqb_eq in E. subst c'. eexists. split; [reflexivity|]. cbn [ie_skips]. lia.
      * destruct (Hsk c' Hc') as (e & He & Hc). exists e. split; [assumption|].
        apply Nat.eqb_neq in E. rewrite pref_succ, count_occ_cons_neq in Hc by congruence. exact Hc.
    + exists T'. split; [rewrite R; f_equal; f_equal; lia|].
      change sk with (Nat.pred (S sk)) in P. rewrite <- Esk in P.
      apply (reshaped_probe (2 ^ k) _ _ _ _ _ _ (fun m n => n - m) Nat.pred d e0); [intros; lia|exact He0|exact Hsc|exact P].
Qed.

Section Removed.
Variables (k : nat) (T : list id_entry) (id : N) (c : nat) (ec : id_entry) (cnt load : nat).
Let s := id_index (2 ^ k) id.
Let d := dist (2 ^ k) s c.
Hypothesis HTb : Tbl k T cnt load.
Hypothesis Hc : nth_error T c = Some ec.
Hypothesis Lc : ie_live ec = true.
Hypothesis Kc : ie_key ec = id.

Let HL : length T = 2 ^ k := tb_len _ _ _ _ HTb.
Let HT : TInv T := tb_inv _ _ _ _ HTb.
Let Hs : s < 2 ^ k := id_index_lt k id.

Lemma rm_c_lt : c < 2 ^ k.
Proof. rewrite <- HL. apply nth_error_Some. congruence. Qed.

Lemma rm_skips_ge c' : c' < 2 ^ k -> exists e, nth_error T c' = Some e /\
  count_occ Nat.eq_dec (pref (2 ^ k) s d) c' <= ie_skips e.
Proof.
  intros H. destruct (nth_error_lt T c') as [e He]; [lia|]. exists e. split; [assumption|].
  rewrite (ti_skips T HT c' e He), HL. pose proof (cellf_le_sum (Gcr c') T c ec Hc) as X. rewrite Lc, Kc, HL in X. exact X.
Qed.

Lemma rm_load_ge : d < load.
Proof.
  rewrite (tb_load _ _ _ _ HTb). pose proof (cellf_le_sum Gld T c ec Hc) as X. rewrite Lc, Kc, HL in X. exact X.
Qed.

Section Result.
Variable T' : list id_entry.
Hypothesis HR : reshaped T T' c 0%N None (fun c' n => n - count_occ Nat.eq_dec (pref (2 ^ k) s d) c').

Lemma rm_Tbl cnt' : S cnt' = cnt -> Tbl k T' cnt' (load - d - 1).
Proof.
  intros Hcnt. pose proof rm_load_ge as LG.
  apply (rs_Tbl _ _ _ _ _ _ HR k ec cnt load _ _ HTb Hc); rewrite ?Lc, ?Kc, ?HL; unfold Gcr, Gld; fold s; fold d.
  - intros c' e _ _ _ E. now elim E.
  - reflexivity.
  - intros c' n _. lia.
  - lia.
  - lia.
Qed.

Lemma rm_abs k' v' : In (k', v') (abs_list T') <-> In (k', v') (abs_list T) /\ k' <> id.
Proof.
  rewrite (rs_abs _ _ _ _ _ _ HR ec k' v' Hc), <- Kc, <- (abs_In_off T c ec k' v' (ti_uniq T HT) Hc Lc).
  split; [intros [[E _]|H]; [discriminate|exact H]|auto].
Qed.
End Result.

Lemma rm_spec : exists T', rm_loop T (2 ^ k) c s load (2 ^ k) = IdOk (T', load - d - 1) /\
  (forall cnt', S cnt' = cnt -> Tbl k T' cnt' (load - d - 1)) /\
  forall k' v', In (k', v') (abs_list T') <-> In (k', v') (abs_list T) /\ k' <> id.
Proof.
  destruct (dist_spec k s c Hs rm_c_lt) as (Dlt & Dp & Dmin).
  destruct (rm_loop_char k c d T s load (2 ^ k) HL Hs Dlt rm_load_ge Dmin Dp rm_skips_ge) as (T' & RL & HR).
  exists T'. split; [exact RL|]. split; [exact (rm_Tbl T' HR)|exact (rm_abs T' HR)].
Qed.
End Removed.

Lemma grow_cap_spec target : forall fuel c j, c = 2 ^ j -> 1 <= fuel -> target <= c * 2 ^ (fuel - 1) ->
  exists j', j <= j' /\ grow_cap c target fuel = IdOk (2 ^ j') /\ target <= 2 ^ j'.
Proof.
  induction fuel as [|f IH]; intros c j Hc Hf Ht; [lia|]. cbn [grow_cap].
  destruct (c <? target) eqn:E.
  - apply Nat.ltb_lt in E. replace (S f - 1) with f in Ht by lia.
    destruct f as [|f']. { cbn in Ht. lia. }
    destruct (IH (c * 2) (S j)) as (j' & Hj & R & Hle).
    + subst c. cbn [Nat.pow]. lia.
    + lia.
    + replace (S f' - 1) with f' by lia. cbn [Nat.pow] in Ht. lia.
    + exists j'. split; [lia|]. split; assumption.
  - apply Nat.ltb_ge in E. exists j. subst c. split; [lia|]. split; [reflexivity|assumption].
Qed.

Lemma lv_le_ld T i : lv T i <= ld T i.
Proof. unfold lv, ld, lvb. destruct (nth_error T i) as [e|]; [destruct (ie_live e)|]; lia. Qed.

Lemma sumf_le n f g : (forall i, i < n -> f i <= g i) -> sumf n f <= sumf n g.
Proof.
  induction n as [|n IH]; intros H; [cbn; lia|]. rewrite !sumf_S.
  specialize (IH (fun i Hi => H i (Nat.lt_lt_succ_r _ _ Hi))). specialize (H n ltac:(lia)). lia.
Qed.

Lemma ins_spec k T id v cnt load asrt :
  Tbl k T cnt load -> cnt < 2 ^ k -> ~ In id (map fst (abs_list T)) -> (asrt = true -> NoTomb T) ->
  exists T' d, d < 2 ^ k /\
    ins_loop T (2 ^ k) id v (id_index (2 ^ k) id) load (2 ^ k) asrt = IdOk (T', load + d + 1) /\
    Tbl k T' (S cnt) (load + d + 1) /\ (NoTomb T -> NoTomb T') /\
    (forall k' v', In (k', v') (abs_list T') <-> (k' = id /\ v' = v) \/ In (k', v') (abs_list T)).
Proof.
  intros HTb Hroom Hnew Hnt. pose proof (tb_len _ _ _ _ HTb) as HL.
  pose proof (id_index_lt k id) as Hs.
  destruct (first_vacant k T _ HL Hs) as (d & Hd & Hvac & Hocc); [now rewrite <- (tb_cnt _ _ _ _ HTb)|].
  destruct (st_vac k T id d cnt load HTb Hvac) as (ed & Hed & Ved).
  destruct (ins_loop_char k id v asrt d T (id_index (2 ^ k) id) load (2 ^ k) ed HL Hs Hd) as (T' & R & HS).
  - intros i Hi. apply lv_live. apply Hocc. exact Hi.
  - exact Hed.
  - exact Ved.
  - intros A. apply (Hnt A _ _ Hed Ved).
  - pose proof (dead_of_notin T id Hnew) as Hdead.
    exists T', d. split; [exact Hd|]. split; [exact R|].
    split; [apply (st_Tbl k T T' id v d cnt load); assumption|].
    split; [apply (st_NoTomb k T T' id v d cnt load); assumption|].
    intros k' v'. apply (st_abs k T T' id v d cnt load); assumption.
Qed.

Lemma rehash_spec k : forall old N cnt load,
  Tbl k N cnt load -> NoTomb N -> cnt + length (abs_list old) < 2 ^ k ->
  NoDup (map fst (abs_list old)) ->
  (forall k', In k' (map fst (abs_list old)) -> ~ In k' (map fst (abs_list N))) ->
  exists N' load', rehash old N (2 ^ k) load = IdOk (N', load') /\
    Tbl k N' (cnt + length (abs_list old)) load' /\
    (forall k' v', In (k', v') (abs_list N') <-> In (k', v') (abs_list N) \/ In (k', v') (abs_list old)).
Proof.
  induction old as [|e rest IH]; intros N cnt load HTb NT Hroom ND Hdisj; cbn [rehash].
  - exists N, load. split; [reflexivity|]. cbn [abs_list flat_map length]. rewrite Nat.add_0_r.
    split; [exact HTb|]. intros k' v'. cbn. tauto.
  - cbn [abs_list flat_map] in *. fold (abs_list rest) in *.
    destruct (ie_val e) as [v|] eqn:Ev.
    + cbn [app map fst length] in *. apply NoDup_cons_iff in ND. destruct ND as [Hnin ND'].
      destruct (ins_spec k N (ie_key e) v cnt load true HTb ltac:(lia)) as (N1 & d & _ & R & HTb1 & NT1 & A1).
      { apply Hdisj. now left. }
      { intros _. exact NT. }
      rewrite R. cbn [id_bind].
      destruct (IH N1 (S cnt) (load + d + 1) HTb1 (NT1 NT)) as (N' & load' & R' & HTb' & A').
      * lia.
      * exact ND'.
      * intros k' Hin Hin1. apply in_map_iff in Hin1. destruct Hin1 as ([k2 v2] & Hk2 & Hin1). cbn in Hk2. subst k2.
        apply A1 in Hin1. destruct Hin1 as [[-> _]|Hin1]; [contradiction|].
        apply (Hdisj k'); [now right|]. apply in_map_iff. exists (k', v2). auto.
      * exists N', load'. split; [exact R'|]. rewrite <- Nat.add_succ_comm. split; [exact HTb'|].
        intros k' v'. rewrite A', A1. split.
        -- intros [[[-> ->]|H]|H]; auto. right. now left. right. now right.
        -- intros [H|[H|H]]; auto. inversion H; subst. auto.
    + cbn [app] in *. apply IH; auto.
Qed.

Lemma abs_list_fresh n : abs_list (repeat ie_empty n) = [].
Proof. induction n as [|n IH]; [reflexivity|]. cbn. exact IH. Qed.

Lemma fresh_table k : Tbl k (repeat ie_empty (2 ^ k)) 0 0 /\ NoTomb (repeat ie_empty (2 ^ k)).
Proof.
  set (F := repeat ie_empty (2 ^ k)).
  assert (G: forall i e, nth_error F i = Some e -> e = ie_empty).
  { intros i e H. apply nth_error_In in H. now apply repeat_spec in H. }
  assert (Z: forall H n, sumf n (cellf H F) = 0).
  { intros H n. apply sumf_zero. intros i _. unfold cellf. destruct (nth_error F i) eqn:E; [|reflexivity].
    apply G in E. now subst. }
  split; [split|].
  - apply repeat_length.
  - split.
    + intros i j ei ej Hi Hj Li. apply G in Hi. subst. discriminate.
    + intros c e Hc. apply G in Hc. subst. symmetry. apply (Z (Gcr c)).
    + intros c e Hc _. apply G in Hc. now subst.
  - symmetry. apply (Z (fun _ _ _ => 1)).
  - symmetry. apply (Z Gld).
  - intros c e Hc _. apply G in Hc. now subst.
Qed.

(* the part of a map the invariant and the abstraction look at *)
Definition same_core (m m' : id_map) : Prop :=
  id_entries m' = id_entries m /\ id_count m' = id_count m /\ id_load m' = id_load m /\
  id_min_load m' = id_min_load m /\ id_max_load m' = id_max_load m.
Definition same_range (m m' : id_map) : Prop :=
  id_min_val m' = id_min_val m /\ id_max_val m' = id_max_val m /\ id_random m' = id_random m /\
  id_dyn_val m' = id_dyn_val m.

Lemma MInv_core m m' : same_core m m' -> MInv m -> MInv m'.
Proof.
  intros (E1 & E2 & E3 & E4 & E5) [A B C D E]. split; unfold thresholds_ok, id_cap in *;
    rewrite ?E1, ?E2, ?E3, ?E4, ?E5; assumption.
Qed.

Lemma MInv_Tbl m k : MInv m -> id_cap m = 2 ^ k -> Tbl k (id_entries m) (id_count m) (id_load m).
Proof.
  intros HI Hc. split; [exact Hc|apply (mi_tinv m HI)|rewrite <- Hc; apply (mi_count m HI)|rewrite <- Hc; apply (mi_load m HI)].
Qed.

Lemma MInv_set_table m k T' cnt load : MInv m -> id_cap m = 2 ^ k -> Tbl k T' cnt load ->
  MInv (set_table m T' cnt load).
Proof.
  intros [A B C D E] Hc [HL' HT' -> ->]. split; unfold thresholds_ok, id_cap in *;
    cbn [set_table id_entries id_count id_load id_min_load id_max_load]; rewrite ?HL', <- ?Hc; auto.
Qed.

Lemma MInv_count_le_load m : MInv m -> id_count m <= id_load m.
Proof.
  intros HI. rewrite (mi_count m HI), (mi_load m HI). apply sumf_le. intros; apply lv_le_ld.
Qed.

Lemma MInv_max_le_cap m : MInv m -> id_max_load m <= id_cap m.
Proof. intros HI. destruct (mi_thr m HI) as [(A & B & C)|[(A & B & C)|(A & B & C)]]; lia. Qed.

Definition abs_same (m m' : id_map) : Prop :=
  forall k v, In (k, v) (abs_list (id_entries m')) <-> In (k, v) (abs_list (id_entries m)).

Lemma id_resize_spec m fail : MInv m ->
  exists rv m', id_resize m fail = IdOk (rv, m') /\ MInv m' /\ abs_same m m' /\
    id_count m' = id_count m /\ same_range m m' /\
    ((rv = 0%N /\ id_count m' < id_cap m') \/ (rv = id_ENOMEM /\ fail = true)).
Proof.
  intros HI. unfold id_resize, id_new_cap, id_thresholds.
  destruct ((id_load m <? id_max_load m) && (id_min_load m <=? id_load m)) eqn:Ethr.
  { exists 0%N, m. split; [reflexivity|]. split; [assumption|]. split; [intros ? ?; tauto|]. split; [reflexivity|].
    split; [repeat split|]. left. split; [reflexivity|].
    apply andb_true_iff in Ethr. destruct Ethr as [E1 _]. apply Nat.ltb_lt in E1.
    pose proof (MInv_count_le_load m HI). pose proof (MInv_max_le_cap m HI). lia. }
  set (m0 := if id_static m then set_registered m else m).
  assert (C0: same_core m m0) by (unfold m0; destruct (id_static m); repeat split).
  assert (R0: same_range m m0) by (unfold m0; destruct (id_static m); repeat split).
  assert (HI0: MInv m0) by (eapply MInv_core; eauto).
  destruct C0 as (E1 & E2 & E3 & E4 & E5).
  destruct (grow_cap_spec (id_count m0 * 2) (S (id_count m0)) ID_MIN_CAP 3 eq_refl ltac:(lia)) as (j & Hj & RG & Hle).
  { replace (S (id_count m0) - 1) with (id_count m0) by lia.
    pose proof (Nat.pow_gt_lin_r 2 (id_count m0) ltac:(lia)). unfold ID_MIN_CAP. lia. }
  rewrite RG. cbn [id_bind].
  assert (Hpow: 8 <= 2 ^ j).
  { replace 8 with (2 ^ 3) by reflexivity. apply Nat.pow_le_mono_r; lia. }
  destruct (2 ^ j =? id_cap m0) eqn:Esame.
  { apply Nat.eqb_eq in Esame. exists 0%N, m0. split; [reflexivity|]. split; [assumption|].
    split; [intros ? ?; rewrite E1; tauto|]. split; [assumption|]. split; [assumption|].
    left. split; [reflexivity|]. lia. }
  destruct fail.
  { exists id_ENOMEM, m0. split; [reflexivity|]. split; [assumption|].
    split; [intros ? ?; rewrite E1; tauto|]. split; [assumption|]. split; [assumption|]. right. auto. }
  destruct (fresh_table j) as (FT & FN).
  destruct (rehash_spec j (id_entries m0) (repeat ie_empty (2 ^ j)) 0 0 FT FN) as (N' & load' & RH & [HL' HT' Cnt Hl'] & A').
  - cbn [Nat.add]. rewrite abs_length. fold (id_cap m0). rewrite <- (mi_count m0 HI0). lia.
  - apply abs_NoDup, (mi_tinv m0 HI0).
  - intros k' _. rewrite abs_list_fresh. auto.
  - rewrite RH. cbn [id_bind]. cbn [Nat.add] in Cnt. rewrite abs_length in Cnt. fold (id_cap m0) in Cnt.
    rewrite <- (mi_count m0 HI0) in Cnt.
    destruct (if ID_MIN_CAP <? 2 ^ j then _ else _) as [minl maxl] eqn:Ethr2.
    eexists 0%N, _. split; [reflexivity|].
    split; [|split; [|split; [exact E2|split; [exact R0|left; split; [reflexivity|]]]]].
    + split; unfold thresholds_ok, id_cap; cbn [id_entries id_count id_load id_min_load id_max_load]; rewrite ?HL'; auto.
      * right. exists j. split; [lia|reflexivity].
      * destruct (ID_MIN_CAP <? 2 ^ j) eqn:Ebig; inversion Ethr2; subst; unfold ID_MIN_CAP, ID_SMALL_MAX_LOAD in *.
        -- apply Nat.ltb_lt in Ebig. right. right. auto.
        -- apply Nat.ltb_ge in Ebig. right. left. split; [lia|auto].
    + intros k' v'. cbn [id_entries]. rewrite A', abs_list_fresh, E1. cbn. tauto.
    + unfold id_cap. cbn [id_count id_entries]. rewrite HL'. lia.
Qed.

Section Overwrite.
Variables (T : list id_entry) (c : nat) (e : id_entry) (v : N).
Hypothesis HT : TInv T.
Hypothesis Hc : nth_error T c = Some e.
Hypothesis Lc : ie_live e = true.
Let T' := tupd T c (mkIdEntry (ie_key e) (ie_skips e) (Some v)).

Lemma ow_reshaped : reshaped T T' c (ie_key e) (Some v) (fun _ n => n).
Proof. exact (reshaped_write T c e _ _ Hc). Qed.

Lemma ow_Tbl k cnt load : Tbl k T cnt load -> Tbl k T' cnt load.
Proof.
  intros HTb. apply (rs_Tbl _ _ _ _ _ _ ow_reshaped k e cnt load _ _ HTb Hc); rewrite ?Lc; auto.
  - intros i e0 Hne Hi Li _ K. apply Hne. apply (ti_uniq T HT i c e0 e); auto.
  - discriminate.
Qed.

Lemma ow_abs k' v' : In (k', v') (abs_list T') <->
  (k' = ie_key e /\ v' = v) \/ (In (k', v') (abs_list T) /\ k' <> ie_key e).
Proof.
  rewrite (rs_abs _ _ _ _ _ _ ow_reshaped e k' v' Hc), (abs_In_off T c e k' v' (ti_uniq T HT) Hc Lc).
  split; (intros [[A B]|H]; [left; split; congruence|right; exact H]).
Qed.
End Overwrite.

Lemma MInv_pow2 m : MInv m -> 0 < id_cap m -> exists k, 3 <= k /\ id_cap m = 2 ^ k.
Proof. intros HI H. destruct (mi_cap m HI) as [Z|X]; [lia|exact X]. Qed.

Definition set_pairs (m m' : id_map) (id v : N) : Prop :=
  forall k' v', In (k', v') (abs_list (id_entries m')) <->
                (k' = id /\ v' = v) \/ (In (k', v') (abs_list (id_entries m)) /\ k' <> id).

Lemma id_set_spec m id v fail : MInv m ->
  exists rv m', id_set m id v fail = IdOk (rv, m') /\ MInv m' /\ same_range m m' /\
    ((rv = 0%N /\ set_pairs m m' id v) \/
     (rv = id_ENOMEM /\ fail = true /\ abs_same m m' /\ id_count m' = id_count m)).
Proof.
  intros HI. unfold id_set.
  destruct (id_resize_spec m fail HI) as (rv0 & m1 & R & HI1 & AS & CS & RS & [[-> Hvac]|[-> Hf]]);
    rewrite R; cbn [id_bind N.eqb negb].
  2:{ exists id_ENOMEM, m1. split; [reflexivity|]. split; [assumption|]. split; [assumption|]. right. auto. }
  destruct (MInv_pow2 m1 HI1 ltac:(lia)) as (k & Hk & Hcap).
  destruct (id_find_spec m1 id HI1) as [(c & e & F & Hc & L & K)|[F D]]; rewrite F; cbn [id_bind].
  - rewrite Hc. eexists 0%N, _. split; [reflexivity|].
    split; [|split; [exact RS|left; split; [reflexivity|]]].
    + exact (MInv_set_table m1 k _ _ _ HI1 Hcap (ow_Tbl _ c e v (mi_tinv m1 HI1) Hc L k _ _ (MInv_Tbl m1 k HI1 Hcap))).
    + intros k' v'. cbn [set_table id_entries]. rewrite (ow_abs _ c e v (mi_tinv m1 HI1) Hc L k' v'), K.
      rewrite (AS k' v'). reflexivity.
  - rewrite Hcap.
    destruct (ins_spec k (id_entries m1) id v (id_count m1) (id_load m1) false (MInv_Tbl m1 k HI1 Hcap))
      as (T' & d & _ & RI & HTb' & _ & A').
    + lia.
    + exact D.
    + discriminate.
    + rewrite RI. cbn [id_bind]. eexists 0%N, _. split; [reflexivity|].
      split; [|split; [exact RS|left; split; [reflexivity|]]].
      * exact (MInv_set_table m1 k _ _ _ HI1 Hcap HTb').
      * intros k' v'. cbn [set_table id_entries]. rewrite (A' k' v'), (AS k' v'). split.
        -- intros [H|H]; [auto|]. right. split; [assumption|]. intros ->.
           apply D. apply in_map_iff. exists (id, v'). split; [reflexivity|]. now apply AS.
        -- tauto.
Qed.

Definition remove_pairs (m m' : id_map) (id : N) : Prop :=
  forall k' v', In (k', v') (abs_list (id_entries m')) <-> In (k', v') (abs_list (id_entries m)) /\ k' <> id.

Lemma id_remove_spec m id fail : MInv m ->
  exists rv m', id_remove m id fail = IdOk (rv, m') /\ MInv m' /\ same_range m m' /\
    ((rv = id_ENOENT /\ m' = m /\ ~ In id (map fst (abs_list (id_entries m)))) \/
     (rv = 0%N /\ In id (map fst (abs_list (id_entries m))) /\ remove_pairs m m' id /\ S (id_count m') = id_count m)).
Proof.
  intros HI. unfold id_remove.
  destruct (id_find_spec m id HI) as [(c & e & F & Hc & L & K)|[F D]]; rewrite F; cbn [id_bind].
  2:{ exists id_ENOENT, m. split; [reflexivity|]. split; [assumption|]. split; [repeat split|]. left. auto. }
  assert (Hlt: c < id_cap m) by (apply nth_error_Some; congruence).
  destruct (MInv_pow2 m HI ltac:(lia)) as (k & Hk & Hcap).
  pose proof (live_counted _ c e Hc L) as CP. fold (id_cap m) in CP. rewrite <- (mi_count m HI) in CP.
  pose proof (MInv_Tbl m k HI Hcap) as HTb. rewrite Hcap.
  destruct (rm_spec k (id_entries m) id c e _ _ HTb Hc L K) as (T' & RL & HTb' & A').
  rewrite RL. cbn [id_bind].
  destruct (id_count m) as [|cnt] eqn:Ecnt; [lia|]. cbn [id_dec id_bind].
  set (m2 := set_table m T' cnt (id_load m - dist (2 ^ k) (id_index (2 ^ k) id) c - 1)).
  assert (HI2: MInv m2) by exact (MInv_set_table m k _ _ _ HI Hcap (HTb' cnt eq_refl)).
  destruct (id_resize_spec m2 fail HI2) as (rv0 & m' & R & HI' & AS & CS & RS & _).
  rewrite R. cbn [id_bind]. exists 0%N, m'. split; [reflexivity|]. split; [assumption|].
  split; [exact RS|]. right. split; [reflexivity|].
  split; [|split].
  - apply abs_keys. eauto.
  - intros k' v'. rewrite (AS k' v'). exact (A' k' v').
  - rewrite CS. reflexivity.
Qed.

Fixpoint first_live (l : list id_entry) (index : nat) : option (N * N) * nat :=
  match l with
  | [] => (None, index)
  | e :: r => match ie_val e with
              | Some v => (Some (ie_key e, v), S index)
              | None => first_live r (S index)
              end
  end.

Lemma visit_loop_spec T : forall fuel index, length T - index < fuel ->
  visit_loop T index fuel = IdOk (first_live (skipn index T) index).
Proof.
  induction fuel as [|f IH]; intros index Hf; [lia|]. cbn [visit_loop].
  destruct (index <? length T) eqn:E.
  - apply Nat.ltb_lt in E. destruct (nth_error_lt T index E) as [e He]. rewrite He.
    rewrite (skipn_nth_cons T index e He). cbn [first_live]. destruct (ie_val e); [reflexivity|].
    apply IH. lia.
  - apply Nat.ltb_ge in E. rewrite skipn_all2 by lia. reflexivity.
Qed.

Lemma first_live_spec : forall l index,
  match first_live l index with
  | (None, _) => abs_list l = []
  | (Some kv, c') => exists j, c' = S (index + j) /\ j < length l /\ abs_list l = kv :: abs_list (skipn (S j) l)
  end.
Proof.
  induction l as [|e r IH]; intros index; cbn [first_live]; [reflexivity|].
  cbn [abs_list flat_map]. fold (abs_list r). destruct (ie_val e) as [v|] eqn:Ev.
  - exists 0. cbn. repeat split; [lia|lia].
  - specialize (IH (S index)). destruct (first_live r (S index)) as [[kv|] c'].
    + destruct IH as (j & -> & Hj & E). exists (S j). cbn [length app skipn]. repeat split; [lia|lia|exact E].
    + exact IH.
Qed.

Lemma visit_all_loop_spec m : forall fuel cursor, id_cap m - cursor < fuel ->
  visit_all_loop m cursor fuel = IdOk (abs_list (skipn cursor (id_entries m))).
Proof.
  induction fuel as [|f IH]; intros cursor Hf; [lia|]. cbn [visit_all_loop]. unfold id_visit.
  rewrite visit_loop_spec by (fold (id_cap m); lia). cbn [id_bind].
  pose proof (first_live_spec (skipn cursor (id_entries m)) cursor) as P.
  destruct (first_live (skipn cursor (id_entries m)) cursor) as [[kv|] c'].
  - destruct P as (j & -> & Hj & E). rewrite skipn_length in Hj. fold (id_cap m) in Hj.
    rewrite IH by lia. cbn [id_bind]. rewrite E, skipn_skipn'. replace (S (cursor + j)) with (S j + cursor)%nat by lia. reflexivity.
  - now rewrite P.
Qed.

Lemma id_visit_all_spec m : id_visit_all m = IdOk (abs_list (id_entries m)).
Proof. unfold id_visit_all. rewrite visit_all_loop_spec by lia. reflexivity. Qed.

Local Open Scope N_scope.

Lemma cyc_succ_range lo hi x : lo <= x <= hi -> lo <= cyc_succ lo hi x <= hi.
Proof. intros H. unfold cyc_succ. destruct (hi <? x + 1) eqn:E; [lia|]. apply N.ltb_ge in E. lia. Qed.

Lemma mod_shift_neq R y d : 0 < d -> d < R -> (y + d) mod R <> y mod R.
Proof.
  intros Hd HR. rewrite <- N.add_mod_idemp_l by lia.
  pose proof (N.mod_lt y R ltac:(lia)) as Hr. revert Hr. generalize (y mod R). intros r Hr.
  destruct (N.lt_ge_cases (r + d) R) as [L|L].
  - rewrite N.mod_small by assumption. lia.
  - replace (r + d) with (r + d - R + 1 * R) by lia. rewrite N.mod_add, N.mod_small by lia. lia.
Qed.

Lemma cyc_iter_closed lo hi : lo <= hi -> forall n x, lo <= x <= hi ->
  cyc_iter lo hi n x = lo + (x - lo + N.of_nat n) mod (hi - lo + 1).
Proof.
  intros Hlh. induction n as [|n IH]; intros x Hx.
  - cbn [cyc_iter]. rewrite N.add_0_r, N.mod_small by lia. lia.
  - cbn [cyc_iter]. rewrite IH by (now apply cyc_succ_range). f_equal.
    unfold cyc_succ. destruct (hi <? x + 1) eqn:E.
    + apply N.ltb_lt in E. assert (x = hi) by lia. subst x.
      replace (hi - lo + N.of_nat (S n)) with (N.of_nat n + 1 * (hi - lo + 1)) by lia.
      rewrite N.mod_add by lia. f_equal. lia.
    + apply N.ltb_ge in E. f_equal. lia.
Qed.

Lemma cyc_iter_range lo hi n x : lo <= hi -> lo <= x <= hi -> lo <= cyc_iter lo hi n x <= hi.
Proof.
  intros Hlh Hx. rewrite cyc_iter_closed by assumption.
  pose proof (N.mod_lt (x - lo + N.of_nat n) (hi - lo + 1) ltac:(lia)). lia.
Qed.

(* the first hi-lo+1 iterates are pairwise distinct: the cursor passes over every id
   of the range before it comes back *)
Lemma cyc_iter_inj lo hi x i j : lo <= hi -> lo <= x <= hi ->
  (i < j)%nat -> N.of_nat j < N.of_nat i + (hi - lo + 1) -> cyc_iter lo hi i x <> cyc_iter lo hi j x.
Proof.
  intros Hlh Hx Hij Hj. rewrite !cyc_iter_closed by assumption.
  replace (N.of_nat j) with (N.of_nat i + (N.of_nat j - N.of_nat i)) by lia.
  rewrite N.add_assoc. intros E. apply N.add_cancel_l in E. symmetry in E.
  revert E. apply mod_shift_neq; lia.
Qed.

(* n: how many ids the search passes over *)
Lemma first_free_spec s lo hi : forall fuel x, exists n,
  (forall i, (i < n)%nat -> am_mem s (cyc_iter lo hi i x) = true) /\
  match first_free s lo hi x fuel with
  | Some (id, cur) => id = cyc_iter lo hi n x /\ cur = cyc_iter lo hi (S n) x /\ am_mem s id = false
  | None => n = fuel
  end.
Proof.
  induction fuel as [|f IH]; intros x; cbn [first_free]; [exists 0%nat; split; [lia|reflexivity]|].
  destruct (am_mem s x) eqn:E.
  - destruct (IH (cyc_succ lo hi x)) as (n & P & H). exists (S n). split.
    + intros [|i] Hi; [exact E|]. apply P. lia.
    + destruct (first_free s lo hi (cyc_succ lo hi x) f) as [[id cur]|]; [exact H|now f_equal].
  - exists 0%nat. split; [lia|]. repeat split. exact E.
Qed.

(* pigeonhole: the ids passed over are distinct live keys, so there are at most count of them *)
Lemma busy_run_le s lo hi x n : lo <= x <= hi -> N.of_nat (length s) <= hi - lo ->
  (forall i, (i < n)%nat -> am_mem s (cyc_iter lo hi i x) = true) -> (n <= length s)%nat.
Proof.
  intros Hx Hlen A. destruct (Nat.le_gt_cases n (length s)) as [|Hgt]; [assumption|exfalso].
  set (L := map (fun i => cyc_iter lo hi i x) (seq 0 (S (length s)))).
  assert (ND: NoDup L).
  { apply NoDup_map_inj_on; [apply seq_NoDup|]. intros a b Ha Hb Eab. apply in_seq in Ha, Hb.
    destruct (Nat.lt_trichotomy a b) as [Lt|[Eq|Lt]]; [|assumption|]; exfalso.
    - revert Eab. apply cyc_iter_inj; lia.
    - symmetry in Eab. revert Eab. apply cyc_iter_inj; lia. }
  assert (IN: incl L (map fst s)).
  { intros y Hy. apply in_map_iff in Hy. destruct Hy as (i & <- & Hi). apply in_seq in Hi.
    apply am_mem_true_iff. apply A. lia. }
  pose proof (NoDup_incl_length ND IN) as LE. unfold L in LE. rewrite !map_length, seq_length in LE. lia.
Qed.

Lemma u64_sub_plain a b : b <= a -> a < U64 -> u64_sub a b = a - b.
Proof.
  intros H1 H2. unfold u64_sub. rewrite (N.mod_small b) by lia.
  replace (a + U64 - b) with ((a - b) + 1 * U64) by lia. rewrite N.mod_add by (unfold U64; lia).
  apply N.mod_small. lia.
Qed.
Lemma u64_add_plain a b : a + b < U64 -> u64_add a b = a + b.
Proof. intros H. unfold u64_add. now apply N.mod_small. Qed.

Lemma model_succ fixed m dyn : RInv fixed m -> id_min_val m <= dyn <= id_max_val m ->
  (if (id_max_val m <? u64_add dyn 1) || (fixed && (u64_add dyn 1 =? 0)) then id_min_val m else u64_add dyn 1)
  = cyc_succ (id_min_val m) (id_max_val m) dyn.
Proof.
  intros [H1 H2 H3 H4 H5] Hd. unfold cyc_succ.
  destruct (N.lt_ge_cases (dyn + 1) U64) as [L|L].
  - rewrite u64_add_plain by assumption.
    destruct (id_max_val m <? dyn + 1) eqn:E; [reflexivity|].
    assert ((dyn + 1 =? 0) = false) by (apply N.eqb_neq; lia). rewrite H. now rewrite andb_false_r.
  - assert (EU: dyn + 1 = U64) by lia. unfold u64_add. rewrite EU, N.mod_same by (unfold U64; lia).
    destruct H4 as [->|H4]; [|lia]. cbn [andb N.eqb orb].
    assert (X1: (id_max_val m <? 0) = false) by (apply N.ltb_ge; lia). rewrite X1. cbn [orb].
    assert (X2: (id_max_val m <? U64) = true) by (apply N.ltb_lt; lia). now rewrite X2.
Qed.

Lemma find_mem m id : MInv m ->
  (exists c, id_find m id = IdOk (Some c) /\ am_mem (abs_list (id_entries m)) id = true) \/
  (id_find m id = IdOk None /\ am_mem (abs_list (id_entries m)) id = false).
Proof.
  intros HI. destruct (id_find_spec m id HI) as [(c & e & F & Hc & L & K)|[F D]].
  - left. exists c. split; [assumption|]. apply am_mem_true_iff, abs_keys. eauto.
  - right. split; [assumption|]. destruct (am_mem (abs_list (id_entries m)) id) eqn:E; [|reflexivity].
    apply am_mem_true_iff in E. contradiction.
Qed.

Lemma alloc_loop_spec fixed m : MInv m -> RInv fixed m -> forall fuel dyn,
  id_min_val m <= dyn <= id_max_val m ->
  alloc_loop fixed m dyn fuel =
  match first_free (abs_list (id_entries m)) (id_min_val m) (id_max_val m) dyn fuel with
  | Some r => IdOk r
  | None => IdErr IdFuel
  end.
Proof.
  intros HI HR. induction fuel as [|f IH]; intros dyn Hd; [reflexivity|].
  cbn [alloc_loop first_free]. rewrite (model_succ fixed m dyn HR Hd).
  destruct (find_mem m dyn HI) as [(c & F & M)|[F M]]; rewrite F, M; cbn [id_bind].
  - apply IH. apply cyc_succ_range. exact Hd.
  - reflexivity.
Qed.
Local Close Scope N_scope.

Lemma equiv_from_pairs (a b : id_amap) : NoDup (map fst a) -> NoDup (map fst b) ->
  (forall k v, In (k, v) a <-> In (k, v) b) -> am_equiv a b /\ length a = length b.
Proof.
  intros Ha Hb H. split; [now apply am_equiv_of_In|].
  apply Permutation_length. apply NoDup_Permutation.
  - eapply NoDup_map_inv; eauto.
  - eapply NoDup_map_inv; eauto.
  - intros [k v]. apply H.
Qed.

Lemma abs_count m : MInv m -> length (abs_list (id_entries m)) = id_count m.
Proof. intros HI. rewrite abs_length. symmetry. apply (mi_count m HI). Qed.

Lemma abs_keys_NoDup m : MInv m -> NoDup (map fst (abs_list (id_entries m))).
Proof. intros HI. apply abs_NoDup, (mi_tinv m HI). Qed.

(* the state after an operation, from its pairs, range and cursor *)
Lemma abs_equiv m m' b : MInv m' -> same_range m m' ->
  NoDup (map fst b) -> (forall k v, In (k, v) (abs_list (id_entries m')) <-> In (k, v) b) ->
  id_spec_equiv (abs m') (sp_with (abs m) b (id_dyn_val m)).
Proof.
  intros HI' (A & B & C & D) ND P.
  destruct (equiv_from_pairs _ b (abs_keys_NoDup m' HI') ND P) as [E1 E2]. repeat split; cbn; auto.
Qed.

Lemma spec_equiv_refl s : id_spec_equiv s s.
Proof. repeat split; auto. Qed.

Lemma RInv_range fixed m m' : same_range m m' -> RInv fixed m -> RInv fixed m'.
Proof. intros (A & B & C & D) [H1 H2 H3 H4 H5]. split; rewrite ?A, ?B, ?D; assumption. Qed.

Lemma same_range_refl m : same_range m m.
Proof. repeat split. Qed.
Lemma same_range_trans a b c : same_range a b -> same_range b c -> same_range a c.
Proof. intros (A & B & C & D) (A' & B' & C' & D'). repeat split; congruence. Qed.

Lemma set_refines fixed m k v f : Inv fixed m ->
  exists rv m', id_set m k v f = IdOk (rv, m') /\ Inv fixed m' /\
                id_spec_rel (abs m) (IoSet k v f) (OutRv rv) (abs m').
Proof.
  intros [HI HR]. destruct (id_set_spec m k v f HI) as (rv & m' & R & HI' & RS & [[-> SP]|(-> & -> & AS & _)]);
    eexists _, _; (split; [exact R|]); (split; [split; [exact HI'|exact (RInv_range _ _ _ RS HR)]|]).
  - left. cbn [id_spec_step fst snd]. split; [reflexivity|].
    apply abs_equiv; [exact HI'|exact RS|apply am_set_NoDup, abs_keys_NoDup, HI|].
    intros k' v'. rewrite am_set_In. apply SP.
  - right. eexists. split; [reflexivity|]. split; [reflexivity|].
    exact (abs_equiv m m' _ HI' RS (abs_keys_NoDup m HI) AS).
Qed.

Lemma remove_refines fixed m k f : Inv fixed m ->
  exists rv m', id_remove m k f = IdOk (rv, m') /\ Inv fixed m' /\
                id_spec_rel (abs m) (IoRemove k f) (OutRv rv) (abs m').
Proof.
  intros [HI HR]. destruct (id_remove_spec m k f HI) as (rv & m' & R & HI' & RS & [(-> & -> & NI)|(-> & IN & RP & CS)]);
    eexists _, _; (split; [exact R|]); (split; [split; [exact HI'|exact (RInv_range _ _ _ RS HR)]|]); left;
    cbn [id_spec_step abs sp_map].
  - assert (M: am_mem (abs_list (id_entries m)) k = false).
    { destruct (am_mem (abs_list (id_entries m)) k) eqn:E; [|reflexivity]. apply am_mem_true_iff in E. contradiction. }
    rewrite M. cbn [fst snd]. split; [reflexivity|apply spec_equiv_refl].
  - apply am_mem_true_iff in IN. rewrite IN. cbn [fst snd]. split; [reflexivity|].
    apply abs_equiv; [exact HI'|exact RS|apply am_remove_NoDup, abs_keys_NoDup, HI|].
    intros k' v'. rewrite am_remove_In. apply RP.
Qed.

Lemma start_eq fixed m rnd : RInv fixed m ->
  (if (id_dyn_val m =? 0)%N
   then set_dyn m (if id_random m
                   then u64_add (rnd mod (u64_add (u64_sub (id_max_val m) (id_min_val m)) 1)) (id_min_val m)
                   else id_min_val m)
   else m) = set_dyn m (sp_start (abs m) rnd) /\
  (id_min_val m <= sp_start (abs m) rnd <= id_max_val m)%N.
Proof.
  intros [H1 H2 H3 H4 H5]. unfold sp_start. cbn [abs sp_cur sp_random sp_hi sp_lo].
  destruct (id_dyn_val m =? 0)%N eqn:E.
  - rewrite u64_sub_plain by assumption.
    rewrite (u64_add_plain (id_max_val m - id_min_val m) 1) by lia.
    assert (B: (rnd mod (id_max_val m - id_min_val m + 1) < id_max_val m - id_min_val m + 1)%N) by (apply N.mod_lt; lia).
    rewrite u64_add_plain by lia. split; [reflexivity|]. destruct (id_random m); lia.
  - apply N.eqb_neq in E. split; [now destruct m|lia].
Qed.

Lemma Inv_set_dyn fixed m d : Inv fixed m -> (id_min_val m <= d <= id_max_val m)%N -> Inv fixed (set_dyn m d).
Proof.
  intros [HI [H1 H2 H3 H4 H5]] Hd. split; [apply (MInv_core m); [repeat split|exact HI]|].
  split; cbn [set_dyn id_min_val id_max_val id_dyn_val]; auto.
Qed.

(* what nni_id_alloc does, concretely: the id issued is the first free one in cyclic order
   from the start, the cursor ends one past it, and the rest is a set *)
Lemma alloc_core fixed m v rnd f : Inv fixed m ->
  let lo := id_min_val m in let hi := id_max_val m in
  let s := abs_list (id_entries m) in let start := sp_start (abs m) rnd in
  (lo <= start <= hi)%N /\
  if (hi - lo <? N.of_nat (id_count m))%N then id_alloc fixed m v rnd f = IdOk (id_ENOMEM, None, m)
  else exists n id cur m',
    first_free s lo hi start (S (id_count m)) = Some (id, cur) /\
    n <= id_count m /\ id = cyc_iter lo hi n start /\ cur = cyc_iter lo hi (S n) start /\
    am_mem s id = false /\ (forall i, i < n -> am_mem s (cyc_iter lo hi i start) = true) /\
    Inv fixed m' /\ same_range (set_dyn m cur) m' /\
    ((id_alloc fixed m v rnd f = IdOk (0%N, Some id, m') /\ set_pairs m m' id v) \/
     (id_alloc fixed m v rnd f = IdOk (id_ENOMEM, None, m') /\ f = true /\ abs_same m m' /\
      id_count m' = id_count m)).
Proof.
  intros HInv. pose proof HInv as [HI HR]. cbn zeta. unfold id_alloc.
  pose proof (abs_count m HI) as AC.
  destruct (start_eq fixed m rnd HR) as (SE & SR). split; [exact SR|].
  assert (US: u64_sub (id_max_val m) (id_min_val m) = (id_max_val m - id_min_val m)%N)
    by (destruct HR; now apply u64_sub_plain).
  rewrite US.
  destruct (id_max_val m - id_min_val m <? N.of_nat (id_count m))%N eqn:Efull; [reflexivity|].
  rewrite <- US, SE.
  (* both cursor moves are set_dyn on m, so the loop and id_set see the table and the range of m *)
  destruct (Inv_set_dyn fixed m _ HInv SR) as [HI1 HR1].
  rewrite (alloc_loop_spec fixed _ HI1 HR1) by exact SR.
  cbn [set_dyn id_entries id_count id_min_val id_max_val id_dyn_val].
  apply N.ltb_ge in Efull.
  destruct (first_free_spec (abs_list (id_entries m)) (id_min_val m) (id_max_val m) (S (id_count m)) (sp_start (abs m) rnd))
    as (n & Hbusy & H).
  pose proof (busy_run_le _ _ _ _ n SR ltac:(rewrite AC; exact Efull) Hbusy) as Hn. rewrite AC in Hn.
  destruct (first_free _ _ _ _ (S (id_count m))) as [[id cur]|]; [|lia].
  destruct H as (Hid & Hcur & Hfree). cbn [id_bind].
  assert (CR: (id_min_val m <= cur <= id_max_val m)%N).
  { rewrite Hcur. apply cyc_iter_range; [destruct HR; assumption|exact SR]. }
  destruct (Inv_set_dyn fixed m cur HInv CR) as [HI2 HR2].
  destruct (id_set_spec (set_dyn m cur) id v f HI2) as (rv & m' & R & HI' & RS & P).
  exists n, id, cur, m'. split; [reflexivity|]. split; [exact Hn|]. split; [exact Hid|]. split; [exact Hcur|].
  split; [exact Hfree|]. split; [exact Hbusy|].
  split; [split; [exact HI'|exact (RInv_range _ _ _ RS HR2)]|]. split; [exact RS|].
  change (set_dyn (set_dyn m (sp_start (abs m) rnd)) cur) with (set_dyn m cur). rewrite R.
  destruct P as [[-> SP]|(-> & -> & AS & CS)]; cbn [id_bind N.eqb].
  - left. split; [reflexivity|exact SP].
  - right. split; [reflexivity|]. split; [reflexivity|]. split; [exact AS|exact CS].
Qed.

Lemma alloc_refines fixed m v rnd f : Inv fixed m ->
  exists rv ido m', id_alloc fixed m v rnd f = IdOk (rv, ido, m') /\ Inv fixed m' /\
                    id_spec_rel (abs m) (IoAlloc v rnd f) (OutAlloc rv ido) (abs m').
Proof.
  intros HInv. pose proof HInv as [HI HR]. pose proof (abs_count m HI) as AC.
  destruct (alloc_core fixed m v rnd f HInv) as [SR C]. cbn zeta in C.
  destruct (id_max_val m - id_min_val m <? N.of_nat (id_count m))%N eqn:Efull.
  { exists id_ENOMEM, None, m. split; [exact C|]. split; [exact HInv|]. left.
    cbn [id_spec_step abs sp_map sp_hi sp_lo]. rewrite AC, Efull. split; [reflexivity|apply spec_equiv_refl]. }
  destruct C as (n & id & cur & m' & FF & _ & _ & _ & _ & _ & I' & R2 & [[R SP]|(R & -> & AS & _)]).
  - exists 0%N, (Some id), m'. split; [exact R|]. split; [exact I'|]. left.
    cbn [id_spec_step abs sp_map sp_hi sp_lo]. rewrite AC, Efull.
    change (mkIdSpec (abs_list (id_entries m)) (id_min_val m) (id_max_val m) (id_random m) (id_dyn_val m)) with (abs m).
    rewrite FF. cbn [fst snd]. split; [reflexivity|].
    apply (abs_equiv (set_dyn m cur)); [apply I'|exact R2|apply am_set_NoDup, abs_keys_NoDup, HI|].
    intros k' v'. rewrite am_set_In. apply SP.
  - exists id_ENOMEM, None, m'. split; [exact R|]. split; [exact I'|]. right.
    cbn [id_spec_fail_step abs sp_map sp_hi sp_lo]. rewrite AC, Efull.
    change (mkIdSpec (abs_list (id_entries m)) (id_min_val m) (id_max_val m) (id_random m) (id_dyn_val m)) with (abs m).
    rewrite FF. eexists. split; [reflexivity|]. split; [reflexivity|].
    apply (abs_equiv (set_dyn m cur)); [apply I'|exact R2|apply abs_keys_NoDup, HI|exact AS].
Qed.

Theorem step_refines fixed m o : Inv fixed m ->
  exists out m', id_step fixed m o = IdOk (out, m') /\ Inv fixed m' /\ id_spec_rel (abs m) o out (abs m').
Proof.
  intros HInv. destruct o as [k v f|k|k f|v rnd f| |]; cbn [id_step].
  - destruct (set_refines fixed m k v f HInv) as (rv & m' & R & I' & S'). rewrite R. cbn [id_bind]. eauto.
  - rewrite (id_get_spec m k (proj1 HInv)). cbn [id_bind]. eexists _, m. split; [reflexivity|]. split; [assumption|].
    left. cbn [id_spec_step fst snd]. split; [reflexivity|apply spec_equiv_refl].
  - destruct (remove_refines fixed m k f HInv) as (rv & m' & R & I' & S'). rewrite R. cbn [id_bind]. eauto.
  - destruct (alloc_refines fixed m v rnd f HInv) as (rv & ido & m' & R & I' & S'). rewrite R. cbn [id_bind]. eauto.
  - rewrite id_visit_all_spec. cbn [id_bind]. eexists _, m. split; [reflexivity|]. split; [assumption|].
    left. cbn [id_spec_step fst snd out_equiv abs sp_map]. split; [|apply spec_equiv_refl].
    split; [apply abs_keys_NoDup, (proj1 HInv)|intros k; reflexivity].
  - eexists _, m. split; [reflexivity|]. split; [assumption|].
    left. cbn [id_spec_step fst snd out_equiv abs sp_map]. split; [|apply spec_equiv_refl].
    f_equal. symmetry. apply abs_count, (proj1 HInv).
Qed.

Theorem run_refines fixed : forall ops m, Inv fixed m ->
  exists outs m', id_run fixed m ops = IdOk (outs, m') /\ Inv fixed m' /\ id_spec_run (abs m) ops outs (abs m').
Proof.
  induction ops as [|o rest IH]; intros m HInv; cbn [id_run].
  - exists [], m. split; [reflexivity|]. split; [assumption|constructor].
  - destruct (step_refines fixed m o HInv) as (out & m1 & R & I1 & S1). rewrite R. cbn [id_bind].
    destruct (IH m1 I1) as (outs & m2 & R2 & I2 & S2). rewrite R2. cbn [id_bind].
    exists (out :: outs), m2. split; [reflexivity|]. split; [assumption|]. econstructor; eauto.
Qed.

Lemma MInv_empty st rg rnd lo hi dyn : MInv (mkIdMap [] 0 0 0 0 st rg rnd lo hi dyn).
Proof.
  split; unfold thresholds_ok, id_cap; cbn; auto.
  split.
  - intros i j ei ej Hi. destruct i; discriminate.
  - intros c e Hc. destruct c; discriminate.
  - intros c e Hc. destruct c; discriminate.
Qed.

Theorem static_init_inv fixed lo hi rnd : (1 <= lo)%N -> (lo <= hi)%N -> (hi < U64)%N -> (fixed = true \/ hi + 1 < U64)%N ->
  Inv fixed (id_map_static_init lo hi rnd).
Proof.
  intros H1 H2 H3 H4. split; [apply MInv_empty|]. split; cbn; auto.
Qed.
