(* IdMapProps: the theorems of the id-map half of C18 ("identifiers issued by
   the library are unique among live objects, lie within their documented range
   and are not reissued before the range wraps, and nng_id_map set/get/remove/
   visit behave as a finite map"); Props/Properties_C18.v holds the other half.

   Reading guide.  [id_map] is the model of struct nni_id_map (IdMapModel.v, one
   Gallina function per C function of src/core/idhash.c); [fixed] selects the
   variant of the cursor wrap test of nni_id_alloc (Gen/Consts.v says which one the
   current source has: IDMAP_ALLOC_WRAP_FIXED).  [Inv fixed m] is the invariant
   (I1-I4 of DESIGN Appendix D + range/cursor well-formedness), [abs m] the
   abstract state: the association list of live (key, value) pairs, the range,
   the random flag and the cursor.  An [id_res] value IdErr _ stands for an
   out-of-bounds table access, a loop that does not stop within its bound, a
   failed NNI_ASSERT or a counter underflow: the theorems say none is reachable. *)
From Coq Require Import List Arith NArith Bool Lia.
From NngV Require Import Gen.Consts IdMap.IdMapModel IdMap.IdMapSpec IdMap.ProbeOrder IdMap.IdMapLemmas
                         IdMap.IdMapProofs IdMap.IdMapThms.
Import ListNotations.

(* Every history of set/get/remove/alloc/visit/count operations, with any
   allocation-failure and nni_random oracle, from any state satisfying the
   invariant (in particular from nni_id_map_init / a static initializer, below)
   runs to the end without error value, keeps the invariant, and is
   observationally a history of the finite-map + cyclic-cursor specification
   IdMapSpec: same return codes (ENOENT exactly when the key is absent, ENOMEM
   only where an allocation was made to fail or the range is exhausted), same
   values, same ids, visit = the bindings each exactly once. *)
Theorem idmap_refines_map : forall fixed ops m, Inv fixed m ->
  exists outs m', id_run fixed m ops = IdOk (outs, m') /\ Inv fixed m' /\
                  id_spec_run (abs m) ops outs (abs m').
Proof. exact run_refines. Qed.
Print Assumptions idmap_refines_map.

(* ... in particular for the source as it is now *)
Theorem idmap_refines_map_current_source : forall ops m, Inv IDMAP_ALLOC_WRAP_FIXED m ->
  exists outs m', id_run IDMAP_ALLOC_WRAP_FIXED m ops = IdOk (outs, m') /\ Inv IDMAP_ALLOC_WRAP_FIXED m' /\
                  id_spec_run (abs m) ops outs (abs m').
Proof. exact (run_refines IDMAP_ALLOC_WRAP_FIXED). Qed.
Print Assumptions idmap_refines_map_current_source.

Theorem idmap_step_refines : forall fixed m o, Inv fixed m ->
  exists out m', id_step fixed m o = IdOk (out, m') /\ Inv fixed m' /\ id_spec_rel (abs m) o out (abs m').
Proof. exact step_refines. Qed.
Print Assumptions idmap_step_refines.

(* nni_id_map_init (uint64 arguments; for the unrepaired wrap test hi = 2^64-1 is excluded) *)
Theorem idmap_init_establishes_inv : forall fixed lo hi rnd m,
  (lo < U64)%N -> (hi < U64)%N -> (fixed = true \/ hi + 1 < U64)%N ->
  id_map_init lo hi rnd = IdOk m ->
  Inv fixed m /\
  abs m = mkIdSpec [] (if (lo =? 0)%N then 1%N else lo) (if (hi =? 0)%N then ID_DEFAULT_HI else hi) rnd 0%N.
Proof.
  intros fixed lo hi rnd m Hlo Hhi Hf. unfold id_map_init.
  destruct (negb ((if (lo =? 0)%N then 1%N else lo) <? (if (hi =? 0)%N then ID_DEFAULT_HI else hi))%N) eqn:E; [discriminate|].
  intros H. inversion H; subst m. apply negb_false_iff, N.ltb_lt in E.
  split; [|reflexivity]. split; [apply MInv_empty|].
  set (lo' := if (lo =? 0)%N then 1%N else lo) in *. set (hi' := if (hi =? 0)%N then ID_DEFAULT_HI else hi) in *.
  assert (L1: (1 <= lo')%N) by (unfold lo'; destruct (lo =? 0)%N eqn:E1; [lia|apply N.eqb_neq in E1; lia]).
  assert (L2: (hi' < U64)%N) by (unfold hi', ID_DEFAULT_HI, U64 in *; destruct (hi =? 0)%N; lia).
  assert (L3: fixed = true \/ (hi' + 1 < U64)%N).
  { destruct Hf as [->|Hf]; [now left|right]. unfold hi', ID_DEFAULT_HI, U64 in *. destruct (hi =? 0)%N; lia. }
  split; cbn [id_min_val id_max_val id_dyn_val]; auto; lia.
Qed.
Print Assumptions idmap_init_establishes_inv.

(* NNI_ID_MAP_INITIALIZER *)
Theorem idmap_static_init_inv : forall fixed lo hi rnd,
  (1 <= lo)%N -> (lo <= hi)%N -> (hi < U64)%N -> (fixed = true \/ hi + 1 < U64)%N ->
  Inv fixed (id_map_static_init lo hi rnd).
Proof. exact static_init_inv. Qed.
Print Assumptions idmap_static_init_inv.

Theorem idmap_fini_inv : forall fixed m, Inv fixed m ->
  Inv fixed (id_map_fini m) /\ abs_list (id_entries (id_map_fini m)) = [].
Proof.
  intros fixed m [HI HR]. unfold id_map_fini. destruct (id_entries m) eqn:E.
  - split; [split; assumption|]. now rewrite E.
  - split; [|reflexivity]. split; [apply MInv_empty|]. destruct HR as [A B C D F]. split; cbn; assumption.
Qed.
Print Assumptions idmap_fini_inv.

Theorem idmap_get_is_lookup : forall m id, MInv m -> id_get m id = IdOk (am_get (abs_list (id_entries m)) id).
Proof. exact id_get_spec. Qed.
Print Assumptions idmap_get_is_lookup.

(* cursor = 0; while (nni_id_visit(..)) ...: exactly the live keys, each once *)
Theorem idmap_visit_enumerates : forall fixed m, Inv fixed m ->
  exists l, id_visit_all m = IdOk l /\ NoDup (map fst l) /\ length l = id_count m /\
            forall k v, In (k, v) l <-> id_get m k = IdOk (Some v).
Proof.
  intros fixed m [HI HR]. exists (abs_list (id_entries m)). split; [apply id_visit_all_spec|].
  pose proof (abs_keys_NoDup m HI) as ND. split; [exact ND|]. split; [now apply abs_count|].
  intros k v. rewrite (id_get_spec m k HI). split.
  - intros H. f_equal. now apply In_am_get.
  - intros H. inversion H. now apply am_get_In.
Qed.
Print Assumptions idmap_visit_enumerates.

(* nni_id_alloc: an id is issued only with rv = 0; it lies in [lo, hi], was not
   live, is bound to the value afterwards; it is the first id not live in cyclic
   order from the cursor (every id passed over is live) and the cursor ends just
   past it; failure is NNG_ENOMEM and happens only if the table allocation was
   made to fail or more than hi-lo keys are live. *)
Theorem idmap_alloc_fresh_in_range : forall fixed m v rnd f rv ido m',
  Inv fixed m -> id_alloc fixed m v rnd f = IdOk (rv, ido, m') ->
  let lo := id_min_val m in let hi := id_max_val m in
  let s := abs_list (id_entries m) in let start := sp_start (abs m) rnd in
  Inv fixed m' /\ (lo <= start <= hi)%N /\ id_min_val m' = lo /\ id_max_val m' = hi /\
  match ido with
  | Some id =>
      rv = 0%N /\ (lo <= id <= hi)%N /\ id_get m id = IdOk None /\ id_get m' id = IdOk (Some v) /\
      id_count m' = S (id_count m) /\
      exists n, n <= id_count m /\ id = cyc_iter lo hi n start /\
                (forall i, i < n -> am_mem s (cyc_iter lo hi i start) = true) /\
                id_dyn_val m' = cyc_iter lo hi (S n) start
  | None => rv = id_ENOMEM /\ (f = true \/ (hi - lo < N.of_nat (id_count m))%N)
  end.
Proof.
  intros fixed m v rnd f rv ido m' HInv R. pose proof HInv as [HI HR].
  destruct (alloc_core fixed m v rnd f HInv) as [SR C]. cbn zeta in *.
  destruct (id_max_val m - id_min_val m <? N.of_nat (id_count m))%N eqn:Efull.
  { rewrite C in R. inversion R; subst. split; [exact HInv|]. split; [exact SR|]. split; [reflexivity|].
    split; [reflexivity|]. split; [reflexivity|]. right. now apply N.ltb_lt. }
  destruct C as (n & id & cur & m0 & FF & Hn & Hid & Hcur & Hfree & Hbusy & I' & (A & B & _ & D) &
                 [[R' SP]|(R' & -> & AS & _)]); rewrite R' in R; inversion R; subst rv ido m0.
  2:{ split; [exact I'|]. split; [exact SR|]. split; [exact A|]. split; [exact B|].
      split; [reflexivity|]. now left. }
  split; [exact I'|]. split; [exact SR|]. split; [exact A|]. split; [exact B|].
  pose proof (abs_keys_NoDup m' (proj1 I')) as ND'.
  destruct (alloc_in_generated_range fixed m v rnd f id m' _ _ HInv eq_refl eq_refl R') as [Hr Hg].
  split; [reflexivity|]. split; [exact Hr|]. split; [exact Hg|].
  split. { rewrite (id_get_spec m' id (proj1 I')). f_equal. apply In_am_get; [exact ND'|]. apply SP. auto. }
  split.
  { destruct (equiv_from_pairs _ (am_set (abs_list (id_entries m)) id v) ND'
                (am_set_NoDup _ id v (abs_keys_NoDup m HI))) as [_ LEN].
    { intros k' v'. rewrite am_set_In. apply SP. }
    rewrite <- (abs_count m' (proj1 I')), <- (abs_count m HI), LEN. unfold am_set. cbn [length].
    now rewrite am_remove_nomem. }
  exists n. split; [exact Hn|]. split; [exact Hid|]. split; [exact Hbusy|]. exact (eq_trans D Hcur).
Qed.
Print Assumptions idmap_alloc_fresh_in_range.

(* "more than hi-lo keys live" means "all hi-lo+1 ids live" when the live keys lie
   in the range (maps filled by nni_id_alloc only, as all of the library's are).
   NB nni_id_alloc counts *all* keys: after nni_id_set of keys outside [lo,hi] it
   can report exhaustion while ids of the range are free. *)
Theorem idmap_alloc_full_means_all_live : forall (s : id_amap) lo hi,
  NoDup (map fst s) -> (forall k, In k (map fst s) -> lo <= k <= hi)%N ->
  (hi - lo < N.of_nat (length s))%N -> forall id, (lo <= id <= hi)%N -> In id (map fst s).
Proof.
  intros s lo hi ND Hin Hfull id Hid.
  set (L := map (fun i => (lo + N.of_nat i)%N) (seq 0 (N.to_nat (hi - lo + 1)))).
  assert (I: incl L (map fst s)).
  { apply NoDup_length_incl; [exact ND| |].
    - unfold L. rewrite !map_length, seq_length. lia.
    - intros k Hk. specialize (Hin k Hk). unfold L. apply in_map_iff. exists (N.to_nat (k - lo)).
      split; [lia|]. apply in_seq. lia. }
  apply I. unfold L. apply in_map_iff. exists (N.to_nat (id - lo)). split; [lia|]. apply in_seq. lia.
Qed.
Print Assumptions idmap_alloc_full_means_all_live.

(* the cursor visits hi-lo+1 pairwise distinct ids and is then back where it
   started: between two issues of the same id the whole range has been passed *)
Theorem idmap_cursor_no_early_return : forall lo hi x i j, (lo <= hi)%N -> (lo <= x <= hi)%N ->
  i < j -> (N.of_nat j < N.of_nat i + (hi - lo + 1))%N -> cyc_iter lo hi i x <> cyc_iter lo hi j x.
Proof. exact cyc_iter_inj. Qed.
Print Assumptions idmap_cursor_no_early_return.

Theorem idmap_cursor_full_cycle : forall lo hi x, (lo <= hi)%N -> (lo <= x <= hi)%N ->
  cyc_iter lo hi (N.to_nat (hi - lo + 1)) x = x.
Proof.
  intros lo hi x H Hx. rewrite cyc_iter_closed by assumption. rewrite N2Nat.id.
  replace (x - lo + (hi - lo + 1))%N with ((x - lo) + 1 * (hi - lo + 1))%N by lia.
  rewrite N.mod_add by lia. rewrite N.mod_small by lia. lia.
Qed.
Print Assumptions idmap_cursor_full_cycle.

(* ID_NEXT: j |-> (5j+1) & (cap-1) on a table of 2^k cells is one cycle through all
   cells (proved for every k, via v2(S(n)) = v2(n), S(n) = sum_{i<n} 5^i) *)
Theorem idmap_probe_full_period : forall k s, s < 2 ^ k ->
  (forall j, id_next (2 ^ k) j = nxt (2 ^ k) j) /\
  NoDup (map (path (2 ^ k) s) (seq 0 (2 ^ k))) /\
  path (2 ^ k) s (2 ^ k) = s /\
  (forall c, c < 2 ^ k -> exists n, n < 2 ^ k /\ path (2 ^ k) s n = c).
Proof. exact probe_full_period. Qed.
Print Assumptions idmap_probe_full_period.

(* the store loop of nni_id_set (entered after the resize check, key not live)
   finds a vacant cell within id_cap probes; id_find stops within id_cap probes;
   the same bound for the rehash loop is part of idmap_no_error_reachable *)
Theorem idmap_probe_terminates : forall m id v,
  MInv m -> id_count m < id_cap m -> id_get m id = IdOk None ->
  exists T' d, d < id_cap m /\
    ins_loop (id_entries m) (id_cap m) id v (id_index (id_cap m) id) (id_load m) (id_cap m) false
    = IdOk (T', id_load m + d + 1).
Proof.
  intros m id v HI Hroom Hget. destruct (MInv_pow2 m HI ltac:(lia)) as (k & Hk & Hcap).
  rewrite Hcap in *.
  destruct (ins_spec k (id_entries m) id v (id_count m) (id_load m) false (MInv_Tbl m k HI Hcap)) as (T' & d & Hd & R & _);
    [lia| |discriminate|eauto].
  rewrite (id_get_spec m id HI) in Hget. inversion Hget. now apply am_get_None.
Qed.
Print Assumptions idmap_probe_terminates.

Theorem idmap_find_terminates : forall m id, MInv m -> exists r, id_find m id = IdOk r.
Proof. intros m id HI. destruct (id_find_spec m id HI) as [(c & e & F & _)|[F _]]; eauto. Qed.
Print Assumptions idmap_find_terminates.

(* every operation terminates within its fuel, stays inside the table and trips no
   assertion *)
Theorem idmap_no_error_reachable : forall fixed m o, Inv fixed m -> exists r, id_step fixed m o = IdOk r.
Proof. intros fixed m o H. destruct (step_refines fixed m o H) as (out & m' & R & _). eauto. Qed.
Print Assumptions idmap_no_error_reachable.

(* I1-I3 as equations on every reachable state *)
Theorem idmap_load_accounting : forall fixed m, Inv fixed m ->
  id_count m = sumf (id_cap m) (lv (id_entries m)) /\
  id_count m = length (abs_list (id_entries m)) /\
  id_load m = sumf (id_cap m) (ld (id_entries m)) /\
  (forall c e, nth_error (id_entries m) c = Some e ->
               ie_skips e = sumf (id_cap m) (cr (id_entries m) c)) /\
  (forall c e, nth_error (id_entries m) c = Some e -> ie_val e = None -> ie_key e = 0%N) /\
  id_count m <= id_load m /\ thresholds_ok m /\
  (id_cap m = 0 \/ exists k, 3 <= k /\ id_cap m = 2 ^ k).
Proof.
  intros fixed m [HI _]. split; [apply (mi_count m HI)|]. split; [symmetry; now apply abs_count|].
  split; [apply (mi_load m HI)|]. split; [apply (ti_skips _ (mi_tinv m HI))|].
  split; [apply (ti_vacant _ (mi_tinv m HI))|]. split; [now apply MInv_count_le_load|].
  split; [apply (mi_thr m HI)|apply (mi_cap m HI)].
Qed.
Print Assumptions idmap_load_accounting.

(* the clause "2*count <= cap" conjectured in DESIGN 5/C18 is false of the code *)
Theorem idmap_two_count_le_cap_refuted :
  exists outs m', id_run true (id_map_static_init 1 100 false) five_sets = IdOk (outs, m') /\
                  id_cap m' = 8 /\ id_count m' = 5.
Proof. eexists _, _. split; [vm_compute; reflexivity|]. split; reflexivity. Qed.
Print Assumptions idmap_two_count_le_cap_refuted.

(* the code as pinned (before the fix: commit 1072c34) issued id 0 from the range
   [2^64-3, 2^64-1]; with the repaired wrap test the same history stays in range *)
Theorem idmap_alloc_u64max_unfixed_refuted :
  exists outs m', id_run false u64max_map u64max_ops = IdOk (outs, m') /\
                  nth 6 outs (OutRv 0%N) = OutAlloc 0%N (Some 0%N) /\ (0 < id_min_val m')%N.
Proof. eexists _, _. split; [vm_compute; reflexivity|]. split; reflexivity. Qed.
Print Assumptions idmap_alloc_u64max_unfixed_refuted.

Theorem idmap_alloc_u64max_fixed_ok :
  exists outs m', id_run true u64max_map u64max_ops = IdOk (outs, m') /\
                  nth 6 outs (OutRv 0%N) = OutAlloc 0%N (Some (U64 - 3)%N).
Proof. eexists _, _. split; [vm_compute; reflexivity|]. reflexivity. Qed.
Print Assumptions idmap_alloc_u64max_fixed_ok.

(* the literals of the model are those of the current source (Gen/Consts.v is
   regenerated from /repo on every run) *)
Theorem idmap_consts_match :
  ID_MIN_CAP = IDMAP_MIN_CAP /\ ID_SMALL_MAX_LOAD = IDMAP_SMALL_MAX_LOAD /\
  ID_DEFAULT_HI = IDMAP_DEFAULT_HI /\ IDMAP_DEFAULT_LO = 1%N /\
  id_ENOMEM = IDMAP_NNG_ENOMEM /\ id_ENOENT = IDMAP_NNG_ENOENT /\
  (forall cap j, id_next cap j = Nat.land (j * IDMAP_PROBE_MUL + IDMAP_PROBE_INC) (cap - 1)) /\
  (forall c, id_new_cap c = grow_cap IDMAP_MIN_CAP (c * IDMAP_COUNT_FACTOR) (S c)) /\
  (forall c t f, grow_cap c t (S f) = if c <? t then grow_cap (c * IDMAP_GROW_FACTOR) t f else IdOk c) /\
  (forall c, id_thresholds c = if IDMAP_SMALL_CAP <? c
                               then (c / IDMAP_MIN_LOAD_DIV, c * IDMAP_MAX_LOAD_MUL / IDMAP_MAX_LOAD_DIV)
                               else (IDMAP_SMALL_MIN_LOAD, IDMAP_SMALL_MAX_LOAD)).
Proof. repeat split; reflexivity. Qed.
Print Assumptions idmap_consts_match.

(* every id range the library declares (socket, ctx, dialer, listener, pipe,
   request, survey) gives a map satisfying the invariant *)
Theorem idmap_library_ranges_inv : forall fixed,
  Forall (fun r => let '(_, lo, hi, rnd, _) := r in Inv fixed (id_map_static_init lo hi rnd)) IDMAP_RANGES.
Proof.
  intros fixed. pose proof library_ranges_wf as W. eapply Forall_impl; [|exact W].
  intros [[[[nm lo] hi] rnd] st] (A & B & C & D). apply static_init_inv; lia.
Qed.
Print Assumptions idmap_library_ranges_inv.

(* ids issued from the generated ranges: request / survey ids (req.c, survey.c) have the
   high bit (bit 31) set and fit 32 bits *)
Corollary idmap_request_ids_high_bit : forall fixed m v rnd f id m',
  Inv fixed m -> id_min_val m = IDMAP_REQ_LO -> id_max_val m = IDMAP_REQ_HI ->
  id_alloc fixed m v rnd f = IdOk (0%N, Some id, m') -> N.testbit id 31 = true /\ (id < 2 ^ 32)%N.
Proof.
  intros fixed m v rnd f id m' HI L H R. apply bit31_set. exact (proj1 (alloc_in_generated_range fixed m v rnd f id m' _ _ HI L H R)).
Qed.
Print Assumptions idmap_request_ids_high_bit.

Corollary idmap_survey_ids_high_bit : forall fixed m v rnd f id m',
  Inv fixed m -> id_min_val m = IDMAP_SURVEY_LO -> id_max_val m = IDMAP_SURVEY_HI ->
  id_alloc fixed m v rnd f = IdOk (0%N, Some id, m') -> N.testbit id 31 = true /\ (id < 2 ^ 32)%N.
Proof.
  intros fixed m v rnd f id m' HI L H R. apply bit31_set. exact (proj1 (alloc_in_generated_range fixed m v rnd f id m' _ _ HI L H R)).
Qed.
Print Assumptions idmap_survey_ids_high_bit.

(* socket, context, dialer, listener and pipe ids: 1 .. 0x7fffffff (positive int32, never 0) *)
Corollary idmap_object_ids_positive_int32 : forall fixed m v rnd f id m',
  Inv fixed m ->
  (id_min_val m, id_max_val m) = (IDMAP_SOCK_LO, IDMAP_SOCK_HI) \/
  (id_min_val m, id_max_val m) = (IDMAP_CTX_LO, IDMAP_CTX_HI) \/
  (id_min_val m, id_max_val m) = (IDMAP_DIALER_LO, IDMAP_DIALER_HI) \/
  (id_min_val m, id_max_val m) = (IDMAP_LISTENER_LO, IDMAP_LISTENER_HI) \/
  (id_min_val m, id_max_val m) = (IDMAP_PIPE_LO, IDMAP_PIPE_HI) ->
  id_alloc fixed m v rnd f = IdOk (0%N, Some id, m') -> (0 < id < 2 ^ 31)%N /\ N.testbit id 31 = false.
Proof.
  intros fixed m v rnd f id m' HI Hr R.
  assert (E: (1 <= id <= 2147483647)%N).
  { destruct Hr as [E|[E|[E|[E|E]]]]; inversion E as [[L H]];
      destruct (alloc_in_generated_range fixed m v rnd f id m' _ _ HI L H R) as [X _]; exact X. }
  split; [lia|]. apply N.testbit_false. replace (id / 2 ^ 31)%N with 0%N; [reflexivity|].
  symmetry. apply N.div_small. lia.
Qed.
Print Assumptions idmap_object_ids_positive_int32.

Example idmap_inv_nonvacuous :
  exists outs m', id_run true (id_map_static_init 1 100 false) five_sets = IdOk (outs, m') /\
                  Inv true m' /\ id_count m' = 5.
Proof. exact inv_nonvacuous. Qed.
