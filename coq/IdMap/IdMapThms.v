(* IdMapThms: what the statements of IdMapProps need beside IdMapProofs -- the range of an
   issued id, the probe cycle, the witness histories and the generated ranges.
   Stdlib only; closed under the global context. *)
From Coq Require Import List Arith Lia NArith Bool.
From NngV Require Import Gen.Consts IdMap.IdMapModel IdMap.IdMapSpec IdMap.ProbeOrder IdMap.IdMapLemmas IdMap.IdMapProofs.
Import ListNotations.

Lemma am_mem_false_get s k : am_mem s k = false -> am_get s k = None.
Proof. unfold am_mem. destruct (am_get s k); [discriminate|reflexivity]. Qed.

Theorem probe_full_period k s : s < 2 ^ k ->
  (forall j, id_next (2 ^ k) j = nxt (2 ^ k) j) /\
  NoDup (map (path (2 ^ k) s) (seq 0 (2 ^ k))) /\
  path (2 ^ k) s (2 ^ k) = s /\
  (forall c, c < 2 ^ k -> exists n, n < 2 ^ k /\ path (2 ^ k) s n = c).
Proof.
  intros Hs. split; [intros; apply id_next_nxt|]. split; [now apply path_NoDup|].
  split; [now apply path_period|]. intros c Hc. now apply path_surj.
Qed.

(* DESIGN 5/C18 conjectured "2*count <= cap"; that is false of the code: the
   minimum table of 8 cells holds these 5 keys before it grows *)
Definition five_sets : list id_op := [IoSet 1 1 false; IoSet 2 1 false; IoSet 3 1 false; IoSet 4 1 false; IoSet 5 1 false]%N.

(* the history on which the code as pinned (before the fix: commit 1072c34) issues id 0 *)
Definition u64max_ops : list id_op :=
  [IoAlloc 1 0 false; IoAlloc 2 0 false; IoAlloc 3 0 false; IoRemove (U64 - 3) false;
   IoAlloc 4 0 false; IoRemove (U64 - 3) false; IoAlloc 5 0 false]%N.
Definition u64max_map : id_map := id_map_static_init (U64 - 3) (U64 - 1) false.

(* every range the library uses is a legal range of the theorems (for either variant of the code) *)
Theorem library_ranges_wf :
  Forall (fun r => let '(_, lo, hi, _, _) := r in (1 <= lo /\ lo < hi /\ hi + 1 < U64 /\ hi < 2 ^ 32)%N) IDMAP_RANGES.
Proof.
  unfold IDMAP_RANGES. repeat (apply Forall_cons; [unfold U64; cbn; lia|]). apply Forall_nil.
Qed.

(* an id issued lies in the range of its map and was not live; [lo hi] are parameters so that the
   corollaries can put the generated IDMAP_*_LO / IDMAP_*_HI in their place *)
Lemma alloc_in_generated_range fixed m v rnd f id m' lo hi :
  Inv fixed m -> id_min_val m = lo -> id_max_val m = hi ->
  id_alloc fixed m v rnd f = IdOk (0%N, Some id, m') -> (lo <= id <= hi)%N /\ id_get m id = IdOk None.
Proof.
  intros HInv <- <- R. pose proof HInv as [HI HR]. destruct (alloc_core fixed m v rnd f HInv) as [SR C]. cbn zeta in C.
  destruct (id_max_val m - id_min_val m <? N.of_nat (id_count m))%N; [rewrite C in R; discriminate|].
  destruct C as (n & id0 & cur & m0 & _ & _ & Hid & _ & Hfree & _ & _ & _ & [[R' _]|(R' & _)]);
    rewrite R' in R; inversion R; subst id m'.
  split; [rewrite Hid; apply cyc_iter_range; [destruct HR; assumption|exact SR]|].
  rewrite (id_get_spec m id0 HI). f_equal. now apply am_mem_false_get.
Qed.

Lemma bit31_set id : (2147483648 <= id <= 4294967295)%N -> N.testbit id 31 = true /\ (id < 2 ^ 32)%N.
Proof.
  intros H. split; [|lia]. apply N.testbit_true. replace (id / 2 ^ 31)%N with 1%N; [reflexivity|].
  apply (N.div_unique id (2 ^ 31) 1 (id - 2 ^ 31)); lia.
Qed.

Example inv_nonvacuous :
  exists outs m', id_run true (id_map_static_init 1 100 false) five_sets = IdOk (outs, m') /\
                  Inv true m' /\ id_count m' = 5.
Proof.
  destruct (run_refines true five_sets (id_map_static_init 1 100 false)) as (outs & m' & R & I & _).
  { apply static_init_inv; unfold U64; lia. }
  exists outs, m'. split; [exact R|]. split; [exact I|].
  vm_compute in R. inversion R; subst. reflexivity.
Qed.
