(* ProbeOrder: the probe sequence j |-> (5j+1) mod 2^k of idhash.c (ID_NEXT) is a
   single cycle through all 2^k cells.  Stdlib and Base.ListX only, closed under the global context.

   S(n) = sum_{i<n} 5^i; the n-th iterate from x is x + S(n)(4x+1) (mod 2^k);
   2^k | S(d)  <->  2^k | d   (S(2e) = 2 S(e) (2 S(e) + 1), S(odd) odd),
   hence iterates i < j < 2^k differ and the 2^k-th iterate is x again. *)
From Coq Require Import List Arith Lia ZifyNat.
From NngV Require Base.ListX.
Import ListNotations.

Definition nxt (cap j : nat) : nat := (j * 5 + 1) mod cap.
Fixpoint path (cap s n : nat) : nat :=
  match n with 0 => s | S n' => nxt cap (path cap s n') end.

Lemma path_succ_r cap s n : path cap s (S n) = path cap (nxt cap s) n.
Proof. induction n as [|n IH]; [reflexivity|]. cbn [path] in *. now rewrite IH. Qed.

Lemma nxt_lt cap j : 0 < cap -> nxt cap j < cap.
Proof. intros H. unfold nxt. apply Nat.mod_upper_bound. lia. Qed.

Lemma path_lt cap s n : 0 < cap -> s < cap -> path cap s n < cap.
Proof. intros H Hs. destruct n; cbn [path]; [assumption|]. now apply nxt_lt. Qed.

(* S(n) of the header *)
Fixpoint SS (n : nat) : nat := match n with 0 => 0 | S n' => 5 * SS n' + 1 end.

Lemma pow5_SS n : 5 ^ n = 4 * SS n + 1.
Proof. induction n as [|n IH]; [reflexivity|]. cbn [Nat.pow SS]. rewrite IH. ring. Qed.

Lemma SS_add i d : SS (i + d) = SS d * 5 ^ i + SS i.
Proof.
  induction i as [|i IH]; cbn [Nat.add SS Nat.pow]; [lia|]. rewrite IH. ring.
Qed.

Lemma SS_double e : SS (e + e) = 2 * (SS e * (2 * SS e + 1)).
Proof. rewrite SS_add, pow5_SS. ring. Qed.

Lemma SS_mod2 d : SS d mod 2 = d mod 2.
Proof. induction d as [|d IH]; [reflexivity|]. cbn [SS]. lia. Qed.

Lemma path_closed cap s n : 0 < cap ->
  path cap s n mod cap = (s + SS n * (4 * s + 1)) mod cap.
Proof.
  intros Hc. induction n as [|n IH].
  - cbn [path SS]. f_equal. lia.
  - cbn [path SS]. unfold nxt. rewrite Nat.mod_mod by lia.
    rewrite <- Nat.add_mod_idemp_l by lia.
    rewrite <- Nat.mul_mod_idemp_l by lia.
    rewrite IH.
    rewrite Nat.mul_mod_idemp_l by lia.
    rewrite Nat.add_mod_idemp_l by lia.
    f_equal. lia.
Qed.

Lemma pow2_cancel_odd k : forall a b, Nat.divide (2 ^ k) (a * (2 * b + 1)) -> Nat.divide (2 ^ k) a.
Proof.
  induction k as [|k IH]; intros a b [q Hq].
  - exists a. cbn. lia.
  - cbn [Nat.pow] in *.
    destruct (Nat.Even_or_Odd a) as [[a' Ha]|[a' Ha]]; subst a.
    + destruct (IH a' b) as [q' Hq'].
      { exists q. nia. }
      exists q'. nia.
    + exfalso. nia.
Qed.

Lemma pow2_div_SS k : forall d, Nat.divide (2 ^ k) (SS d) -> Nat.divide (2 ^ k) d.
Proof.
  induction k as [|k IH]; intros d [q Hq].
  - exists d. cbn. lia.
  - cbn [Nat.pow] in *.
    destruct (Nat.Even_or_Odd d) as [[e He]|[e He]].
    + subst d. replace (2 * e) with (e + e) in Hq by lia. rewrite SS_double in Hq.
      destruct (IH e) as [q' Hq'].
      { apply (pow2_cancel_odd k (SS e) (SS e)). exists q. nia. }
      exists q'. nia.
    + exfalso. pose proof (SS_mod2 d) as HM.
      assert (SS d mod 2 = 0) by (rewrite Hq; lia).
      assert (d mod 2 = 1) by (subst d; lia). lia.
Qed.

Lemma SS_pow2_div k : Nat.divide (2 ^ k) (SS (2 ^ k)).
Proof.
  induction k as [|k [q Hq]].
  - exists 1. reflexivity.
  - cbn [Nat.pow]. replace (2 * 2 ^ k) with (2 ^ k + 2 ^ k) by lia.
    rewrite SS_double. exists (q * (2 * SS (2 ^ k) + 1)). rewrite Hq. cbn [Nat.pow]. nia.
Qed.

Lemma mod_eq_add_divide n a x : 0 < n -> (a + x) mod n = a mod n -> Nat.divide n x.
Proof.
  intros Hn H. exists ((a + x) / n - a / n).
  pose proof (Nat.div_mod (a + x) n ltac:(lia)). pose proof (Nat.div_mod a n ltac:(lia)).
  assert (a / n <= (a + x) / n) by (apply Nat.div_le_mono; lia).
  nia.
Qed.

Theorem path_inj k s i j :
  s < 2 ^ k -> i < 2 ^ k -> j < 2 ^ k -> path (2 ^ k) s i = path (2 ^ k) s j -> i = j.
Proof.
  intros Hs. revert i j.
  assert (W: forall i d, 0 < d -> i + d < 2 ^ k -> path (2 ^ k) s i = path (2 ^ k) s (i + d) -> False).
  { intros i d Hd Hlt E.
    pose proof (ListX.pow2_pos k) as Hp.
    apply (f_equal (fun x => x mod 2 ^ k)) in E.
    rewrite !path_closed in E by assumption.
    rewrite SS_add in E.
    replace (s + (SS d * 5 ^ i + SS i) * (4 * s + 1))
      with ((s + SS i * (4 * s + 1)) + SS d * (5 ^ i * (4 * s + 1))) in E by lia.
    symmetry in E. apply mod_eq_add_divide in E; [|assumption].
    assert (O: exists b, 5 ^ i * (4 * s + 1) = 2 * b + 1).
    { rewrite pow5_SS. exists (8 * SS i * s + 2 * SS i + 2 * s). lia. }
    destruct O as [b Hb]. rewrite Hb in E. apply pow2_cancel_odd in E.
    apply pow2_div_SS in E. destruct E as [q Hq]. destruct q; nia. }
  intros i j Hi Hj E.
  destruct (Nat.lt_trichotomy i j) as [L|[L|L]]; [|assumption|]; exfalso.
  - apply (W i (j - i)); try lia. now replace (i + (j - i)) with j by lia.
  - apply (W j (i - j)); try lia. now replace (j + (i - j)) with i by lia.
Qed.

Theorem path_period k s : s < 2 ^ k -> path (2 ^ k) s (2 ^ k) = s.
Proof.
  intros Hs. pose proof (ListX.pow2_pos k) as Hp.
  rewrite <- (Nat.mod_small (path (2 ^ k) s (2 ^ k)) (2 ^ k)) by (now apply path_lt).
  rewrite path_closed by assumption.
  destruct (SS_pow2_div k) as [q Hq]. rewrite Hq.
  replace (s + q * 2 ^ k * (4 * s + 1)) with (s + (q * (4 * s + 1)) * 2 ^ k) by lia.
  rewrite Nat.mod_add by lia. now apply Nat.mod_small.
Qed.

(* the cells probed before reaching distance d *)
Definition pref (cap s d : nat) : list nat := map (path cap s) (seq 0 d).

(* the first d <= 2^k probes are pairwise distinct ... *)
Lemma pref_NoDup k s d : s < 2 ^ k -> d <= 2 ^ k -> NoDup (pref (2 ^ k) s d).
Proof.
  intros Hs Hd. unfold pref. apply ListX.NoDup_map_inj_on; [apply seq_NoDup|].
  intros x y Hx Hy. apply in_seq in Hx, Hy. apply path_inj; lia.
Qed.

Theorem path_NoDup k s : s < 2 ^ k -> NoDup (map (path (2 ^ k) s) (seq 0 (2 ^ k))).
Proof. intros Hs. exact (pref_NoDup k s (2 ^ k) Hs (le_n _)). Qed.

(* ... hence visit every cell *)
Theorem path_surj k s c : s < 2 ^ k -> c < 2 ^ k -> exists n, n < 2 ^ k /\ path (2 ^ k) s n = c.
Proof.
  intros Hs Hc.
  assert (I: incl (seq 0 (2 ^ k)) (map (path (2 ^ k) s) (seq 0 (2 ^ k)))).
  { apply NoDup_length_incl.
    - now apply path_NoDup.
    - rewrite map_length. lia.
    - intros x Hx. apply in_map_iff in Hx. destruct Hx as (n & <- & Hn).
      apply in_seq. split; [lia|]. cbn. apply path_lt; [apply ListX.pow2_pos|assumption]. }
  assert (Hin: In c (seq 0 (2 ^ k))) by (apply in_seq; lia).
  apply I in Hin. apply in_map_iff in Hin. destruct Hin as (n & E & Hn).
  apply in_seq in Hn. exists n. split; [lia|assumption].
Qed.

Fixpoint dist_aux (cap cur c fuel : nat) : nat :=
  match fuel with
  | 0 => 0
  | S f => if cur =? c then 0 else S (dist_aux cap (nxt cap cur) c f)
  end.
Definition dist (cap s c : nat) : nat := dist_aux cap s c cap.

(* whatever the table size: no probe before the dist-th reaches c *)
Lemma dist_aux_min cap c : forall fuel s i, i < dist_aux cap s c fuel -> path cap s i <> c.
Proof.
  induction fuel as [|f IH]; intros s i; cbn [dist_aux]; [lia|].
  destruct (s =? c) eqn:Es; [lia|]. apply Nat.eqb_neq in Es. intros Hi.
  destruct i as [|i]; [exact Es|]. rewrite path_succ_r. apply IH. lia.
Qed.

Lemma dist_min cap s c i : i < dist cap s c -> path cap s i <> c.
Proof. apply dist_aux_min. Qed.

Lemma dist_aux_spec cap c : forall fuel s n,
  n < fuel -> path cap s n = c ->
  let d := dist_aux cap s c fuel in d <= n /\ path cap s d = c.
Proof.
  induction fuel as [|f IH]; intros s n Hn E; [lia|].
  cbn [dist_aux]. destruct (s =? c) eqn:Es.
  - apply Nat.eqb_eq in Es. cbn. split; [lia|assumption].
  - apply Nat.eqb_neq in Es. destruct n as [|n]; [cbn in E; congruence|].
    rewrite path_succ_r in E.
    destruct (IH (nxt cap s) n ltac:(lia) E) as (H1 & H2).
    cbn zeta. split; [lia|now rewrite path_succ_r].
Qed.

Theorem dist_spec k s c : s < 2 ^ k -> c < 2 ^ k ->
  dist (2 ^ k) s c < 2 ^ k /\ path (2 ^ k) s (dist (2 ^ k) s c) = c /\
  (forall i, i < dist (2 ^ k) s c -> path (2 ^ k) s i <> c).
Proof.
  intros Hs Hc. destruct (path_surj k s c Hs Hc) as (n & Hn & E).
  destruct (dist_aux_spec (2 ^ k) c (2 ^ k) s n Hn E) as (H1 & H2).
  unfold dist. repeat split; [lia|assumption|apply dist_min].
Qed.

Theorem dist_path k s n : s < 2 ^ k -> n < 2 ^ k -> dist (2 ^ k) s (path (2 ^ k) s n) = n.
Proof.
  intros Hs Hn.
  assert (Hc: path (2 ^ k) s n < 2 ^ k) by (apply path_lt; [apply ListX.pow2_pos|assumption]).
  destruct (dist_spec k s _ Hs Hc) as (H1 & H2 & _).
  apply (path_inj k s); assumption.
Qed.

Lemma pref_succ cap s d : pref cap s (S d) = s :: pref cap (nxt cap s) d.
Proof.
  unfold pref. cbn [seq map path]. f_equal. rewrite <- seq_shift, map_map.
  apply map_ext. intros a. apply path_succ_r.
Qed.

Lemma pref_In cap s d c : In c (pref cap s d) <-> exists i, i < d /\ path cap s i = c.
Proof.
  unfold pref. rewrite in_map_iff. split.
  - intros (i & E & Hi). apply in_seq in Hi. exists i. split; [lia|assumption].
  - intros (i & Hi & E). exists i. split; [assumption|apply in_seq; lia].
Qed.
