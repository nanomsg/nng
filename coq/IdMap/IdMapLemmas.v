(* IdMapLemmas: generic facts used by IdMapProofs -- sums over index ranges,
   single-cell table updates, association lists without duplicate keys, and the
   bit-mask forms of ID_NEXT / ID_INDEX.  Stdlib only. *)
From Coq Require Import List Arith Lia NArith Bool.
From NngV Require Import IdMap.IdMapModel IdMap.IdMapSpec IdMap.ProbeOrder.
Import ListNotations.

Definition sumf (n : nat) (f : nat -> nat) : nat := list_sum (map f (seq 0 n)).

Lemma sumf_0 f : sumf 0 f = 0.
Proof. reflexivity. Qed.

Lemma sumf_S n f : sumf (S n) f = sumf n f + f n.
Proof. unfold sumf. rewrite seq_S, map_app, list_sum_app. cbn. lia. Qed.

Lemma sumf_ext n f g : (forall i, i < n -> f i = g i) -> sumf n f = sumf n g.
Proof.
  induction n as [|n IH]; intros H; [reflexivity|]. rewrite !sumf_S, IH, H; auto.
Qed.

Lemma sumf_ge n f p : p < n -> f p <= sumf n f.
Proof.
  induction n as [|n IH]; intros H; [lia|]. rewrite sumf_S.
  destruct (Nat.eq_dec p n) as [->|]; [lia|]. assert (p < n) by lia. specialize (IH H0). lia.
Qed.

(* two functions that differ at one point only *)
Lemma sumf_upd n f g p : p < n -> (forall i, i < n -> i <> p -> g i = f i) ->
  sumf n g + f p = sumf n f + g p.
Proof.
  induction n as [|n IH]; intros Hp H; [lia|]. rewrite !sumf_S.
  destruct (Nat.eq_dec p n) as [->|Hne].
  - rewrite (sumf_ext n g f); [lia|]. intros i Hi. apply H; lia.
  - rewrite (H n) by lia. assert (Hp': p < n) by lia.
    specialize (IH Hp' (fun i Hi => H i (Nat.lt_lt_succ_r _ _ Hi))). lia.
Qed.

Lemma sumf_zero n f : (forall i, i < n -> f i = 0) -> sumf n f = 0.
Proof.
  induction n as [|n IH]; intros H; [reflexivity|]. rewrite sumf_S, IH, H; auto.
Qed.

(* fewer ones than indices: some index carries a zero *)
Lemma sumf_vacancy n f : (forall i, i < n -> f i <= 1) -> sumf n f < n -> exists i, i < n /\ f i = 0.
Proof.
  induction n as [|n IH]; intros Hb H; [lia|]. rewrite sumf_S in H.
  destruct (f n) eqn:E.
  - exists n. split; [lia|assumption].
  - assert (f n <= 1) by (apply Hb; lia).
    destruct IH as (i & Hi & Hz); [intros; apply Hb; lia|lia|]. exists i. split; [lia|assumption].
Qed.

Lemma sumf_map_nth {A} (T : list A) (g : option A -> nat) :
  sumf (length T) (fun i => g (nth_error T i)) = list_sum (map (fun e => g (Some e)) T).
Proof.
  unfold sumf. f_equal.
  induction T as [|a T IH]; [reflexivity|].
  cbn [length seq map nth_error]. f_equal. rewrite <- seq_shift, map_map. exact IH.
Qed.

Lemma tupd_length T i e : i < length T -> length (tupd T i e) = length T.
Proof.
  intros H. unfold tupd. rewrite app_length. cbn [length]. rewrite firstn_length, skipn_length. lia.
Qed.

Lemma tupd_nth T i e j : i < length T ->
  nth_error (tupd T i e) j = if j =? i then Some e else nth_error T j.
Proof.
  intros H. unfold tupd. destruct (j =? i) eqn:E.
  - apply Nat.eqb_eq in E. subst j. rewrite nth_error_app2 by (rewrite firstn_length; lia).
    rewrite firstn_length. replace (i - Nat.min i (length T)) with 0 by lia. reflexivity.
  - apply Nat.eqb_neq in E. destruct (Nat.lt_ge_cases j i) as [L|L].
    + rewrite nth_error_app1 by (rewrite firstn_length; lia).
      rewrite <- (firstn_skipn i T) at 2. rewrite nth_error_app1 by (rewrite firstn_length; lia). reflexivity.
    + rewrite nth_error_app2 by (rewrite firstn_length; lia). rewrite firstn_length.
      replace (j - Nat.min i (length T)) with (S (j - S i)) by lia. cbn [nth_error].
      rewrite <- (firstn_skipn (S i) T) at 2.
      rewrite nth_error_app2 by (rewrite firstn_length; lia). rewrite firstn_length.
      f_equal. lia.
Qed.

Lemma nth_error_repeat {A} (x : A) n i : i < n -> nth_error (repeat x n) i = Some x.
Proof.
  revert i; induction n as [|n IH]; intros i H; [lia|]. destruct i; cbn; [reflexivity|]. apply IH. lia.
Qed.

Lemma am_get_In s k v : am_get s k = Some v -> In (k, v) s.
Proof.
  induction s as [|[k' v'] s IH]; cbn; [discriminate|].
  destruct (k' =? k)%N eqn:E.
  - apply N.eqb_eq in E. intros H; inversion H; subst. now left.
  - intros H. right. auto.
Qed.

Lemma am_get_None s k : am_get s k = None <-> ~ In k (map fst s).
Proof.
  induction s as [|[k' v'] s IH]; cbn; [tauto|].
  destruct (k' =? k)%N eqn:E.
  - apply N.eqb_eq in E. subst. split; [discriminate|]. intros H. exfalso. apply H. now left.
  - apply N.eqb_neq in E. rewrite IH. tauto.
Qed.

Lemma In_am_get s k v : NoDup (map fst s) -> In (k, v) s -> am_get s k = Some v.
Proof.
  induction s as [|[k' v'] s IH]; cbn; [tauto|]. intros Hn [H|H].
  - inversion H; subst. now rewrite N.eqb_refl.
  - inversion Hn; subst. destruct (k' =? k)%N eqn:E.
    + apply N.eqb_eq in E. subst. exfalso. apply H2. apply in_map_iff. exists (k, v). auto.
    + auto.
Qed.

(* two duplicate-free lists with the same pairs have the same bindings *)
Lemma am_equiv_of_In a b : NoDup (map fst a) -> NoDup (map fst b) ->
  (forall k v, In (k, v) a <-> In (k, v) b) -> am_equiv a b.
Proof.
  intros Ha Hb H k. destruct (am_get a k) as [v|] eqn:E.
  - symmetry. apply In_am_get; [assumption|]. apply H. now apply am_get_In.
  - symmetry. apply am_get_None. apply am_get_None in E. intros Hin. apply E.
    apply in_map_iff in Hin. destruct Hin as ([k' v] & Hk & Hin). cbn in Hk. subst k'.
    apply in_map_iff. exists (k, v). split; [reflexivity|]. now apply H.
Qed.

Lemma am_remove_In s k k' v : In (k', v) (am_remove s k) <-> In (k', v) s /\ k' <> k.
Proof.
  induction s as [|[k0 v0] s IH]; cbn; [tauto|].
  destruct (k0 =? k)%N eqn:E.
  - apply N.eqb_eq in E. subst. rewrite IH. split.
    + intros [H1 H2]. auto.
    + intros [[H|H] Hne]; [inversion H; subst; congruence|auto].
  - apply N.eqb_neq in E. cbn. rewrite IH. split.
    + intros [H|[H1 H2]]; [inversion H; subst; auto|auto].
    + intros [[H|H] Hne]; auto.
Qed.

Lemma am_remove_keys s k x : In x (map fst (am_remove s k)) -> In x (map fst s) /\ x <> k.
Proof.
  intros H. apply in_map_iff in H. destruct H as ([k' v] & E & Hin). cbn in E. subst.
  apply am_remove_In in Hin. destruct Hin. split; [|assumption]. apply in_map_iff. exists (x, v). auto.
Qed.

Lemma am_remove_NoDup s k : NoDup (map fst s) -> NoDup (map fst (am_remove s k)).
Proof.
  induction s as [|[k0 v0] s IH]; cbn; [auto|]. intros H. inversion H; subst.
  destruct (k0 =? k)%N; [auto|]. cbn. constructor; [|auto].
  intros Hin. apply am_remove_keys in Hin. tauto.
Qed.

Lemma am_set_NoDup s k v : NoDup (map fst s) -> NoDup (map fst (am_set s k v)).
Proof.
  intros H. unfold am_set. cbn. constructor; [|now apply am_remove_NoDup].
  intros Hin. apply am_remove_keys in Hin. tauto.
Qed.

Lemma am_set_In s k v k' v' : In (k', v') (am_set s k v) <-> (k' = k /\ v' = v) \/ (In (k', v') s /\ k' <> k).
Proof.
  unfold am_set. cbn. rewrite am_remove_In. split.
  - intros [H|H]; [inversion H; auto|auto].
  - intros [[-> ->]|H]; auto.
Qed.

Lemma am_remove_nomem s k : am_mem s k = false -> am_remove s k = s.
Proof.
  unfold am_mem. induction s as [|[k0 v0] s IH]; cbn; [auto|].
  destruct (k0 =? k)%N; [discriminate|]. intros H. f_equal. auto.
Qed.

Lemma am_mem_true_iff s k : am_mem s k = true <-> In k (map fst s).
Proof.
  unfold am_mem. destruct (am_get s k) eqn:E.
  - split; [|auto]. intros _. apply am_get_In in E. apply in_map_iff. exists (k, n). auto.
  - apply am_get_None in E. split; [discriminate|tauto].
Qed.

Lemma am_remove_length_mem s k : NoDup (map fst s) -> am_mem s k = true ->
  S (length (am_remove s k)) = length s.
Proof.
  unfold am_mem. induction s as [|[k0 v0] s IH]; cbn; [discriminate|]. intros Hn.
  inversion Hn; subst. destruct (k0 =? k)%N eqn:E.
  - intros _. f_equal. apply N.eqb_eq in E. subst. rewrite am_remove_nomem; [reflexivity|].
    destruct (am_mem s k) eqn:M; [|reflexivity]. apply am_mem_true_iff in M. contradiction.
  - intros H. cbn. f_equal. auto.
Qed.

Lemma id_next_nxt k j : id_next (2 ^ k) j = nxt (2 ^ k) j.
Proof.
  unfold id_next, nxt. replace (2 ^ k - 1) with (Nat.ones k) by (rewrite Nat.ones_equiv; lia).
  apply Nat.land_ones.
Qed.

Lemma id_index_lt k id : id_index (2 ^ k) id < 2 ^ k.
Proof.
  unfold id_index.
  assert (E: (N.of_nat (2 ^ k) - 1 = N.ones (N.of_nat k))%N).
  { rewrite N.ones_equiv. rewrite Nat2N.inj_pow. cbn. lia. }
  rewrite E, N.land_ones.
  assert (id mod 2 ^ N.of_nat k < 2 ^ N.of_nat k)%N by (apply N.mod_lt; apply N.pow_nonzero; lia).
  assert (N.of_nat (2 ^ k) = 2 ^ N.of_nat k)%N by (rewrite Nat2N.inj_pow; reflexivity).
  lia.
Qed.
