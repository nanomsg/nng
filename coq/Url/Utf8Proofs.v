(* Utf8Proofs: the model of url_utf8_validate (Utf8Model.v) against the
   RFC 3629 grammar (Utf8Spec.v): both variants stay in bounds, the repaired
   one accepts exactly the grammar, the pinned one accepts more. *)
From Coq Require Import List Arith Lia Bool NArith.
From NngV Require Import Url.Utf8Model Url.Utf8Spec.
From NngV Require Base.ListX.
Import ListNotations.
Local Open Scope N_scope.

Definition byte_nz (b : N) : Prop := 0 < b /\ b < 256.

Lemma nz_eqb0 c : byte_nz c -> (c =? 0) = false.
Proof. intros [H _]. apply N.eqb_neq. lia. Qed.

(* boolean comparison hypotheses -> Prop (no case split) *)
Ltac b2p :=
  repeat match goal with
  | H : _ && _ = true |- _ => apply andb_true_iff in H; destruct H
  | H : (_ <=? _) = true |- _ => apply N.leb_le in H
  | H : (_ <=? _) = false |- _ => apply N.leb_gt in H
  | H : (_ <? _) = true |- _ => apply N.ltb_lt in H
  | H : (_ <? _) = false |- _ => apply N.ltb_ge in H
  | H : (_ =? _) = true |- _ => apply N.eqb_eq in H
  | H : (_ =? _) = false |- _ => apply N.eqb_neq in H
  end.

Lemma range_false lo hi v : (lo <=? v) && (v <=? hi) = false -> v < lo \/ hi < v.
Proof. intros H. apply andb_false_iff in H. destruct H as [H|H]; apply N.leb_gt in H; auto. Qed.

(* same, and a failed range test becomes a disjunction (no case split) *)
Ltac b2pf :=
  repeat first
  [ progress b2p
  | match goal with
    | H : (_ <=? _) && (_ <=? _) = false |- _ => apply range_false in H
    end ].

Lemma rng_true lo hi b : lo <= b /\ b <= hi -> rng lo hi b = true.
Proof.
  intros [H1 H2]. unfold rng.
  rewrite (proj2 (N.leb_le lo b) H1), (proj2 (N.leb_le b hi) H2). reflexivity.
Qed.

Lemma rng_false lo hi b : b < lo \/ hi < b -> rng lo hi b = false.
Proof.
  intros [H|H]; unfold rng.
  - rewrite (proj2 (N.leb_gt lo b) H). reflexivity.
  - rewrite (proj2 (N.leb_gt b hi) H). apply andb_false_r.
Qed.

Lemma tl_true b : 128 <= b /\ b <= 191 -> tl_b b = true.
Proof. apply rng_true. Qed.

Lemma tl_false b : b < 128 \/ 191 < b -> tl_b b = false.
Proof. apply rng_false. Qed.

(* decide one boolean test of the goal by lia *)
Ltac tst1 :=
  match goal with
  | |- context [N.ltb ?a ?b] =>
      first [ rewrite (proj2 (N.ltb_lt a b)) by lia | rewrite (proj2 (N.ltb_ge a b)) by lia ]
  | |- context [N.leb ?a ?b] =>
      first [ rewrite (proj2 (N.leb_le a b)) by lia | rewrite (proj2 (N.leb_gt a b)) by lia ]
  | |- context [N.eqb ?a ?b] =>
      first [ rewrite (proj2 (N.eqb_eq a b)) by lia | rewrite (proj2 (N.eqb_neq a b)) by lia ]
  | |- context [rng ?lo ?hi ?b] =>
      first [ rewrite (rng_true lo hi b) by lia | rewrite (rng_false lo hi b) by lia ]
  | |- context [tl_b ?b] =>
      first [ rewrite (tl_true b) by lia | rewrite (tl_false b) by lia ]
  end.
Ltac tst := repeat first [ tst1 | progress cbn [andb negb] ].

(* the validator's masks on a byte as ranges and subtractions: finite facts,
   each by a sweep over the 256 bytes *)
Definition bytes256 : list N := map N.of_nat (seq 0 256).


Lemma sweep_eqb (f g : N -> bool) :
  forallb (fun b => Bool.eqb (f b) (g b)) bytes256 = true ->
  forall b, b < 256 -> f b = g b.
Proof. intros H b Hb. apply eqb_prop. exact (ListX.forall_below 256 _ H b Hb). Qed.

Lemma sweep_rng (lo hi : N) (f g : N -> N) : hi <= 256 ->
  forallb (fun b => implb ((lo <=? b) && (b <? hi)) (f b =? g b)) bytes256 = true ->
  forall b, lo <= b -> b < hi -> f b = g b.
Proof.
  intros Hhi H b Hl Hh. assert (Hb : b < 256) by lia.
  pose proof (ListX.forall_below 256 _ H b Hb) as E. cbv beta in E.
  rewrite (proj2 (N.leb_le lo b) Hl), (proj2 (N.ltb_lt b hi) Hh) in E.
  cbn [andb implb] in E. apply N.eqb_eq. exact E.
Qed.

Lemma T128 : forall b, b < 256 -> (N.land b 128 =? 0) = (b <? 128).
Proof. apply sweep_eqb. vm_compute. reflexivity. Qed.

Lemma T224 : forall b, b < 256 -> (N.land b 224 =? 192) = (192 <=? b) && (b <? 224).
Proof. apply sweep_eqb. vm_compute. reflexivity. Qed.

Lemma T240 : forall b, b < 256 -> (N.land b 240 =? 224) = (224 <=? b) && (b <? 240).
Proof. apply sweep_eqb. vm_compute. reflexivity. Qed.

Lemma T248 : forall b, b < 256 -> (N.land b 248 =? 240) = (240 <=? b) && (b <? 248).
Proof. apply sweep_eqb. vm_compute. reflexivity. Qed.

Lemma T192 : forall b, b < 256 -> (N.land b 192 =? 128) = (128 <=? b) && (b <? 192).
Proof. apply sweep_eqb. vm_compute. reflexivity. Qed.

Lemma V31 : forall b, 192 <= b -> b < 224 -> N.land b 31 = b - 192.
Proof. apply sweep_rng; [discriminate|vm_compute; reflexivity]. Qed.

Lemma V15 : forall b, 224 <= b -> b < 240 -> N.land b 15 = b - 224.
Proof. apply sweep_rng; [discriminate|vm_compute; reflexivity]. Qed.

Lemma V7 : forall b, 240 <= b -> b < 248 -> N.land b 7 = b - 240.
Proof. apply sweep_rng; [discriminate|vm_compute; reflexivity]. Qed.

Lemma V63 : forall b, 128 <= b -> b < 192 -> N.land b 63 = b - 128.
Proof. apply sweep_rng; [discriminate|vm_compute; reflexivity]. Qed.

Lemma u32_small v : v < 4294967296 -> u32 v = v.
Proof. intros. unfold u32. apply N.mod_small. assumption. Qed.

(* [hdr_of] and [after_cont] name the two inline parts of utf8_loop (header decoding; the range tests
   after the continuation bytes) so that lemmas can rewrite them: loop_eq holds by reflexivity *)
Definition hdr_of (b : N) : option (N * N * nat) :=
  if N.land b 224 =? 192 then Some (N.land b 31, 128, 1%nat)
  else if N.land b 240 =? 224 then Some (N.land b 15, 2048, 2%nat)
  else if N.land b 248 =? 240 then Some (N.land b 7, 65536, 3%nat)
  else None.

Definition after_cont (fixed : bool) (f : nat) (minv : N)
           (c : option (option (list N * N))) : option bool :=
  match c with
  | None => None
  | Some None => Some false
  | Some (Some (s2, v2)) =>
      if v2 <? minv then Some false
      else if (55296 <=? v2) && (v2 <=? 57343) then Some false
      else if 1114111 <? v2 then Some false
      else utf8_loop fixed f s2
  end.

Lemma loop_eq fixed f b s' :
  utf8_loop fixed (S f) (b :: s') =
  if b =? 0 then Some true
  else if N.land b 128 =? 0 then utf8_loop fixed f s'
  else match hdr_of b with
       | None => Some false
       | Some (v, minv, nb) => after_cont fixed f minv (utf8_cont fixed s' nb v)
       end.
Proof. reflexivity. Qed.

Lemma hdr_bad b : b < 256 -> (128 <= b /\ b < 192) \/ 248 <= b -> hdr_of b = None.
Proof.
  intros Hb H. unfold hdr_of. rewrite T224, T240, T248 by assumption.
  destruct H as [H|H]; tst; reflexivity.
Qed.

Lemma hdr_2 b : 192 <= b /\ b < 224 -> hdr_of b = Some (b - 192, 128, 1%nat).
Proof.
  intros H. unfold hdr_of. rewrite T224 by lia. tst. rewrite V31 by lia. reflexivity.
Qed.

Lemma hdr_3 b : 224 <= b /\ b < 240 -> hdr_of b = Some (b - 224, 2048, 2%nat).
Proof.
  intros H. unfold hdr_of. rewrite T224, T240 by lia. tst. rewrite V15 by lia. reflexivity.
Qed.

Lemma hdr_4 b : 240 <= b /\ b < 248 -> hdr_of b = Some (b - 240, 65536, 3%nat).
Proof.
  intros H. unfold hdr_of. rewrite T224, T240, T248 by lia. tst. rewrite V7 by lia. reflexivity.
Qed.

Lemma cont_0 fixed s v : utf8_cont fixed s 0 v = Some (Some (s, v)).
Proof. destruct s; reflexivity. Qed.

(* the NUL is not a continuation byte *)
Lemma cont_nul fixed s k v : utf8_cont fixed (0 :: s) (S k) v = Some None.
Proof. reflexivity. Qed.

(* one continuation byte, repaired order *)
Lemma cont_true_cons t s k v :
  t < 256 -> v < 67108864 ->
  utf8_cont true (t :: s) (S k) v =
  if (128 <=? t) && (t <? 192) then utf8_cont true s k (v * 64 + (t - 128)) else Some None.
Proof.
  intros Ht Hv. cbn [utf8_cont]. rewrite T192 by assumption.
  destruct ((128 <=? t) && (t <? 192)) eqn:E; cbn [negb]; [|reflexivity].
  b2p. rewrite V63 by lia.
  rewrite (u32_small (v * 64)) by lia. rewrite u32_small by lia. reflexivity.
Qed.

(* past a continuation byte the two variants differ only in the value they
   carry on, and that does not depend on what follows the NUL *)
Lemma cont_step fixed b l k v : negb (N.land b 192 =? 128) = false ->
  exists w, forall tail,
    utf8_cont fixed ((b :: l) ++ 0 :: tail) (S k) v = utf8_cont fixed (l ++ 0 :: tail) k w.
Proof.
  intros E. destruct fixed.
  - eexists. intros tail. cbn [app utf8_cont]. rewrite E. reflexivity.
  - exists (u32 (u32 (v * 64) + N.land (match l with [] => 0 | x :: _ => x end) 63)).
    intros tail. cbn [app utf8_cont]. rewrite E. destruct l; reflexivity.
Qed.

Lemma cont_tail fixed nb : forall l v, Forall byte_nz l ->
  (forall tail, utf8_cont fixed (l ++ 0 :: tail) nb v = Some None) \/
  (exists l2 v2, (length l2 <= length l)%nat /\ Forall byte_nz l2 /\
     forall tail, utf8_cont fixed (l ++ 0 :: tail) nb v = Some (Some (l2 ++ 0 :: tail, v2))).
Proof.
  induction nb as [|k IH]; intros l v HF.
  - right. exists l, v. split; [lia|]. split; [assumption|]. intros; apply cont_0.
  - destruct l as [|b l1]; [left; intros; reflexivity|].
    destruct (negb (N.land b 192 =? 128)) eqn:E.
    + left. intros. cbn [app utf8_cont]. rewrite E. reflexivity.
    + destruct (cont_step fixed b l1 k v E) as (w & Hw).
      destruct (IH l1 w (Forall_inv_tail HF)) as [Hn | (l2 & v2 & Hl & HF2 & Hc)].
      * left. intros. rewrite Hw. apply Hn.
      * right. exists l2, v2. split; [simpl; lia|]. split; [assumption|].
        intros. rewrite Hw. apply Hc.
Qed.

Lemma loop_tail_gen fixed : forall f1 f2 l tail1 tail2,
  (length l < f1)%nat -> (length l < f2)%nat -> Forall byte_nz l ->
  exists r, utf8_loop fixed f1 (l ++ 0 :: tail1) = Some r /\
            utf8_loop fixed f2 (l ++ 0 :: tail2) = Some r.
Proof.
  induction f1 as [|f1 IH]; intros f2 l t1 t2 H1 H2 HF; [lia|].
  destruct f2 as [|f2]; [lia|].
  destruct l as [|b l1].
  - exists true. split; reflexivity.
  - inversion HF as [|? ? Hb HF1]; subst. cbn [app]. rewrite !loop_eq.
    simpl in H1, H2.
    destruct (b =? 0). { exists true; split; reflexivity. }
    destruct (N.land b 128 =? 0). { apply IH; [lia|lia|assumption]. }
    destruct (hdr_of b) as [[[v minv] nb]|]. 2:{ exists false; split; reflexivity. }
    destruct (cont_tail fixed nb l1 v HF1) as [Hn | (l2 & v2 & Hl & HF2 & Hc)].
    + rewrite (Hn t1), (Hn t2). exists false. split; reflexivity.
    + rewrite (Hc t1), (Hc t2). unfold after_cont.
      destruct (v2 <? minv). { exists false; split; reflexivity. }
      destruct ((55296 <=? v2) && (v2 <=? 57343)). { exists false; split; reflexivity. }
      destruct (1114111 <? v2). { exists false; split; reflexivity. }
      apply IH; [lia|lia|assumption].
Qed.

(* never reads beyond the terminating NUL, never runs out of fuel: both variants *)
Theorem utf8_validate_total : forall fixed l tail, Forall byte_nz l ->
  exists r, utf8_validate fixed (l ++ 0 :: tail) = Some r.
Proof.
  intros fixed l tail HF. unfold utf8_validate.
  destruct (loop_tail_gen fixed (S (length (l ++ 0 :: tail))) (S (length l)) l tail tail)
    as (r & H1 & _); try assumption.
  - rewrite app_length. simpl. lia.
  - lia.
  - exists r. exact H1.
Qed.

Theorem utf8_validate_tail_irrelevant : forall fixed l tail, Forall byte_nz l ->
  utf8_validate fixed (l ++ 0 :: tail) = utf8_validate fixed (l ++ [0]).
Proof.
  intros fixed l tail HF. unfold utf8_validate.
  destruct (loop_tail_gen fixed (S (length (l ++ 0 :: tail))) (S (length (l ++ [0]))) l tail [])
    as (r & H1 & H2); try assumption.
  - rewrite app_length. simpl. lia.
  - rewrite app_length. simpl. lia.
  - rewrite H1, H2. reflexivity.
Qed.

(* the one-step unfolding of wf_utf8b, stated so that cbn need not unfold the recursive calls *)
Lemma wfb_cons b r :
  wf_utf8b (b :: r) =
  if b <=? 127 then wf_utf8b r
  else match r with
  | [] => false
  | t1 :: r1 =>
      if rng 194 223 b then tl_b t1 && wf_utf8b r1
      else match r1 with
      | [] => false
      | t2 :: r2 =>
          if b =? 224 then rng 160 191 t1 && tl_b t2 && wf_utf8b r2
          else if rng 225 236 b then tl_b t1 && tl_b t2 && wf_utf8b r2
          else if b =? 237 then rng 128 159 t1 && tl_b t2 && wf_utf8b r2
          else if rng 238 239 b then tl_b t1 && tl_b t2 && wf_utf8b r2
          else match r2 with
          | [] => false
          | t3 :: r3 =>
              if b =? 240 then rng 144 191 t1 && tl_b t2 && tl_b t3 && wf_utf8b r3
              else if rng 241 243 b then tl_b t1 && tl_b t2 && tl_b t3 && wf_utf8b r3
              else if b =? 244 then rng 128 143 t1 && tl_b t2 && tl_b t3 && wf_utf8b r3
              else false
          end
      end
  end.
Proof. reflexivity. Qed.

Lemma wfb_complete l : wf_utf8 l -> wf_utf8b l = true.
Proof.
  induction 1; [reflexivity | ..];
    rewrite wfb_cons; unfold tail_byte, in_range in *; tst; assumption.
Qed.

(* a leaf of wfb_sound: the tests passed so far as Props give the premises of grammar rule [c],
   the rest of the list is well formed by IH *)
Ltac wfb_leaf IH c :=
  unfold tl_b, rng in *; b2p; subst;
  apply c; unfold tail_byte, in_range; try lia;
  apply IH; [simpl in *; lia | assumption].

Lemma wfb_sound : forall n l, (length l <= n)%nat -> wf_utf8b l = true -> wf_utf8 l.
Proof.
  induction n as [|n IH]; intros l Hlen H.
  - destruct l; [constructor | simpl in Hlen; lia].
  - destruct l as [|b r]; [constructor|]. simpl in Hlen. rewrite wfb_cons in H.
    destruct (b <=? 127) eqn:E; cbv beta iota in H.
    { b2p. apply wf_1; [lia | apply IH; [lia | assumption]]. }
    clear E. destruct r as [|t1 r1]; cbv beta iota in H; [discriminate|].
    destruct (rng 194 223 b) eqn:E; cbv beta iota in H; [wfb_leaf IH wf_2|clear E].
    destruct r1 as [|t2 r2]; cbv beta iota in H; [discriminate|].
    destruct (b =? 224) eqn:E; cbv beta iota in H; [wfb_leaf IH wf_3a|clear E].
    destruct (rng 225 236 b) eqn:E; cbv beta iota in H; [wfb_leaf IH wf_3b|clear E].
    destruct (b =? 237) eqn:E; cbv beta iota in H; [wfb_leaf IH wf_3c|clear E].
    destruct (rng 238 239 b) eqn:E; cbv beta iota in H; [wfb_leaf IH wf_3d|clear E].
    destruct r2 as [|t3 r3]; cbv beta iota in H; [discriminate|].
    destruct (b =? 240) eqn:E; cbv beta iota in H; [wfb_leaf IH wf_4a|clear E].
    destruct (rng 241 243 b) eqn:E; cbv beta iota in H; [wfb_leaf IH wf_4b|clear E].
    destruct (b =? 244) eqn:E; cbv beta iota in H; [wfb_leaf IH wf_4c|discriminate].
Qed.

Theorem wf_utf8b_iff : forall l, wf_utf8b l = true <-> wf_utf8 l.
Proof.
  intros l. split.
  - apply (wfb_sound (length l)). lia.
  - apply wfb_complete.
Qed.

(* a multi-byte case of fixed_complete: the rule's premises decide the header tests, [hdr] gives the
   header, cont_true_cons takes the continuation bytes one by one, the premises decide the three
   range tests of after_cont, and the rest is the induction hypothesis *)
Ltac mb hdr :=
  unfold tail_byte, in_range in *; tst; rewrite T128 by lia; tst;
  rewrite hdr by lia; unfold after_cont;
  rewrite !cont_true_cons by lia; tst; rewrite cont_0; tst;
  match goal with
  | IH : forall (f : nat) (tail : list N), _ -> _, Hlen : (_ < _)%nat |- _ =>
      apply IH; simpl in Hlen; lia
  end.

Lemma fixed_complete l : wf_utf8 l ->
  forall f tail, (length l < f)%nat -> utf8_loop true f (l ++ 0 :: tail) = Some true.
Proof.
  induction 1; intros f tail Hlen;
    (destruct f as [|f]; [simpl in Hlen; lia|]); cbn [app]; rewrite loop_eq.
  - reflexivity.
  - destruct (N.eq_dec b 0) as [->|Hnz]; [reflexivity|].
    tst. rewrite T128 by lia. tst. apply IHwf_utf8. simpl in Hlen. lia.
  - mb hdr_2.
  - mb hdr_3.
  - mb hdr_3.
  - mb hdr_3.
  - mb hdr_3.
  - mb hdr_4.
  - mb hdr_4.
  - mb hdr_4.
Qed.

(* H : (if c then Some false else ...) = Some true, repeatedly: c is false *)
Ltac killifs H :=
  repeat (cbv beta iota in H;
          match type of H with
          | (if ?c then Some false else _) = Some true =>
              destruct c eqn:?; [cbv beta iota in H; discriminate H|]
          end).

(* peel one continuation byte off hypothesis H *)
Ltac peel H HF t l' HF' :=
  match type of HF with
  | Forall _ ?l =>
      destruct l as [|t l'];
      [cbn [app] in H; rewrite cont_nul in H; cbv beta iota in H; discriminate H|];
      inversion HF as [|? ? [? ?] HF']; subst;
      cbn [app] in H; rewrite cont_true_cons in H by lia;
      let E := fresh "E" in
      destruct ((128 <=? t) && (t <? 192)) eqn:E;
      [|cbv beta iota in H; discriminate H];
      cbv beta iota in H; b2p
  end.

(* the checks on the decoded value select the grammar's ranges for the
   first continuation byte *)
Lemma wf2_of b t1 r : 192 <= b /\ b < 224 -> 128 <= t1 -> t1 < 192 ->
  128 <= (b - 192) * 64 + (t1 - 128) -> wf_utf8 r -> wf_utf8 (b :: t1 :: r).
Proof. intros Hb L1 U1 Hv W. apply wf_2; unfold tail_byte, in_range; try lia; assumption. Qed.

Lemma wf3_of b t1 t2 r : 224 <= b /\ b < 240 -> 128 <= t1 -> t1 < 192 -> 128 <= t2 -> t2 < 192 ->
  let v := ((b - 224) * 64 + (t1 - 128)) * 64 + (t2 - 128) in
  2048 <= v -> v < 55296 \/ 57343 < v -> wf_utf8 r -> wf_utf8 (b :: t1 :: t2 :: r).
Proof.
  intros Hb L1 U1 L2 U2 v Hv Hs W. subst v.
  assert (D : (b = 224 /\ 160 <= t1) \/ (225 <= b /\ b <= 236) \/ (b = 237 /\ t1 <= 159) \/
              (238 <= b /\ b <= 239)) by lia.
  destruct D as [[-> D]|[D|[[-> D]|D]]];
    [apply wf_3a | apply wf_3b | apply wf_3c | apply wf_3d];
    unfold tail_byte, in_range; try lia; assumption.
Qed.

Lemma wf4_of b t1 t2 t3 r : 240 <= b /\ b < 248 ->
  128 <= t1 -> t1 < 192 -> 128 <= t2 -> t2 < 192 -> 128 <= t3 -> t3 < 192 ->
  let v := (((b - 240) * 64 + (t1 - 128)) * 64 + (t2 - 128)) * 64 + (t3 - 128) in
  65536 <= v -> v <= 1114111 -> wf_utf8 r -> wf_utf8 (b :: t1 :: t2 :: t3 :: r).
Proof.
  intros Hb L1 U1 L2 U2 L3 U3 v Hv Hm W. subst v.
  assert (D : (b = 240 /\ 144 <= t1) \/ (241 <= b /\ b <= 243) \/ (b = 244 /\ t1 <= 143)) by lia.
  destruct D as [[-> D]|[D|[-> D]]];
    [apply wf_4a | apply wf_4b | apply wf_4c];
    unfold tail_byte, in_range; try lia; assumption.
Qed.

Lemma fixed_sound : forall f l tail,
  (length l < f)%nat -> Forall byte_nz l ->
  utf8_loop true f (l ++ 0 :: tail) = Some true -> wf_utf8 l.
Proof.
  induction f as [|f IH]; intros l tail Hlen HF H; [lia|].
  destruct l as [|b l1]; [constructor|].
  inversion HF as [|? ? [Hb0 Hb] HF1]; subst.
  cbn [app] in H. rewrite loop_eq in H. simpl in Hlen.
  rewrite (proj2 (N.eqb_neq b 0)) in H by lia.
  rewrite T128 in H by assumption.
  destruct (b <? 128) eqn:E; cbv beta iota in H; b2p.
  - apply wf_1; [lia|]. apply (IH l1 tail); [lia|assumption|assumption].
  - assert (C : (b < 192 \/ 248 <= b) \/ (192 <= b /\ b < 224) \/
                (224 <= b /\ b < 240) \/ (240 <= b /\ b < 248)) by lia.
    destruct C as [C|[C|[C|C]]].
    + rewrite hdr_bad in H by lia. discriminate.
    + rewrite hdr_2 in H by lia. unfold after_cont in H.
      peel H HF1 t1 l2 HF2.
      rewrite cont_0 in H. killifs H. b2pf.
      apply wf2_of; auto. apply (IH l2 tail); [simpl in *; lia|assumption|assumption].
    + rewrite hdr_3 in H by lia. unfold after_cont in H.
      peel H HF1 t1 l2 HF2.
      peel H HF2 t2 l3 HF3.
      rewrite cont_0 in H. killifs H. b2pf.
      apply wf3_of; auto. apply (IH l3 tail); [simpl in *; lia|assumption|assumption].
    + rewrite hdr_4 in H by lia. unfold after_cont in H.
      peel H HF1 t1 l2 HF2.
      peel H HF2 t2 l3 HF3.
      peel H HF3 t3 l4 HF4.
      rewrite cont_0 in H. killifs H. b2pf.
      apply wf4_of; auto. apply (IH l4 tail); [simpl in *; lia|assumption|assumption].
Qed.

Theorem utf8_validate_fixed_iff_wf : forall l tail, Forall byte_nz l ->
  (utf8_validate true (l ++ 0 :: tail) = Some true <-> wf_utf8 l).
Proof.
  intros l tail HF. unfold utf8_validate. split.
  - apply fixed_sound; [|assumption]. rewrite app_length. simpl. lia.
  - intros W. apply fixed_complete; [assumption|]. rewrite app_length. simpl. lia.
Qed.

(* the hypotheses are satisfiable: U+20AC, then 'a' *)
Example utf8_fixed_accepts_euro :
  Forall byte_nz [226; 130; 172; 97] /\
  utf8_validate true ([226; 130; 172; 97] ++ [0]) = Some true.
Proof. split; [repeat constructor | vm_compute; reflexivity]. Qed.

(* E0 9F BF: an overlong encoding (of U+07FF) *)
Lemma utf8_pinned_accepts_overlong :
  Forall byte_nz [224; 159; 191] /\
  utf8_validate false ([224; 159; 191] ++ [0]) = Some true /\
  ~ wf_utf8 [224; 159; 191].
Proof.
  split; [repeat constructor|]. split; [vm_compute; reflexivity|].
  rewrite <- wf_utf8b_iff. vm_compute. discriminate.
Qed.

(* ED A0 80 'x': a surrogate (U+D800) *)
Lemma utf8_pinned_accepts_surrogate :
  Forall byte_nz [237; 160; 128; 120] /\
  utf8_validate false ([237; 160; 128; 120] ++ [0]) = Some true /\
  ~ wf_utf8 [237; 160; 128; 120].
Proof.
  split; [repeat constructor|]. split; [vm_compute; reflexivity|].
  rewrite <- wf_utf8b_iff. vm_compute. discriminate.
Qed.

(* the repaired validator rejects both *)
Example utf8_fixed_rejects_witnesses :
  utf8_validate true ([224; 159; 191] ++ [0]) = Some false /\
  utf8_validate true ([237; 160; 128; 120] ++ [0]) = Some false.
Proof. split; vm_compute; reflexivity. Qed.

(* the pinned validator accepts an overlong form and a surrogate *)
Theorem utf8_validate_pinned_refuted :
  exists l, Forall byte_nz l /\ utf8_validate false (l ++ [0]) = Some true /\ ~ wf_utf8 l.
Proof. exists [224; 159; 191]. exact utf8_pinned_accepts_overlong. Qed.
