(* UrlParseProofs: lemmas about UrlParseModel -- scheme exactness, the shape
   of the buffer after every phase of the parser (hence: no out-of-bounds
   access on any NUL-terminated input), canonical form of the accepted
   components, clone. *)
From Coq Require Import List Arith Lia Bool NArith.
From NngV Require Import Base.ListX Url.Utf8Model Url.Utf8Spec Url.Utf8Proofs Url.CanonModel Url.CanonPure Url.CanonRefine
  Url.CanonSpec Url.CanonProofs Url.UrlParseModel.
Import ListNotations.
Local Open Scope N_scope.

Definition nz (l : list N) : Prop := Forall byte_nz l.

Lemma nz_app a b : nz (a ++ b) <-> nz a /\ nz b.
Proof. unfold nz. apply Forall_app. Qed.
Lemma nz_cons x a : nz (x :: a) <-> byte_nz x /\ nz a.
Proof. unfold nz. split; intros H; [inversion H; auto | destruct H; constructor; auto]. Qed.
Lemma nz_firstn n a : nz a -> nz (firstn n a).
Proof. intros H. rewrite <- (firstn_skipn n a) in H. apply nz_app in H. tauto. Qed.
Lemma nz_skipn n a : nz a -> nz (skipn n a).
Proof. intros H. rewrite <- (firstn_skipn n a) in H. apply nz_app in H. tauto. Qed.

(* equations between concrete concatenations: lnorm reassociates to the right, lsolve closes a list
   equation and lensolve a length one that way, fin also peels equal heads (f_equal) and uses lia *)
Ltac lnorm := repeat first [rewrite <- app_assoc | progress cbn [app]].
Ltac lsolve := lnorm; reflexivity.
Ltac lensolve := repeat first [rewrite app_length | progress cbn [length]]; lia.
Ltac fin := lnorm; repeat first [rewrite app_length | progress cbn [length]]; repeat (f_equal; try lia); try reflexivity.

Lemma brd_at b a x r n : b = a ++ x :: r -> n = length a -> brd b n = Some x.
Proof. intros -> ->. unfold brd. rewrite nth_error_app2 by apply le_n. rewrite Nat.sub_diag. reflexivity. Qed.

Lemma bwr_at b a x r n c : b = a ++ x :: r -> n = length a -> bwr b n c = Some (a ++ c :: r).
Proof.
  intros -> ->. unfold bwr. rewrite app_length. simpl length.
  destruct (length a <? length a + S (length r))%nat eqn:E; [|apply Nat.ltb_ge in E; lia].
  f_equal. rewrite firstn_app_exact by reflexivity. f_equal. f_equal.
  replace (S (length a)) with (length (a ++ [x])) by (rewrite app_length; simpl; lia).
  replace (a ++ x :: r) with ((a ++ [x]) ++ r) by (rewrite <- app_assoc; reflexivity).
  apply skipn_app_exact. reflexivity.
Qed.

Lemma sub_at {A} (b pre mid post : list A) n k : b = pre ++ mid ++ post -> n = length pre -> k = length mid ->
  sub b n k = Some mid.
Proof.
  intros -> -> ->. rewrite sub_Some by (rewrite !app_length; lia).
  rewrite skipn_app_exact by reflexivity. rewrite firstn_app_exact by reflexivity. reflexivity.
Qed.

Lemma blit_at {A} (b pre mid post new : list A) n : b = pre ++ mid ++ post -> n = length pre ->
  length new = length mid -> blit b n new = Some (pre ++ new ++ post).
Proof.
  intros -> -> H. rewrite blit_Some by (rewrite !app_length; lia).
  rewrite firstn_app_exact by reflexivity. f_equal. f_equal. f_equal.
  rewrite H. rewrite app_assoc. apply skipn_app_exact. rewrite app_length. reflexivity.
Qed.

(* the first stop byte of a NUL-terminated text is its NUL or a byte of the text *)
Lemma find_idx_cut stop mid T : stop 0 = true ->
  (forallb (fun c => negb (stop c)) mid = true /\
   c_find_idx stop (mid ++ 0 :: T) = Some (length mid)) \/
  (exists m1 x m2, mid = m1 ++ x :: m2 /\ stop x = true /\
   forallb (fun c => negb (stop c)) m1 = true /\ c_find_idx stop (mid ++ 0 :: T) = Some (length m1)).
Proof.
  intros H0. induction mid as [|c r IH]; cbn [app c_find_idx].
  - left. rewrite H0. auto.
  - destruct (stop c) eqn:E.
    + right. exists [], c, r. auto.
    + destruct IH as [[F IH]|(m1 & x & m2 & -> & Sx & F & IH)]; rewrite IH; cbn [option_map].
      * left. cbn [forallb]. rewrite E, F. auto.
      * right. exists (c :: m1), x, m2. cbn [forallb]. rewrite E, F. auto.
Qed.

(* A scan from the end of [A] over the NUL-free [mid] and its terminator:
   it stops at the NUL, or [mid] splits at its first stop byte; that byte is
   what is read there, and overwriting it cuts the text in two. *)
Lemma scan_cut stop A n mid T : length A = n -> nz mid -> stop 0 = true ->
  let b := A ++ mid ++ 0 :: T in
  (forallb (fun c => negb (stop c)) mid = true /\
   c_scan stop b n = Some (n + length mid)%nat /\ brd b (n + length mid) = Some 0) \/
  (exists m1 x m2, mid = m1 ++ x :: m2 /\ nz m1 /\ byte_nz x /\ nz m2 /\ stop x = true /\
   forallb (fun c => negb (stop c)) m1 = true /\
   c_scan stop b n = Some (n + length m1)%nat /\ brd b (n + length m1) = Some x /\
   forall z, bwr b (n + length m1) z = Some ((A ++ m1 ++ [z]) ++ m2 ++ 0 :: T)).
Proof.
  intros <- Hm H0 b. subst b. unfold c_scan. rewrite skipn_app_exact by reflexivity.
  destruct (find_idx_cut stop mid T H0) as [[F E]|(m1 & x & m2 & -> & Sx & F & E)];
    rewrite E; cbn [option_map].
  - left. split; [exact F|]. split; [reflexivity|].
    apply (brd_at _ (A ++ mid) 0 T); [lsolve|lensolve].
  - right. exists m1, x, m2.
    apply nz_app in Hm. destruct Hm as [Hm1 Hm]. apply nz_cons in Hm. destruct Hm as [Hx Hm2].
    refine (conj eq_refl (conj Hm1 (conj Hx (conj Hm2 (conj Sx (conj F (conj eq_refl (conj _ _)))))))).
    + apply (brd_at _ (A ++ m1) x (m2 ++ 0 :: T)); [lsolve|lensolve].
    + intros z. rewrite (bwr_at _ (A ++ m1) x (m2 ++ 0 :: T)) by (try lsolve; lensolve).
      f_equal. lsolve.
Qed.

Lemma strlen_at b pre mid post n : b = pre ++ mid ++ 0 :: post -> n = length pre -> nz mid ->
  c_strlen b n = Some (length mid).
Proof.
  intros -> -> H. unfold c_strlen.
  destruct (scan_cut c_is0 pre _ mid post eq_refl H eq_refl)
    as [(_ & Hs & _)|(m1 & x & m2 & _ & _ & Hx & _ & Sx & _)].
  - rewrite Hs. cbn [option_map]. f_equal. lia.
  - unfold c_is0 in Sx. rewrite (nz_eqb0 _ Hx) in Sx. discriminate.
Qed.

Lemma cstr_at_at b pre mid post n : b = pre ++ mid ++ 0 :: post -> n = length pre -> nz mid ->
  cstr_at b n = Some mid.
Proof.
  intros E En H. unfold cstr_at. rewrite (strlen_at _ pre mid post n E En H).
  apply (sub_at _ pre mid (0 :: post) _ _ E En eq_refl).
Qed.

Lemma stop_nz_eq x k : byte_nz x -> ((x =? k) || (x =? 0)) = true -> x = k.
Proof. intros Hx H. rewrite (nz_eqb0 _ Hx), orb_false_r in H. apply N.eqb_eq. exact H. Qed.

(* strncmp against a NUL-free literal never leaves a NUL-terminated text, and
   succeeds only if the literal lies inside the text *)
Lemma strncmp_lit_in lit : Forall (fun x => x <> 0) lit -> forall A R tail,
  exists m, strncmp_lit (A ++ R ++ 0 :: tail) (length A) lit = Some m /\
            (m = true -> exists R', R = lit ++ R').
Proof.
  intros NZ A R tail.
  rewrite (strncmp_lit_list _ _ _ (R ++ 0 :: tail)) by (apply skipn_app_exact; reflexivity).
  revert R. induction NZ as [|x lit Hx NZ IH]; intros R.
  - exists true. split; [reflexivity|]. intros _. exists R. reflexivity.
  - cbn [strncmp_list]. destruct R as [|c R]; cbn [app].
    + destruct (N.eqb_spec 0 x) as [E|E]; [congruence|]. exists false. split; [reflexivity|discriminate].
    + destruct (N.eqb_spec c x) as [->|E]; [|exists false; split; [reflexivity|discriminate]].
      destruct (IH R) as (m & Hm & Hin). exists m. split; [exact Hm|].
      intros Em. destruct (Hin Em) as (R' & ->). exists R'. reflexivity.
Qed.

Lemma strncmp_eq_exact : forall pre t, strncmp_eq pre t (length pre) = true -> length t = length pre -> pre = t.
Proof.
  induction pre as [|x pre IH]; intros [|y t] H HL; simpl in *; try discriminate; try reflexivity.
  apply andb_true_iff in H. destruct H as [H1 H2]. apply N.eqb_eq in H1. subst y.
  f_equal. apply IH; auto.
Qed.

Lemma find_scheme_in exact pre sch : find_scheme exact pre = Some sch -> In sch schemes.
Proof. unfold find_scheme. intros H. apply find_some in H. tauto. Qed.

Lemma find_scheme_exact pre sch : find_scheme true pre = Some sch -> sch = pre /\ In sch schemes.
Proof.
  unfold find_scheme. intros H. apply find_some in H. destruct H as [Hin Hm]. split; [|exact Hin].
  unfold scheme_match in Hm. apply andb_true_iff in Hm. destruct Hm as [H1 H2].
  apply Nat.eqb_eq in H2. symmetry. apply strncmp_eq_exact; auto.
Qed.

(* phase 1 on a NUL-terminated text: in bounds; on success the text is
   <first len bytes> "://" <rest> and the scheme is what the table lookup
   gives for those bytes *)
Lemma parse_scheme_spec exact s tail : nz s ->
  match parse_scheme exact (s ++ 0 :: tail) with
  | UOob => False
  | UErr _ => True
  | UVal (sch, len) =>
      exists rest, s = firstn len s ++ [58; 47; 47] ++ rest /\ (len <= length s)%nat /\
                   find_scheme exact (firstn len s) = Some sch
  end.
Proof.
  intros Hs. unfold parse_scheme.
  assert (NZ : Forall (fun x : N => x <> 0) [58; 47; 47]) by (repeat constructor; discriminate).
  destruct (scan_cut (fun c : N => (c =? 58) || (c =? 0)) [] 0 s tail eq_refl Hs eq_refl)
    as [(_ & Hsc & _)|(m1 & x & m2 & -> & _ & Hx & _ & Sx & _ & Hsc & _ & _)];
    cbn [app Nat.add] in Hsc; rewrite Hsc; cbn [ulift ubind].
  - (* no ':' before the end: the comparison fails at the NUL *)
    destruct (strncmp_lit_in _ NZ s [] tail) as (m & Hm & Hin). cbn [app] in Hm. rewrite Hm. cbn [ulift ubind].
    destruct m; [|exact I]. destruct (Hin eq_refl) as (R' & E). discriminate E.
  - apply (stop_nz_eq x 58 Hx) in Sx. subst x. rewrite <- app_assoc.
    destruct (strncmp_lit_in _ NZ m1 (58 :: m2) tail) as (m & Hm & Hin). rewrite Hm. cbn [ulift ubind].
    destruct m; [|exact I]. destruct (Hin eq_refl) as (rest & E). injection E as ->. cbn [negb app].
    rewrite (sub_at (m1 ++ 58 :: 47 :: 47 :: rest ++ 0 :: tail) [] m1 _ 0 _ eq_refl eq_refl eq_refl).
    cbn [ulift ubind]. destruct (find_scheme exact m1) as [sch|] eqn:Ef; [|exact I].
    exists rest. rewrite firstn_app_exact by reflexivity.
    split; [reflexivity|]. split; [lensolve|exact Ef].
Qed.

Lemma forallb_nostop_nz stop l : nz l -> forallb (fun c => negb (stop c)) l = true -> nz l.
Proof. auto. Qed.

(* the recorded size of a URL's storage of [n] bytes: 0 = the inline buffer *)
Definition size_ok (bufsz n : nat) : Prop :=
  (bufsz = O /\ n = STATIC_SZ) \/ (bufsz = n /\ (STATIC_SZ < bufsz)%nat).

Lemma parse_buffer_spec s tail len : nz s -> (len <= length s)%nat ->
  exists tail2 bufsz, parse_buffer (s ++ 0 :: tail) len = UVal (skipn len s ++ 0 :: tail2, bufsz) /\
    size_ok bufsz (length (skipn len s ++ 0 :: tail2)) /\ (bufsz <> O -> tail2 = []).
Proof.
  intros Hs Hl. unfold parse_buffer.
  assert (E: s ++ 0 :: tail = firstn len s ++ skipn len s ++ 0 :: tail).
  { rewrite app_assoc, firstn_skipn. reflexivity. }
  assert (Hfl: length (firstn len s) = len) by (rewrite firstn_length; lia).
  rewrite (strlen_at _ (firstn len s) (skipn len s) tail len E) by (auto using nz_skipn).
  cbn [ulift ubind].
  rewrite (sub_at _ (firstn len s) (skipn len s ++ [0]) tail len) by (try lsolve; try lensolve; rewrite E; lsolve).
  cbn [ulift ubind].
  destruct (STATIC_SZ <=? length (skipn len s))%nat eqn:Eh.
  - apply Nat.leb_le in Eh. exists [], (S (length (skipn len s))). split.
    + f_equal. f_equal. lia.
    + split; [right; rewrite app_length; cbn [length]; lia|reflexivity].
  - apply Nat.leb_gt in Eh. exists (uzeros (STATIC_SZ - (length (skipn len s) + 1))), O. split.
    + rewrite <- app_assoc. reflexivity.
    + split; [left|intros []; reflexivity]. split; [reflexivity|]. rewrite !app_length. cbn [length]. unfold uzeros. rewrite repeat_length. lia.
Qed.

Definition stop3 (c : N) : bool := (c =? 0) || (c =? 47) || (c =? 35) || (c =? 63).

Lemma two_left {A} (w : list A) n : length w = (n + 3)%nat -> exists y1 y2, skipn (n + 1) w = [y1; y2].
Proof.
  intros H. remember (skipn (n + 1) w) as u eqn:Eu.
  assert (length u = 2%nat) by (subst u; rewrite skipn_length; lia).
  destruct u as [|y1 [|y2 [|]]]; simpl in *; try lia. eauto.
Qed.

Lemma parse_authority_spec rest tail2 : nz rest ->
  exists auth rem y1 y2,
    rest = auth ++ rem /\ forallb (fun c => negb (stop3 c)) auth = true /\
    (rem = [] \/ exists x m, rem = x :: m /\ stop3 x = true) /\
    parse_authority ([58; 47; 47] ++ rest ++ 0 :: tail2) =
      UVal (auth ++ 0 :: y1 :: y2 :: rem ++ 0 :: tail2, (length auth + 3)%nat).
Proof.
  intros Hr. unfold parse_authority.
  change (fun c : N => (c =? 0) || (c =? 47) || (c =? 35) || (c =? 63)) with stop3.
  (* both outcomes of the scan in one form: the buffer is w ++ c :: after *)
  assert (Hsp: exists auth rem c after,
     rest = auth ++ rem /\ nz auth /\ forallb (fun c => negb (stop3 c)) auth = true /\
     (rem = [] \/ exists x m, rem = x :: m /\ stop3 x = true) /\
     c :: after = rem ++ 0 :: tail2 /\
     c_scan stop3 ([58; 47; 47] ++ rest ++ 0 :: tail2) 3 = Some (3 + length auth)%nat).
  { destruct (scan_cut stop3 [58; 47; 47] 3 rest tail2 eq_refl Hr eq_refl)
      as [(F & Hs & _)|(m1 & x & m2 & -> & N1 & _ & _ & Sx & F & Hs & _)].
    - exists rest, [], 0, tail2. rewrite app_nil_r. repeat split; auto.
    - exists m1, (x :: m2), x, (m2 ++ 0 :: tail2). repeat split; auto. right. eauto. }
  destruct Hsp as (auth & rem & c & after & Hrest & Hna & Hns & Hrem & Hca & Hs).
  rewrite Hs. cbn [ulift ubind].
  set (w := [58; 47; 47] ++ auth).
  assert (Eb: [58; 47; 47] ++ rest ++ 0 :: tail2 = w ++ c :: after).
  { subst rest w. rewrite Hca. lsolve. }
  assert (Hw: length w = (length auth + 3)%nat) by (subst w; cbn [app length]; lia).
  rewrite (brd_at _ w c after) by (auto; lia).
  cbn [ulift ubind].
  rewrite (bwr_at _ w c after _ 0) by (auto; lia).
  cbn [ulift ubind].
  rewrite (strlen_at (w ++ 0 :: after) [58; 47; 47] auth after 3) by (auto; subst w; lsolve).
  cbn [ulift ubind].
  rewrite (sub_at (w ++ 0 :: after) [58; 47; 47] (auth ++ [0]) after 3) by (try lensolve; subst w; lsolve).
  cbn [ulift ubind].
  destruct (two_left w (length auth) Hw) as (y1 & y2 & Hy).
  assert (Ew: w = firstn (length auth + 1) w ++ [y1; y2]) by (rewrite <- Hy; symmetry; apply firstn_skipn).
  rewrite (blit_at (w ++ 0 :: after) [] (firstn (length auth + 1) w) ([y1; y2] ++ 0 :: after) (auth ++ [0]) 0);
    [ | rewrite Ew at 1; lsolve | reflexivity | rewrite firstn_length; lensolve ].
  cbn [ulift ubind app].
  rewrite (bwr_at _ (auth ++ 0 :: [y1; y2]) 0 after _ c) by (try lsolve; lensolve).
  cbn [ulift ubind].
  exists auth, rem, y1, y2. repeat split; auto.
  f_equal. f_equal; [rewrite <- Hca; lsolve | lia].
Qed.

(* strchr on a NUL-terminated text at the end of [pre] *)
Lemma strchr_form pre mid post : nz mid ->
  c_strchr (pre ++ mid ++ 0 :: post) (length pre) 64 = Some None \/
  (exists m1 m2, mid = m1 ++ 64 :: m2 /\ nz m1 /\ nz m2 /\
   c_strchr (pre ++ mid ++ 0 :: post) (length pre) 64 = Some (Some (length pre + length m1)%nat)).
Proof.
  intros Hm. unfold c_strchr.
  destruct (scan_cut (fun c : N => (c =? 64) || (c =? 0)) pre _ mid post eq_refl Hm eq_refl)
    as [(_ & Hs & Hb)|(m1 & x & m2 & E & N1 & Nx & N2 & Sx & _ & Hs & Hb & _)]; rewrite Hs, Hb.
  - left. reflexivity.
  - right. apply (stop_nz_eq x 64 Nx) in Sx. subst x. exists m1, m2. auto.
Qed.

Lemma parse_userinfo_spec auth T : nz auth ->
  match parse_userinfo (auth ++ 0 :: T) with
  | UOob => False
  | UErr _ => True
  | UVal (b', ui, h) =>
      exists pre hp, b' = pre ++ hp ++ 0 :: T /\ h = length pre /\ nz hp /\
        (length pre + length hp = length auth)%nat /\
        ((pre = [] /\ hp = auth /\ ui = None) \/
         (exists u, pre = u ++ [0] /\ auth = u ++ 64 :: hp /\ ui = Some O))
  end.
Proof.
  intros Ha. unfold parse_userinfo.
  destruct (strchr_form [] auth T Ha) as [H3|(m1 & m2 & -> & Hm1 & Hm2 & H3)];
    cbn [app length] in H3; rewrite H3; cbn [ulift ubind].
  - exists [], auth. repeat split; auto.
  - cbn [Nat.add].
    rewrite (bwr_at _ m1 64 (m2 ++ 0 :: T) _ 0) by (try reflexivity; lsolve).
    cbn [ulift ubind].
    replace (length m1 + 1)%nat with (length (m1 ++ [0])) by lensolve.
    replace (m1 ++ 0 :: m2 ++ 0 :: T) with ((m1 ++ [0]) ++ m2 ++ 0 :: T) by lsolve.
    destruct (strchr_form (m1 ++ [0]) m2 T Hm2) as [G3|(n1 & n2 & _ & _ & _ & G3)];
      rewrite G3; cbn [ulift ubind]; [|exact I].
    exists (m1 ++ [0]), m2. repeat split; auto; try lensolve.
    right. exists m1. auto.
Qed.

Lemma tolower_nz x : byte_nz x -> byte_nz (c_tolower x).
Proof.
  intros [H1 H2]. unfold c_tolower, c_isupper, byte_nz.
  destruct ((65 <=? x) && (x <=? 90)) eqn:E; [|lia].
  apply andb_true_iff in E. destruct E as [E1 E2]. apply N.leb_le in E1, E2. lia.
Qed.

Lemma lower_host_spec pre hp T : nz hp ->
  lower_host (pre ++ hp ++ 0 :: T) (length pre) = UVal (pre ++ map c_tolower hp ++ 0 :: T) /\
  nz (map c_tolower hp).
Proof.
  intros Hh. unfold lower_host. rewrite (strlen_at _ pre hp T _ eq_refl eq_refl Hh). cbn [ulift ubind].
  rewrite (sub_at _ pre hp (0 :: T) _ _ eq_refl eq_refl eq_refl). cbn [ulift ubind].
  rewrite (blit_at _ pre hp (0 :: T) _ _ eq_refl eq_refl (map_length _ _)). cbn [ulift ubind]. split; [reflexivity|].
  unfold nz in *. apply Forall_map. eapply Forall_impl; [|exact Hh]. intros a. apply tolower_nz.
Qed.

Lemma scan_app stop (X T : list N) k : c_scan stop (X ++ T) (length X + k) = option_map (Nat.add (length X)) (c_scan stop T k).
Proof.
  unfold c_scan. rewrite skipn_app. rewrite skipn_all2 by lia. cbn [app].
  replace (length X + k - length X)%nat with k by lia.
  destruct (c_find_idx stop (skipn k T)); cbn [option_map]; [f_equal; lia | reflexivity].
Qed.

Lemma cstr_at_app (X T : list N) k : cstr_at (X ++ T) (length X + k) = cstr_at T k.
Proof.
  unfold cstr_at, c_strlen. rewrite scan_app.
  destruct (c_scan c_is0 T k) as [j|] eqn:E; cbn [option_map]; [|reflexivity].
  replace (length X + j - (length X + k))%nat with (j - k)%nat by lia.
  unfold sub. rewrite app_length.
  assert (Hj: (k <= j)%nat).
  { unfold c_scan in E. destruct (c_find_idx c_is0 (skipn k T)); cbn in E; [|discriminate]. inversion E. lia. }
  destruct (k + (j - k) <=? length T)%nat eqn:E1.
  - apply Nat.leb_le in E1. destruct (length X + k + (j - k) <=? length X + length T)%nat eqn:E2;
      [|apply Nat.leb_gt in E2; lia].
    f_equal. f_equal. rewrite skipn_app. rewrite skipn_all2 by lia. cbn [app]. f_equal. lia.
  - apply Nat.leb_gt in E1. destruct (length X + k + (j - k) <=? length X + length T)%nat eqn:E2;
      [apply Nat.leb_le in E2; lia|reflexivity].
Qed.

Lemma opt_cstr_app (X T : list N) o :
  opt_cstr (X ++ T) (option_map (Nat.add (length X)) o) = opt_cstr T o.
Proof. destruct o as [k|]; cbn [option_map opt_cstr]; [rewrite cstr_at_app|]; reflexivity. Qed.

Definition stopqf (c : N) : bool := (c =? 0) || (c =? 63) || (c =? 35).
Definition stophash (c : N) : bool := (c =? 0) || (c =? 35).

Lemma nostop_nq l : forallb (fun c => negb (stopqf c)) l = true -> Forall nq l.
Proof.
  intros H. apply Forall_forall. intros c Hc. apply (proj1 (forallb_forall _ l) H) in Hc.
  unfold stopqf in Hc. unfold nq, is_qf. destruct (c =? 0), (c =? 63), (c =? 35); try discriminate Hc; reflexivity.
Qed.

Definition qf_text (qs fs : option (list N)) : list N :=
  match qs with Some s => 63 :: s | None => [] end ++ match fs with Some s => 35 :: s | None => [] end.

Lemma parse_qf_spec P out T : nz out ->
  exists tl7 qk fk qs fs,
    parse_qf (P ++ out ++ 0 :: T) (length P) =
      UVal (P ++ tl7, option_map (Nat.add (length P)) qk, option_map (Nat.add (length P)) fk) /\
    cstr_at tl7 0 = Some (path_part out) /\
    opt_cstr tl7 qk = Some qs /\ opt_cstr tl7 fk = Some fs /\
    out = path_part out ++ qf_text qs fs /\ length tl7 = length (out ++ 0 :: T).
Proof.
  intros Ho. unfold parse_qf.
  change (fun c : N => (c =? 0) || (c =? 63) || (c =? 35)) with stopqf.
  change (fun c : N => (c =? 0) || (c =? 35)) with stophash.
  destruct (scan_cut stopqf P _ out T eq_refl Ho eq_refl)
    as [(F & Hs & Hb)|(pa & x & m2 & -> & Hpa & Hx & Hm2 & Sx & F & Hs & Hb & Hw)];
    rewrite Hs; cbn [ulift ubind]; rewrite Hb; cbn [ulift ubind].
  - (* no query, no fragment *)
    change (0 =? 63) with false. change (0 =? 35) with false. cbn iota.
    exists (out ++ 0 :: T), None, None, None, None. cbn [option_map opt_cstr qf_text app].
    assert (Hp: path_part out = out).
    { rewrite <- (app_nil_r out) at 1. rewrite pp_app_nq by exact (nostop_nq _ F). cbn [path_part]. apply app_nil_r. }
    rewrite Hp, app_nil_r. repeat split; auto.
    apply (cstr_at_at _ [] out T); auto.
  - assert (Hp: path_part (pa ++ x :: m2) = pa).
    { rewrite pp_app_nq by exact (nostop_nq _ F). cbn [path_part].
      unfold stopqf in Sx. rewrite (nz_eqb0 _ Hx) in Sx. cbn [orb] in Sx. rewrite Sx. apply app_nil_r. }
    rewrite Hp.
    destruct (x =? 63) eqn:E63.
    + apply N.eqb_eq in E63. subst x. rewrite Hw. cbn [ulift ubind].
      destruct (scan_cut stophash (P ++ pa ++ [0]) (S (length P + length pa)) m2 T ltac:(lensolve) Hm2 eq_refl)
        as [(_ & Gs & Gb)|(qa & y & fr & -> & Hqa & Hy & Hfr & Sy & _ & Gs & Gb & Gw)];
        rewrite Gs; cbn [ulift ubind]; rewrite Gb; cbn [ulift ubind].
      * change (0 =? 35) with false. cbn iota.
        exists (pa ++ 0 :: m2 ++ 0 :: T), (Some (S (length pa))), None, (Some m2), None.
        cbn [option_map opt_cstr qf_text].
        repeat split.
        -- fin.
        -- apply (cstr_at_at _ [] pa (m2 ++ 0 :: T)); auto.
        -- rewrite (cstr_at_at _ (pa ++ [0]) m2 T) by (auto; try lsolve; lensolve). reflexivity.
        -- unfold qf_text; cbn [app]; try rewrite app_nil_r; reflexivity.
        -- lensolve.
      * assert (y = 35). { unfold stophash in Sy. rewrite (nz_eqb0 _ Hy) in Sy. apply N.eqb_eq. exact Sy. }
        subst y. change (35 =? 35) with true. cbn iota. rewrite Gw. cbn [ulift ubind].
        exists (pa ++ 0 :: qa ++ 0 :: fr ++ 0 :: T), (Some (S (length pa))), (Some (S (length pa) + S (length qa))%nat),
               (Some qa), (Some fr).
        cbn [option_map opt_cstr qf_text].
        repeat split.
        -- fin.
        -- apply (cstr_at_at _ [] pa (qa ++ 0 :: fr ++ 0 :: T)); auto.
        -- rewrite (cstr_at_at _ (pa ++ [0]) qa (fr ++ 0 :: T)) by (auto; try lsolve; lensolve). reflexivity.
        -- rewrite (cstr_at_at _ (pa ++ 0 :: qa ++ [0]) fr T) by (auto; try lsolve; lensolve). reflexivity.
        -- lensolve.
    + assert (x = 35).
      { unfold stopqf in Sx. rewrite (nz_eqb0 _ Hx), E63 in Sx. apply N.eqb_eq. exact Sx. }
      subst x. change (35 =? 35) with true. cbn iota. rewrite Hw. cbn [ulift ubind].
      exists (pa ++ 0 :: m2 ++ 0 :: T), None, (Some (S (length pa))), None, (Some m2).
      cbn [option_map opt_cstr qf_text].
      repeat split.
      * fin.
      * apply (cstr_at_at _ [] pa (m2 ++ 0 :: T)); auto.
      * rewrite (cstr_at_at _ (pa ++ [0]) m2 T) by (auto; try lsolve; lensolve). reflexivity.
      * lensolve.
Qed.

(* what phase 8 guarantees: the buffer changes inside the host/port text only;
   the host returned is a piece of that text, shorter than HOST_MAX *)
Definition hostport_ok pre hp T (t : ures (list N * nat * N)) : Prop :=
  match t with
  | UOob => False
  | UErr _ => True
  | UVal (b', h', port) =>
      exists X2 host, b' = pre ++ X2 ++ T /\ length X2 = (length hp + 1)%nat /\
        cstr_at b' h' = Some host /\ (length host < HOST_MAX)%nat /\
        (exists a c, hp = a ++ host ++ c)
  end.

(* the tail of phase 8, after the host name [ho] has been delimited: the
   buffer is A ++ ho ++ 0 :: R with h' = |A|; [c] is the delimiter that was
   found (':' or NUL) and, if ':', R = G ++ pt ++ 0 :: T' holds the port text *)
Lemma hostport_rest resolver sch A ho R (c : N) b2 p2 pre X2 T hp :
  nz ho ->
  b2 = A ++ ho ++ 0 :: R ->
  (c = 58 -> exists G pt T', nz pt /\ R = G ++ pt ++ 0 :: T' /\ p2 = (length A + length ho + 1 + length G)%nat) ->
  b2 = pre ++ X2 ++ T -> length X2 = (length hp + 1)%nat -> (exists a c, hp = a ++ ho ++ c) ->
  hostport_ok pre hp T
    (hl <~! c_strlen b2 (length A) ;;
     if (HOST_MAX <=? hl)%nat then UErr NNG_EINVAL else
     if c =? 58 then
       c1 <~! brd b2 p2 ;;
       if c1 =? 0 then UErr NNG_EINVAL else
       name <~! cstr_at b2 p2 ;;
       match get_port resolver name with
       | None => UErr NNG_EINVAL
       | Some port => UVal (b2, length A, port)
       end
     else UVal (b2, length A, default_port sch)).
Proof.
  intros Hho -> HR E2 HL Hsub.
  rewrite (strlen_at _ A ho R) by auto. cbn [ulift ubind].
  destruct (HOST_MAX <=? length ho)%nat eqn:E; [exact I|]. apply Nat.leb_gt in E.
  assert (Hfin : forall port, hostport_ok pre hp T (UVal (A ++ ho ++ 0 :: R, length A, port))).
  { intros port. exists X2, ho. repeat split; auto. apply (cstr_at_at _ A ho R); auto. }
  destruct (N.eqb_spec c 58) as [Ec|Ec]; [|apply Hfin].
  destruct (HR Ec) as (G & pt & T' & Hpt & -> & ->).
  destruct pt as [|a1 ar].
  - rewrite (brd_at _ (A ++ ho ++ 0 :: G) 0 T') by (try lsolve; lensolve). cbn [ulift ubind]. exact I.
  - rewrite (brd_at _ (A ++ ho ++ 0 :: G) a1 (ar ++ 0 :: T')) by (try lsolve; lensolve). cbn [ulift ubind].
    apply nz_cons in Hpt. destruct Hpt as [Ha1 Har]. rewrite (nz_eqb0 _ Ha1).
    rewrite (cstr_at_at _ (A ++ ho ++ 0 :: G) (a1 :: ar) T') by (try lsolve; try lensolve; apply nz_cons; auto).
    cbn [ulift ubind]. destruct (get_port resolver (a1 :: ar)); [apply Hfin|exact I].
Qed.

Lemma parse_hostport_spec bf resolver sch pre hp T : nz hp ->
  hostport_ok pre hp T (parse_hostport bf resolver sch (pre ++ hp ++ 0 :: T) (length pre)).
Proof.
  intros Hhp. unfold parse_hostport.
  set (stopbrk := stop_bracket bf).
  assert (Hc0: exists c0 r0, hp ++ 0 :: T = c0 :: r0 /\ (c0 = 91 -> exists hr, hp = 91 :: hr)).
  { destruct hp as [|c0 hr]; [exists 0, T | exists c0, (hr ++ 0 :: T)]; split; auto; try discriminate.
    intros ->. eauto. }
  destruct Hc0 as (c0 & r0 & Er0 & H91).
  rewrite (brd_at _ pre c0 r0) by (try reflexivity; rewrite <- Er0; reflexivity). cbn [ulift ubind].
  destruct (N.eqb_spec c0 91) as [E91|E91].
  - destruct (H91 E91) as (hr & ->). clear H91 Er0 r0 E91 c0.
    apply nz_cons in Hhp. destruct Hhp as [_ Hhr].
    replace (pre ++ (91 :: hr) ++ 0 :: T) with ((pre ++ [91]) ++ hr ++ 0 :: T) by lsolve.
    destruct (scan_cut stopbrk (pre ++ [91]) (S (length pre)) hr T ltac:(lensolve) Hhr eq_refl)
      as [(_ & Hs & Hb)|(ho & x & af & -> & Hho & Hx & Haf & H3 & _ & Hs & Hb & Hw)];
      rewrite Hs; cbn [ulift ubind]; rewrite Hb; cbn [ulift ubind].
    + exact I.
    + (* the test the code makes on the stop byte leaves ']' *)
      destruct ((x =? 0) || (bf && (x =? 91))) eqn:E; [exact I|].
      assert (x = 93).
      { subst stopbrk. unfold stop_bracket in H3. rewrite <- orb_assoc, E, orb_false_r in H3.
        apply N.eqb_eq. exact H3. }
      subst x. rewrite Hw. cbn [ulift ubind].
      destruct af as [|a0 ar].
      * rewrite (brd_at _ (pre ++ 91 :: ho ++ [0]) 0 T) by (try lsolve; lensolve). cbn [ulift ubind].
        change (0 =? 58) with false. change (0 =? 0) with true. cbn [negb andb]. cbn [ubind].
        rewrite (brd_at _ (pre ++ 91 :: ho ++ [0]) 0 T) by (try lsolve; lensolve). cbn [ulift ubind].
        change (0 =? 58) with false. cbn iota. cbn [ubind].
        replace (S (length pre)) with (length (pre ++ [91])) by lensolve.
        lnorm. apply (hostport_rest resolver sch (pre ++ [91]) ho (0 :: T) 0 _ O pre (91 :: ho ++ 0 :: [0]) T);
          [auto | lsolve | intros; discriminate | lsolve | lensolve | exists [91], [93]; lsolve].
      * apply nz_cons in Haf. destruct Haf as [Ha0 Har].
        rewrite (brd_at _ (pre ++ 91 :: ho ++ [0]) a0 (ar ++ 0 :: T)) by (try lsolve; lensolve). cbn [ulift ubind].
        rewrite (nz_eqb0 _ Ha0). cbn [negb andb].
        destruct (N.eqb_spec a0 58) as [E58|E58]; cbn [negb andb]; [|exact I].
        subst a0. cbn [ubind].
        rewrite (brd_at _ (pre ++ 91 :: ho ++ [0]) 58 (ar ++ 0 :: T)) by (try lsolve; lensolve). cbn [ulift ubind].
        change (58 =? 58) with true. cbn iota.
        rewrite (bwr_at _ (pre ++ 91 :: ho ++ [0]) 58 (ar ++ 0 :: T) _ 0) by (try lsolve; lensolve). cbn [ulift ubind].
        replace (S (length pre)) with (length (pre ++ [91])) by lensolve.
        lnorm. apply (hostport_rest resolver sch (pre ++ [91]) ho (0 :: ar ++ 0 :: T) 58 _ _ pre
                        (91 :: ho ++ 0 :: 0 :: ar ++ [0]) T);
          [ auto | lsolve | intros _; exists [0], ar, T; repeat split; auto; lensolve
          | lsolve | lensolve | exists [91], (93 :: 58 :: ar); lsolve ].
  - clear H91.
    destruct (scan_cut (fun c : N => (c =? 58) || (c =? 0)) pre _ hp T eq_refl Hhp eq_refl)
      as [(_ & Hs & Hb)|(ho & x & pt & -> & Hho & Hx & Hpt & H3 & _ & Hs & Hb & Hw)];
      rewrite Hs; cbn [ulift ubind]; rewrite Hb; cbn [ulift ubind].
    + change (0 =? 58) with false. cbn iota. cbn [ubind].
      apply (hostport_rest resolver sch pre hp T 0 _ O pre (hp ++ [0]) T);
        [ auto | reflexivity | intros; discriminate | lsolve | lensolve
        | exists [], []; rewrite app_nil_r; reflexivity ].
    + assert (x = 58) by (apply stop_nz_eq; auto). subst x.
      change (58 =? 58) with true. cbn iota. rewrite Hw. cbn [ulift ubind].
      lnorm. apply (hostport_rest resolver sch pre ho (pt ++ 0 :: T) 58 _ _ pre (ho ++ 0 :: pt ++ [0]) T);
        [ auto | reflexivity | intros _; exists [], pt, T; repeat split; auto; lensolve
        | lsolve | lensolve | exists [], (58 :: pt); lsolve ].
Qed.

Lemma canon_pure_nz fx s out : nz s -> canon_pure fx s = Some out -> nz out.
Proof. intros Hs H. apply (canon_passes_nz s); [exact Hs|]. apply (canon_pure_inv fx s out H). Qed.

Lemma canon_at_spec fx P rem tail2 : nz rem ->
  match canon_pure fx rem with
  | Some out => exists tail', canon_at fx (P ++ rem ++ 0 :: tail2) (length P) = UVal (P ++ out ++ 0 :: tail') /\
                              length (out ++ 0 :: tail') = length (rem ++ 0 :: tail2) /\ nz out
  | None => canon_at fx (P ++ rem ++ 0 :: tail2) (length P) = UErr NNG_EINVAL
  end.
Proof.
  intros Hr. unfold canon_at.
  destruct (Nat.ltb (length (P ++ rem ++ 0 :: tail2)) (length P)) eqn:E.
  { apply Nat.ltb_lt in E. rewrite app_length in E. lia. }
  rewrite skipn_app_exact by reflexivity. rewrite firstn_app_exact by reflexivity.
  pose proof (canonify_refines fx rem tail2 Hr) as HC.
  destruct (canon_pure fx rem) as [out|] eqn:Ec.
  - destruct HC as (tail' & HC & HL). exists tail'. rewrite HC. cbn [ulift ubind].
    change (NNG_OK =? 0) with true. cbn [negb]. repeat split; auto. eapply canon_pure_nz; eauto.
  - rewrite HC. cbn [ulift ubind]. reflexivity.
Qed.

Definition buf_ok (u : nurl) : Prop :=
  (u_bufsz u = O /\ length (u_buf u) = STATIC_SZ) \/
  (u_bufsz u = length (u_buf u) /\ (STATIC_SZ < u_bufsz u)%nat).

(* everything the later theorems need to know about an accepted URL *)
Definition parse_post (fx : uflags) (s : list N) (u : nurl) : Prop :=
  exists len rest v,
    s = firstn len s ++ [58; 47; 47] ++ rest /\ (len <= length s)%nat /\
    find_scheme (fx_scheme fx) (firstn len s) = Some (u_scheme u) /\
    url_view u = Some v /\ v_scheme v = u_scheme u /\ buf_ok u /\
    (if is_path_only (u_scheme u) then
       v_path v = rest /\ v_hostname v = None /\ v_userinfo v = None /\ v_query v = None /\
       v_fragment v = None /\ v_port v = 0 /\ u_hostname u = None
     else
       exists auth rem out host hp,
         rest = auth ++ rem /\ forallb (fun c => negb (stop3 c)) auth = true /\
         (rem = [] \/ exists x m, rem = x :: m /\ stop3 x = true) /\
         canon_pure (fx_utf8 fx) rem = Some out /\ nz out /\
         v_path v = path_part out /\ out = path_part out ++ qf_text (v_query v) (v_fragment v) /\
         v_hostname v = Some host /\ (length host < HOST_MAX)%nat /\
         ((auth = hp /\ v_userinfo v = None) \/ (exists ui, auth = ui ++ 64 :: hp /\ v_userinfo v = Some ui)) /\
         (exists a c, map c_tolower hp = a ++ host ++ c)).

Lemma nostop3_nz auth : nz auth -> True. Proof. auto. Qed.

Theorem url_parse_spec fx resolver s tail : nz s ->
  match url_parse fx resolver (s ++ 0 :: tail) with
  | UOob => False
  | UErr _ => True
  | UVal u => parse_post fx s u
  end.
Proof.
  intros Hs. unfold url_parse.
  pose proof (parse_scheme_spec (fx_scheme fx) s tail Hs) as H1.
  destruct (parse_scheme (fx_scheme fx) (s ++ 0 :: tail)) as [|rv|[sch len]]; cbn [ubind]; auto.
  destruct H1 as (rest & Es & Hlen & Hfs).
  destruct (parse_buffer_spec s tail len Hs Hlen) as (tail2 & bufsz & Hpb & Hbsz & _).
  rewrite Hpb. cbn [ubind].
  assert (Esk: skipn len s = [58; 47; 47] ++ rest).
  { rewrite Es at 1. rewrite skipn_app_exact; [reflexivity|]. rewrite firstn_length. lia. }
  assert (Hrest: nz rest).
  { rewrite Es in Hs. apply nz_app in Hs. destruct Hs as [_ Hs]. apply nz_app in Hs. tauto. }
  rewrite Esk in *.
  destruct (is_path_only sch) eqn:Epo.
  - exists len, rest. eexists. repeat split; eauto.
    + unfold url_view. cbn [u_buf u_userinfo u_hostname u_path u_query u_fragment u_scheme u_port opt_cstr].
      rewrite (cstr_at_at _ [58; 47; 47] rest tail2 3) by (auto; lsolve). reflexivity.
    + reflexivity.
    + cbn [u_scheme]. rewrite Epo. cbn [v_path v_hostname v_userinfo v_query v_fragment v_port u_hostname]. repeat split; reflexivity.
  - replace (([58; 47; 47] ++ rest) ++ 0 :: tail2) with ([58; 47; 47] ++ rest ++ 0 :: tail2) in * by lsolve.
    destruct (parse_authority_spec rest tail2 Hrest) as (auth & rem & y1 & y2 & Hr & Hns & Hrem & Hpa).
    rewrite Hpa. cbn [ubind].
    assert (Hauth: nz auth) by (subst rest; apply nz_app in Hrest; tauto).
    assert (Hnrem: nz rem) by (subst rest; apply nz_app in Hrest; tauto).
    set (T := y1 :: y2 :: rem ++ 0 :: tail2).
    pose proof (parse_userinfo_spec auth T Hauth) as H4.
    destruct (parse_userinfo (auth ++ 0 :: T)) as [|rv|[[b4 ui] h]]; cbn [ubind]; auto.
    destruct H4 as (pre & hp & -> & -> & Hhp & Hlen4 & Hui).
    destruct (lower_host_spec pre hp T Hhp) as [H5 Hhp'].
    rewrite H5. cbn [ubind].
    set (hp' := map c_tolower hp) in *.
    assert (Hlhp: length hp' = length hp) by apply map_length.
    set (P := pre ++ hp' ++ [0; y1; y2]).
    assert (EP: pre ++ hp' ++ 0 :: T = P ++ rem ++ 0 :: tail2) by (subst P T; lsolve).
    assert (LP: (length auth + 3)%nat = length P) by (subst P; repeat rewrite app_length; cbn [length]; lia).
    rewrite EP, LP.
    pose proof (canon_at_spec (fx_utf8 fx) P rem tail2 Hnrem) as H6.
    destruct (canon_pure (fx_utf8 fx) rem) as [out|] eqn:Ecp; [|rewrite H6; cbn [ubind]; exact I].
    destruct H6 as (tail' & H6 & HL6 & Hout). rewrite H6. cbn [ubind].
    destruct (parse_qf_spec P out tail' Hout) as (tl7 & qk & fk & qs & fs & H7 & Hpath & Hq & Hf & Eout & HL7).
    rewrite H7. cbn [ubind].
    assert (E7: P ++ tl7 = pre ++ hp' ++ 0 :: y1 :: y2 :: tl7) by (subst P; lsolve).
    rewrite E7.
    pose proof (parse_hostport_spec (fx_bracket fx) resolver sch pre hp' (y1 :: y2 :: tl7) Hhp') as H8.
    unfold hostport_ok in H8.
    destruct (parse_hostport (fx_bracket fx) resolver sch (pre ++ hp' ++ 0 :: y1 :: y2 :: tl7) (length pre)) as [|rv|[[b8 h'] port]];
      cbn [ubind]; auto.
    destruct H8 as (X2 & host & -> & HX2 & Hhost & Hhl & Hsub).
    set (Q := pre ++ X2 ++ [y1; y2]).
    assert (EQ: pre ++ X2 ++ y1 :: y2 :: tl7 = Q ++ tl7) by (subst Q; lsolve).
    assert (LQ: length Q = length P) by (subst Q P; repeat rewrite app_length; cbn [length]; lia).
    assert (Hvui: exists vui, opt_cstr (Q ++ tl7) ui = Some vui /\
              ((auth = hp /\ vui = None) \/ (exists u0, auth = u0 ++ 64 :: hp /\ vui = Some u0))).
    { destruct Hui as [(-> & -> & ->)|(u0 & -> & -> & ->)].
      - exists None. split; [reflexivity|]. left; auto.
      - exists (Some u0). split; [|right; eauto]. cbn [opt_cstr].
        rewrite (cstr_at_at _ [] u0 (X2 ++ [y1; y2] ++ tl7) 0); auto; [subst Q; lsolve|].
        apply nz_app in Hauth. tauto. }
    destruct Hvui as (vui & Hvui & Hvui2).
    exists len, rest.
    exists (mkUview sch vui (Some host) port (path_part out) qs fs).
    repeat split; auto.
    + unfold url_view. cbn [u_buf u_userinfo u_hostname u_path u_query u_fragment u_scheme u_port].
      rewrite EQ. rewrite Hvui. cbn [opt_cstr]. rewrite <- EQ, Hhost, EQ.
      rewrite <- LQ. rewrite <- (Nat.add_0_r (length Q)) at 1. rewrite cstr_at_app, Hpath.
      rewrite !opt_cstr_app, Hq, Hf. reflexivity.
    + unfold buf_ok. cbn [u_buf u_bufsz].
      replace (length (pre ++ X2 ++ y1 :: y2 :: tl7)) with (length ([58; 47; 47] ++ rest ++ 0 :: tail2)); [exact Hbsz|].
      rewrite HL6 in HL7. rewrite app_length in HL7. cbn [length] in HL7.
      rewrite Hr. lensolve.
    + cbn [u_scheme]. rewrite Epo.
      exists auth, rem, out, host, hp. cbn [v_path v_query v_fragment v_hostname v_userinfo].
      repeat split; auto.
Qed.

Theorem url_parse_total fx resolver s tail : nz s -> url_parse fx resolver (s ++ 0 :: tail) <> UOob.
Proof.
  intros Hs E. pose proof (url_parse_spec fx resolver s tail Hs) as H. rewrite E in H. exact H.
Qed.

Lemma url_parse_post fx resolver s tail u : nz s ->
  url_parse fx resolver (s ++ 0 :: tail) = UVal u -> parse_post fx s u.
Proof.
  intros Hs E. pose proof (url_parse_spec fx resolver s tail Hs) as H. rewrite E in H. exact H.
Qed.

(* with the exact lookup the text before "://" IS the table entry *)
Theorem url_parse_scheme_exact fx resolver s tail u : nz s -> fx_scheme fx = true ->
  url_parse fx resolver (s ++ 0 :: tail) = UVal u ->
  In (u_scheme u) schemes /\ exists rest, s = u_scheme u ++ [58; 47; 47] ++ rest.
Proof.
  intros Hs Hfx E. destruct (url_parse_post _ _ _ _ _ Hs E) as (len & rest & v & Es & _ & Hf & _).
  rewrite Hfx in Hf. apply find_scheme_exact in Hf. destruct Hf as [Hsch Hin].
  split; [exact Hin|]. exists rest. rewrite Hsch. exact Es.
Qed.

Lemma tolower_not_upper c : CanonSpec.sp_upper (c_tolower c) = false.
Proof.
  unfold c_tolower, c_isupper, CanonSpec.sp_upper.
  destruct ((65 <=? c) && (c <=? 90)) eqn:E.
  - apply andb_true_iff in E. destruct E as [E1 E2]. apply N.leb_le in E1, E2.
    apply andb_false_iff. right. apply N.leb_gt. lia.
  - exact E.
Qed.

(* sub-lists of a lower-cased string are lower case *)
Lemma host_lower_sub hp a host c : map c_tolower hp = a ++ host ++ c ->
  forallb (fun x => negb (CanonSpec.sp_upper x)) host = true.
Proof.
  intros E. apply forallb_forall. intros x Hx.
  assert (Hin: In x (map c_tolower hp)). { rewrite E. apply in_or_app. right. apply in_or_app. left. exact Hx. }
  apply in_map_iff in Hin. destruct Hin as (y & <- & _). rewrite tolower_not_upper. reflexivity.
Qed.

Lemma sub_all {A} (b : list A) : sub b 0 (length b) = Some b.
Proof. rewrite sub_Some by lia. simpl. rewrite firstn_all. reflexivity. Qed.

Lemma blit_all (d : list N) : blit (uzeros (length d)) 0 d = Some d.
Proof.
  unfold uzeros. rewrite blit_Some by (rewrite repeat_length; lia). simpl.
  rewrite skipn_all2 by (rewrite repeat_length; lia). apply f_equal. apply app_nil_r.
Qed.

(* the repaired clone returns a URL with the same storage contents and the
   same component offsets -- in the model: the same value *)
Theorem url_clone_equal u : buf_ok u -> url_clone true true u = UVal (0, Some u).
Proof.
  intros [[Hz HL]|[Hz HL]]; unfold url_clone; destruct u as [sch ui h port path q f buf bufsz];
    cbn [u_bufsz u_buf u_scheme u_userinfo u_hostname u_port u_path u_query u_fragment] in *.
  - subst bufsz. cbn [Nat.eqb negb]. rewrite <- HL. rewrite sub_all. cbn [ulift ubind].
    rewrite blit_all. cbn [ulift ubind]. unfold clone_host. destruct h; reflexivity.
  - subst bufsz. destruct (length buf =? 0)%nat eqn:E; [apply Nat.eqb_eq in E; unfold STATIC_SZ in HL; lia|].
    cbn [negb]. rewrite sub_all. cbn [ulift ubind]. rewrite blit_all. cbn [ulift ubind].
    unfold clone_host. destruct h; reflexivity.
Qed.

Definition no_resolver (_ : list N) : option N := None.
Definition http_ := [104; 116; 116; 112].

(* "ht://h/" is accepted as http *)
Lemma scheme_prefix_witness :
  exists u, url_parse fx_pinned no_resolver ([104; 116; 58; 47; 47; 104; 47] ++ [0]) = UVal u /\
            u_scheme u = http_ /\ firstn 2 (u_scheme u) = [104; 116] /\ length (u_scheme u) = 4%nat.
Proof. vm_compute. eexists. repeat split. Qed.

(* "://h/" too *)
Lemma scheme_empty_witness :
  exists u, url_parse fx_pinned no_resolver ([58; 47; 47; 104; 47] ++ [0]) = UVal u /\ u_scheme u = http_.
Proof. vm_compute. eexists. repeat split. Qed.

Definition long_url : list N := [104; 116; 116; 112; 58; 47; 47; 104; 47] ++ repeat 97 130.

(* the clone of a URL longer than the inline buffer fails with rv 1 *)
Lemma clone_long_witness :
  exists u, url_parse fx_pinned no_resolver (long_url ++ [0]) = UVal u /\ buf_ok u /\
            url_clone false false u = UVal (1, None) /\ url_clone true true u = UVal (0, Some u).
Proof.
  vm_compute. eexists. split; [reflexivity|]. split; [right; split; [reflexivity|]|split; reflexivity].
  unfold STATIC_SZ. cbn [u_bufsz]. lia.
Qed.

(* the clone of ipc://a has a host-name pointer although the original has none *)
Lemma clone_null_host_witness :
  exists u c, url_parse fx_pinned no_resolver ([105; 112; 99; 58; 47; 47; 97] ++ [0]) = UVal u /\
              u_hostname u = None /\ url_clone false false u = UVal (0, Some c) /\
              is_wild (u_buf c) (u_hostname c) = true /\ url_view c = None.
Proof. vm_compute. eexists. eexists. repeat split. Qed.

Lemma uhex_not_qf h : uhex h = true -> (h =? 63) || (h =? 35) = false.
Proof. intros H. rewrite (uhex_neqb h 63 H eq_refl), (uhex_neqb h 35 H eq_refl). reflexivity. Qed.

Lemma escapes_canonical_path_part : forall l, escapes_canonical l = true -> escapes_canonical (path_part l) = true.
Proof.
  induction l as [|c r IH]; intros H; [reflexivity|].
  cbn [path_part]. destruct ((c =? 63) || (c =? 35)) eqn:Eq; [reflexivity|].
  cbn [escapes_canonical] in *. apply andb_true_iff in H. destruct H as [H1 H2].
  rewrite (IH H2), andb_true_r.
  destruct (c =? 37); [|reflexivity].
  destruct r as [|h1 [|h2 r']]; try discriminate.
  apply andb_true_iff in H1. destruct H1 as [H1 H3]. apply andb_true_iff in H1. destruct H1 as [Hh1 Hh2].
  cbn [path_part]. rewrite (uhex_not_qf _ Hh1), (uhex_not_qf _ Hh2). rewrite Hh1, Hh2, H3. reflexivity.
Qed.

Lemma wf_utf8_path_part : forall l, wf_utf8 l -> wf_utf8 (path_part l).
Proof.
  induction 1; cbn [path_part]; unfold tail_byte, in_range in *; tst; cbn [orb];
    try (constructor; assumption).
  destruct ((b =? 63) || (b =? 35)); constructor; assumption.
Qed.

(* an accepted URL of a scheme with an authority: the path, query and
   fragment returned are the pieces of the canonical form of a NUL-free part
   of the input, the host a piece of a lower-cased one *)
Lemma url_parse_auth fx resolver s tail u v : nz s ->
  url_parse fx resolver (s ++ 0 :: tail) = UVal u -> is_path_only (u_scheme u) = false ->
  url_view u = Some v ->
  exists rem out host hp, nz rem /\ canon_pure (fx_utf8 fx) rem = Some out /\
    v_path v = path_part out /\ out = path_part out ++ qf_text (v_query v) (v_fragment v) /\
    v_hostname v = Some host /\ (length host < HOST_MAX)%nat /\
    (exists a c, map c_tolower hp = a ++ host ++ c).
Proof.
  intros Hs E Hpo Hv.
  destruct (url_parse_post _ _ _ _ _ Hs E) as (len & rest & v' & Es & _ & _ & Hv' & _ & _ & Hrest).
  rewrite Hv in Hv'. inversion Hv'; subst v'. clear Hv'.
  rewrite Hpo in Hrest.
  destruct Hrest as (auth & rem & out & host & hp & Hr & _ & _ & Hcp & _ & Hpath & Eout & Hhost & Hhl & _ & Hsub).
  exists rem, out, host, hp. repeat split; auto.
  rewrite Es, Hr in Hs. apply nz_app in Hs. destruct Hs as [_ Hs].
  apply nz_app in Hs. destruct Hs as [_ Hs]. apply nz_app in Hs. tauto.
Qed.

Theorem url_parse_canonical fx resolver s tail u v : nz s ->
  url_parse fx resolver (s ++ 0 :: tail) = UVal u -> is_path_only (u_scheme u) = false ->
  url_view u = Some v ->
  escapes_canonical (v_path v) = true /\ no_double_slash (v_path v) = true /\
  no_dot_segments (v_path v) = true /\
  (exists host, v_hostname v = Some host /\ forallb (fun x => negb (sp_upper x)) host = true /\
                (length host < HOST_MAX)%nat) /\
  (fx_utf8 fx = true -> wf_utf8 (v_path v)).
Proof.
  intros Hs E Hpo Hv.
  destruct (url_parse_auth _ _ _ _ _ _ Hs E Hpo Hv)
    as (rem & out & host & hp & Hrem & Hcp & Hpath & _ & Hhost & Hhl & a & c & Hsub).
  destruct (canon_pure_canonical _ _ _ Hcp) as (C1 & C2 & C3).
  rewrite Hpath. repeat split; auto.
  - apply escapes_canonical_path_part. exact C1.
  - exists host. repeat split; auto. eapply host_lower_sub; eauto.
  - intros Hu. rewrite Hu in Hcp. apply wf_utf8_path_part. eapply canon_pure_utf8; eauto.
Qed.

(* re-canonicalising the stored path?query#fragment text gives it back: the
   core of the sprintf/parse round trip *)
Theorem url_parse_text_stable fx resolver s tail u v : nz s ->
  url_parse fx resolver (s ++ 0 :: tail) = UVal u -> is_path_only (u_scheme u) = false ->
  url_view u = Some v ->
  let text := v_path v ++ qf_text (v_query v) (v_fragment v) in
  canon_pure (fx_utf8 fx) text = Some text /\ path_part text = v_path v.
Proof.
  intros Hs E Hpo Hv.
  destruct (url_parse_auth _ _ _ _ _ _ Hs E Hpo Hv) as (rem & out & _ & _ & _ & Hcp & Hpath & Eout & _).
  cbn zeta. rewrite Hpath, <- Eout. split; [|reflexivity].
  eapply canon_pure_idempotent; eauto.
Qed.

(* "tcp://[[x]" is accepted with the host "[x"; nng_url_sprintf prints it as
   "tcp://[x:0", which the parser rejects: the round trip fails.  With the
   repaired bracket scan the input is rejected. *)
Definition bracket_url : list N := [116; 99; 112; 58; 47; 47; 91; 91; 120; 93].
Definition fx_bracket_pinned : uflags := mkUflags true true true true false.
Definition reparse (fx : uflags) (raw : list N) : ures nurl :=
  match url_parse fx no_resolver raw with
  | UVal u => match url_sprintf u with
              | Some out => url_parse fx no_resolver (out ++ [0])
              | None => UOob
              end
  | _ => UOob
  end.
Lemma bracket_host_witness :
  (exists u, url_parse fx_bracket_pinned no_resolver (bracket_url ++ [0]) = UVal u) /\
  reparse fx_bracket_pinned (bracket_url ++ [0]) = UErr NNG_EINVAL /\
  url_parse fx_repaired no_resolver (bracket_url ++ [0]) = UErr NNG_EINVAL.
Proof. vm_compute. split; [eexists; reflexivity | split; reflexivity]. Qed.
