(* CanonProofs: canonical form and idempotence of the three passes of
   nni_url_canonify_uri, proved about the pure functions of CanonPure.v
   against the independent predicates of CanonSpec.v. *)
From Coq Require Import List Arith Lia Bool NArith.
From NngV Require Import Url.Utf8Model Url.Utf8Spec Url.Utf8Proofs Url.CanonModel Url.CanonPure Url.CanonSpec.
Import ListNotations.
Local Open Scope N_scope.

(* P1: every '%' is followed by two upper-case hex digits whose value is not a
   "safe" character (not unreserved and not >= 0x80) *)
Fixpoint P1 (l : list N) : bool :=
  match l with
  | [] => true
  | c :: r =>
      (if c =? 37 then
         match r with
         | h1 :: h2 :: _ => uhex h1 && uhex h2 && negb (safe_char (uhex_val h1 * 16 + uhex_val h2))
         | _ => false
         end
       else true) && P1 r
  end.
Definition P2 (l : list N) : bool := no_double_slash (path_part l).
Definition P3 (l : list N) : bool := no_dot_segments (path_part l).

Lemma xdigit_cases h : c_isxdigit h = true -> 48 <= h <= 57 \/ 65 <= h <= 70 \/ 97 <= h <= 102.
Proof.
  unfold c_isxdigit, c_isdigit. intros H.
  apply orb_prop in H. destruct H as [H|H]; [apply orb_prop in H; destruct H as [H|H]|]; b2p; lia.
Qed.

Lemma uhex_cases h : uhex h = true -> 48 <= h <= 57 \/ 65 <= h <= 70.
Proof. unfold uhex, sp_digit. intros H. apply orb_prop in H. destruct H as [H|H]; b2p; lia. Qed.

Lemma cp_xd_upper h : c_isxdigit h = true -> uhex (c_toupper h) = true.
Proof.
  intros H. unfold uhex, sp_digit, c_toupper, c_islower.
  destruct (xdigit_cases h H) as [C|[C|C]]; tst; reflexivity.
Qed.

Lemma cp_xd_val h : c_isxdigit h = true -> uhex_val (c_toupper h) = url_hex_val h.
Proof.
  intros H. unfold uhex_val, url_hex_val, sp_digit, c_isdigit, c_toupper, c_islower.
  destruct (xdigit_cases h H) as [C|[C|C]]; tst; lia.
Qed.

Lemma cp_xd_lt h : c_isxdigit h = true -> url_hex_val h < 16.
Proof.
  intros H. unfold url_hex_val, c_isdigit.
  destruct (xdigit_cases h H) as [C|[C|C]]; tst; lia.
Qed.

Lemma cp_uhex_xd h : uhex h = true -> c_isxdigit h = true.
Proof.
  intros H. unfold c_isxdigit.
  change (c_isdigit h || ((65 <=? h) && (h <=? 70))) with (uhex h). rewrite H. reflexivity.
Qed.

Lemma cp_uhex_up h : uhex h = true -> c_toupper h = h.
Proof. intros H. unfold c_toupper, c_islower. destruct (uhex_cases h H); tst; reflexivity. Qed.

Lemma uhex_neqb h k : uhex h = true -> uhex k = false -> (h =? k) = false.
Proof. intros H K. destruct (N.eqb_spec h k) as [->|]; congruence. Qed.

Lemma cp_uhex_ne h : uhex h = true -> (h =? 37) = false.
Proof. intros H. exact (uhex_neqb h 37 H eq_refl). Qed.

Lemma cp_uhex_ne47 h : uhex h = true -> (h =? 47) = false.
Proof. intros H. exact (uhex_neqb h 47 H eq_refl). Qed.

Lemma cp_hexv h1 h2 : c_isxdigit h1 = true -> c_isxdigit h2 = true ->
  wrap8 (wrap8 (url_hex_val h1 * 16) + url_hex_val h2)
  = uhex_val (c_toupper h1) * 16 + uhex_val (c_toupper h2).
Proof.
  intros X1 X2. rewrite (cp_xd_val _ X1), (cp_xd_val _ X2).
  pose proof (cp_xd_lt _ X1). pose proof (cp_xd_lt _ X2).
  unfold wrap8. rewrite (N.mod_small (url_hex_val h1 * 16)) by lia.
  apply N.mod_small. lia.
Qed.

Lemma cp_safe_ne37 v : safe_char v = true -> (v =? 37) = false.
Proof.
  intros H. destruct (N.eqb_spec v 37) as [->|]; [vm_compute in H; discriminate|reflexivity].
Qed.

Lemma cp_unres_safe v : unreserved v = true -> safe_char v = true.
Proof.
  unfold unreserved, safe_char.
  change (sp_upper v) with (c_isupper v). change (sp_lower v) with (c_islower v).
  change (sp_digit v) with (c_isdigit v).
  destruct (c_isupper v), (c_islower v), (c_isdigit v), (v =? 45), (v =? 46), (v =? 95), (v =? 126);
    cbn; intros H; try reflexivity; discriminate.
Qed.

Lemma P1_cons_ne x l : (x =? 37) = false -> P1 (x :: l) = P1 l.
Proof. intros H. cbn [P1]. rewrite H. reflexivity. Qed.

Lemma P1_cons_esc h1 h2 l :
  P1 (37 :: h1 :: h2 :: l)
  = uhex h1 && uhex h2 && negb (safe_char (uhex_val h1 * 16 + uhex_val h2)) && P1 l.
Proof.
  change (P1 (37 :: h1 :: h2 :: l))
    with ((uhex h1 && uhex h2 && negb (safe_char (uhex_val h1 * 16 + uhex_val h2)))
          && P1 (h1 :: h2 :: l)).
  destruct (uhex h1) eqn:U1; [|reflexivity].
  destruct (uhex h2) eqn:U2; [|reflexivity].
  rewrite (P1_cons_ne h1) by (apply cp_uhex_ne; assumption).
  rewrite (P1_cons_ne h2) by (apply cp_uhex_ne; assumption).
  reflexivity.
Qed.

(* [p1] by cases: end of text, an escape (decoded or kept), an ordinary byte *)
Lemma p1_ind' (Q : list N -> list N -> Prop) :
  Q [] [] ->
  (forall h1 h2 r t, c_isxdigit h1 = true -> c_isxdigit h2 = true -> Q r t ->
     let v := wrap8 (wrap8 (url_hex_val h1 * 16) + url_hex_val h2) in
     Q (37 :: h1 :: h2 :: r) (if safe_char v then v :: t else 37 :: c_toupper h1 :: c_toupper h2 :: t)) ->
  (forall c r t, (c =? 37) = false -> Q r t -> Q (c :: r) (c :: t)) ->
  forall s t, p1 s = Some t -> Q s t.
Proof.
  intros Hnil Hesc Hord.
  assert (A : forall s, match p1 s with Some t => Q s t | None => True end).
  { intros s. induction s as [s IH] using (induction_ltof1 _ (@length N)). unfold ltof in IH.
    destruct s as [|c r]; [exact Hnil|]. cbn [p1]. destruct (c =? 37) eqn:Ec.
    - apply N.eqb_eq in Ec. subst c. destruct r as [|h1 [|h2 r']]; try exact I.
      destruct (c_isxdigit h1) eqn:X1; [|exact I].
      destruct (c_isxdigit h2) eqn:X2; [|exact I]. cbn [andb].
      pose proof (IH r' ltac:(simpl; lia)) as IHr. destruct (p1 r') as [t0|]; [|exact I].
      apply Hesc; assumption.
    - pose proof (IH r ltac:(simpl; lia)) as IHr. destruct (p1 r) as [t0|]; [|exact I].
      apply Hord; assumption. }
  intros s t H. specialize (A s). rewrite H in A. exact A.
Qed.

Theorem p1_establishes : forall s t, p1 s = Some t -> P1 t = true.
Proof.
  apply (p1_ind' (fun _ t => P1 t = true)); [reflexivity| |].
  - intros h1 h2 r t X1 X2 Pt v. unfold v. rewrite (cp_hexv _ _ X1 X2).
    destruct (safe_char _) eqn:Es.
    + rewrite P1_cons_ne by (apply cp_safe_ne37; assumption). assumption.
    + rewrite P1_cons_esc, Es, Pt, (cp_xd_upper _ X1), (cp_xd_upper _ X2). reflexivity.
  - intros c r t Ec Pt. rewrite P1_cons_ne; assumption.
Qed.

Theorem P1_escapes_canonical : forall t, P1 t = true -> escapes_canonical t = true.
Proof.
  induction t as [|c r IH]; intros H; [reflexivity|].
  cbn [P1] in H. apply andb_prop in H. destruct H as [Ha Hr].
  cbn [escapes_canonical]. rewrite (IH Hr), andb_true_r.
  destruct (c =? 37); [|reflexivity].
  destruct r as [|h1 [|h2 r']]; try discriminate.
  apply andb_prop in Ha. destruct Ha as [Hu Hs]. rewrite Hu. cbn [andb].
  destruct (unreserved _) eqn:Eu; [|reflexivity].
  rewrite (cp_unres_safe _ Eu) in Hs. discriminate.
Qed.

Theorem p1_fixpoint : forall t, P1 t = true -> p1 t = Some t.
Proof.
  intros t. induction t as [t IH] using (induction_ltof1 _ (@length N)). unfold ltof in IH.
  intros H. destruct t as [|c r]; [reflexivity|]. cbn [p1].
  destruct (c =? 37) eqn:Ec.
  - apply N.eqb_eq in Ec. subst c.
    destruct r as [|h1 [|h2 r']]; try (cbn in H; discriminate).
    rewrite P1_cons_esc in H.
    apply andb_prop in H. destruct H as [H Hr].
    apply andb_prop in H. destruct H as [H Hs].
    apply andb_prop in H. destruct H as [U1 U2].
    apply negb_true_iff in Hs.
    pose proof (cp_uhex_xd _ U1) as X1. pose proof (cp_uhex_xd _ U2) as X2.
    rewrite X1, X2. cbn [andb].
    rewrite (IH r' ltac:(simpl; lia) Hr).
    rewrite (cp_hexv _ _ X1 X2), (cp_uhex_up _ U1), (cp_uhex_up _ U2), Hs.
    reflexivity.
  - rewrite P1_cons_ne in H by assumption.
    rewrite (IH r ltac:(simpl; lia) H). reflexivity.
Qed.

Definition starts47 (l : list N) : bool := match l with d :: _ => d =? 47 | [] => false end.

Lemma nds2_cons c r : no_double_slash (c :: r) = negb ((c =? 47) && starts47 r) && no_double_slash r.
Proof. reflexivity. Qed.

Lemma pp_cons c r : path_part (c :: r) = if is_qf c then [] else c :: path_part r.
Proof. reflexivity. Qed.

Lemma p2_skip : forall s prev, p2 true prev s = s.
Proof.
  induction s as [|c r IH]; intros prev; [reflexivity|].
  cbn [p2 negb]. rewrite andb_false_r. destruct (is_qf c); rewrite IH; reflexivity.
Qed.

Lemma qf_47 c : (c =? 47) = true -> is_qf c = false.
Proof. intros H. apply N.eqb_eq in H. subst c. reflexivity. Qed.

Lemma p2_establishes_gen : forall s prev,
  no_double_slash (path_part (p2 false prev s)) = true /\
  (prev = true -> starts47 (path_part (p2 false prev s)) = false).
Proof.
  induction s as [|c r IH]; intros prev.
  - split; reflexivity.
  - cbn [p2 negb]. rewrite andb_true_r. destruct (c =? 47) eqn:Ec.
    + destruct (IH true) as [I1 I2]. destruct prev.
      * split; [assumption|]. intros _. apply I2. reflexivity.
      * split; [|discriminate]. rewrite pp_cons. cbn [is_qf N.eqb Pos.eqb orb].
        rewrite nds2_cons, I1, (I2 eq_refl). reflexivity.
    + rewrite pp_cons. destruct (is_qf c) eqn:Eq.
      * split; reflexivity.
      * destruct (IH false) as [I1 _]. split.
        -- rewrite nds2_cons, Ec, I1. reflexivity.
        -- intros _. cbn [starts47]. assumption.
Qed.

Theorem p2_establishes : forall s, P2 (p2 false false s) = true.
Proof. intros s. apply (p2_establishes_gen s false). Qed.

Lemma p2_fixpoint_gen : forall t prev,
  no_double_slash (path_part t) = true ->
  (prev = true -> starts47 (path_part t) = false) ->
  p2 false prev t = t.
Proof.
  induction t as [|c r IH]; intros prev H1 H2; [reflexivity|].
  cbn [p2 negb]. rewrite andb_true_r. rewrite pp_cons in H1, H2.
  destruct (c =? 47) eqn:Ec.
  - rewrite (qf_47 _ Ec) in H1, H2. rewrite nds2_cons, Ec in H1. cbn [andb] in H1.
    apply andb_prop in H1. destruct H1 as [Ha Hb]. apply negb_true_iff in Ha.
    destruct prev.
    + specialize (H2 eq_refl). cbn [starts47] in H2. congruence.
    + apply N.eqb_eq in Ec. subst c. f_equal. apply IH; [assumption|]. intros _. assumption.
  - destruct (is_qf c) eqn:Eq.
    + rewrite p2_skip. reflexivity.
    + rewrite nds2_cons, Ec in H1. cbn [andb negb] in H1. f_equal. apply IH; [assumption|discriminate].
Qed.

Theorem p2_fixpoint : forall t, P2 t = true -> p2 false false t = t.
Proof. intros t H. apply p2_fixpoint_gen; [exact H|discriminate]. Qed.

(* x : N is split into 0 and the low six bits of its positive, so that a match or test of x against
   the literal 46 or 47 (both below 2^6) computes *)
Ltac pos_split x :=
  destruct x as [|x]; [try reflexivity|];
  do 6 (try (destruct x as [x|x|]; try reflexivity)).

(* the rest after a '/' is ".." resp. "." followed by a terminator *)
Definition dd (r : list N) : bool :=
  match r with x :: y :: r2 => (x =? 46) && (y =? 46) && term_hd r2 | _ => false end.
Definition d1 (r : list N) : bool :=
  match r with x :: r1 => (x =? 46) && term_hd r1 | _ => false end.

Lemma match46 {A} (x : N) (a b : A) : x <> 46 -> match x with 46 => a | _ => b end = b.
Proof. intros H. pos_split x. elim H; reflexivity. Qed.

Lemma p3_cons skip racc c r :
  p3 skip racc (c :: r) =
  if (c =? 47) && negb skip then
    if dd r then p3 skip (pop racc) (skipn 2 r)
    else if d1 r then p3 skip racc (skipn 1 r)
    else p3 skip (47 :: racc) r
  else p3 (if is_qf c then true else skip) (c :: racc) r.
Proof.
  cbn [p3]. destruct ((c =? 47) && negb skip); [|reflexivity].
  destruct r as [|x r1]; [reflexivity|].
  destruct (N.eqb_spec x 46) as [->|Hx].
  2:{ rewrite match46 by exact Hx. unfold dd, d1. rewrite (proj2 (N.eqb_neq x 46) Hx).
      destruct r1; cbn [andb]; reflexivity. }
  destruct r1 as [|y r2]; [reflexivity|].
  destruct (N.eqb_spec y 46) as [->|Hy].
  - unfold dd, d1. cbn [N.eqb Pos.eqb andb skipn term_hd is_term orb].
    destruct (term_hd r2); reflexivity.
  - rewrite match46 by exact Hy. unfold dd, d1. rewrite (proj2 (N.eqb_neq y 46) Hy).
    cbn [N.eqb Pos.eqb andb skipn]. reflexivity.
Qed.

Lemma p3_true : forall s racc, p3 true racc s = rev racc ++ s.
Proof.
  induction s as [|c r IH]; intros racc.
  - cbn. rewrite app_nil_r. reflexivity.
  - cbn [p3 negb]. rewrite andb_false_r. destruct (is_qf c); rewrite IH; cbn [rev];
      rewrite <- app_assoc; reflexivity.
Qed.

Lemma pop_form : forall racc, pop racc = [] \/ exists seg, racc = seg ++ 47 :: pop racc.
Proof.
  induction racc as [|x r' IH]; [left; reflexivity|].
  destruct r' as [|y r'']; [left; reflexivity|].
  change (pop (x :: y :: r'')) with (if x =? 47 then y :: r'' else pop (y :: r'')).
  destruct (N.eqb_spec x 47) as [->|Hx].
  - right. exists []. reflexivity.
  - destruct IH as [IH|[seg IH]]; [left; assumption|].
    right. exists (x :: seg). cbn [app]. f_equal. exact IH.
Qed.

Lemma pop_Forall (P : N -> Prop) racc : Forall P racc -> Forall P (pop racc).
Proof.
  intros H. destruct (pop_form racc) as [E|[seg E]]; [rewrite E; constructor|].
  rewrite E in H. apply Forall_app in H. destruct H as [_ H]. inversion H; assumption.
Qed.

Lemma pop_length racc : (length (pop racc) <= length racc)%nat.
Proof.
  destruct (pop_form racc) as [E|[seg E]]; [rewrite E; apply Nat.le_0_l|].
  rewrite E at 2. rewrite app_length. simpl. lia.
Qed.

(* what [pop] removes from the output so far is all of it or a block that
   starts at a '/': a property of texts that survives dropping a prefix and
   deleting such a block survives the "/.." step *)
Lemma pop_cut (F : list N -> Prop) racc m b :
  (forall u v, F (u ++ v) -> F v) -> (forall a d b, F (a ++ 47 :: d ++ b) -> F (a ++ b)) ->
  F (rev racc ++ m ++ b) -> F (rev (pop racc) ++ b).
Proof.
  intros Hsuf Hdel H. destruct (pop_form racc) as [E|[seg E]].
  - rewrite E. apply (Hsuf (rev racc ++ m)). rewrite <- app_assoc. exact H.
  - rewrite E in H at 1. rewrite rev_app_distr in H. cbn [rev] in H. rewrite <- !app_assoc in H.
    apply (Hdel _ (rev seg ++ m)). rewrite <- app_assoc. exact H.
Qed.

Lemma dd_shape r : dd r = true -> exists r2, r = 46 :: 46 :: r2 /\ term_hd r2 = true.
Proof.
  destruct r as [|x [|y r2]]; try discriminate. unfold dd. intros H.
  apply andb_prop in H. destruct H as [H H3]. apply andb_prop in H. destruct H as [H1 H2].
  apply N.eqb_eq in H1, H2. subst. exists r2. split; [reflexivity|assumption].
Qed.

Lemma d1_shape r : d1 r = true -> exists r1, r = 46 :: r1 /\ term_hd r1 = true.
Proof.
  destruct r as [|x r1]; try discriminate. unfold d1. intros H.
  apply andb_prop in H. destruct H as [H1 H2]. apply N.eqb_eq in H1. subst.
  exists r1. split; [reflexivity|assumption].
Qed.

(* [p3 false] by cases: end of text, "/.." and "/." before a terminator, any
   other '/', the first '?' or '#' (the rest is copied), any other byte *)
Lemma p3_ind' (Q : list N -> list N -> list N -> Prop) :
  (forall ra, Q ra [] (rev ra)) ->
  (forall ra r2 o, term_hd r2 = true -> Q (pop ra) r2 o -> Q ra (47 :: 46 :: 46 :: r2) o) ->
  (forall ra r1 o, term_hd r1 = true -> Q ra r1 o -> Q ra (47 :: 46 :: r1) o) ->
  (forall ra r o, dd r = false -> d1 r = false -> Q (47 :: ra) r o -> Q ra (47 :: r) o) ->
  (forall ra c r, is_qf c = true -> Q ra (c :: r) (rev ra ++ c :: r)) ->
  (forall ra c r o, (c =? 47) = false -> is_qf c = false -> Q (c :: ra) r o -> Q ra (c :: r) o) ->
  forall s ra, Q ra s (p3 false ra s).
Proof.
  intros Hnil Hdd Hd1 Hsl Hqf Hoth s.
  induction s as [s IH] using (induction_ltof1 _ (@length N)). unfold ltof in IH. intros ra.
  destruct s as [|c r]; [apply Hnil|]. rewrite p3_cons. cbn [negb]. rewrite andb_true_r.
  destruct (c =? 47) eqn:Ec.
  - apply N.eqb_eq in Ec. subst c. destruct (dd r) eqn:Edd; [|destruct (d1 r) eqn:Ed1].
    + destruct (dd_shape _ Edd) as (r2 & -> & T). cbn [skipn].
      apply Hdd; [exact T|]. apply IH. simpl; lia.
    + destruct (d1_shape _ Ed1) as (r1 & -> & T). cbn [skipn].
      apply Hd1; [exact T|]. apply IH. simpl; lia.
    + apply Hsl; [assumption|assumption|]. apply IH. simpl; lia.
  - destruct (is_qf c) eqn:Eq.
    + rewrite p3_true. cbn [rev]. rewrite <- app_assoc. apply Hqf. exact Eq.
    + apply Hoth; [assumption|assumption|]. apply IH. simpl; lia.
Qed.

(* the rest after a '/' starts with a dot segment in pass 3's sense *)
Definition ds (r : list N) : bool := dd r || d1 r.

(* the canonical form of pass 3 in its own terms: before the first '?' or
   '#' no '/' is followed by "." or ".." and a terminator of pass 3 (the
   end of the text, NUL, '/', '?', '#') *)
Fixpoint P3z (l : list N) : bool :=
  match l with
  | [] => true
  | c :: r => is_qf c || (negb ((c =? 47) && ds r) && P3z r)
  end.

Lemma P3z_cons c r : is_qf c = false -> P3z (c :: r) = negb ((c =? 47) && ds r) && P3z r.
Proof. intros H. cbn [P3z]. rewrite H. reflexivity. Qed.

Lemma ds_cons x l : ds (x :: l) = (x =? 46) && (d1 l || term_hd l).
Proof. unfold ds. destruct l; cbn [dd d1 term_hd]; destruct (x =? 46); reflexivity. Qed.

Lemma term_qf x : is_term x = (x =? 47) || (x =? 0) || is_qf x.
Proof. unfold is_term, is_qf. destruct (x =? 0), (x =? 35), (x =? 63), (x =? 47); reflexivity. Qed.

Lemma term_ne46 x : is_term x = true -> (x =? 46) = false.
Proof. intros H. destruct (N.eqb_spec x 46) as [->|]; [discriminate H|reflexivity]. Qed.

(* the spec's test in the same shape *)
Definition seg_end (l : list N) : bool := match l with [] => true | z :: _ => z =? 47 end.
Definition dsb (l : list N) : bool :=
  match l with
  | [] => false
  | x :: l1 => (x =? 46) && (seg_end l1 ||
                 match l1 with [] => false | y :: l2 => (y =? 46) && seg_end l2 end)
  end.

Lemma ds_ne1 x l : x <> 46 -> dotseg_at (x :: l) = false.
Proof. intros H. pos_split x. elim H; reflexivity. Qed.
Lemma ds_ne2 y l : y <> 46 -> y <> 47 -> dotseg_at (46 :: y :: l) = false.
Proof.
  intros H1 H2. pos_split y; try (elim H1; reflexivity); try (elim H2; reflexivity).
Qed.
Lemma ds_ne3 z l : z <> 47 -> dotseg_at (46 :: 46 :: z :: l) = false.
Proof. intros H. pos_split z. elim H; reflexivity. Qed.

Lemma dotseg_at_dsb l : dotseg_at l = dsb l.
Proof.
  destruct l as [|x l1]; [reflexivity|].
  destruct (N.eqb_spec x 46) as [->|Hx].
  2:{ rewrite (ds_ne1 _ _ Hx). unfold dsb. rewrite (proj2 (N.eqb_neq x 46) Hx). reflexivity. }
  destruct l1 as [|y l2]; [reflexivity|].
  destruct (N.eqb_spec y 47) as [->|Hy47]; [reflexivity|].
  destruct (N.eqb_spec y 46) as [->|Hy46].
  - destruct l2 as [|z l3]; [reflexivity|].
    destruct (N.eqb_spec z 47) as [->|Hz]; [reflexivity|].
    rewrite (ds_ne3 _ _ Hz). unfold dsb, seg_end.
    rewrite (proj2 (N.eqb_neq z 47) Hz). reflexivity.
  - rewrite (ds_ne2 _ _ Hy46 Hy47). unfold dsb, seg_end.
    rewrite (proj2 (N.eqb_neq y 47) Hy47), (proj2 (N.eqb_neq y 46) Hy46). reflexivity.
Qed.

(* a dot segment of the spec is one of pass 3 ... *)
Lemma seg_end_pp r : seg_end (path_part r) = true -> term_hd r = true.
Proof.
  destruct r as [|x r]; [reflexivity|]. rewrite pp_cons. cbn [term_hd]. rewrite term_qf.
  destruct (is_qf x); [intros _; apply orb_true_r|]. cbn [seg_end]. intros ->. reflexivity.
Qed.

Lemma dotseg_pp r : dotseg_at (path_part r) = true -> ds r = true.
Proof.
  rewrite dotseg_at_dsb. destruct r as [|x r1]; [discriminate|]. rewrite pp_cons.
  destruct (is_qf x); [discriminate|]. rewrite ds_cons. cbn [dsb].
  destruct (x =? 46); [|discriminate]. cbn [andb]. intros H. apply orb_prop in H. destruct H as [H|H].
  - rewrite (seg_end_pp _ H). apply orb_true_r.
  - destruct r1 as [|y r2]; [discriminate|]. rewrite pp_cons in H. destruct (is_qf y); [discriminate|].
    apply andb_prop in H. destruct H as [H1 H2]. cbn [d1]. rewrite H1, (seg_end_pp _ H2). reflexivity.
Qed.

Theorem P3z_P3 : forall t, P3z t = true -> P3 t = true.
Proof.
  unfold P3. induction t as [|c r IH]; intros H; [reflexivity|]. rewrite pp_cons. cbn [P3z] in H.
  destruct (is_qf c); [reflexivity|]. cbn [orb] in H. apply andb_prop in H. destruct H as [Ha Hb].
  cbn [no_dot_segments]. rewrite (IH Hb), andb_true_r.
  destruct (c =? 47); [|reflexivity]. cbn [andb] in *.
  destruct (dotseg_at (path_part r)) eqn:E; [|reflexivity]. rewrite (dotseg_pp _ E) in Ha. discriminate.
Qed.

(* ... and conversely in a text without NUL *)
Lemma pp_seg_end r : Forall byte_nz r -> term_hd r = true -> seg_end (path_part r) = true.
Proof.
  destruct r as [|x r]; [reflexivity|]. intros Z. rewrite pp_cons. cbn [term_hd]. rewrite term_qf.
  destruct (is_qf x); [reflexivity|]. rewrite (nz_eqb0 x (Forall_inv Z)), !orb_false_r. cbn [seg_end]. auto.
Qed.

Lemma pp_dotseg r : Forall byte_nz r -> ds r = true -> dotseg_at (path_part r) = true.
Proof.
  intros Z. rewrite dotseg_at_dsb. destruct r as [|x r1]; [discriminate|]. apply Forall_inv_tail in Z.
  rewrite ds_cons. destruct (x =? 46) eqn:Ex; [|discriminate]. apply N.eqb_eq in Ex. subst x.
  change (path_part (46 :: r1)) with (46 :: path_part r1). cbn [dsb andb]. change (46 =? 46) with true.
  cbn [andb]. intros H. apply orb_prop in H. destruct H as [H|H].
  - destruct r1 as [|y r2]; [discriminate|]. cbn [d1] in H. apply andb_prop in H. destruct H as [Ey T].
    apply N.eqb_eq in Ey. subst y. change (path_part (46 :: r2)) with (46 :: path_part r2).
    cbn [andb]. change (46 =? 46) with true. cbn [andb]. rewrite (pp_seg_end r2 (Forall_inv_tail Z) T). apply orb_true_r.
  - rewrite (pp_seg_end r1 Z H). reflexivity.
Qed.

Lemma P3_P3z t : Forall byte_nz t -> P3 t = true -> P3z t = true.
Proof.
  unfold P3. induction t as [|c r IH]; intros Z H; [reflexivity|]. rewrite pp_cons in H. cbn [P3z].
  destruct (is_qf c); [reflexivity|]. cbn [orb no_dot_segments] in *.
  apply andb_prop in H. destruct H as [Ha Hb]. rewrite (IH (Forall_inv_tail Z) Hb), andb_true_r.
  destruct (c =? 47); [|reflexivity]. cbn [andb] in *.
  destruct (ds r) eqn:E; [|reflexivity]. rewrite (pp_dotseg r (Forall_inv_tail Z) E) in Ha. discriminate.
Qed.

Definition nq (c : N) : Prop := is_qf c = false.

Lemma term_hd_app_t a t b : is_term t = true -> term_hd (a ++ t :: b) = term_hd a.
Proof. intros T. destruct a; [exact T|reflexivity]. Qed.

Lemma ds_app_t a t b : is_term t = true -> ds (a ++ t :: b) = ds a.
Proof.
  intros T. destruct a as [|x [|y a]]; cbn [app]; rewrite ?ds_cons; cbn [d1 term_hd].
  - rewrite (term_ne46 _ T). reflexivity.
  - rewrite T, (term_ne46 _ T). reflexivity.
  - rewrite term_hd_app_t by exact T. reflexivity.
Qed.

Lemma P3z_app_t : forall a t b, Forall nq a -> is_term t = true ->
  P3z (a ++ t :: b) = P3z a && P3z (t :: b).
Proof.
  induction a as [|c a IH]; intros t b Q T; [reflexivity|].
  cbn [app]. rewrite !P3z_cons by exact (Forall_inv Q).
  rewrite (ds_app_t _ _ _ T), (IH _ _ (Forall_inv_tail Q) T). apply andb_assoc.
Qed.

Lemma P3z_nt : forall w, Forall (fun x => is_term x = false) w -> P3z w = true.
Proof.
  induction w as [|c w IH]; intros H; [reflexivity|].
  pose proof (Forall_inv H) as Hc. cbn beta in Hc. rewrite term_qf in Hc.
  apply orb_false_elim in Hc. destruct Hc as [Hc Eq]. apply orb_false_elim in Hc. destruct Hc as [Ec _].
  rewrite P3z_cons by exact Eq. rewrite Ec, (IH (Forall_inv_tail H)). reflexivity.
Qed.

(* the first segment of the rest: up to the next terminator of pass 3 *)
Fixpoint seg1 (s : list N) : list N :=
  match s with
  | [] => []
  | x :: r => if is_term x then [] else x :: seg1 r
  end.

Lemma seg1_nt : forall s, Forall (fun x => is_term x = false) (seg1 s).
Proof.
  induction s as [|x r IH]; [constructor|]. cbn [seg1]. destruct (is_term x) eqn:E; constructor; assumption.
Qed.

Lemma seg1_term r : term_hd r = true -> seg1 r = [].
Proof. destruct r as [|x r]; [reflexivity|]. cbn [term_hd seg1]. intros ->. reflexivity. Qed.

Lemma term_hd_seg1 r : term_hd (seg1 r) = term_hd r.
Proof.
  destruct r as [|y r]; [reflexivity|]. cbn [seg1 term_hd].
  destruct (is_term y) eqn:E; [reflexivity|exact E].
Qed.

Lemma d1_seg1 r : d1 (seg1 r) = d1 r.
Proof.
  destruct r as [|y r]; [reflexivity|]. cbn [seg1 d1]. destruct (is_term y) eqn:E.
  - rewrite (term_ne46 _ E). reflexivity.
  - cbn [d1]. rewrite term_hd_seg1. reflexivity.
Qed.

Lemma ds_seg1 r : ds (seg1 r) = ds r.
Proof.
  destruct r as [|x r1]; [reflexivity|]. cbn [seg1]. destruct (is_term x) eqn:Ex.
  - rewrite ds_cons, (term_ne46 _ Ex). reflexivity.
  - rewrite !ds_cons, d1_seg1, term_hd_seg1. reflexivity.
Qed.

Lemma pp_app_nq : forall a b, Forall nq a -> path_part (a ++ b) = a ++ path_part b.
Proof.
  induction a as [|c a IH]; intros b H; [reflexivity|]. inversion H; subst.
  cbn [app]. rewrite pp_cons. unfold nq in H2. rewrite H2, (IH _ H3). reflexivity.
Qed.

(* the invariant speaks of the output so far followed by the first segment of the unread rest:
   whether the '/' written last starts a dot segment depends on the bytes up to the next terminator
   (ds_seg1), and P3z splits at a terminator (P3z_app_t), so nothing behind it matters *)
Lemma p3_establishes_gen : forall s racc,
  Forall nq racc -> P3z (rev racc ++ seg1 s) = true -> P3z (p3 false racc s) = true.
Proof.
  apply (p3_ind' (fun racc s o => Forall nq racc -> P3z (rev racc ++ seg1 s) = true -> P3z o = true)).
  - intros ra Q J. cbn [seg1] in J. rewrite app_nil_r in J. exact J.
  - intros ra r2 o T IH Q J. rewrite (seg1_term (47 :: _) eq_refl), app_nil_r in J.
    apply IH; [apply pop_Forall; assumption|]. rewrite (seg1_term _ T), app_nil_r.
    destruct (pop_form ra) as [E|[seg E]]; [rewrite E; reflexivity|].
    rewrite E in J. rewrite rev_app_distr in J. cbn [rev] in J. rewrite <- app_assoc in J. cbn [app] in J.
    rewrite P3z_app_t in J by (try reflexivity; apply Forall_rev, pop_Forall, Q).
    apply andb_prop in J. tauto.
  - intros ra r1 o T IH Q J. rewrite (seg1_term (47 :: _) eq_refl), app_nil_r in J.
    apply IH; [assumption|]. rewrite (seg1_term _ T), app_nil_r. assumption.
  - intros ra r o Edd Ed1 IH Q J. rewrite (seg1_term (47 :: _) eq_refl), app_nil_r in J.
    apply IH; [constructor; [reflexivity|assumption]|].
    cbn [rev]. rewrite <- app_assoc. cbn [app].
    rewrite P3z_app_t by (try reflexivity; apply Forall_rev; assumption). rewrite J.
    rewrite P3z_cons by reflexivity. rewrite ds_seg1. unfold ds. rewrite Edd, Ed1. cbn [orb andb negb].
    apply P3z_nt, seg1_nt.
  - intros ra c r Eq Q J. cbn [seg1] in J.
    assert (T : is_term c = true) by (rewrite term_qf, Eq; apply orb_true_r).
    rewrite T, app_nil_r in J. rewrite P3z_app_t by (try exact T; apply Forall_rev; assumption).
    rewrite J. cbn [P3z]. rewrite Eq. reflexivity.
  - intros ra c r o Ec Eq IH Q J. apply IH; [constructor; assumption|].
    cbn [rev]. rewrite <- app_assoc. cbn [app]. cbn [seg1] in J.
    destruct (is_term c) eqn:T; [|exact J].
    rewrite app_nil_r in J. rewrite P3z_app_t by (try exact T; apply Forall_rev; assumption). rewrite J.
    rewrite P3z_cons by exact Eq. rewrite Ec. cbn [andb negb]. apply P3z_nt, seg1_nt.
Qed.

Theorem p3_establishes_z : forall s, P3z (p3 false [] s) = true.
Proof. intros s. apply p3_establishes_gen; [constructor|]. cbn [rev app]. apply P3z_nt, seg1_nt. Qed.

Theorem p3_establishes : forall s, P3 (p3 false [] s) = true.
Proof. intros s. apply P3z_P3. apply p3_establishes_z. Qed.

Lemma p3_fixpoint_gen : forall t racc, P3z t = true -> p3 false racc t = rev racc ++ t.
Proof.
  induction t as [|c r IH]; intros racc H.
  - cbn. rewrite app_nil_r. reflexivity.
  - rewrite p3_cons. cbn [negb]. rewrite andb_true_r. cbn [P3z] in H.
    destruct (c =? 47) eqn:Ec.
    + rewrite (qf_47 _ Ec) in H. cbn [orb andb] in H.
      apply andb_prop in H. destruct H as [Ha Hb]. apply negb_true_iff in Ha.
      apply orb_false_elim in Ha. destruct Ha as [Edd Ed1].
      apply N.eqb_eq in Ec. subst c.
      rewrite Edd, Ed1. rewrite (IH _ Hb). cbn [rev]. rewrite <- app_assoc. reflexivity.
    + destruct (is_qf c) eqn:Eq.
      * rewrite p3_true. cbn [rev]. rewrite <- app_assoc. reflexivity.
      * cbn [orb andb negb] in H.
        rewrite (IH _ H). cbn [rev]. rewrite <- app_assoc. reflexivity.
Qed.

(* [Forall byte_nz t] is needed: for t = "/..\000" the spec sees no dot
   segment (the segment is "..\000") while pass 3 treats the NUL as a
   terminator and pops. *)
Theorem p3_fixpoint : forall t, Forall byte_nz t -> P3 t = true -> p3 false [] t = t.
Proof. intros t Z H. apply (p3_fixpoint_gen t []). apply P3_P3z; assumption. Qed.

Example p3_fixpoint_needs_nz :
  P3 [47; 46; 46; 0] = true /\ p3 false [] [47; 46; 46; 0] <> [47; 46; 46; 0].
Proof. split; [reflexivity|discriminate]. Qed.

Lemma P1_app_r : forall u v, P1 (u ++ v) = true -> P1 v = true.
Proof.
  induction u as [|c u IH]; intros v H; [exact H|].
  cbn [app P1] in H. apply andb_prop in H. destruct H as [_ H]. apply IH; assumption.
Qed.

(* deleting a block that starts with a byte that is not an upper-case hex
   digit cannot break an escape *)
Lemma P1_del : forall a x d b, uhex x = false ->
  P1 (a ++ x :: d ++ b) = true -> P1 (a ++ b) = true.
Proof.
  induction a as [|c a IH]; intros x d b U H.
  - cbn [app] in *. apply (P1_app_r (x :: d)). exact H.
  - cbn [app] in H. cbn [P1] in H. apply andb_prop in H. destruct H as [Ha Hb].
    cbn [app P1]. rewrite (IH _ _ _ U Hb), andb_true_r.
    destruct (c =? 37); [|reflexivity].
    destruct a as [|h1 [|h2 a]].
    + cbn [app] in Ha. destruct (d ++ b); [discriminate|]. rewrite U in Ha. discriminate.
    + cbn [app] in Ha. rewrite U, andb_false_r in Ha. discriminate.
    + exact Ha.
Qed.

Lemma p2_preserves_P1_gen : forall s a skip prev,
  P1 (a ++ s) = true -> P1 (a ++ p2 skip prev s) = true.
Proof.
  induction s as [|c r IH]; intros a skip prev H; [exact H|].
  cbn [p2]. destruct ((c =? 47) && negb skip) eqn:E.
  - apply andb_prop in E. destruct E as [Ec _]. apply N.eqb_eq in Ec. subst c.
    destruct prev.
    + apply IH. apply (P1_del a 47 [] r); [reflexivity|exact H].
    + change (a ++ 47 :: p2 skip true r) with (a ++ [47] ++ p2 skip true r).
      rewrite app_assoc. apply IH. rewrite <- app_assoc. exact H.
  - change (a ++ c :: p2 (if is_qf c then true else skip) false r)
      with (a ++ [c] ++ p2 (if is_qf c then true else skip) false r).
    rewrite app_assoc. apply IH. rewrite <- app_assoc. exact H.
Qed.

Theorem p2_preserves_P1 : forall s, P1 s = true -> P1 (p2 false false s) = true.
Proof. intros s H. apply (p2_preserves_P1_gen s [] false false). exact H. Qed.

Lemma p3_preserves_P1_gen : forall s racc,
  P1 (rev racc ++ s) = true -> P1 (p3 false racc s) = true.
Proof.
  apply (p3_ind' (fun racc s o => P1 (rev racc ++ s) = true -> P1 o = true)).
  - intros ra H. rewrite app_nil_r in H. exact H.
  - intros ra r2 o _ IH H. apply IH.
    apply (pop_cut (fun l => P1 l = true) ra [47; 46; 46]);
      [apply P1_app_r|intros a d b; apply P1_del; reflexivity|exact H].
  - intros ra r1 o _ IH H. apply IH.
    apply (P1_del (rev ra) 47 [46] r1); [reflexivity|exact H].
  - intros ra r o _ _ IH H. apply IH. cbn [rev]. rewrite <- app_assoc. exact H.
  - intros ra c r _ H. exact H.
  - intros ra c r o _ _ IH H. apply IH. cbn [rev]. rewrite <- app_assoc. exact H.
Qed.

Theorem p3_preserves_P1 : forall s, P1 s = true -> P1 (p3 false [] s) = true.
Proof. intros s H. apply p3_preserves_P1_gen. exact H. Qed.

Lemma nds2_app_r : forall u v, no_double_slash (u ++ v) = true -> no_double_slash v = true.
Proof.
  induction u as [|c u IH]; intros v H; [exact H|].
  cbn [app] in H. rewrite nds2_cons in H. apply andb_prop in H. destruct H as [_ H]. apply IH; assumption.
Qed.

(* deleting a block that starts with '/' cannot create "//" *)
Lemma nds2_del : forall a d b,
  no_double_slash (a ++ 47 :: d ++ b) = true -> no_double_slash (a ++ b) = true.
Proof.
  induction a as [|c a IH]; intros d b H.
  - cbn [app] in *. apply (nds2_app_r (47 :: d)). exact H.
  - cbn [app] in H. rewrite nds2_cons in H. apply andb_prop in H. destruct H as [Ha Hb].
    cbn [app]. rewrite nds2_cons, (IH _ _ Hb), andb_true_r.
    destruct a as [|y a]; [|exact Ha].
    cbn [app starts47] in Ha. cbn [N.eqb Pos.eqb] in Ha. rewrite andb_true_r in Ha.
    apply negb_true_iff in Ha. rewrite Ha. reflexivity.
Qed.

Lemma p3_preserves_P2_gen : forall s racc,
  Forall nq racc -> no_double_slash (rev racc ++ path_part s) = true ->
  no_double_slash (path_part (p3 false racc s)) = true.
Proof.
  apply (p3_ind' (fun racc s o => Forall nq racc ->
           no_double_slash (rev racc ++ path_part s) = true -> no_double_slash (path_part o) = true)).
  - intros ra Q H.
    rewrite <- (app_nil_r (rev ra)), pp_app_nq by (apply Forall_rev; assumption). exact H.
  - intros ra r2 o _ IH Q H. apply IH; [apply pop_Forall; assumption|].
    apply (pop_cut (fun l => no_double_slash l = true) ra [47; 46; 46]);
      [apply nds2_app_r|apply nds2_del|exact H].
  - intros ra r1 o _ IH Q H. apply IH; [assumption|].
    apply (nds2_del (rev ra) [46] (path_part r1)). exact H.
  - intros ra r o _ _ IH Q H. apply IH; [constructor; [reflexivity|assumption]|].
    cbn [rev]. rewrite <- app_assoc. exact H.
  - intros ra c r _ Q H. rewrite pp_app_nq by (apply Forall_rev; assumption). exact H.
  - intros ra c r o _ Eq IH Q H. apply IH; [constructor; assumption|].
    cbn [rev]. rewrite <- app_assoc. rewrite pp_cons, Eq in H. exact H.
Qed.

Theorem p3_preserves_P2 : forall s, P2 s = true -> P2 (p3 false [] s) = true.
Proof. intros s H. apply p3_preserves_P2_gen; [constructor|exact H]. Qed.

Lemma toupper_nz h : byte_nz h -> byte_nz (c_toupper h).
Proof.
  unfold byte_nz, c_toupper, c_islower. intros [H1 H2].
  destruct ((97 <=? h) && (h <=? 122)) eqn:E; [|lia]. b2p. lia.
Qed.

Lemma safe_nz v : safe_char (wrap8 v) = true -> byte_nz (wrap8 v).
Proof.
  intros H. unfold byte_nz. split.
  - destruct (N.eq_dec (wrap8 v) 0) as [E|E]; [rewrite E in H; discriminate H|lia].
  - unfold wrap8. apply N.mod_lt. lia.
Qed.

Lemma p1_nz : forall s t, p1 s = Some t -> Forall byte_nz s -> Forall byte_nz t.
Proof.
  apply (p1_ind' (fun s t => Forall byte_nz s -> Forall byte_nz t)); [auto| |].
  - intros h1 h2 r t _ _ IH v Z.
    pose proof (Forall_inv_tail Z) as Z1. pose proof (Forall_inv_tail Z1) as Z2.
    pose proof (IH (Forall_inv_tail Z2)) as Zt.
    destruct (safe_char v) eqn:Es; [constructor; [exact (safe_nz _ Es)|exact Zt]|].
    constructor; [exact (Forall_inv Z)|].
    constructor; [exact (toupper_nz _ (Forall_inv Z1))|].
    constructor; [exact (toupper_nz _ (Forall_inv Z2))|exact Zt].
  - intros c r t _ IH Z. constructor; [exact (Forall_inv Z)|exact (IH (Forall_inv_tail Z))].
Qed.

Lemma p2_nz : forall s skip prev, Forall byte_nz s -> Forall byte_nz (p2 skip prev s).
Proof.
  induction s as [|c r IH]; intros skip prev Z; [constructor|].
  pose proof (IH skip true (Forall_inv_tail Z)). cbn [p2].
  destruct ((c =? 47) && negb skip) eqn:E.
  - apply andb_prop in E. destruct E as [Ec _]. apply N.eqb_eq in Ec. subst c.
    destruct prev; [assumption|constructor; [exact (Forall_inv Z)|assumption]].
  - constructor; [exact (Forall_inv Z)|exact (IH _ false (Forall_inv_tail Z))].
Qed.

Lemma p3_Forall (P : N -> Prop) : forall s racc,
  Forall P racc -> Forall P s -> Forall P (p3 false racc s).
Proof.
  apply (p3_ind' (fun racc s o => Forall P racc -> Forall P s -> Forall P o)).
  - intros ra Q _. apply Forall_rev. exact Q.
  - intros ra r2 o _ IH Q Z. apply IH; [apply pop_Forall; exact Q|].
    exact (Forall_inv_tail (Forall_inv_tail (Forall_inv_tail Z))).
  - intros ra r1 o _ IH Q Z. apply IH; [exact Q|exact (Forall_inv_tail (Forall_inv_tail Z))].
  - intros ra r o _ _ IH Q Z.
    apply IH; [constructor; [exact (Forall_inv Z)|exact Q]|exact (Forall_inv_tail Z)].
  - intros ra c r _ Q Z. apply Forall_app. split; [apply Forall_rev; exact Q|exact Z].
  - intros ra c r o _ _ IH Q Z.
    apply IH; [constructor; [exact (Forall_inv Z)|exact Q]|exact (Forall_inv_tail Z)].
Qed.

Lemma canon_passes_nz : forall s t, Forall byte_nz s -> canon_passes s = Some t -> Forall byte_nz t.
Proof.
  intros s t Z H. unfold canon_passes in H. destruct (p1 s) as [s1|] eqn:E1; [|discriminate].
  injection H as <-. apply p3_Forall; [constructor|]. apply p2_nz. apply (p1_nz s); assumption.
Qed.

Lemma canon_passes_canonical_z : forall s t, canon_passes s = Some t ->
  P1 t = true /\ P2 t = true /\ P3z t = true.
Proof.
  intros s t H. unfold canon_passes in H. destruct (p1 s) as [s1|] eqn:E1; [|discriminate].
  injection H as <-. split; [|split].
  - apply p3_preserves_P1. apply p2_preserves_P1. apply (p1_establishes s). assumption.
  - apply p3_preserves_P2. apply p2_establishes.
  - apply p3_establishes_z.
Qed.

Theorem canon_passes_canonical : forall s t, canon_passes s = Some t ->
  P1 t = true /\ P2 t = true /\ P3 t = true.
Proof.
  intros s t H. destruct (canon_passes_canonical_z s t H) as (H1 & H2 & H3).
  split; [assumption|split; [assumption|apply P3z_P3; assumption]].
Qed.

Theorem canon_passes_idempotent : forall s t, canon_passes s = Some t -> canon_passes t = Some t.
Proof.
  intros s t H. destruct (canon_passes_canonical_z s t H) as (H1 & H2 & H3).
  unfold canon_passes. rewrite (p1_fixpoint _ H1), (p2_fixpoint _ H2).
  rewrite (p3_fixpoint_gen t [] H3). reflexivity.
Qed.

Lemma canon_pure_inv : forall fx s t, canon_pure fx s = Some t ->
  canon_passes s = Some t /\ utf8_validate fx (t ++ [0]) = Some true.
Proof.
  intros fx s t H. unfold canon_pure in H.
  destruct (canon_passes s) as [s3|] eqn:E; [|discriminate].
  destruct (utf8_validate fx (s3 ++ [0])) as [[|]|] eqn:V; try discriminate.
  injection H as <-. split; [reflexivity|assumption].
Qed.

Theorem canon_pure_canonical : forall fx s t, canon_pure fx s = Some t ->
  escapes_canonical t = true /\ no_double_slash (path_part t) = true /\
  no_dot_segments (path_part t) = true.
Proof.
  intros fx s t H. destruct (canon_pure_inv _ _ _ H) as [Hp _].
  destruct (canon_passes_canonical s t Hp) as (H1 & H2 & H3).
  split; [apply P1_escapes_canonical; assumption|split; assumption].
Qed.

Theorem canon_pure_idempotent : forall fx s t, canon_pure fx s = Some t -> canon_pure fx t = Some t.
Proof.
  intros fx s t H. destruct (canon_pure_inv _ _ _ H) as [Hp Hv].
  unfold canon_pure. rewrite (canon_passes_idempotent s t Hp), Hv. reflexivity.
Qed.

Theorem canon_pure_utf8 : forall s t, Forall byte_nz s -> canon_pure true s = Some t -> wf_utf8 t.
Proof.
  intros s t Z H. destruct (canon_pure_inv _ _ _ H) as [Hp Hv].
  apply (utf8_validate_fixed_iff_wf t []); [|exact Hv].
  apply (canon_passes_nz s); assumption.
Qed.

(* the hypotheses are satisfiable: "/a/./b/../%7e%2f//c?x//y" *)
Example canon_pure_nonvacuous :
  canon_pure true [47;97;47;46;47;98;47;46;46;47;37;55;101;37;50;102;47;47;99;63;120;47;47;121]
  = Some [47;97;47;126;37;50;70;47;99;63;120;47;47;121].
Proof. vm_compute. reflexivity. Qed.
