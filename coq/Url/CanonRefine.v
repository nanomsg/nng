(* CanonRefine: the in-place passes of CanonModel.v (checked reads/writes on
   a NUL-terminated buffer, explicit src/dst indices, fuel) compute exactly
   the pure passes of CanonPure.v on the text held in the buffer; they never
   leave the buffer and never run out of fuel.

   Method: the loop state is described by [St b src dst acc R]:
     firstn dst b = acc   (the output written so far),
     skipn src b  = R     (the unread input, its NUL and the tail),
     dst <= src.
   A write at an index < src changes neither [skipn src b] nor the bytes at
   indices other than the written one, and appends to [firstn dst b]. *)
From Coq Require Import List Arith Lia Bool NArith.
From NngV Require Import Base.ListX Url.Utf8Model Url.Utf8Proofs Url.CanonModel Url.CanonPure Url.CanonProofs.
Import ListNotations.
Local Open Scope N_scope.


Lemma nth_error_firstn_cr {A} (l : list A) n k :
  (k < n)%nat -> nth_error (firstn n l) k = nth_error l k.
Proof. intros H. apply Nat.ltb_lt in H. now rewrite nth_error_firstn', H. Qed.

Lemma skipn_S_tl_cr {A} (l : list A) n x R : skipn n l = x :: R -> skipn (S n) l = R.
Proof. intros H. change (S n) with (1 + n)%nat. rewrite <- skipn_skipn', H. reflexivity. Qed.

Lemma skipn_len_cr {A} (l : list A) n R : skipn n l = R -> (length R <= length l)%nat.
Proof. intros <-. rewrite skipn_length. lia. Qed.

Lemma firstn_prefix_cr {A} (b : list A) n p q :
  firstn n b = p ++ q -> (length p <= n)%nat -> firstn (length p) b = p.
Proof.
  intros H Hle.
  assert (E : firstn (length p) b = firstn (length p) (firstn n b)).
  { rewrite firstn_firstn. f_equal. lia. }
  rewrite E, H, firstn_app, Nat.sub_diag. cbn [firstn]. rewrite app_nil_r.
  apply firstn_all.
Qed.

Lemma bwr_spec b i c : (i < length b)%nat ->
  exists b', bwr b i c = Some b' /\ length b' = length b /\
    firstn (S i) b' = firstn i b ++ [c] /\
    (forall n, (i < n)%nat -> skipn n b' = skipn n b) /\
    brd b' i = Some c /\
    (forall j, j <> i -> brd b' j = brd b j).
Proof.
  intros Hi. unfold bwr. destruct (i <? length b)%nat eqn:E; [|apply Nat.ltb_ge in E; lia].
  eexists; split; [reflexivity|].
  assert (L1 : length (firstn i b) = i) by (rewrite firstn_length; lia).
  assert (L2 : length (firstn i b ++ [c]) = S i) by (rewrite app_length, L1; simpl; lia).
  assert (EQ : firstn i b ++ c :: skipn (S i) b = (firstn i b ++ [c]) ++ skipn (S i) b)
    by (rewrite <- app_assoc; reflexivity).
  split; [|split; [|split; [|split]]].
  - rewrite app_length, L1. cbn [length]. rewrite skipn_length. lia.
  - rewrite EQ. rewrite firstn_app, L2, Nat.sub_diag. simpl (firstn 0 _).
    rewrite app_nil_r. apply firstn_all2. lia.
  - intros n Hn. rewrite EQ. rewrite skipn_app, L2. rewrite skipn_all2 by lia. cbn [app].
    rewrite skipn_skipn'. f_equal. lia.
  - unfold brd. rewrite nth_error_app2 by lia. rewrite L1, Nat.sub_diag. reflexivity.
  - intros j Hj. unfold brd. destruct (Nat.lt_ge_cases j i).
    + rewrite nth_error_app1 by lia. apply nth_error_firstn_cr; lia.
    + rewrite EQ. rewrite nth_error_app2 by lia. rewrite L2. rewrite nth_error_skipn_add.
      f_equal. lia.
Qed.

Definition St (b : list N) (src dst : nat) (acc R : list N) : Prop :=
  firstn dst b = acc /\ length acc = dst /\ (dst <= src)%nat /\ skipn src b = R.

Lemma brd_skipn b n k R : skipn n b = R -> brd b (n + k) = nth_error R k.
Proof. intros <-. symmetry. apply nth_error_skipn_add. Qed.

Lemma St_skipn b src dst acc R : St b src dst acc R -> skipn src b = R.
Proof. intros (_ & _ & _ & H). exact H. Qed.

Lemma St_le b src dst acc R : St b src dst acc R -> (dst <= src)%nat.
Proof. intros (_ & _ & H & _). exact H. Qed.

Lemma St_read k b src dst acc R : St b src dst acc R -> brd b (src + k) = nth_error R k.
Proof. intros H. apply brd_skipn. exact (St_skipn _ _ _ _ _ H). Qed.

Lemma St_read0 b src dst acc R : St b src dst acc R -> brd b src = nth_error R 0.
Proof. intros H. rewrite <- (St_read 0 _ _ _ _ _ H). f_equal. lia. Qed.

Lemma St_adv k b src dst acc R : St b src dst acc R -> St b (src + k) dst acc (skipn k R).
Proof.
  intros (H1 & H2 & H3 & H4). repeat split; try assumption; try lia.
  rewrite <- H4, skipn_skipn'. f_equal. lia.
Qed.

(* the unread part holds at least the NUL: src is inside the buffer *)
Lemma St_src_lt b src dst acc r tail : St b src dst acc (r ++ 0 :: tail) -> (src < length b)%nat.
Proof.
  intros (_ & _ & _ & H). destruct (Nat.lt_ge_cases src (length b)); [assumption|].
  rewrite skipn_all2 in H by lia. destruct r; discriminate.
Qed.

Lemma St_write c b src dst acc r tail :
  St b src dst acc (r ++ 0 :: tail) -> (dst < src)%nat ->
  exists b', bwr b dst c = Some b' /\ length b' = length b /\
             St b' src (dst + 1) (acc ++ [c]) (r ++ 0 :: tail) /\
             brd b' dst = Some c /\
             (forall j, j <> dst -> brd b' j = brd b j).
Proof.
  intros HS Hlt. pose proof (St_src_lt _ _ _ _ _ _ HS) as Hsl.
  destruct HS as (H1 & H2 & H3 & H4).
  destruct (bwr_spec b dst c) as (b' & Hw & Hlen & Hf & Hs & Hd & Hp); [lia|].
  exists b'. split; [exact Hw|]. split; [exact Hlen|]. split; [|split; assumption].
  repeat split.
  - rewrite Nat.add_1_r, Hf, H1. reflexivity.
  - rewrite app_length, H2. reflexivity.
  - lia.
  - rewrite Hs by lia. exact H4.
Qed.

(* out[dst] = 0 at the end of a pass *)
Lemma St_finish b src dst acc r tail :
  St b src dst acc (r ++ 0 :: tail) ->
  exists tail', bwr b dst 0 = Some (acc ++ 0 :: tail') /\
                length (acc ++ 0 :: tail') = length b.
Proof.
  intros HS. pose proof (St_src_lt _ _ _ _ _ _ HS) as Hsl.
  destruct HS as (H1 & H2 & H3 & H4).
  destruct (bwr_spec b dst 0) as (b' & Hw & Hlen & Hf & _); [lia|].
  assert (E : b' = acc ++ 0 :: skipn (S dst) b').
  { rewrite <- (firstn_skipn (S dst) b') at 1. rewrite Hf, H1, <- app_assoc. reflexivity. }
  exists (skipn (S dst) b'). rewrite <- E. split; assumption.
Qed.

(* a pass has finished on [b]: it returns the text [out], its NUL and some
   tail, in a buffer as long as [b] *)
Definition pass_done {X} (wrap : list N -> X) (b out : list N) (res : option X) : Prop :=
  exists tail', res = Some (wrap (out ++ 0 :: tail')) /\ length (out ++ 0 :: tail') = length b.

Lemma pass_done_emit {X} (wrap : list N -> X) b b1 acc c t res :
  length b1 = length b -> pass_done wrap b1 ((acc ++ [c]) ++ t) res ->
  pass_done wrap b (acc ++ c :: t) res.
Proof.
  replace (acc ++ c :: t) with ((acc ++ [c]) ++ t) by (rewrite <- app_assoc; reflexivity).
  intros Hl (tail' & Hp & Hlen). exists tail'. split; [exact Hp|]. rewrite Hlen. exact Hl.
Qed.

Lemma isx0 : c_isxdigit 0 = false.
Proof. reflexivity. Qed.

Lemma pass1_refines : forall fuel rest b src dst acc tail,
  St b src dst acc (rest ++ 0 :: tail) -> Forall byte_nz rest -> (length rest < fuel)%nat ->
  match p1 rest with
  | Some t => pass_done Some b (acc ++ t) (pass1 fuel b src dst)
  | None => pass1 fuel b src dst = Some None
  end.
Proof.
  induction fuel as [|f IH]; intros rest b src dst acc tail HS HF HL; [lia|].
  destruct rest as [|c r].
  - cbn [p1 pass1]. rewrite (St_read0 _ _ _ _ _ HS). cbn [nth_error app].
    rewrite N.eqb_refl, app_nil_r.
    destruct (St_finish _ _ _ _ _ _ HS) as (tail' & Hw & Hlen).
    rewrite Hw. exists tail'. split; [reflexivity|exact Hlen].
  - inversion HF as [|? ? Hc HF']; subst. pose proof (St_le _ _ _ _ _ HS) as Hds.
    cbn [pass1]. rewrite (St_read0 _ _ _ _ _ HS). cbn [nth_error app].
    rewrite (nz_eqb0 _ Hc). cbn [p1].
    destruct (c =? 37) eqn:E37.
    + rewrite (St_read 1 _ _ _ _ _ HS).
      destruct r as [|h1 r]; cbn [nth_error app].
      { rewrite isx0. reflexivity. }
      destruct (c_isxdigit h1) eqn:X1; cbn [negb andb].
      2:{ destruct r as [|h2 r]; reflexivity. }
      rewrite (St_read 2 _ _ _ _ _ HS).
      destruct r as [|h2 r]; cbn [nth_error app].
      { rewrite isx0. reflexivity. }
      destruct (c_isxdigit h2) eqn:X2; cbn [negb].
      2:{ reflexivity. }
      cbv zeta.
      set (v := wrap8 (wrap8 (url_hex_val h1 * 16) + url_hex_val h2)).
      assert (HS3 : St b (src + 3) dst acc (r ++ 0 :: tail)) by exact (St_adv 3 _ _ _ _ _ HS).
      inversion HF' as [|? ? Hh1 HF'']; subst. inversion HF'' as [|? ? Hh2 HF3]; subst.
      cbn [length] in HL.
      destruct (safe_char v) eqn:SV.
      * destruct (St_write v _ _ _ _ _ _ HS3) as (b1 & Hw1 & Hl1 & HS1 & _ & _);
          [lia|].
        rewrite Hw1.
        pose proof (IH r b1 (src + 3)%nat (dst + 1)%nat (acc ++ [v]) tail HS1 HF3 ltac:(lia)) as H.
        destruct (p1 r) as [t|]; [|exact H]. exact (pass_done_emit _ _ _ _ _ _ _ Hl1 H).
      * destruct (St_write 37 _ _ _ _ _ _ HS3) as (b1 & Hw1 & Hl1 & HS1 & _ & Hp1);
          [lia|].
        rewrite Hw1.
        rewrite Hp1 by lia. rewrite (St_read 1 _ _ _ _ _ HS). cbn [nth_error app].
        destruct (St_write (c_toupper h1) _ _ _ _ _ _ HS1) as (b2 & Hw2 & Hl2 & HS2 & _ & Hp2);
          [lia|].
        rewrite Hw2.
        rewrite Hp2 by lia. rewrite Hp1 by lia. rewrite (St_read 2 _ _ _ _ _ HS). cbn [nth_error app].
        replace (dst + 1 + 1)%nat with (dst + 2)%nat in HS2 by lia.
        destruct (St_write (c_toupper h2) _ _ _ _ _ _ HS2) as (b3 & Hw3 & Hl3 & HS3' & _ & _);
          [lia|].
        rewrite Hw3.
        replace (dst + 2 + 1)%nat with (dst + 3)%nat in HS3' by lia.
        pose proof (IH r b3 (src + 3)%nat (dst + 3)%nat _ tail HS3' HF3 ltac:(lia)) as H.
        destruct (p1 r) as [t|]; [|exact H].
        apply (pass_done_emit _ _ b1 _ _ _ _ Hl1), (pass_done_emit _ _ b2 _ _ _ _ Hl2),
          (pass_done_emit _ _ b3 _ _ _ _ Hl3). exact H.
    + assert (HS1 : St b (src + 1) dst acc (r ++ 0 :: tail)) by exact (St_adv 1 _ _ _ _ _ HS).
      cbn [length] in HL.
      destruct (St_write c _ _ _ _ _ _ HS1) as (b1 & Hw1 & Hl1 & HS1' & _ & _);
        [lia|].
      rewrite Hw1.
      pose proof (IH r b1 (src + 1)%nat (dst + 1)%nat (acc ++ [c]) tail HS1' HF' ltac:(lia)) as H.
      destruct (p1 r) as [t|]; [|exact H]. exact (pass_done_emit _ _ _ _ _ _ _ Hl1 H).
Qed.

(* a pass starts at src = dst = 0 with fuel for every byte and the NUL *)
Lemma St_init s tail : St (s ++ 0 :: tail) 0 0 [] (s ++ 0 :: tail).
Proof. unfold St. split; [reflexivity|]. split; [reflexivity|]. split; [lia|reflexivity]. Qed.

Lemma fuel_init (s tail : list N) : (length s < S (length (s ++ 0%N :: tail)))%nat.
Proof. rewrite app_length. lia. Qed.

Lemma brd_skipn0 b n R : skipn n b = R -> brd b n = nth_error R 0.
Proof. intros H. rewrite <- (brd_skipn _ _ 0 _ H). f_equal. lia. Qed.

(* the inner while (out[src] == '/') src++ : it drops the run of '/' that
   [p2 _ true] drops *)
Lemma skip_slashes_spec : forall rest b n fuel tail,
  skipn n b = rest ++ 0 :: tail -> (length rest < fuel)%nat -> Forall byte_nz rest ->
  exists n' rest', skip_slashes fuel b n = Some n' /\ skipn n' b = rest' ++ 0 :: tail /\
    (n <= n')%nat /\ (length rest' <= length rest)%nat /\ Forall byte_nz rest' /\
    p2 false true rest = p2 false false rest'.
Proof.
  induction rest as [|c r IH]; intros b n fuel tail HS HL HF;
    (destruct fuel as [|f]; [lia|]); cbn [skip_slashes]; rewrite (brd_skipn0 _ _ _ HS);
    cbn [nth_error app].
  - exists n, []. change (0 =? 47) with false. cbv iota.
    repeat split; try assumption; try lia.
  - inversion HF as [|? ? Hc HF']; subst. cbn [length] in HL.
    destruct (c =? 47) eqn:E.
    + destruct (IH b (S n) f tail (skipn_S_tl_cr _ _ _ _ HS) ltac:(lia) HF')
        as (n' & rest' & H1 & H2 & H3 & H4 & H5 & H6).
      exists n', rest'. repeat split; try assumption; try lia.
      * cbn [length]. lia.
      * cbn [p2]. rewrite E. cbn [andb negb]. exact H6.
    + exists n, (c :: r). repeat split; try assumption; try lia.
      cbn [p2]. rewrite E. reflexivity.
Qed.

Lemma pass2_refines : forall fuel rest b src dst skip acc tail,
  St b src dst acc (rest ++ 0 :: tail) -> Forall byte_nz rest -> (length rest < fuel)%nat ->
  pass_done (fun x => x) b (acc ++ p2 skip false rest) (pass2 fuel b src dst skip).
Proof.
  induction fuel as [|f IH]; intros rest b src dst skip acc tail HS HF HL; [lia|].
  destruct rest as [|c r].
  - cbn [p2 pass2]. rewrite (St_read0 _ _ _ _ _ HS). cbn [nth_error app].
    rewrite N.eqb_refl, app_nil_r.
    exact (St_finish _ _ _ _ _ _ HS).
  - inversion HF as [|? ? Hc HF']; subst. cbn [length] in HL.
    pose proof (St_le _ _ _ _ _ HS) as Hds.
    assert (HS1 : St b (src + 1) dst acc (r ++ 0 :: tail)) by exact (St_adv 1 _ _ _ _ _ HS).
    cbn [pass2]. rewrite (St_read0 _ _ _ _ _ HS). cbn [nth_error app].
    rewrite (nz_eqb0 _ Hc). cbn [p2].
    destruct ((c =? 47) && negb skip) eqn:E.
    + apply andb_true_iff in E. destruct E as [E47 Esk].
      apply negb_true_iff in Esk. subst skip. apply N.eqb_eq in E47. subst c.
      destruct (St_write 47 _ _ _ _ _ _ HS1) as (b1 & Hw1 & Hl1 & HS1' & Hd1 & Hp1);
        [lia|].
      rewrite Hw1.
      assert (Hrd : brd b1 src = Some 47).
      { destruct (Nat.eq_dec src dst) as [->|Hne]; [exact Hd1|].
        rewrite Hp1 by exact Hne. rewrite (St_read0 _ _ _ _ _ HS). reflexivity. }
      cbn [skip_slashes]. rewrite Hrd. rewrite N.eqb_refl.
      destruct HS1' as (A1 & A2 & A3 & A4). rewrite Nat.add_1_r in A4.
      pose proof (skipn_len_cr _ _ _ A4) as Hlen4. rewrite app_length in Hlen4. cbn [length] in Hlen4.
      destruct (skip_slashes_spec r b1 (S src) (length b1) tail A4 ltac:(lia) HF')
        as (n' & rest' & H1 & H2 & H3 & H4 & H5 & H6).
      rewrite H1.
      assert (HS2 : St b1 n' (dst + 1) (acc ++ [47]) (rest' ++ 0 :: tail)).
      { repeat split; try assumption. lia. }
      rewrite H6. apply (pass_done_emit _ _ b1 _ _ _ _ Hl1).
      apply (IH rest' b1 n' (dst + 1)%nat false (acc ++ [47]) tail HS2 H5). lia.
    + destruct (St_write c _ _ _ _ _ _ HS1) as (b1 & Hw1 & Hl1 & HS1' & _ & _);
        [lia|].
      rewrite Hw1.
      apply (pass_done_emit _ _ b1 _ _ _ _ Hl1).
      apply (IH r b1 (src + 1)%nat (dst + 1)%nat _ (acc ++ [c]) tail HS1' HF'). lia.
Qed.

(* do { dst--; } while (dst && out[dst] != '/') *)
Lemma popback_spec : forall racc b fuel,
  racc <> [] -> firstn (length racc) b = rev racc -> (length racc <= fuel)%nat ->
  popback fuel b (length racc) = Some (length (pop racc)).
Proof.
  induction racc as [|x r IH]; intros b fuel Hne Hf HL; [congruence|].
  destruct fuel as [|f]; [cbn [length] in HL; lia|].
  cbn [popback]. cbn [length]. rewrite Nat.sub_succ, Nat.sub_0_r.
  destruct r as [|y r]; [reflexivity|].
  change (length (y :: r) =? 0)%nat with false. cbv iota.
  set (r' := y :: r) in *.
  cbn [length rev] in Hf.
  assert (Hx : brd b (length r') = Some x).
  { unfold brd. rewrite <- (nth_error_firstn_cr b (S (length r'))) by lia.
    rewrite Hf. rewrite nth_error_app2 by (rewrite rev_length; lia).
    rewrite rev_length, Nat.sub_diag. reflexivity. }
  rewrite Hx. change (pop (x :: r')) with (if x =? 47 then r' else pop r').
  destruct (x =? 47); [reflexivity|].
  apply IH.
  - unfold r'. discriminate.
  - rewrite <- (rev_length r'). apply (firstn_prefix_cr b (S (length r')) _ [x]); [exact Hf|].
    rewrite rev_length. lia.
  - cbn [length] in HL. lia.
Qed.

Lemma popback_step b racc :
  firstn (length racc) b = rev racc ->
  exists d, (if (0 <? length racc)%nat then popback (S (length b)) b (length racc)
             else Some (length racc)) = Some d /\
            d = length (pop racc) /\ firstn d b = rev (pop racc).
Proof.
  intros Hf. exists (length (pop racc)).
  assert (Hle : (length racc <= length b)%nat).
  { pose proof (f_equal (@length N) Hf) as H. rewrite firstn_length, rev_length in H. lia. }
  split; [|split; [reflexivity|]].
  - destruct racc as [|x r]; [reflexivity|].
    change (0 <? length (x :: r))%nat with true. cbv iota.
    apply popback_spec; [discriminate|exact Hf|lia].
  - destruct (pop_form racc) as [E|[seg E]]; [rewrite E; reflexivity|].
    rewrite <- (rev_length (pop racc)).
    apply (firstn_prefix_cr b (length racc) _ (47 :: rev seg)).
    + rewrite Hf. rewrite E at 1. rewrite rev_app_distr. cbn [rev]. rewrite <- app_assoc. reflexivity.
    + rewrite rev_length. apply pop_length.
Qed.

(* strncmp against a literal reads the unread part only *)
Fixpoint strncmp_list (R lit : list N) {struct lit} : option bool :=
  match lit with
  | [] => Some true
  | x :: lit' =>
      match R with
      | [] => None
      | c :: R' => if c =? x then strncmp_list R' lit' else Some false
      end
  end.

Lemma strncmp_lit_list : forall lit b i R, skipn i b = R -> strncmp_lit b i lit = strncmp_list R lit.
Proof.
  induction lit as [|x lit IH]; intros b i R H; [reflexivity|].
  cbn [strncmp_lit strncmp_list]. rewrite (brd_skipn0 _ _ _ H).
  destruct R as [|c R']; [reflexivity|]. cbn [nth_error].
  destruct (c =? x); [|reflexivity].
  apply IH. exact (skipn_S_tl_cr _ _ _ _ H).
Qed.

(* the two look-aheads of pass 3 -- strncmp against "/.." resp. "/." and the
   terminator test behind it -- compute [dd] resp. [d1] of the text after the '/' *)
Lemma read_dd {A} b src r tail (k : bool -> option A) : skipn src b = 47 :: r ++ 0 :: tail ->
  (m2 <- strncmp_lit b src [47; 46; 46] ;;
   t2 <- (if m2 then (c3 <- brd b (src + 3) ;; Some (is_term c3)) else Some false) ;; k t2) = k (dd r).
Proof.
  intros H. rewrite (strncmp_lit_list _ _ _ _ H), (brd_skipn _ _ 3 _ H).
  destruct r as [|x [|y r2]]; cbn [app strncmp_list nth_error]; change (47 =? 47) with true; cbv iota;
    unfold dd.
  - reflexivity.
  - destruct (x =? 46); reflexivity.
  - destruct (x =? 46); [|reflexivity]. destruct (y =? 46); [|reflexivity].
    destruct r2; reflexivity.
Qed.

Lemma read_d1 {A} b src r tail (k : bool -> option A) : skipn src b = 47 :: r ++ 0 :: tail ->
  (m1 <- strncmp_lit b src [47; 46] ;;
   t1 <- (if m1 then (c2 <- brd b (src + 2) ;; Some (is_term c2)) else Some false) ;; k t1) = k (d1 r).
Proof.
  intros H. rewrite (strncmp_lit_list _ _ _ _ H), (brd_skipn _ _ 2 _ H).
  destruct r as [|x r1]; cbn [app strncmp_list nth_error]; change (47 =? 47) with true; cbv iota; unfold d1.
  - reflexivity.
  - destruct (x =? 46); [|reflexivity].
    destruct r1; reflexivity.
Qed.

Lemma pass3_refines : forall fuel rest b src dst skip racc tail,
  St b src dst (rev racc) (rest ++ 0 :: tail) -> Forall byte_nz rest -> (length rest < fuel)%nat ->
  pass_done (fun x => x) b (p3 skip racc rest) (pass3 fuel b src dst skip).
Proof.
  induction fuel as [|f IH]; intros rest b src dst skip racc tail HS HF HL; [lia|].
  destruct rest as [|c r].
  - cbn [p3 pass3]. rewrite (St_read0 _ _ _ _ _ HS). cbn [nth_error app].
    rewrite N.eqb_refl.
    exact (St_finish _ _ _ _ _ _ HS).
  - inversion HF as [|? ? Hc HF']; subst. cbn [length] in HL.
    pose proof (St_le _ _ _ _ _ HS) as Hds.
    cbn [pass3]. rewrite (St_read0 _ _ _ _ _ HS). cbn [nth_error app].
    rewrite (nz_eqb0 _ Hc). rewrite p3_cons.
    (* the common "emit one byte" step *)
    assert (Hemit : forall x skip', pass_done (fun x => x) b (p3 skip' (x :: racc) r)
       (match bwr b dst x with
        | Some b1 => pass3 f b1 (src + 1) (dst + 1) skip'
        | None => None
        end)).
    { intros x skip'.
      destruct (St_write x _ _ _ _ _ _ (St_adv 1 _ _ _ _ _ HS)) as (b1 & Hw1 & Hl1 & HS1' & _ & _);
        [lia|].
      rewrite Hw1.
      destruct (IH r b1 (src + 1)%nat (dst + 1)%nat skip' (x :: racc) tail HS1' HF' ltac:(lia))
        as (tail' & Hp & Hlen).
      exists tail'. split; [exact Hp|]. rewrite Hlen. exact Hl1. }
    destruct ((c =? 47) && negb skip) eqn:E; [|apply Hemit].
    apply andb_true_iff in E. destruct E as [E47 _]. apply N.eqb_eq in E47. subst c.
    rewrite (read_dd _ _ _ _ _ (St_skipn _ _ _ _ _ HS)).
    destruct (dd r) eqn:Edd.
    + (* "/.." before a terminator: pop *)
      destruct (dd_shape _ Edd) as (r2 & -> & _). cbn [skipn]. cbn [length] in HL.
      assert (Hd : dst = length racc).
      { destruct HS as (_ & H & _). rewrite rev_length in H. symmetry. exact H. }
      subst dst.
      destruct (popback_step b racc (proj1 HS)) as (d & Hpb & Hd & Hfd).
      rewrite Hpb.
      pose proof (pop_length racc) as Hpl.
      assert (HS3 : St b (src + 3) d (rev (pop racc)) (r2 ++ 0 :: tail)).
      { split; [exact Hfd|]. split; [rewrite rev_length; symmetry; exact Hd|].
        split; [lia|]. exact (St_skipn _ _ _ _ _ (St_adv 3 _ _ _ _ _ HS)). }
      apply (IH r2 b (src + 3)%nat d skip (pop racc) tail HS3); [|lia].
      exact (Forall_inv_tail (Forall_inv_tail HF')).
    + rewrite (read_d1 _ _ _ _ _ (St_skipn _ _ _ _ _ HS)).
      destruct (d1 r) eqn:Ed1; [|apply Hemit].
      (* "/." before a terminator: skip *)
      destruct (d1_shape _ Ed1) as (r1 & -> & _). cbn [skipn]. cbn [length] in HL.
      apply (IH r1 b (src + 2)%nat dst skip racc tail (St_adv 2 _ _ _ _ _ HS)); [|lia].
      exact (Forall_inv_tail HF').
Qed.

Lemma p1_length : forall s t, p1 s = Some t -> (length t <= length s)%nat.
Proof.
  apply (p1_ind' (fun s t => (length t <= length s)%nat)); [apply le_n| |].
  - intros h1 h2 r t _ _ IH v. destruct (safe_char v); cbn [length]; lia.
  - intros c r t _ IH. cbn [length]. lia.
Qed.

Lemma p2_length : forall skip prev s, (length (p2 skip prev s) <= length s)%nat.
Proof.
  intros skip prev s; revert skip prev; induction s as [|c r IH]; intros skip prev; [apply le_n|].
  cbn [p2].
  destruct ((c =? 47) && negb skip).
  - specialize (IH skip true). destruct prev; cbn [length]; lia.
  - cbn [length]. specialize (IH (if is_qf c then true else skip) false). lia.
Qed.

Lemma p3_length : forall skip racc s, (length (p3 skip racc s) <= length racc + length s)%nat.
Proof.
  intros [|] racc s; [rewrite p3_true, app_length, rev_length; lia|]. revert s racc.
  apply (p3_ind' (fun racc s o => (length o <= length racc + length s)%nat)).
  - intros ra. rewrite rev_length. lia.
  - intros ra r2 o _ IH. pose proof (pop_length ra). cbn [length]. lia.
  - intros ra r1 o _ IH. cbn [length]. lia.
  - intros ra r o _ _ IH. cbn [length] in *. lia.
  - intros ra c r _. rewrite app_length, rev_length. lia.
  - intros ra c r o _ _ IH. cbn [length] in *. lia.
Qed.

Theorem canonify_refines : forall fx s tail, Forall byte_nz s ->
  match canon_pure fx s with
  | Some out => exists tail', canonify fx (s ++ 0 :: tail) = Some (NNG_OK, out ++ 0 :: tail') /\
                              length (out ++ 0 :: tail') = length (s ++ 0 :: tail)
  | None => canonify fx (s ++ 0 :: tail) = Some (NNG_EINVAL, s ++ 0 :: tail)
  end.
Proof.
  intros fx s tail HF. unfold canon_pure, canon_passes, canonify.
  pose proof (pass1_refines _ s _ O O [] tail (St_init s tail) HF (fuel_init s tail)) as H1.
  destruct (p1 s) as [s1|] eqn:P1; cbv beta iota.
  2:{ rewrite H1. reflexivity. }
  destruct H1 as (t1 & H1 & L1). cbn [app] in H1, L1. rewrite H1. cbv beta iota.
  pose proof (p1_nz _ _ P1 HF) as HF1.
  destruct (pass2_refines _ s1 _ O O false [] t1 (St_init s1 t1) HF1 (fuel_init s1 t1)) as (t2 & H2 & L2).
  cbn [app] in H2, L2. rewrite H2. cbv beta iota.
  pose proof (p2_nz s1 false false HF1) as HF2.
  set (s2 := p2 false false s1) in *.
  destruct (pass3_refines _ s2 _ O O false [] t2 (St_init s2 t2) HF2 (fuel_init s2 t2)) as (t3 & H3 & L3).
  rewrite H3. cbv beta iota.
  pose proof (p3_Forall byte_nz s2 [] (Forall_nil _) HF2) as HF3.
  set (s3 := p3 false [] s2) in *.
  rewrite (utf8_validate_tail_irrelevant fx s3 t3 HF3).
  destruct (utf8_validate_total fx s3 [] HF3) as (r & Hr). rewrite Hr.
  destruct r; cbv beta iota.
  - exists t3. split; [reflexivity|]. rewrite L3, L2, L1. reflexivity.
  - reflexivity.
Qed.

Corollary canonify_total : forall fx s tail, Forall byte_nz s ->
  exists r, canonify fx (s ++ 0 :: tail) = Some r.
Proof.
  intros fx s tail HF. pose proof (canonify_refines fx s tail HF) as H.
  destruct (canon_pure fx s) as [out|].
  - destruct H as (tail' & H & _). eexists. exact H.
  - eexists. exact H.
Qed.
