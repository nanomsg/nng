(* SpNegoProofs: the SP negotiation header exchange of tcp.c / ipc.c / sockfd.c.
   - send side: under every sequence of accepted counts the bytes handed to the
     stream are exactly 00 'S' 'P' 00 pp pp 00 00, then the receive is posted;
   - receive side: under every cutting of the incoming bytes the verdict is a
     function of the first 8 bytes only, never more than 8 bytes are consumed,
     and the pipe becomes ready exactly for a well-formed header. *)
From Coq Require Import List Lia Bool NArith.
From NngV Require Import Base.ListX Base.Bytes Codec.IovProofs Codec.SpFrameModel.
Import ListNotations.
Local Open Scope N_scope.

Lemma sp_header_length proto : length (sp_header proto) = 8%nat.
Proof. unfold sp_header. rewrite !app_length, be_enc_length. reflexivity. Qed.

Definition pad (k : sp_kind) : list byte := zeros (N.to_nat (head_len k - NEGO_LEN)).

(* what was posted is the unsent tail of the header *)
Definition TxInv (k : sp_kind) (proto : N) (st : nego_state) (posted : list byte) : Prop :=
  ng_done st = false /\ ng_gottx st < 8 /\ ng_gotrx st = 0 /\
  ng_txhead st = sp_header proto ++ pad k /\
  posted = skipn (N.to_nat (ng_gottx st)) (sp_header proto).

Lemma sub_header_tail proto k off : (off <= 8)%nat ->
  sub (sp_header proto ++ pad k) off (8 - off) = Some (skipn off (sp_header proto)).
Proof.
  intros H. pose proof (sp_header_length proto) as L.
  rewrite sub_Some by (rewrite app_length; lia). f_equal.
  rewrite skipn_app. replace (off - length (sp_header proto))%nat with 0%nat by lia. cbn [skipn].
  apply firstn_app_exact. rewrite skipn_length. lia.
Qed.

Lemma nego_tx_spec k proto : forall ks st posted, TxInv k proto st posted ->
  exists w st' o, nego_tx_run st posted ks = Some (w, st', o) /\
    prefix_of w posted /\ ng_gottx st' = ng_gottx st + N.of_nat (length w) /\ ng_gotrx st' = 0 /\
    ng_txhead st' = ng_txhead st /\
    ((o = [NRecv 8] /\ ng_gottx st' = 8 /\ ng_done st' = false) \/
     (o = [] /\ ng_gottx st' < 8 /\ ng_done st' = false /\
      (Forall (fun x => 0 < x) ks -> (length ks <= length w)%nat))).
Proof.
  induction ks as [|kk ks IH]; intros st posted (HD & HG & HR & HT & HP).
  - exists [], st, []. cbn [nego_tx_run length N.of_nat]. split; [reflexivity|]. split; [reflexivity|].
    split; [lia|]. split; [exact HR|]. split; [reflexivity|]. right.
    split; [reflexivity|]. split; [exact HG|]. split; [exact HD|]. intros _. cbn. lia.
  - cbn [nego_tx_run]. rewrite HD. cbn [orb].
    assert (E: (ng_gottx st <? NEGO_LEN) = true) by (apply N.ltb_lt; exact HG). rewrite E. cbn [negb].
    pose proof (sp_header_length proto) as LH.
    assert (LP: N.of_nat (length posted) = 8 - ng_gottx st) by (rewrite HP, skipn_length, LH; lia).
    set (n := N.min kk (N.of_nat (length posted))).
    assert (Hn: n <= 8 - ng_gottx st) by (unfold n; lia).
    unfold nego_cb. rewrite HD, E.
    assert (E1: (NEGO_LEN - ng_gottx st <? n) = false) by (apply N.ltb_ge; unfold NEGO_LEN; lia). rewrite E1.
    cbn [length Nat.eqb].
    destruct (ng_gottx st + n <? NEGO_LEN) eqn:E2.
    + apply N.ltb_lt in E2. unfold NEGO_LEN in E2.
      replace (N.to_nat (NEGO_LEN - (ng_gottx st + n))) with (8 - N.to_nat (ng_gottx st + n))%nat by (unfold NEGO_LEN; lia).
      rewrite HT, sub_header_tail by lia.
      set (st1 := mkNego (sp_header proto ++ pad k) (ng_rxhead st) (ng_gottx st + n) (ng_gotrx st) false).
      destruct (IH st1 (skipn (N.to_nat (ng_gottx st + n)) (sp_header proto))) as (w & st2 & o & HS & HPw & HG2 & HR2 & HT2 & HO).
      { unfold st1, TxInv. cbn [ng_done ng_gottx ng_gotrx ng_txhead]. repeat split; auto. }
      rewrite HS. exists (firstn (N.to_nat n) posted ++ w), st2, o.
      assert (Lf: length (firstn (N.to_nat n) posted) = N.to_nat n) by (rewrite firstn_length; lia).
      split; [reflexivity|]. split.
      { unfold prefix_of in *. rewrite app_length, Lf, firstn_skipn_split. f_equal.
        rewrite HP, skipn_skipn'. replace (N.to_nat n + N.to_nat (ng_gottx st))%nat with (N.to_nat (ng_gottx st + n)) by lia.
        exact HPw. }
      unfold st1 in HG2, HT2. cbn [ng_gottx ng_txhead] in HG2, HT2. split; [rewrite HG2, app_length, Lf; lia|].
      split; [exact HR2|]. split; [exact HT2|].
      destruct HO as [HO|(HO1 & HO2 & HO3 & HO4)]; [left; exact HO|right].
      split; [exact HO1|]. split; [exact HO2|]. split; [exact HO3|]. intros HPos.
      pose proof (Forall_inv HPos) as Hk. cbv beta in Hk. specialize (HO4 (Forall_inv_tail HPos)).
      rewrite app_length, Lf. cbn [length]. assert (1 <= n) by (unfold n; lia). lia.
    + apply N.ltb_ge in E2. unfold NEGO_LEN in E2. rewrite HR. cbn [N.ltb N.compare].
      assert (En: n = 8 - ng_gottx st) by lia.
      eexists _, _, _. split; [reflexivity|].
      assert (Lf: length (firstn (N.to_nat n) posted) = N.to_nat n) by (rewrite firstn_length; lia).
      split; [unfold prefix_of; rewrite Lf; reflexivity|].
      cbn [ng_gottx ng_gotrx ng_txhead ng_done]. split; [rewrite Lf; lia|]. split; [reflexivity|].
      split; [reflexivity|]. left. split; [reflexivity|]. split; [lia|reflexivity].
Qed.

Theorem nego_tx_exact k proto ks :
  exists w st o, nego_tx_run (fst (nego_start k proto)) (sp_header proto) ks = Some (w, st, o) /\
    prefix_of w (sp_header proto) /\ ng_gottx st = N.of_nat (length w) /\ ng_gotrx st = 0 /\
    ((o = [NRecv 8] /\ w = sp_header proto) \/ (o = [] /\ (length w < 8)%nat)) /\
    (Forall (fun x => 0 < x) ks -> (8 <= length ks)%nat -> w = sp_header proto /\ o = [NRecv 8]).
Proof.
  destruct (nego_tx_spec k proto ks (fst (nego_start k proto)) (sp_header proto))
    as (w & st & o & HS & HP & HG & HR & HT & HO).
  { unfold nego_start, TxInv. cbn [fst ng_done ng_gottx ng_gotrx ng_txhead N.to_nat skipn].
    repeat split; auto; lia. }
  exists w, st, o. cbn [nego_start fst ng_gottx] in HG.
  pose proof (sp_header_length proto) as LH.
  assert (Lw: (length w <= 8)%nat) by (unfold prefix_of in HP; rewrite HP, firstn_length; lia).
  assert (Full: length w = 8%nat -> w = sp_header proto).
  { intros E. unfold prefix_of in HP. rewrite HP, E. apply firstn_all2. lia. }
  split; [exact HS|]. split; [exact HP|]. split; [lia|]. split; [exact HR|]. split.
  - destruct HO as [(HO & HG8 & _)|(HO & HG8 & _)]; [left|right]; split; auto; [apply Full|]; lia.
  - intros HPos HL. destruct HO as [(HO & HG8 & _)|(HO & HG8 & _ & HO4)].
    + split; [apply Full; lia|exact HO].
    + specialize (HO4 HPos). lia.
Qed.

Definition nego_verdict (h8 : list byte) : nego_out :=
  match nego_check h8, sub h8 4 2 with
  | Some true, Some pp => NReady (be_dec pp)
  | _, _ => NFail NNG_EPROTO
  end.

(* ng_rxhead holds the bytes received so far, in front *)
Definition RxInv (k : sp_kind) (st : nego_state) (acc : list byte) : Prop :=
  ng_done st = false /\ ng_gottx st = 8 /\ ng_gotrx st = N.of_nat (length acc) /\ (length acc < 8)%nat /\
  length (ng_rxhead st) = N.to_nat (head_len k) /\ firstn (length acc) (ng_rxhead st) = acc.

Definition only_recv (o : list nego_out) : Prop :=
  Forall (fun x => match x with NRecv _ => True | _ => False end) o.

Lemma check_first8 (h8 tail : list byte) : length h8 = 8%nat ->
  nego_check (h8 ++ tail) = nego_check h8 /\ sub (h8 ++ tail) 4 2 = sub h8 4 2.
Proof.
  intros L. do 8 (destruct h8 as [|? h8]; [discriminate|]). destruct h8; [|discriminate].
  split; reflexivity.
Qed.

Lemma head_len_ge k : 8 <= head_len k.
Proof. destruct k; cbn; lia. Qed.

Lemma nego_rx_step k st acc x : RxInv k st acc -> x <> [] -> (length acc + length x <= 8)%nat ->
  exists st' o, nego_cb st (N.of_nat (length x)) x = Some (st', o) /\
    (((length acc + length x < 8)%nat /\ RxInv k st' (acc ++ x) /\ only_recv o) \/
     ((length acc + length x = 8)%nat /\ ng_done st' = true /\ o = [nego_verdict (acc ++ x)])).
Proof.
  intros (HD & HT & HR & HA & HL & HF) Hx Hle.
  pose proof (head_len_ge k) as HK.
  unfold nego_cb. rewrite HD, HT. change (8 <? NEGO_LEN) with false. cbv iota.
  assert (E1: (NEGO_LEN - ng_gotrx st <? N.of_nat (length x)) = false)
    by (apply N.ltb_ge; unfold NEGO_LEN; lia). rewrite E1.
  rewrite N.eqb_refl.
  rewrite blit_Some by (rewrite HL, HR, Nat2N.id; lia).
  rewrite HR, Nat2N.id.
  set (rx' := firstn (length acc) (ng_rxhead st) ++ x ++ skipn (length acc + length x) (ng_rxhead st)).
  assert (Lr: length rx' = N.to_nat (head_len k)).
  { unfold rx'. rewrite !app_length, firstn_length, skipn_length, HL. lia. }
  assert (Fr: firstn (length (acc ++ x)) rx' = acc ++ x).
  { unfold rx'. rewrite HF, app_assoc. apply firstn_app_exact. reflexivity. }
  assert (E2: (N.of_nat (length acc) <? NEGO_LEN) = true) by (apply N.ltb_lt; unfold NEGO_LEN; lia).
  rewrite E2.
  destruct (N.of_nat (length acc) + N.of_nat (length x) <? NEGO_LEN) eqn:E3.
  - apply N.ltb_lt in E3. unfold NEGO_LEN in E3.
    eexists _, _. split; [reflexivity|]. left. split; [lia|]. split.
    + unfold RxInv. cbn [ng_done ng_gottx ng_gotrx ng_rxhead]. rewrite app_length.
      repeat split; auto; try lia. rewrite <- app_length. exact Fr.
    + repeat constructor.
  - apply N.ltb_ge in E3. unfold NEGO_LEN in E3.
    assert (L8: length (acc ++ x) = 8%nat) by (rewrite app_length; lia).
    assert (Hsplit: rx' = (acc ++ x) ++ skipn 8 rx').
    { rewrite <- Fr at 1. rewrite L8. symmetry. apply firstn_skipn. }
    destruct (check_first8 (acc ++ x) (skipn 8 rx') L8) as [C1 C2].
    rewrite Hsplit, C1, C2. unfold nego_verdict.
    assert (exists b, nego_check (acc ++ x) = Some b) as [b Hb].
    { remember (acc ++ x) as h. do 8 (destruct h as [|? h]; [discriminate|]). eexists. reflexivity. }
    assert (exists pp, sub (acc ++ x) 4 2 = Some pp) as [pp Hpp].
    { eexists. apply sub_Some. lia. }
    rewrite Hb, Hpp. destruct b; eexists _, _; (split; [reflexivity|]); right; (split; [lia|]); split; reflexivity.
Qed.

Lemma nego_rx_feed_total k ng acc x : RxInv k ng acc ->
  exists ng' o rest, nego_rx_feed ng x = Some (ng', o, rest) /\
    ((ng_done ng' = false /\ rest = [] /\ RxInv k ng' (acc ++ x) /\ (length (acc ++ x) < 8)%nat /\ only_recv o) \/
     (ng_done ng' = true /\ (8 <= length (acc ++ x))%nat /\ rest = skipn (8 - length acc) x /\
      o = [nego_verdict (firstn 8 (acc ++ x))])).
Proof.
  intros HI. pose proof HI as (HD & HT & HR & HA & HL & HF).
  unfold nego_rx_feed. rewrite HD, HT. cbn [orb]. change (8 <? NEGO_LEN) with false. cbv iota.
  destruct x as [|b x].
  - exists ng, [], []. split; [reflexivity|]. left. rewrite app_nil_r. repeat split; auto. constructor.
  - set (xs := b :: x) in *.
    set (kk := N.to_nat (N.min (NEGO_LEN - ng_gotrx ng) (N.of_nat (length xs)))).
    assert (Hk1: (1 <= kk)%nat) by (unfold kk, xs, NEGO_LEN; cbn [length]; lia).
    assert (Hk2: (kk <= length xs)%nat) by (unfold kk; lia).
    assert (Hk3: (length acc + kk <= 8)%nat) by (unfold kk, NEGO_LEN; lia).
    assert (Lx: length (firstn kk xs) = kk) by (rewrite firstn_length; lia).
    destruct (nego_rx_step k ng acc (firstn kk xs) HI) as (st1 & o1 & HS1 & HC).
    { intros E. apply (f_equal (@length _)) in E. rewrite Lx in E. cbn in E. lia. }
    { rewrite Lx. exact Hk3. }
    rewrite Lx in HS1. rewrite HS1. exists st1, o1, (skipn kk xs). split; [reflexivity|].
    destruct HC as [(Hlt & HI1 & HO1)|(Heq & HD1 & HO1)].
    + rewrite Lx in Hlt.
      assert (kk = length xs) by (unfold kk, NEGO_LEN in *; lia).
      left. rewrite (firstn_all2 xs) in HI1 by lia.
      split; [apply HI1|]. split; [apply skipn_all2; lia|]. split; [exact HI1|].
      split; [rewrite app_length; lia|exact HO1].
    + rewrite Lx in Heq. right. split; [exact HD1|]. split; [rewrite app_length; lia|].
      split; [f_equal; lia|]. rewrite HO1. do 2 f_equal.
      rewrite firstn_app. replace (8 - length acc)%nat with kk by lia.
      rewrite (firstn_all2 acc) by lia. reflexivity.
Qed.

Lemma nego_rx_all_spec k : forall cs st acc, RxInv k st acc ->
  let s := acc ++ concat cs in
  exists st' o rest, nego_rx_all st cs = Some (st', o, rest) /\
    ((length s < 8)%nat -> RxInv k st' s /\ rest = [] /\ only_recv o) /\
    ((8 <= length s)%nat -> ng_done st' = true /\ rest = skipn 8 s /\
        exists pre, only_recv pre /\ o = pre ++ [nego_verdict (firstn 8 s)]).
Proof.
  induction cs as [|p cs IH]; intros st acc HI; cbv zeta.
  - cbn [concat nego_rx_all]. rewrite app_nil_r. exists st, [], [].
    pose proof HI as (_ & _ & _ & HA & _).
    split; [reflexivity|]. split; [intros _; split; [exact HI|split; [reflexivity|constructor]]|lia].
  - cbn [concat nego_rx_all].
    destruct (nego_rx_feed_total k st acc p HI) as (st1 & o1 & rest1 & HS1 & HC). rewrite HS1.
    destruct HC as [(HD1 & -> & HI1 & Hlt & HO1)|(HD1 & Hge & -> & ->)]; rewrite HD1.
    + destruct (IH st1 (acc ++ p) HI1) as (st' & o & rest & HS & H1 & H2). cbv zeta in *.
      rewrite HS. exists st', (o1 ++ o), rest. rewrite <- app_assoc in H1, H2.
      split; [reflexivity|]. split.
      * intros Hl. destruct (H1 Hl) as (A & B & C). split; [exact A|]. split; [exact B|].
        apply Forall_app. split; assumption.
      * intros Hl. destruct (H2 Hl) as (A & B & pre & C & D). split; [exact A|]. split; [exact B|].
        exists (o1 ++ pre). split; [apply Forall_app; split; assumption|]. rewrite D. apply app_assoc.
    + pose proof HI as (_ & _ & _ & HA & _). rewrite app_length in Hge.
      eexists _, _, _. split; [reflexivity|]. split; [intros Hl; rewrite !app_length in Hl; lia|].
      intros _. split; [exact HD1|]. split.
      * rewrite skipn_app_ge, skipn_app by lia. replace (8 - length acc - length p)%nat with 0%nat by lia. reflexivity.
      * exists []. split; [constructor|]. rewrite app_assoc, (firstn_app_le (acc ++ p)) by (rewrite app_length; lia). reflexivity.
Qed.

Lemma nego_sent_inv k proto : RxInv k (nego_sent k proto) [].
Proof.
  unfold nego_sent, nego_start, RxInv. cbn [ng_done ng_gottx ng_gotrx ng_rxhead length firstn N.of_nat].
  repeat split; auto; try lia. apply zeros_length.
Qed.

Theorem nego_rx_exact k proto cs : let s := concat cs in
  exists st o rest, nego_rx_all (nego_sent k proto) cs = Some (st, o, rest) /\
    ((length s < 8)%nat -> ng_done st = false /\ rest = [] /\ only_recv o) /\
    ((8 <= length s)%nat -> ng_done st = true /\ rest = skipn 8 s /\
        exists pre, only_recv pre /\ o = pre ++ [nego_verdict (firstn 8 s)]).
Proof.
  cbv zeta. destruct (nego_rx_all_spec k cs _ [] (nego_sent_inv k proto)) as (st & o & rest & HS & H1 & H2).
  cbn [app] in *. exists st, o, rest. split; [exact HS|]. split; [|exact H2].
  intros Hl. destruct (H1 Hl) as ((A & _) & B & C). auto.
Qed.

(* the verdict: ready exactly for 00 'S' 'P' 00 pp pp 00 00 *)
Theorem nego_verdict_exact h8 : length h8 = 8%nat -> bytes_ok h8 ->
  (forall peer, nego_verdict h8 = NReady peer <-> (h8 = sp_header peer /\ peer < 65536)) /\
  ((forall peer, h8 <> sp_header peer \/ 65536 <= peer) -> nego_verdict h8 = NFail NNG_EPROTO).
Proof.
  intros L HB.
  destruct h8 as [|b0 [|b1 [|b2 [|b3 [|b4 [|b5 [|b6 [|b7 [|]]]]]]]]]; try discriminate. clear L.
  assert (B4: b4 < 256) by (apply (proj1 (Forall_forall _ _) HB); cbn; tauto).
  assert (B5: b5 < 256) by (apply (proj1 (Forall_forall _ _) HB); cbn; tauto).
  assert (DEC: be_dec [b4; b5] = b4 * 256 + b5) by (unfold be_dec; cbn [rev app le_dec]; lia).
  assert (ENC: be_enc 2 (b4 * 256 + b5) = [b4; b5]).
  { rewrite <- DEC. apply (be_enc_dec [b4; b5]). repeat constructor; assumption. }
  assert (V: nego_verdict [b0; b1; b2; b3; b4; b5; b6; b7] =
             if (b0 =? 0) && (b1 =? 83) && (b2 =? 80) && (b3 =? 0) && (b6 =? 0) && (b7 =? 0)
             then NReady (b4 * 256 + b5) else NFail NNG_EPROTO).
  { unfold nego_verdict. cbn [nego_check nth_error]. unfold sub. cbn [length Nat.add Nat.leb skipn firstn].
    destruct ((b0 =? 0) && (b1 =? 83) && (b2 =? 80) && (b3 =? 0) && (b6 =? 0) && (b7 =? 0)); [|reflexivity].
    f_equal. exact DEC. }
  assert (Iff: forall peer, nego_verdict [b0; b1; b2; b3; b4; b5; b6; b7] = NReady peer <->
                            [b0; b1; b2; b3; b4; b5; b6; b7] = sp_header peer /\ peer < 65536).
  { intros peer. rewrite V. split.
    - destruct ((b0 =? 0) && (b1 =? 83) && (b2 =? 80) && (b3 =? 0) && (b6 =? 0) && (b7 =? 0)) eqn:E; [|discriminate].
      intros H. inversion H; subst peer.
      repeat (apply andb_true_iff in E; destruct E as [E ?]).
      repeat match goal with H : (_ =? _) = true |- _ => apply N.eqb_eq in H end. subst.
      split; [|lia]. unfold sp_header. rewrite ENC. reflexivity.
    - intros [H Hp]. unfold sp_header in H.
      assert (L2: length (be_enc 2 peer) = 2%nat) by apply be_enc_length.
      destruct (be_enc 2 peer) as [|e0 [|e1 [|? ?]]] eqn:EE; try discriminate.
      cbn [app] in H. inversion H; subst. cbn [N.eqb andb Pos.eqb].
      f_equal. rewrite <- DEC, <- EE. apply be_dec_enc_small. exact Hp. }
  split; [exact Iff|].
  intros Hno. specialize (Iff (b4 * 256 + b5)). rewrite V in *.
  destruct ((b0 =? 0) && (b1 =? 83) && (b2 =? 80) && (b3 =? 0) && (b6 =? 0) && (b7 =? 0)); [|reflexivity].
  destruct (proj1 Iff eq_refl) as [X1 X2]. destruct (Hno (b4 * 256 + b5)) as [H|H]; [contradiction|lia].
Qed.

(* a pipe is started by the protocol only if the peer id is the expected one:
   the only 8 bytes that get a connection past the negotiation *and* the
   protocol's pipe_start are sp_header expected *)
Corollary nego_accepts_only_expected h8 expected : length h8 = 8%nat -> bytes_ok h8 -> expected < 65536 ->
  ((exists peer, nego_verdict h8 = NReady peer /\ peer_accept expected peer = true) <-> h8 = sp_header expected).
Proof.
  intros L HB HE. destruct (nego_verdict_exact h8 L HB) as [Iff _]. split.
  - intros (peer & HV & HA). apply Iff in HV. destruct HV as [HV _].
    unfold peer_accept in HA. apply N.eqb_eq in HA. now subst.
  - intros H. exists expected. split; [apply Iff; auto|]. unfold peer_accept. apply N.eqb_refl.
Qed.
