(* Staged: the generic "read exactly k bytes, then call back" stream decoder
   (DESIGN appendix A.3).  nni_http_read_full delivers a callback only when the
   requested number of bytes has arrived, however the stream was cut; a
   decoder driven that way is a machine [want : St -> N] (0 = no read posted:
   the decoder has stopped) and [cb : St -> list byte -> St * list Ev].
   [feed] runs it over an arbitrary piece of the stream, keeping the bytes of
   an incomplete stage.  The restartability theorem [feed_app] is proved once
   here, for every such machine. *)
From Coq Require Import List Lia NArith.
From NngV Require Import Base.ListX.
Import ListNotations.

Section Staged.
  Variables St Ev : Type.
  Variable want : St -> N.
  Variable cb : St -> list byte -> St * list Ev.

  Record dstate := mkD { d_inner : St; d_acc : list byte }.

  (* fuel: one unit per completed stage; every stage consumes >= 1 byte *)
  Fixpoint run (fuel : nat) (s : St) (buf : list byte) : St * list byte * list Ev :=
    match fuel with
    | O => (s, buf, [])
    | S f =>
        let w := want s in
        if (w =? 0)%N then (s, [], [])                    (* stopped: input is never read *)
        else if (N.of_nat (length buf) <? w)%N then (s, buf, [])
        else
          let k := N.to_nat w in
          let '(s1, e1) := cb s (firstn k buf) in
          let '(s2, r, e2) := run f s1 (skipn k buf) in
          (s2, r, e1 ++ e2)
    end.

  Definition feed (d : dstate) (input : list byte) : dstate * list Ev :=
    let buf := d_acc d ++ input in
    let '(s, r, e) := run (S (length buf)) (d_inner d) buf in
    (mkD s r, e).

  Lemma run_fuel_enough : forall f1 f2 s buf,
    length buf < f1 -> length buf < f2 -> run f1 s buf = run f2 s buf.
  Proof.
    induction f1 as [|f1 IH]; intros f2 s buf H1 H2; [lia|].
    destruct f2 as [|f2]; [lia|].
    cbn [run].
    destruct (want s =? 0)%N eqn:E0; [reflexivity|].
    destruct (N.of_nat (length buf) <? want s)%N eqn:E1; [reflexivity|].
    apply N.eqb_neq in E0. apply N.ltb_ge in E1.
    destruct (cb s (firstn (N.to_nat (want s)) buf)) as [s1 e1].
    assert (L: length (skipn (N.to_nat (want s)) buf) < length buf).
    { rewrite skipn_length. lia. }
    rewrite (IH f2 s1 (skipn (N.to_nat (want s)) buf)) by lia. reflexivity.
  Qed.

  Lemma run_S : forall f s buf,
    run (S f) s buf =
      if (want s =? 0)%N then (s, [], [])
      else if (N.of_nat (length buf) <? want s)%N then (s, buf, [])
      else
        let k := N.to_nat (want s) in
        let '(s1, e1) := cb s (firstn k buf) in
        let '(s2, r, e2) := run f s1 (skipn k buf) in
        (s2, r, e1 ++ e2).
  Proof. reflexivity. Qed.

  Lemma run_app : forall f s x y,
    length x < f ->
    run (S (length (x ++ y))) s (x ++ y) =
      let '(s1, r1, e1) := run f s x in
      let '(s2, r2, e2) := run (S (length (r1 ++ y))) s1 (r1 ++ y) in
      (s2, r2, e1 ++ e2).
  Proof.
    induction f as [|f IH]; intros s x y Hf; [lia|].
    rewrite (run_S f s x).
    destruct (want s =? 0)%N eqn:E0.
    - rewrite run_S, E0. cbn [app length]. rewrite run_S, E0. reflexivity.
    - destruct (N.of_nat (length x) <? want s)%N eqn:E1.
      + (* x alone is not enough: nothing consumed *)
        destruct (run (S (length (x ++ y))) s (x ++ y)) as [[s2 r2] e2] eqn:R.
        reflexivity.
      + rewrite run_S, E0.
        apply N.eqb_neq in E0. apply N.ltb_ge in E1.
        cbv zeta.
        set (k := N.to_nat (want s)) in *.
        assert (Hk: k <= length x) by (unfold k; lia).
        assert (Hk0: 0 < k) by (unfold k; lia).
        assert (E2: (N.of_nat (length (x ++ y)) <? want s)%N = false).
        { apply N.ltb_ge. rewrite app_length. lia. }
        rewrite E2.
        rewrite (firstn_app_le x y k Hk).
        destruct (cb s (firstn k x)) as [s1 e1].
        assert (Es: skipn k (x ++ y) = skipn k x ++ y).
        { rewrite skipn_app. replace (k - length x) with 0 by lia. reflexivity. }
        rewrite Es.
        assert (L: length (skipn k x) < f) by (rewrite skipn_length; lia).
        rewrite (run_fuel_enough (length (x ++ y)) (S (length (skipn k x ++ y))) s1 (skipn k x ++ y)).
        2:{ rewrite !app_length, skipn_length. lia. }
        2:{ lia. }
        rewrite (IH s1 (skipn k x) y L).
        destruct (run f s1 (skipn k x)) as [[s2 r2] e2].
        destruct (run (S (length (r2 ++ y))) s2 (r2 ++ y)) as [[s3 r3] e3].
        rewrite app_assoc. reflexivity.
  Qed.

  Theorem feed_app : forall d a b,
    feed d (a ++ b) =
      let '(d1, e1) := feed d a in
      let '(d2, e2) := feed d1 b in
      (d2, e1 ++ e2).
  Proof.
    intros d a b. unfold feed. rewrite app_assoc.
    rewrite (run_app (S (length (d_acc d ++ a))) (d_inner d) (d_acc d ++ a) b) by lia.
    destruct (run (S (length (d_acc d ++ a))) (d_inner d) (d_acc d ++ a)) as [[s1 r1] e1].
    cbn [d_inner d_acc].
    destruct (run (S (length (r1 ++ b))) s1 (r1 ++ b)) as [[s2 r2] e2].
    reflexivity.
  Qed.

  Lemma run_nil f s : run f s [] = (s, [], []).
  Proof.
    destruct f; [reflexivity|]. rewrite run_S.
    destruct (want s =? 0)%N eqn:E0; [reflexivity|].
    destruct (N.of_nat (length (@nil byte)) <? want s)%N eqn:E; [reflexivity|].
    apply N.ltb_ge in E. apply N.eqb_neq in E0. cbn in E. lia.
  Qed.

  Lemma feed_stopped d x : want (d_inner d) = 0%N -> feed d x = (mkD (d_inner d) [], []).
  Proof. intros H. unfold feed. rewrite run_S, H. reflexivity. Qed.

  Lemma feed_short s acc x : want s <> 0%N -> (N.of_nat (length (acc ++ x)) < want s)%N ->
    feed (mkD s acc) x = (mkD s (acc ++ x), []).
  Proof.
    intros H0 H1. unfold feed. cbn [d_acc d_inner]. rewrite run_S.
    apply N.eqb_neq in H0. apply N.ltb_lt in H1. rewrite H0, H1. reflexivity.
  Qed.

  Lemma feed_exact s acc x : want s <> 0%N -> N.of_nat (length (acc ++ x)) = want s ->
    feed (mkD s acc) x = (mkD (fst (cb s (acc ++ x))) [], snd (cb s (acc ++ x))).
  Proof.
    intros H0 H1. unfold feed. cbn [d_acc d_inner]. rewrite run_S.
    apply N.eqb_neq in H0. rewrite H0.
    assert (E: (N.of_nat (length (acc ++ x)) <? want s)%N = false) by (apply N.ltb_ge; lia). rewrite E.
    cbv zeta. rewrite <- H1, Nat2N.id, firstn_all, skipn_all.
    destruct (cb s (acc ++ x)) as [s1 e1]. rewrite run_nil. cbn [fst snd]. now rewrite app_nil_r.
  Qed.

  Lemma feed_nil s : feed (mkD s []) [] = (mkD s [], []).
  Proof.
    destruct (N.eq_dec (want s) 0) as [E|E]; [apply (feed_stopped (mkD s []) []); exact E|].
    apply (feed_short s [] []); [exact E|cbn; lia].
  Qed.

  Lemma feed_inv (P : St -> Prop) (Q : Ev -> Prop) :
    (forall s x, P s -> N.of_nat (length x) = want s -> P (fst (cb s x)) /\ Forall Q (snd (cb s x))) ->
    forall d x, P (d_inner d) -> P (d_inner (fst (feed d x))) /\ Forall Q (snd (feed d x)).
  Proof.
    intros Hcb.
    assert (H: forall f s buf, P s -> let '(s', _, e) := run f s buf in P s' /\ Forall Q e).
    { induction f as [|f IH]; intros s buf HP; [split; [exact HP|constructor]|]. rewrite run_S.
      destruct (want s =? 0)%N; [split; [exact HP|constructor]|].
      destruct (N.of_nat (length buf) <? want s)%N eqn:E1; [split; [exact HP|constructor]|].
      apply N.ltb_ge in E1. cbv zeta.
      destruct (Hcb s (firstn (N.to_nat (want s)) buf) HP) as [H1 H2]; [rewrite firstn_length; lia|].
      destruct (cb s (firstn (N.to_nat (want s)) buf)) as [s1 e1]. cbn [fst snd] in *.
      specialize (IH s1 (skipn (N.to_nat (want s)) buf) H1).
      destruct (run f s1 (skipn (N.to_nat (want s)) buf)) as [[s2 r] e2].
      split; [apply IH|apply Forall_app; split; [exact H2|apply IH]]. }
    intros d x HP. unfold feed. specialize (H (S (length (d_acc d ++ x))) _ (d_acc d ++ x) HP).
    destruct (run (S (length (d_acc d ++ x))) (d_inner d) (d_acc d ++ x)) as [[s' r] e]. exact H.
  Qed.

  Fixpoint feed_all (d : dstate) (pieces : list (list byte)) : dstate * list Ev :=
    match pieces with
    | [] => (d, [])
    | p :: rest =>
        let '(d1, e1) := feed d p in
        let '(d2, e2) := feed_all d1 rest in
        (d2, e1 ++ e2)
    end.

  (* any way of cutting a (non-empty list of pieces of a) stream gives the
     state and the events of the uncut stream *)
  Theorem feed_all_concat : forall rest p d,
    feed_all d (p :: rest) = feed d (concat (p :: rest)).
  Proof.
    induction rest as [|q rest IH]; intros p d.
    - cbn [feed_all concat]. rewrite app_nil_r.
      destruct (feed d p) as [d1 e1]. rewrite app_nil_r. reflexivity.
    - cbn [concat]. rewrite feed_app.
      change (feed_all d (p :: q :: rest)) with
        (let '(d1, e1) := feed d p in let '(d2, e2) := feed_all d1 (q :: rest) in (d2, e1 ++ e2)).
      destruct (feed d p) as [d1 e1].
      rewrite IH. cbn [concat]. reflexivity.
  Qed.
  (* ... and the empty list of pieces too, when the decoder has nothing half-read *)
  Corollary feed_all_concat_nil d : feed d [] = (d, []) -> forall ps, feed_all d ps = feed d (concat ps).
  Proof. intros H [|p rest]; [symmetry; exact H|apply feed_all_concat]. Qed.
End Staged.

Arguments mkD {St}.
Arguments d_inner {St}.
Arguments d_acc {St}.
