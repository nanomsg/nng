(* SpHeaderProofs: raw protocol headers travel in front of the body and are
   recovered by the receiving protocol's re-parse (the hop loop of
   rep0_pipe_recv_cb / xrep0_pipe_recv_cb, Proto/ReqRepBacktrace.v). *)
From Coq Require Import List Arith Lia NArith.
From NngV Require Import Base.ListX Proto.Common Proto.ReqRepBacktrace.
Import ListNotations.

(* a backtrace: 4-byte words, the last one (the request id) and only the last
   one with the high bit of its first byte set *)
Inductive backtrace : list N -> Prop :=
| bt_last : forall w, length w = 4 -> high_bit w = true -> backtrace w
| bt_hop : forall w r, length w = 4 -> high_bit w = false -> backtrace r -> backtrace (w ++ r).

(* one turn of the hop loop on a buffer that starts with a whole word *)
Lemma bt_loop_word n h0 w rest : length w = 4 -> length h0 + 4 <= BT_HEADER_MAX ->
  bt_loop (S n) h0 (w ++ rest) =
    if high_bit w then BtDeliver (mkPmsg (h0 ++ w) rest) else bt_loop n (h0 ++ w) rest.
Proof.
  intros HL HM. cbn [bt_loop].
  assert (E1: (length (w ++ rest) <? 4) = false) by (apply Nat.ltb_ge; rewrite app_length; lia).
  assert (E2: (BT_HEADER_MAX <? length h0 + 4) = false) by (apply Nat.ltb_ge; lia).
  rewrite E1, E2, firstn_app_exact, skipn_app_exact by (symmetry; exact HL). reflexivity.
Qed.

Lemma bt_loop_reparse : forall hdr, backtrace hdr -> forall n h0 body,
  length h0 + length hdr <= BT_HEADER_MAX -> length hdr <= 4 * n ->
  bt_loop n h0 (hdr ++ body) = BtDeliver (mkPmsg (h0 ++ hdr) body).
Proof.
  induction 1 as [w HL HB|w r HL HB HR IH]; intros n h0 body Hmax Hn.
  - destruct n as [|n]; [lia|]. rewrite bt_loop_word, HB by lia. reflexivity.
  - rewrite app_length in Hmax, Hn. destruct n as [|n]; [lia|].
    rewrite <- app_assoc, bt_loop_word, HB by lia.
    rewrite IH by (rewrite ?app_length; lia). now rewrite <- app_assoc.
Qed.

(* converse of bt_loop_reparse: what the hop loop delivers is a backtrace *)
Lemma bt_loop_backtrace : forall n h0 body m, bt_loop n h0 body = BtDeliver m ->
  exists w, backtrace w /\ pm_hdr m = h0 ++ w /\ body = w ++ pm_body m /\
            length w <= 4 * n /\ length (pm_hdr m) <= BT_HEADER_MAX.
Proof.
  induction n as [|n IH]; intros h0 body m H; [discriminate|].
  cbn [bt_loop] in H.
  destruct (length body <? 4) eqn:E1; [discriminate|].
  destruct (BT_HEADER_MAX <? length h0 + 4) eqn:E2; [discriminate|].
  apply Nat.ltb_ge in E1. apply Nat.ltb_ge in E2.
  assert (L4: length (firstn 4 body) = 4) by (apply firstn_length_le; lia).
  destruct (high_bit (firstn 4 body)) eqn:EH.
  - assert (Hm: m = mkPmsg (h0 ++ firstn 4 body) (skipn 4 body)) by congruence.
    clear H. subst m. unfold pm_hdr, pm_body. exists (firstn 4 body).
    split; [apply bt_last; assumption|]. split; [reflexivity|]. split; [symmetry; apply firstn_skipn|].
    split; [lia|]. rewrite app_length, L4. exact E2.
  - apply IH in H. destruct H as (w & HB & HH & HBody & HL & HM).
    exists (firstn 4 body ++ w). split; [apply bt_hop; assumption|].
    split; [rewrite HH; now rewrite app_assoc|].
    split; [rewrite <- app_assoc, <- HBody; symmetry; apply firstn_skipn|].
    split; [rewrite app_length, L4; lia|exact HM].
Qed.

(* what the transport delivers for a message (header, body) is header ++ body;
   the cooked / raw REP receive recovers the header from it *)
Theorem reparse_recovers_header hdr body ttl p : backtrace hdr -> length hdr <= 4 * ttl ->
  (length hdr <= BT_HEADER_MAX -> rep_recv ttl (hdr ++ body) = BtDeliver (mkPmsg hdr body)) /\
  (4 + length hdr <= BT_HEADER_MAX -> xrep_recv p ttl (hdr ++ body) = BtDeliver (mkPmsg (be32 p ++ hdr) body)).
Proof.
  intros HB HT. split; intros HM.
  - unfold rep_recv. rewrite (bt_loop_reparse hdr HB ttl [] body); auto.
  - unfold xrep_recv. rewrite (bt_loop_reparse hdr HB ttl (be32 p) body); auto.
Qed.

Example backtrace_nonvacuous : backtrace ([0; 0; 0; 7] ++ [0; 0; 1; 2] ++ [128; 0; 0; 1])%N.
Proof. apply bt_hop; [reflexivity|reflexivity|]. apply bt_hop; [reflexivity|reflexivity|]. apply bt_last; reflexivity. Qed.
