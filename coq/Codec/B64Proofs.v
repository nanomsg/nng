(* B64Proofs: the base64 model against RFC 4648 (C16): nni_base64_encode
   computes the RFC encoding and nni_base64_decode inverts it, for byte strings
   of every length (induction on the list in groups of three). *)
From Coq Require Import List Lia Bool NArith ZArith.
From NngV Require Import Base.ListX Base.Bytes Codec.B64Model Codec.CodecSpec.
Import ListNotations.
Local Open Scope N_scope.

(* lia reads / and mod by constants in this section only: the hook is undone where the section ends *)
Section Groups.
Ltac Zify.zify_post_hook ::= Z.to_euclidean_division_equations.


Lemma lor_low n k a : a < 2 ^ n -> N.lor (k * 2 ^ n) a = k * 2 ^ n + a.
Proof.
  intros H. rewrite <- N.shiftl_mul_pow2.
  assert (Z: N.land (N.shiftl k n) a = 0).
  { apply N.bits_inj_0. intros m. rewrite N.land_spec.
    destruct (N.ltb_spec m n) as [L|L].
    - rewrite N.shiftl_spec_low by exact L. reflexivity.
    - replace (N.testbit a m) with false; [apply andb_false_r|]. symmetry.
      destruct (N.eq_dec a 0) as [->|NZ]; [apply N.bits_0|].
      apply N.bits_above_log2. apply N.lt_le_trans with n; [|exact L].
      apply N.log2_lt_pow2; [lia|exact H]. }
  rewrite N.add_nocarry_lxor by exact Z. symmetry. apply N.lxor_lor. exact Z.
Qed.

(* the accumulators after one more byte / one more symbol; only their low bits are read again *)
Definition ny (v a : N) : N := 256 * (v mod 16777216) + a.
Definition nx (v i : N) : N := 64 * (v mod 67108864) + i.

Lemma enc_acc v a : a < 256 -> N.lor (N.shiftl v 8 mod U32) a = ny v a.
Proof.
  intros H. unfold ny. rewrite N.shiftl_mul_pow2. unfold U32. change (2 ^ 8) with 256.
  change 4294967296 with (16777216 * 256). rewrite N.mul_mod_distr_r by lia.
  change 256 with (2 ^ 8) at 1. rewrite lor_low by exact H. change (2 ^ 8) with 256. lia.
Qed.

Lemma dec_acc v i : i < 64 -> N.lor (N.shiftl v 6 mod U32) i = nx v i.
Proof.
  intros H. unfold nx. rewrite N.shiftl_mul_pow2. unfold U32. change (2 ^ 6) with 64.
  change 4294967296 with (67108864 * 64). rewrite N.mul_mod_distr_r by lia.
  change 64 with (2 ^ 6) at 1. rewrite lor_low by exact H. change (2 ^ 6) with 64. lia.
Qed.

Lemma idx6 v n : N.land (N.shiftr v n) 63 = (v / 2 ^ n) mod 64.
Proof. rewrite N.shiftr_div_pow2. change 63 with (N.ones 6). rewrite N.land_ones. reflexivity. Qed.
Lemma idx8 v n : N.land (N.shiftr v n) 255 = (v / 2 ^ n) mod 256.
Proof. rewrite N.shiftr_div_pow2. change 255 with (N.ones 8). rewrite N.land_ones. reflexivity. Qed.
Lemma low6 v : N.land v 63 = v mod 64.
Proof. change 63 with (N.ones 6). apply N.land_ones. Qed.

(* (i =? 255) = false is there because dec_loop tests the looked-up value against 255 *)
Lemma sym_props : forall i, i < 64 ->
  b64_char i = b64_sym i /\ is_space (b64_sym i) = false /\ (b64_sym i =? 61) = false /\
  (128 <=? b64_sym i) = false /\ b64_val (b64_sym i) = i /\ (i =? 255) = false /\ b64_alphabet (b64_sym i) = true.
Proof.
  intros i H.
  assert (Q: forallb (fun i => (b64_char i =? b64_sym i) && negb (is_space (b64_sym i)) && negb (b64_sym i =? 61) &&
                               negb (128 <=? b64_sym i) && (b64_val (b64_sym i) =? i) && negb (i =? 255) &&
                               b64_alphabet (b64_sym i))
               (map N.of_nat (seq 0 64)) = true) by (vm_compute; reflexivity).
  pose proof (forall_below 64 _ Q i H) as P. cbv beta in P.
  repeat (apply andb_true_iff in P; destruct P as [P ?]).
  repeat match goal with
         | X : negb _ = true |- _ => apply negb_true_iff in X
         | X : (_ =? _) = true |- _ => apply N.eqb_eq in X
         end.
  repeat split; assumption.
Qed.

(* the end of b64_encode_all, for any start of the loop *)
Definition enc_finish (r : list byte * N * N) : list byte :=
  let '(o, v, rem) := r in
  let o1 := if rem =? 0 then o else o ++ [b64_char (N.land (N.shiftl v (6 - rem) mod U32) 63)] in
  o1 ++ repeat 61 (pad_count (length o1)).

Lemma b64_encode_all_finish l : b64_encode_all l = enc_finish (enc_loop l 0 0).
Proof. unfold b64_encode_all, enc_finish. destruct (enc_loop l 0 0) as [[o v] rem]. reflexivity. Qed.

Lemma pad_count_4 n : pad_count (4 + n) = pad_count n.
Proof.
  unfold pad_count. replace (Nat.modulo (4 + n) 4) with (Nat.modulo n 4); [reflexivity|].
  rewrite Nat.add_comm. replace (n + 4)%nat with (n + 1 * 4)%nat by lia. rewrite Nat.mod_add by lia. reflexivity.
Qed.

Lemma enc_finish_4 s1 s2 s3 s4 o v rem :
  enc_finish (s1 :: s2 :: s3 :: s4 :: o, v, rem) = s1 :: s2 :: s3 :: s4 :: enc_finish (o, v, rem).
Proof.
  unfold enc_finish. destruct (rem =? 0); cbn [app length]; rewrite ?app_length;
    change (S (S (S (S ?n)))) with (4 + n)%nat; rewrite pad_count_4; reflexivity.
Qed.

Lemma list_ind3 (P : list byte -> Prop) :
  P [] -> (forall a, P [a]) -> (forall a b, P [a; b]) ->
  (forall a b c r, P r -> P (a :: b :: c :: r)) -> forall l, P l.
Proof.
  intros H0 H1 H2 H3.
  assert (K: forall n l, (length l <= n)%nat -> P l).
  { induction n as [|n IH]; intros l Hl.
    - destruct l; [exact H0|cbn in Hl; lia].
    - destruct l as [|a [|b [|c r]]]; auto. apply H3. apply IH. cbn in Hl. lia. }
  intros l. exact (K (length l) l (le_n _)).
Qed.

Lemma char_sym x : x < 64 -> b64_char x = b64_sym x.
Proof. apply sym_props. Qed.
Lemma char_sym_mod x : b64_char (x mod 64) = b64_sym (x mod 64).
Proof. apply char_sym, N.mod_lt. discriminate. Qed.

Lemma emit8 v : enc_emit v 8 = ([b64_char (N.land (N.shiftr v 2) 63)], 2).
Proof. reflexivity. Qed.
Lemma emit10 v : enc_emit v 10 = ([b64_char (N.land (N.shiftr v 4) 63)], 4).
Proof. reflexivity. Qed.
Lemma emit12 v : enc_emit v 12 = ([b64_char (N.land (N.shiftr v 6) 63); b64_char (N.land (N.shiftr v 0) 63)], 0).
Proof. reflexivity. Qed.

Lemma enc_loop_cons ch r v rem :
  enc_loop (ch :: r) v rem =
    let v1 := N.lor (N.shiftl v 8 mod U32) ch in
    let '(o, rem1) := enc_emit v1 (rem + 8) in
    let '(o2, v2, rem2) := enc_loop r v1 rem1 in (o ++ o2, v2, rem2).
Proof. reflexivity. Qed.

(* two steps leave the last two bytes / symbols in the low bits; stated with the rest as a
   quotient so that lia sees no nested remainder *)
Lemma ny_ny w a b : a < 256 -> exists q, ny (ny w a) b = 65536 * q + (256 * a + b).
Proof. intros Ha. unfold ny. generalize (w mod 16777216). intros x. exists (x mod 65536). lia. Qed.
Lemma nx_nx w i j : i < 64 -> exists q, nx (nx w i) j = 4096 * q + (64 * i + j).
Proof. intros Hi. unfold nx. generalize (w mod 67108864). intros x. exists (x mod 1048576). lia. Qed.

(* a symbol is cut out of the last two bytes *)
Lemma ny_idx w a b k : a < 256 -> b < 256 -> k = 0 \/ k = 2 \/ k = 4 \/ k = 6 ->
  (ny (ny w a) b / 2 ^ k) mod 64 = ((256 * a + b) / 2 ^ k) mod 64.
Proof.
  intros Ha Hb Hk. destruct (ny_ny w a b Ha) as [q ->]. generalize (256 * a + b). intros c.
  destruct Hk as [ -> | [ -> | [ -> | -> ] ] ];
    [change (2 ^ 0) with 1|change (2 ^ 2) with 4|change (2 ^ 4) with 16|change (2 ^ 6) with 64]; lia.
Qed.

(* the symbols the encoder cuts out of its accumulator are the RFC's sextets of the group *)
Lemma enc_syms w a b c V : a < 256 -> b < 256 -> c < 256 -> V = a * 65536 + b * 256 + c ->
  V / 262144 < 64 /\
  (ny w a / 2 ^ 2) mod 64 = V / 262144 /\
  (ny (ny w a) b / 2 ^ 4) mod 64 = (V / 4096) mod 64 /\
  (ny (ny (ny w a) b) c / 2 ^ 6) mod 64 = (V / 64) mod 64 /\
  (ny (ny (ny w a) b) c / 2 ^ 0) mod 64 = V mod 64.
Proof.
  intros Ha Hb Hc ->. rewrite !ny_idx by auto.
  change (2 ^ 0) with 1. change (2 ^ 2) with 4. change (2 ^ 4) with 16. change (2 ^ 6) with 64.
  repeat split; try lia. unfold ny. lia.
Qed.
(* the last, partial symbol of a group of one or two bytes *)
Lemma enc_tail w a b : a < 256 -> b < 256 ->
  ((ny w a * 2 ^ 4) mod 4294967296) mod 64 = (a * 65536 / 4096) mod 64 /\
  ((ny (ny w a) b * 2 ^ 2) mod 4294967296) mod 64 = ((a * 65536 + b * 256) / 64) mod 64.
Proof.
  intros Ha Hb. change (2 ^ 2) with 4. change (2 ^ 4) with 16. split.
  - unfold ny. lia.
  - destruct (ny_ny w a b Ha) as [q ->]. lia.
Qed.

Ltac arith_forms :=
  rewrite ?idx6, ?low6, ?N.shiftl_mul_pow2, ?N.shiftr_0_r; unfold U32.

Ltac enc_step H :=
  rewrite enc_loop_cons; cbv zeta; rewrite enc_acc by exact H.

Lemma enc_all_spec : forall l v, bytes_ok l -> enc_finish (enc_loop l v 0) = spec_b64_encode l.
Proof.
  induction l as [| a | a b | a b c r IH] using list_ind3; intros v Hb.
  - reflexivity.
  - inversion Hb as [|? ? Ha _]; subst.
    enc_step Ha. change (0 + 8) with 8. rewrite emit8. cbv beta iota. cbn [enc_loop app].
    unfold enc_finish. change (2 =? 0) with false. cbv iota. change (6 - 2) with 4.
    cbn [app length]. change (pad_count 2) with 2%nat. cbn [repeat app].
    unfold spec_b64_encode. arith_forms.
    destruct (enc_syms v a 0 0 (a * 65536)) as (L & E1 & _); [lia..|]. destruct (enc_tail v a 0) as (E2 & _); [lia..|].
    now rewrite E1, E2, char_sym, char_sym_mod.
  - inversion Hb as [|? ? Ha Hb']; subst. inversion Hb' as [|? ? Hb2 _]; subst.
    enc_step Ha. change (0 + 8) with 8. rewrite emit8. cbv beta iota.
    enc_step Hb2. change (2 + 8) with 10. rewrite emit10. cbv beta iota. cbn [enc_loop app].
    unfold enc_finish. change (4 =? 0) with false. cbv iota. change (6 - 4) with 2.
    cbn [app length]. change (pad_count 3) with 1%nat. cbn [repeat app].
    unfold spec_b64_encode. arith_forms.
    destruct (enc_syms v a b 0 (a * 65536 + b * 256)) as (L & E1 & E2 & _); [lia..|].
    destruct (enc_tail v a b) as (_ & E3); [lia..|].
    now rewrite E1, E2, E3, char_sym, !char_sym_mod.
  - inversion Hb as [|? ? Ha Hb']; subst. inversion Hb' as [|? ? Hb2 Hb'']; subst.
    inversion Hb'' as [|? ? Hc Hr]; subst.
    enc_step Ha. change (0 + 8) with 8. rewrite emit8. cbv beta iota.
    enc_step Hb2. change (2 + 8) with 10. rewrite emit10. cbv beta iota.
    enc_step Hc. change (4 + 8) with 12. rewrite emit12. cbv beta iota.
    specialize (IH (ny (ny (ny v a) b) c) Hr). destruct (enc_loop r _ 0) as [[o2 vv] rr].
    cbn [app]. rewrite enc_finish_4, IH.
    cbn [spec_b64_encode]. arith_forms.
    destruct (enc_syms v a b c _ Ha Hb2 Hc eq_refl) as (L & E1 & E2 & E3 & E4).
    now rewrite E1, E2, E3, E4, char_sym, !char_sym_mod.
Qed.

Lemma b64_encode_is_rfc l : bytes_ok l -> b64_encode_all l = spec_b64_encode l.
Proof. intros H. rewrite b64_encode_all_finish. apply enc_all_spec. exact H. Qed.

Lemma dec_sym i r v rem : i < 64 ->
  dec_loop (b64_sym i :: r) v rem =
    if 8 <=? rem + 6
    then N.land (N.shiftr (nx v i) (rem + 6 - 8)) 255 :: dec_loop r (nx v i) (rem + 6 - 8)
    else dec_loop r (nx v i) (rem + 6).
Proof.
  intros H. destruct (sym_props i H) as (_ & A & B & C & D & E & _).
  cbn [dec_loop]. rewrite A, B, C, D, E. rewrite dec_acc by exact H. reflexivity.
Qed.

(* a byte is cut out of the last two symbols: the shifts never reach further back *)
Lemma dec_byte w i j k r : i < 64 -> j < 64 -> k = 0 \/ k = 2 \/ k = 4 ->
  dec_loop (b64_sym j :: r) (nx w i) (k + 2) =
    ((64 * i + j) / 2 ^ k) mod 256 :: dec_loop r (nx (nx w i) j) k.
Proof.
  intros Hi Hj Hk. rewrite dec_sym by exact Hj. rewrite idx8.
  destruct (nx_nx w i j Hi) as [q E]. rewrite E at 1. generalize (64 * i + j). intros c.
  destruct Hk as [ -> | [ -> | -> ] ].
  - change (8 <=? 0 + 2 + 6) with true. change (0 + 2 + 6 - 8) with 0. change (2 ^ 0) with 1. cbv iota. f_equal. lia.
  - change (8 <=? 2 + 2 + 6) with true. change (2 + 2 + 6 - 8) with 2. change (2 ^ 2) with 4. cbv iota. f_equal. lia.
  - change (8 <=? 4 + 2 + 6) with true. change (4 + 2 + 6 - 8) with 4. change (2 ^ 4) with 16. cbv iota. f_equal. lia.
Qed.

Lemma dec_first i r v : i < 64 -> dec_loop (b64_sym i :: r) v 0 = dec_loop r (nx v i) 6.
Proof. intros H. now rewrite dec_sym. Qed.

Lemma dec_pad r v rem : dec_loop (61 :: r) v rem = [].
Proof. reflexivity. Qed.

(* the four symbols of a 24-bit group, regrouped into its three bytes *)
Lemma regroup a b c v : a < 256 -> b < 256 -> c < 256 -> v = a * 65536 + b * 256 + c ->
  let s1 := v / 262144 in let s2 := (v / 4096) mod 64 in let s3 := (v / 64) mod 64 in let s4 := v mod 64 in
  (s1 < 64 /\ s2 < 64 /\ s3 < 64 /\ s4 < 64) /\
  ((64 * s1 + s2) / 2 ^ 4) mod 256 = a /\ ((64 * s2 + s3) / 2 ^ 2) mod 256 = b /\
  ((64 * s3 + s4) / 2 ^ 0) mod 256 = c.
Proof.
  intros Ha Hb Hc ->. cbv zeta. change (2 ^ 4) with 16. change (2 ^ 2) with 4. change (2 ^ 0) with 1.
  repeat split; lia.
Qed.

Lemma dec_all_spec : forall l v, bytes_ok l -> dec_loop (spec_b64_encode l) v 0 = l.
Proof.
  induction l as [| a | a b | a b c r IH] using list_ind3; intros v Hb.
  - reflexivity.
  - inversion Hb as [|? ? Ha _]; subst. cbn [spec_b64_encode].
    destruct (regroup a 0 0 (a * 65536)) as ((H1 & H2 & _) & E1 & _); [lia..|].
    rewrite dec_first, (dec_byte _ _ _ 4), dec_pad, E1 by auto. reflexivity.
  - inversion Hb as [|? ? Ha Hb']; subst. inversion Hb' as [|? ? Hb2 _]; subst. cbn [spec_b64_encode].
    destruct (regroup a b 0 (a * 65536 + b * 256)) as ((H1 & H2 & H3 & _) & E1 & E2 & _); [lia..|].
    rewrite dec_first, (dec_byte _ _ _ 4), (dec_byte _ _ _ 2), dec_pad, E1, E2 by auto. reflexivity.
  - inversion Hb as [|? ? Ha Hb']; subst. inversion Hb' as [|? ? Hb2 Hb'']; subst.
    inversion Hb'' as [|? ? Hc Hr]; subst. cbn [spec_b64_encode].
    destruct (regroup a b c _ Ha Hb2 Hc eq_refl) as ((H1 & H2 & H3 & H4) & E1 & E2 & E3).
    rewrite dec_first, (dec_byte _ _ _ 4), (dec_byte _ _ _ 2), (dec_byte _ _ _ 0), E1, E2, E3, IH by auto. reflexivity.
Qed.

Theorem b64_roundtrip l : bytes_ok l ->
  b64_encode_all l = spec_b64_encode l /\ b64_decode_all (b64_encode_all l) = l.
Proof.
  intros H. split; [apply b64_encode_is_rfc; exact H|].
  rewrite b64_encode_is_rfc by exact H. apply dec_all_spec. exact H.
Qed.

Lemma spec_alphabet : forall l, bytes_ok l ->
  forallb (fun c => b64_alphabet c || (c =? 61)) (spec_b64_encode l) = true.
Proof.
  assert (S: forall i, i < 64 -> b64_alphabet (b64_sym i) || (b64_sym i =? 61) = true).
  { intros i H. destruct (sym_props i H) as (_ & _ & _ & _ & _ & _ & A). rewrite A. reflexivity. }
  induction l as [| a | a b | a b c r IH] using list_ind3; intros Hb.
  - reflexivity.
  - inversion Hb as [|? ? Ha _]; subst. cbn [spec_b64_encode forallb]. rewrite !S by lia. reflexivity.
  - inversion Hb as [|? ? Ha Hb']; subst. inversion Hb' as [|? ? Hb2 _]; subst.
    cbn [spec_b64_encode forallb]. rewrite !S by lia. reflexivity.
  - inversion Hb as [|? ? Ha Hb']; subst. inversion Hb' as [|? ? Hb2 Hb'']; subst.
    inversion Hb'' as [|? ? Hc Hr]; subst.
    cbn [spec_b64_encode forallb]. rewrite !S by lia. rewrite IH by exact Hr. reflexivity.
Qed.

End Groups.

(* RFC 4648 section 10 test vectors, and the Sec-WebSocket-Accept sized case (20 bytes -> 28 characters) *)
Lemma b64_rfc_vectors :
  b64_encode_all [102] = [90;103;61;61] /\ b64_encode_all [102;111] = [90;109;56;61] /\
  b64_encode_all [102;111;111] = [90;109;57;118] /\
  b64_encode_all [102;111;111;98;97;114] = [90;109;57;118;89;109;70;121] /\
  b64_decode_all [90;109;57;118;89;109;70;121] = [102;111;111;98;97;114] /\
  length (b64_encode_all (repeat 255 20)) = 28%nat.
Proof. vm_compute. repeat split. Qed.
