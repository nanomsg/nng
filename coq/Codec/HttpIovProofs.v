(* HttpIovProofs: the physical read of a multi-element HTTP read gets exactly the
   elements the buffered bytes did not use up (repaired code); the pinned code hands
   it a different vector as soon as one element was used up and two remain. *)
From Coq Require Import List Arith NArith Lia.
From NngV Require Import Codec.HttpIov.
From NngV Require Base.ListX.
Import ListNotations.

Lemma length_set_nth {A} i (x : A) l : length (set_nth i x l) = length l.
Proof. revert i; induction l as [|y r IH]; intros [|i]; cbn; auto. Qed.

Lemma nth_set_nth_eq {A} i (x d : A) l : i < length l -> nth i (set_nth i x l) d = x.
Proof. revert i; induction l as [|y r IH]; intros [|i] H; cbn in *; try lia; auto; try (apply IH; lia). Qed.

Lemma nth_set_nth_neq {A} i j (x d : A) l : i <> j -> nth j (set_nth i x l) d = nth j l d.
Proof.
  revert i j; induction l as [|y r IH]; intros [|i] [|j] H; cbn; auto; try lia; try (apply IH; lia).
Qed.

(* the ascending copy, k steps done *)
Lemma shift_fold_spec a off : 0 < off -> forall k, off + k <= length a ->
  let b := fold_left (shift_step off) (seq 0 k) a in
  length b = length a /\
  (forall i, i < k -> nth i b iov0 = nth (off + i) a iov0) /\
  (forall j, k <= j -> nth j b iov0 = nth j a iov0).
Proof.
  intros Hoff k. induction k as [|k IH]; intros Hk.
  - cbn. split; [reflexivity|]. split; [intros i Hi; lia|reflexivity].
  - rewrite seq_S, fold_left_app. cbn [fold_left plus].
    destruct IH as [L [A B]]; [lia|].
    set (b := fold_left (shift_step off) (seq 0 k) a) in *.
    unfold shift_step. split; [now rewrite length_set_nth|]. split.
    + intros i Hi. destruct (Nat.eq_dec i k) as [->|Hne].
      * rewrite nth_set_nth_eq by lia. apply B. lia.
      * rewrite nth_set_nth_neq by lia. apply A. lia.
    + intros j Hj. rewrite nth_set_nth_neq by lia. apply B. lia.
Qed.

Lemma shift_spec a off nio : off + nio <= length a ->
  length (shift a off nio) = length a /\
  forall i, i < nio -> nth i (shift a off nio) iov0 = nth (off + i) a iov0.
Proof.
  intros H. unfold shift. destruct (Nat.eqb_spec off 0) as [->|Hne].
  - split; [reflexivity|]. intros i _. reflexivity.
  - destruct (shift_fold_spec a off ltac:(lia) nio H) as [L [A _]]. split; assumption.
Qed.

Lemma nth_firstn_lt {A} (l : list A) n i d : i < n -> nth i (firstn n l) d = nth i l d.
Proof.
  revert n i; induction l as [|x r IH]; intros [|n] [|i] H; cbn; auto; try lia; try (apply IH; lia).
Qed.

(* repaired: the physical read, and the user aio, see the unconsumed elements *)
Lemma user_vector_spec a off : off <= length a -> user_vector a off = skipn off a.
Proof.
  intros H. unfold user_vector. set (nio := length a - off).
  destruct (shift_spec a off nio ltac:(unfold nio; lia)) as [L A].
  apply (nth_ext _ _ iov0 iov0).
  - rewrite firstn_length, L, skipn_length. unfold nio. lia.
  - intros i Hi. rewrite firstn_length, L in Hi.
    rewrite nth_firstn_lt by lia. rewrite A by lia. now rewrite ListX.nth_skipn_add.
Qed.
Lemma rd_vector_fixed a off : off <= length a -> rd_vector true a off = skipn off a.
Proof. intros H. exact (user_vector_spec a off H). Qed.

(* pinned: one element used up, two left -- the second of them twice *)
Definition w_vec : list iove := [mkIov 0 0 4; mkIov 1 0 4; mkIov 2 0 4].
Lemma rd_vector_pinned_w :
  1 <= length w_vec /\ rd_vector false w_vec 1 = [mkIov 2 0 4; mkIov 2 0 4] /\ skipn 1 w_vec = [mkIov 1 0 4; mkIov 2 0 4].
Proof. vm_compute. repeat split; lia. Qed.

(* the byte-level picture of the two variants on one read: body ABCDEFGHIJKL, 6 bytes
   buffered, three elements of 4 *)
Definition w_body : list N := [65; 66; 67; 68; 69; 70; 71; 72; 73; 74; 75; 76]%N.
Lemma http_read_full_pinned_w :
  http_read_full false w_body 6 [4; 4; 4] = ([[65; 66; 67; 68]; [69; 70; 238; 238]; [75; 76; 73; 74]]%N, 12).
Proof. vm_compute. reflexivity. Qed.
Lemma http_read_full_fixed_w :
  http_read_full true w_body 6 [4; 4; 4] = ([[65; 66; 67; 68]; [69; 70; 71; 72]; [73; 74; 75; 76]]%N, 12) /\
  http_read_full true w_body 4 [4; 4; 4] = ([[65; 66; 67; 68]; [69; 70; 71; 72]; [73; 74; 75; 76]]%N, 12) /\
  http_read_full true w_body 5 [2; 3; 7] = ([[65; 66]; [67; 68; 69]; [70; 71; 72; 73; 74; 75; 76]]%N, 12).
Proof. vm_compute. repeat split. Qed.
