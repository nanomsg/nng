(* HttpBufProofs: the read-buffer policy of http_rd_buf does not make the
   parse depend on the segmentation: for every stream whose lines fit into the
   buffer, reading it through the bounded buffer in any pieces gives exactly
   the events and the connection state of the unbounded re-scanning parser
   http_feed on the whole stream (which is segmentation independent by
   HttpProofs.http_feed_app). *)
From Coq Require Import List Arith Lia NArith.
From NngV Require Import Base.ListX Codec.ChunkedModel Codec.HttpLineModel Codec.HttpBufModel Codec.HttpProofs.
Import ListNotations.
Local Open Scope N_scope.

(* [seen]: the bytes read so far.  While not finished, the bounded and the
   unbounded reader hold the same connection state and the same pending bytes:
   an incomplete line at the front of the buffer, the tail of what was read,
   shorter than the buffer.  That the line is incomplete (SAgain) is what rd_idle_sim needs. *)
Definition sim (bufsz : nat) (r : rdconn) (u : hfeed) (seen : list byte) : Prop :=
  rd_done r = hf_done u /\ rd_conn r = hf_conn u /\
  (rd_done r = false ->
     rd_data r = hf_buf u /\ (exists pre, seen = pre ++ rd_data r) /\
     http_scan_line (rd_data r) = SAgain /\ rd_get r = 0%nat /\ (length (rd_data r) < bufsz)%nat).

Section Sim.
  Variables (keep strict isreq : bool) (bufsz : nat) (total : list byte).
  Hypothesis Hfit : lines_fit bufsz total.

  (* [a]: what the bounded reader made of the bytes [x] that follow [seen]; it reports what the
     unbounded parser [u] reports on them, and the two are similar again afterwards *)
  Definition agrees (a : rdconn * list hevent) (u : hfeed) (x seen : list byte) : Prop :=
    snd a = snd (http_feed keep strict isreq u x) /\
    sim bufsz (fst a) (fst (http_feed keep strict isreq u x)) (seen ++ x).

  Lemma agrees_seq a1 a2 u x y z seen : z = x ++ y -> agrees a1 u x seen ->
    (forall u1, sim bufsz (fst a1) u1 (seen ++ x) -> agrees a2 u1 y (seen ++ x)) ->
    agrees (fst a2, snd a1 ++ snd a2) u z seen.
  Proof.
    intros -> [E1 S1] H2. destruct (H2 _ S1) as [E2 S2]. unfold agrees. cbn [fst snd]. rewrite http_feed_app.
    destruct (http_feed keep strict isreq u x) as [u1 e1]. cbn [fst snd] in *.
    destruct (http_feed keep strict isreq u1 y) as [u2 e2]. cbn [fst snd] in *.
    rewrite E1, E2, app_assoc. auto.
  Qed.

  Lemma rd_step_sim seen future r u c :
    total = seen ++ c ++ future -> sim bufsz r u seen -> rd_done r = false ->
    agrees (rd_step true keep strict isreq bufsz r c) u c seen.
  Proof.
    intros Htot (Hd & Hc & Hdata) Hnd. destruct (Hdata Hnd) as (Hb & [pre Hs] & _).
    unfold agrees, rd_step, http_feed. rewrite <- Hd, Hnd, <- Hc, <- Hb.
    destruct (head_parse keep strict isreq (rd_conn r) (rd_data r ++ c)) as [[h1 rv] rest] eqn:P.
    destruct (head_parse_rest _ _ _ _ _ _ _ _ P) as [[pre2 Hp2] Hlf].
    destruct (rv =? NNG_EAGAIN) eqn:E.
    - apply N.eqb_eq in E.
      assert (Lt: (length rest < bufsz)%nat).
      { apply (Hfit (pre ++ pre2) rest future); [|apply (scan_again_no_lf rest 0 []); apply Hlf; exact E].
        rewrite Htot, Hs, <- !app_assoc. f_equal. rewrite (app_assoc (rd_data r) c future), Hp2, <- app_assoc. reflexivity. }
      replace (length rest =? bufsz)%nat with false by (symmetry; apply Nat.eqb_neq; lia).
      assert (S1: sim bufsz (mkRD h1 0 rest false) (mkHF h1 rest false) (seen ++ c)).
      { unfold sim. cbn. repeat split; auto. exists (pre ++ pre2).
        rewrite Hs, <- !app_assoc. f_equal. exact Hp2. }
      destruct isreq; (split; [reflexivity|exact S1]).
    - split; [reflexivity|]. unfold sim. cbn. repeat split; auto; discriminate.
  Qed.

  (* nothing arrives, or nothing is read any more *)
  Lemma rd_idle_sim r u x seen : sim bufsz r u seen -> x = [] \/ rd_done r = true -> agrees (r, []) u x seen.
  Proof.
    intros (Hd & Hc & Hdata) Hx. unfold agrees, http_feed. cbn [fst snd]. rewrite <- Hd.
    destruct (rd_done r) eqn:D.
    - split; [reflexivity|]. unfold sim. cbn. rewrite D. repeat split; auto; try discriminate; intros X; discriminate X.
    - destruct Hx as [->|Hx]; [|discriminate]. destruct (Hdata eq_refl) as (Hb & Hp & Hs & Hg & Hl).
      rewrite !app_nil_r, <- Hb, <- Hc, (head_parse_pending keep strict isreq _ _ Hs).
      cbn [N.eqb Pos.eqb NNG_EAGAIN]. split; [reflexivity|]. unfold sim. cbn. rewrite D. repeat split; auto.
  Qed.

  Lemma rd_feed_piece_S f r piece : rd_done r = false -> piece <> [] ->
    rd_feed_piece (S f) true keep strict isreq bufsz r piece =
      let k := Nat.min (bufsz - rd_put r) (length piece) in
      let a1 := rd_step true keep strict isreq bufsz r (firstn k piece) in
      let a2 := rd_feed_piece f true keep strict isreq bufsz (fst a1) (skipn k piece) in
      (fst a2, snd a1 ++ snd a2).
  Proof.
    intros D N. cbn [rd_feed_piece]. rewrite D. destruct piece as [|b p]; [congruence|]. cbv zeta.
    destruct (rd_step true keep strict isreq bufsz r _) as [r1 e1]. cbn [fst snd].
    destruct (rd_feed_piece f true keep strict isreq bufsz r1 _) as [r2 e2]. reflexivity.
  Qed.

  Lemma rd_piece_sim : forall fuel piece seen future r u,
    total = seen ++ piece ++ future -> sim bufsz r u seen -> (length piece < fuel)%nat ->
    agrees (rd_feed_piece fuel true keep strict isreq bufsz r piece) u piece seen.
  Proof.
    induction fuel as [|f IH]; intros piece seen future r u Htot Hsim Hf; [lia|].
    destruct (rd_done r) eqn:D; [|destruct (list_eq_dec N.eq_dec piece []) as [->|NE]].
    1-2: cbn [rd_feed_piece]; rewrite D; apply rd_idle_sim; auto.
    rewrite (rd_feed_piece_S f r piece D NE). cbv zeta.
    assert (Lp: (0 < length piece)%nat) by (destruct piece; [exfalso; apply NE; reflexivity|cbn; lia]).
    set (k := Nat.min (bufsz - rd_put r) (length piece)).
    assert (Hk: (1 <= k <= length piece)%nat).
    { destruct Hsim as (_ & _ & Hdata). destruct (Hdata D) as (_ & _ & _ & Hg & Hl). unfold k, rd_put. rewrite Hg. lia. }
    rewrite <- (firstn_skipn k piece), <- app_assoc in Htot.
    eapply agrees_seq; [symmetry; apply firstn_skipn|exact (rd_step_sim _ _ _ _ _ Htot Hsim D)|].
    intros u1 S1. rewrite app_assoc in Htot. apply (IH _ _ future _ _ Htot S1). rewrite skipn_length. lia.
  Qed.

  Lemma rd_all_sim : forall pieces seen future r u,
    total = seen ++ concat pieces ++ future -> sim bufsz r u seen ->
    agrees (rd_feed_all true keep strict isreq bufsz r pieces) u (concat pieces) seen.
  Proof.
    induction pieces as [|p ps IH]; intros seen future r u Htot Hsim; cbn [rd_feed_all concat] in *.
    - apply rd_idle_sim; auto.
    - rewrite <- app_assoc in Htot.
      pose proof (rd_piece_sim (S (length p)) p seen _ r u Htot Hsim (Nat.lt_succ_diag_r _)) as H1.
      destruct (rd_feed_piece (S (length p)) true keep strict isreq bufsz r p) as [r1 e1].
      rewrite app_assoc in Htot.
      assert (H2: forall u1, sim bufsz r1 u1 (seen ++ p) ->
                agrees (rd_feed_all true keep strict isreq bufsz r1 ps) u1 (concat ps) (seen ++ p))
        by (intros u1 S1; exact (IH _ future _ _ Htot S1)).
      destruct (rd_feed_all true keep strict isreq bufsz r1 ps) as [r2 e2].
      exact (agrees_seq (r1, e1) (r2, e2) u p (concat ps) _ seen eq_refl H1 H2).
  Qed.
End Sim.

(* the buffer is transparent: a stream whose lines fit is parsed, through the
   bounded buffer and in whatever pieces it arrives, exactly as the unbounded
   parser parses the whole stream at once *)
Theorem rd_buffer_transparent keep strict isreq bufsz pieces : lines_fit bufsz (concat pieces) ->
  let '(r, e1) := rd_feed_all true keep strict isreq bufsz rd_init pieces in
  let '(u, e2) := http_feed keep strict isreq hfeed_init (concat pieces) in
  e1 = e2 /\ rd_conn r = hf_conn u /\ rd_done r = hf_done u.
Proof.
  intros Hfit.
  (* the empty stretch holds no line feed: the buffer has room *)
  assert (Hb: (0 < bufsz)%nat) by (apply (Hfit [] [] (concat pieces)); [reflexivity|intros []]).
  destruct (rd_all_sim keep strict isreq bufsz (concat pieces) Hfit pieces [] [] rd_init hfeed_init) as [E S].
  { cbn [app]. rewrite app_nil_r. reflexivity. }
  { unfold sim, rd_init, hfeed_init. cbn. repeat split; auto. exists []. reflexivity. }
  destruct (rd_feed_all true keep strict isreq bufsz rd_init pieces) as [r e1].
  destruct (http_feed keep strict isreq hfeed_init (concat pieces)) as [u e2].
  destruct S as (A & B & _). auto.
Qed.

Corollary rd_segmentation_independent keep strict isreq bufsz p1 p2 :
  concat p1 = concat p2 -> lines_fit bufsz (concat p1) ->
  snd (rd_feed_all true keep strict isreq bufsz rd_init p1) = snd (rd_feed_all true keep strict isreq bufsz rd_init p2) /\
  rd_conn (fst (rd_feed_all true keep strict isreq bufsz rd_init p1)) =
  rd_conn (fst (rd_feed_all true keep strict isreq bufsz rd_init p2)).
Proof.
  intros Hc Hfit.
  pose proof (rd_buffer_transparent keep strict isreq bufsz p1 Hfit) as T1.
  rewrite Hc in Hfit.
  pose proof (rd_buffer_transparent keep strict isreq bufsz p2 Hfit) as T2.
  rewrite Hc in T1.
  destruct (rd_feed_all true keep strict isreq bufsz rd_init p1) as [r1 e1].
  destruct (rd_feed_all true keep strict isreq bufsz rd_init p2) as [r2 e2].
  destruct (http_feed keep strict isreq hfeed_init (concat p2)) as [u e].
  destruct T1 as (-> & A1 & _). destruct T2 as (-> & A2 & _). cbn. split; [reflexivity|congruence].
Qed.

(* the order "test for a full buffer, then pull up" makes the result depend on the cuts *)
Definition small_req : list byte :=
  [71;69;84;32;47;32;72;84;84;80;47;49;46;49;13;10] ++                       (* "GET / HTTP/1.1\r\n" *)
  concat (repeat [65;58;32;98;99;13;10] 5) ++ [13;10].                        (* 5 x "A: bc\r\n", "\r\n" *)
(* every line of small_req is at most 16 bytes long; buffer of 40 bytes *)
Lemma test_before_pullup_depends_on_cuts :
  (let '(r, e) := rd_feed_all false true true true 40 rd_init [small_req] in get_status (rd_conn r) = 431) /\
  (let '(r, e) := rd_feed_all false true true true 40 rd_init [firstn 30 small_req; skipn 30 small_req] in
     get_status (rd_conn r) = 200) /\
  (let '(r, e) := rd_feed_all true true true true 40 rd_init [small_req] in get_status (rd_conn r) = 200) /\
  (let '(r, e) := rd_feed_all true true true true 40 rd_init [firstn 30 small_req; skipn 30 small_req] in
     get_status (rd_conn r) = 200).
Proof. vm_compute. repeat split. Qed.

(* a line that does not fit is refused whatever the cuts: 431 for a header line *)
Definition long_line_req : list byte :=
  [71;69;84;32;47;32;72;84;84;80;47;49;46;49;13;10] ++ [65;58;32] ++ repeat 98 60 ++ [13;10;13;10].
Lemma long_line_refused :
  (let '(r, e) := rd_feed_all true true true true 40 rd_init [long_line_req] in get_status (rd_conn r) = 431) /\
  (let '(r, e) := rd_feed_all true true true true 40 rd_init [firstn 17 long_line_req; skipn 17 long_line_req] in
     get_status (rd_conn r) = 431) /\
  (let '(r, e) := rd_feed_all true true true false 40 rd_init [long_line_req] in e = [HDone NNG_EPROTO (rd_conn r)] \/ True).
Proof. vm_compute. repeat split; auto. Qed.
