(* InprocProofs: the header pull-up is exact (every capacity / sharing case; the
   one exception -- an ignored allocation failure inside nni_msg_insert -- is
   exhibited), and the queue hands every message over at most once, in the
   order of the sends, pulled up, or drops it whole. *)
From Coq Require Import List Arith Lia Bool NArith Sorted.
From NngV Require Import Base.ListX Msg.MsgModel Msg.MsgProofs Codec.InprocModel.
Import ListNotations.

Lemma alloc_fail_cases sz f1 f2 : f1 || f2 = true -> msg_alloc sz f1 f2 = Some (ENOMEM, None).
Proof.
  intros H. unfold msg_alloc. destruct f1; [reflexivity|]. cbn [orb] in H. subst f2.
  destruct ((1024 <=? sz) && (N.land (N.of_nat sz) (N.of_nat sz - 1) =? 0)%N);
    unfold chunk_grow, ptr_inside, chunk0, ch_cap; cbn [ch_ptr ch_buf ch_len length Nat.leb]; reflexivity.
Qed.

Definition body_of (m : msg) : list byte := cabs (m_body m).

Theorem pull_up_spec chk m sh f1 f2 : Inv m ->
  exists r, ip_pull_up chk m sh f1 f2 = Some r /\
    match r with
    | Some m' => Inv m' /\ m_hdr m' = [] /\
        (body_of m' = m_hdr m ++ body_of m \/
         (chk = false /\ f2 = true /\ sh = false /\ (chunk_room (m_body m) <? length (m_hdr m)) = false /\ body_of m' = body_of m))
    | None => f1 || f2 = true
    end.
Proof.
  intros HI. pose proof HI as [HC HH]. unfold ip_pull_up.
  destruct ((chunk_room (m_body m) <? length (m_hdr m)) || sh) eqn:EB.
  - rewrite (msg_body_abs m HI). cbn [abs snd].
    pose proof (cabs_length _ HC) as LB.
    destruct (f1 || f2) eqn:EF.
    + rewrite (alloc_fail_cases _ f1 f2 EF). exists None. split; reflexivity.
    + apply orb_false_iff in EF. destruct EF; subst f1 f2.
      destruct (alloc_spec (msg_len m + length (m_hdr m))) as (m2 & HA & HI2 & Habs & _).
      rewrite HA. destruct HI2 as [HC2 HH2].
      pose proof HC2 as (off & Hp & Hlt & Hle). rewrite Hp.
      assert (L2: ch_len (m_body m2) = msg_len m + length (m_hdr m)).
      { rewrite <- (cabs_length _ HC2). unfold abs in Habs. inversion Habs as [[H0 H1]]. rewrite H1. apply zeros_length. }
      assert (LS: length (m_hdr m ++ cabs (m_body m)) = ch_len (m_body m2)).
      { rewrite app_length, LB, L2. unfold msg_len. lia. }
      unfold ch_cap in *.
      rewrite blit_Some by lia.
      eexists. split; [reflexivity|]. cbn beta iota.
      set (nb := firstn off (ch_buf (m_body m2)) ++ (m_hdr m ++ cabs (m_body m)) ++
                 skipn (off + length (m_hdr m ++ cabs (m_body m))) (ch_buf (m_body m2))).
      assert (Lnb: length nb = length (ch_buf (m_body m2))).
      { unfold nb. rewrite !app_length, firstn_length, skipn_length. rewrite app_length in LS. lia. }
      split; [|split; [reflexivity|left]].
      * split; [|cbn; lia]. exists off. unfold ch_cap. cbn [m_body ch_ptr ch_buf ch_len]. rewrite Lnb. auto.
      * unfold body_of, cabs, coff. cbn [m_body ch_ptr ch_buf ch_len]. rewrite <- LS.
        unfold nb. rewrite skipn_app_exact by (rewrite firstn_length; lia).
        apply firstn_app_exact. reflexivity.
  - apply orb_false_iff in EB. destruct EB as [ER ES]. subst sh.
    destruct (insert_total (m_body m) (m_hdr m) f2 HC) as [[rv c'] HIn]. rewrite HIn.
    destruct (insert_spec _ _ _ _ _ HC HIn) as [(-> & -> & ->)|(-> & HC' & Hab)].
    + destruct chk; cbn [andb negb N.eqb ENOMEM].
      * exists None. split; [reflexivity|]. apply orb_true_r.
      * eexists. split; [reflexivity|]. cbn beta iota.
        split; [split; [exact HC|cbn; lia]|]. split; [reflexivity|]. right. auto.
    + rewrite andb_false_r. eexists. split; [reflexivity|]. cbn beta iota.
      split; [split; [exact HC'|cbn; lia]|]. split; [reflexivity|]. left. exact Hab.
Qed.

(* no allocation fails: the result is exactly header ++ body, under every
   capacity / headroom / sharing case *)
Corollary pull_up_exact chk m sh : Inv m ->
  exists m', ip_pull_up chk m sh false false = Some (Some m') /\ Inv m' /\ abs m' = ([], m_hdr m ++ body_of m).
Proof.
  intros HI. destruct (pull_up_spec chk m sh false false HI) as (r & HR & HS).
  destruct r as [m'|]; [|discriminate].
  destruct HS as (HI' & HH & [HB|(_ & HF & _)]); [|discriminate].
  exists m'. split; [exact HR|]. split; [exact HI'|]. unfold abs. rewrite HH. f_equal. exact HB.
Qed.

(* nni_msg_insert can need an allocation although the room test passed (head
   room smaller than the header and less than 8 spare bytes): when that
   allocation fails the failure is ignored and the header is lost *)
Definition pullup_witness : msg :=
  mkMsg (repeat 7%N 40) (mkChunk (zeros 32 ++ repeat 9%N 20 ++ zeros 12) 20 (Some 32)).

Lemma pullup_witness_inv : Inv pullup_witness.
Proof. split; [exists 32; unfold ch_cap; cbn; repeat split; lia|cbn; unfold HDR_CAP; lia]. Qed.

Theorem pull_up_enomem_loses_header :
  exists m', ip_pull_up false pullup_witness false false true = Some (Some m') /\
             m_hdr m' = [] /\ body_of m' = repeat 9%N 20 /\ m_hdr pullup_witness = repeat 7%N 40.
Proof. eexists. split; [vm_compute; reflexivity|]. repeat split. Qed.

Definition seqs (ws : list wentry) : list nat := map w_seq ws.

(* invariant: queued sequence numbers strictly increase, are below q_next, and
   the queued messages are the ones sent under those numbers.  w_shared is not recorded: it only selects
   the branch of ip_pull_up, and handoff_ok holds of the result of either. *)
Definition QInv (sent : list (msg * bool * bool)) (q : ip_queue) : Prop :=
  StronglySorted lt (seqs (q_writers q)) /\
  Forall (fun w => w_seq w < q_next q /\ nth_error sent (w_seq w) = Some (w_msg w, w_fail1 w, w_fail2 w)) (q_writers q) /\
  q_next q = length sent.

Definition below (o : list nat) (ws : list wentry) : Prop :=
  forall s w, In s o -> In w ws -> s < w_seq w.

Lemma fate_app a b : fate_seqs (a ++ b) = fate_seqs a ++ fate_seqs b.
Proof. unfold fate_seqs. apply flat_map_app. Qed.
Lemma handoffs_app a b : handoffs (a ++ b) = handoffs a ++ handoffs b.
Proof. unfold handoffs. apply flat_map_app. Qed.
Lemma drops_app a b : drops (a ++ b) = drops a ++ drops b.
Proof. unfold drops. apply flat_map_app. Qed.

Lemma sorted_app_lt (a b : list nat) :
  StronglySorted lt a -> StronglySorted lt b -> (forall x y, In x a -> In y b -> x < y) ->
  StronglySorted lt (a ++ b).
Proof.
  induction a as [|x a IH]; intros Ha Hb Hab; [exact Hb|].
  inversion Ha as [|? ? Ha' Hx]; subst. cbn [app]. constructor.
  - apply IH; auto. intros; apply Hab; [right|]; assumption.
  - apply Forall_app. split; [exact Hx|]. apply Forall_forall. intros y Hy. apply Hab; [left; reflexivity|exact Hy].
Qed.

Definition handoff_ok (chk : bool) (sent : list (msg * bool * bool)) (sm : nat * msg) : Prop :=
  exists m f1 f2, nth_error sent (fst sm) = Some (m, f1, f2) /\ Inv (snd sm) /\ m_hdr (snd sm) = [] /\
            (body_of (snd sm) = m_hdr m ++ body_of m \/ (chk = false /\ f2 = true /\ body_of (snd sm) = body_of m)).
Definition drop_ok (sent : list (msg * bool * bool)) (s : nat) : Prop :=
  exists m f1 f2, nth_error sent s = Some (m, f1, f2) /\ f1 || f2 = true.

(* the hand-off loop: what leaves the queue is a front segment of the writers,
   in order; each handed-off message is the pull-up of the queued one *)
Lemma run_loop_spec chk sent : forall fuel q, QInv sent q -> Forall (fun w => Inv (w_msg w)) (q_writers q) ->
  exists q' o, run_loop chk fuel q = Some (q', o) /\ QInv sent q' /\
    Forall (fun w => Inv (w_msg w)) (q_writers q') /\
    (exists n, fate_seqs o = seqs (firstn n (q_writers q)) /\ q_writers q' = skipn n (q_writers q)) /\
    q_next q' = q_next q /\ q_closed q' = q_closed q /\
    Forall (handoff_ok chk sent) (handoffs o) /\ Forall (drop_ok sent) (drops o).
Proof.
  induction fuel as [|fuel IH]; intros q HQ HM; cbn [run_loop].
  (* out of fuel, no reader, or no writer: the loop stops where it is *)
  { exists q, []. split; [reflexivity|]. split; [exact HQ|]. split; [exact HM|].
    split; [exists 0; split; reflexivity|]. repeat split; constructor. }
  destruct (q_readers q) as [|rd rds] eqn:ER.
  { exists q, []. split; [reflexivity|]. split; [exact HQ|]. split; [exact HM|].
    split; [exists 0; split; reflexivity|]. repeat split; constructor. }
  destruct (q_writers q) as [|w ws] eqn:EW.
  { exists q, []. split; [reflexivity|]. split; [exact HQ|]. rewrite EW. split; [exact HM|].
    split; [exists 0; split; reflexivity|]. repeat split; constructor. }
  destruct HQ as (HS & HF & HN). rewrite EW in HS, HF.
  pose proof (Forall_inv HM) as HIw. pose proof (Forall_inv_tail HM) as HMt. cbv beta in HIw.
  pose proof (Forall_inv HF) as [Hw1 Hw2]. pose proof (Forall_inv_tail HF) as HFt.
  cbn [seqs map] in HS. inversion HS as [|? ? HSt HSx]; subst.
  destruct (pull_up_spec chk (w_msg w) (w_shared w) (w_fail1 w) (w_fail2 w) HIw) as (r & HR & HRS).
  rewrite HR.
  (* the writer leaves in both cases; the reader only when the pull-up succeeded *)
  destruct (IH (mkQ (match r with Some _ => rds | None => rd :: rds end) ws (q_closed q) (q_next q)))
    as (q' & o & HRun & HQ' & HM' & (n & Hn1 & Hn2) & HN' & HC' & HH & HD);
    [split; [exact HSt|split; [exact HFt|exact HN]]|exact HMt|].
  cbn [q_writers] in Hn1, Hn2.
  assert (HN4: exists n', w_seq w :: fate_seqs o = seqs (firstn n' (w :: ws)) /\ q_writers q' = skipn n' (w :: ws)).
  { exists (S n). cbn [firstn skipn seqs map]. split; [f_equal; exact Hn1|exact Hn2]. }
  destruct r as [pu|]; rewrite HRun; eexists _, _.
  - split; [reflexivity|]. split; [exact HQ'|]. split; [exact HM'|]. split; [exact HN4|].
    split; [exact HN'|]. split; [exact HC'|]. cbn [handoffs drops flat_map app].
    split; [|exact HD]. constructor; [|exact HH].
    exists (w_msg w), (w_fail1 w), (w_fail2 w). cbn [fst snd]. destruct HRS as (HIp & HHp & HBp).
    split; [exact Hw2|]. split; [exact HIp|]. split; [exact HHp|].
    destruct HBp as [HB|(HCk & HF2 & _ & _ & HB)]; [left; exact HB|right; split; [assumption|split; assumption]].
  - split; [reflexivity|]. split; [exact HQ'|]. split; [exact HM'|]. split; [exact HN4|].
    split; [exact HN'|]. split; [exact HC'|]. cbn [handoffs drops flat_map app].
    split; [exact HH|]. constructor; [|exact HD].
    exists (w_msg w), (w_fail1 w), (w_fail2 w). split; [exact Hw2|exact HRS].
Qed.


(* the converse of sorted_app_lt *)
Lemma sorted_app_inv (a b : list nat) : StronglySorted lt (a ++ b) ->
  StronglySorted lt a /\ forall x y, In x a -> In y b -> x < y.
Proof.
  induction a as [|u a IH]; cbn [app]; intros H; [split; [constructor|intros x y []]|].
  inversion H as [|? ? H1 H2]; subst. destruct (IH H1) as [Sa Lt]. apply Forall_app in H2. destruct H2 as [Fa Fb].
  split; [constructor; assumption|].
  intros x y [<-|Hx] Hy; [exact (proj1 (Forall_forall _ _) Fb y Hy)|apply Lt; assumption].
Qed.

Lemma sorted_cut (l : list nat) n : StronglySorted lt l ->
  StronglySorted lt (firstn n l) /\ forall x y, In x (firstn n l) -> In y (skipn n l) -> x < y.
Proof. intros H. apply sorted_app_inv. rewrite firstn_skipn. exact H. Qed.

Lemma seqs_firstn ws n : seqs (firstn n ws) = firstn n (seqs ws).
Proof. unfold seqs. symmetry. apply firstn_map. Qed.
Lemma seqs_skipn ws n : seqs (skipn n ws) = skipn n (seqs ws).
Proof. unfold seqs. symmetry. apply skipn_map. Qed.

(* outputs that only complete aios with an error: nothing leaves through the hand-off *)
Definition quiet (o : list ip_out) : Prop := fate_seqs o = [] /\ handoffs o = [] /\ drops o = [].

Lemma quiet_fail_map {A} (f : A -> aioid) rv (l : list A) : quiet (map (fun x => OFail (f x) rv) l).
Proof. induction l as [|x l IH]; [repeat split|exact IH]. Qed.

Lemma run_closed_quiet q : quiet (snd (run_closed q)).
Proof.
  destruct (quiet_fail_map (fun a => a) IP_ECLOSED (q_readers q)) as (A1 & A2 & A3).
  destruct (quiet_fail_map w_aio IP_ECLOSED (q_writers q)) as (B1 & B2 & B3).
  unfold quiet, run_closed. cbn [snd]. rewrite fate_app, handoffs_app, drops_app, A1, A2, A3. auto.
Qed.

(* what one operation guarantees, relative to the writers [ws] it started from:
   the messages that left are a sorted selection of [ws], all below the ones still queued *)
Definition step_post (chk : bool) (sent : list (msg * bool * bool)) (ws : list wentry) (q' : ip_queue) (o : list ip_out) : Prop :=
  QInv sent q' /\ Forall (fun w => Inv (w_msg w)) (q_writers q') /\
  StronglySorted lt (fate_seqs o) /\ (forall s, In s (fate_seqs o) -> s < q_next q') /\
  below (fate_seqs o) (q_writers q') /\
  (forall s, In s (fate_seqs o) -> exists w, In w ws /\ w_seq w = s) /\ incl (q_writers q') ws /\
  Forall (handoff_ok chk sent) (handoffs o) /\ Forall (drop_ok sent) (drops o).

Lemma quiet_post chk sent ws q' o : quiet o -> QInv sent q' -> Forall (fun w => Inv (w_msg w)) (q_writers q') ->
  incl (q_writers q') ws -> step_post chk sent ws q' o.
Proof.
  intros (F & H & D) HQ HM HW. unfold step_post, below. rewrite F, H, D.
  split; [exact HQ|]. split; [exact HM|]. split; [constructor|]. split; [intros s []|]. split; [intros s w []|].
  split; [intros s []|]. split; [exact HW|split; constructor].
Qed.

(* inproc_queue_run: a closed queue fails everybody; an open one hands over a front segment of the writers *)
Lemma queue_run_spec chk sent q : QInv sent q -> Forall (fun w => Inv (w_msg w)) (q_writers q) ->
  exists q' o, queue_run chk q = Some (q', o) /\ q_next q' = q_next q /\ step_post chk sent (q_writers q) q' o.
Proof.
  intros HQ HM. unfold queue_run. destruct (q_closed q).
  - pose proof (run_closed_quiet q) as Q. unfold run_closed in *. cbn [snd q_writers q_readers length run_loop] in *.
    eexists _, _. split; [reflexivity|]. split; [reflexivity|]. rewrite app_nil_r.
    apply quiet_post; [exact Q| |constructor|intros w []].
    split; [constructor|split; [constructor|exact (proj2 (proj2 HQ))]].
  - destruct (run_loop_spec chk sent (S (length (q_writers q))) q HQ HM)
      as (q' & o & HRun & HQ' & HM' & (n & Hn1 & Hn2) & HN' & _ & HH & HD).
    rewrite HRun. exists q', o. split; [reflexivity|]. split; [exact HN'|].
    destruct HQ as (HS & HF & _).
    assert (Hin: forall s, In s (fate_seqs o) -> exists w, In w (q_writers q) /\ w_seq w = s).
    { intros s Hs. rewrite Hn1, seqs_firstn in Hs. apply in_firstn, in_map_iff in Hs.
      destruct Hs as (w & <- & Hw). exists w. auto. }
    split; [exact HQ'|]. split; [exact HM'|]. split; [rewrite Hn1, seqs_firstn; apply sorted_cut; exact HS|].
    split; [|split; [|split; [exact Hin|split; [|split; [exact HH|exact HD]]]]].
    + intros s Hs. destruct (Hin s Hs) as (w & Hw & <-). rewrite HN'. apply (proj1 (Forall_forall _ _) HF w Hw).
    + intros s w Hs Hw. rewrite Hn1, seqs_firstn in Hs. rewrite Hn2 in Hw.
      apply (proj2 (sorted_cut _ n HS)); [exact Hs|].
      rewrite <- seqs_skipn. apply in_map. exact Hw.
    + intros w Hw. rewrite Hn2 in Hw. eapply in_skipn. exact Hw.
Qed.

(* one operation; [extra]: the writer it appended, if any *)
Lemma step_spec chk sent q op : QInv sent q -> Forall (fun w => Inv (w_msg w)) (q_writers q) ->
  (forall a m sh f1 f2, op = ISend a m sh f1 f2 -> Inv m) ->
  exists q' o extra, ip_step chk q op = Some (q', o) /\ Forall (fun w => w_seq w = q_next q) extra /\
    q_next q <= q_next q' /\ step_post chk (sent ++ sent_msgs [op]) (q_writers q ++ extra) q' o.
Proof.
  intros HQ HM HOp.
  destruct op as [a m sh f1 f2|a|a rv|]; cbn [ip_step sent_msgs]; rewrite ?app_nil_r.
  - set (new := mkWent a (q_next q) m sh f1 f2).
    set (q0 := mkQ (q_readers q) (q_writers q ++ [new]) (q_closed q) (S (q_next q))).
    destruct HQ as (HS & HF & HN).
    assert (HQ0: QInv (sent ++ [(m, f1, f2)]) q0).
    { unfold QInv, q0. cbn [q_writers q_next]. split; [|split].
      - unfold seqs. rewrite map_app. apply sorted_app_lt; [exact HS|repeat constructor|].
        intros x y Hx Hy. cbn in Hy. destruct Hy as [<-|[]].
        apply in_map_iff in Hx. destruct Hx as (w & <- & Hw).
        apply (proj1 (Forall_forall _ _) HF w Hw).
      - apply Forall_app. split.
        + eapply Forall_impl; [|exact HF]. intros w [H1 H2]. split; [lia|].
          rewrite nth_error_app1 by (rewrite <- HN; exact H1). exact H2.
        + constructor; [|constructor]. cbn [w_seq w_msg new]. split; [lia|].
          rewrite nth_error_app2 by lia. rewrite HN, Nat.sub_diag. reflexivity.
      - rewrite app_length. cbn. lia. }
    assert (HM0: Forall (fun w => Inv (w_msg w)) (q_writers q0)).
    { apply Forall_app. split; [exact HM|]. constructor; [|constructor]. exact (HOp _ _ _ _ _ eq_refl). }
    destruct (queue_run_spec chk _ q0 HQ0 HM0) as (q' & o & HR & HN' & HP).
    exists q', o, [new]. split; [exact HR|]. split; [repeat constructor|]. split; [rewrite HN'; cbn; lia|exact HP].
  - destruct (queue_run_spec chk sent (mkQ (q_readers q ++ [a]) (q_writers q) (q_closed q) (q_next q)) HQ HM)
      as (q' & o & HR & HN' & HP).
    exists q', o, []. rewrite app_nil_r. split; [exact HR|]. split; [constructor|]. split; [rewrite HN'; cbn; lia|exact HP].
  - destruct (existsb (N.eqb a) (q_readers q) || existsb (fun w => N.eqb a (w_aio w)) (q_writers q)).
    + eexists _, _, []. rewrite app_nil_r. split; [reflexivity|]. split; [constructor|]. split; [cbn; lia|].
      destruct HQ as (HS & HF & HN).
      apply quiet_post; cbn [q_writers]; [repeat split| | |apply incl_filter].
      * split; [|split; [|exact HN]]; cbn [q_writers q_next].
        -- unfold seqs in *. clear -HS. induction (q_writers q) as [|w ws IH]; [constructor|].
           cbn [map] in HS. inversion HS; subst. cbn [filter].
           destruct (negb (a =? w_aio w)%N); [|apply IH; assumption].
           cbn [map]. constructor; [apply IH; assumption|].
           apply Forall_forall. intros y Hy. apply in_map_iff in Hy. destruct Hy as (w' & <- & Hw').
           apply filter_In in Hw'. destruct Hw' as [Hw' _].
           eapply Forall_forall; [eassumption|]. apply in_map. exact Hw'.
        -- exact (incl_Forall (incl_filter _ _) HF).
      * exact (incl_Forall (incl_filter _ _) HM).
    + exists q, [], []. rewrite app_nil_r. split; [reflexivity|]. split; [constructor|]. split; [lia|].
      apply quiet_post; [repeat split|exact HQ|exact HM|intros w Hw; exact Hw].
  - eexists _, _, []. rewrite app_nil_r. split; [reflexivity|]. split; [constructor|]. split; [cbn; lia|].
    apply quiet_post; [apply run_closed_quiet| |constructor|intros w []].
    split; [constructor|split; [constructor|exact (proj2 (proj2 HQ))]].
Qed.

Definition sends_inv (ops : list ip_op) : Prop :=
  forall a m sh f1 f2, In (ISend a m sh f1 f2) ops -> Inv m.

Lemma sent_msgs_cons op r : sent_msgs (op :: r) = sent_msgs [op] ++ sent_msgs r.
Proof. destruct op; reflexivity. Qed.

Lemma handoff_ok_mono chk sent ext sm : handoff_ok chk sent sm -> handoff_ok chk (sent ++ ext) sm.
Proof.
  intros (m & f1 & f2 & H1 & H2). exists m, f1, f2. split; [|exact H2].
  rewrite nth_error_app1; [exact H1|]. apply nth_error_Some. congruence.
Qed.
Lemma drop_ok_mono sent ext s : drop_ok sent s -> drop_ok (sent ++ ext) s.
Proof.
  intros (m & f1 & f2 & H1 & H2). exists m, f1, f2. split; [|exact H2].
  rewrite nth_error_app1; [exact H1|]. apply nth_error_Some. congruence.
Qed.

Lemma run_spec chk : forall ops sent q, QInv sent q -> Forall (fun w => Inv (w_msg w)) (q_writers q) ->
  sends_inv ops ->
  exists q' outs, ip_run chk q ops = Some (q', outs) /\
    StronglySorted lt (fate_seqs outs) /\
    (forall s, In s (fate_seqs outs) -> (exists w, In w (q_writers q) /\ w_seq w = s) \/ q_next q <= s) /\
    Forall (handoff_ok chk (sent ++ sent_msgs ops)) (handoffs outs) /\
    Forall (drop_ok (sent ++ sent_msgs ops)) (drops outs).
Proof.
  induction ops as [|op ops IH]; intros sent q HQ HM HS.
  - exists q, []. cbn [ip_run fate_seqs handoffs drops flat_map]. split; [reflexivity|].
    split; [constructor|]. split; [intros s []|split; constructor].
  - cbn [ip_run].
    destruct (step_spec chk sent q op HQ HM) as (q1 & o1 & extra & HStep & HEx & HNx & HQ1 & HM1 & HSo & HLt & HBel & HOrig & HW1 & HH1 & HD1).
    { intros a m sh f1 f2 ->. eapply HS. left. reflexivity. }
    assert (HSrc: forall w, In w (q_writers q ++ extra) -> In w (q_writers q) \/ w_seq w = q_next q).
    { intros w Hw. apply in_app_or in Hw. destruct Hw as [Hw|Hw]; [left; exact Hw|right].
      apply (proj1 (Forall_forall _ _) HEx w Hw). }
    rewrite HStep.
    destruct (IH (sent ++ sent_msgs [op]) q1 HQ1 HM1) as (q2 & o2 & HRun & HSo2 & HOrig2 & HH2 & HD2).
    { intros a m sh f1 f2 Hin. eapply HS. right. exact Hin. }
    rewrite HRun. exists q2, (o1 ++ o2). split; [reflexivity|].
    rewrite fate_app, handoffs_app, drops_app, sent_msgs_cons, app_assoc.
    split; [|split; [|split]].
    + apply sorted_app_lt; [exact HSo|exact HSo2|].
      intros x y Hx Hy. destruct (HOrig2 y Hy) as [(w & Hw & <-)|Hge].
      * apply HBel; assumption.
      * specialize (HLt x Hx). lia.
    + intros s Hs. apply in_app_or in Hs. destruct Hs as [Hs|Hs].
      * destruct (HOrig s Hs) as (w & Hw & <-). destruct (HSrc w Hw) as [H|H]; [left; exists w; auto|right; lia].
      * destruct (HOrig2 s Hs) as [(w & Hw & <-)|Hge]; [|right; lia].
        destruct (HSrc w (HW1 w Hw)) as [H|H]; [left; exists w; auto|right; lia].
    + apply Forall_app. split; [|exact HH2].
      eapply Forall_impl; [|exact HH1]. intros sm. apply handoff_ok_mono.
    + apply Forall_app. split; [|exact HD2].
      eapply Forall_impl; [|exact HD1]. intros sm. apply drop_ok_mono.
Qed.

Lemma sorted_lt_nodup (l : list nat) : StronglySorted lt l -> NoDup l.
Proof.
  induction 1 as [|x l HS IH HF]; constructor; [|exact IH].
  intros Hin. pose proof (proj1 (Forall_forall _ _) HF x Hin). lia.
Qed.

(* Every history of sends, receives, cancellations and closes of one queue,
   under every allocation oracle: the run never steps outside an array or a
   buffer; the messages that leave through the hand-off do so in the order of
   their sends, each at most once (delivered or dropped, never both); a dropped
   message had an allocation fail; a delivered message is the one sent under
   that number with an empty header and its body = header ++ body -- or, only
   where the chunk allocation failed (inside nni_msg_insert, whose result is
   ignored), the body alone (pull_up_enomem_loses_header). *)
Theorem fifo_once chk ops : sends_inv ops ->
  exists q outs, ip_run chk ip_init ops = Some (q, outs) /\
    StronglySorted lt (fate_seqs outs) /\ NoDup (fate_seqs outs) /\
    Forall (handoff_ok chk (sent_msgs ops)) (handoffs outs) /\ Forall (drop_ok (sent_msgs ops)) (drops outs).
Proof.
  intros HS.
  destruct (run_spec chk ops [] ip_init) as (q & outs & HR & HSo & _ & HH & HD); auto.
  - split; [constructor|]. split; [constructor|reflexivity].
  - constructor.
  - exists q, outs. split; [exact HR|]. split; [exact HSo|]. split; [apply sorted_lt_nodup; exact HSo|].
    split; [exact HH|exact HD].
Qed.

(* without allocation failures nothing is dropped and every hand-off is exact *)
Definition no_alloc_failure (ops : list ip_op) : Prop :=
  forall a m sh f1 f2, In (ISend a m sh f1 f2) ops -> f1 = false /\ f2 = false.

Lemma sent_flags ops s m f1 f2 : no_alloc_failure ops -> nth_error (sent_msgs ops) s = Some (m, f1, f2) ->
  f1 = false /\ f2 = false.
Proof.
  revert s; induction ops as [|op ops IH]; intros s HN H; [destruct s; discriminate|].
  assert (HN': no_alloc_failure ops) by (intros a' m' sh' g1 g2 Hin; eapply HN; right; exact Hin).
  destruct op as [a m0 sh g1 g2| | |]; cbn [sent_msgs] in H; try (eapply IH; eassumption).
  destruct s as [|s]; [|eapply IH; eassumption]. cbn in H. inversion H; subst.
  eapply HN. left. reflexivity.
Qed.

Theorem fifo_exact_no_failure chk ops : sends_inv ops -> no_alloc_failure ops ->
  exists q outs, ip_run chk ip_init ops = Some (q, outs) /\
    StronglySorted lt (map fst (handoffs outs)) /\ drops outs = [] /\
    Forall (fun sm => exists m f1 f2, nth_error (sent_msgs ops) (fst sm) = Some (m, f1, f2) /\
                      abs (snd sm) = ([], m_hdr m ++ body_of m)) (handoffs outs).
Proof.
  intros HS HN. destruct (fifo_once chk ops HS) as (q & outs & HR & HSo & _ & HH & HD).
  exists q, outs. split; [exact HR|].
  assert (D0: drops outs = []).
  { destruct (drops outs) as [|s r]; [reflexivity|]. exfalso.
    pose proof (Forall_inv HD) as (m & f1 & f2 & H1 & H2).
    destruct (sent_flags _ _ _ _ _ HN H1); subst. discriminate. }
  split; [|split; [exact D0|]].
  - assert (E: fate_seqs outs = map fst (handoffs outs)).
    { clear -D0. induction outs as [|x outs IH]; [reflexivity|].
      unfold fate_seqs, handoffs, drops in *. cbn [flat_map] in *.
      destruct x; cbn [app map fst] in *; try (apply IH; exact D0); [f_equal; apply IH; exact D0|discriminate]. }
    rewrite <- E. exact HSo.
  - eapply Forall_impl; [|exact HH]. intros sm (m & f1 & f2 & H1 & HI & HHd & HB).
    exists m, f1, f2. split; [exact H1|]. unfold abs. rewrite HHd. f_equal.
    destruct HB as [HB|(_ & HF2 & _)]; [exact HB|].
    destruct (sent_flags _ _ _ _ _ HN H1); subst. discriminate.
Qed.

(* the repaired pull-up: every message that leaves the queue is delivered with
   header ++ body or dropped whole (and then an allocation had failed) *)
Theorem fifo_whole_or_nothing ops : sends_inv ops ->
  exists q outs, ip_run true ip_init ops = Some (q, outs) /\
    StronglySorted lt (fate_seqs outs) /\ NoDup (fate_seqs outs) /\
    Forall (fun sm => exists m f1 f2, nth_error (sent_msgs ops) (fst sm) = Some (m, f1, f2) /\
                      abs (snd sm) = ([], m_hdr m ++ body_of m)) (handoffs outs) /\
    Forall (drop_ok (sent_msgs ops)) (drops outs).
Proof.
  intros HS. destruct (fifo_once true ops HS) as (q & outs & HR & HSo & HND & HH & HD).
  exists q, outs. split; [exact HR|]. split; [exact HSo|]. split; [exact HND|]. split; [|exact HD].
  eapply Forall_impl; [|exact HH]. intros sm (m & f1 & f2 & H1 & HI & HHd & HB).
  exists m, f1, f2. split; [exact H1|]. unfold abs. rewrite HHd. f_equal.
  destruct HB as [HB|(HF & _)]; [exact HB|discriminate].
Qed.
