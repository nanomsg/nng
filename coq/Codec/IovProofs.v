(* IovProofs: nni_aio_iov_advance / nni_aio_iov_count against their list
   specification, and the send loop (every sequence of accepted counts hands
   exactly the denoted bytes to the stream). *)
From Coq Require Import List Arith Lia NArith.
From NngV Require Import Base.ListX Codec.IovModel.
Import ListNotations.
Local Open Scope N_scope.

(* the array always has its NNI_AIO_MAX_IOV slots; only a_nio varies *)
Definition WF (a : aiov) : Prop := length (a_iov a) = MAX_IOV /\ (a_nio a <= MAX_IOV)%nat.

Fixpoint total (l : list iov) : N :=
  match l with [] => 0 | e :: r => iv_len e + total r end.

(* the specification of nni_aio_iov_advance on the live part of the vector *)
Fixpoint drop_iov (n : N) (l : list iov) : list iov :=
  match l with
  | [] => []
  | e :: r =>
      if n =? 0 then l
      else if n <? iv_len e then mkIov (option_map (N.add n) (iv_ptr e)) (iv_len e - n) :: r
      else drop_iov (n - iv_len e) r
  end.

Lemma drop_iov_0 l : drop_iov 0 l = l.
Proof. destruct l; reflexivity. Qed.

Lemma arr_set_spec : forall l i v, (i < length l)%nat ->
  arr_set l i v = Some (firstn i l ++ v :: skipn (S i) l).
Proof.
  induction l as [|x l IH]; intros i v H; simpl in H; [lia|].
  destruct i as [|i]; [reflexivity|].
  cbn [arr_set]. rewrite IH by lia. reflexivity.
Qed.

Lemma arr_set_None : forall l i v, (length l <= i)%nat -> arr_set l i v = None.
Proof.
  induction l as [|x l IH]; intros i v H; [destruct i; reflexivity|].
  simpl in H. destruct i as [|i]; [lia|]. cbn [arr_set]. rewrite IH by lia. reflexivity.
Qed.

Lemma set_len (l : list iov) i v : (i < length l)%nat ->
  length (firstn i l ++ v :: skipn (S i) l) = length l.
Proof.
  intros H. rewrite app_length, firstn_length. cbn [length]. rewrite skipn_length. lia.
Qed.

Lemma arr_get_spec (l : list iov) i d : (i < length l)%nat -> arr_get l i = Some (nth i l d).
Proof. intros H. unfold arr_get. apply nth_error_nth'. exact H. Qed.

Lemma nth_skipn' {A} (l : list A) a i d : nth i (skipn a l) d = nth (a + i) l d.
Proof. apply nth_skipn_add. Qed.

Lemma skipn_S_nth {A} (l : list A) i d : (i < length l)%nat -> skipn i l = nth i l d :: skipn (S i) l.
Proof. intros H. apply skipn_nth_cons, nth_error_nth', H. Qed.

(* one entry overwritten: the list up to and after it *)
Lemma firstn_S_upd {A} (l : list A) i v : (i < length l)%nat ->
  firstn (S i) (firstn i l ++ v :: skipn (S i) l) = firstn i l ++ [v].
Proof.
  intros H. rewrite firstn_app, firstn_length, Nat.min_l by lia.
  rewrite firstn_all2 by (rewrite firstn_length; lia). replace (S i - i)%nat with 1%nat by lia. reflexivity.
Qed.
Lemma skipn_S_upd {A} (l : list A) i v : (i < length l)%nat ->
  skipn (S i) (firstn i l ++ v :: skipn (S i) l) = skipn (S i) l.
Proof.
  intros H. rewrite skipn_app, firstn_length, Nat.min_l by lia.
  rewrite skipn_all2 by (rewrite firstn_length; lia). replace (S i - i)%nat with 1%nat by lia. reflexivity.
Qed.

(* the shift-down loop moves entries i+1 .. i+k one place down *)
Lemma shift_down_spec : forall k l i, (k = 0 \/ i + k < length l)%nat ->
  shift_down l i k = Some (firstn i l ++ firstn k (skipn (S i) l) ++ skipn (i + k) l).
Proof.
  induction k as [|k IH]; intros l i H.
  - cbn [shift_down firstn app]. rewrite Nat.add_0_r, firstn_skipn. reflexivity.
  - assert (Hl: (i + S k < length l)%nat) by lia.
    cbn [shift_down].
    rewrite (arr_get_spec l (S i) iov_null) by lia.
    rewrite arr_set_spec by lia.
    set (l' := firstn i l ++ nth (S i) l iov_null :: skipn (S i) l).
    assert (Ll: length l' = length l) by (apply set_len; lia).
    assert (S1: forall j, (S i <= j)%nat -> skipn j l' = skipn j l).
    { intros j Hj. replace j with ((j - S i) + S i)%nat by lia. rewrite <- !skipn_skipn'.
      unfold l'. rewrite skipn_S_upd by lia. reflexivity. }
    rewrite IH by (right; lia). f_equal.
    unfold l' at 1. rewrite firstn_S_upd, !S1 by lia. replace (S i + k)%nat with (i + S k)%nat by lia.
    rewrite <- app_assoc. f_equal. cbn [app].
    rewrite (skipn_S_nth l (S i) iov_null) by lia. cbn [firstn]. reflexivity.
Qed.

Lemma count_from_spec : forall n l i, (i + n <= length l)%nat ->
  count_from l i n = Some (total (firstn n (skipn i l))).
Proof.
  induction n as [|n IH]; intros l i H; [reflexivity|].
  cbn [count_from]. rewrite (arr_get_spec l i iov_null) by lia.
  rewrite IH by lia.
  rewrite (skipn_S_nth l i iov_null) by lia. cbn [firstn total]. reflexivity.
Qed.

Lemma iov_count_spec a : WF a -> iov_count a = Some (total (live a)).
Proof.
  intros [HL HN]. unfold iov_count, live. rewrite count_from_spec by (simpl; lia). reflexivity.
Qed.

Lemma live_cons a : WF a -> (0 < a_nio a)%nat ->
  exists e r, live a = e :: r /\ arr_get (a_iov a) 0 = Some e /\ r = firstn (a_nio a - 1) (skipn 1 (a_iov a)).
Proof.
  intros [HL HN] H0. unfold live, MAX_IOV in *.
  destruct (a_iov a) as [|e l] eqn:E; [simpl in HL; lia|].
  destruct (a_nio a) as [|k]; [lia|].
  exists e, (firstn k l). replace (S k - 1)%nat with k by lia. cbn [firstn skipn]. repeat split; reflexivity.
Qed.

Lemma advance_loop_spec : forall fuel a n res,
  WF a -> (a_nio a < fuel)%nat -> n <= total (live a) ->
  exists a' r, advance_loop fuel a n res = Some (a', r) /\ WF a' /\
               live a' = drop_iov n (live a) /\ (a_nio a' <= a_nio a)%nat.
Proof.
  induction fuel as [|fuel IH]; intros a n res HW Hf Hn; [lia|].
  cbn [advance_loop].
  destruct (n =? 0) eqn:E0.
  { apply N.eqb_eq in E0. subst n. exists a, res. rewrite drop_iov_0. auto. }
  pose proof (proj1 (N.eqb_neq _ _) E0) as Hn0.
  destruct (a_nio a =? 0)%nat eqn:En.
  { apply Nat.eqb_eq in En. unfold live in Hn. rewrite En in Hn. cbn in Hn. lia. }
  apply Nat.eqb_neq in En.
  destruct (live_cons a HW ltac:(lia)) as (e0 & r & HLv & HG & Hr).
  rewrite HG. rewrite HLv in Hn. cbn [total] in Hn.
  destruct HW as [HL HN].
  cbn [drop_iov]. rewrite HLv. cbn [drop_iov].
  rewrite E0.
  destruct (n <? iv_len e0) eqn:Elt.
  - (* partial use of the first entry *)
    rewrite arr_set_spec by (rewrite HL; unfold MAX_IOV; lia).
    eexists _, _. split; [reflexivity|]. split; [|split].
    + split; cbn [a_iov a_nio]; [rewrite set_len; [exact HL|rewrite HL; unfold MAX_IOV; lia]|exact HN].
    + unfold live. cbn [a_iov a_nio firstn app].
      destruct (a_nio a) as [|k]; [lia|]. cbn [firstn]. f_equal.
      rewrite Hr. replace (S k - 1)%nat with k by lia. reflexivity.
    + cbn [a_nio]. lia.
  - apply N.ltb_ge in Elt.
    set (k := (a_nio a - 1)%nat).
    rewrite shift_down_spec by (rewrite HL; unfold MAX_IOV in *; lia).
    cbn [firstn app Nat.add].
    set (l1 := firstn k (skipn 1 (a_iov a)) ++ skipn k (a_iov a)).
    assert (L1: length l1 = length (a_iov a)).
    { unfold l1. rewrite app_length, firstn_length, !skipn_length, HL. unfold MAX_IOV in *. lia. }
    rewrite arr_set_spec by (rewrite L1, HL; unfold MAX_IOV in *; lia).
    set (l2 := firstn k l1 ++ iov_null :: skipn (S k) l1).
    assert (HW2: WF (mkAiov l2 k)).
    { split; cbn [a_iov a_nio]; [unfold l2; rewrite set_len; [lia|]|]; unfold MAX_IOV in *; lia. }
    assert (HLv2: live (mkAiov l2 k) = r).
    { unfold live. cbn [a_iov a_nio]. unfold l2. rewrite firstn_app_le, firstn_firstn, Nat.min_id by (rewrite firstn_length; lia).
      unfold l1. rewrite firstn_app_le, firstn_firstn, Nat.min_id by (rewrite firstn_length, skipn_length, HL; unfold MAX_IOV in *; lia).
      symmetry. exact Hr. }
    destruct (IH (mkAiov l2 k) (n - iv_len e0) (res - iv_len e0) HW2) as (a' & r' & HA & HW' & HLv' & Hle).
    { cbn [a_nio]. lia. }
    { rewrite HLv2. lia. }
    exists a', r'. split; [exact HA|]. split; [exact HW'|]. split.
    + rewrite HLv', HLv2. reflexivity.
    + cbn [a_nio] in Hle. lia.
Qed.

Theorem iov_advance_spec a n : WF a -> n <= total (live a) ->
  exists a' r, iov_advance a n = Some (a', r) /\ WF a' /\ live a' = drop_iov n (live a) /\
               (a_nio a' <= a_nio a)%nat.
Proof. intros HW Hn. unfold iov_advance. apply advance_loop_spec; auto. Qed.

Lemma total_drop : forall l n, n <= total l -> total (drop_iov n l) = total l - n.
Proof.
  induction l as [|e r IH]; intros n H; cbn [total drop_iov] in *; [lia|].
  destruct (n =? 0) eqn:E0; [apply N.eqb_eq in E0; subst; cbn [total]; lia|].
  destruct (n <? iv_len e) eqn:E1.
  - apply N.ltb_lt in E1. cbn [total iv_len]. lia.
  - apply N.ltb_ge in E1. rewrite IH by lia. lia.
Qed.

Lemma deref_length mem e d : deref mem e = Some d -> N.of_nat (length d) = iv_len e.
Proof.
  unfold deref. destruct (iv_ptr e) as [p|].
  - intros H. apply sub_length in H. destruct H as [H _]. rewrite H. apply N2Nat.id.
  - destruct (iv_len e =? 0) eqn:E; [|discriminate]. apply N.eqb_eq in E. intros H; inversion H. simpl. lia.
Qed.

Lemma iov_bytes_length : forall mem l b, iov_bytes mem l = Some b -> N.of_nat (length b) = total l.
Proof.
  induction l as [|e r IH]; intros b H; cbn [iov_bytes total] in *.
  - inversion H. reflexivity.
  - destruct (deref mem e) as [d|] eqn:D; [|discriminate].
    destruct (iov_bytes mem r) as [b'|] eqn:B; [|discriminate].
    inversion H; subst. rewrite app_length, Nat2N.inj_add, (deref_length _ _ _ D), (IH _ eq_refl). reflexivity.
Qed.

Lemma deref_advance mem e d n : deref mem e = Some d -> n < iv_len e ->
  deref mem (mkIov (option_map (N.add n) (iv_ptr e)) (iv_len e - n)) = Some (skipn (N.to_nat n) d).
Proof.
  unfold deref. cbn [iv_ptr iv_len]. intros H Hn.
  destruct (iv_ptr e) as [p|]; cbn [option_map].
  - unfold sub in *.
    destruct (N.to_nat p + N.to_nat (iv_len e) <=? length mem)%nat eqn:E; [|discriminate].
    apply Nat.leb_le in E. inversion H; subst d; clear H.
    assert (E2: (N.to_nat (n + p) + N.to_nat (iv_len e - n) <=? length mem)%nat = true) by (apply Nat.leb_le; lia).
    rewrite E2. f_equal.
    replace (N.to_nat (n + p)) with (N.to_nat n + N.to_nat p)%nat by lia.
    rewrite <- skipn_skipn'.
    replace (N.to_nat (iv_len e)) with (N.to_nat n + N.to_nat (iv_len e - n))%nat by lia.
    rewrite skipn_firstn_comm'. reflexivity.
  - destruct (iv_len e =? 0) eqn:E; [apply N.eqb_eq in E; lia|discriminate].
Qed.

Lemma iov_bytes_drop : forall mem l b n, iov_bytes mem l = Some b -> n <= total l ->
  iov_bytes mem (drop_iov n l) = Some (skipn (N.to_nat n) b).
Proof.
  induction l as [|e r IH]; intros b n H Hn; cbn [iov_bytes total drop_iov] in *.
  - inversion H. now rewrite skipn_nil.
  - destruct (deref mem e) as [d|] eqn:D; [|discriminate].
    destruct (iov_bytes mem r) as [b'|] eqn:B; [|discriminate].
    inversion H; subst b; clear H.
    pose proof (deref_length _ _ _ D) as LD.
    destruct (n =? 0) eqn:E0.
    { apply N.eqb_eq in E0; subst n. cbn [iov_bytes N.to_nat skipn]. now rewrite D, B. }
    destruct (n <? iv_len e) eqn:E1.
    + apply N.ltb_lt in E1. cbn [iov_bytes]. rewrite (deref_advance _ _ _ _ D E1), B.
      f_equal. rewrite skipn_app. replace (N.to_nat n - length d)%nat with 0%nat by lia. reflexivity.
    + apply N.ltb_ge in E1. rewrite (IH b' (n - iv_len e) eq_refl) by lia.
      f_equal. rewrite skipn_app_ge by lia. f_equal. lia.
Qed.

Definition prefix_of {A} (w b : list A) : Prop := w = firstn (length w) b.

(* Last conjunct: every positive count takes at least one byte, which is what bounds the number of
   completions (send_loop_finishes). *)
Theorem send_loop_spec : forall ks mem a b, WF a -> iov_bytes mem (live a) = Some b ->
  exists w a' fin, send_loop mem a ks = Some (w, a', fin) /\ WF a' /\ (a_nio a' <= a_nio a)%nat /\
    prefix_of w b /\ iov_bytes mem (live a') = Some (skipn (length w) b) /\
    (fin = true -> w = b) /\
    (fin = false -> Forall (fun k => 0 < k) ks -> (length ks <= length w)%nat /\ (ks <> [] -> (length w < length b)%nat)).
Proof.
  induction ks as [|k ks IH]; intros mem a b HW HB.
  - exists [], a, false. cbn [send_loop length skipn].
    split; [reflexivity|]. split; [exact HW|]. split; [lia|]. split; [reflexivity|]. split; [exact HB|].
    split; [discriminate|]. intros _ _. split; [cbn; lia|]. intros H; congruence.
  - cbn [send_loop]. rewrite (iov_count_spec a HW), HB.
    pose proof (iov_bytes_length _ _ _ HB) as LB.
    set (n := N.min k (total (live a))).
    assert (Hn: n <= total (live a)) by (unfold n; lia).
    unfold send_cb.
    destruct (iov_advance_spec a n HW Hn) as (a1 & r1 & HA & HW1 & HL1 & Hle1).
    rewrite HA, (iov_count_spec a1 HW1), HL1, (total_drop _ _ Hn).
    pose proof (iov_bytes_drop _ _ _ _ HB Hn) as HB1. rewrite <- HL1 in HB1.
    assert (Lf: length (firstn (N.to_nat n) b) = N.to_nat n) by (rewrite firstn_length; lia).
    destruct (0 <? total (live a) - n) eqn:Ec.
    + apply N.ltb_lt in Ec.
      destruct (IH mem a1 _ HW1 HB1) as (w & a2 & fin & HS & HW2 & Hle2 & HP & HB2 & HF & HNF).
      rewrite HS. exists (firstn (N.to_nat n) b ++ w), a2, fin.
      split; [reflexivity|]. split; [exact HW2|]. split; [lia|].
      assert (Lw: (length w <= length b - N.to_nat n)%nat).
      { unfold prefix_of in HP. rewrite HP, firstn_length, skipn_length. lia. }
      split; [|split; [|split]].
      * unfold prefix_of in *. rewrite app_length, Lf, firstn_skipn_split. f_equal. exact HP.
      * rewrite HB2, app_length, Lf, skipn_skipn'. f_equal. f_equal. lia.
      * intros Hfin. rewrite (HF Hfin). apply firstn_skipn.
      * intros Hfin HPos. pose proof (Forall_inv HPos) as Hk. pose proof (Forall_inv_tail HPos) as HPos'.
        cbv beta in Hk. destruct (HNF Hfin HPos') as [H1 H2].
        rewrite app_length, Lf. cbn [length].
        assert (1 <= n) by (unfold n; lia).
        split; [lia|]. intros _.
        destruct ks as [|k2 ks2].
        { cbn [send_loop] in HS. inversion HS; subst w. cbn [length]. lia. }
        { assert (Hx: k2 :: ks2 <> []) by discriminate. specialize (H2 Hx). rewrite skipn_length in H2. lia. }
    + apply N.ltb_ge in Ec.
      exists (firstn (N.to_nat n) b), a1, true.
      split; [reflexivity|]. split; [exact HW1|]. split; [exact Hle1|].
      split; [|split; [|split]].
      * unfold prefix_of. rewrite Lf. reflexivity.
      * rewrite Lf. exact HB1.
      * intros _. apply firstn_all2. lia.
      * discriminate.
Qed.

(* termination: with positive counts the operation finishes within |b| completions *)
Corollary send_loop_finishes ks mem a b : WF a -> iov_bytes mem (live a) = Some b ->
  Forall (fun k => 0 < k) ks -> ks <> [] -> (length b <= length ks)%nat ->
  exists a', send_loop mem a ks = Some (b, a', true).
Proof.
  intros HW HB HP Hne Hl.
  destruct (send_loop_spec ks mem a b HW HB) as (w & a' & fin & HS & _ & _ & _ & _ & HF & HNF).
  destruct fin.
  - rewrite (HF eq_refl) in HS. eauto.
  - destruct (HNF eq_refl HP) as [H1 H2]. specialize (H2 Hne). lia.
Qed.

Lemma copy_in_spec : forall src dst i, (i + length src <= length dst)%nat ->
  copy_in dst i src = Some (firstn i dst ++ src ++ skipn (i + length src) dst).
Proof.
  induction src as [|e r IH]; intros dst i H; cbn [copy_in length] in *.
  - rewrite Nat.add_0_r. cbn [app]. now rewrite firstn_skipn.
  - rewrite arr_set_spec by lia.
    set (d := firstn i dst ++ e :: skipn (S i) dst).
    assert (Ld: length d = length dst) by (apply set_len; lia).
    rewrite IH by lia. f_equal.
    unfold d at 1. rewrite firstn_S_upd, <- app_assoc by lia. f_equal. cbn [app]. f_equal. f_equal.
    replace (S i + length r)%nat with (length r + S i)%nat by lia.
    rewrite <- skipn_skipn'. unfold d. rewrite skipn_S_upd, skipn_skipn' by lia. f_equal. lia.
Qed.

Theorem set_iov_spec a src : WF a -> (length src <= MAX_IOV)%nat ->
  exists a', set_iov a src = Some (0, a') /\ WF a' /\ live a' = src /\ a_nio a' = length src.
Proof.
  intros [HL HN] Hs. unfold set_iov.
  assert (E: (MAX_IOV <? length src)%nat = false) by (apply Nat.ltb_ge; exact Hs). rewrite E.
  rewrite copy_in_spec by (rewrite HL; simpl; lia). cbn [firstn app Nat.add].
  eexists. split; [reflexivity|]. split.
  - split; cbn [a_iov a_nio]; [|exact Hs]. rewrite app_length, skipn_length. lia.
  - split; [|reflexivity]. unfold live. cbn [a_iov a_nio]. apply firstn_app_exact. reflexivity.
Qed.

Lemma WF_aiov0 : WF aiov0.
Proof. split; [apply repeat_length|]. cbn. unfold MAX_IOV. lia. Qed.
