(* SpConnProofs: totality and limits of the receive paths over arbitrary
   byte streams (C11). *)
From Coq Require Import List Arith Lia Bool NArith.
From NngV Require Import Base.ListX Base.Bytes Codec.Staged Codec.IovModel
  Codec.SpFrameModel Codec.SpFrameProofs Codec.SpNegoProofs Codec.SpHeaderProofs Codec.SpConnModel
  Proto.Common Proto.ReqRepBacktrace Proto.PairModel.
From NngV Require Proto.ReqRepProofs.
Import ListNotations.
Local Open Scope N_scope.

Section Limits.
  Variable cfg : rx_cfg.
  Let k := r_kind cfg.

  (* a length that passed the checks of head_decide *)
  Definition len_ok (len : N) : Prop :=
    msg_size_valid len = true /\ (0 < r_rcvmax cfg -> len <= r_rcvmax cfg).

  Definition ev_ok (e : rx_event) : Prop :=
    match e with
    | RAlloc n => len_ok n
    | RDeliver m => len_ok (N.of_nat (length m))
    | RError _ => True
    end.

  Definition phase_ok (ph : sp_phase) : Prop :=
    match ph with PBody len => len_ok len /\ len <> 0 | _ => True end.

  Lemma head_decide_ok head : let '(ev, r) := head_decide cfg head in
    Forall ev_ok ev /\ match r with Some len => len_ok len | None => True end.
  Proof.
    unfold head_decide.
    destruct (is_ipc (r_kind cfg) && negb (nth 0 head 0 =? 1)); [split; [repeat constructor|exact I]|].
    set (len := be_dec (firstn 8 (skipn (if is_ipc (r_kind cfg) then 1 else 0) head))).
    destruct (msg_size_valid len) eqn:EV; cbn [negb]; [|split; [repeat constructor|exact I]].
    destruct ((r_rcvmax cfg <? len) && (0 <? r_rcvmax cfg)) eqn:ER; [split; [repeat constructor|exact I]|].
    assert (HL: len_ok len).
    { split; [exact EV|]. intros Hpos. apply andb_false_iff in ER. destruct ER as [ER|ER].
      - apply N.ltb_ge in ER. exact ER.
      - apply N.ltb_ge in ER. lia. }
    destruct (r_allocmax cfg <? len).
    - split; [|exact I]. constructor; [exact HL|]. constructor; [exact I|constructor].
    - split; [|exact HL]. constructor; [exact HL|constructor].
  Qed.

  Lemma cb_ok ph data : phase_ok ph -> N.of_nat (length data) = sp_want k ph ->
    phase_ok (fst (sp_cb cfg ph data)) /\ Forall ev_ok (snd (sp_cb cfg ph data)).
  Proof.
    intros HP HL. destruct ph as [|len|]; cbn [sp_cb].
    - pose proof (head_decide_ok data) as H. destruct (head_decide cfg data) as [ev [len|]]; destruct H as [H1 H2].
      + destruct (len =? 0) eqn:E0; cbn [fst snd].
        * split; [exact I|]. apply Forall_app. split; [exact H1|]. constructor; [|constructor].
          cbn. split; [reflexivity|]. intros. lia.
        * apply N.eqb_neq in E0. split; [split; assumption|exact H1].
      + cbn [fst snd]. split; [exact I|exact H1].
    - cbn [fst snd]. split; [exact I|]. constructor; [|constructor].
      cbn [ev_ok]. cbn [sp_want] in HL. rewrite HL. exact (proj1 HP).
    - cbn [fst snd]. split; [exact I|constructor].
  Qed.

  (* every allocation the decoder asks for, and every message it delivers, is
     within NNI_MAX_STREAM_MSGSZ and within a non-zero RECVMAXSZ -- on every byte stream *)
  Theorem feed_events_ok d x : phase_ok (d_inner d) ->
    phase_ok (d_inner (fst (sp_feed cfg d x))) /\ Forall ev_ok (snd (sp_feed cfg d x)).
  Proof. apply (feed_inv _ _ (sp_want k) (sp_cb cfg) phase_ok ev_ok). intros ph data. apply cb_ok. Qed.

  (* a length field that is invalid, or above a non-zero RECVMAXSZ: the
     connection is closed with NNG_EMSGSIZE before anything is allocated; what
     follows on the stream is never looked at *)
  Theorem oversize_closes len rest :
    len < 2 ^ 64 ->
    msg_size_valid len = false \/ (0 < r_rcvmax cfg /\ r_rcvmax cfg < len) ->
    sp_feed cfg sp_dinit (tx_head k len ++ rest) = (mkD PDead [], [RError NNG_EMSGSIZE]).
  Proof.
    intros L64 HB. unfold sp_feed. rewrite feed_app. fold (sp_feed cfg).
    assert (HD: head_decide cfg (tx_head k len) = ([RError NNG_EMSGSIZE], None)).
    { rewrite head_decide_tx_eq by exact L64. destruct HB as [HB|[H1 H2]]; [rewrite HB; reflexivity|].
      apply N.ltb_lt in H1, H2. rewrite H1, H2. destruct (msg_size_valid len); reflexivity. }
    assert (F1: sp_feed cfg sp_dinit (tx_head k len) = (mkD PDead [], [RError NNG_EMSGSIZE])).
    { unfold sp_dinit. rewrite sp_feed_exact; cbn [app]; unfold sp_want; fold k.
      - unfold sp_cb. rewrite HD. reflexivity.
      - destruct k; cbn; lia.
      - apply tx_head_length. }
    rewrite F1, feed_dead. reflexivity.
  Qed.

  Definition rx_outcome_ok (st : rx_state) : Prop :=
    rx_posted st = false \/ exists n, iov_count (rx_aio st) = Some n /\ 0 < n.

  (* the receiver as coded is total on every stream, under every cutting *)
  Theorem rx_total_all : forall ps c d, R cfg c d -> phase_ok (d_inner d) ->
    exists c' ev, rx_feed_all cfg c ps = Some (c', ev) /\ Forall ev_ok ev /\ rx_outcome_ok c' /\
                  exists d', R cfg c' d' /\ phase_ok (d_inner d').
  Proof.
    induction ps as [|p ps IH]; intros c d HR HP.
    - exists c, []. split; [reflexivity|]. split; [constructor|]. split.
      + unfold rx_outcome_ok. destruct (rx_posted c) eqn:E; [right|left; reflexivity].
        destruct (R_count cfg c d HR E) as [H1 H2]. eauto.
      + eauto.
    - cbn [rx_feed_all].
      destruct (rx_feed_refines cfg c d p HR) as (c1 & e1 & HS & HR1 & HE1). rewrite HS.
      destruct (feed_events_ok d p HP) as [HP1 HF1].
      destruct (IH c1 _ HR1 HP1) as (c2 & e2 & HS2 & HF2 & HO & HD). rewrite HS2.
      exists c2, (e1 ++ e2). split; [reflexivity|]. split; [|split; assumption].
      apply Forall_app. split; [rewrite <- HE1; exact HF1|exact HF2].
  Qed.
End Limits.

Definition ConnInv (cfg : conn_cfg) (st : conn_state) : Prop :=
  match st with
  | CNego ng => exists acc, RxInv (r_kind (cc_rx cfg)) ng acc
  | _ => True
  end.

Lemma conn_frames_inv cfg d x : ConnInv cfg (fst (conn_frames cfg d x)).
Proof.
  unfold conn_frames. destruct (sp_feed (cc_rx cfg) d x) as [d' evs]. destruct (conn_events cfg evs) as [o' c'].
  destruct c'; exact I.
Qed.

Lemma conn_feed_total cfg st p : ConnInv cfg st ->
  exists st1 e1, conn_feed cfg st p = Some (st1, e1) /\ ConnInv cfg st1.
Proof.
  intros HI. destruct st as [ng|d|]; cbn [conn_feed].
  - destruct HI as [acc HI].
    destruct (nego_rx_feed_total _ ng acc p HI) as (ng' & o & rest & HS & HC). rewrite HS.
    destruct HC as [(HD & _ & HI' & _)|(HD & _)]; rewrite HD.
    + eexists _, _. split; [reflexivity|]. exists (acc ++ p). exact HI'.
    + destruct (existsb _ o); [|eexists _, _; split; [reflexivity|exact I]].
      exists (fst (conn_frames cfg sp_dinit rest)), (snd (conn_frames cfg sp_dinit rest)).
      rewrite <- surjective_pairing. split; [reflexivity|apply conn_frames_inv].
  - exists (fst (conn_frames cfg d p)), (snd (conn_frames cfg d p)).
    rewrite <- surjective_pairing. split; [reflexivity|apply conn_frames_inv].
  - eexists _, _. split; [reflexivity|exact I].
Qed.

(* every byte stream, every cutting: the connection's receive path is defined
   (no out-of-range access) and stays within its invariant *)
Theorem conn_total cfg : forall ps st, ConnInv cfg st ->
  exists st' ev, conn_feed_all cfg st ps = Some (st', ev) /\ ConnInv cfg st'.
Proof.
  induction ps as [|p ps IH]; intros st HI.
  - exists st, []. split; [reflexivity|exact HI].
  - cbn [conn_feed_all]. destruct (conn_feed_total cfg st p HI) as (st1 & e1 & HS & HI1). rewrite HS.
    destruct (IH st1 HI1) as (st2 & e2 & HS2 & HI2). rewrite HS2. eauto.
Qed.

Lemma conn_init_inv cfg : ConnInv cfg (conn_init cfg).
Proof. exists []. apply nego_sent_inv. Qed.

Lemma conn_closed_absorbs cfg : forall ps, conn_feed_all cfg CClosed ps = Some (CClosed, []).
Proof. induction ps as [|p ps IH]; [reflexivity|]. cbn [conn_feed_all conn_feed]. rewrite IH. reflexivity. Qed.

(* the negotiation phase under every cutting: nothing happens while fewer than 8 bytes have
   arrived; once they have, a verdict that does not name an acceptable peer closes the connection
   with NNG_EPROTO, whatever follows *)
Lemma conn_nego_all cfg : forall ps ng acc, RxInv (r_kind (cc_rx cfg)) ng acc ->
  let s := acc ++ concat ps in
  ((length s < 8)%nat -> exists ng', conn_feed_all cfg (CNego ng) ps = Some (CNego ng', [])) /\
  ((8 <= length s)%nat ->
   (forall peer, nego_verdict (firstn 8 s) = NReady peer -> peer_accept (cc_expect cfg) peer = false) ->
   conn_feed_all cfg (CNego ng) ps = Some (CClosed, [CClose NNG_EPROTO])).
Proof.
  induction ps as [|p ps IH]; intros ng acc HI; cbv zeta; cbn [concat conn_feed_all conn_feed].
  - rewrite app_nil_r. destruct HI as (_ & _ & _ & HA & _). split; [eauto|lia].
  - destruct (nego_rx_feed_total _ ng acc p HI) as (ng' & o & rest & HS & HC). rewrite HS.
    destruct HC as [(HD & _ & HI' & _)|(HD & Hge & _ & HO)]; rewrite HD.
    + destruct (IH ng' (acc ++ p) HI') as [S1 S2]. rewrite <- app_assoc in S1, S2. split.
      * intros HL. destruct (S1 HL) as [ng2 E]. rewrite E. eauto.
      * intros HL HV. rewrite (S2 HL HV). reflexivity.
    + split; [rewrite app_assoc, app_length; lia|]. intros _ HV.
      rewrite app_assoc, (firstn_app_le (acc ++ p)) in HV by exact Hge. rewrite HO. cbn [existsb orb].
      destruct (nego_verdict (firstn 8 (acc ++ p))) as [bs|nn|peer|rv]; cbv beta iota;
        rewrite ?(HV _ eq_refl), ?orb_false_r; cbv beta iota; rewrite conn_closed_absorbs; reflexivity.
Qed.

(* the first 8 bytes decide: anything but 00 'S' 'P' 00 <expected protocol> 00 00
   closes the connection with NNG_EPROTO and delivers nothing -- whatever
   follows, however the bytes are cut *)
Theorem conn_rejects_bad_header cfg ps : let s := concat ps in
  (8 <= length s)%nat -> bytes_ok (firstn 8 s) -> cc_expect cfg < 65536 ->
  firstn 8 s <> sp_header (cc_expect cfg) ->
  conn_feed_all cfg (conn_init cfg) ps = Some (CClosed, [CClose NNG_EPROTO]).
Proof.
  intros s HL HB HE HN.
  apply (conn_nego_all cfg ps _ [] (nego_sent_inv (r_kind (cc_rx cfg)) (cc_self cfg))); [exact HL|].
  intros peer HV. destruct (peer_accept (cc_expect cfg) peer) eqn:EP; [|reflexivity].
  destruct HN. apply (nego_accepts_only_expected _ _ (firstn_length_le _ HL) HB HE). exists peer. auto.
Qed.

(* fewer than 8 bytes: nothing happens until the peer goes away or the 10 s
   timer fires, then the connection is closed; nothing is ever delivered *)
Theorem conn_short_header cfg ps rv : (length (concat ps) < 8)%nat ->
  exists ng', conn_feed_all cfg (conn_init cfg) ps = Some (CNego ng', []) /\
              conn_eof (CNego ng') rv = (CClosed, [CClose rv]).
Proof.
  intros HL. destruct (proj1 (conn_nego_all cfg ps _ [] (nego_sent_inv (r_kind (cc_rx cfg)) (cc_self cfg))) HL) as [ng' H].
  exists ng'. split; [exact H|reflexivity].
Qed.

(* what the protocol is handed comes from transport deliveries only, and the
   transport's deliveries obey the limits *)
Lemma conn_events_deliveries cfg : forall evs,
  (length (conn_deliveries (fst (conn_events cfg evs))) <= length (SpFrameModel.deliveries evs))%nat.
Proof.
  induction evs as [|e evs IH]; [cbn; lia|].
  destruct e as [n|m|rv]; cbn [conn_events SpFrameModel.deliveries flat_map app]; [exact IH| |cbn; lia].
  destruct (proto_check (cc_proto cfg) (cc_pipe cfg) m); [| |cbn; lia];
    destruct (conn_events cfg evs) as [o c]; cbn [fst conn_deliveries flat_map app length] in *;
    unfold SpFrameModel.deliveries in IH; lia.
Qed.

Theorem rep_delivers_only_backtraces ttl pipe wire h b :
  (proto_check (PrRep ttl) pipe wire = AppDeliver h b ->
     backtrace h /\ wire = h ++ b /\ (length h <= 4 * ttl)%nat /\ (length h <= BT_HEADER_MAX)%nat) /\
  (proto_check (PrXRep ttl) pipe wire = AppDeliver h b ->
     exists w, backtrace w /\ h = ReqRepBacktrace.be32 pipe ++ w /\ wire = w ++ b /\ (length w <= 4 * ttl)%nat /\
               (length h <= BT_HEADER_MAX)%nat).
Proof.
  split; intros H; cbn [proto_check] in H.
  - unfold rep_recv in H. destruct (bt_loop ttl [] wire) as [m| |] eqn:E; try discriminate.
    inversion H; subst h b. apply bt_loop_backtrace in E. destruct E as (w & HB & HH & HW & HL & HM).
    cbn [app] in HH. rewrite HH in *. auto.
  - unfold xrep_recv in H. destruct (bt_loop ttl (ReqRepBacktrace.be32 pipe) wire) as [m| |] eqn:E; try discriminate.
    inversion H; subst h b. apply bt_loop_backtrace in E. destruct E as (w & HB & HH & HW & HL & HM).
    exists w. auto.
Qed.

(* a message too short to carry the protocol's header word is never handed to
   the application and closes the connection: every protocol with a header *)
Definition proto_ttl (p : proto_rx) : nat :=
  match p with PrRep t | PrXRep t | PrResp t | PrXResp t => t | _ => 1%nat end.

Theorem short_header_closes p pipe wire : (length wire < 4)%nat -> p <> PrPlain -> (0 < proto_ttl p)%nat ->
  proto_check p pipe wire = PipeClose.
Proof.
  intros HL HP HT.
  assert (LB: (length wire <? 4)%nat = true) by (apply Nat.ltb_lt; exact HL).
  destruct p as [|ttl|ttl| | | | |ttl|ttl|raw ttl]; cbn [proto_check]; [congruence|..].
  - unfold rep_recv. destruct ttl as [|ttl]; [cbn in HT; lia|]. cbn [bt_loop]. rewrite LB. reflexivity.
  - unfold xrep_recv. destruct ttl as [|ttl]; [cbn in HT; lia|]. cbn [bt_loop]. rewrite LB. reflexivity.
  - unfold req_recv. rewrite LB. reflexivity.
  - unfold xreq_recv. cbn [xreq_loop]. rewrite LB. reflexivity.
  - destruct wire as [|a [|b [|c [|d r]]]]; [reflexivity..|cbn in HL; lia].
  - destruct wire as [|a [|b [|c [|d r]]]]; [reflexivity..|cbn in HL; lia].
  - destruct ttl as [|ttl]; [cbn in HT; lia|].
    destruct wire as [|a [|b [|c [|d r]]]]; [reflexivity..|cbn in HL; lia].
  - destruct ttl as [|ttl]; [cbn in HT; lia|].
    destruct wire as [|a [|b [|c [|d r]]]]; [reflexivity..|cbn in HL; lia].
  - destruct wire as [|a [|b [|c [|d r]]]]; [reflexivity..|cbn in HL; lia].
Qed.

(* PAIRv1: the hop word must be a byte and within the TTL *)
Theorem pair1_hop_rules raw ttl pipe wire h b :
  proto_check (PrPair1 raw ttl) pipe wire = AppDeliver h b ->
  exists v, (v <= 255)%N /\ (v <= N.of_nat ttl)%N /\ h = PairModel.be32 v /\ (length wire = 4 + length b)%nat.
Proof.
  cbn [proto_check]. unfold rx_decode. cbn [pm_body pm_hdr].
  destruct wire as [|a [|b0 [|c [|d rest]]]]; cbn [get32]; try discriminate.
  destruct (255 <? word32 a b0 c d) eqn:E1; [discriminate|].
  destruct (N.of_nat ttl <? word32 a b0 c d) eqn:E2; [discriminate|].
  intros H. inversion H; subst. apply N.ltb_ge in E1. apply N.ltb_ge in E2.
  exists (word32 a b0 c d). cbn [app length]. repeat split; auto.
Qed.

Theorem udp_data_bounded ep dgram payload : udp_classify ep dgram = UData payload ->
  exists p hdr rest, ue_pipe ep = Some p /\ dgram = hdr ++ rest /\ length hdr = UDP_HDR /\
    N.of_nat (length payload) <= up_rcvmax p /\ (length payload <= length rest)%nat /\
    payload = firstn (length payload) rest /\ nth 0 hdr 0 = 1 /\ nth 1 hdr 0 = OPCODE_DATA.
Proof.
  unfold udp_classify.
  destruct dgram as [|ver [|op [|t0 [|t1 [|p0 [|p1 [|q0 [|q1 rest]]]]]]]]; try discriminate.
  destruct (ver =? 1) eqn:EV; cbn [negb]; [|discriminate]. apply N.eqb_eq in EV.
  destruct (op =? OPCODE_DATA) eqn:EO.
  - apply N.eqb_eq in EO. destruct (ue_pipe ep) as [p|]; [|discriminate].
    destruct ((N.of_nat (length rest) <? le16 p0 p1) || (up_rcvmax p <? le16 p0 p1)) eqn:EB; [discriminate|].
    apply orb_false_iff in EB. destruct EB as [E1 E2]. apply N.ltb_ge in E1. apply N.ltb_ge in E2.
    intros H. inversion H; subst payload.
    assert (L: length (firstn (N.to_nat (le16 p0 p1)) rest) = N.to_nat (le16 p0 p1)) by (rewrite firstn_length; lia).
    exists p, [ver; op; t0; t1; p0; p1; q0; q1], rest.
    rewrite L. repeat split; auto; try lia.
  - destruct (op =? OPCODE_CREQ).
    { destruct (ue_closed ep); [discriminate|]. destruct (ue_dialer ep); [discriminate|].
      destruct (ue_pipe ep) as [p|].
      - destruct (negb (up_peer p =? le16 t0 t1)); [discriminate|]. destruct (le16 q0 q1 =? 0); discriminate.
      - destruct (ue_full ep); [discriminate|]. destruct (le16 q0 q1 =? 0); discriminate. }
    destruct (op =? OPCODE_CACK).
    { destruct (ue_pipe ep) as [p|]; [|discriminate]. destruct (up_closed p); [discriminate|].
      destruct (negb (up_peer p =? le16 t0 t1)); [discriminate|]. destruct (le16 q0 q1 =? 0); discriminate. }
    destruct (op =? OPCODE_DISC); [destruct (ue_pipe ep); discriminate|discriminate].
Qed.

Theorem udp_ignores_garbage ep dgram :
  ((length dgram < UDP_HDR)%nat -> udp_classify ep dgram = UIgnore) /\
  (nth 0 dgram 0 <> 1 -> udp_classify ep dgram = UIgnore).
Proof.
  split.
  - unfold UDP_HDR. intros H.
    destruct dgram as [|ver [|op [|t0 [|t1 [|p0 [|p1 [|q0 [|q1 rest]]]]]]]]; try reflexivity. cbn in H. lia.
  - intros H. unfold udp_classify.
    destruct dgram as [|ver [|op [|t0 [|t1 [|p0 [|p1 [|q0 [|q1 rest]]]]]]]]; try reflexivity.
    cbn [nth] in H. apply N.eqb_neq in H. rewrite H. reflexivity.
Qed.

Theorem udp_unknown_opcode ep ver op t0 t1 p0 p1 q0 q1 rest : ver = 1 -> 4 <= op ->
  udp_classify ep (ver :: op :: t0 :: t1 :: p0 :: p1 :: q0 :: q1 :: rest) = UDisc DISC_PROTO.
Proof.
  intros -> H. unfold udp_classify. cbn [N.eqb negb Pos.eqb].
  assert (E0: (op =? OPCODE_DATA) = false) by (apply N.eqb_neq; unfold OPCODE_DATA; lia).
  assert (E1: (op =? OPCODE_CREQ) = false) by (apply N.eqb_neq; unfold OPCODE_CREQ; lia).
  assert (E2: (op =? OPCODE_CACK) = false) by (apply N.eqb_neq; unfold OPCODE_CACK; lia).
  assert (E3: (op =? OPCODE_DISC) = false) by (apply N.eqb_neq; unfold OPCODE_DISC; lia).
  rewrite E0, E1, E2, E3. reflexivity.
Qed.

(* no pipe waits while an accept is pending; a closed endpoint has no pending accept *)
Definition EpInv (s : ep_state) : Prop :=
  (e_user s = true -> e_wait s = []) /\ (e_closed s = true -> e_user s = false).


(* the optional failure of the pending accept in front of an output contributes nothing else *)
Lemma in_after_fail (u : bool) rv l x : (forall r, x <> EpAcceptFail r) ->
  In x ((if u then [EpAcceptFail rv] else []) ++ l) -> In x l.
Proof.
  intros Hx. destruct u; cbn; intros H; [|exact H]. destruct H as [H|H]; [exfalso; exact (Hx _ (eq_sym H))|exact H].
Qed.

(* a failed negotiation of pipe p: p alone is closed, at most the one pending
   accept completes (with the error), every other pipe stays where it was *)
Theorem nego_fail_only_offender s p rv :
  let '(s', o) := ep_step s (EpNegoFail p rv) in
  e_wait s' = e_wait s /\ e_nego s' = remove_id p (e_nego s) /\ e_closed s' = e_closed s /\
  (forall q, In (EpPipeClosed q) o -> q = p) /\
  (forall q, ~ In (EpAccepted q) o) /\
  (length (filter (fun x => match x with EpAcceptFail _ => true | _ => false end) o) <= 1)%nat /\
  (forall q, q <> p -> In q (e_nego s) -> In q (e_nego s')).
Proof.
  cbn [ep_step]. cbn [e_wait e_nego e_closed]. split; [reflexivity|]. split; [reflexivity|]. split; [reflexivity|].
  split; [|split; [|split]].
  - intros q H. apply in_after_fail in H; [|intros r; discriminate]. destruct H as [H|[]]. inversion H. reflexivity.
  - intros q H. apply in_after_fail in H; [|intros r; discriminate]. destruct H as [H|[]]. discriminate.
  - destruct (e_user s); cbn; lia.
  - intros q Hq Hin. unfold remove_id. apply filter_In. split; [exact Hin|].
    apply negb_true_iff. apply N.eqb_neq. exact Hq.
Qed.

Lemma ep_match_inv s : (e_closed s = true -> e_user s = false) -> EpInv (fst (ep_match s)).
Proof.
  intros HC. unfold ep_match.
  destruct (e_user s) eqn:EU; [|cbn [fst]; split; [rewrite EU; discriminate|intros _; exact EU]].
  destruct (e_wait s) as [|q r] eqn:EW; cbn [fst].
  - split; [intros _; exact EW|rewrite EU; exact HC].
  - split; cbn; [discriminate|reflexivity].
Qed.

Theorem ep_inv_step s o : EpInv s -> EpInv (fst (ep_step s o)).
Proof.
  intros (HU & HC).
  destruct o as [|p|p|p rv|p|]; cbn [ep_step].
  - destruct (e_closed s) eqn:EC; [cbn [fst]; split; [exact HU|rewrite EC; exact HC]|].
    destruct (e_user s) eqn:EU; [cbn [fst]; split; [rewrite EU; exact HU|rewrite EC; discriminate]|].
    apply ep_match_inv. cbn. discriminate.
  - destruct (e_closed s) eqn:EC; cbn [fst]; [split; [exact HU|rewrite EC; exact HC]|].
    split; cbn [e_user e_wait e_closed]; [exact HU|discriminate].
  - destruct (e_closed s) eqn:EC; cbn [fst].
    + split; cbn; [discriminate|reflexivity].
    + apply ep_match_inv. cbn. discriminate.
  - cbn [fst]. split; cbn; [discriminate|reflexivity].
  - cbn [fst]. split; cbn [e_user e_wait e_closed]; [|exact HC].
    intros H. rewrite (HU H). reflexivity.
  - cbn [fst]. split; cbn; [discriminate|reflexivity].
Qed.

Theorem ep_inv_run : forall ops s, EpInv s -> EpInv (fst (ep_run s ops)).
Proof.
  induction ops as [|o ops IH]; intros s HI; [exact HI|].
  cbn [ep_run]. pose proof (ep_inv_step s o HI) as H1.
  destruct (ep_step s o) as [s1 o1]. cbn [fst] in H1. specialize (IH s1 H1).
  destruct (ep_run s1 ops) as [s2 o2]. exact IH.
Qed.

Lemma ep_init_inv : EpInv ep_init.
Proof. split; cbn; [reflexivity|discriminate]. Qed.

(* whenever the core posts its accept and a negotiated pipe is waiting, the
   accept completes at once with the longest-waiting pipe: the listener is
   re-armed by every accept, whatever failed before *)
Theorem accept_takes_first_waiting s p r : e_closed s = false -> e_user s = false -> e_wait s = p :: r ->
  ep_step s EpAccept = (mkEp false (e_nego s) r false, [EpAccepted p]).
Proof. intros HC HU HW. cbn [ep_step]. rewrite HC, HU. unfold ep_match. cbn. rewrite HW. reflexivity. Qed.

(* a pipe is only ever accepted after its own negotiation succeeded: whoever is
   accepted by a step, or waits after it, waited before or was negotiated by it *)
Lemma ep_match_origin s p :
  In (EpAccepted p) (snd (ep_match s)) \/ In p (e_wait (fst (ep_match s))) -> In p (e_wait s).
Proof.
  unfold ep_match. destruct (e_user s); [destruct (e_wait s) as [|w r] eqn:EW|]; cbn [fst snd e_wait In]; rewrite ?EW.
  - intros [[]|H]. exact H.
  - intros [[H|[]]|H]; [inversion H; left; reflexivity|right; exact H].
  - intros [[]|H]. exact H.
Qed.

Lemma ep_step_origin s o p :
  In (EpAccepted p) (snd (ep_step s o)) \/ In p (e_wait (fst (ep_step s o))) -> In p (e_wait s) \/ o = EpNegoOk p.
Proof.
  destruct o as [|q|q|q rv|q|]; cbn [ep_step].
  - destruct (e_closed s); [|destruct (e_user s)]; [| |intros H; left; exact (ep_match_origin _ p H)];
      (intros [[H|[]]|H]; [discriminate|left; exact H]).
  - destruct (e_closed s); intros [[]|H]; left; exact H.
  - destruct (e_closed s).
    + intros [H|H]; [|left; exact H]. apply in_after_fail in H; [|intros r; discriminate].
      destruct H as [H|[]]. discriminate.
    + intros H. apply ep_match_origin in H. cbn [e_wait] in H. apply in_app_or in H.
      destruct H as [H|[<-|[]]]; [left; exact H|right; reflexivity].
  - intros [H|H]; [|left; exact H]. apply in_after_fail in H; [|intros r; discriminate].
    destruct H as [H|[]]. discriminate.
  - intros [[]|H]. left. apply ReqRepProofs.in_remove_id in H. tauto.
  - intros [H|H]; [|left; exact H]. apply in_after_fail in H; [|intros r; discriminate].
    apply in_app_or in H. destruct H as [H|H]; apply in_map_iff in H; destruct H as (x & Hx & _); discriminate.
Qed.

Lemma ep_accept_origin : forall ops s,
  (forall p, In (EpAccepted p) (snd (ep_run s ops)) -> In p (e_wait s) \/ In (EpNegoOk p) ops).
Proof.
  induction ops as [|o ops IH]; intros s p H; [cbn in H; contradiction|].
  cbn [ep_run] in H. pose proof (ep_step_origin s o p) as HS. destruct (ep_step s o) as [s1 o1].
  specialize (IH s1 p). destruct (ep_run s1 ops) as [s2 o2]. cbn [fst snd] in *.
  apply in_app_or in H. destruct H as [H|H].
  - destruct (HS (or_introl H)) as [Hw| ->]; [left; exact Hw|right; left; reflexivity].
  - destruct (IH H) as [Hw|Hn]; [|right; right; exact Hn].
    destruct (HS (or_intror Hw)) as [Hw'| ->]; [left; exact Hw'|right; left; reflexivity].
Qed.

Theorem ep_accepts_only_negotiated ops p :
  In (EpAccepted p) (snd (ep_run ep_init ops)) -> In (EpNegoOk p) ops.
Proof. intros H. destruct (ep_accept_origin ops ep_init p H) as [[]|H1]. exact H1. Qed.
