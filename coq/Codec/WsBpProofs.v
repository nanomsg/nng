(* WsBpProofs: with the gate of ws_start_read as written, whatever the order of
   frame arrivals and receive requests, the messages handed over are the
   FIN-delimited groups of the frames that arrived -- a prefix of them, in
   order, never two groups merged, never a group split.  The read-ahead variant
   of the gate merges messages (witness). *)
From Coq Require Import List Arith NArith.
From NngV Require Import Base.ListX Codec.WsBpModel.
Import ListNotations.

Definition groups0 := groups_from ([], []).

Lemma groups0_snoc C fr : groups0 (C ++ [fr]) = grp (groups0 C) fr.
Proof. unfold groups0, groups_from. rewrite fold_left_app. reflexivity. Qed.

Lemma groups_fst_prefix : forall P st, exists t, fst (groups_from st P) = fst st ++ t.
Proof.
  induction P as [|fr P IH]; intros st; [exists []; cbn; now rewrite app_nil_r|].
  cbn [groups_from fold_left]. destruct (IH (grp st fr)) as [t Ht]. fold (groups_from (grp st fr) P). rewrite Ht.
  unfold grp. destruct (f_final fr); cbn [fst]; [rewrite <- app_assoc|]; eauto.
Qed.

(* what the queue state says about the frames read so far ([pre]: before
   ws_read_finish has run, a complete message may sit there with a receiver waiting) *)
Definition QueueSays (pre : bool) (s : bp) (D : list (list byte)) (g : list (list byte) * list byte) : Prop :=
  (b_inmsg s = true /\ b_rxq s <> [] /\ g = (D, concat (b_rxq s))) \/
  (b_inmsg s = false /\ b_rxq s = [] /\ g = (D, [])) \/
  (b_inmsg s = false /\ b_rxq s <> [] /\ (pre = true \/ b_recvq s = 0) /\ g = (D ++ [concat (b_rxq s)], [])).

Lemma finish_inv s D g : QueueSays true s D g ->
  QueueSays false (fst (bp_finish s)) (D ++ snd (bp_finish s)) g /\ b_pending (fst (bp_finish s)) = b_pending s.
Proof.
  intros H. unfold bp_finish.
  destruct H as [(HI & HR & HG)|[(HI & HR & HG)|(HI & HR & _ & HG)]].
  - rewrite HI. cbn [orb fst snd]. rewrite app_nil_r. split; [left; auto|reflexivity].
  - rewrite HI, HR. cbn [orb is_nil fst snd]. rewrite app_nil_r. split; [right; left; auto|reflexivity].
  - rewrite HI. destruct (b_rxq s) as [|x r] eqn:ER; [congruence|]. cbn [orb is_nil].
    destruct (b_recvq s =? 0) eqn:E0; cbn [fst snd].
    + rewrite app_nil_r. split; [|reflexivity]. right; right. rewrite ER. apply Nat.eqb_eq in E0.
      repeat split; auto; discriminate.
    + split; [|reflexivity]. right; left. cbn [b_inmsg b_rxq]. auto.
Qed.

Lemma pump_inv A : forall fuel s D C, A = C ++ b_pending s -> QueueSays false s D (groups0 C) ->
  exists C', A = C' ++ b_pending (fst (bp_pump true fuel s)) /\
             QueueSays false (fst (bp_pump true fuel s)) (D ++ snd (bp_pump true fuel s)) (groups0 C').
Proof.
  induction fuel as [|fuel IH]; intros s D C HA HQ.
  - exists C. cbn [bp_pump fst snd]. rewrite app_nil_r. auto.
  - cbn [bp_pump].
    destruct (bp_may_read true s) eqn:EM; [|exists C; cbn [fst snd]; rewrite app_nil_r; auto].
    remember (b_pending s) as P eqn:EP. destruct P as [|fr r];
      [exists C; cbn [fst snd]; rewrite app_nil_r; split; [congruence|exact HQ]|].
    symmetry in EP.
    set (s1 := mkBp (negb (f_final fr)) (b_rxq s ++ [f_payload fr]) (b_recvq s) r).
    assert (HQ1: QueueSays true s1 D (groups0 (C ++ [fr]))).
    { rewrite groups0_snoc. unfold QueueSays, s1. cbn [b_inmsg b_rxq b_recvq].
      assert (NE: b_rxq s ++ [f_payload fr] <> []) by (destruct (b_rxq s); discriminate).
      assert (CC: concat (b_rxq s ++ [f_payload fr]) = concat (b_rxq s) ++ f_payload fr)
        by (rewrite concat_app; cbn; now rewrite app_nil_r).
      destruct HQ as [(HI & HR & HG)|[(HI & HR & HG)|(HI & HR & HW & HG)]].
      - rewrite HG. unfold grp. cbn [fst snd]. destruct (f_final fr); cbn [negb].
        + right; right. rewrite CC. auto.
        + left. rewrite CC. auto.
      - rewrite HG, HR. unfold grp. cbn [fst snd app concat]. destruct (f_final fr); cbn [negb].
        + right; right. rewrite app_nil_r. repeat split; auto. discriminate.
        + left. rewrite app_nil_r. repeat split; auto. discriminate.
      - (* a complete message with nobody waiting: the gate does not let the next frame in *)
        exfalso. destruct HW as [HW|HW]; [discriminate|].
        unfold bp_may_read in EM. rewrite HW in EM. destruct (b_rxq s); [congruence|]. cbn in EM. discriminate. }
    destruct (finish_inv s1 D _ HQ1) as [HQ2 HP2].
    destruct (bp_finish s1) as [s2 d] eqn:EF. cbn [fst snd] in HQ2, HP2.
    destruct (IH s2 (D ++ d) (C ++ [fr])) as (C' & HA' & HQ').
    { rewrite HP2. unfold s1. cbn [b_pending]. rewrite <- app_assoc. cbn [app]. exact HA. }
    { exact HQ2. }
    destruct (bp_pump true fuel s2) as [s3 d'] eqn:EPu. cbn [fst snd] in *.
    exists C'. split; [exact HA'|]. rewrite app_assoc. exact HQ'.
Qed.

Definition BpInv (s : bp) (D : list (list byte)) (A : list dframe) : Prop :=
  exists C, A = C ++ b_pending s /\ QueueSays false s D (groups0 C).

Lemma pump_bpinv fuel s D A : BpInv s D A ->
  BpInv (fst (bp_pump true fuel s)) (D ++ snd (bp_pump true fuel s)) A.
Proof. intros (C & HA & HQ). destruct (pump_inv A fuel s D C HA HQ) as (C' & H1 & H2). exists C'. auto. Qed.

Lemma step_inv s D A e : BpInv s D A ->
  BpInv (fst (bp_step true s e)) (D ++ snd (bp_step true s e)) (A ++ arrived [e]).
Proof.
  intros (C & HA & HQ). destruct e as [fr|]; cbn [bp_step arrived flat_map app].
  - apply pump_bpinv. exists C. cbn [b_pending]. split; [rewrite HA, <- app_assoc; reflexivity|exact HQ].
  - rewrite app_nil_r.
    set (s1 := mkBp (b_inmsg s) (b_rxq s) (S (b_recvq s)) (b_pending s)).
    (* the new receiver takes a complete message that was waiting, if it is the first in line *)
    set (X := if b_recvq s =? 0 then bp_finish s1 else (s1, [])).
    assert (H2: BpInv (fst X) (D ++ snd X) A).
    { exists C. unfold X. destruct (b_recvq s =? 0) eqn:E0.
      - assert (HQ1: QueueSays true s1 D (groups0 C)).
        { unfold QueueSays, s1 in *. cbn [b_inmsg b_rxq b_recvq].
          destruct HQ as [H|[H|(HI & HR & _ & HG)]]; [left; exact H|right; left; exact H|right; right; auto]. }
        destruct (finish_inv s1 D _ HQ1) as [HQ2 HP2]. split; [rewrite HP2; exact HA|exact HQ2].
      - (* other receivers were already waiting: nothing complete can be queued *)
        cbn [fst snd]. rewrite app_nil_r. split; [exact HA|].
        unfold QueueSays, s1 in *. cbn [b_inmsg b_rxq b_recvq].
        destruct HQ as [H|[H|(HI & HR & HW & HG)]]; [left; exact H|right; left; exact H|].
        apply Nat.eqb_neq in E0. destruct HW as [HW|HW]; [discriminate|contradiction]. }
    destruct X as [s2 d]. cbn [fst snd] in H2.
    pose proof (pump_bpinv (S (length (b_pending s2))) s2 _ A H2) as H3.
    destruct (bp_pump true (S (length (b_pending s2))) s2) as [s3 d']. cbn [fst snd] in *.
    rewrite app_assoc. exact H3.
Qed.

Lemma run_inv : forall evs s D A, BpInv s D A ->
  BpInv (fst (bp_run true s evs)) (D ++ snd (bp_run true s evs)) (A ++ arrived evs).
Proof.
  induction evs as [|e evs IH]; intros s D A HI.
  - cbn [bp_run fst snd arrived flat_map]. now rewrite !app_nil_r.
  - cbn [bp_run]. pose proof (step_inv s D A e HI) as H1.
    destruct (bp_step true s e) as [s1 d] eqn:ES. cbn [fst snd] in H1.
    specialize (IH s1 (D ++ d) (A ++ arrived [e]) H1).
    destruct (bp_run true s1 evs) as [s2 d'] eqn:ER. cbn [fst snd] in *.
    replace (arrived (e :: evs)) with (arrived [e] ++ arrived evs) by (unfold arrived; cbn; now rewrite app_nil_r).
    rewrite !app_assoc in *. exact IH.
Qed.

(* ANY interleaving of frame arrivals and receive requests: what is handed over
   is a prefix of the FIN-delimited messages of the frames that arrived *)
Theorem bp_boundaries_independent_of_receivers evs :
  let D := snd (bp_run true bp_init evs) in
  D = firstn (length D) (messages (arrived evs)).
Proof.
  cbv zeta. pose proof (run_inv evs bp_init [] []) as H. cbn [app] in H.
  assert (H0: BpInv bp_init [] []).
  { exists []. split; [reflexivity|]. right; left. repeat split. }
  destruct (H H0) as (C & HA & HQ). clear H H0.
  set (D := snd (bp_run true bp_init evs)) in *.
  unfold messages. rewrite HA. unfold groups_from. rewrite fold_left_app.
  fold (groups_from ([], []) C). fold groups0. fold (groups_from (groups0 C) (b_pending (fst (bp_run true bp_init evs)))).
  destruct (groups_fst_prefix (b_pending (fst (bp_run true bp_init evs))) (groups0 C)) as [t Ht]. rewrite Ht.
  destruct HQ as [(_ & _ & HG)|[(_ & _ & HG)|(_ & _ & _ & HG)]]; rewrite HG; cbn [fst].
  - symmetry. apply firstn_app_exact. reflexivity.
  - symmetry. apply firstn_app_exact. reflexivity.
  - rewrite <- app_assoc. symmetry. apply firstn_app_exact. reflexivity.
Qed.

(* the read-ahead gate (gate = false) merges two messages that arrive while nobody receives:
   a receive, then A, B, C (each final), then two receives: B and C come as one *)
Example bp_readahead_merges :
  let evs := [BRecv; BArrive (mkFr true [65%N]); BArrive (mkFr true [66%N]); BArrive (mkFr true [67%N]); BRecv; BRecv] in
  snd (bp_run false bp_init evs) = [[65%N]; [66%N; 67%N]] /\
  snd (bp_run true bp_init evs) = [[65%N]; [66%N]; [67%N]].
Proof. split; vm_compute; reflexivity. Qed.
