(* SpLedgerProofs: with the release actions the source has, every way a
   connection can be dropped -- on every byte stream, every cutting, and by EOF
   or timeout at any point -- leaves its ledger empty; a live connection holds
   exactly [held]; without the nni_pipe_rele of the negotiation error path a
   refused handshake keeps its descriptor and its pipe. *)
From Coq Require Import List NArith.
From NngV Require Import Codec.Staged Codec.SpFrameModel Codec.SpConnModel Codec.SpConnProofs
  Codec.SpLedgerModel.
Import ListNotations.
Local Open Scope N_scope.

Definition LInv (sl : conn_state * list res) : Prop := snd sl = held (fst sl).
Definition good : lflags := mkLF true.

Lemma drop_release_held st o : st <> CClosed ->
  (o = ONego -> exists ng, st = CNego ng) ->
  drop_release good o (match o with ONego => held st | _ => drop_res RListNode (held st) end) = [].
Proof.
  intros HN HO. destruct st as [ng|d|]; [| |congruence].
  - destruct o; reflexivity.
  - destruct o; [destruct (HO eq_refl); discriminate| |]; cbn [held]; destruct (d_inner d); reflexivity.
Qed.

Lemma lconn_feed_inv cfg sl x : ConnInv cfg (fst sl) -> LInv sl ->
  exists sl', lconn_feed cfg good sl x = Some sl' /\ ConnInv cfg (fst sl') /\ LInv sl'.
Proof.
  destruct sl as [st l]. cbn [fst snd]. intros HC HL. unfold LInv in HL. cbn [fst snd] in HL. subst l.
  destruct (conn_feed_total cfg st x HC) as (st' & e1 & E & HC'). unfold lconn_feed. rewrite E.
  (* of the (st, st') cases only _ -> CClosed does anything: the drop releases all of [held st] *)
  destruct st as [ng|d|].
  - destruct st' as [ng'|d'|]; eexists; (split; [reflexivity|]); cbn [fst snd]; split; auto; unfold LInv; cbn [fst snd]; try reflexivity.
    destruct (drop_origin cfg (CNego ng) x) eqn:EO; reflexivity.
  - destruct st' as [ng'|d'|]; eexists; (split; [reflexivity|]); cbn [fst snd]; split; auto; unfold LInv; cbn [fst snd]; try reflexivity.
    cbn [drop_origin held]. destruct (d_inner d); reflexivity.
  - eexists. split; [reflexivity|]. cbn [fst snd]. split; [exact HC'|].
    cbn [conn_feed] in E. inversion E; subst. reflexivity.
Qed.

Theorem ledger_every_stream cfg : forall ps sl, ConnInv cfg (fst sl) -> LInv sl ->
  exists sl', lconn_feed_all cfg good sl ps = Some sl' /\ LInv sl' /\
              snd (lconn_eof good sl') = [].
Proof.
  induction ps as [|p ps IH]; intros sl HC HL.
  - exists sl. split; [reflexivity|]. split; [exact HL|].
    destruct sl as [st l]. unfold LInv in HL. cbn [fst snd] in HL. subst l. unfold lconn_eof. cbn [fst snd].
    destruct st as [ng|d|]; cbn [snd held]; try reflexivity. destruct (d_inner d); reflexivity.
  - cbn [lconn_feed_all]. destruct (lconn_feed_inv cfg sl p HC HL) as (sl1 & HF & HC1 & HL1). rewrite HF.
    apply IH; assumption.
Qed.

(* once a connection has reached the dropped state its
   ledger is empty -- all byte streams, all cuttings; and whatever point it has
   reached, its going away (EOF, reset, timeout) empties the ledger *)
Corollary dropped_means_empty cfg ps :
  exists st l, lconn_feed_all cfg good (linit cfg) ps = Some (st, l) /\
    (st = CClosed -> l = []) /\ l = held st /\ snd (lconn_eof good (st, l)) = [].
Proof.
  destruct (ledger_every_stream cfg ps (linit cfg)) as ([st l] & HF & HL & HE).
  { apply conn_init_inv. } { reflexivity. }
  exists st, l. split; [exact HF|]. unfold LInv in HL. cbn [fst snd] in HL.
  split; [intros ->; exact HL|]. split; [exact HL|exact HE].
Qed.

(* without the release in the negotiation error path: a malformed handshake
   leaves the descriptor and the pipe behind *)
Example nego_leak_without_rele :
  let cfg := mkCC (mkRxCfg KTcp 0 1000) 80 81 PrPlain 1 in
  lconn_feed_all cfg (mkLF false) (linit cfg) [[78; 79; 84; 45; 83; 80; 33; 33]] = Some (CClosed, [RFd; RPipeRef]) /\
  lconn_feed_all cfg good (linit cfg) [[78; 79; 84; 45; 83; 80; 33; 33]] = Some (CClosed, []) /\
  snd (lconn_eof (mkLF false) (linit cfg)) = [RFd; RPipeRef].
Proof. repeat split; vm_compute; reflexivity. Qed.
