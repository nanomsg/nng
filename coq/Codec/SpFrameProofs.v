(* SpFrameProofs: the stream transports' sender and receiver.
   - the vector built by *_pipe_send_start denotes exactly the frame, and every
     sequence of partial writes hands exactly the frame to the stream;
   - the receiver as coded (one-entry iov, partial reads, iov advance) refines
     the staged decoder sp_feed, for single completions and for pieces of any
     size; hence every segmentation gives the events of the unsegmented stream;
   - the staged decoder on a concatenation of frames delivers exactly the
     messages, and on a prefix of it a prefix of them. *)
From Coq Require Import List Arith Lia Bool NArith.
From NngV Require Import Base.ListX Base.Bytes Codec.Staged Codec.IovModel Codec.IovProofs Codec.SpFrameModel.
Import ListNotations.
Local Open Scope N_scope.

Lemma tx_head_length k len : N.of_nat (length (tx_head k len)) = head_len k.
Proof. destruct k; cbn [tx_head head_len length]; rewrite be_enc_length; reflexivity. Qed.

Lemma sub_app_mid {A} (a b c : list A) : sub (a ++ b ++ c) (length a) (length b) = Some b.
Proof.
  unfold sub. rewrite !app_length.
  assert (E: (length a + length b <=? length a + (length b + length c))%nat = true) by (apply Nat.leb_le; lia).
  rewrite E. f_equal. rewrite skipn_app_exact by reflexivity. apply firstn_app_exact. reflexivity.
Qed.

Lemma send_start_denotes k m : let '(mem, v) := send_start k m in
  iov_bytes mem v = Some (frame k m) /\ (length v <= 3)%nat /\ mem = frame k m.
Proof.
  unfold send_start, frame.
  set (hl := N.of_nat (length (sp_hdr m))). set (bl := N.of_nat (length (sp_body m))).
  replace (bl + hl) with (hl + bl) by lia.
  set (h := tx_head k (hl + bl)).
  pose proof (tx_head_length k (hl + bl)) as LH. fold h in LH.
  split; [|split; [|reflexivity]].
  - assert (D0: deref (h ++ sp_hdr m ++ sp_body m) (mkIov (Some 0) (head_len k)) = Some h).
    { unfold deref. cbn [iv_ptr iv_len]. rewrite <- LH, Nat2N.id.
      change (N.to_nat 0) with (length (@nil byte)).
      apply (sub_app_mid [] h (sp_hdr m ++ sp_body m)). }
    assert (D1: deref (h ++ sp_hdr m ++ sp_body m) (mkIov (Some (head_len k)) hl) = Some (sp_hdr m)).
    { unfold deref. cbn [iv_ptr iv_len]. rewrite <- LH. unfold hl. rewrite !Nat2N.id. apply sub_app_mid. }
    assert (D2: deref (h ++ sp_hdr m ++ sp_body m) (mkIov (Some (head_len k + hl)) bl) = Some (sp_body m)).
    { unfold deref. cbn [iv_ptr iv_len]. rewrite <- LH. unfold hl, bl. rewrite <- Nat2N.inj_add, !Nat2N.id.
      rewrite <- app_length. rewrite app_assoc.
      rewrite <- (app_nil_r (sp_body m)) at 1. apply sub_app_mid. }
    destruct (0 <? hl) eqn:E1; destruct (0 <? bl) eqn:E2; cbn [app iov_bytes];
      rewrite ?D0, ?D1, ?D2; f_equal.
    + now rewrite app_nil_r.
    + apply N.ltb_ge in E2. assert (sp_body m = []) by (destruct (sp_body m); [reflexivity|unfold bl in E2; cbn in E2; lia]).
      rewrite H. now rewrite !app_nil_r.
    + apply N.ltb_ge in E1. assert (sp_hdr m = []) by (destruct (sp_hdr m); [reflexivity|unfold hl in E1; cbn in E1; lia]).
      rewrite H. cbn [app]. now rewrite app_nil_r.
    + apply N.ltb_ge in E1. apply N.ltb_ge in E2.
      assert (sp_hdr m = []) by (destruct (sp_hdr m); [reflexivity|unfold hl in E1; cbn in E1; lia]).
      assert (sp_body m = []) by (destruct (sp_body m); [reflexivity|unfold bl in E2; cbn in E2; lia]).
      rewrite H, H0. reflexivity.
  - destruct (0 <? hl); destruct (0 <? bl); cbn; lia.
Qed.

(* every sequence of accepted byte counts: what reaches the stream is a prefix
   of the frame, the whole frame when the operation finishes; no array or
   buffer access is out of range (the result is not None); the vector keeps its
   NNI_AIO_MAX_IOV entries and never has more live entries than it started with *)
Theorem send_msg_spec k m ks :
  exists w a fin, send_msg k m ks = Some (w, a, fin) /\ WF a /\ (a_nio a <= 3)%nat /\
    prefix_of w (frame k m) /\ (fin = true -> w = frame k m) /\
    (fin = false -> Forall (fun x => 0 < x) ks ->
       (length ks <= length w)%nat /\ (ks <> [] -> (length w < length (frame k m))%nat)).
Proof.
  unfold send_msg. pose proof (send_start_denotes k m) as H.
  destruct (send_start k m) as [mem v]. destruct H as (HB & HL & _).
  destruct (set_iov_spec aiov0 v WF_aiov0) as (a0 & HS & HW & HLv & HN); [unfold MAX_IOV; lia|].
  rewrite HS. rewrite <- HLv in HB.
  destruct (send_loop_spec ks mem a0 _ HW HB) as (w & a' & fin & HR & HW' & Hle & HP & _ & HF & HNF).
  exists w, a', fin. split; [exact HR|]. split; [exact HW'|]. split; [lia|]. auto.
Qed.

Corollary send_msg_finishes k m ks : Forall (fun x => 0 < x) ks -> (length (frame k m) <= length ks)%nat ->
  exists a, send_msg k m ks = Some (frame k m, a, true).
Proof.
  intros HP HL. unfold send_msg. pose proof (send_start_denotes k m) as H.
  destruct (send_start k m) as [mem v]. destruct H as (HB & HLv & _).
  destruct (set_iov_spec aiov0 v WF_aiov0) as (a0 & HS & HW & HLa & _); [unfold MAX_IOV; lia|].
  rewrite HS. rewrite <- HLa in HB. apply (send_loop_finishes ks mem a0 _ HW HB HP); [|exact HL].
  (* a frame has at least its length field *)
  intros ->. unfold frame in HL. rewrite app_length in HL.
  pose proof (tx_head_length k (N.of_nat (length (sp_hdr m)) + N.of_nat (length (sp_body m)))).
  cbn [length] in HL. destruct k; cbn [head_len] in H; lia.
Qed.

Section Sp.
  Variable cfg : rx_cfg.
  Let k := r_kind cfg.
  Let want := sp_want k.
  Let cb := sp_cb cfg.

  Lemma feed_dead acc x : sp_feed cfg (mkD PDead acc) x = (mkD PDead [], []).
  Proof. apply (feed_stopped _ _ want cb (mkD PDead acc)). reflexivity. Qed.

  Lemma sp_feed_short s acc x : want s <> 0 -> N.of_nat (length (acc ++ x)) < want s ->
    sp_feed cfg (mkD s acc) x = (mkD s (acc ++ x), []).
  Proof. apply feed_short. Qed.

  Lemma sp_feed_exact s acc x : want s <> 0 -> N.of_nat (length (acc ++ x)) = want s ->
    sp_feed cfg (mkD s acc) x = (mkD (fst (cb s (acc ++ x))) [], snd (cb s (acc ++ x))).
  Proof. apply feed_exact. Qed.

  Definition hl : N := head_len k.

  (* Coded receiver state c against staged decoder state d.  [acc] is the part of the current stage received
     so far: of the header it is the front of rx_head (what follows there is stale, hence the firstn), of the
     body it is the contents of the write buffer itself.  The one live iov entry asks for the rest of the stage. *)
  Inductive R : rx_state -> sp_dstate -> Prop :=
  | R_dead : forall c acc, rx_posted c = false -> R c (mkD PDead acc)
  | R_head : forall c acc,
      rx_posted c = true -> rx_msg c = None -> WF (rx_aio c) -> a_nio (rx_aio c) = 1%nat ->
      length (rx_head c) = N.to_nat hl -> N.of_nat (length acc) < hl ->
      live (rx_aio c) = [mkIov (Some (N.of_nat (length acc))) (hl - N.of_nat (length acc))] ->
      firstn (length acc) (rx_head c) = acc ->
      R c (mkD PHead acc)
  | R_body : forall c len acc,
      rx_posted c = true -> rx_msg c = Some (mkW len acc) -> WF (rx_aio c) -> a_nio (rx_aio c) = 1%nat ->
      length (rx_head c) = N.to_nat hl -> N.of_nat (length acc) < len ->
      live (rx_aio c) = [mkIov (Some (N.of_nat (length acc))) (len - N.of_nat (length acc))] ->
      R c (mkD (PBody len) acc).

  Lemma hl_pos : 0 < hl.
  Proof. unfold hl. destruct k; cbn; lia. Qed.

  (* a result [r] of the receiver as coded against a result [t] of the staged decoder *)
  Definition refines (r : option (rx_state * list rx_event)) (t : sp_dstate * list rx_event) : Prop :=
    exists c' ev, r = Some (c', ev) /\ R c' (fst t) /\ snd t = ev.

  (* one refining run after another: the way every loop of the receiver chains its steps *)
  Lemma refines_seq r1 t1 (f : rx_state -> option (rx_state * list rx_event))
      (g : sp_dstate -> sp_dstate * list rx_event) :
    refines r1 t1 -> (forall c1, R c1 (fst t1) -> refines (f c1) (g (fst t1))) ->
    refines (match r1 with
             | None => None
             | Some (c1, e1) => match f c1 with None => None | Some (c2, e2) => Some (c2, e1 ++ e2) end
             end)
            (let '(d1, e1) := t1 in let '(d2, e2) := g d1 in (d2, e1 ++ e2)).
  Proof.
    intros (c1 & e1 & -> & HR1 & <-) H. destruct (H c1 HR1) as (c2 & e2 & -> & HR2 & <-).
    destruct t1 as [d1 e1]. cbn [fst snd] in *. destruct (g d1) as [d2 e2]. exists c2, (e1 ++ e2). auto.
  Qed.

  Lemma recv_start_R head a : WF a -> length head = N.to_nat hl ->
    exists st, rx_recv_start k (mkRx head None a true) = Some st /\ R st (mkD PHead []) /\ rx_head st = head.
  Proof.
    intros HW HL. unfold rx_recv_start. cbn [rx_aio rx_head].
    destruct (set_iov_spec a [mkIov (Some 0) (head_len k)] HW) as (a' & HS & HW' & HLv & HN);
      [cbn; unfold MAX_IOV; lia|].
    rewrite HS. eexists. split; [reflexivity|]. split; [|reflexivity].
    pose proof hl_pos.
    apply R_head; cbn [rx_posted rx_msg rx_aio rx_head length]; auto.
    rewrite HLv. unfold hl. now rewrite N.sub_0_r.
  Qed.

  Lemma rx_init_R : exists st, rx_init k = Some st /\ R st sp_dinit.
  Proof.
    unfold rx_init.
    destruct (recv_start_R (zeros (N.to_nat (head_len k))) aiov0 WF_aiov0) as (st & H1 & H2 & _).
    { apply zeros_length. }
    exists st. split; [exact H1|exact H2].
  Qed.

  Corollary rx_init_related st0 : rx_init k = Some st0 -> R st0 sp_dinit.
  Proof. intros HI. destruct rx_init_R as (st & HI' & HR). congruence. Qed.

  Lemma live_single a e : WF a -> a_nio a = 1%nat -> live a = [e] -> arr_get (a_iov a) 0 = Some e.
  Proof.
    intros [HL _] HN HLv. unfold live in HLv. rewrite HN in HLv.
    destruct (a_iov a) as [|x r]; [discriminate|]. cbn in HLv. inversion HLv. reflexivity.
  Qed.

  Lemma drop_single n p len : n <= len -> 0 < n ->
    drop_iov n [mkIov (Some p) len] = if n <? len then [mkIov (Some (n + p)) (len - n)] else [].
  Proof.
    intros H1 H2. cbn [drop_iov iv_len iv_ptr option_map].
    assert (E: (n =? 0) = false) by (apply N.eqb_neq; lia). rewrite E.
    destruct (n <? len); reflexivity.
  Qed.

  (* the receive vector has one entry, the part [g, w) of a buffer of w bytes still to be filled:
     what a completion with n bytes leaves *)
  Lemma single_advance a g w n : WF a -> a_nio a = 1%nat -> live a = [mkIov (Some g) (w - g)] ->
    0 < n -> n <= w - g ->
    iov_count a = Some (w - g) /\ arr_get (a_iov a) 0 = Some (mkIov (Some g) (w - g)) /\
    exists a1 r1, iov_advance a n = Some (a1, r1) /\ WF a1 /\ iov_count a1 = Some (w - g - n) /\
      (n < w - g -> a_nio a1 = 1%nat /\ live a1 = [mkIov (Some (g + n)) (w - (g + n))]).
  Proof.
    intros HW HN HLv Hn0 Hn.
    split; [rewrite (iov_count_spec _ HW), HLv; cbn [total iv_len]; f_equal; lia|].
    split; [apply live_single; assumption|].
    destruct (iov_advance_spec a n HW) as (a1 & r1 & HA & HW1 & HL1 & Hle1); [rewrite HLv; cbn [total iv_len]; lia|].
    rewrite HLv, drop_single in HL1 by lia.
    exists a1, r1. split; [exact HA|]. split; [exact HW1|]. rewrite (iov_count_spec _ HW1), HL1.
    destruct (n <? w - g) eqn:E.
    - apply N.ltb_lt in E. cbn [total iv_len]. split; [f_equal; lia|]. intros _. split.
      + assert (L: length (live a1) = 1%nat) by (rewrite HL1; reflexivity).
        unfold live in L. rewrite firstn_length in L. lia.
      + f_equal. f_equal; [f_equal|]; lia.
    - apply N.ltb_ge in E. cbn [total]. split; [f_equal; lia|lia].
  Qed.

  (* one completion with 1 <= |x| <= what was asked for *)
  Lemma step_refines c d x : R c d -> x <> [] ->
    N.of_nat (length x) <= want (d_inner d) - N.of_nat (length (d_acc d)) ->
    refines (rx_cb cfg c x) (sp_feed cfg d x).
  Proof.
    intros HR Hx Hle. unfold refines.
    assert (Hx0: (N.of_nat (length x) =? 0) = false).
    { apply N.eqb_neq. destruct x; [congruence|cbn; lia]. }
    assert (Hxp: 0 < N.of_nat (length x)) by (apply N.eqb_neq in Hx0; lia).
    destruct HR as [c acc HP | c acc HP HM HW HN HLh Hacc HLv Hfirst | c len acc HP HM HW HN HLh Hacc HLv].
    - exists c, []. unfold rx_cb. rewrite HP. cbn [negb]. rewrite feed_dead. cbn [fst snd].
      split; [reflexivity|]. split; [apply R_dead; exact HP|reflexivity].
    - cbn [d_inner d_acc] in Hle. unfold want in Hle. cbn [sp_want] in Hle. fold hl in Hle.
      set (g := N.of_nat (length acc)) in *. set (n := N.of_nat (length x)) in *.
      destruct (single_advance _ g hl n HW HN HLv Hxp Hle) as (HC & HG & a1 & r1 & HA & HW1 & HC1 & Hpart).
      unfold rx_cb. rewrite HP. cbn [negb]. rewrite HC, HG. fold n. rewrite Hx0, HN.
      assert (E1: (hl - g <? n) = false) by (apply N.ltb_ge; lia). rewrite E1.
      cbn [orb negb Nat.eqb iv_ptr]. rewrite HM.
      assert (HB: blit (rx_head c) (N.to_nat g) x =
                  Some (firstn (N.to_nat g) (rx_head c) ++ x ++ skipn (N.to_nat g + length x) (rx_head c))).
      { apply blit_Some. rewrite HLh. unfold g, n in *. lia. }
      rewrite HB. cbn [option_map].
      set (head' := firstn (N.to_nat g) (rx_head c) ++ x ++ skipn (N.to_nat g + length x) (rx_head c)).
      assert (Lh': length head' = N.to_nat hl).
      { unfold head'. rewrite !app_length, firstn_length, skipn_length, HLh. unfold g, n in *. lia. }
      assert (Fh': firstn (length (acc ++ x)) head' = acc ++ x).
      { unfold head'. unfold g. rewrite Nat2N.id, Hfirst, app_assoc. apply firstn_app_exact. reflexivity. }
      rewrite HA, HC1.
      assert (Lax: N.of_nat (length (acc ++ x)) = g + n) by (rewrite app_length, Nat2N.inj_add; reflexivity).
      destruct (N.ltb_spec0 0 (hl - g - n)) as [E2|E2].
      + destruct Hpart as [HN1 HL1]; [lia|].
        rewrite sp_feed_short by (unfold want; cbn [sp_want]; fold hl; lia).
        cbn [fst snd]. eexists _, _. split; [reflexivity|]. split; [|reflexivity].
        apply R_head; cbn [rx_posted rx_msg rx_aio rx_head]; auto; [lia|]. rewrite Lax. exact HL1.
      + (* the header is complete *)
        assert (Hfull: head' = acc ++ x).
        { rewrite <- Fh'. symmetry. apply firstn_all2. rewrite Lh'. lia. }
        rewrite sp_feed_exact by (unfold want; cbn [sp_want]; fold hl; lia).
        unfold cb. cbn [sp_cb]. rewrite <- Hfull.
        destruct (head_decide cfg head') as [ev [len|]] eqn:HD.
        * destruct (len =? 0) eqn:E0.
          -- destruct (recv_start_R head' a1 HW1 Lh') as (st & HS & HRs & _).
             fold k. rewrite HS. cbn [fst snd]. eexists _, _. split; [reflexivity|].
             split; [exact HRs|]. unfold wbuf_contents. cbn. reflexivity.
          -- destruct (set_iov_spec a1 [mkIov (Some 0) len] HW1) as (a2 & HS & HW2 & HL2 & HN2);
               [cbn; unfold MAX_IOV; lia|].
             rewrite HS. cbn [fst snd]. eexists _, _. split; [reflexivity|]. split; [|reflexivity].
             apply N.eqb_neq in E0.
             apply R_body; cbn [rx_posted rx_msg rx_aio rx_head length]; auto; try lia.
             rewrite HL2. now rewrite N.sub_0_r.
        * cbn [fst snd]. eexists _, _. split; [reflexivity|]. split; [|reflexivity].
          apply R_dead. reflexivity.
    - cbn [d_inner d_acc] in Hle. unfold want in Hle. cbn [sp_want] in Hle.
      set (g := N.of_nat (length acc)) in *. set (n := N.of_nat (length x)) in *.
      destruct (single_advance _ g len n HW HN HLv Hxp Hle) as (HC & HG & a1 & r1 & HA & HW1 & HC1 & Hpart).
      unfold rx_cb. rewrite HP. cbn [negb]. rewrite HC, HG. fold n. rewrite Hx0, HN.
      assert (E1: (len - g <? n) = false) by (apply N.ltb_ge; lia). rewrite E1.
      cbn [orb negb Nat.eqb iv_ptr]. rewrite HM.
      unfold wbuf_write. cbn [w_data w_cap]. fold g n. rewrite N.eqb_refl.
      assert (E4: (g + n <=? len) = true) by (apply N.leb_le; lia). rewrite E4.
      cbn [andb option_map]. rewrite HA, HC1.
      assert (Lax: N.of_nat (length (acc ++ x)) = g + n) by (rewrite app_length, Nat2N.inj_add; reflexivity).
      destruct (N.ltb_spec0 0 (len - g - n)) as [E2|E2].
      + destruct Hpart as [HN1 HL1]; [lia|].
        rewrite sp_feed_short by (unfold want; cbn [sp_want]; lia).
        cbn [fst snd]. eexists _, _. split; [reflexivity|]. split; [|reflexivity].
        apply R_body; cbn [rx_posted rx_msg rx_aio rx_head]; auto; [lia|]. rewrite Lax. exact HL1.
      + rewrite sp_feed_exact by (unfold want; cbn [sp_want]; lia).
        unfold cb. cbn [sp_cb fst snd].
        destruct (recv_start_R (rx_head c) a1 HW1 HLh) as (st & HS & HRs & _).
        fold k. rewrite HS. eexists _, _. split; [reflexivity|]. split; [exact HRs|].
        cbn [app]. unfold wbuf_contents. cbn [w_data w_cap].
        rewrite Lax. replace (len - (g + n)) with 0 by lia. cbn. now rewrite app_nil_r.
  Qed.

  (* what the staged decoder asks for next *)
  Definition asked (d : sp_dstate) : N := want (d_inner d) - N.of_nat (length (d_acc d)).

  Lemma R_count c d : R c d -> rx_posted c = true ->
    iov_count (rx_aio c) = Some (asked d) /\ 0 < asked d.
  Proof.
    intros HR HP. unfold asked.
    destruct HR as [c acc HP' | c acc _ HM HW HN HLh Hacc HLv Hfirst | c len acc _ HM HW HN HLh Hacc HLv];
      [congruence| |]; rewrite (iov_count_spec _ HW), HLv; cbn [total iv_len d_inner d_acc];
      unfold want; cbn [sp_want]; fold hl; split; try (f_equal; lia); lia.
  Qed.

  Lemma sp_feed_nil c d : R c d -> rx_posted c = true -> sp_feed cfg d [] = (d, []).
  Proof.
    intros HR HP.
    destruct HR as [c acc HP' | c acc _ HM HW HN HLh Hacc HLv Hfirst | c len acc _ HM HW HN HLh Hacc HLv].
    - congruence.
    - rewrite sp_feed_short, app_nil_r; [reflexivity| |rewrite app_nil_r].
      all: unfold want; cbn [sp_want]; fold hl; lia.
    - rewrite sp_feed_short, app_nil_r; [reflexivity| |rewrite app_nil_r].
      all: unfold want; cbn [sp_want]; lia.
  Qed.

  Lemma feed_fuel_refines : forall fuel x c d, R c d -> (length x < fuel)%nat ->
    refines (rx_feed_fuel fuel cfg c x) (sp_feed cfg d x).
  Proof.
    induction fuel as [|fuel IH]; intros x c d HR Hf; [lia|].
    cbn [rx_feed_fuel].
    destruct (rx_posted c) eqn:HP; cbn [negb].
    2:{ inversion HR; subst; try congruence. rewrite feed_dead.
        exists c, []. split; [reflexivity|]. split; [apply R_dead; assumption|reflexivity]. }
    destruct x as [|b x].
    { exists c, []. rewrite (sp_feed_nil c d HR HP). auto. }
    destruct (R_count c d HR HP) as [HC Hpos]. rewrite HC.
    set (xs := b :: x) in *.
    set (kk := N.to_nat (N.min (asked d) (N.of_nat (length xs)))).
    assert (Hk1: (1 <= kk)%nat) by (unfold kk, xs; cbn [length]; lia).
    assert (Hk2: (kk <= length xs)%nat) by (unfold kk; lia).
    assert (Hk3: N.of_nat kk <= asked d) by (unfold kk; lia).
    replace (sp_feed cfg d xs) with (sp_feed cfg d (firstn kk xs ++ skipn kk xs)) by (now rewrite firstn_skipn).
    unfold sp_feed at 1. rewrite feed_app.
    apply (refines_seq _ _ (fun c1 => rx_feed_fuel fuel cfg c1 (skipn kk xs)) (fun d1 => sp_feed cfg d1 (skipn kk xs))).
    - apply step_refines; [exact HR| |rewrite firstn_length, Nat.min_l by lia; exact Hk3].
      intros E. apply (f_equal (@length _)) in E. rewrite firstn_length in E. cbn [length] in E. lia.
    - intros c1 HR1. apply IH; [exact HR1|]. rewrite skipn_length. unfold xs in *. cbn [length] in *. lia.
  Qed.

  Theorem rx_feed_refines c d x : R c d -> refines (rx_feed cfg c x) (sp_feed cfg d x).
  Proof. intros HR. unfold rx_feed. apply feed_fuel_refines; [exact HR|lia]. Qed.

  Theorem rx_feed_all_refines : forall ps c d, R c d -> refines (rx_feed_all cfg c ps) (sp_feed_all cfg d ps).
  Proof.
    induction ps as [|p ps IH]; intros c d HR; [exists c, []; auto|].
    apply (refines_seq _ _ (fun c1 => rx_feed_all cfg c1 ps) (fun d1 => sp_feed_all cfg d1 ps)).
    - apply rx_feed_refines. exact HR.
    - intros c1. apply IH.
  Qed.

  (* pieces each of which is one completion: non-empty and within what was asked *)
  Fixpoint fits (d : sp_dstate) (ps : list (list byte)) : Prop :=
    match ps with
    | [] => True
    | p :: r => p <> [] /\ N.of_nat (length p) <= asked d /\ fits (fst (sp_feed cfg d p)) r
    end.

  Theorem rx_steps_refines : forall ps c d, R c d -> fits d ps ->
    refines (rx_steps cfg c ps) (sp_feed_all cfg d ps).
  Proof.
    induction ps as [|p ps IH]; intros c d HR HF; [exists c, []; auto|]. destruct HF as (Hne & Hle & HF).
    apply (refines_seq _ _ (fun c1 => rx_steps cfg c1 ps) (fun d1 => sp_feed_all cfg d1 ps)).
    - apply step_refines; assumption.
    - intros c1 HR1. apply IH; assumption.
  Qed.

  Definition letin (len : N) : Prop :=
    msg_size_valid len = true /\ (r_rcvmax cfg = 0 \/ len <= r_rcvmax cfg) /\ len <= r_allocmax cfg.
  Definition msg_letin (m : sp_msg) : Prop := letin (N.of_nat (length (sp_wire m))).

  (* the receiver reads back the length the sender wrote *)
  Lemma head_decide_tx_eq len : len < 2 ^ 64 ->
    head_decide cfg (tx_head k len) =
      if negb (msg_size_valid len) then ([RError NNG_EMSGSIZE], None)
      else if (r_rcvmax cfg <? len) && (0 <? r_rcvmax cfg) then ([RError NNG_EMSGSIZE], None)
      else if r_allocmax cfg <? len then ([RAlloc len; RError NNG_ENOMEM], None)
      else ([RAlloc len], Some len).
  Proof.
    intros L64. unfold head_decide. fold k.
    assert (T: is_ipc k && negb (nth 0 (tx_head k len) 0 =? 1) = false) by (destruct k; reflexivity).
    assert (X: firstn 8 (skipn (if is_ipc k then 1 else 0) (tx_head k len)) = be_enc 8 len).
    { destruct k; cbn [is_ipc tx_head skipn]; apply firstn_all2; rewrite be_enc_length; lia. }
    rewrite T, X, be_dec_enc_small by exact L64. reflexivity.
  Qed.

  Lemma head_decide_tx len : letin len -> head_decide cfg (tx_head k len) = ([RAlloc len], Some len).
  Proof.
    intros (HV & HR & HA).
    assert (L64: len < 2 ^ 64).
    { unfold msg_size_valid in HV. apply andb_true_iff in HV. destruct HV as [_ HV]. apply N.leb_le in HV.
      unfold SIZE_MAX in HV. change (2 ^ 64) with 18446744073709551616. lia. }
    rewrite head_decide_tx_eq, HV by exact L64. cbn [negb].
    assert (E1: (r_rcvmax cfg <? len) && (0 <? r_rcvmax cfg) = false).
    { destruct HR as [HR|HR]; [rewrite HR; apply andb_false_r|].
      apply andb_false_iff. left. apply N.ltb_ge. exact HR. }
    assert (E2: (r_allocmax cfg <? len) = false) by (apply N.ltb_ge; exact HA).
    rewrite E1, E2. reflexivity.
  Qed.

  Lemma sp_feed_frame m rest : msg_letin m ->
    sp_feed cfg sp_dinit (frame k m ++ rest) =
      (fst (sp_feed cfg sp_dinit rest),
       [RAlloc (N.of_nat (length (sp_wire m))); RDeliver (sp_wire m)] ++ snd (sp_feed cfg sp_dinit rest)).
  Proof.
    intros HA. unfold msg_letin in HA. unfold frame, sp_wire in *.
    rewrite app_length, Nat2N.inj_add in HA.
    set (len := N.of_nat (length (sp_hdr m)) + N.of_nat (length (sp_body m))) in *.
    assert (LW: N.of_nat (length (sp_hdr m ++ sp_body m)) = len) by (rewrite app_length, Nat2N.inj_add; reflexivity).
    rewrite <- app_assoc.
    unfold sp_feed at 1. rewrite feed_app. fold (sp_feed cfg).
    pose proof (tx_head_length k len) as LH.
    assert (F1: sp_feed cfg sp_dinit (tx_head k len) =
                if len =? 0 then (mkD PHead [], [RAlloc len; RDeliver []]) else (mkD (PBody len) [], [RAlloc len])).
    { unfold sp_dinit. rewrite sp_feed_exact; cbn [app]; unfold want; cbn [sp_want]; fold k;
        [|pose proof hl_pos; unfold hl in *; lia|exact LH].
      unfold cb. cbn [sp_cb]. rewrite (head_decide_tx len HA). destruct (len =? 0); reflexivity. }
    rewrite F1.
    destruct (len =? 0) eqn:E0.
    - apply N.eqb_eq in E0.
      assert (W: sp_hdr m ++ sp_body m = []) by (destruct (sp_hdr m ++ sp_body m); [reflexivity|cbn in LW; lia]).
      rewrite W. cbn [app length N.of_nat]. fold sp_dinit.
      destruct (sp_feed cfg sp_dinit rest) as [d2 e2]. cbn [fst snd]. rewrite E0. reflexivity.
    - apply N.eqb_neq in E0.
      unfold sp_feed at 1. rewrite feed_app. fold (sp_feed cfg).
      rewrite (sp_feed_exact (PBody len) [] (sp_hdr m ++ sp_body m)); cbn [app]; unfold want; cbn [sp_want];
        [|lia|exact LW].
      unfold cb. cbn [sp_cb fst snd]. fold sp_dinit.
      destruct (sp_feed cfg sp_dinit rest) as [d2 e2]. cbn [fst snd]. rewrite LW. reflexivity.
  Qed.

  Definition frames (ms : list sp_msg) : list byte := concat (map (frame k) ms).
  Definition frame_events (ms : list sp_msg) : list rx_event :=
    flat_map (fun m => [RAlloc (N.of_nat (length (sp_wire m))); RDeliver (sp_wire m)]) ms.

  Lemma sp_feed_empty : sp_feed cfg sp_dinit [] = (sp_dinit, []).
  Proof.
    unfold sp_dinit. rewrite sp_feed_short; cbn [app length]; unfold want; cbn [sp_want]; fold k hl;
      pose proof hl_pos; try lia. reflexivity.
  Qed.

  Lemma sp_feed_all_concat ps : sp_feed_all cfg sp_dinit ps = sp_feed cfg sp_dinit (concat ps).
  Proof. apply feed_all_concat_nil, sp_feed_empty. Qed.

  Theorem sp_feed_frames : forall ms, Forall msg_letin ms ->
    sp_feed cfg sp_dinit (frames ms) = (sp_dinit, frame_events ms).
  Proof.
    induction ms as [|m ms IH]; intros HA.
    - apply sp_feed_empty.
    - unfold frames in *. cbn [map concat frame_events flat_map].
      rewrite sp_feed_frame by (apply (Forall_inv HA)).
      rewrite IH by (apply (Forall_inv_tail HA)). reflexivity.
  Qed.

  Lemma deliveries_app a b : deliveries (a ++ b) = deliveries a ++ deliveries b.
  Proof. unfold deliveries. apply flat_map_app. Qed.

  Lemma deliveries_frame_events ms : deliveries (frame_events ms) = map sp_wire ms.
  Proof. induction ms as [|m ms IH]; [reflexivity|]. cbn [frame_events flat_map]. cbn. f_equal. exact IH. Qed.

  Definition no_error (e : list rx_event) : Prop := forall rv, ~ In (RError rv) e.

  Lemma no_error_frame_events ms : no_error (frame_events ms).
  Proof.
    intros rv H. unfold frame_events in H. apply in_flat_map in H. destruct H as (m & _ & H).
    cbn in H. destruct H as [H|[H|[]]]; discriminate.
  Qed.

  Lemma deliveries_prefix : forall e1 e2, exists j, deliveries e1 = firstn j (deliveries (e1 ++ e2)).
  Proof.
    intros e1 e2. exists (length (deliveries e1)). rewrite deliveries_app. symmetry. apply firstn_app_exact. reflexivity.
  Qed.

  (* the receiver as coded, on every cutting of a stream of frames *)
  Theorem rx_all_cuts ms ps st0 : rx_init k = Some st0 -> Forall msg_letin ms -> concat ps = frames ms ->
    exists st', rx_feed_all cfg st0 ps = Some (st', frame_events ms) /\ R st' sp_dinit.
  Proof.
    intros HI HA HC.
    destruct (rx_feed_all_refines ps st0 sp_dinit (rx_init_related st0 HI)) as (c' & ev & HS & HR & HE).
    rewrite sp_feed_all_concat, HC, (sp_feed_frames ms HA) in HR, HE. cbn [fst snd] in *. subst ev.
    exists c'. split; assumption.
  Qed.

  Theorem rx_all_cuts_prefix ms ps pre post st0 : rx_init k = Some st0 -> Forall msg_letin ms ->
    pre ++ post = frames ms -> concat ps = pre ->
    exists st' ev, rx_feed_all cfg st0 ps = Some (st', ev) /\
      (exists n, ev = firstn n (frame_events ms)) /\
      (exists j, deliveries ev = firstn j (map sp_wire ms)) /\ no_error ev.
  Proof.
    intros HI HA HPP HC.
    destruct (rx_feed_all_refines ps st0 sp_dinit (rx_init_related st0 HI)) as (c' & ev & HS & HR & HE).
    exists c', ev. split; [exact HS|].
    assert (HEv: ev = snd (sp_feed cfg sp_dinit pre)) by (rewrite <- HE, sp_feed_all_concat, HC; reflexivity).
    pose proof (sp_feed_frames ms HA) as HF. rewrite <- HPP in HF.
    unfold sp_feed in HF. rewrite feed_app in HF. fold (sp_feed cfg) in HF.
    destruct (sp_feed cfg sp_dinit pre) as [d1 e1]. cbn [snd] in HEv. subst e1.
    destruct (sp_feed cfg d1 post) as [d2 e2]. inversion HF as [[Hd He]].
    assert (Hn: ev = firstn (length ev) (ev ++ e2)) by (symmetry; apply firstn_app_exact; reflexivity).
    split; [exists (length ev); rewrite Hn at 1; rewrite He; reflexivity|]. split.
    - destruct (deliveries_prefix ev e2) as [j Hj]. exists j. rewrite Hj, He.
      rewrite deliveries_frame_events. reflexivity.
    - intros rv Hin. apply (no_error_frame_events ms rv). rewrite <- He. apply in_or_app. left. exact Hin.
  Qed.

  (* the same through single completions (each piece is what one readv returned) *)
  Theorem rx_steps_cuts ms ps st0 : rx_init k = Some st0 -> Forall msg_letin ms -> concat ps = frames ms ->
    fits sp_dinit ps ->
    exists st', rx_steps cfg st0 ps = Some (st', frame_events ms) /\ R st' sp_dinit.
  Proof.
    intros HI HA HC HF.
    destruct (rx_steps_refines ps st0 sp_dinit (rx_init_related st0 HI) HF) as (c' & ev & HS & HR & HE).
    rewrite sp_feed_all_concat, HC, (sp_feed_frames ms HA) in HR, HE. cbn [fst snd] in *. subst ev.
    exists c'. split; assumption.
  Qed.
End Sp.
