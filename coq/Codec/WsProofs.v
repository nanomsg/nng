(* WebSocket frames: masking is an involution whatever stride the loop takes; the decoder reads back from the
   encoder's header what was put in and refuses each malformed frame; a message cut into fragments, encoded
   and fed in pieces of any size is delivered as that one message. *)
From Coq Require Import List Arith Lia Bool NArith.
From NngV Require Import Base.ListX Base.Bytes Codec.Staged Codec.WsFrameModel Codec.WsMsgModel Codec.CodecSpec.
Import ListNotations.
Local Open Scope N_scope.

Lemma mask_from_involutive key : forall l i, mask_from i key (mask_from i key l) = l.
Proof.
  induction l as [|b l IH]; intros i; cbn [mask_from]; [reflexivity|].
  rewrite IH. f_equal. rewrite N.lxor_assoc, N.lxor_nilpotent, N.lxor_0_r. reflexivity.
Qed.
Lemma mask_bytes_involutive key l : mask_bytes key (mask_bytes key l) = l.
Proof. apply mask_from_involutive. Qed.

Lemma mask_from_length key : forall l i, length (mask_from i key l) = length l.
Proof. induction l; intros; cbn [mask_from length]; [reflexivity|]. now rewrite IHl. Qed.
Lemma mask_bytes_length key l : length (mask_bytes key l) = length l.
Proof. apply mask_from_length. Qed.

Lemma succ_mod4 i : Nat.modulo (S (Nat.modulo i 4)) 4 = Nat.modulo (S i) 4.
Proof.
  rewrite <- (Nat.add_1_l (Nat.modulo i 4)), <- (Nat.add_1_l i).
  rewrite Nat.add_mod_idemp_r by lia. reflexivity.
Qed.

Lemma mask_from_mod key : forall l i, mask_from (Nat.modulo i 4) key l = mask_from i key l.
Proof.
  destruct l as [|b l]; intros i; cbn [mask_from]; [reflexivity|].
  rewrite Nat.mod_mod by lia. rewrite succ_mod4. reflexivity.
Qed.

Lemma mask_from_congr key l i j : Nat.modulo i 4 = Nat.modulo j 4 -> mask_from i key l = mask_from j key l.
Proof. intros H. rewrite <- (mask_from_mod key l i), <- (mask_from_mod key l j), H. reflexivity. Qed.

Lemma mask_from_app key : forall a b i,
  mask_from i key (a ++ b) = mask_from i key a ++ mask_from (i + length a) key b.
Proof.
  induction a as [|x a IH]; intros b i; cbn [mask_from app length].
  - now rewrite Nat.add_0_r.
  - f_equal. rewrite IH. f_equal. apply mask_from_congr.
    rewrite Nat.add_mod_idemp_l by lia. f_equal. lia.
Qed.

Lemma mask_from_add4 key l i k : mask_from (i + 4 * k) key l = mask_from i key l.
Proof.
  apply mask_from_congr. rewrite Nat.mul_comm, Nat.mod_add by lia. reflexivity.
Qed.

(* the stride loop: whole words of [w] bytes, w a multiple of four *)
Lemma stride_spec key (w q : nat) : w = (4 * q)%nat -> (0 < q)%nat -> forall fuel l d r,
  stride fuel w key l = (d, r) -> d ++ mask_from 0 key r = mask_from 0 key l.
Proof.
  intros Hw Hq. induction fuel as [|f IH]; intros l d r H; cbn [stride] in H.
  - inversion H; subst. reflexivity.
  - destruct (w <=? length l)%nat eqn:E.
    + apply Nat.leb_le in E.
      destruct (stride f w key (skipn w l)) as [d1 r1] eqn:R. inversion H; subst d r; clear H.
      specialize (IH _ _ _ R). rewrite <- app_assoc, IH. unfold xor_word.
      rewrite <- (firstn_skipn w l) at 3. rewrite mask_from_app.
      rewrite firstn_length, Nat.min_l by exact E. cbn [Nat.add].
      rewrite Hw. rewrite <- (mask_from_add4 key (skipn (4 * q) l) 0 q). reflexivity.
    + inversion H; subst. reflexivity.
Qed.

Lemma mask_strided_eq key l : mask_strided key l = mask_bytes key l.
Proof.
  unfold mask_strided, mask_bytes.
  destruct (stride (length l) 16 key l) as [d16 r16] eqn:R16.
  destruct (stride (length r16) 8 key r16) as [d8 r8] eqn:R8.
  destruct (stride (length r8) 4 key r8) as [d4 r4] eqn:R4.
  pose proof (stride_spec key 16 4 eq_refl ltac:(lia) _ _ _ _ R16) as H16.
  pose proof (stride_spec key 8 2 eq_refl ltac:(lia) _ _ _ _ R8) as H8.
  pose proof (stride_spec key 4 1 eq_refl ltac:(lia) _ _ _ _ R4) as H4.
  rewrite <- H16, <- H8, <- H4. reflexivity.
Qed.

Lemma land_127 len : len < 128 -> N.land len 127 = len.
Proof. intros H. change 127 with (N.ones 7). rewrite N.land_ones. apply N.mod_small. exact H. Qed.
Lemma land_65535 len : len < 65536 -> N.land len 65535 = len.
Proof. intros H. change 65535 with (N.ones 16). rewrite N.land_ones. apply N.mod_small. exact H. Qed.

Lemma land_128 b : b < 128 -> N.land b 128 = 0.
Proof.
  intros H. apply N.bits_inj_0. intros i. rewrite N.land_spec. change 128 with (2 ^ 7). rewrite N.pow2_bits_eqb.
  destruct (N.eqb_spec 7 i) as [<-|]; [|apply andb_false_r].
  destruct b; [reflexivity|]. rewrite N.bits_above_log2; [reflexivity|]. apply N.log2_lt_pow2; [reflexivity|exact H].
Qed.

Lemma lor128_add b : b < 128 -> N.lor b 128 = 128 + b.
Proof. intros H. rewrite N.add_comm, N.add_nocarry_lxor, N.lxor_lor by (apply land_128; exact H). reflexivity. Qed.

Lemma op_bits : forall op, op < 128 ->
  N.land op 127 = op /\ N.land op 128 = 0 /\ N.land (N.lor op 128) 127 = op /\ N.land (N.lor op 128) 128 = 128.
Proof.
  intros op H. rewrite !N.land_lor_distr_l, land_127, land_128 by exact H.
  repeat split; try reflexivity. apply N.lor_0_r.
Qed.

Lemma hd_op_final (op : N) (final : bool) : op < 128 ->
  let b0 := if final then N.lor op 128 else op in hd_op b0 = op /\ hd_final b0 = final.
Proof.
  intros H. destruct (op_bits op H) as (A & B & C & D). unfold hd_op, hd_final.
  destruct final; cbv zeta.
  - rewrite C, D. split; reflexivity.
  - rewrite A, B. split; reflexivity.
Qed.

(* the second header byte: seven length bits, and the mask bit set by ws_mask_frame *)
Lemma mask_bit_reads b : b < 128 ->
  hd_len7 b = b /\ hd_masked b = false /\ hd_len7 (N.lor b 128) = b /\ hd_masked (N.lor b 128) = true.
Proof.
  intros H. destruct (op_bits b H) as (A & B & C & D). unfold hd_len7, hd_masked. rewrite A, B, C, D.
  repeat split; reflexivity.
Qed.

(* header of the sender = what the receiver reads back, for every length below 2^64 *)
Definition hdr_decodes (h : list byte) (op : N) (final masked : bool) (len : N) (key : list byte) : Prop :=
  exists h0 h1 ext,
    h = h0 :: h1 :: ext /\ hd_op h0 = op /\ hd_final h0 = final /\ hd_masked h1 = masked /\
    hd_len h1 ext = (len, true) /\ hd_hlen h1 = 2 + N.of_nat (length ext) /\
    (masked = true -> hd_key h1 ext = key).

(* the encoder always chooses the shortest length form *)
Definition minimal_form (l7 len : N) : Prop :=
  (l7 = len /\ len < 126) \/ (l7 = 126 /\ 126 <= len < 65536) \/ (l7 = 127 /\ 65536 <= len).

(* the three length forms of ws_frame_prep_tx: second byte and extension *)
Inductive hdr_form (len : N) : N -> list byte -> Prop :=
| HF7 : len < 126 -> hdr_form len len []
| HF16 : 126 <= len < 65536 -> hdr_form len 126 (be_enc 2 len)
| HF64 : 65536 <= len -> hdr_form len 127 (be_enc 8 len).

Lemma ws_hdr_form op final len : exists h1 (ext : list byte),
  ws_hdr op final len = (if final then N.lor op 128 else op) :: h1 :: ext /\ hdr_form len h1 ext.
Proof.
  unfold ws_hdr. destruct (N.ltb_spec len 126) as [H|H].
  - eexists _, _. split; [reflexivity|]. rewrite land_127 by lia. apply HF7. exact H.
  - destruct (N.ltb_spec len 65536) as [H2|H2]; eexists _, _; (split; [reflexivity|]).
    + rewrite land_65535 by exact H2. apply HF16. lia.
    + apply HF64. exact H2.
Qed.

(* what the receiver reads from such an extension behind a second byte [b] with these
   seven length bits, with or without the mask bit, whatever follows *)
Lemma hdr_form_read len h1 ext : hdr_form len h1 ext -> len < 2 ^ 64 ->
  h1 < 128 /\ minimal_form h1 len /\ forall b tail, hd_len7 b = h1 ->
    hd_len b (ext ++ tail) = (len, true) /\
    hd_hlen b = 2 + (if hd_masked b then 4 else 0) + N.of_nat (length ext).
Proof.
  intros F L. destruct F as [H|H|H]; (split; [lia|]); (split; [unfold minimal_form; lia|]);
    intros b tail E; unfold hd_len, hd_hlen; rewrite E.
  - destruct (N.eqb_spec len 127); [lia|]. destruct (N.eqb_spec len 126); [lia|]. split; reflexivity.
  - cbn [N.eqb Pos.eqb]. rewrite firstn_app_exact, be_enc_length by (rewrite be_enc_length; reflexivity).
    rewrite be_dec_enc_small by (cbn; lia). destruct (N.ltb_spec len 126); [lia|]. split; reflexivity.
  - cbn [N.eqb Pos.eqb]. rewrite firstn_app_exact, be_enc_length by (rewrite be_enc_length; reflexivity).
    rewrite be_dec_enc_small by exact L. destruct (N.ltb_spec len 65536); [lia|]. split; reflexivity.
Qed.

Lemma ws_hdr_unmasked op final len : op < 128 -> len < 2 ^ 64 ->
  hdr_decodes (ws_hdr op final len) op final false len [].
Proof.
  intros Hop Hlen. destruct (ws_hdr_form op final len) as (h1 & ext & E & F).
  destruct (hdr_form_read _ _ _ F Hlen) as (B & _ & R).
  destruct (mask_bit_reads h1 B) as (L7 & M & _).
  destruct (R h1 [] L7) as [RL RH]. rewrite app_nil_r in RL.
  destruct (hd_op_final op final Hop) as [Ho Hf].
  unfold hdr_decodes. rewrite E. exists (if final then N.lor op 128 else op), h1, ext.
  split; [reflexivity|]. split; [exact Ho|]. split; [exact Hf|]. split; [exact M|]. split; [exact RL|].
  split; [|discriminate]. rewrite RH, M. lia.
Qed.

Lemma ws_hdr_masked op final len key : op < 128 -> len < 2 ^ 64 -> length key = 4%nat ->
  hdr_decodes (set_mask_bit (ws_hdr op final len) ++ key) op final true len key.
Proof.
  intros Hop Hlen Hk. destruct (ws_hdr_form op final len) as (h1 & ext & E & F).
  destruct (hdr_form_read _ _ _ F Hlen) as (B & _ & R).
  destruct (mask_bit_reads h1 B) as (_ & _ & L7 & M2).
  destruct (R (N.lor h1 128) key L7) as [RL RH].
  destruct (hd_op_final op final Hop) as [Ho Hf].
  unfold hdr_decodes. rewrite E. cbn [set_mask_bit app].
  exists (if final then N.lor op 128 else op), (N.lor h1 128), (ext ++ key).
  split; [reflexivity|]. split; [exact Ho|]. split; [exact Hf|]. split; [exact M2|]. split; [exact RL|]. split.
  - rewrite RH, M2, app_length, Hk. lia.
  - intros _. unfold hd_key. rewrite app_length, Hk.
    replace (length ext + 4 - 4)%nat with (length ext) by lia. apply skipn_app_exact. reflexivity.
Qed.

Lemma ws_fail_halt s code : w_stage (fst (ws_fail s code)) = SHalt.
Proof. reflexivity. Qed.

Lemma ws_feed_halted cfg d input : w_stage (d_inner d) = SHalt ->
  ws_feed cfg d input = (mkD (d_inner d) [], []).
Proof. intros H. apply feed_stopped. unfold ws_want. rewrite H. reflexivity. Qed.

Lemma ws_feed_exact cfg s x :
  ws_want s = N.of_nat (length x) -> (0 < length x)%nat ->
  ws_feed cfg (mkD s []) x = let '(s1, e1) := ws_cb cfg s x in (mkD s1 [], e1).
Proof.
  intros Hw Hx. unfold ws_feed. rewrite feed_exact by (cbn [app]; lia). cbn [app].
  destruct (ws_cb cfg s x). reflexivity.
Qed.

Lemma ws_feed_app cfg d a b :
  ws_feed cfg d (a ++ b) =
    let '(d1, e1) := ws_feed cfg d a in let '(d2, e2) := ws_feed cfg d1 b in (d2, e1 ++ e2).
Proof. apply feed_app. Qed.

Lemma ws_feed_header cfg s h0 h1 ext : w_stage s = SHead ->
  hd_hlen h1 = 2 + N.of_nat (length ext) ->
  ws_feed cfg (mkD s []) (h0 :: h1 :: ext) =
    let '(s1, e1) := ws_header_done cfg s h0 h1 ext in (mkD s1 [], e1).
Proof.
  intros Hs Hh. destruct ext as [|x ext].
  - rewrite ws_feed_exact; [|unfold ws_want; rewrite Hs; reflexivity|simpl; lia].
    unfold ws_cb. rewrite Hs. replace (hd_hlen h1 =? 2) with true by (symmetry; apply N.eqb_eq; simpl in Hh; lia).
    reflexivity.
  - change (h0 :: h1 :: x :: ext) with ([h0; h1] ++ (x :: ext)). rewrite ws_feed_app.
    rewrite ws_feed_exact; [|unfold ws_want; rewrite Hs; reflexivity|simpl; lia].
    unfold ws_cb at 1. rewrite Hs.
    replace (hd_hlen h1 =? 2) with false by (symmetry; apply N.eqb_neq; cbn [length] in Hh; lia).
    rewrite ws_feed_exact; [| unfold ws_want; cbn [w_stage]; lia | simpl; lia].
    unfold ws_cb. cbn [w_stage].
    assert (E: ws_header_done cfg (mkWs (SExt h0 h1) (w_inmsg s) (w_rxq s)) h0 h1 (x :: ext) =
               ws_header_done cfg s h0 h1 (x :: ext)).
    { unfold ws_header_done, ws_fail, ws_frame_cb, ws_fail. cbn [w_inmsg w_rxq]. reflexivity. }
    rewrite E. destruct (ws_header_done cfg s h0 h1 (x :: ext)). reflexivity.
Qed.

Definition is_fail (r : ws_state * list ws_event) (s : ws_state) (code : N) : Prop := r = ws_fail s code.

Lemma reject_nonminimal cfg s h0 h1 ext :
  snd (hd_len h1 ext) = false -> is_fail (ws_header_done cfg s h0 h1 ext) s WS_CLOSE_PROTOCOL_ERR.
Proof. unfold is_fail, ws_header_done. destruct (hd_len h1 ext) as [len m]. cbn [snd]. intros ->. reflexivity. Qed.

Lemma reject_maxframe cfg s h0 h1 ext len :
  hd_len h1 ext = (len, true) -> 0 < c_maxframe cfg -> c_maxframe cfg < len ->
  is_fail (ws_header_done cfg s h0 h1 ext) s WS_CLOSE_TOO_BIG.
Proof.
  unfold is_fail, ws_header_done. intros -> H0 H1. cbn [negb].
  apply N.ltb_lt in H0, H1. rewrite H0, H1. reflexivity.
Qed.

Lemma reject_recvmax cfg s h0 h1 ext len :
  hd_len h1 ext = (len, true) -> (c_maxframe cfg <? len) && (0 <? c_maxframe cfg) = false ->
  c_isstream cfg = false -> 0 < c_recvmax cfg -> c_ctl_counts cfg || (N.land (hd_op h0) 8 =? 0) = true ->
  c_recvmax cfg < len + sum_len (w_rxq s) ->
  is_fail (ws_header_done cfg s h0 h1 ext) s WS_CLOSE_TOO_BIG.
Proof.
  unfold is_fail, ws_header_done, recvmax_exceeded. intros -> H0 Hs H1 Hc H2. cbn [negb]. rewrite H0, Hs, Hc.
  apply N.ltb_lt in H1, H2. rewrite H1, H2. reflexivity.
Qed.

Lemma reject_mask cfg s h0 h1 ext len :
  hd_len h1 ext = (len, true) -> (c_maxframe cfg <? len) && (0 <? c_maxframe cfg) = false ->
  recvmax_exceeded cfg s (hd_op h0) len = false ->
  hd_masked h1 = negb (c_server cfg) ->
  is_fail (ws_header_done cfg s h0 h1 ext) s WS_CLOSE_PROTOCOL_ERR.
Proof.
  unfold is_fail, ws_header_done. intros -> H0 H1 Hm. cbn [negb]. rewrite H0, H1, Hm.
  destruct (c_server cfg); reflexivity.
Qed.

Definition known_op (op : N) : bool := existsb (N.eqb op) [WS_CONT; WS_TEXT; WS_BINARY; WS_CLOSE; WS_PING; WS_PONG].

Lemma reject_unknown_op cfg s op final payload :
  known_op op = false -> is_fail (ws_frame_cb cfg s op final payload) s WS_CLOSE_PROTOCOL_ERR.
Proof.
  unfold known_op, is_fail, ws_frame_cb. cbn [existsb]. rewrite !orb_false_iff.
  intros (A & B & C & D & E & F & _). rewrite A, B, C, D, E, F. reflexivity.
Qed.

(* reserved bits are part of the opcode the decoder sees *)
Lemma rsv_is_unknown_op : forall h0, h0 < 256 -> negb (N.land h0 112 =? 0) = true -> known_op (hd_op h0) = false.
Proof.
  intros h0 _ R. destruct (known_op (hd_op h0)) eqn:K; [exfalso|reflexivity].
  assert (E: N.land h0 112 = N.land (hd_op h0) 112) by (unfold hd_op; rewrite <- N.land_assoc; reflexivity).
  rewrite E in R. unfold known_op in K. cbn [existsb] in K.
  repeat (apply orb_true_iff in K; destruct K as [K|K]); try discriminate K;
    apply N.eqb_eq in K; rewrite K in R; discriminate R.
Qed.

Lemma reject_cont_without_start cfg s final payload :
  w_inmsg s = false -> is_fail (ws_frame_cb cfg s WS_CONT final payload) s WS_CLOSE_PROTOCOL_ERR.
Proof. unfold is_fail, ws_frame_cb. intros ->. reflexivity. Qed.

Lemma reject_data_in_message cfg s final payload :
  w_inmsg s = true -> is_fail (ws_frame_cb cfg s WS_BINARY final payload) s WS_CLOSE_PROTOCOL_ERR.
Proof. unfold is_fail, ws_frame_cb. intros ->. reflexivity. Qed.

Lemma reject_text cfg s final payload :
  c_recv_text cfg = false -> is_fail (ws_frame_cb cfg s WS_TEXT final payload) s WS_CLOSE_UNSUPP_FORMAT.
Proof. unfold is_fail, ws_frame_cb. intros ->. reflexivity. Qed.

Lemma reject_big_control cfg s op final payload :
  op = WS_PING \/ op = WS_PONG -> 125 < N.of_nat (length payload) ->
  is_fail (ws_frame_cb cfg s op final payload) s WS_CLOSE_PROTOCOL_ERR.
Proof.
  unfold is_fail, ws_frame_cb. intros [-> | ->] H; apply N.ltb_lt in H; cbn; rewrite H; reflexivity.
Qed.

Lemma ws_fail_shape s code :
  snd (ws_fail s code) = [ETx WS_CLOSE (be_enc 2 code); EClose code] /\ w_stage (fst (ws_fail s code)) = SHalt.
Proof. split; reflexivity. Qed.

Lemma ws_no_delivery_after_halt cfg : forall pieces d,
  w_stage (d_inner d) = SHalt -> snd (ws_feed_all cfg d pieces) = [].
Proof.
  intros [|p rest] d H; [reflexivity|]. unfold ws_feed_all. rewrite feed_all_concat.
  change (feed ws_state ws_event ws_want (ws_cb cfg)) with (ws_feed cfg). rewrite ws_feed_halted by exact H. reflexivity.
Qed.

Definition fr_payload (f : N * bool * list byte) : list byte := snd f.
Definition fr_final (f : N * bool * list byte) : bool := snd (fst f).
Definition fr_op (f : N * bool * list byte) : N := fst (fst f).

(* the opcode of the fragment sent after [count] bytes of the message *)
Definition frag_op (send_text : bool) (count : N) : N :=
  if count =? 0 then (if send_text then WS_TEXT else WS_BINARY) else WS_CONT.

(* ws_fragment without its fuel: the data in one final frame, or fragsize bytes of it and
   the fragments of the rest *)
Lemma ws_fragment_ind send_text fragsize (P : N -> list byte -> list (N * bool * list byte) -> Prop) :
  (forall count data, N.of_nat (length data) <= fragsize \/ fragsize = 0 ->
     P count data [(frag_op send_text count, true, data)]) ->
  (forall count data frs, 0 < fragsize < N.of_nat (length data) ->
     P (count + fragsize) (skipn (N.to_nat fragsize) data) frs ->
     P count data ((frag_op send_text count, false, firstn (N.to_nat fragsize) data) :: frs)) ->
  forall fuel count data, (length data < fuel)%nat ->
  P count data (ws_fragment fuel false send_text fragsize count data).
Proof.
  intros H1 H2. induction fuel as [|f IH]; intros count data Hf; [lia|]. cbn [ws_fragment].
  destruct (N.ltb_spec fragsize (N.of_nat (length data))) as [A|A];
    [destruct (N.ltb_spec 0 fragsize) as [B|B]|]; cbn [andb].
  - apply H2; [lia|]. apply IH. rewrite skipn_length. lia.
  - apply H1. right. lia.
  - apply H1. left. exact A.
Qed.

Lemma ws_fragment_concat send_text fragsize : forall fuel count data,
  (length data < fuel)%nat ->
  concat (map fr_payload (ws_fragment fuel false send_text fragsize count data)) = data.
Proof.
  apply (ws_fragment_ind send_text fragsize (fun _ data frs => concat (map fr_payload frs) = data)).
  - intros count data _. apply app_nil_r.
  - intros count data frs _ IH. cbn [map concat fr_payload snd]. rewrite IH. apply firstn_skipn.
Qed.

(* every fragment but the last is non-final and has exactly fragsize bytes; the first carries
   the opcode of its place in the message, the others CONT *)
Definition frag_shape (send_text : bool) (fragsize count : N) (frs : list (N * bool * list byte)) : Prop :=
  frs <> [] /\ fr_final (last frs (0, true, [])) = true /\
  Forall (fun f => fr_final f = false -> N.of_nat (length (fr_payload f)) = fragsize) frs /\
  Forall (fun f => N.of_nat (length (fr_payload f)) <= fragsize) frs /\
  fr_op (hd (0, true, []) frs) = frag_op send_text count /\
  Forall (fun f => fr_op f = WS_CONT) (tl frs).

Lemma ws_fragment_shape send_text fragsize : 0 < fragsize -> forall fuel count data, (length data < fuel)%nat ->
  frag_shape send_text fragsize count (ws_fragment fuel false send_text fragsize count data).
Proof.
  intros Hp. apply (ws_fragment_ind send_text fragsize (fun count _ => frag_shape send_text fragsize count));
    unfold frag_shape.
  - intros count data Hl. split; [discriminate|]. split; [reflexivity|]. split; [repeat constructor; discriminate|].
    split; [|split; [reflexivity|constructor]]. repeat constructor. cbn [fr_payload snd]. lia.
  - intros count data frs Hl (A & B & C & D & F & G).
    assert (FL: N.of_nat (length (firstn (N.to_nat fragsize) data)) = fragsize).
    { rewrite firstn_length, Nat.min_l by lia. apply N2Nat.id. }
    destruct frs as [|r0 frs']; [congruence|].
    split; [discriminate|]. split; [exact B|]. split; [constructor; [intros _; exact FL|exact C]|].
    split; [constructor; [cbn [fr_payload snd]; lia|exact D]|]. split; [reflexivity|].
    constructor; [|exact G]. cbn [hd] in F. rewrite F. unfold frag_op.
    replace (count + fragsize =? 0) with false by (symmetry; apply N.eqb_neq; lia). reflexivity.
Qed.

(* ws_frame_cb never reads the stage *)
Lemma ws_frame_cb_stage cfg s st op final payload :
  ws_frame_cb cfg (mkWs st (w_inmsg s) (w_rxq s)) op final payload = ws_frame_cb cfg s op final payload.
Proof. reflexivity. Qed.

Lemma ws_feed_nil cfg s : ws_feed cfg (mkD s []) [] = (mkD s [], []).
Proof. apply feed_nil. Qed.

Definition frame_letin (cfg : ws_cfg) (s : ws_state) (op len : N) : Prop :=
  (c_maxframe cfg <? len) && (0 <? c_maxframe cfg) = false /\
  recvmax_exceeded cfg s op len = false /\
  (len <? 126) || (len <=? c_allocmax cfg) = true.

Lemma ws_header_done_ok cfg s h0 h1 ext len key :
  hd_len h1 ext = (len, true) -> frame_letin cfg s (hd_op h0) len -> hd_masked h1 = c_server cfg ->
  (hd_masked h1 = true -> hd_key h1 ext = key) ->
  ws_header_done cfg s h0 h1 ext =
    if len =? 0 then ws_frame_cb cfg s (hd_op h0) (hd_final h0) []
    else (mkWs (SPayload h0 h1 (if hd_masked h1 then key else []) len) (w_inmsg s) (w_rxq s), []).
Proof.
  intros Hl (A & B & C) Hm Hk. unfold ws_header_done. rewrite Hl. cbn [negb]. rewrite A, B, Hm.
  destruct (c_server cfg) eqn:S; cbn [negb andb].
  - rewrite Hk by (rewrite Hm; reflexivity). rewrite C. reflexivity.
  - rewrite C. reflexivity.
Qed.

Lemma ws_feed_frame cfg s key op final payload :
  w_stage s = SHead -> op < 128 -> length key = 4%nat ->
  N.of_nat (length payload) < 2 ^ 64 ->
  frame_letin cfg s op (N.of_nat (length payload)) ->
  ws_feed cfg (mkD s []) (ws_encode (negb (c_server cfg)) key op final payload) =
    let '(s1, e1) := ws_frame_cb cfg s op final payload in (mkD s1 [], e1).
Proof.
  intros Hs Hop Hk Hlen Hadm. set (len := N.of_nat (length payload)) in *.
  unfold ws_encode. fold len.
  assert (HD: exists h0 h1 ext data,
     (if negb (c_server cfg) then ws_hdr op final len ++ payload
      else set_mask_bit (ws_hdr op final len) ++ firstn 4 key ++ mask_bytes key payload) = (h0 :: h1 :: ext) ++ data /\
     hd_op h0 = op /\ hd_final h0 = final /\ hd_masked h1 = c_server cfg /\ hd_len h1 ext = (len, true) /\
     hd_hlen h1 = 2 + N.of_nat (length ext) /\ (hd_masked h1 = true -> hd_key h1 ext = key) /\
     length data = length payload /\ (if hd_masked h1 then mask_bytes key data else data) = payload).
  { destruct (c_server cfg); cbn [negb].
    - destruct (ws_hdr_masked op final len key Hop Hlen Hk) as (h0 & h1 & ext & E & A & B & C & D & F & G).
      exists h0, h1, ext, (mask_bytes key payload).
      rewrite firstn_all2 by lia. rewrite app_assoc, E. rewrite C.
      repeat split; auto; try apply mask_bytes_length; try apply mask_bytes_involutive.
    - destruct (ws_hdr_unmasked op final len Hop Hlen) as (h0 & h1 & ext & E & A & B & C & D & F & G).
      exists h0, h1, ext, payload. rewrite E, C. repeat split; auto; try (intros; discriminate). }
  destruct HD as (h0 & h1 & ext & data & E & A & B & C & D & F & G & Ld & Ud).
  rewrite E, ws_feed_app, (ws_feed_header cfg s h0 h1 ext Hs F).
  rewrite <- A in Hadm. rewrite (ws_header_done_ok cfg s h0 h1 ext len key D Hadm C G).
  rewrite A, B.
  destruct (len =? 0) eqn:Z.
  - apply N.eqb_eq in Z.
    assert (Hp: payload = []) by (destruct payload; [reflexivity|unfold len in Z; simpl in Z; lia]).
    assert (Hd: data = []) by (destruct data; [reflexivity|rewrite Hp in Ld; simpl in Ld; lia]).
    clear Ud. rewrite Hp, Hd. destruct (ws_frame_cb cfg s op final []) as [s1 e1].
    rewrite ws_feed_nil, app_nil_r. reflexivity.
  - apply N.eqb_neq in Z.
    rewrite ws_feed_exact.
    + unfold ws_cb. cbn [w_stage].
      assert (U2: (if hd_masked h1 then mask_bytes (if hd_masked h1 then key else []) data else data) = payload).
      { destruct (hd_masked h1); exact Ud. }
      rewrite U2, ws_frame_cb_stage, A, B.
      destruct (ws_frame_cb cfg s op final payload). reflexivity.
    + unfold ws_want. cbn [w_stage]. rewrite Ld. reflexivity.
    + rewrite Ld. unfold len in Z. lia.
Qed.

Lemma ws_encode_shortest_form server key op final payload :
  N.of_nat (length payload) < 2 ^ 64 ->
  exists h0 h1 rest, ws_encode server key op final payload = h0 :: h1 :: rest /\
    hd_masked h1 = negb server /\ minimal_form (hd_len7 h1) (N.of_nat (length payload)).
Proof.
  intros H. destruct (ws_hdr_form op final (N.of_nat (length payload))) as (h1 & ext & E & F).
  destruct (hdr_form_read _ _ _ F H) as (B & M & _). destruct (mask_bit_reads h1 B) as (L0 & M0 & L1 & M1).
  unfold ws_encode. rewrite E. destruct server; cbn [negb set_mask_bit app].
  - exists (if final then N.lor op 128 else op), h1, (ext ++ payload). rewrite L0. auto.
  - exists (if final then N.lor op 128 else op), (N.lor h1 128), (ext ++ firstn 4 key ++ mask_bytes key payload).
    rewrite L1. auto.
Qed.

Definition is_small_control (f : N * bool * list byte) : bool :=
  ((fr_op f =? WS_PING) || (fr_op f =? WS_PONG)) && (N.of_nat (length (fr_payload f)) <=? 125).

Fixpoint ws_frames_run (cfg : ws_cfg) (s : ws_state) (frs : list (N * bool * list byte)) : ws_state * list ws_event :=
  match frs with
  | [] => (s, [])
  | f :: r =>
      match w_stage s with
      | SHalt => (s, [])
      | _ => let '(s1, e1) := ws_frame_cb cfg s (fr_op f) (fr_final f) (fr_payload f) in
             let '(s2, e2) := ws_frames_run cfg s1 r in (s2, e1 ++ e2)
      end
  end.
Definition deliveries (e : list ws_event) : list (list byte) :=
  flat_map (fun x => match x with EDeliver m => [m] | _ => [] end) e.

(* the continuation frames of one message with small control frames anywhere between them *)
Inductive msg_tail : list (N * bool * list byte) -> list (list byte) -> Prop :=
| MT_last p : msg_tail [(WS_CONT, true, p)] [p]
| MT_cont p frs ps : msg_tail frs ps -> msg_tail ((WS_CONT, false, p) :: frs) (p :: ps)
| MT_ctl f frs ps : is_small_control f = true -> msg_tail frs ps -> msg_tail (f :: frs) ps.

(* a ping or pong of at most 125 bytes leaves the message being assembled as it is *)
Lemma small_control_cb cfg st im q f : is_small_control f = true ->
  exists e, ws_frame_cb cfg (mkWs st im q) (fr_op f) (fr_final f) (fr_payload f) = (mkWs SHead im q, e) /\
            deliveries e = [].
Proof.
  unfold is_small_control. intros Hc. apply andb_true_iff in Hc. destruct Hc as [Ho Hl].
  apply N.leb_le in Hl. unfold ws_frame_cb.
  apply orb_true_iff in Ho. destruct Ho as [Ho|Ho]; apply N.eqb_eq in Ho; rewrite Ho; cbn;
    replace (125 <? N.of_nat (length (fr_payload f))) with false by (symmetry; apply N.ltb_ge; lia);
    eexists; split; reflexivity.
Qed.

Lemma ws_tail_reassembles cfg : c_isstream cfg = false -> forall frs ps, msg_tail frs ps -> forall q,
  let '(s1, e1) := ws_frames_run cfg (mkWs SHead true q) frs in
  deliveries e1 = [concat (q ++ ps)] /\ s1 = mkWs SHead false [].
Proof.
  intros Hm frs ps H. induction H as [p | p frs ps H IH | f frs ps Hc H IH]; intros q;
    cbn [ws_frames_run w_stage fr_op fr_final fr_payload fst snd].
  - assert (K: ws_frame_cb cfg (mkWs SHead true q) WS_CONT true p =
               (mkWs SHead false [], [EDeliver (concat (q ++ [p]))])).
    { unfold ws_frame_cb, ws_read_finish. cbn. rewrite Hm.
      destruct (q ++ [p]) eqn:E; [destruct q; discriminate|reflexivity]. }
    rewrite K. cbn. auto.
  - assert (K: ws_frame_cb cfg (mkWs SHead true q) WS_CONT false p = (mkWs SHead true (q ++ [p]), [])).
    { unfold ws_frame_cb, ws_read_finish. cbn. rewrite Hm. reflexivity. }
    rewrite K. specialize (IH (q ++ [p])).
    destruct (ws_frames_run cfg (mkWs SHead true (q ++ [p])) frs) as [s2 e2].
    cbn [app]. rewrite <- app_assoc in IH. exact IH.
  - destruct (small_control_cb cfg SHead true q f Hc) as (e & K & Ke). rewrite K. specialize (IH q).
    destruct (ws_frames_run cfg (mkWs SHead true q) frs) as [s2 e2].
    unfold deliveries in *. rewrite flat_map_app, Ke. exact IH.
Qed.

Lemma ws_message_reassembles cfg p frs ps : c_isstream cfg = false -> msg_tail frs ps ->
  let '(s1, e1) := ws_frames_run cfg ws_init ((WS_BINARY, false, p) :: frs) in
  deliveries e1 = [p ++ concat ps] /\ w_inmsg s1 = false /\ w_rxq s1 = [].
Proof.
  intros Hm H. unfold ws_init. cbn [ws_frames_run w_stage]. cbn [fr_op fr_final fr_payload fst snd].
  assert (K: ws_frame_cb cfg (mkWs SHead false []) WS_BINARY false p = (mkWs SHead true [p], [])).
  { unfold ws_frame_cb, ws_read_finish. cbn. rewrite Hm. reflexivity. }
  rewrite K.
  pose proof (ws_tail_reassembles cfg Hm frs ps H [p]) as T.
  destruct (ws_frames_run cfg (mkWs SHead true [p]) frs) as [s2 e2].
  cbn [app]. destruct T as (A & ->). rewrite A. cbn [concat app]. auto.
Qed.

Lemma ws_read_finish_stage cfg inmsg rxq :
  w_stage (fst (ws_read_finish cfg inmsg rxq)) = SHead.
Proof.
  unfold ws_read_finish. destruct (c_isstream cfg); [reflexivity|].
  destruct inmsg; [reflexivity|]. destruct rxq; reflexivity.
Qed.

Lemma ws_frame_cb_stage_out cfg s op final payload :
  w_stage (fst (ws_frame_cb cfg s op final payload)) = SHead \/
  w_stage (fst (ws_frame_cb cfg s op final payload)) = SHalt.
Proof.
  unfold ws_frame_cb.
  repeat match goal with
         | |- context [if ?c then _ else _] => destruct c
         end; try (right; reflexivity); try (left; reflexivity); left; apply ws_read_finish_stage.
Qed.

(* the size limits hold for every frame of the run *)
Fixpoint letin_along (cfg : ws_cfg) (s : ws_state) (frs : list (N * bool * list byte)) : Prop :=
  match frs with
  | [] => True
  | f :: r =>
      match w_stage s with
      | SHalt => True
      | _ => frame_letin cfg s (fr_op f) (N.of_nat (length (fr_payload f))) /\
             letin_along cfg (fst (ws_frame_cb cfg s (fr_op f) (fr_final f) (fr_payload f))) r
      end
  end.

Definition frames_encodable (keys : list (list byte)) (frs : list (N * bool * list byte)) : Prop :=
  Forall (fun f => fr_op f < 128 /\ N.of_nat (length (fr_payload f)) < 2 ^ 64) frs /\
  (length frs <= length keys)%nat /\ Forall (fun k => length k = 4%nat) keys.

Lemma ws_frames_run_halted cfg s frs : w_stage s = SHalt -> ws_frames_run cfg s frs = (s, []).
Proof. intros H. destruct frs; cbn [ws_frames_run]; [reflexivity|]. rewrite H. reflexivity. Qed.

Lemma ws_feed_frames cfg : forall frs keys s,
  w_stage s = SHead -> frames_encodable keys frs -> letin_along cfg s frs ->
  ws_feed cfg (mkD s []) (ws_encode_frames (negb (c_server cfg)) keys frs) =
    let '(s1, e1) := ws_frames_run cfg s frs in (mkD s1 [], e1).
Proof.
  induction frs as [|f frs IH]; intros keys s Hs (Hf & Hk & Hk4) Ha.
  - cbn [ws_encode_frames ws_frames_run]. apply ws_feed_nil.
  - destruct f as [[op final] p]. cbn [ws_encode_frames ws_frames_run]. rewrite Hs.
    cbn [letin_along] in Ha. rewrite Hs in Ha. cbn [fr_op fr_final fr_payload fst snd] in *.
    destruct Ha as [Ha1 Ha2].
    inversion Hf as [|? ? [Hop Hlen] Hf']; subst. cbn [fr_op fr_payload fst snd] in *.
    destruct keys as [|k keys]; [cbn in Hk; lia|]. inversion Hk4 as [|? ? Hk0 Hk4']; subst.
    cbn [hd tl]. rewrite ws_feed_app.
    rewrite (ws_feed_frame cfg s k op final p Hs Hop Hk0 Hlen Ha1).
    destruct (ws_frame_cb_stage_out cfg s op final p) as [St|St];
      destruct (ws_frame_cb cfg s op final p) as [s1 e1]; cbn [fst] in *.
    + assert (FE: frames_encodable keys frs) by (repeat split; auto; cbn in Hk; lia).
      rewrite (IH keys s1 St FE Ha2).
      destruct (ws_frames_run cfg s1 frs) as [s2 e2]. reflexivity.
    + rewrite ws_feed_halted by exact St. rewrite ws_frames_run_halted by exact St.
      cbn [d_inner]. reflexivity.
Qed.

Lemma letin_unlimited cfg : c_maxframe cfg = 0 -> c_recvmax cfg = 0 -> forall frs s,
  Forall (fun f => N.of_nat (length (fr_payload f)) <= c_allocmax cfg) frs -> letin_along cfg s frs.
Proof.
  intros M R. induction frs as [|f frs IH]; intros s H; cbn [letin_along]; [exact I|].
  inversion H; subst.
  assert (A: frame_letin cfg s (fr_op f) (N.of_nat (length (fr_payload f)))).
  { unfold frame_letin, recvmax_exceeded. rewrite M, R. change (0 <? 0) with false.
    rewrite !andb_false_r. cbn [andb]. split; [reflexivity|]. split; [reflexivity|].
    apply orb_true_iff. right. apply N.leb_le. assumption. }
  destruct (w_stage s); try exact I; (split; [exact A|apply IH; assumption]).
Qed.

Lemma ws_frames_run_app cfg : forall a b s,
  ws_frames_run cfg s (a ++ b) =
    let '(s1, e1) := ws_frames_run cfg s a in let '(s2, e2) := ws_frames_run cfg s1 b in (s2, e1 ++ e2).
Proof.
  induction a as [|f a IH]; intros b s.
  - cbn [app ws_frames_run]. destruct (ws_frames_run cfg s b). reflexivity.
  - cbn [app ws_frames_run]. destruct (w_stage s) eqn:St;
      try (destruct (ws_frame_cb cfg s (fr_op f) (fr_final f) (fr_payload f)) as [s1 e1]; rewrite IH;
           destruct (ws_frames_run cfg s1 a) as [s2 e2]; destruct (ws_frames_run cfg s2 b) as [s3 e3];
           rewrite app_assoc; reflexivity).
    rewrite ws_frames_run_halted by exact St. reflexivity.
Qed.

Definition data_op (cfg : ws_cfg) (op : N) : Prop := op = WS_BINARY \/ (op = WS_TEXT /\ c_recv_text cfg = true).

Inductive msg_seq (cfg : ws_cfg) : list (N * bool * list byte) -> list (list byte) -> Prop :=
| MS_nil : msg_seq cfg [] []
| MS_ctl f frs ms : is_small_control f = true -> msg_seq cfg frs ms -> msg_seq cfg (f :: frs) ms
| MS_single op p frs ms : data_op cfg op -> msg_seq cfg frs ms -> msg_seq cfg ((op, true, p) :: frs) (p :: ms)
| MS_frag op p tail ps frs ms : data_op cfg op -> msg_tail tail ps -> msg_seq cfg frs ms ->
    msg_seq cfg ((op, false, p) :: tail ++ frs) ((p ++ concat ps) :: ms).

Lemma data_frame_cb cfg op final p : c_isstream cfg = false -> data_op cfg op ->
  ws_frame_cb cfg (mkWs SHead false []) op final p =
    if final then (mkWs SHead false [], [EDeliver p]) else (mkWs SHead true [p], []).
Proof.
  intros Hm [-> | [-> Ht]]; unfold ws_frame_cb, ws_read_finish; cbn; rewrite ?Ht, Hm; cbn;
    destruct final; cbn; rewrite ?app_nil_r; reflexivity.
Qed.

Lemma ws_sequence_reassembles cfg : c_isstream cfg = false -> forall frs ms, msg_seq cfg frs ms ->
  let '(s1, e1) := ws_frames_run cfg (mkWs SHead false []) frs in
  deliveries e1 = ms /\ s1 = mkWs SHead false [].
Proof.
  intros Hm frs ms H. induction H as [| f frs ms Hc H IH | op p frs ms Ho H IH | op p tail ps frs ms Ho Ht H IH].
  - cbn. auto.
  - cbn [ws_frames_run w_stage].
    destruct (small_control_cb cfg SHead false [] f Hc) as (e & K & Ke). rewrite K.
    destruct (ws_frames_run cfg (mkWs SHead false []) frs) as [s2 e2].
    unfold deliveries in *. rewrite flat_map_app, Ke. exact IH.
  - cbn [ws_frames_run w_stage fr_op fr_final fr_payload fst snd]. rewrite (data_frame_cb cfg op true p Hm Ho).
    destruct (ws_frames_run cfg (mkWs SHead false []) frs) as [s2 e2].
    destruct IH as [A B]. unfold deliveries in *. cbn [app flat_map]. rewrite A. auto.
  - cbn [ws_frames_run w_stage fr_op fr_final fr_payload fst snd]. rewrite (data_frame_cb cfg op false p Hm Ho).
    rewrite ws_frames_run_app.
    pose proof (ws_tail_reassembles cfg Hm tail ps Ht [p]) as T.
    destruct (ws_frames_run cfg (mkWs SHead true [p]) tail) as [s2 e2].
    destruct T as (A & ->). destruct (ws_frames_run cfg (mkWs SHead false []) frs) as [s3 e3].
    destruct IH as [A3 B3]. cbn [app]. unfold deliveries in *. rewrite flat_map_app, A, A3. cbn. auto.
Qed.

Lemma ws_fragment_tail send_text fragsize : forall fuel count data, (length data < fuel)%nat -> count <> 0 ->
  exists ps, msg_tail (ws_fragment fuel false send_text fragsize count data) ps /\ concat ps = data.
Proof.
  apply (ws_fragment_ind send_text fragsize (fun count data frs =>
    count <> 0 -> exists ps, msg_tail frs ps /\ concat ps = data)); unfold frag_op.
  - intros count data _ Hc. apply N.eqb_neq in Hc. rewrite Hc.
    exists [data]. split; [apply MT_last|]. cbn. apply app_nil_r.
  - intros count data frs Hl IH Hc. destruct IH as (ps & T & C); [lia|]. apply N.eqb_neq in Hc. rewrite Hc.
    exists (firstn (N.to_nat fragsize) data :: ps). split; [apply MT_cont; exact T|].
    cbn [concat]. rewrite C. apply firstn_skipn.
Qed.

Lemma ws_send_frames_seq cfg send_text fragsize data : (send_text = true -> c_recv_text cfg = true) ->
  msg_seq cfg (ws_send_frames false send_text fragsize data) [data].
Proof.
  intros Ht. unfold ws_send_frames. cbn [ws_fragment N.eqb].
  assert (Ho: data_op cfg (if send_text then WS_TEXT else WS_BINARY)).
  { destruct send_text; [right; auto|left; reflexivity]. }
  destruct ((fragsize <? N.of_nat (length data)) && (0 <? fragsize)) eqn:E; [|apply MS_single; [exact Ho|apply MS_nil]].
  apply andb_true_iff in E. destruct E as [E1 E2]. apply N.ltb_lt in E1, E2.
  destruct (ws_fragment_tail send_text fragsize (length data) (0 + fragsize) (skipn (N.to_nat fragsize) data))
    as (ps & T & C); [rewrite skipn_length; lia|lia|].
  pose proof (MS_frag cfg _ (firstn (N.to_nat fragsize) data) _ ps [] [] Ho T (MS_nil cfg)) as M.
  rewrite app_nil_r, C, firstn_skipn in M. exact M.
Qed.

Lemma lxor_byte : forall a b, a < 256 -> b < 256 -> N.lxor a b < 256.
Proof.
  assert (L: forall x, x < 2 ^ 8 -> N.log2 x < 8).
  { intros [|p] H; [reflexivity|apply N.log2_lt_pow2; [reflexivity|exact H]]. }
  intros a b Ha Hb. destruct (N.eq_0_gt_0_cases (N.lxor a b)) as [->|P]; [reflexivity|].
  change 256 with (2 ^ 8). apply N.log2_lt_pow2; [exact P|].
  eapply N.le_lt_trans; [apply N.log2_lxor|]. apply N.max_lub_lt; apply L; assumption.
Qed.

Lemma nth_bytes_ok key i : bytes_ok key -> nth i key 0 < 256.
Proof.
  intros H. destruct (Nat.lt_ge_cases i (length key)) as [L|L].
  - unfold bytes_ok in H. rewrite Forall_forall in H. apply H. apply nth_In. exact L.
  - rewrite nth_overflow by exact L. lia.
Qed.

Lemma mask_from_ok key : bytes_ok key -> forall l i, bytes_ok l -> bytes_ok (mask_from i key l).
Proof.
  intros Hk. induction l as [|b l IH]; intros i H; cbn [mask_from]; [constructor|].
  inversion H; subst. constructor; [|apply IH; assumption].
  apply lxor_byte; [assumption|apply nth_bytes_ok; exact Hk].
Qed.

Lemma ws_hdr_shape op final len : op < 128 -> len < 2 ^ 63 ->
  exists len7 ext, ws_hdr op final len = [(if final then 1 else 0) * 128 + op; len7] ++ ext /\ len7 < 128 /\
    (len7 < 126 -> ext = [] /\ len = len7) /\
    (len7 = 126 -> length ext = 2%nat /\ be_dec ext = len /\ 126 <= len) /\
    (len7 = 127 -> length ext = 8%nat /\ be_dec ext = len /\ 65536 <= len) /\ bytes_ok ext.
Proof.
  intros Hop Hlen. destruct (ws_hdr_form op final len) as (len7 & ext & E & F). exists len7, ext.
  split; [rewrite E; cbn [app]; f_equal; destruct final; [rewrite lor128_add by exact Hop|]; lia|].
  assert (H64: 2 ^ 63 < 2 ^ 64) by reflexivity.
  destruct F as [H|H|H]; (split; [lia|]).
  - split; [auto|]. split; [lia|]. split; [lia|constructor].
  - split; [lia|]. split; [|split; [lia|apply be_enc_ok]].
    intros _. rewrite be_enc_length, be_dec_enc_small by (cbn; lia). repeat split. lia.
  - split; [lia|]. split; [lia|]. split; [|apply be_enc_ok].
    intros _. rewrite be_enc_length, be_dec_enc_small by (cbn; lia). repeat split. lia.
Qed.

Lemma ws_encode_wf (server : bool) (key : list byte) (op : N) (final : bool) (payload : list byte) :
  ws_known_op op -> (8 <= op -> final = true /\ N.of_nat (length payload) <= 125) ->
  N.of_nat (length payload) < 2 ^ 63 -> bytes_ok payload -> bytes_ok key -> length key = 4%nat ->
  wf_ws_frame server (ws_encode server key op final payload).
Proof.
  intros Hop Hctl Hlen Hp Hk Hk4.
  assert (Hop128: op < 128) by (unfold ws_known_op in Hop; cbn in Hop; intuition lia).
  destruct (ws_hdr_shape op final _ Hop128 Hlen) as (len7 & ext & E & L7 & S7 & S16 & S64 & Eok).
  (* the frame is header, extension, key and payload, the last two depending on the role *)
  set (fin := if final then 1 else 0) in *.
  set (pl := if server then payload else mask_bytes key payload).
  assert (EQ: ws_encode server key op final payload =
              [fin * 128 + op; (if server then 0 else 128) + len7] ++ ext ++ (if server then [] else key) ++ pl).
  { unfold ws_encode, pl. cbv zeta. rewrite E. destruct server; cbn [set_mask_bit app]; [reflexivity|].
    rewrite lor128_add by exact L7. rewrite firstn_all2 by lia. reflexivity. }
  assert (Lp: length pl = length payload) by (destruct server; [reflexivity|apply mask_bytes_length]).
  rewrite EQ. exists fin, op, len7, ext, (if server then [] else key), pl. rewrite Lp.
  split; [reflexivity|]. split; [unfold fin; destruct final; lia|]. split; [exact Hop|]. split; [exact L7|].
  split; [exact S7|].
  split; [intros H; destruct (S16 H) as (A & B & C); rewrite B; auto|].
  split; [intros H; destruct (S64 H) as (A & B & C); rewrite B; auto|].
  split; [destruct server; [reflexivity|exact Hk4]|].
  split.
  - intros H8. destruct (Hctl H8) as [Hf Hl]. split; [unfold fin; rewrite Hf; reflexivity|].
    destruct (N.lt_ge_cases len7 126) as [A|A]; [lia|].
    destruct (N.eq_dec len7 126) as [B|B]; [destruct (S16 B) as (_ & _ & C); lia|].
    destruct (S64 ltac:(lia)) as (_ & _ & C). lia.
  - unfold bytes_ok. constructor; [unfold fin; destruct final; lia|]. constructor; [destruct server; lia|].
    apply Forall_app. split; [exact Eok|]. apply Forall_app. split; [destruct server; [constructor|exact Hk]|].
    destruct server; [exact Hp|apply mask_from_ok; assumption].
Qed.

Lemma ws_reassembly_bytes cfg frs ms keys :
  c_isstream cfg = false -> msg_seq cfg frs ms -> frames_encodable keys frs -> letin_along cfg ws_init frs ->
  forall p rest, concat (p :: rest) = ws_encode_frames (negb (c_server cfg)) keys frs ->
  let '(d, e) := ws_feed_all cfg ws_dinit (p :: rest) in deliveries e = ms /\ d = ws_dinit.
Proof.
  intros Hm Hs He Ha p rest Hc.
  unfold ws_feed_all. rewrite (feed_all_concat ws_state ws_event ws_want (ws_cb cfg)), Hc.
  change (feed ws_state ws_event ws_want (ws_cb cfg)) with (ws_feed cfg).
  unfold ws_dinit. rewrite (ws_feed_frames cfg frs keys ws_init eq_refl He Ha).
  pose proof (ws_sequence_reassembles cfg Hm frs ms Hs) as R. unfold ws_init in *.
  destruct (ws_frames_run cfg (mkWs SHead false []) frs) as [s1 e1]. destruct R as [A B]. subst s1. auto.
Qed.

Lemma ws_fragment_encodable send_text fragsize : forall fuel count data, (length data < fuel)%nat ->
  Forall (fun f => fr_op f < 128 /\ N.of_nat (length (fr_payload f)) <= N.of_nat (length data))
         (ws_fragment fuel false send_text fragsize count data).
Proof.
  assert (O: forall count, frag_op send_text count < 128).
  { intros count. unfold frag_op. destruct (count =? 0); [destruct send_text|]; reflexivity. }
  apply (ws_fragment_ind send_text fragsize (fun _ data frs =>
    Forall (fun f => fr_op f < 128 /\ N.of_nat (length (fr_payload f)) <= N.of_nat (length data)) frs)).
  - intros count data _. repeat constructor; [apply O|cbn [fr_payload snd]; lia].
  - intros count data frs _ IH. constructor.
    + cbn [fr_op fr_payload fst snd]. split; [apply O|]. rewrite firstn_length. lia.
    + eapply Forall_impl; [|exact IH]. cbv beta. intros fr [A B]. split; [exact A|].
      rewrite skipn_length in B. lia.
Qed.

Lemma ws_fragmentation_bytes cfg send_text fragsize data keys :
  c_isstream cfg = false -> (send_text = true -> c_recv_text cfg = true) ->
  N.of_nat (length data) < 2 ^ 64 ->
  let frs := ws_send_frames false send_text fragsize data in
  (length frs <= length keys)%nat -> Forall (fun k => length k = 4%nat) keys ->
  letin_along cfg ws_init frs ->
  forall p rest, concat (p :: rest) = ws_encode_frames (negb (c_server cfg)) keys frs ->
  let '(d, e) := ws_feed_all cfg ws_dinit (p :: rest) in deliveries e = [data] /\ d = ws_dinit.
Proof.
  intros Hm Ht Hl frs Hk Hk4 Ha.
  apply (ws_reassembly_bytes cfg frs [data] keys Hm (ws_send_frames_seq cfg send_text fragsize data Ht)); [|exact Ha].
  split; [|split; assumption]. unfold frs, ws_send_frames.
  eapply Forall_impl; [|apply ws_fragment_encodable; lia]. cbv beta. intros f [A B]. split; [exact A|lia].
Qed.
