(* Bytes: big-endian fixed-width integer encoding (NNI_PUT16/32/64, NNI_GET16/32/64).
   Big-endian is little-endian reversed, so that both recurse on the head of the list. *)
From Coq Require Import List Lia NArith.
Import ListNotations.
Local Open Scope N_scope.

Definition byte_ok (b : N) : bool := b <? 256.
Definition bytes_ok (l : list N) : Prop := Forall (fun b => b < 256) l.

Fixpoint le_enc (n : nat) (v : N) : list N :=
  match n with O => [] | S k => v mod 256 :: le_enc k (v / 256) end.
Fixpoint le_dec (l : list N) : N :=
  match l with [] => 0 | b :: r => b + 256 * le_dec r end.

Definition be_enc (n : nat) (v : N) : list N := rev (le_enc n v).
Definition be_dec (l : list N) : N := le_dec (rev l).

Lemma le_enc_length n v : length (le_enc n v) = n.
Proof. revert v; induction n; simpl; intros; [reflexivity|now rewrite IHn]. Qed.

Lemma be_enc_length n v : length (be_enc n v) = n.
Proof. unfold be_enc. now rewrite rev_length, le_enc_length. Qed.

Lemma le_dec_enc n v : le_dec (le_enc n v) = v mod 256 ^ N.of_nat n.
Proof.
  revert v; induction n as [|n IH]; intros v.
  - simpl. now rewrite N.mod_1_r.
  - cbn [le_enc le_dec]. rewrite IH.
    rewrite Nat2N.inj_succ, N.pow_succ_r'.
    rewrite N.mod_mul_r by (try apply N.pow_nonzero; lia). reflexivity.
Qed.

Theorem be_dec_enc n v : be_dec (be_enc n v) = v mod 256 ^ N.of_nat n.
Proof. unfold be_dec, be_enc. rewrite rev_involutive. apply le_dec_enc. Qed.

Corollary be_dec_enc_small n v : v < 256 ^ N.of_nat n -> be_dec (be_enc n v) = v.
Proof. intros H. rewrite be_dec_enc. now apply N.mod_small. Qed.

Lemma le_enc_ok n v : bytes_ok (le_enc n v).
Proof.
  revert v; induction n; intros v; simpl; constructor.
  - apply N.mod_lt. lia.
  - apply IHn.
Qed.

Lemma be_enc_ok n v : bytes_ok (be_enc n v).
Proof. unfold be_enc, bytes_ok. apply Forall_rev. apply le_enc_ok. Qed.

Lemma le_dec_bound l : bytes_ok l -> le_dec l < 256 ^ N.of_nat (length l).
Proof.
  induction 1 as [|b l Hb Hl IH]; simpl length.
  - simpl. lia.
  - cbn [le_dec]. rewrite Nat2N.inj_succ, N.pow_succ_r'. nia.
Qed.

Lemma le_enc_dec l : bytes_ok l -> le_enc (length l) (le_dec l) = l.
Proof.
  induction 1 as [|b l Hb Hl IH]; [reflexivity|].
  cbn [length le_enc le_dec].
  assert (E1: (b + 256 * le_dec l) mod 256 = b).
  { rewrite N.mul_comm, N.mod_add by lia. now apply N.mod_small. }
  assert (E2: (b + 256 * le_dec l) / 256 = le_dec l).
  { rewrite N.mul_comm, N.div_add by lia. rewrite (N.div_small b) by exact Hb. lia. }
  rewrite E1, E2.
  now rewrite IH.
Qed.

Theorem be_enc_dec l : bytes_ok l -> be_enc (length l) (be_dec l) = l.
Proof.
  intros H. unfold be_enc, be_dec.
  rewrite <- (rev_length l). rewrite le_enc_dec.
  - apply rev_involutive.
  - apply Forall_rev. exact H.
Qed.

(* the four base-256 digits of a 32-bit value, most significant first, recombined: one digit
   is peeled off at a time, and the fourth quotient is 0 *)
Lemma digits32 v : v < 4294967296 ->
  (v / 16777216) mod 256 * 16777216 + (v / 65536) mod 256 * 65536 + (v / 256) mod 256 * 256 + v mod 256 = v.
Proof.
  intros H.
  pose proof (N.div_mod' v 256) as E0.
  pose proof (N.div_mod' (v / 256) 256) as E1.
  pose proof (N.div_mod' (v / 65536) 256) as E2.
  pose proof (N.div_mod' (v / 16777216) 256) as E3.
  rewrite N.div_div in E1, E2, E3 by discriminate. change (256 * 256) with 65536 in E1.
  change (65536 * 256) with 16777216 in E2. change (16777216 * 256) with 4294967296 in E3.
  rewrite (N.div_small v 4294967296 H) in E3.
  clear H. lia.
Qed.
