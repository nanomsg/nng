(* Ring: a circular window over a cell array, with checked access. *)
From Coq Require Import List Arith Lia.
Import ListNotations.

Section Ring.
Context {A : Type} (d : A).

Definition rd (cells : list A) (i : nat) : option A := nth_error cells i.
Fixpoint upd (cells : list A) (i : nat) (x : A) : list A :=
  match cells, i with
  | [], _ => []
  | _ :: r, O => x :: r
  | c :: r, S j => c :: upd r j x
  end.
Definition wr (cells : list A) (i : nat) (x : A) : option (list A) :=
  if i <? length cells then Some (upd cells i x) else None.

Lemma upd_length cells i x : length (upd cells i x) = length cells.
Proof. revert i; induction cells; intros [|i]; simpl; auto. Qed.

Lemma nth_upd_same cells i x : i < length cells -> nth i (upd cells i x) d = x.
Proof.
  revert i; induction cells as [|c r IH]; intros i H; simpl in H; [lia|].
  destruct i as [|i]; simpl; [reflexivity|]. apply IH. lia.
Qed.

Lemma nth_upd_other cells i j x : i <> j -> nth j (upd cells i x) d = nth j cells d.
Proof.
  revert i j; induction cells as [|c r IH]; intros i j H; [destruct i; reflexivity|].
  destruct i as [|i], j as [|j]; simpl; try reflexivity; try lia.
  apply IH. lia.
Qed.

Lemma rd_Some cells i : i < length cells -> rd cells i = Some (nth i cells d).
Proof. intros H. unfold rd. now apply nth_error_nth'. Qed.

Lemma wr_Some cells i x : i < length cells -> wr cells i x = Some (upd cells i x).
Proof. intros H. unfold wr. apply Nat.ltb_lt in H. now rewrite H. Qed.

(* the [len] cells starting at [get], wrapping modulo the array size *)
Definition window (cells : list A) (get len : nat) : list A :=
  map (fun i => nth ((get + i) mod length cells) cells d) (seq 0 len).

Lemma window_length cells get len : length (window cells get len) = len.
Proof. unfold window. now rewrite map_length, seq_length. Qed.

Lemma window_0 cells get : window cells get 0 = [].
Proof. reflexivity. Qed.

Lemma window_get cells get len :
  get < length cells ->
  window cells get (S len) = nth get cells d :: window cells ((get + 1) mod length cells) len.
Proof.
  intros H. unfold window. cbn [seq map]. rewrite Nat.add_0_r, Nat.mod_small by lia. f_equal.
  rewrite <- seq_shift, map_map. apply map_ext. intros i.
  rewrite Nat.add_mod_idemp_l by lia. f_equal. f_equal. lia.
Qed.

Lemma window_snoc cells get len :
  window cells get (S len) = window cells get len ++ [nth ((get + len) mod length cells) cells d].
Proof. unfold window. rewrite seq_S, map_app. reflexivity. Qed.

(* two offsets less than n apart land on different cells *)
Lemma mod_neq n a i len : 0 < n -> i < len -> len < n -> (a + i) mod n <> (a + len) mod n.
Proof.
  intros Hn Hi Hl E.
  pose proof (Nat.div_mod (a + i) n ltac:(lia)) as E1.
  pose proof (Nat.div_mod (a + len) n ltac:(lia)) as E2.
  pose proof (Nat.mod_upper_bound (a + i) n ltac:(lia)).
  rewrite E in E1.
  assert (n * ((a + len) / n) - n * ((a + i) / n) = len - i) by lia.
  assert ((a + i) / n <= (a + len) / n) by (apply Nat.div_le_mono; lia).
  assert (n * ((a + len) / n - (a + i) / n) = len - i) by (rewrite Nat.mul_sub_distr_l; lia).
  destruct ((a + len) / n - (a + i) / n) eqn:Q; nia.
Qed.

Lemma window_put cells get len x :
  len < length cells ->
  window (upd cells ((get + len) mod length cells) x) get (S len) = window cells get len ++ [x].
Proof.
  intros H. rewrite window_snoc. rewrite upd_length. f_equal.
  - unfold window. rewrite upd_length. apply map_ext_in. intros i Hi. apply in_seq in Hi.
    apply nth_upd_other. intros E. symmetry in E. revert E. apply mod_neq; lia.
  - f_equal. apply nth_upd_same. apply Nat.mod_upper_bound. lia.
Qed.

Lemma window_prefix (l r : list A) : window (l ++ r) 0 (length l) = l.
Proof.
  unfold window. rewrite app_length.
  apply nth_ext with (d := d) (d' := d).
  - now rewrite map_length, seq_length.
  - intros n Hn. rewrite map_length, seq_length in Hn.
    rewrite (nth_indep _ d (nth ((0 + 0) mod (length l + length r)) (l ++ r) d)) by (now rewrite map_length, seq_length).
    rewrite (map_nth (fun i => nth ((0 + i) mod (length l + length r)) (l ++ r) d)).
    rewrite seq_nth by lia. cbn [Nat.add]. rewrite Nat.mod_small by lia. now rewrite app_nth1.
Qed.

End Ring.
