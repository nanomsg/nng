(* ListX: checked buffer primitives (blit/sub), firstn/skipn algebra, membership and distinctness
   through append, filter, map, firstn and skipn. *)
From Coq Require Import List Arith Lia NArith.
Import ListNotations.

Definition byte := N.

(* A checked read of [len] bytes at offset [off]: None when out of range. *)
Definition sub {A} (buf : list A) (off len : nat) : option (list A) :=
  if off + len <=? length buf then Some (firstn len (skipn off buf)) else None.

(* A checked write of [src] at offset [off]: None when out of range. *)
Definition blit {A} (buf : list A) (off : nat) (src : list A) : option (list A) :=
  if off + length src <=? length buf
  then Some (firstn off buf ++ src ++ skipn (off + length src) buf)
  else None.

Definition zeros (n : nat) : list byte := repeat 0%N n.

Lemma zeros_length n : length (zeros n) = n.
Proof. apply repeat_length. Qed.

Lemma sub_Some {A} (buf : list A) off len :
  off + len <= length buf -> sub buf off len = Some (firstn len (skipn off buf)).
Proof. intros H. unfold sub. apply Nat.leb_le in H. rewrite H. reflexivity. Qed.

Lemma sub_length {A} (buf : list A) off len d :
  sub buf off len = Some d -> length d = len /\ off + len <= length buf.
Proof.
  unfold sub. destruct (off + len <=? length buf) eqn:E; [|discriminate].
  apply Nat.leb_le in E. intros H; inversion H; subst.
  rewrite firstn_length, skipn_length. lia.
Qed.

Lemma blit_Some {A} (buf : list A) off src :
  off + length src <= length buf ->
  blit buf off src = Some (firstn off buf ++ src ++ skipn (off + length src) buf).
Proof. intros H. unfold blit. apply Nat.leb_le in H. rewrite H. reflexivity. Qed.

Lemma blit_length {A} (buf : list A) off src b' :
  blit buf off src = Some b' -> length b' = length buf /\ off + length src <= length buf.
Proof.
  unfold blit. destruct (off + length src <=? length buf) eqn:E; [|discriminate].
  apply Nat.leb_le in E. intros H; inversion H; subst.
  rewrite !app_length, firstn_length, skipn_length. lia.
Qed.

Lemma firstn_app_exact {A} (l1 l2 : list A) n : n = length l1 -> firstn n (l1 ++ l2) = l1.
Proof. intros ->. rewrite firstn_app, Nat.sub_diag, firstn_all. simpl. apply app_nil_r. Qed.

Lemma skipn_app_exact {A} (l1 l2 : list A) n : n = length l1 -> skipn n (l1 ++ l2) = l2.
Proof. intros ->. rewrite skipn_app, Nat.sub_diag, skipn_all. reflexivity. Qed.

Lemma firstn_app_le {A} (l1 l2 : list A) n : n <= length l1 -> firstn n (l1 ++ l2) = firstn n l1.
Proof. intros H. rewrite firstn_app. replace (n - length l1) with 0 by lia. simpl. apply app_nil_r. Qed.

Lemma skipn_app_ge {A} (l1 l2 : list A) n : length l1 <= n -> skipn n (l1 ++ l2) = skipn (n - length l1) l2.
Proof. intros H. rewrite skipn_app. rewrite (skipn_all2 l1) by lia. reflexivity. Qed.

(* primed here and below: the standard library of Coq 8.16 has no skipn_skipn, skipn_repeat, firstn_repeat *)
Lemma skipn_skipn' {A} (l : list A) a b : skipn a (skipn b l) = skipn (a + b) l.
Proof.
  revert l; induction b as [|b IH]; intros l.
  - rewrite Nat.add_0_r. reflexivity.
  - destruct l as [|x l]. { now rewrite !skipn_nil. }
    replace (a + S b) with (S (a + b)) by lia. simpl. apply IH.
Qed.

Lemma firstn_skipn_split {A} (l : list A) a b :
  firstn (a + b) l = firstn a l ++ firstn b (skipn a l).
Proof.
  revert l; induction a as [|a IH]; intros l; simpl; [reflexivity|].
  destruct l as [|x l]; simpl. { now rewrite firstn_nil. } now rewrite IH.
Qed.

(* what a read sees after a write *)
Lemma sub_blit_same {A} (buf : list A) off src b' :
  blit buf off src = Some b' -> sub b' off (length src) = Some src.
Proof.
  intros H. pose proof (blit_length _ _ _ _ H) as [HL Hle].
  unfold blit in H. destruct (off + length src <=? length buf); [|discriminate].
  inversion H; subst b'; clear H.
  unfold sub.
  assert (E: off + length src <=? length (firstn off buf ++ src ++ skipn (off + length src) buf) = true).
  { apply Nat.leb_le. lia. }
  rewrite E. f_equal.
  rewrite skipn_app_exact by (rewrite firstn_length; lia).
  apply firstn_app_exact; reflexivity.
Qed.

(* a read of a region lying after the written one, shifted *)
Lemma firstn_skipn_blit_after {A} (buf : list A) off src n :
  off + length src <= length buf ->
  firstn n (skipn (off + length src) (firstn off buf ++ src ++ skipn (off + length src) buf))
  = firstn n (skipn (off + length src) buf).
Proof.
  intros H. f_equal.
  rewrite app_assoc. apply skipn_app_exact.
  rewrite app_length, firstn_length. lia.
Qed.

Lemma firstn_firstn_le {A} (l : list A) a b : a <= b -> firstn a (firstn b l) = firstn a l.
Proof. intros H. rewrite firstn_firstn. f_equal. lia. Qed.

(* stdlib firstn_skipn_comm read from right to left (stdlib skipn_firstn_comm is another statement) *)
Lemma skipn_firstn_comm' {A} (l : list A) a b : skipn a (firstn (a + b) l) = firstn b (skipn a l).
Proof.
  revert l; induction a as [|a IH]; intros l; simpl; [reflexivity|].
  destruct l as [|x l]; simpl. { now rewrite firstn_nil. } apply IH.
Qed.

Lemma firstn_app_full {A} (l1 l2 : list A) n :
  length l1 <= n -> firstn n (l1 ++ l2) = l1 ++ firstn (n - length l1) l2.
Proof. intros H. rewrite firstn_app. rewrite firstn_all2 by lia. reflexivity. Qed.

Lemma app_firstn_skipn_mid {A} (l : list A) a b :
  firstn b (skipn a l) ++ skipn (a + b) l = skipn a l.
Proof.
  rewrite (Nat.add_comm a b), <- skipn_skipn'. apply firstn_skipn.
Qed.

Lemma skipn_repeat' {A} (x : A) n k : skipn k (repeat x n) = repeat x (n - k).
Proof.
  revert k; induction n as [|n IH]; intros k.
  - now rewrite skipn_nil.
  - destruct k; [reflexivity|]. simpl. apply IH.
Qed.

Lemma firstn_repeat' {A} (x : A) n k : firstn k (repeat x n) = repeat x (Nat.min k n).
Proof.
  revert k; induction n as [|n IH]; intros k.
  - rewrite firstn_nil. now rewrite Nat.min_0_r.
  - destruct k; [reflexivity|]. simpl. now rewrite IH.
Qed.

Lemma nodup_snoc {A} (l : list A) (a : A) : NoDup l -> ~ In a l -> NoDup (l ++ [a]).
Proof.
  induction l as [|q l IH]; cbn; intros H Ha.
  - constructor; [tauto|constructor].
  - inversion H; subst. constructor.
    + intros Hin. apply in_app_or in Hin as [Hin|[<-|[]]]; [auto|]. apply Ha. now left.
    + apply IH; auto.
Qed.

Lemma in_map_filter {A B} (f : A -> B) (g : A -> bool) l y : In y (map f (filter g l)) -> In y (map f l).
Proof. rewrite !in_map_iff. intros (x & E & Hx). apply filter_In in Hx. exists x. tauto. Qed.

Lemma nodup_filter {A B} (f : A -> B) (g : A -> bool) l : NoDup (map f l) -> NoDup (map f (filter g l)).
Proof.
  induction l as [|x l IH]; cbn [map filter]; [auto|]. intros H. inversion H; subst.
  destruct (g x); cbn [map]; [|auto]. constructor; [|auto]. intros X. apply H2. exact (in_map_filter _ _ _ _ X).
Qed.

Lemma filter_len_le {A} (f : A -> bool) (l : list A) : length (filter f l) <= length l.
Proof. induction l as [|x l IH]; cbn; [lia|]. destruct (f x); cbn; lia. Qed.

Lemma NoDup_map_inj_on {A B} (f : A -> B) (l : list A) :
  NoDup l -> (forall x y, In x l -> In y l -> f x = f y -> x = y) -> NoDup (map f l).
Proof.
  induction 1 as [|a l Ha Hl IH]; cbn [map]; intros Hf; constructor.
  - intros X. apply in_map_iff in X as (y & E & Hy). apply Ha.
    rewrite <- (Hf y a (or_intror Hy) (or_introl eq_refl) E). exact Hy.
  - apply IH. intros x y Hx Hy. apply Hf; now right.
Qed.

Lemma NoDup_skipn {A} n (l : list A) : NoDup l -> NoDup (skipn n l).
Proof. revert n. induction l as [|a l IH]; intros [|n] H; cbn; auto. inversion H; subst. apply IH; auto. Qed.
Lemma in_firstn {A} n (l : list A) x : In x (firstn n l) -> In x l.
Proof. rewrite <- (firstn_skipn n l) at 2. intros H. apply in_or_app. now left. Qed.
Lemma in_skipn {A} n (l : list A) x : In x (skipn n l) -> In x l.
Proof. rewrite <- (firstn_skipn n l) at 2. intros H. apply in_or_app. now right. Qed.

(* lists of pairs keyed by a number: selecting or dropping the entries of one key *)
Lemma filter_keep_notin {A} (p : N) (l : list (N * A)) :
  ~ In p (map fst l) -> filter (fun x => negb (N.eqb (fst x) p)) l = l.
Proof.
  induction l as [|[k v] l IH]; cbn; intros H; [reflexivity|].
  destruct (N.eqb_spec k p); cbn; [exfalso; apply H; auto|]. f_equal. apply IH. tauto.
Qed.
Lemma filter_eq_notin {A} (p : N) (l : list (N * A)) :
  ~ In p (map fst l) -> filter (fun x => N.eqb (fst x) p) l = [].
Proof.
  induction l as [|[k v] l IH]; cbn; intros H; [reflexivity|].
  destruct (N.eqb_spec k p); cbn; [exfalso; apply H; auto|]. apply IH. tauto.
Qed.
Lemma notin_filter_self {A} (p : N) (l : list (N * A)) :
  ~ In p (map fst (filter (fun x => negb (N.eqb (fst x) p)) l)).
Proof.
  rewrite in_map_iff. intros (x & E & Hx). apply filter_In in Hx as [_ Hx]. now rewrite E, N.eqb_refl in Hx.
Qed.

Lemma pow2_pos k : 0 < 2 ^ k.
Proof. induction k; simpl; lia. Qed.

(* a boolean test swept over an initial segment of the numbers holds of each of them *)
Lemma forall_below (n : nat) (P : N -> bool) :
  forallb P (map N.of_nat (seq 0 n)) = true -> forall b, (b < N.of_nat n)%N -> P b = true.
Proof.
  intros H b Hb. rewrite forallb_forall in H. apply H. apply in_map_iff. exists (N.to_nat b).
  split; [apply N2Nat.id|]. apply in_seq. lia.
Qed.

(* positions in a suffix and in a prefix *)
Lemma nth_skipn_add {A} (l : list A) n i d : nth i (skipn n l) d = nth (n + i) l d.
Proof. revert l; induction n as [|n IH]; intros [|x r]; cbn; auto. destruct i; reflexivity. Qed.
Lemma nth_error_skipn_add {A} (l : list A) n k : nth_error (skipn n l) k = nth_error l (n + k).
Proof. revert l; induction n as [|n IH]; intros [|x r]; cbn; auto. destruct k; reflexivity. Qed.
Lemma nth_error_firstn' {A} (l : list A) n j :
  nth_error (firstn n l) j = if Nat.ltb j n then nth_error l j else None.
Proof.
  revert n j. induction l as [|x r IH]; intros n j.
  - rewrite firstn_nil. destruct j; destruct (Nat.ltb _ n); reflexivity.
  - destruct n as [|n]; [destruct j; reflexivity|]. destruct j as [|j]; [reflexivity|]. simpl. rewrite IH. reflexivity.
Qed.
Lemma skipn_nth_cons {A} (T : list A) i e : nth_error T i = Some e -> skipn i T = e :: skipn (S i) T.
Proof.
  revert i; induction T as [|a T IH]; intros i H; [destruct i; discriminate|].
  destruct i; cbn in *; [now inversion H|]. now apply IH.
Qed.

(* dropping the middle of a duplicate-free append *)
Lemma nodup_mid_remove {A} (a s b : list A) : NoDup (a ++ s ++ b) -> NoDup (a ++ b) /\ forall k, In k s -> ~ In k (a ++ b).
Proof.
  induction s as [|x s IH]; cbn [app]; intros H; [split; [exact H|contradiction]|].
  apply NoDup_remove in H as [H1 H2]. destruct (IH H1) as [A1 A2]. split; [exact A1|].
  intros k [<-|Hk]; [|auto]. intros X. apply H2. apply in_app_or in X as [X|X]; apply in_or_app; [now left|].
  right. apply in_or_app. now right.
Qed.
