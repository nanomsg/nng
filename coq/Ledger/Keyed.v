(* Keyed: lists of (key, record) pairs as the protocol models keep them for contexts and pipes,
   and the weighted sums over them.  Stated on ReqModel.lookup / assoc_set / assoc_del;
   SurveyModel.kget / kset / kdel are the same fixpoints under other names (convertible), so
   every lemma applies to them as it stands. *)
From Coq Require Import List Arith NArith Bool Lia.
From NngV Require Import Proto.Common Proto.ReqModel Proto.ReqRepProofs Ledger.Ledger Ledger.LedgerProofs.
From NngV Require Base.ListX.
Import ListNotations.

Lemma wsum_snoc {B} (G : B -> nat) (l : list B) z : wsum G (l ++ [z]) = wsum G l + G z.
Proof. rewrite wsum_app, wsum_cons, wsum_nil. lia. Qed.
Lemma wsum_plus {B} (f g : B -> nat) (l : list B) : wsum (fun x => f x + g x) l = wsum f l + wsum g l.
Proof. induction l as [|x l IH]; [reflexivity|]. rewrite !wsum_cons, IH. lia. Qed.
Lemma wsum_firstn_skipn {B} (G : B -> nat) n l : wsum G l = wsum G (firstn n l) + wsum G (skipn n l).
Proof. rewrite <- wsum_app, firstn_skipn. reflexivity. Qed.

Section Keyed.
  Context {A : Type}.
  Implicit Types (l : list (N * A)) (G : N * A -> nat).

  Lemma forall_aset (P : N * A -> Prop) k y l : Forall P l -> P (k, y) -> Forall P (assoc_set k y l).
  Proof.
    intros H Hy. apply Forall_forall. intros x Hx. destruct (in_assoc_set _ _ _ _ Hx) as [->|Hi]; [exact Hy|].
    exact (proj1 (Forall_forall P l) H x Hi).
  Qed.

  (* weighted sums under update, insertion and deletion *)
  Lemma wsum_aset G k y l x : lookup k l = Some x -> wsum G l + G (k, y) = G (k, x) + wsum G (assoc_set k y l).
  Proof.
    intros H. destruct (lookup_split _ _ _ H) as (l1 & l2 & -> & _ & Hs). rewrite Hs, !wsum_app, !wsum_cons. lia.
  Qed.
  Lemma wsum_aset_none G k y l : lookup k l = None -> wsum G (assoc_set k y l) = wsum G l + G (k, y).
  Proof.
    induction l as [|[k' v] l IH]; cbn [lookup assoc_set]; intros H.
    - rewrite wsum_cons, !wsum_nil. lia.
    - destruct (N.eqb_spec k' k); [discriminate|]. rewrite !wsum_cons, (IH H). lia.
  Qed.
  Lemma wsum_adel G k l x : NoDup (map fst l) -> lookup k l = Some x -> wsum G l = G (k, x) + wsum G (assoc_del k l).
  Proof.
    intros Hn H. destruct (lookup_split _ _ _ H) as (l1 & l2 & -> & H1 & _).
    rewrite map_app in Hn. apply NoDup_remove_2 in Hn. unfold assoc_del.
    rewrite filter_app. cbn [filter fst]. rewrite N.eqb_refl. cbn [negb].
    rewrite !ListX.filter_keep_notin, !wsum_app, wsum_cons; [lia| |exact H1].
    intros Hi. apply Hn. apply in_or_app. right. exact Hi.
  Qed.

  (* messages a keyed list of pipe records has handed to the transport: those of record x are
     in flight on the pipe x is keyed by *)
  Variable h : A -> list pmsg.
  Definition ptx l : list (N * pmsg) := flat_map (fun px => map (fun m => (fst px, m)) (h (snd px))) l.

  Lemma ptx_app a b : ptx (a ++ b) = ptx a ++ ptx b.
  Proof. apply flat_map_app. Qed.
  Lemma ptx_cons p x l : ptx ((p, x) :: l) = map (fun m => (p, m)) (h x) ++ ptx l.
  Proof. reflexivity. Qed.
  Lemma ptx_all_empty l : Forall (fun px => h (snd px) = []) l -> ptx l = [].
  Proof.
    induction 1 as [|px l Hx _ IH]; [reflexivity|]. cbn [ptx flat_map]. fold (ptx l). now rewrite Hx, IH.
  Qed.
  Lemma wsum_ptx (F : owner * key -> nat) l :
    wsum (fun x => F (OPipe (fst x), body (snd x))) (ptx l)
    = wsum (fun px => wsum (fun m => F (OPipe (fst px), body m)) (h (snd px))) l.
  Proof. unfold ptx. rewrite wsum_flat_map. apply wsum_ext. intros x _. now rewrite wsum_map. Qed.

  Lemma tx_of_app p (a b : list (N * pmsg)) : tx_of p (a ++ b) = tx_of p a ++ tx_of p b.
  Proof. unfold tx_of. now rewrite filter_app, map_app. Qed.
  Lemma tx_of_tag p k (ms : list pmsg) : tx_of p (map (fun m => (k, m)) ms) = if N.eqb k p then ms else [].
  Proof.
    unfold tx_of. induction ms as [|m ms IH]; cbn [map filter fst]; [destruct (N.eqb k p); reflexivity|].
    destruct (N.eqb k p); cbn [map snd]; [now rewrite IH|exact IH].
  Qed.
  Lemma tx_of_ptx_notin p l : ~ In p (map fst l) -> tx_of p (ptx l) = [].
  Proof.
    induction l as [|[k v] l IH]; cbn [map fst]; intros H; [reflexivity|].
    rewrite ptx_cons, tx_of_app, tx_of_tag, IH by (intros Hi; apply H; right; exact Hi).
    destruct (N.eqb_spec k p); [exfalso; apply H; left; auto|reflexivity].
  Qed.
  Lemma tx_of_ptx_mid p l1 x l2 : NoDup (map fst (l1 ++ (p, x) :: l2)) -> tx_of p (ptx (l1 ++ (p, x) :: l2)) = h x.
  Proof.
    intros Hn. rewrite map_app in Hn. cbn [map fst] in Hn. pose proof (NoDup_remove_2 _ _ _ Hn) as Hp.
    rewrite ptx_app, ptx_cons, !tx_of_app, tx_of_tag, N.eqb_refl, !tx_of_ptx_notin, app_nil_r; [reflexivity| |];
      intros Hi; apply Hp; apply in_or_app; [right|left]; exact Hi.
  Qed.
  Lemma tx_of_ptx_none p l : lookup p l = None -> tx_of p (ptx l) = [].
  Proof. intros H. apply tx_of_ptx_notin. now apply lookup_none_notin. Qed.
  Lemma tx_of_ptx_some p l x : NoDup (map fst l) -> lookup p l = Some x -> tx_of p (ptx l) = h x.
  Proof. intros Hn H. destruct (lookup_split _ _ _ H) as (l1 & l2 & -> & _). now apply tx_of_ptx_mid. Qed.
End Keyed.

Lemma find_none_filter {A} (t : A -> bool) l : find t l = None -> filter t l = [].
Proof. induction l as [|a l IH]; cbn [find filter]; [reflexivity|]. destruct (t a); [discriminate|exact IH]. Qed.
Lemma tx_of_flat_map {A} (key : A -> N) (h : A -> list pmsg) p l :
  tx_of p (flat_map (fun y => map (fun m => (key y, m)) (h y)) l) = flat_map h (filter (fun y => N.eqb (key y) p) l).
Proof.
  induction l as [|y l IH]; [reflexivity|]. cbn [flat_map filter]. rewrite tx_of_app, tx_of_tag, IH.
  destruct (N.eqb (key y) p); reflexivity.
Qed.

Lemma wsum_map_if {A} (G : A -> nat) (t : A -> bool) (f : A -> A) l :
  wsum G (map (fun y => if t y then f y else y) l) + wsum G (filter t l)
  = wsum G l + wsum (fun y => G (f y)) (filter t l).
Proof. induction l as [|a l IH]; cbn [map filter]; [reflexivity|]. destruct (t a); rewrite !wsum_cons; lia. Qed.

(* lists of records that carry their own key: with unique keys, the test "has key k" selects
   the one record that find returns *)
Section Records.
  Context {A K : Type} (key : A -> K) (eqb : K -> K -> bool).
  Hypothesis eqb_eq : forall a b, eqb a b = true -> a = b.

  Lemma filter_find_unique k l x :
    NoDup (map key l) -> find (fun y => eqb (key y) k) l = Some x -> filter (fun y => eqb (key y) k) l = [x].
  Proof.
    induction l as [|y l IH]; intros ND Fd; [discriminate|].
    cbn [map] in ND. inversion ND as [|? ? Hni ND']; subst. cbn [find filter] in *.
    destruct (eqb (key y) k) eqn:E; [|apply IH; assumption].
    injection Fd as <-. f_equal. destruct (filter _ l) as [|z r] eqn:Fz; [reflexivity|]. exfalso.
    assert (Hz : In z (filter (fun y => eqb (key y) k) l)) by (rewrite Fz; left; reflexivity).
    apply filter_In in Hz as [Hz Ez]. apply Hni. rewrite (eqb_eq _ _ E), <- (eqb_eq _ _ Ez). apply in_map, Hz.
  Qed.
  Lemma wsum_upd_found (G : A -> nat) k f l x :
    NoDup (map key l) -> find (fun y => eqb (key y) k) l = Some x ->
    wsum G (map (fun y => if eqb (key y) k then f y else y) l) + G x = wsum G l + G (f x).
  Proof.
    intros ND Fd. pose proof (wsum_map_if G (fun y => eqb (key y) k) f l) as E.
    rewrite (filter_find_unique k l x ND Fd), !wsum_cons, !wsum_nil in E. lia.
  Qed.
  Lemma wsum_del_found (G : A -> nat) k l x :
    NoDup (map key l) -> find (fun y => eqb (key y) k) l = Some x ->
    wsum G l = G x + wsum G (filter (fun y => negb (eqb (key y) k)) l).
  Proof.
    intros ND Fd. rewrite (wsum_filter_split G (fun y => eqb (key y) k) l), (filter_find_unique k l x ND Fd),
      wsum_cons, wsum_nil. lia.
  Qed.
End Records.

