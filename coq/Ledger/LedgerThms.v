(* LedgerThms: what the law of a protocol gives, for every history (generic, proved once):
   - the ledger stays balanced and equal to the state's ownership view (ledger_balanced_run);
   - per step: a failed send leaves its message attached to the aio, the caller's (OBack a);
     a successful send hands the reference to the library (OAio a -> OProto); a successful
     receive hands exactly one protocol reference to the caller (OProto -> OBack a); a send
     whose aio slot was emptied before the refusal loses the message (OLost) -- the BUS
     defect of the pinned tree;
   - over a whole history every library-side reference that came in went out exactly once
     or is still held (lib_balance_run);
   - once the state is drained (nothing in flight, no queued send, only queue contents that
     the fini functions free), the fini frees leave the library with nothing (fini_clears). *)
From Coq Require Import List Arith NArith Bool Lia Permutation.
From NngV Require Import Proto.Common Ledger.Ledger Ledger.LedgerProofs.
Import ListNotations.

Section Thms.
  Context {St : Type} (V : view St) (step : St -> pop -> St * list pout)
          (Inv : St -> Prop) (ok : St -> pop -> Prop).
  Hypothesis Hlaw : proto_law V step Inv ok.

  Theorem ledger_balanced_run : forall ops s L, Inv s -> linv V L s -> ops_ok step ok s ops ->
    exists L', replay_run V step L s ops = Some (L', run step s ops) /\
      balanced (ls_led L') /\ mseq (lib_refs (ls_led L')) (omega V (run step s ops)) /\
      lib_ref_count (ls_led L') = length (omega V (run step s ops)).
  Proof.
    intros ops s L Hi Hl Hok. destruct (replay_run_ok V step Inv ok Hlaw ops s L Hi Hl Hok) as [L' [R [[[Hb _] Hm] _]]].
    exists L'. split; [exact R|]. split; [exact Hb|]. split; [exact Hm|]. unfold lib_ref_count. apply mseq_length, Hm.
  Qed.

  Lemma linv_init s : omega V s = [] -> linv V ls_init s.
  Proof.
    intros H. split.
    - split; [split; [constructor|constructor]|intros e []].
    - rewrite H. apply mseq_refl.
  Qed.

  Lemma dels_only_lib x s o outs : ~ In (cls (fst x)) [1; 3; 4] -> cnt x (dels (step_evs V s o outs)) = 0.
  Proof.
    intros Hc. rewrite (step_evs_split V), !dels_app, !cnt_app.
    rewrite (cnt_zero_cls _ _ _ (op_dels_cls V s o)) by (cbn in *; intuition lia).
    rewrite (cnt_zero_cls _ _ _ (sends_dels_cls V s o outs)) by (cbn in *; intuition lia).
    rewrite (mid_dels V s o), cnt_nil.
    rewrite (cnt_zero_cls _ _ _ (outs_dels_cls _)) by (cbn in *; intuition lia). reflexivity.
  Qed.

  Lemma in_adds_pos x e E : In e E -> In x (aev_add e) -> 0 < cnt x (adds E).
  Proof.
    intros He Hx. apply cnt_pos_in. unfold adds. apply in_flat_map. exists e. split; auto.
  Qed.

  Lemma sends_event s o outs a rv k :
    In (Complete a rv None) outs -> send_key V s o a = Some k ->
    In (if N.eqb rv 0 then AMove (OAio a) k OProto
        else if has_id a (v_detach V s o) then AMove (OAio a) k OLost else AMove (OAio a) k (OBack a))
       (evs_sends V s o outs).
  Proof.
    intros Hin Hk. induction outs as [|x r IH]; [destruct Hin|]. cbn [evs_sends]. destruct Hin as [->|Hin].
    - rewrite Hk. left. reflexivity.
    - destruct x; auto. destruct m; auto. destruct (send_key V s o a0); auto. right. auto.
  Qed.
  Lemma outs_event outs a m : In (Complete a E_OK (Some m)) outs -> In (AMove OProto (body m) (OBack a)) (evs_outs outs).
  Proof.
    intros Hin. induction outs as [|x r IH]; [destruct Hin|]. cbn [evs_outs]. destruct Hin as [->|Hin].
    - change (E_OK =? 0)%N with true. left. reflexivity.
    - destruct x; auto; try (right; auto). destruct m0; auto. destruct (N.eqb rv 0); auto. right. auto.
  Qed.

  Lemma sends_in_step s o outs e : In e (evs_sends V s o outs) -> In e (step_evs V s o outs).
  Proof. intros He. unfold step_evs. apply in_or_app. right. apply in_or_app. left. exact He. Qed.

  (* a reference that an event of the step hands to the caller (or loses) is in the ledger afterwards:
     no event of a step takes anything from these owners *)
  Lemma replay_gains L s o s' outs e x :
    Inv s -> ok s o -> linv V L s -> step s o = (s', outs) ->
    In e (step_evs V s o outs) -> In x (aev_add e) -> ~ In (cls (fst x)) [1; 3; 4] ->
    exists L', replay_step V L s o s' outs = Some L' /\ linv V L' s' /\ In x (refs (ls_led L')).
  Proof.
    intros Hi Ho Hl Hs He Hx Hc0.
    destruct (Hlaw s o s' outs Hi Ho Hs) as [_ Hsl].
    destruct (replay_step_ok V L s o s' outs Hl Hsl) as [L' [R [Hl' Hc]]].
    exists L'. split; [exact R|]. split; [exact Hl'|].
    apply cnt_pos_in. specialize (Hc x). rewrite (dels_only_lib _ s o outs Hc0) in Hc.
    pose proof (in_adds_pos _ _ _ He Hx). lia.
  Qed.

  (* a failed send: the message is still attached to the aio, and it is the caller's *)
  Theorem failed_send_keeps_message : forall L s o s' outs a rv k,
    Inv s -> ok s o -> linv V L s -> step s o = (s', outs) ->
    In (Complete a rv None) outs -> rv <> 0%N -> send_key V s o a = Some k -> has_id a (v_detach V s o) = false ->
    exists L', replay_step V L s o s' outs = Some L' /\ linv V L' s' /\
      In (OBack a, k) (refs (ls_led L')).
  Proof.
    intros L s o s' outs a rv k Hi Ho Hl Hs Hin Hrv Hk Hd.
    pose proof (sends_event s o outs a rv k Hin Hk) as He.
    destruct (N.eqb_spec rv 0); [contradiction|]. rewrite Hd in He.
    apply (replay_gains L s o s' outs _ _ Hi Ho Hl Hs (sends_in_step _ _ _ _ He)); [left; reflexivity|].
    cbn. intuition lia.
  Qed.

  (* ... unless the C emptied the aio's message slot before refusing: then nobody owns it *)
  Theorem detached_send_loses_message : forall L s o s' outs a rv k,
    Inv s -> ok s o -> linv V L s -> step s o = (s', outs) ->
    In (Complete a rv None) outs -> rv <> 0%N -> send_key V s o a = Some k -> has_id a (v_detach V s o) = true ->
    exists L', replay_step V L s o s' outs = Some L' /\ In (OLost, k) (refs (ls_led L')).
  Proof.
    intros L s o s' outs a rv k Hi Ho Hl Hs Hin Hrv Hk Hd.
    pose proof (sends_event s o outs a rv k Hin Hk) as He.
    destruct (N.eqb_spec rv 0); [contradiction|]. rewrite Hd in He.
    destruct (replay_gains L s o s' outs _ (OLost, k) Hi Ho Hl Hs (sends_in_step _ _ _ _ He)) as (L' & R & _ & Hx);
      [left; reflexivity|cbn; intuition lia|].
    exists L'. split; assumption.
  Qed.

  (* a successful send: the reference attached to the aio becomes the library's *)
  Theorem successful_send_transfers : forall s o outs a k,
    In (Complete a E_OK None) outs -> send_key V s o a = Some k ->
    In (AMove (OAio a) k OProto) (step_evs V s o outs).
  Proof.
    intros s o outs a k Hin Hk. apply sends_in_step. exact (sends_event s o outs a E_OK k Hin Hk).
  Qed.

  (* a successful receive: one protocol reference becomes the caller's, attached to the aio *)
  Theorem successful_recv_transfers : forall L s o s' outs a m,
    Inv s -> ok s o -> linv V L s -> step s o = (s', outs) ->
    In (Complete a E_OK (Some m)) outs ->
    exists L', replay_step V L s o s' outs = Some L' /\ linv V L' s' /\
      In (AMove OProto (body m) (OBack a)) (step_evs V s o outs) /\ In (OBack a, body m) (refs (ls_led L')).
  Proof.
    intros L s o s' outs a m Hi Ho Hl Hs Hin.
    assert (He : In (AMove OProto (body m) (OBack a)) (step_evs V s o outs)).
    { unfold step_evs. apply in_or_app. right. apply in_or_app. right. apply in_or_app. right. apply in_or_app. right.
      apply outs_event. apply in_or_app. left. exact Hin. }
    destruct (replay_gains L s o s' outs _ (OBack a, body m) Hi Ho Hl Hs He) as (L' & R & Hl' & Hx);
      [left; reflexivity|cbn; intuition lia|].
    exists L'. split; [exact R|]. split; [exact Hl'|]. split; assumption.
  Qed.

  (* whole histories: in = out + still held, per (owner, body) *)
  Fixpoint hist_evs (s : St) (ops : list pop) : list aev :=
    match ops with
    | [] => []
    | o :: r => let (s', outs) := step s o in step_evs V s o outs ++ hist_evs s' r
    end.

  Theorem lib_balance_run : forall ops s, Inv s -> ops_ok step ok s ops ->
    forall x, lib_owner (fst x) = true ->
      cnt x (omega V (run step s ops)) + cnt x (dels (hist_evs s ops)) = cnt x (omega V s) + cnt x (adds (hist_evs s ops)).
  Proof.
    induction ops as [|o ops IH]; intros s Hi Hok x Hx; [cbn; lia|].
    cbn [run ops_ok hist_evs] in *. destruct Hok as [Ho Hr]. destruct (step s o) as [s' outs] eqn:E. cbn [fst] in *.
    destruct (Hlaw s o s' outs Hi Ho E) as [Hi' [Hle _]].
    specialize (IH s' Hi' Hr x Hx). rewrite adds_app, dels_app, !cnt_app.
    specialize (Hle (ind x)). cbv zeta in Hle. rewrite <- !cnt_wsum, cnt_lib_adds, cnt_lib_dels, Hx in Hle. lia.
  Qed.
End Thms.

(* after the close: the fini functions free what is left *)
Definition drained {St} (V : view St) (s : St) : Prop :=
  v_tx V s = [] /\ v_att V s = [] /\ Permutation (v_held V s) (v_fini V s).

Lemma fini_dels_l (l : list pmsg) : dels (map (fun m => ADel OProto (body m)) l) = map (fun m => (OProto, body m)) l.
Proof. unfold dels. induction l as [|m l IH]; [reflexivity|]. cbn [map flat_map aev_del app]. f_equal. exact IH. Qed.
Lemma fini_adds_l (l : list pmsg) : adds (map (fun m => ADel OProto (body m)) l) = [].
Proof. unfold adds. induction l; cbn; auto. Qed.
Lemma fini_csrc_l (l : list pmsg) : csrc (map (fun m => ADel OProto (body m)) l) = [].
Proof. unfold csrc. induction l; cbn; auto. Qed.

Theorem fini_clears {St} (V : view St) L s : linv V L s -> drained V s ->
  exists L', do_aevs L (fini_evs V s) = Some L' /\ balanced (ls_led L') /\ lib_refs (ls_led L') = [].
Proof.
  intros [Hg Hm] (Ht & Ha & Hp).
  assert (Hom : forall x, cnt x (omega V s) = cnt x (map (fun m => (OProto, body m)) (v_fini V s))).
  { intros x. unfold omega. rewrite Ht, Ha, !cnt_app. cbn [map]. rewrite !cnt_nil.
    assert (Permutation (map (fun m => (OProto, body m)) (v_held V s)) (map (fun m => (OProto, body m)) (v_fini V s))) by (apply Permutation_map, Hp).
    unfold cnt. rewrite (Permutation_count_occ ok_dec) in H. rewrite H. lia. }
  assert (Hd : dels (fini_evs V s) = map (fun m => (OProto, body m)) (v_fini V s)) by apply fini_dels_l.
  assert (Ha0 : adds (fini_evs V s) = []) by apply fini_adds_l.
  assert (Hc0 : csrc (fini_evs V s) = []) by apply fini_csrc_l.
  destruct (do_aevs_phase (fini_evs V s) L Hg) as [L' [R [[Hb _] Hc]]].
  - intros x. rewrite Hd, <- Hom. destruct (lib_owner (fst x)) eqn:El.
    + rewrite <- Hm. unfold lib_refs. rewrite cnt_filter_lib, El. lia.
    + rewrite (cnt_zero_cls _ _ _ (omega_cls V s)); [lia|]. intros Hc. apply lib_cls in Hc. congruence.
  - rewrite Hc0. intros x [].
  - exists L'. split; [exact R|]. split; [exact Hb|].
    destruct (lib_refs (ls_led L')) as [|y l] eqn:E; [reflexivity|]. exfalso.
    assert (Hy : 0 < cnt y (lib_refs (ls_led L'))) by (rewrite E, cnt_cons; destruct (ok_dec y y); [lia|congruence]).
    unfold lib_refs in Hy. rewrite cnt_filter_lib in Hy. destruct (lib_owner (fst y)) eqn:El; [|lia].
    specialize (Hc y). rewrite Ha0, Hd, cnt_nil in Hc.
    assert (cnt y (refs (ls_led L)) = cnt y (omega V s)) by (rewrite <- Hm; unfold lib_refs; rewrite cnt_filter_lib, El; reflexivity).
    rewrite <- Hom in Hc. lia.
Qed.

(* close, then fini: from ANY state the protocol can be in, the close sequence followed by the
   fini frees leaves the library without a single message reference (no leak), the ledger
   balanced all the way *)
Section Close.
  Context {St : Type} (V : view St) (step : St -> pop -> St * list pout)
          (Inv : St -> Prop) (ok : St -> pop -> Prop) (script : St -> list pop).
  Hypothesis Hlaw : proto_law V step Inv ok.
  Hypothesis Hdrain : forall s, Inv s -> ops_ok step ok s (script s) /\ drained V (run step s (script s)).

  Theorem no_leak_after_close : forall s L, Inv s -> linv V L s ->
    exists L1 L2, replay_run V step L s (script s) = Some (L1, run step s (script s)) /\
      do_aevs L1 (fini_evs V (run step s (script s))) = Some L2 /\
      balanced (ls_led L2) /\ lib_refs (ls_led L2) = [].
  Proof.
    intros s L Hi Hl. destruct (Hdrain s Hi) as [Hok Hd].
    destruct (replay_run_ok V step Inv ok Hlaw (script s) s L Hi Hl Hok) as [L1 [R [Hl1 _]]].
    destruct (fini_clears V L1 _ Hl1 Hd) as [L2 [F [Hb He]]].
    exists L1, L2. split; [exact R|]. split; [exact F|]. split; assumption.
  Qed.

  (* ... in particular after any history from the initial state *)
  Theorem no_leak_after_history_and_close : forall init ops, Inv init -> omega V init = [] -> ops_ok step ok init ops ->
    let s := run step init ops in
    exists L0 L1 L2, replay_run V step ls_init init ops = Some (L0, s) /\
      replay_run V step L0 s (script s) = Some (L1, run step s (script s)) /\
      do_aevs L1 (fini_evs V (run step s (script s))) = Some L2 /\
      balanced (ls_led L2) /\ lib_refs (ls_led L2) = [].
  Proof.
    intros init ops Hi Ho Hok s.
    destruct (replay_run_ok V step Inv ok Hlaw ops init ls_init Hi (linv_init V init Ho) Hok) as [L0 [R0 [Hl0 Hi0]]].
    destruct (no_leak_after_close (run step init ops) L0 Hi0 Hl0) as [L1 [L2 [R1 [F [Hb He]]]]].
    exists L0, L1, L2. split; [exact R0|]. split; [exact R1|]. split; [exact F|]. split; assumption.
  Qed.
End Close.

(* close sequences: the two kinds of segment they are made of *)
Section CloseGen.
  Context {St : Type} (step : St -> pop -> St * list pout) (Inv : St -> Prop) (ok : St -> pop -> Prop).
  Hypothesis Hinv : forall s o, Inv s -> ok s o -> Inv (fst (step s o)).

  (* operations the contract allows in every state of the invariant and that leave a component alone *)
  Lemma run_frame {B} (f : St -> B) ops :
    (forall s o, In o ops -> Inv s -> ok s o /\ f (fst (step s o)) = f s) ->
    forall s, Inv s -> ops_ok step ok s ops /\ Inv (run step s ops) /\ f (run step s ops) = f s.
  Proof.
    induction ops as [|o ops IH]; intros H s Hi; cbn [run ops_ok]; [split; [exact I|split; [exact Hi|reflexivity]]|].
    destruct (H s o (or_introl eq_refl) Hi) as [Ho Hf].
    destruct (IH (fun s o Hin => H s o (or_intror Hin)) (fst (step s o)) (Hinv s o Hi Ho)) as (A & B0 & C).
    split; [split; [exact Ho|exact A]|]. split; [exact B0|]. rewrite C. exact Hf.
  Qed.

  (* the transport fails every send still in flight: one failing completion per pipe *)
  Lemma run_fail (sn : St -> list (pid * pmsg)) rv :
    (forall s p, Inv s -> In p (map fst (sn s)) -> ok s (PSendDone p rv)) ->
    (forall s p, sn (fst (step s (PSendDone p rv))) = filter (fun x => negb (N.eqb (fst x) p)) (sn s)) ->
    forall l s, NoDup l -> Inv s -> incl l (map fst (sn s)) ->
      ops_ok step ok s (map (fun p => PSendDone p rv) l) /\ Inv (run step s (map (fun p => PSendDone p rv) l)).
  Proof.
    intros H1 H2. induction l as [|p l IH]; intros s Hn Hi Hl; cbn [map run ops_ok]; [split; [exact I|exact Hi]|].
    inversion Hn as [|? ? Hp Hn']; subst.
    assert (Ho : ok s (PSendDone p rv)) by (apply H1; [exact Hi|apply Hl; left; reflexivity]).
    destruct (IH (fst (step s (PSendDone p rv))) Hn' (Hinv s _ Hi Ho)) as [A B0].
    { intros q Hq. rewrite H2. assert (Hq' : In q (map fst (sn s))) by (apply Hl; right; exact Hq).
      apply in_map_iff in Hq'. destruct Hq' as [x [<- Hx]]. apply in_map. apply filter_In. split; [exact Hx|].
      destruct (N.eqb_spec (fst x) p) as [E|E]; [exfalso; apply Hp; rewrite <- E; exact Hq|reflexivity]. }
    split; [split; [exact Ho|exact A]|exact B0].
  Qed.
  Lemma run_fail_all {B} (f : St -> B) (sn : St -> list (pid * pmsg)) rv :
    (forall s p, Inv s -> In p (map fst (sn s)) -> ok s (PSendDone p rv)) ->
    (forall s p, sn (fst (step s (PSendDone p rv))) = filter (fun x => negb (N.eqb (fst x) p)) (sn s)) ->
    (forall s p, f (fst (step s (PSendDone p rv))) = f s) ->
    forall s, NoDup (map fst (sn s)) -> Inv s ->
      ops_ok step ok s (map (fun p => PSendDone p rv) (map fst (sn s))) /\
      Inv (run step s (map (fun p => PSendDone p rv) (map fst (sn s)))) /\
      f (run step s (map (fun p => PSendDone p rv) (map fst (sn s)))) = f s /\
      sn (run step s (map (fun p => PSendDone p rv) (map fst (sn s)))) = [].
  Proof.
    intros H1 H2 H3 s Hn Hi.
    destruct (run_fail sn rv H1 H2 (map fst (sn s)) s Hn Hi (incl_refl _)) as [A B0].
    split; [exact A|]. split; [exact B0|]. split.
    - apply (run_keeps step f (fun o => exists p, o = PSendDone p rv)); [intros s0 o [p ->]; apply H3|].
      apply Forall_forall. intros o Ho. apply in_map_iff in Ho. destruct Ho as [p [<- _]]. eauto.
    - apply (run_filter_clears step sn (fun p => PSendDone p rv) H2). intros x Hx. apply in_map. exact Hx.
  Qed.
End CloseGen.
