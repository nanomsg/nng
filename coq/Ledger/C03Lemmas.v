(* C03Lemmas: the per-protocol instances of the generic ledger theorems (LedgerThms), from
   the initial state of every model, in the form Props/Properties_C03.v states them. *)
From Coq Require Import List NArith.
From NngV Require Import Proto.Common Ledger.Ledger Ledger.LedgerProofs Ledger.Views Ledger.LedgerThms.
From NngV Require Proto.PushModel Proto.PullModel Proto.PubModel Proto.SubModel Proto.XsubModel Proto.PairModel
  Proto.PairGuard Proto.BusModel Proto.XReqModel Proto.XRepModel Proto.SurveyModel Proto.XSurveyModel Proto.XRespondModel
  Proto.PushProofs Proto.PubSubProofs Proto.PubSubProofs3 Proto.BusProofs
  Proto.RepModel Proto.RespondModel Proto.ReqModel
  Ledger.OwnReq Ledger.OwnPipeline Ledger.OwnPipelineClose Ledger.OwnPubSub Ledger.OwnPairBus Ledger.OwnSurvey Ledger.OwnXReqRep Ledger.OwnRepResp.
Import ListNotations.

(* what "the ledger of protocol P is balanced over every history, and nothing leaks after close" says *)
Definition ledger_ok {St} (V : view St) (step : St -> pop -> St * list pout) (init : St)
           (ok : St -> pop -> Prop) (script : St -> list pop) : Prop :=
  forall ops, ops_ok step ok init ops ->
    let s := run step init ops in
    exists L0 L1 L2,
      (* the replay of the history never fails; the ledger is balanced and equals the state's view *)
      replay_run V step ls_init init ops = Some (L0, s) /\
      balanced (ls_led L0) /\ mseq (lib_refs (ls_led L0)) (omega V s) /\
      (* the close sequence is allowed by the contract and replays; the fini frees then leave nothing *)
      ops_ok step ok s (script s) /\
      replay_run V step L0 s (script s) = Some (L1, run step s (script s)) /\
      do_aevs L1 (fini_evs V (run step s (script s))) = Some L2 /\
      balanced (ls_led L2) /\ lib_refs (ls_led L2) = [].

Lemma ledger_ok_intro {St} (V : view St) step init Inv ok script :
  proto_law V step Inv ok -> Inv init -> omega V init = [] ->
  (forall s, Inv s -> ops_ok step ok s (script s) /\ drained V (run step s (script s))) ->
  ledger_ok V step init ok script.
Proof.
  intros Hlaw Hi Ho Hd ops Hok s.
  destruct (replay_run_ok V step Inv ok Hlaw ops init ls_init Hi (linv_init V init Ho) Hok) as [L0 [R0 [Hl0 Hi0]]].
  destruct (no_leak_after_close V step Inv ok script Hlaw Hd (run step init ops) L0 Hi0 Hl0) as [L1 [L2 [R1 [F [Hb He]]]]].
  exists L0, L1, L2. split; [exact R0|]. split; [apply Hl0|]. split; [apply Hl0|].
  split; [apply Hd; exact Hi0|]. split; [exact R1|]. split; [exact F|]. split; assumption.
Qed.

Lemma pull_ledger_ok : ledger_ok view_pull PullModel.pull_step PullModel.pull_init (fun _ _ => True) OwnPipelineClose.pull_close_script.
Proof.
  apply (ledger_ok_intro _ _ _ (fun _ => True)); [exact OwnPipeline.pull_proto_law|exact I|reflexivity|].
  intros s _. apply OwnPipelineClose.pull_close_drains.
Qed.
(* either text of push0_set_send_buf_len (fr: blocked senders move into a resized buffer -- Gen/Consts.v
   C06_PUSH_RESIZE_ADMITS_FIXED; ViewsCur.push_step_cur is the instance the model driver runs) *)
Lemma push_ledger_ok : forall fr, ledger_ok view_push (PushModel.push_step_r fr) PushModel.push_init OwnPipeline.push_ok OwnPipelineClose.push_close_script.
Proof.
  intros fr. apply (ledger_ok_intro _ _ _ PushProofs.PInv); [exact (OwnPipeline.push_proto_law_r fr)|exact (proj1 PushProofs.push_init_inv)|reflexivity|exact (OwnPipelineClose.push_close_drains_r fr)].
Qed.
Lemma pub_ledger_ok : ledger_ok view_pub PubModel.pub_step PubModel.pub_init PubSubProofs3.pub_op_ok OwnPubSub.pub_close_script.
Proof.
  apply (ledger_ok_intro _ _ _ PubSubProofs3.PubInv); [exact OwnPubSub.pub_proto_law|exact PubSubProofs3.pub_init_inv|reflexivity|exact OwnPubSub.pub_close_drains].
Qed.
Lemma sub_ledger_ok : forall fixed, ledger_ok view_sub (SubModel.sub_step fixed) SubModel.sub_init PubSubProofs.sub_op_ok OwnPubSub.sub_close_script.
Proof.
  intros fixed. apply (ledger_ok_intro _ _ _ PubSubProofs.SInv); [apply OwnPubSub.sub_proto_law|exact PubSubProofs.sub_init_inv|reflexivity|apply OwnPubSub.sub_close_drains].
Qed.
Lemma xsub_ledger_ok : forall a b, ledger_ok view_xsub (XsubModel.xsub_step a b) XsubModel.xsub_init OwnPubSub.xsub_op_ok OwnPubSub.xsub_close_script.
Proof.
  intros a b. apply (ledger_ok_intro _ _ _ OwnPubSub.XsubInv); [apply OwnPubSub.xsub_proto_law|exact OwnPubSub.xsub_inv_init|reflexivity|apply OwnPubSub.xsub_close_drains].
Qed.
Lemma pair_ledger_ok : forall k fx fr fs, ledger_ok (VPair.view k) (PairGuard.pair_step_g k fx fr fs) PairModel.pair_init OwnPairBus.pair_ok OwnPairBus.pair_close_script.
Proof.
  intros k fx fr fs. apply (ledger_ok_intro _ _ _ OwnPairBus.pair_inv); [apply OwnPairBus.pair_proto_law|exact OwnPairBus.pair_inv_init|reflexivity|apply OwnPairBus.pair_close_drains].
Qed.
Lemma bus_ledger_ok : forall fixed keep raw, ledger_ok (VBus.view fixed keep) (BusModel.bus_step fixed) (BusModel.bus_init raw) BusProofs.op_ok OwnPairBus.bus_close_script.
Proof.
  intros fixed keep raw. apply (ledger_ok_intro _ _ _ BusProofs.BInv); [apply OwnPairBus.bus_proto_law|apply OwnPairBus.bus_inv_init|reflexivity|apply OwnPairBus.bus_close_drains].
Qed.
Lemma surv_ledger_ok : forall nbfix, ledger_ok view_surv (SurveyModel.surv_step nbfix) SurveyModel.surv_init OwnSurvey.surv_ok OwnSurvey.surv_close_script.
Proof.
  intros nbfix. apply (ledger_ok_intro _ _ _ OwnSurvey.SLInv); [apply OwnSurvey.surv_proto_law|exact OwnSurvey.surv_inv_init|reflexivity|apply OwnSurvey.surv_close_drains].
Qed.
Lemma xsurv_ledger_ok : forall fx, ledger_ok (VXsurv.view fx) (XSurveyModel.xsurv_step fx) XSurveyModel.xsurv_init OwnSurvey.xsurv_ok OwnSurvey.xsurv_close_script.
Proof.
  intros fx. apply (ledger_ok_intro _ _ _ OwnSurvey.XSInv); [apply OwnSurvey.xsurv_proto_law|exact OwnSurvey.xsurv_inv_init|reflexivity|apply OwnSurvey.xsurv_close_drains].
Qed.
Lemma xresp_ledger_ok : forall fx, ledger_ok view_xresp (XRespondModel.xresp_step fx) XRespondModel.xresp_init OwnSurvey.xresp_ok OwnSurvey.xresp_close_script.
Proof.
  intros fx. apply (ledger_ok_intro _ _ _ OwnSurvey.XRInv); [apply OwnSurvey.xresp_proto_law|exact OwnSurvey.xresp_inv_init|reflexivity|apply OwnSurvey.xresp_close_drains].
Qed.
Lemma xreq_ledger_ok : forall mf, ledger_ok view_xreq (XReqModel.xreq_step mf) XReqModel.xreq_init OwnXReqRep.xreq_ok OwnXReqRep.xreq_close_script.
Proof.
  intros mf. apply (ledger_ok_intro _ _ _ OwnXReqRep.xreq_inv); [apply OwnXReqRep.xreq_proto_law|exact OwnXReqRep.xreq_inv_init|reflexivity|apply OwnXReqRep.xreq_close_drains].
Qed.
Lemma xrep_ledger_ok : forall mf, ledger_ok view_xrep (XRepModel.xrep_step mf) XRepModel.xrep_init OwnXReqRep.xrep_ok OwnXReqRep.xrep_close_script.
Proof.
  intros mf. apply (ledger_ok_intro _ _ _ OwnXReqRep.xrep_inv); [apply OwnXReqRep.xrep_proto_law|exact OwnXReqRep.xrep_inv_init|reflexivity|apply OwnXReqRep.xrep_close_drains].
Qed.

Lemma rep_ledger_ok : forall pf, RepModel.pf_saio pf = true ->
  ledger_ok view_rep (RepModel.rep_step pf) RepModel.rep_init OwnRepResp.rep_ok OwnRepResp.rep_close_script.
Proof.
  intros pf Hf. apply (ledger_ok_intro _ _ _ OwnRepResp.RInv); [apply OwnRepResp.rep_proto_law; exact Hf|exact OwnRepResp.rep_inv_init|reflexivity|].
  intros s Hs. apply OwnRepResp.rep_close_drains; assumption.
Qed.
Lemma resp_ledger_ok : forall fx, RespondModel.rf_sbusy fx = true ->
  ledger_ok view_resp (RespondModel.resp_step fx) RespondModel.resp_init OwnRepResp.resp_ok OwnRepResp.resp_close_script.
Proof.
  intros fx Hf. apply (ledger_ok_intro _ _ _ OwnRepResp.SInv); [apply OwnRepResp.resp_proto_law; exact Hf|exact OwnRepResp.resp_inv_init|reflexivity|].
  intros s Hs. apply OwnRepResp.resp_close_drains; assumption.
Qed.

Lemma req_ledger_ok : forall fx, ReqModel.fx_clone fx = true ->
  ledger_ok (VReq.view fx) (ReqModel.req_step fx) ReqModel.req_init OwnReq.req_ok OwnReq.req_close_script.
Proof.
  intros fx Hf. apply (ledger_ok_intro _ _ _ (OwnReq.ReqInv fx)); [apply OwnReq.req_proto_law; exact Hf|apply OwnReq.req_inv_init|reflexivity|].
  intros s Hs. apply OwnReq.req_close_drains; assumption.
Qed.

(* BUS: does a refused send keep its message? *)
(* the pinned order of bus0_sock_send (slot emptied, then nni_aio_start refuses): the message is nobody's *)
Definition w_bus_msg : pmsg := mkPmsg [] [170; 1]%N.
Definition w_bus_ops : list pop := [PPipeStart 1%N BusModel.PROTO_BUS; PSend None 7%N true w_bus_msg].
Lemma bus_failed_send_detaches_refuted_w :
  match replay_run (VBus.view false false) (BusModel.bus_step false) ls_init (BusModel.bus_init false) w_bus_ops with
  | Some (L, s) =>
      snd (BusModel.bus_step false (fst (BusModel.bus_step false (BusModel.bus_init false) (PPipeStart 1%N BusModel.PROTO_BUS))) (PSend None 7%N true w_bus_msg))
        = [Complete 7%N E_AGAIN None] /\
      back_of (ls_led L) 7%N = [] /\ lost_count (ls_led L) = 1 /\ lib_ref_count (ls_led L) = 0
  | None => False
  end.
Proof. vm_compute. repeat split; reflexivity. Qed.
(* the repaired order (nni_aio_start first): every refused or failed BUS send keeps its message on the aio *)
Lemma bus_failed_send_keeps : forall fixed L s o s' outs a rv k,
  BusProofs.BInv s -> BusProofs.op_ok s o -> linv (VBus.view fixed true) L s -> BusModel.bus_step fixed s o = (s', outs) ->
  In (Complete a rv None) outs -> rv <> 0%N -> send_key (VBus.view fixed true) s o a = Some k ->
  exists L', replay_step (VBus.view fixed true) L s o s' outs = Some L' /\ linv (VBus.view fixed true) L' s' /\
    In (OBack a, k) (refs (ls_led L')).
Proof.
  intros fixed L s o s' outs a rv k Hi Ho Hl Hs Hin Hrv Hk.
  apply (failed_send_keeps_message (VBus.view fixed true) (BusModel.bus_step fixed) BusProofs.BInv BusProofs.op_ok
           (OwnPairBus.bus_proto_law fixed true) L s o s' outs a rv k Hi Ho Hl Hs Hin Hrv Hk).
  cbn [v_detach VBus.view]. unfold VBus.detach. destruct o; try reflexivity.
  rewrite Bool.andb_false_r. reflexivity.
Qed.

(* a history on which the ledger does something: PUB with two subscribers, a queued copy, a drop *)
Definition w_pub_ops : list pop :=
  [PPipeStart 1%N SubModel.PROTO_SUB; PPipeStart 2%N SubModel.PROTO_SUB;
   PSend None 0%N false (mkPmsg [] [1; 2]%N); PSend None 1%N false (mkPmsg [] [3; 4]%N);
   PSendDone 1%N 0%N; PSendDone 2%N E_CONNSHUT; PSetOpt None (OSendBuf 1)].
Lemma ledger_nonvacuous_w :
  ops_ok PubModel.pub_step PubSubProofs3.pub_op_ok PubModel.pub_init w_pub_ops /\
  match replay_run view_pub PubModel.pub_step ls_init PubModel.pub_init w_pub_ops with
  | Some (L, s) => lib_ref_count (ls_led L) = 2 /\ lib_obj_count (ls_led L) = 1 /\ forallb entry_okb (ls_led L) = true
  | None => False
  end.
Proof. split; [vm_compute; repeat split; intros H; repeat (destruct H as [H|H]; try discriminate); exact H|vm_compute; repeat split; reflexivity]. Qed.
