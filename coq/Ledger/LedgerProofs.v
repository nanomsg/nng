(* LedgerProofs: the generic theory of the ownership ledger (Ledger/Ledger.v).
   1. every ledger event keeps the ledger balanced (reference count = number of owners > 0,
      ids unique); a free / hand-over / clone by a non-holder is rejected;
   2. the id-level replay (do_aevs) refines a run on the multiset of (owner, key) references;
   3. the conservation law of a protocol (one weighted equation per step: law_eq, step_law, proto_law)
      implies that replay_step never fails and re-establishes the link invariant;
   4. lifting to every history (replay_run). *)
From Coq Require Import List Arith NArith Bool Lia Permutation.
From NngV Require Import Proto.Common Ledger.Ledger.
From NngV Require Base.ListX.
Import ListNotations.

Lemma owner_eqb_spec x y : reflect (x = y) (owner_eqb x y).
Proof.
  destruct x, y; cbn; try (constructor; congruence);
    destruct (N.eqb_spec a a0) || destruct (N.eqb_spec p p0); constructor; congruence.
Qed.
Lemma key_eqb_spec a b : reflect (a = b) (key_eqb a b).
Proof.
  revert b; induction a as [|x a IH]; intros [|y b]; cbn; try (constructor; congruence).
  destruct (N.eqb_spec x y); cbn; [|constructor; congruence].
  destruct (IH b); constructor; congruence.
Qed.
Lemma owner_eqb_refl o : owner_eqb o o = true.
Proof. destruct (owner_eqb_spec o o); congruence. Qed.
Lemma key_eqb_refl k : key_eqb k k = true.
Proof. destruct (key_eqb_spec k k); congruence. Qed.
Definition ok_dec (x y : owner * key) : {x = y} + {x <> y}.
Proof.
  destruct x as [o k], y as [o' k'].
  destruct (owner_eqb_spec o o'); [|right; congruence].
  destruct (key_eqb_spec k k'); [left|right]; congruence.
Defined.
Lemma ok_eqb_spec x y : reflect (x = y) (ok_eqb x y).
Proof.
  destruct x as [o k], y as [o' k']. unfold ok_eqb; cbn.
  destruct (owner_eqb_spec o o'); cbn; [|constructor; congruence].
  destruct (key_eqb_spec k k'); constructor; congruence.
Qed.

Definition wsum {A} (F : A -> nat) (l : list A) : nat := list_sum (map F l).
Lemma wsum_nil {A} (F : A -> nat) : wsum F [] = 0. Proof. reflexivity. Qed.
Lemma wsum_cons {A} (F : A -> nat) x l : wsum F (x :: l) = F x + wsum F l. Proof. reflexivity. Qed.
Lemma wsum_app {A} (F : A -> nat) a b : wsum F (a ++ b) = wsum F a + wsum F b.
Proof. unfold wsum. now rewrite map_app, list_sum_app. Qed.
Lemma wsum_map {A B} (F : B -> nat) (g : A -> B) l : wsum F (map g l) = wsum (fun x => F (g x)) l.
Proof. unfold wsum. now rewrite map_map. Qed.
Lemma wsum_flat_map {A B} (F : B -> nat) (g : A -> list B) l :
  wsum F (flat_map g l) = wsum (fun x => wsum F (g x)) l.
Proof. induction l; [reflexivity|]. cbn [flat_map]. rewrite wsum_app, wsum_cons. now rewrite IHl. Qed.
Lemma wsum_filter_split {A} (F : A -> nat) (g : A -> bool) l :
  wsum F l = wsum F (filter g l) + wsum F (filter (fun x => negb (g x)) l).
Proof. induction l as [|x l IH]; [reflexivity|]. cbn [filter]. rewrite wsum_cons, IH. destruct (g x); cbn [negb]; rewrite ?wsum_cons; lia. Qed.
Lemma wsum_ext {A} (F G : A -> nat) l : (forall x, In x l -> F x = G x) -> wsum F l = wsum G l.
Proof. induction l; intros H; [reflexivity|]. rewrite !wsum_cons, H, IHl; cbn; auto. intros; apply H; cbn; auto. Qed.
Lemma wsum_const1 {A} (l : list A) : wsum (fun _ => 1) l = length l.
Proof. induction l; [reflexivity|]. rewrite wsum_cons, IHl. reflexivity. Qed.

Definition cnt (x : owner * key) (l : list (owner * key)) : nat := count_occ ok_dec l x.
Definition ind (x : owner * key) : owner * key -> nat := fun y => if ok_dec y x then 1 else 0.
Lemma cnt_wsum x l : cnt x l = wsum (ind x) l.
Proof.
  unfold cnt, ind. induction l as [|y l IH]; [reflexivity|].
  rewrite wsum_cons, <- IH. cbn [count_occ]. destruct (ok_dec y x); lia.
Qed.
Lemma cnt_app x a b : cnt x (a ++ b) = cnt x a + cnt x b.
Proof. apply count_occ_app. Qed.
Lemma cnt_cons x y l : cnt x (y :: l) = (if ok_dec y x then 1 else 0) + cnt x l.
Proof. unfold cnt; cbn. destruct (ok_dec y x); lia. Qed.
Lemma cnt_nil x : cnt x [] = 0. Proof. reflexivity. Qed.
Lemma count_ok_cnt x l : count_ok x l = cnt x l.
Proof.
  unfold count_ok, cnt. induction l as [|y l IH]; cbn; [reflexivity|].
  destruct (ok_eqb_spec x y), (ok_dec y x); cbn; try congruence; now rewrite IH.
Qed.
Lemma cnt_pos_in x l : 0 < cnt x l <-> In x l.
Proof. unfold cnt. split; intros H; [apply (count_occ_In ok_dec) in H|apply (count_occ_In ok_dec)]; auto. Qed.

Definition mseq (a b : list (owner * key)) : Prop := forall x, cnt x a = cnt x b.
Lemma mseq_refl a : mseq a a. Proof. intros x; reflexivity. Qed.
Lemma mseq_sym a b : mseq a b -> mseq b a. Proof. intros H x; now rewrite H. Qed.
Lemma mseq_trans a b c : mseq a b -> mseq b c -> mseq a c. Proof. intros H1 H2 x; now rewrite H1. Qed.
Lemma mseq_perm a b : mseq a b -> Permutation a b.
Proof. intros H. apply (Permutation_count_occ ok_dec). exact H. Qed.
Lemma mseq_length a b : mseq a b -> length a = length b.
Proof. intros H. apply Permutation_length, mseq_perm, H. Qed.
Lemma mseq_wsum F a b : mseq a b -> wsum F a = wsum F b.
Proof.
  intros H. apply mseq_perm in H.
  induction H; rewrite ?wsum_cons in *; try lia.
Qed.
Lemma wsum_mseq a b : (forall F, wsum F a = wsum F b) -> mseq a b.
Proof. intros H x. rewrite !cnt_wsum. apply H. Qed.

Lemma mset_eqb_spec a b : mset_eqb a b = true <-> mseq a b.
Proof.
  unfold mset_eqb. rewrite andb_true_iff, Nat.eqb_eq, forallb_forall. split.
  - intros [HL HA].
    (* every element of a occurs equally often in b, and the lengths agree: so do all others *)
    assert (Hle : forall x, cnt x a <= cnt x b).
    { intros x. destruct (in_dec ok_dec x a) as [Hi|Hn].
      - specialize (HA x Hi). apply Nat.eqb_eq in HA. rewrite !count_ok_cnt in HA. lia.
      - apply (count_occ_not_In ok_dec) in Hn. unfold cnt. lia. }
    (* a sub-multiset of equal size is the whole *)
    assert (Hinc : forall (a b : list (owner * key)), (forall x, cnt x a <= cnt x b) -> length a = length b -> mseq a b).
    { clear. induction a as [|y a IH]; intros b Hle HL.
      - destruct b; [apply mseq_refl|discriminate].
      - assert (Hy : In y b). { apply cnt_pos_in. specialize (Hle y). rewrite cnt_cons in Hle. destruct (ok_dec y y); [lia|congruence]. }
        apply in_split in Hy. destruct Hy as [b1 [b2 ->]].
        assert (mseq a (b1 ++ b2)).
        { apply IH.
          - intros x. specialize (Hle x). rewrite cnt_cons, !cnt_app, cnt_cons in Hle. rewrite cnt_app. destruct (ok_dec y x); lia.
          - rewrite app_length in *. cbn in HL. lia. }
        intros x. rewrite cnt_cons, cnt_app, cnt_cons. specialize (H x). rewrite cnt_app in H. destruct (ok_dec y x); lia. }
    apply Hinc; auto.
  - intros H. split; [apply mseq_length, H|].
    intros x _. apply Nat.eqb_eq. rewrite !count_ok_cnt. apply H.
Qed.

(* 1. ledger events keep the ledger balanced *)
Lemma rem1_length o l r : rem1 o l = Some r -> length l = S (length r).
Proof.
  revert r; induction l as [|x l IH]; cbn; intros r H; [discriminate|].
  destruct (owner_eqb x o); [inversion H; subst; reflexivity|].
  destruct (rem1 o l) eqn:E; [|discriminate]. inversion H; subst. cbn. now rewrite (IH l0).
Qed.
Lemma rem1_in o l r : rem1 o l = Some r -> In o l.
Proof.
  revert r; induction l as [|x l IH]; cbn; intros r H; [discriminate|].
  destruct (owner_eqb_spec x o); [left; auto|].
  destruct (rem1 o l) eqn:E; [|discriminate]. right. eapply IH; eauto.
Qed.
Lemma rem1_some o l : In o l -> exists r, rem1 o l = Some r.
Proof.
  induction l as [|x l IH]; cbn; intros H; [tauto|].
  destruct (owner_eqb_spec x o); [eexists; reflexivity|].
  destruct H as [H|H]; [congruence|]. destruct (IH H) as [r ->]. eexists; reflexivity.
Qed.
Lemma has_owner_in o l : has_owner o l = true <-> In o l.
Proof.
  unfold has_owner. rewrite existsb_exists. split.
  - intros [x [Hi He]]. destruct (owner_eqb_spec o x); [subst; auto|discriminate].
  - intros H. exists o. split; auto. apply owner_eqb_refl.
Qed.

(* the references of an owner list under a key, and removal of one *)
Definition orefs (k : key) (l : list owner) : list (owner * key) := map (fun o => (o, k)) l.
Lemma rem1_cnt o l r k x : rem1 o l = Some r ->
  cnt x (orefs k l) = cnt x (orefs k r) + (if ok_dec (o, k) x then 1 else 0).
Proof.
  revert r; induction l as [|y l IH]; intros r H; [discriminate|]. cbn [rem1] in H.
  change (orefs k (y :: l)) with ((y, k) :: orefs k l).
  destruct (owner_eqb_spec y o).
  - inversion H; subst. rewrite cnt_cons. lia.
  - destruct (rem1 o l) eqn:E; [|discriminate]. inversion H; subst.
    change (orefs k (y :: l0)) with ((y, k) :: orefs k l0).
    rewrite !cnt_cons, (IH l0 eq_refl). lia.
Qed.

Lemma upd_spec i f l l' :
  upd i f l = Some l' ->
  exists l1 e l2, l = l1 ++ e :: l2 /\ e_id e = i /\ (forall e', In e' l1 -> e_id e' <> i) /\
    ((exists e'', f e = Some (Some e'') /\ l' = l1 ++ e'' :: l2) \/ (f e = Some None /\ l' = l1 ++ l2)).
Proof.
  revert l'; induction l as [|e l IH]; cbn; intros l' H; [discriminate|].
  destruct (Nat.eqb_spec (e_id e) i).
  - exists [], e, l. split; [reflexivity|]. split; [auto|]. split; [cbn; tauto|].
    destruct (f e) as [[e''|]|]; inversion H; subst; [left; eauto|right; auto].
  - destruct (upd i f l) as [r|] eqn:E; [|discriminate]. inversion H; subst.
    destruct (IH r eq_refl) as [l1 [e0 [l2 [-> [Hid [Hn Hc]]]]]].
    exists (e :: l1), e0, l2. split; [reflexivity|]. split; [auto|]. split.
    + intros e' [<-|Hi]; auto.
    + destruct Hc as [[e'' [Hf ->]]|[Hf ->]]; [left; eauto|right; auto].
Qed.
Lemma upd_some i f l l1 e l2 r :
  l = l1 ++ e :: l2 -> e_id e = i -> (forall e', In e' l1 -> e_id e' <> i) -> f e = Some r ->
  upd i f l = Some (match r with Some e'' => l1 ++ e'' :: l2 | None => l1 ++ l2 end).
Proof.
  intros -> Hid Hn Hf. induction l1 as [|x l1 IH]; cbn.
  - rewrite <- Hid, Nat.eqb_refl, Hf. destruct r; reflexivity.
  - destruct (Nat.eqb_spec (e_id x) i) as [E|E]; [exfalso; eapply Hn; [left; reflexivity|exact E]|].
    rewrite IH; [destruct r; reflexivity|]. intros e' Hi. apply Hn. right; auto.
Qed.

Lemma refs_app a b : refs (a ++ b) = refs a ++ refs b.
Proof. unfold refs. apply flat_map_app. Qed.
Lemma refs_cons e l : refs (e :: l) = orefs (e_key e) (e_own e) ++ refs l.
Proof. reflexivity. Qed.

Lemma balanced_app_inv l1 e l2 : balanced (l1 ++ e :: l2) ->
  entry_ok e /\ balanced (l1 ++ l2) /\ ~ In (e_id e) (map e_id (l1 ++ l2)).
Proof.
  intros [Hnd Hf]. rewrite map_app in Hnd. cbn in Hnd.
  apply Forall_app in Hf. destruct Hf as [H1 H2]. inversion H2; subst.
  split; [auto|]. split.
  - split; [rewrite map_app; eapply NoDup_remove_1; eauto|apply Forall_app; auto].
  - rewrite map_app. eapply NoDup_remove_2; eauto.
Qed.
Lemma balanced_replace l1 e e' l2 : balanced (l1 ++ e :: l2) -> e_id e' = e_id e -> entry_ok e' ->
  balanced (l1 ++ e' :: l2).
Proof.
  intros [Hnd Hf] Hid Hok. split.
  - rewrite map_app in *. cbn in *. now rewrite Hid.
  - apply Forall_app in Hf. destruct Hf as [H1 H2]. inversion H2; subst. apply Forall_app. split; auto.
Qed.

Theorem apply_ev_balanced l ev l' : balanced l -> apply_ev l ev = Some l' -> balanced l'.
Proof.
  intros Hb H. destruct ev as [i k o|i by_ to|i from to|i o]; cbn in H.
  - destruct (existsb (fun e => e_id e =? i) l) eqn:E; [discriminate|]. inversion H; subst.
    destruct Hb as [Hnd Hf]. split.
    + rewrite map_app. cbn. apply ListX.nodup_snoc.
      * exact Hnd.
      * intros Hin. apply in_map_iff in Hin. destruct Hin as [e [He Hi]].
        assert (existsb (fun e => e_id e =? i) l = true) by (apply existsb_exists; exists e; split; auto; now apply Nat.eqb_eq).
        congruence.
    + apply Forall_app. split; auto. constructor; [|constructor]. split; cbn; lia.
  - apply upd_spec in H. destruct H as [l1 [e [l2 [-> [Hid [Hn [[e'' [Hf ->]]|[Hf ->]]]]]]]].
    + destruct (has_owner by_ (e_own e)); [|discriminate]. inversion Hf; subst.
      eapply balanced_replace; eauto. destruct (balanced_app_inv _ _ _ Hb) as [[H1 H2] _].
      split; cbn; [rewrite app_length; cbn; lia|lia].
    + destruct (has_owner by_ (e_own e)); discriminate.
  - apply upd_spec in H. destruct H as [l1 [e [l2 [-> [Hid [Hn [[e'' [Hf ->]]|[Hf ->]]]]]]]].
    + destruct (rem1 from (e_own e)) eqn:E; [|discriminate]. inversion Hf; subst.
      eapply balanced_replace; eauto. destruct (balanced_app_inv _ _ _ Hb) as [[H1 H2] _].
      apply rem1_length in E. split; cbn; [rewrite app_length; cbn; lia|lia].
    + destruct (rem1 from (e_own e)); discriminate.
  - apply upd_spec in H. destruct H as [l1 [e [l2 [-> [Hid [Hn [[e'' [Hf ->]]|[Hf ->]]]]]]]].
    + destruct (rem1 o (e_own e)) eqn:E; [|discriminate].
      destruct (Nat.eqb_spec (e_rc e) 1); [discriminate|]. inversion Hf; subst.
      eapply balanced_replace; eauto. destruct (balanced_app_inv _ _ _ Hb) as [[H1 H2] _].
      apply rem1_length in E. split; cbn; lia.
    + destruct (balanced_app_inv _ _ _ Hb) as [_ [H _]]. exact H.
Qed.

(* an update that only goes through for entries o holds a reference of: the ledger rejects a
   free, hand-over or clone by anyone else *)
Lemma upd_needs_holder l i o f l' :
  upd i f l = Some l' -> (forall e, f e <> None -> In o (e_own e)) -> holds l i o.
Proof.
  intros H Hf. apply upd_spec in H. destruct H as [l1 [e [l2 [-> [Hid [_ Hc]]]]]].
  exists e. split; [apply in_or_app; right; left; reflexivity|]. split; [exact Hid|].
  apply Hf. destruct Hc as [[e'' [E _]]|[E _]]; rewrite E; discriminate.
Qed.
Theorem free_needs_owner l i o l' : apply_ev l (LFree i o) = Some l' -> holds l i o.
Proof.
  intros H. apply (upd_needs_holder _ _ _ _ _ H). intros e.
  destruct (rem1 o (e_own e)) eqn:E; [intros _; eapply rem1_in; eauto|congruence].
Qed.
Theorem give_needs_owner l i from to l' : apply_ev l (LGive i from to) = Some l' -> holds l i from.
Proof.
  intros H. apply (upd_needs_holder _ _ _ _ _ H). intros e.
  destruct (rem1 from (e_own e)) eqn:E; [intros _; eapply rem1_in; eauto|congruence].
Qed.
Theorem clone_needs_owner l i by_ to l' : apply_ev l (LClone i by_ to) = Some l' -> holds l i by_.
Proof.
  intros H. apply (upd_needs_holder _ _ _ _ _ H). intros e.
  destruct (has_owner by_ (e_own e)) eqn:E; [intros _; now apply has_owner_in|congruence].
Qed.
(* the second free of a message that had one reference fails: the object is gone *)
Theorem double_free_rejected l i o l' :
  balanced l -> apply_ev l (LFree i o) = Some l' ->
  (forall e, In e l -> e_id e = i -> e_rc e = 1) -> apply_ev l' (LFree i o) = None.
Proof.
  intros Hb H H1. cbn in H. apply upd_spec in H. destruct H as [l1 [e [l2 [-> [Hid [Hn Hc]]]]]].
  assert (R1 : e_rc e = 1) by (apply H1; [apply in_or_app; right; left; reflexivity|auto]).
  destruct Hc as [[e'' [Hf ->]]|[Hf ->]].
  - destruct (rem1 o (e_own e)); [|discriminate]. rewrite R1 in Hf. discriminate.
  - destruct (balanced_app_inv _ _ _ Hb) as [_ [_ Hni]]. cbn.
    destruct (upd i _ (l1 ++ l2)) eqn:E; [|reflexivity]. exfalso.
    apply upd_spec in E. destruct E as [m1 [e0 [m2 [Hs [Hid0 _]]]]].
    apply Hni. rewrite Hs, Hid, <- Hid0, map_app. apply in_or_app. right. left. reflexivity.
Qed.

(* 2. the id-level replay against the multiset of references *)
Definition aev_add (e : aev) : list (owner * key) :=
  match e with AAlloc o k | AClone o k => [(o, k)] | AMove _ k to => [(to, k)] | ADel _ _ => [] end.
Definition aev_del (e : aev) : list (owner * key) :=
  match e with AMove from k _ => [(from, k)] | ADel o k => [(o, k)] | _ => [] end.
(* the reference an event needs to find *)
Definition aev_src (e : aev) : list (owner * key) :=
  match e with AAlloc _ _ => [] | AClone o k => [(o, k)] | AMove from k _ => [(from, k)] | ADel o k => [(o, k)] end.

Definition ids_below (L : lstate) : Prop := forall e, In e (ls_led L) -> e_id e < ls_next L.
Definition lgood (L : lstate) : Prop := balanced (ls_led L) /\ ids_below L.

Lemma cnt_refs_split l1 e l2 x :
  cnt x (refs (l1 ++ e :: l2)) = cnt x (refs l1) + cnt x (orefs (e_key e) (e_own e)) + cnt x (refs l2).
Proof. rewrite refs_app, refs_cons, !cnt_app. lia. Qed.
Lemma cnt_orefs_in o k l : 0 < cnt (o, k) (orefs k l) <-> In o l.
Proof.
  rewrite cnt_pos_in. unfold orefs. rewrite in_map_iff. split.
  - intros [o' [E Hi]]. inversion E; subst; auto.
  - intros H. exists o; auto.
Qed.
Lemma cnt_orefs_key o k k' l : k <> k' -> cnt (o, k) (orefs k' l) = 0.
Proof.
  intros Hk. unfold cnt. apply count_occ_not_In. unfold orefs. rewrite in_map_iff.
  intros [o' [E _]]. inversion E; congruence.
Qed.
Lemma cnt_orefs_app x k a b : cnt x (orefs k (a ++ b)) = cnt x (orefs k a) + cnt x (orefs k b).
Proof. unfold orefs. now rewrite map_app, cnt_app. Qed.

(* find_ref finds a holder exactly when the reference exists *)
Lemma find_ref_some o k l : 0 < cnt (o, k) (refs l) ->
  exists l1 e l2, l = l1 ++ e :: l2 /\ find_ref o k l = Some (e_id e) /\ e_key e = k /\ In o (e_own e).
Proof.
  unfold find_ref. induction l as [|e l IH]; intros H; [cbn in H; lia|].
  cbn [find]. destruct (key_eqb (e_key e) k && has_owner o (e_own e)) eqn:E.
  - apply andb_true_iff in E. destruct E as [E1 E2]. destruct (key_eqb_spec (e_key e) k); [|discriminate].
    exists [], e, l. repeat split; auto. now apply has_owner_in.
  - rewrite refs_cons, cnt_app in H.
    assert (Z : cnt (o, k) (orefs (e_key e) (e_own e)) = 0).
    { destruct (key_eqb_spec (e_key e) k) as [Ek|Ek].
      - cbn in E. destruct (Nat.eq_dec (cnt (o, k) (orefs (e_key e) (e_own e))) 0); auto.
        exfalso. rewrite Ek in n. assert (In o (e_own e)) by (apply (cnt_orefs_in o k); lia).
        apply has_owner_in in H0. congruence.
      - apply cnt_orefs_key. congruence. }
    destruct IH as [l1 [e0 [l2 [-> [Hf [Hk Ho]]]]]]; [lia|].
    exists (e :: l1), e0, l2. repeat split; auto.
Qed.

Lemma nodup_split_first l1 (e : entry) l2 : NoDup (map e_id (l1 ++ e :: l2)) -> forall e', In e' l1 -> e_id e' <> e_id e.
Proof.
  rewrite map_app. cbn. intros H e' Hi E. apply NoDup_remove_2 in H. apply H.
  apply in_or_app. left. rewrite <- E. now apply in_map.
Qed.

Lemma in_replace_id l1 (e e'' : entry) l2 e' : e_id e'' = e_id e -> In e' (l1 ++ e'' :: l2) ->
  exists e0, In e0 (l1 ++ e :: l2) /\ e_id e0 = e_id e'.
Proof.
  intros Hid H. apply in_app_or in H. destruct H as [H|[<-|H]].
  - exists e'. split; auto. apply in_or_app; auto.
  - exists e. split; auto. apply in_or_app; right; left; reflexivity.
  - exists e'. split; auto. apply in_or_app; right; right; auto.
Qed.
Lemma ids_below_replace L l1 e e'' l2 : ids_below L -> ls_led L = l1 ++ e :: l2 -> e_id e'' = e_id e ->
  forall e', In e' (l1 ++ e'' :: l2) -> e_id e' < ls_next L.
Proof.
  intros Hid Hs He e' Hi. destruct (in_replace_id _ _ _ _ _ He Hi) as [e0 [H0 <-]]. apply Hid. now rewrite Hs.
Qed.
Lemma ids_below_remove L l1 e l2 : ids_below L -> ls_led L = l1 ++ e :: l2 ->
  forall e', In e' (l1 ++ l2) -> e_id e' < ls_next L.
Proof.
  intros Hid Hs e' Hi. apply Hid. rewrite Hs. apply in_app_or in Hi. apply in_or_app. destruct Hi; [left|right; right]; auto.
Qed.

Lemma do_aev_ok L e :
  lgood L -> (forall x, In x (aev_src e) -> 0 < cnt x (refs (ls_led L))) ->
  exists L', do_aev L e = Some L' /\ lgood L' /\
    forall x, cnt x (refs (ls_led L')) + cnt x (aev_del e) = cnt x (refs (ls_led L)) + cnt x (aev_add e).
Proof.
  intros [Hb Hid] Hsrc. destruct e as [o k|o k|from k to|o k]; cbn [do_aev aev_add aev_del aev_src] in *.
  - cbn [apply_ev].
    assert (E : existsb (fun e => e_id e =? ls_next L) (ls_led L) = false).
    { apply not_true_iff_false. intros H. apply existsb_exists in H. destruct H as [e [Hi He]].
      apply Nat.eqb_eq in He. specialize (Hid e Hi). lia. }
    rewrite E. eexists. split; [reflexivity|]. split.
    + split.
      * apply (apply_ev_balanced (ls_led L) (LAlloc (ls_next L) k o)); [exact Hb|]. cbn [apply_ev]. rewrite E. reflexivity.
      * intros e. cbn [ls_led ls_next]. rewrite in_app_iff. intros [H|[<-|[]]]; [specialize (Hid e H); lia|cbn; lia].
    + intros x. cbn [ls_led]. rewrite refs_app, cnt_app.
      change (refs [mkEntry (ls_next L) k 1 [o]]) with [(o, k)]. rewrite !cnt_cons, !cnt_nil. lia.
  - destruct (find_ref_some o k (ls_led L)) as [l1 [e [l2 [Hs [Hf [Hk Ho]]]]]]; [apply Hsrc; left; reflexivity|].
    rewrite Hf. cbn [apply_ev].
    assert (Hfirst : forall e', In e' l1 -> e_id e' <> e_id e).
    { rewrite Hs in Hb. destruct Hb as [Hnd _]. apply (nodup_split_first _ _ _ Hnd). }
    erewrite upd_some; [|exact Hs|reflexivity|exact Hfirst|apply has_owner_in in Ho; rewrite Ho; reflexivity].
    eexists. split; [reflexivity|]. split.
    + split; cbn [ls_led ls_next].
      * rewrite Hs in Hb. eapply balanced_replace; [exact Hb|reflexivity|].
        destruct (balanced_app_inv _ _ _ Hb) as [[H1 H2] _]. split; cbn; [rewrite app_length; cbn; lia|lia].
      * unfold ids_below; cbn [ls_led ls_next]; eapply ids_below_replace; [exact Hid|exact Hs|reflexivity].
    + intros x. cbn [ls_led]. rewrite Hs, !cnt_refs_split. cbn [e_key e_own]. rewrite cnt_orefs_app.
      change (orefs (e_key e) [o]) with [(o, e_key e)]. rewrite !cnt_cons, !cnt_nil, Hk. lia.
  - destruct (find_ref_some from k (ls_led L)) as [l1 [e [l2 [Hs [Hf [Hk Ho]]]]]]; [apply Hsrc; left; reflexivity|].
    rewrite Hf. destruct (rem1_some _ _ Ho) as [r Hr].
    assert (Hfirst : forall e', In e' l1 -> e_id e' <> e_id e).
    { rewrite Hs in Hb. destruct Hb as [Hnd _]. apply (nodup_split_first _ _ _ Hnd). }
    cbn [apply_ev]. erewrite upd_some; [|exact Hs|reflexivity|exact Hfirst|rewrite Hr; reflexivity].
    eexists. split; [reflexivity|]. split.
    + split; cbn [ls_led ls_next].
      * rewrite Hs in Hb. eapply balanced_replace; [exact Hb|reflexivity|].
        destruct (balanced_app_inv _ _ _ Hb) as [[H1 H2] _]. apply rem1_length in Hr.
        split; cbn; [rewrite app_length; cbn; lia|lia].
      * unfold ids_below; cbn [ls_led ls_next]; eapply ids_below_replace; [exact Hid|exact Hs|reflexivity].
    + intros x. cbn [ls_led]. rewrite Hs, !cnt_refs_split. cbn [e_key e_own]. rewrite cnt_orefs_app.
      rewrite (rem1_cnt from (e_own e) r (e_key e) x Hr).
      change (orefs (e_key e) [to]) with [(to, e_key e)]. rewrite !cnt_cons, !cnt_nil, Hk. lia.
  - destruct (find_ref_some o k (ls_led L)) as [l1 [e [l2 [Hs [Hf [Hk Ho]]]]]]; [apply Hsrc; left; reflexivity|].
    rewrite Hf. destruct (rem1_some _ _ Ho) as [r Hr].
    assert (Hfirst : forall e', In e' l1 -> e_id e' <> e_id e).
    { rewrite Hs in Hb. destruct Hb as [Hnd _]. apply (nodup_split_first _ _ _ Hnd). }
    cbn [apply_ev].
    assert (Hok : entry_ok e) by (rewrite Hs in Hb; apply (balanced_app_inv _ _ _ Hb)).
    destruct Hok as [Hrc Hpos]. pose proof (rem1_length _ _ _ Hr) as Hlen.
    destruct (Nat.eqb_spec (e_rc e) 1) as [R1|R1].
    + erewrite upd_some; [|exact Hs|reflexivity|exact Hfirst|rewrite Hr; destruct (Nat.eqb_spec (e_rc e) 1); [reflexivity|congruence]].
      eexists. split; [reflexivity|]. split.
      * split; cbn [ls_led ls_next].
        -- rewrite Hs in Hb. apply (balanced_app_inv _ _ _ Hb).
        -- unfold ids_below; cbn [ls_led ls_next]; eapply ids_below_remove; [exact Hid|exact Hs].
      * intros x. cbn [ls_led]. rewrite Hs, cnt_refs_split, refs_app, cnt_app.
        rewrite (rem1_cnt o (e_own e) r (e_key e) x Hr).
        assert (r = []) by (destruct r; [reflexivity|cbn in Hlen; lia]). subst r.
        change (orefs (e_key e) []) with (@nil (owner * key)). rewrite !cnt_cons, !cnt_nil, Hk. lia.
    + erewrite upd_some; [|exact Hs|reflexivity|exact Hfirst|rewrite Hr; destruct (Nat.eqb_spec (e_rc e) 1); [congruence|reflexivity]].
      eexists. split; [reflexivity|]. split.
      * split; cbn [ls_led ls_next].
        -- rewrite Hs in Hb. eapply balanced_replace; [exact Hb|reflexivity|]. split; cbn; lia.
        -- unfold ids_below; cbn [ls_led ls_next]; eapply ids_below_replace; [exact Hid|exact Hs|reflexivity].
      * intros x. cbn [ls_led]. rewrite Hs, !cnt_refs_split. cbn [e_key e_own].
        rewrite (rem1_cnt o (e_own e) r (e_key e) x Hr). rewrite !cnt_cons, !cnt_nil, Hk. lia.
Qed.

Definition adds (E : list aev) : list (owner * key) := flat_map aev_add E.
Definition dels (E : list aev) : list (owner * key) := flat_map aev_del E.
Definition csrc (E : list aev) : list (owner * key) :=
  flat_map (fun e => match e with AClone o k => [(o, k)] | _ => [] end) E.
Lemma adds_app a b : adds (a ++ b) = adds a ++ adds b. Proof. apply flat_map_app. Qed.
Lemma dels_app a b : dels (a ++ b) = dels a ++ dels b. Proof. apply flat_map_app. Qed.

Lemma do_aevs_app L a b : do_aevs L (a ++ b) = match do_aevs L a with Some L1 => do_aevs L1 b | None => None end.
Proof. revert L; induction a as [|e a IH]; intros L; cbn; [reflexivity|]. destruct (do_aev L e); auto. Qed.

(* a phase whose removals are all available up front (additions only help) and whose clones
   have a holder succeeds, and the references change by exactly its additions and removals *)
Lemma do_aevs_phase E : forall L,
  lgood L ->
  (forall x, cnt x (dels E) <= cnt x (refs (ls_led L))) ->
  (forall x, In x (csrc E) -> cnt x (dels E) < cnt x (refs (ls_led L))) ->
  exists L', do_aevs L E = Some L' /\ lgood L' /\
    forall x, cnt x (refs (ls_led L')) + cnt x (dels E) = cnt x (refs (ls_led L)) + cnt x (adds E).
Proof.
  induction E as [|e E IH]; intros L Hg Hd Hc.
  - exists L. split; [reflexivity|]. split; auto.
  - assert (Hsrc : forall x, In x (aev_src e) -> 0 < cnt x (refs (ls_led L))).
    { intros x Hx. destruct e as [o k|o k|from k to|o k]; cbn in Hx; try tauto; destruct Hx as [<-|[]].
      - assert (Hin : In (o, k) (csrc (AClone o k :: E))) by (left; reflexivity).
        specialize (Hc (o, k) Hin). lia.
      - specialize (Hd (from, k)). unfold dels in Hd. cbn [flat_map aev_del] in Hd. rewrite cnt_app, cnt_cons in Hd. destruct (ok_dec (from, k) (from, k)); [lia|congruence].
      - specialize (Hd (o, k)). unfold dels in Hd. cbn [flat_map aev_del] in Hd. rewrite cnt_app, cnt_cons in Hd. destruct (ok_dec (o, k) (o, k)); [lia|congruence]. }
    destruct (do_aev_ok L e Hg Hsrc) as [L1 [H1 [Hg1 Hc1]]].
    destruct (IH L1 Hg1) as [L' [H' [Hg' Hc']]].
    + intros x. specialize (Hd x). specialize (Hc1 x). unfold dels in Hd. cbn [flat_map] in Hd. rewrite cnt_app in Hd. fold (dels E) in Hd. lia.
    + intros x Hx. specialize (Hc x). specialize (Hc1 x). specialize (Hd x).
      unfold dels in Hc, Hd. cbn [flat_map] in Hc, Hd. rewrite cnt_app in Hc, Hd. fold (dels E) in Hc, Hd.
      assert (In x (csrc (e :: E))) by (unfold csrc; cbn [flat_map]; apply in_or_app; right; exact Hx).
      specialize (Hc H). lia.
    + exists L'. split; [cbn [do_aevs]; rewrite H1; exact H'|]. split; auto.
      intros x. specialize (Hc1 x). specialize (Hc' x).
      unfold adds, dels. cbn [flat_map]. rewrite !cnt_app. fold (adds E) (dels E). lia.
Qed.

(* 3. the step law of a protocol and what it implies *)
Definition law_eq {St} (V : view St) (s : St) (o : pop) (s' : St) (outs : list pout) : Prop :=
  let E := step_evs V s o outs in
  forall F : owner * key -> nat,
    wsum F (omega V s) + wsum F (flat_map aev_adds E) = wsum F (omega V s') + wsum F (flat_map aev_dels E).
(* every clone is a clone of something the protocol holds at that moment *)
Definition clones_held {St} (V : view St) (s : St) (o : pop) (outs : list pout) : Prop :=
  forall k, In k (v_clones V s o) ->
    0 < cnt (OProto, k) (omega V s ++ flat_map aev_adds (evs_op V s o ++ evs_sends V s o outs)).
Definition step_law {St} (V : view St) (s : St) (o : pop) (s' : St) (outs : list pout) : Prop :=
  law_eq V s o s' outs /\ clones_held V s o outs.

Definition linv {St} (V : view St) (L : lstate) (s : St) : Prop :=
  lgood L /\ mseq (lib_refs (ls_led L)) (omega V s).

Lemma cnt_filter_lib x l : cnt x (filter (fun y => lib_owner (fst y)) l) = if lib_owner (fst x) then cnt x l else 0.
Proof.
  induction l as [|y l IH]; cbn [filter]; [rewrite !cnt_nil; destruct (lib_owner (fst x)); reflexivity|].
  destruct (lib_owner (fst y)) eqn:E; rewrite ?cnt_cons, IH; destruct (ok_dec y x) as [->|]; try rewrite E; destruct (lib_owner (fst x)); lia.
Qed.
Lemma cnt_lib_one x o k :
  cnt x (if lib_owner o then [(o, k)] else []) = if lib_owner (fst x) then cnt x [(o, k)] else 0.
Proof.
  destruct (lib_owner o) eqn:Eo; rewrite ?cnt_cons, ?cnt_nil.
  - destruct (ok_dec (o, k) x) as [E|E]; [rewrite <- E; cbn [fst]; rewrite Eo; reflexivity|destruct (lib_owner (fst x)); reflexivity].
  - destruct (ok_dec (o, k) x) as [E|E]; [rewrite <- E; cbn [fst]; rewrite Eo; reflexivity|destruct (lib_owner (fst x)); reflexivity].
Qed.
Lemma cnt_lib_adds x E : cnt x (flat_map aev_adds E) = if lib_owner (fst x) then cnt x (adds E) else 0.
Proof.
  induction E as [|e E IH]; [cbn; destruct (lib_owner (fst x)); reflexivity|].
  unfold adds. cbn [flat_map]. rewrite !cnt_app, IH. fold (adds E).
  assert (H : cnt x (aev_adds e) = if lib_owner (fst x) then cnt x (aev_add e) else 0).
  { destruct e as [o k|o k|f k t|o k]; cbn [aev_adds aev_add]; try apply cnt_lib_one.
    rewrite cnt_nil. destruct (lib_owner (fst x)); reflexivity. }
  rewrite H. destruct (lib_owner (fst x)); lia.
Qed.
Lemma cnt_lib_dels x E : cnt x (flat_map aev_dels E) = if lib_owner (fst x) then cnt x (dels E) else 0.
Proof.
  induction E as [|e E IH]; [cbn; destruct (lib_owner (fst x)); reflexivity|].
  unfold dels. cbn [flat_map]. rewrite !cnt_app, IH. fold (dels E).
  assert (H : cnt x (aev_dels e) = if lib_owner (fst x) then cnt x (aev_del e) else 0).
  { destruct e as [o k|o k|f k t|o k]; cbn [aev_dels aev_del]; try apply cnt_lib_one;
    rewrite cnt_nil; destruct (lib_owner (fst x)); reflexivity. }
  rewrite H. destruct (lib_owner (fst x)); lia.
Qed.

(* the application's reuse of an aio touches no library-side reference *)
Lemma app_takes_refs l a x : lib_owner (fst x) = true -> cnt x (refs (app_takes l a)) = cnt x (refs l).
Proof.
  intros Hx. induction l as [|e l IH]; [reflexivity|].
  unfold app_takes. cbn [map]. fold (app_takes l a). rewrite !refs_cons, !cnt_app, IH. f_equal.
  cbn [e_key e_own]. generalize (e_own e). intros os. induction os as [|o os IHo]; [reflexivity|].
  unfold orefs in *. cbn [map]. rewrite !cnt_cons, IHo. f_equal.
  destruct (owner_eqb_spec o (OBack a)) as [->|].
  - destruct (ok_dec (OApp, e_key e) x) as [<-|]; [discriminate|]. destruct (ok_dec (OBack a, e_key e) x) as [<-|]; [discriminate|reflexivity].
  - reflexivity.
Qed.
Lemma app_takes_good L a : lgood L -> lgood (mkLs (app_takes (ls_led L) a) (ls_next L)).
Proof.
  intros [[Hnd Hf] Hid]. split; [split|]; cbn [ls_led ls_next].
  - unfold app_takes. rewrite map_map. cbn [e_id]. exact Hnd.
  - unfold app_takes. rewrite Forall_map. eapply Forall_impl; [|exact Hf]. intros e [H1 H2]. split; cbn; [now rewrite map_length|auto].
  - intros e He. unfold app_takes in He. apply in_map_iff in He. destruct He as [e0 [<- H0]]. cbn. now apply Hid.
Qed.
Lemma app_reuse_inv {St} (V : view St) L s o : linv V L s -> linv V (app_reuse L o) s.
Proof.
  intros [Hg Hm]. destruct o; try (split; assumption); cbn [app_reuse].
  all: split; [apply app_takes_good; exact Hg|].
  all: intros x; rewrite <- Hm; unfold lib_refs; cbn [ls_led]; rewrite !cnt_filter_lib;
       destruct (lib_owner (fst x)) eqn:E; [now apply app_takes_refs|reflexivity].
Qed.

(* owner classes, to say which phase of a step touches which references *)
Definition cls (o : owner) : nat :=
  match o with OApp => 0 | OAio _ => 1 | OBack _ => 2 | OProto => 3 | OPipe _ => 4 | OLost => 5 end.
Definition in_cls (cs : list nat) (l : list (owner * key)) : Prop := Forall (fun y => In (cls (fst y)) cs) l.
Lemma in_cls_app cs a b : in_cls cs a -> in_cls cs b -> in_cls cs (a ++ b).
Proof. intros; apply Forall_app; auto. Qed.
Lemma in_cls_nil cs : in_cls cs []. Proof. constructor. Qed.
Lemma cnt_zero_cls cs l x : in_cls cs l -> ~ In (cls (fst x)) cs -> cnt x l = 0.
Proof.
  intros H Hn. unfold cnt. apply count_occ_not_In. intros Hi.
  unfold in_cls in H. rewrite Forall_forall in H. apply Hn. now apply H.
Qed.
Lemma lib_cls o : lib_owner o = true <-> In (cls o) [1; 3; 4].
Proof. destruct o; cbn; intuition (try discriminate; try lia). Qed.

Section Phases.
  Context {St : Type} (V : view St).

  Lemma op_dels_cls s o : in_cls [4] (dels (evs_op V s o)).
  Proof.
    destruct o; cbn [evs_op]; try apply in_cls_nil.
    - destruct (N.eqb rv 0); unfold dels; induction (tx_of p (v_tx V s)); cbn; constructor; cbn; auto.
    - destruct (N.eqb rv 0); apply in_cls_nil.
  Qed.
  Lemma op_adds_cls s o : in_cls [1; 3] (adds (evs_op V s o)).
  Proof.
    destruct o; cbn [evs_op]; try apply in_cls_nil.
    - constructor; cbn; auto.
    - destruct (N.eqb rv 0); unfold adds; induction (tx_of p (v_tx V s)); cbn; try constructor; cbn; auto.
    - destruct (N.eqb rv 0); [constructor; cbn; auto|apply in_cls_nil].
  Qed.
  Lemma op_csrc s o : csrc (evs_op V s o) = [].
  Proof.
    destruct o; cbn [evs_op]; try reflexivity.
    - destruct (N.eqb rv 0); unfold csrc; induction (tx_of p (v_tx V s)); cbn; auto.
    - destruct (N.eqb rv 0); reflexivity.
  Qed.
  (* what PSendDone takes from the pipe is what the state says is in flight there *)
  Lemma op_dels_le s o x : cnt x (dels (evs_op V s o)) <= cnt x (omega V s).
  Proof.
    destruct o; cbn [evs_op]; try (cbn; lia).
    2: { destruct (N.eqb rv 0); cbn; lia. }
    assert (H : dels (evs_op V s (PSendDone p rv)) = map (fun m => (OPipe p, body m)) (tx_of p (v_tx V s))).
    { cbn [evs_op]. destruct (N.eqb rv 0); unfold dels; induction (tx_of p (v_tx V s)); cbn; try rewrite IHl; auto. }
    cbn [evs_op] in H. rewrite H. clear H. unfold omega. rewrite !cnt_app.
    assert (cnt x (map (fun m => (OPipe p, body m)) (tx_of p (v_tx V s))) <=
            cnt x (map (fun y => (OPipe (fst y), body (snd y))) (v_tx V s))); [|lia].
    unfold tx_of. induction (v_tx V s) as [|[q m] l IH]; cbn [filter map fst snd]; [lia|].
    destruct (N.eqb_spec q p); cbn [map fst snd]; rewrite ?cnt_cons; [subst q|];
      cbn [filter map fst snd] in IH; destruct (ok_dec _ x); lia.
  Qed.

  Lemma sends_dels_cls s o outs : in_cls [1] (dels (evs_sends V s o outs)).
  Proof.
    induction outs as [|x outs IH]; [apply in_cls_nil|]. cbn [evs_sends].
    destruct x; auto. destruct m; auto. destruct (send_key V s o a); auto.
    unfold dels. cbn [flat_map]. apply in_cls_app; auto.
    destruct (N.eqb rv 0); [|destruct (has_id a (v_detach V s o))]; constructor; cbn; auto.
  Qed.
  Lemma sends_adds_cls s o outs : in_cls [2; 3; 5] (adds (evs_sends V s o outs)).
  Proof.
    induction outs as [|x outs IH]; [apply in_cls_nil|]. cbn [evs_sends].
    destruct x; auto. destruct m; auto. destruct (send_key V s o a); auto.
    unfold adds. cbn [flat_map]. apply in_cls_app; auto.
    destruct (N.eqb rv 0); [|destruct (has_id a (v_detach V s o))]; constructor; cbn; auto.
  Qed.
  Lemma sends_csrc s o outs : csrc (evs_sends V s o outs) = [].
  Proof.
    induction outs as [|x outs IH]; [reflexivity|]. cbn [evs_sends].
    destruct x; auto. destruct m; auto. destruct (send_key V s o a); auto.
    unfold csrc. cbn [flat_map]. fold (csrc (evs_sends V s o outs)). rewrite IH.
    destruct (N.eqb rv 0); [|destruct (has_id a (v_detach V s o))]; reflexivity.
  Qed.

  Definition evs_mid (s : St) (o : pop) : list aev :=
    map (AClone OProto) (v_clones V s o) ++ map (AAlloc OProto) (v_dups V s o).
  Lemma mid_dels s o : dels (evs_mid s o) = [].
  Proof.
    unfold evs_mid, dels. rewrite flat_map_app.
    induction (v_clones V s o); cbn; auto. induction (v_dups V s o); cbn; auto.
  Qed.
  Lemma mid_adds_cls s o : in_cls [3] (adds (evs_mid s o)).
  Proof.
    unfold evs_mid, adds. rewrite flat_map_app. apply in_cls_app.
    - induction (v_clones V s o); cbn; constructor; cbn; auto.
    - induction (v_dups V s o); cbn; constructor; cbn; auto.
  Qed.
  Lemma mid_csrc s o : csrc (evs_mid s o) = map (fun k => (OProto, k)) (v_clones V s o).
  Proof.
    unfold evs_mid, csrc. rewrite flat_map_app.
    assert (flat_map (fun e => match e with AClone o0 k => [(o0, k)] | _ => [] end) (map (AAlloc OProto) (v_dups V s o)) = []).
    { induction (v_dups V s o); cbn; auto. }
    rewrite H, app_nil_r. induction (v_clones V s o); cbn; congruence.
  Qed.

  Lemma outs_dels_cls l : in_cls [3] (dels (evs_outs l)).
  Proof.
    induction l as [|x l IH]; [apply in_cls_nil|]. cbn [evs_outs].
    destruct x; auto; try (unfold dels; cbn [flat_map]; apply in_cls_app; auto; constructor; cbn; auto).
    destruct m; auto. destruct (N.eqb rv 0); auto.
    unfold dels; cbn [flat_map]; apply in_cls_app; auto; constructor; cbn; auto.
  Qed.
  Lemma outs_adds_cls l : in_cls [2; 4] (adds (evs_outs l)).
  Proof.
    induction l as [|x l IH]; [apply in_cls_nil|]. cbn [evs_outs].
    destruct x; auto.
    - destruct m; auto. destruct (N.eqb rv 0); auto.
      unfold adds; cbn [flat_map]; apply in_cls_app; auto; constructor; cbn; auto.
    - unfold adds; cbn [flat_map]; apply in_cls_app; auto; constructor; cbn; auto.
  Qed.
  Lemma outs_csrc l : csrc (evs_outs l) = [].
  Proof.
    induction l as [|x l IH]; [reflexivity|]. cbn [evs_outs].
    destruct x; auto. destruct m; auto. destruct (N.eqb rv 0); auto.
  Qed.
End Phases.

Section Main.
  Context {St : Type} (V : view St).

  Lemma omega_cls s : in_cls [1; 3; 4] (omega V s).
  Proof.
    unfold omega. repeat apply in_cls_app.
    - induction (v_held V s); cbn; constructor; cbn; auto.
    - induction (v_tx V s); cbn; constructor; cbn; auto.
    - induction (v_att V s); cbn; constructor; cbn; auto.
  Qed.
  Lemma lib_cnt L s x : linv V L s -> lib_owner (fst x) = true -> cnt x (refs (ls_led L)) = cnt x (omega V s).
  Proof. intros [_ Hm] Hx. rewrite <- Hm. unfold lib_refs. rewrite cnt_filter_lib, Hx. reflexivity. Qed.

  Lemma step_evs_split s o outs :
    step_evs V s o outs = evs_op V s o ++ evs_sends V s o outs ++ evs_mid V s o ++ evs_outs (outs ++ map Free (v_extra V s o outs)).
  Proof. unfold step_evs, evs_mid. now rewrite <- app_assoc. Qed.

  Theorem replay_step_ok L s o s' outs :
    linv V L s -> step_law V s o s' outs ->
    exists L', replay_step V L s o s' outs = Some L' /\ linv V L' s' /\
      forall x, cnt x (refs (ls_led L')) + cnt x (dels (step_evs V s o outs)) =
                cnt x (refs (ls_led (app_reuse L o))) + cnt x (adds (step_evs V s o outs)).
  Proof.
    intros Hinv [Hlaw Hcl].
    pose proof (app_reuse_inv V L s o Hinv) as Hinv0.
    unfold replay_step. rewrite step_evs_split.
    set (L0 := app_reuse L o) in *.
    set (E1 := evs_op V s o). set (E2 := evs_sends V s o outs). set (E3 := evs_mid V s o).
    set (E4 := evs_outs (outs ++ map Free (v_extra V s o outs))).
    (* the law, as counts, for library-side references *)
    assert (Hx : forall x, lib_owner (fst x) = true ->
               cnt x (omega V s) + (cnt x (adds E1) + cnt x (adds E2) + cnt x (adds E3) + cnt x (adds E4)) =
               cnt x (omega V s') + (cnt x (dels E1) + cnt x (dels E2) + cnt x (dels E3) + cnt x (dels E4))).
    { intros x Hl. specialize (Hlaw (ind x)). cbv zeta in Hlaw. rewrite <- !cnt_wsum in Hlaw.
      rewrite cnt_lib_adds, cnt_lib_dels, Hl, step_evs_split in Hlaw.
      fold E1 E2 E3 E4 in Hlaw. rewrite !adds_app, !dels_app, !cnt_app in Hlaw. lia. }
    pose proof (op_dels_cls V s o) as C1d. pose proof (op_adds_cls V s o) as C1a. fold E1 in C1d, C1a.
    pose proof (sends_dels_cls V s o outs) as C2d. pose proof (sends_adds_cls V s o outs) as C2a. fold E2 in C2d, C2a.
    pose proof (mid_dels V s o) as C3d. pose proof (mid_adds_cls V s o) as C3a. fold E3 in C3d, C3a.
    pose proof (outs_dels_cls (outs ++ map Free (v_extra V s o outs))) as C4d.
    pose proof (outs_adds_cls (outs ++ map Free (v_extra V s o outs))) as C4a. fold E4 in C4d, C4a.
    destruct Hinv0 as [Hg0 Hm0].
    assert (Hlib0 : forall x, lib_owner (fst x) = true -> cnt x (refs (ls_led L0)) = cnt x (omega V s)).
    { intros x Hl. apply lib_cnt; [split; assumption|exact Hl]. }
    (* phase 1: the operation itself *)
    destruct (do_aevs_phase E1 L0 Hg0) as [L1 [R1 [Hg1 Hc1]]].
    { intros x. destruct (lib_owner (fst x)) eqn:El.
      - rewrite Hlib0 by exact El. apply op_dels_le.
      - rewrite (cnt_zero_cls _ _ _ C1d); [lia|]. intros Hc.
        assert (lib_owner (fst x) = true) by (apply lib_cls; cbn in *; intuition lia). congruence. }
    { unfold E1. rewrite op_csrc. intros x []. }
    (* phase 2: completions of pending sends *)
    destruct (do_aevs_phase E2 L1 Hg1) as [L2 [R2 [Hg2 Hc2]]].
    { intros x. destruct (Nat.eq_dec (cls (fst x)) 1) as [Ec|Ec].
      - assert (El : lib_owner (fst x) = true) by (apply lib_cls; rewrite Ec; cbn; auto).
        specialize (Hx x El). specialize (Hc1 x). rewrite Hlib0 in Hc1 by exact El.
        rewrite (cnt_zero_cls _ _ _ C1d) in * by (rewrite Ec; cbn; intuition lia).
        rewrite (cnt_zero_cls _ _ _ C2a) in * by (rewrite Ec; cbn; intuition lia).
        rewrite (cnt_zero_cls _ _ _ C3a) in * by (rewrite Ec; cbn; intuition lia).
        rewrite (cnt_zero_cls _ _ _ C4a) in * by (rewrite Ec; cbn; intuition lia).
        rewrite (cnt_zero_cls _ _ _ C4d) in * by (rewrite Ec; cbn; intuition lia).
        rewrite C3d, cnt_nil in Hx. lia.
      - rewrite (cnt_zero_cls _ _ _ C2d); [lia|]. cbn. intuition lia. }
    { unfold E2. rewrite sends_csrc. intros x []. }
    (* phase 3: clones and duplicates *)
    destruct (do_aevs_phase E3 L2 Hg2) as [L3 [R3 [Hg3 Hc3]]].
    { intros x. rewrite C3d, cnt_nil. lia. }
    { intros x Hin. rewrite C3d, cnt_nil. unfold E3 in Hin. rewrite mid_csrc in Hin.
      apply in_map_iff in Hin. destruct Hin as [k [<- Hk]].
      specialize (Hcl k Hk). rewrite cnt_app, cnt_lib_adds, adds_app, cnt_app in Hcl. cbn [fst lib_owner] in Hcl.
      fold E1 E2 in Hcl.
      specialize (Hc1 (OProto, k)). specialize (Hc2 (OProto, k)). rewrite Hlib0 in Hc1 by reflexivity.
      rewrite (cnt_zero_cls _ _ _ C1d) in * by (cbn; intuition lia).
      rewrite (cnt_zero_cls _ _ _ C2d) in * by (cbn; intuition lia). lia. }
    (* phase 4: what leaves the protocol *)
    destruct (do_aevs_phase E4 L3 Hg3) as [L4 [R4 [Hg4 Hc4]]].
    { intros x. destruct (Nat.eq_dec (cls (fst x)) 3) as [Ec|Ec].
      - assert (El : lib_owner (fst x) = true) by (apply lib_cls; rewrite Ec; cbn; auto).
        specialize (Hx x El). specialize (Hc1 x). specialize (Hc2 x). specialize (Hc3 x). rewrite Hlib0 in Hc1 by exact El.
        rewrite (cnt_zero_cls _ _ _ C1d) in * by (rewrite Ec; cbn; intuition lia).
        rewrite (cnt_zero_cls _ _ _ C2d) in * by (rewrite Ec; cbn; intuition lia).
        rewrite (cnt_zero_cls _ _ _ C4a) in * by (rewrite Ec; cbn; intuition lia).
        rewrite C3d, cnt_nil in *. lia.
      - rewrite (cnt_zero_cls _ _ _ C4d); [lia|]. cbn. intuition lia. }
    { unfold E4. rewrite outs_csrc. intros x []. }
    (* the run as a whole, and the final comparison *)
    assert (Hrun : do_aevs L0 (E1 ++ E2 ++ E3 ++ E4) = Some L4).
    { rewrite do_aevs_app, R1, do_aevs_app, R2, do_aevs_app, R3. exact R4. }
    rewrite Hrun.
    assert (Hfin : mseq (lib_refs (ls_led L4)) (omega V s')).
    { intros x. unfold lib_refs. rewrite cnt_filter_lib. destruct (lib_owner (fst x)) eqn:El.
      - specialize (Hx x El). specialize (Hc1 x). specialize (Hc2 x). specialize (Hc3 x). specialize (Hc4 x).
        rewrite Hlib0 in Hc1 by exact El. lia.
      - symmetry. apply (cnt_zero_cls _ _ _ (omega_cls s')). intros Hc. apply lib_cls in Hc. congruence. }
    apply mset_eqb_spec in Hfin as Hb. rewrite Hb.
    exists L4. split; [reflexivity|]. split; [split; assumption|].
    intros x. rewrite !adds_app, !dels_app, !cnt_app.
    specialize (Hc1 x). specialize (Hc2 x). specialize (Hc3 x). specialize (Hc4 x). lia.
  Qed.
End Main.

(* 4. every history *)
Section Run.
  Context {St : Type} (V : view St) (step : St -> pop -> St * list pout)
          (Inv : St -> Prop) (ok : St -> pop -> Prop).

  (* the conservation law of a protocol: its invariant is kept and every step obeys the
     weighted equation of the ledger *)
  Definition proto_law : Prop :=
    forall s o s' outs, Inv s -> ok s o -> step s o = (s', outs) -> Inv s' /\ step_law V s o s' outs.

  Fixpoint ops_ok (s : St) (ops : list pop) : Prop :=
    match ops with [] => True | o :: r => ok s o /\ ops_ok (fst (step s o)) r end.
  Fixpoint run (s : St) (ops : list pop) : St :=
    match ops with [] => s | o :: r => run (fst (step s o)) r end.

  Theorem replay_run_ok : proto_law ->
    forall ops s L, Inv s -> linv V L s -> ops_ok s ops ->
    exists L', replay_run V step L s ops = Some (L', run s ops) /\ linv V L' (run s ops) /\ Inv (run s ops).
  Proof.
    intros Hlaw. induction ops as [|o ops IH]; intros s L Hi Hl Hok.
    - exists L. repeat split; auto; apply Hl.
    - cbn [replay_run run ops_ok] in *. destruct Hok as [Ho Hr].
      destruct (step s o) as [s' outs] eqn:E. cbn [fst] in *.
      destruct (Hlaw s o s' outs Hi Ho E) as [Hi' Hsl].
      destruct (replay_step_ok V L s o s' outs Hl Hsl) as [L1 [R1 [Hl1 _]]].
      rewrite R1. apply IH; auto.
  Qed.
End Run.

Section Histories.
  Context {St : Type} (step : St -> pop -> St * list pout).

  Lemma run_app a : forall b s, run step s (a ++ b) = run step (run step s a) b.
  Proof. induction a as [|o a IH]; intros b s; cbn [app run]; [reflexivity|apply IH]. Qed.
  Lemma ops_ok_app (ok : St -> pop -> Prop) a : forall b s,
    ops_ok step ok s a -> ops_ok step ok (run step s a) b -> ops_ok step ok s (a ++ b).
  Proof.
    induction a as [|o a IH]; intros b s Ha Hb; cbn [app run ops_ok] in *; [exact Hb|].
    destruct Ha as [Ho Ha]. split; [exact Ho|]. apply IH; assumption.
  Qed.
  (* operations the contract allows in every state *)
  Lemma ops_ok_all (ok : St -> pop -> Prop) ops :
    (forall o, In o ops -> forall s, ok s o) -> forall s, ops_ok step ok s ops.
  Proof.
    induction ops as [|o r IH]; intros H s; [exact I|]. cbn [ops_ok]. split.
    - apply H. left. reflexivity.
    - apply IH. intros o' Hi. apply H. right. exact Hi.
  Qed.
  (* a projection of the state that a set of operations does not touch *)
  Lemma run_keeps {B} (f : St -> B) (P : pop -> Prop) :
    (forall s o, P o -> f (fst (step s o)) = f s) -> forall ops s, Forall P ops -> f (run step s ops) = f s.
  Proof.
    intros HP. induction ops as [|o ops IH]; intros s H; cbn [run]; [reflexivity|].
    inversion H; subst. rewrite IH by assumption. apply HP. assumption.
  Qed.
  (* operations that only remove items: what is left after a history was there before it,
     and no operation of the history removes it *)
  Lemma run_clears {X} (item : St -> X -> Prop) (kills : pop -> X -> Prop) (P : pop -> Prop) :
    (forall s o x, P o -> item (fst (step s o)) x -> item s x /\ ~ kills o x) ->
    forall ops s x, Forall P ops -> item (run step s ops) x -> item s x /\ forall o, In o ops -> ~ kills o x.
  Proof.
    intros HP. induction ops as [|o ops IH]; intros s x H Hx; cbn [run] in Hx; [split; [exact Hx|intros ? []]|].
    inversion H; subst. destruct (IH _ _ H3 Hx) as [Hx1 Hk]. destruct (HP s o x H2 Hx1) as [Hx0 Hk0].
    split; [exact Hx0|]. intros o' [<-|Hi]; [exact Hk0|exact (Hk o' Hi)].
  Qed.
  (* one operation per key, each dropping the items under its key: none is left *)
  Lemma run_filter_clears {X} (items : St -> list (N * X)) (mk : N -> pop) :
    (forall s p, items (fst (step s (mk p))) = filter (fun x => negb (N.eqb (fst x) p)) (items s)) ->
    forall l s, (forall x, In x (items s) -> In (fst x) l) -> items (run step s (map mk l)) = [].
  Proof.
    intros Hf. induction l as [|p l IH]; intros s Hl; cbn [map run].
    - destruct (items s) as [|x r]; [reflexivity|]. destruct (Hl x (or_introl eq_refl)).
    - apply IH. intros x Hx. rewrite Hf in Hx. apply filter_In in Hx. destruct Hx as [Hx Hn].
      destruct (Hl x Hx) as [E|Hi]; [|exact Hi]. subst p. rewrite N.eqb_refl in Hn. discriminate.
  Qed.
End Histories.
