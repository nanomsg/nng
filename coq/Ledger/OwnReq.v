(* OwnReq: the ledger law (property C03, Ledger/LedgerProofs.proto_law) of cooked REQ,
     src/sp/protocol/reqrep0/req.c   (Proto/ReqModel.req_step fx, view VReq.view fx).

   The law is stated for the repaired clone policy (fx_clone fx = true: req0_run_send_queue,
   req0_ctx_reset, req0_recv_cb and req0_pipe_close read the per-request snapshot of the resend
   time); the other three variant flags (fx_cancel, fx_stash, fx_rdclr) stay universally
   quantified.  With the pinned policy (fx_clone fx = false) the law is false:
   req_law_refuted_pinned replays a witness history of Proto/ReqProofs.v into the ledger.

   The invariant ReqInv: keys of contexts unique; user aio ids unique across contexts; a queued send
   has its request and owns it; after transmission the context keeps a reference exactly when
   the request can be retried; the send queue has no duplicates and names live contexts that
   own their request; the retry queue names live contexts with retry enabled; a context on a
   pipe's list has no queued send; the ready pipes are distinct and have nothing in flight.
   A step is cut into segments (seg) that each keep the invariant and balance the references;
   req0_ctx_reset, req0_run_send_queue and the loop of req0_pipe_close are such segments. *)
From Coq Require Import List Arith NArith Bool ZArith Lia Permutation.
From NngV Require Import Proto.Common Proto.ReqRepBacktrace Proto.ReqModel Proto.ReqRepProofs
  Ledger.Ledger Ledger.LedgerProofs Ledger.LawTac Ledger.Keyed Ledger.Views.
From NngV Require Base.ListX.
From NngV Require Proto.ReqProofs.
From NngV Require Import Ledger.LedgerThms.
Import ListNotations.

Section Lookup.
  Context {A : Type}.
  Implicit Types (l : list (N * A)).

  Lemma lookup_aset_cases {k y l k1 z} :
    lookup k1 (assoc_set k y l) = Some z -> (k1 = k /\ z = y) \/ (k1 <> k /\ lookup k1 l = Some z).
  Proof. rewrite lookup_assoc_set. destruct (N.eqb_spec k1 k); intros H; [inversion H|]; auto. Qed.
  Lemma lookup_snoc k v l k1 :
    lookup k1 (l ++ [(k, v)]) = match lookup k1 l with Some x => Some x | None => if N.eqb k k1 then Some v else None end.
  Proof.
    destruct (lookup k1 l) eqn:E.
    - now apply lookup_app_some.
    - rewrite lookup_app_none by exact E. reflexivity.
  Qed.
End Lookup.

Lemma incl_remove_id k l : incl (remove_id k l) l.
Proof. intros x Hx. apply in_remove_id in Hx. tauto. Qed.
Lemma incl_plist_del k l : incl (plist_del k l) l.
Proof. intros [p x] Hx. apply in_plist_del in Hx. tauto. Qed.
Lemma notin_plist_del k l : ~ In k (map snd (plist_del k l)).
Proof. intros Hi. apply in_map_iff in Hi. destruct Hi as [[p x] [E Hi]]. cbn [snd] in E. subst x. apply in_plist_del in Hi. tauto. Qed.
Lemma opt_is_true a o : opt_is a o = true <-> o = Some a.
Proof.
  unfold opt_is. destruct o as [b|]; [|split; discriminate].
  destruct (N.eqb_spec a b); split; intros H; congruence.
Qed.
(* the fields of a state that the invariant and the weight read, computed through the setters *)
Ltac rqproj := cbn [rq_ctxs rq_sendq rq_retryq rq_plist rq_ready rq_sending set_ctxs set_sendq set_retryq set_plist
                    set_pipes set_sending set_closed set_writable].

Section Req.
  Variable fx : rfix.
  Hypothesis Hfx : fx_clone fx = true.
  Notation V := (VReq.view fx).

  Lemma retry_on_eq c : retry_on fx c = (0 <? cx_sretry c)%Z.
  Proof. unfold retry_on, eff_retry. now rewrite Hfx. Qed.

  Definition CW (F : owner * key -> nat) (c : rctx) : nat :=
    qs F (VReq.ctx_held c) + wsum (fun x => F (OAio (fst x), body (snd x))) (VReq.ctx_att c).
  Definition TXW (F : owner * key -> nat) (l : list (pid * pmsg)) : nat :=
    wsum (fun x => F (OPipe (fst x), body (snd x))) l.
  Definition CSW (F : owner * key -> nat) (cs : list (N * rctx)) : nat := wsum (fun kc => CW F (snd kc)) cs.
  Definition SW (F : owner * key -> nat) (s : req) : nat := CSW F (rq_ctxs s) + TXW F (rq_sending s).

  Lemma req_omega F s : w_omega F V s = SW F s.
  Proof.
    unfold w_omega, SW, CSW, TXW, CW. cbn [VReq.view v_held v_tx v_att].
    rewrite !wsum_flat_map, wsum_plus. lia.
  Qed.

  Definition req_w (F : owner * key -> nat) (c : rctx) : nat :=
    match cx_send c, cx_req c with
    | Some a, Some m => F (OAio a, body m)
    | None, Some m => if cx_owned c then F (OProto, body m) else 0
    | _, _ => 0
    end.
  Definition rep_w (F : owner * key -> nat) (c : rctx) : nat :=
    match cx_rep c with Some m => F (OProto, body m) | None => 0 end.
  Lemma CW_eq F c : CW F c = req_w F c + rep_w F c.
  Proof.
    unfold CW, req_w, rep_w, VReq.ctx_held, VReq.ctx_att, opt_list.
    destruct (cx_send c), (cx_req c), (cx_owned c), (cx_rep c); gnorm; cbn [fst snd]; lia.
  Qed.

  Lemma CSW_put F k c c' cs : lookup k cs = Some c -> CSW F (assoc_set k c' cs) + CW F c = CSW F cs + CW F c'.
  Proof. intros H. pose proof (wsum_aset (fun kc => CW F (snd kc)) k c' cs c H). cbn [snd] in *. unfold CSW. lia. Qed.
  Lemma CSW_del F k c cs : NoDup (map fst cs) -> lookup k cs = Some c -> CSW F cs = CW F c + CSW F (assoc_del k cs).
  Proof. intros Hn H. exact (wsum_adel (fun kc => CW F (snd kc)) k cs c Hn H). Qed.
  Lemma CSW_add F k c cs : CSW F (cs ++ [(k, c)]) = CSW F cs + CW F c.
  Proof. unfold CSW. now rewrite wsum_snoc. Qed.

  (* a context: a queued send has its request and the context owns it; once transmitted the
     pointer carries a reference exactly when the request can be retried *)
  Definition CI (c : rctx) : Prop :=
    (forall a, cx_send c = Some a -> cx_req c <> None /\ cx_owned c = true) /\
    (cx_send c = None -> cx_req c <> None -> cx_owned c = retry_on fx c).
  (* ... and is consistent with the queues that name it *)
  Definition cok (sq rq : list N) (pl : list (pid * N)) (k : N) (c : rctx) : Prop :=
    CI c /\
    (In k sq -> cx_req c <> None -> cx_owned c = true) /\
    (In k rq -> retry_on fx c = true) /\
    (forall p, In (p, k) pl -> cx_send c = None).
  (* user aio ids: a send aio belongs to one context; no aio is pending both as a receive and as a send *)
  Definition aio_ok (cs : list (N * rctx)) : Prop :=
    (forall k k' c c' a, lookup k cs = Some c -> lookup k' cs = Some c' ->
       cx_send c = Some a -> cx_send c' = Some a -> k = k') /\
    (forall k k' c c' a, lookup k cs = Some c -> lookup k' cs = Some c' ->
       cx_recv c = Some a -> cx_send c' = Some a -> False).
  Definition live (cs : list (N * rctx)) (ks : list N) : Prop := forall k, In k ks -> lookup k cs <> None.

  Definition InvC (cs : list (N * rctx)) (sq rq : list N) (pl : list (pid * N)) (rd : list pid) (sn : list (pid * pmsg)) : Prop :=
    NoDup (map fst cs) /\ aio_ok cs /\ (forall k c, lookup k cs = Some c -> cok sq rq pl k c) /\
    NoDup sq /\ live cs sq /\ live cs rq /\ live cs (map snd pl) /\
    NoDup rd /\ (forall p, In p rd -> ~ In p (map fst sn)).
  Definition ReqInv (s : req) : Prop :=
    InvC (rq_ctxs s) (rq_sendq s) (rq_retryq s) (rq_plist s) (rq_ready s) (rq_sending s).

  (* what the invariant and the weight read of a state *)
  Definition rq_core (s : req) := (rq_ctxs s, rq_sendq s, rq_retryq s, rq_plist s, rq_ready s, rq_sending s).
  Lemma core_inv {s cs sq rq pl rd sn} : rq_core s = (cs, sq, rq, pl, rd, sn) -> InvC cs sq rq pl rd sn -> ReqInv s.
  Proof. intros E H. injection E as <- <- <- <- <- <-. exact H. Qed.
  Lemma inv_sendq {s} : ReqInv s -> NoDup (rq_sendq s).
  Proof. intros H. apply H. Qed.
  Lemma inv_ready {s} : ReqInv s -> NoDup (rq_ready s) /\ forall p, In p (rq_ready s) -> ~ In p (map fst (rq_sending s)).
  Proof. intros H. split; apply H. Qed.
  Lemma inv_cok {s k c} : ReqInv s -> lookup k (rq_ctxs s) = Some c -> cok (rq_sendq s) (rq_retryq s) (rq_plist s) k c.
  Proof. intros H. apply H. Qed.

  Definition fresh (a : aioid) (cs : list (N * rctx)) : Prop :=
    forall k c, lookup k cs = Some c -> cx_send c <> Some a /\ cx_recv c <> Some a.

  (* queues change: every name on the new queues was there before, or names a suitable context *)
  Lemma inv_q cs sq rq pl rd sn sq' rq' pl' :
    InvC cs sq rq pl rd sn -> NoDup sq' ->
    (forall k, In k sq' -> In k sq \/ exists c, lookup k cs = Some c /\ (cx_req c <> None -> cx_owned c = true)) ->
    (forall k, In k rq' -> In k rq \/ exists c, lookup k cs = Some c /\ retry_on fx c = true) ->
    (forall p k, In (p, k) pl' -> In (p, k) pl \/ exists c, lookup k cs = Some c /\ cx_send c = None) ->
    InvC cs sq' rq' pl' rd sn.
  Proof.
    intros (I1 & I2 & I3 & I4 & I5 & I6 & I7 & I8 & I9) Hn Hs Hr Hp.
    split; [exact I1|]. split; [exact I2|]. split.
    { intros k c Hk. destruct (I3 k c Hk) as (C1 & C2 & C3 & C4). split; [exact C1|]. split; [|split].
      - intros Hi. destruct (Hs k Hi) as [Ho|[c0 [E0 P0]]]; [auto|]. rewrite Hk in E0. inversion E0; subst. exact P0.
      - intros Hi. destruct (Hr k Hi) as [Ho|[c0 [E0 P0]]]; [auto|]. rewrite Hk in E0. inversion E0; subst. exact P0.
      - intros p Hi. destruct (Hp p k Hi) as [Ho|[c0 [E0 P0]]]; [eauto|]. rewrite Hk in E0. inversion E0; subst. exact P0. }
    split; [exact Hn|]. split; [|split; [|split]].
    - intros k Hi. destruct (Hs k Hi) as [Ho|[c0 [E0 _]]]; [auto|congruence].
    - intros k Hi. destruct (Hr k Hi) as [Ho|[c0 [E0 _]]]; [auto|congruence].
    - intros k Hi. apply in_map_iff in Hi. destruct Hi as [[p k'] [E Hi]]. cbn [snd] in E. subst k'.
      destruct (Hp p k Hi) as [Ho|[c0 [E0 _]]]; [|congruence]. apply I7. apply in_map_iff. exists (p, k). auto.
    - split; assumption.
  Qed.
  (* queues only lose names *)
  Lemma inv_shrink cs sq rq pl rd sn sq' rq' pl' :
    InvC cs sq rq pl rd sn -> NoDup sq' -> incl sq' sq -> incl rq' rq -> incl pl' pl -> InvC cs sq' rq' pl' rd sn.
  Proof. intros HI Hn H1 H2 H3. eapply inv_q; [exact HI|exact Hn| | | ]; intros; left; auto. Qed.
  Lemma inv_rs cs sq rq pl rd sn rd' sn' :
    InvC cs sq rq pl rd sn -> NoDup rd' -> (forall p, In p rd' -> ~ In p (map fst sn')) -> InvC cs sq rq pl rd' sn'.
  Proof. intros (I1 & I2 & I3 & I4 & I5 & I6 & I7 & I8 & I9) H1 H2. repeat (split; [assumption|]). assumption. Qed.

  (* a context is rewritten *)
  Lemma inv_put cs sq rq pl rd sn k c c' :
    InvC cs sq rq pl rd sn -> lookup k cs = Some c -> cok sq rq pl k c' ->
    (forall a, cx_send c' = Some a -> cx_send c = Some a \/ (fresh a cs /\ cx_recv c' <> Some a)) ->
    (forall a, cx_recv c' = Some a -> cx_recv c = Some a \/ (fresh a cs /\ cx_send c' <> Some a)) ->
    InvC (assoc_set k c' cs) sq rq pl rd sn.
  Proof.
    intros (I1 & [A1 A2] & I3 & I4 & I5 & I6 & I7 & I8 & I9) Hk Hc Hs Hr.
    assert (L : forall ks, live cs ks -> live (assoc_set k c' cs) ks).
    { intros ks H k1 Hi. destruct (N.eq_dec k1 k) as [->|Hn].
      - rewrite lookup_assoc_set_same. discriminate.
      - rewrite lookup_assoc_set_other by exact Hn. auto. }
    split; [rewrite (map_fst_assoc_set_present k c' c cs Hk); exact I1|]. split; [split|].
    - intros k1 k2 c1 c2 a H1 H2 S1 S2.
      destruct (lookup_aset_cases H1) as [[-> ->]|[N1 L1]];
        destruct (lookup_aset_cases H2) as [[-> ->]|[N2 L2]]; auto.
      + destruct (Hs a S1) as [S|[Fr _]]; [exact (A1 _ _ _ _ _ Hk L2 S S2)|]. destruct (Fr _ _ L2). congruence.
      + destruct (Hs a S2) as [S|[Fr _]]; [exact (A1 _ _ _ _ _ L1 Hk S1 S)|]. destruct (Fr _ _ L1). congruence.
      + exact (A1 _ _ _ _ _ L1 L2 S1 S2).
    - intros k1 k2 c1 c2 a H1 H2 R1 S2.
      destruct (lookup_aset_cases H1) as [[-> ->]|[N1 L1]];
        destruct (lookup_aset_cases H2) as [[-> ->]|[N2 L2]].
      + destruct (Hr a R1) as [R|[_ X]]; [|congruence]. destruct (Hs a S2) as [S|[_ X]]; [|congruence].
        exact (A2 _ _ _ _ _ Hk Hk R S).
      + destruct (Hr a R1) as [R|[Fr _]]; [exact (A2 _ _ _ _ _ Hk L2 R S2)|]. destruct (Fr _ _ L2). congruence.
      + destruct (Hs a S2) as [S|[Fr _]]; [exact (A2 _ _ _ _ _ L1 Hk R1 S)|]. destruct (Fr _ _ L1). congruence.
      + exact (A2 _ _ _ _ _ L1 L2 R1 S2).
    - split.
      { intros k1 c1 H1. destruct (lookup_aset_cases H1) as [[-> ->]|[N1 L1]]; auto. }
      repeat (split; auto).
  Qed.
  (* the same context value semantically: only fields the invariant does not read change *)
  Lemma cok_ext sq rq pl k c c' :
    cx_send c' = cx_send c -> cx_req c' = cx_req c -> cx_owned c' = cx_owned c -> cx_sretry c' = cx_sretry c ->
    cok sq rq pl k c -> cok sq rq pl k c'.
  Proof.
    intros E1 E2 E3 E4 ([C1 C2] & C3 & C4 & C5). unfold cok, CI. rewrite !retry_on_eq in *. rewrite E1, E2, E3, E4.
    split; [split; [exact C1|exact C2]|]. split; [exact C3|]. split; [exact C4|exact C5].
  Qed.

  (* a context is removed (its name is on no queue) *)
  Lemma inv_del cs sq rq pl rd sn k :
    InvC cs sq rq pl rd sn -> ~ In k sq -> ~ In k rq -> ~ In k (map snd pl) ->
    InvC (assoc_del k cs) sq rq pl rd sn.
  Proof.
    intros (I1 & [A1 A2] & I3 & I4 & I5 & I6 & I7 & I8 & I9) N1 N2 N3.
    assert (L : forall ks, ~ In k ks -> live cs ks -> live (assoc_del k cs) ks).
    { intros ks Hn H k1 Hi. rewrite lookup_assoc_del_other by (intros ->; auto). auto. }
    split; [apply ListX.nodup_filter; exact I1|]. split; [split|].
    - intros k1 k2 c1 c2 a H1 H2. apply lookup_assoc_del_some in H1, H2. destruct H1, H2. eapply A1; eauto.
    - intros k1 k2 c1 c2 a H1 H2. apply lookup_assoc_del_some in H1, H2. destruct H1, H2. eapply A2; eauto.
    - split.
      { intros k1 c1 H1. apply lookup_assoc_del_some in H1. destruct H1. auto. }
      repeat (split; auto).
  Qed.
  (* a new, idle context is appended *)
  Lemma inv_add cs sq rq pl rd sn k c0 :
    InvC cs sq rq pl rd sn -> lookup k cs = None ->
    cx_send c0 = None -> cx_recv c0 = None -> cx_req c0 = None ->
    InvC (cs ++ [(k, c0)]) sq rq pl rd sn.
  Proof.
    intros (I1 & [A1 A2] & I3 & I4 & I5 & I6 & I7 & I8 & I9) Hk S0 R0 Q0.
    assert (X : forall k1 c1, lookup k1 (cs ++ [(k, c0)]) = Some c1 -> lookup k1 cs = Some c1 \/ (k1 = k /\ c1 = c0)).
    { intros k1 c1. rewrite lookup_snoc. destruct (lookup k1 cs); [auto|].
      destruct (N.eqb_spec k k1); [|discriminate]. intros E. inversion E. auto. }
    assert (L : forall ks, live cs ks -> live (cs ++ [(k, c0)]) ks).
    { intros ks H k1 Hi. rewrite lookup_snoc. specialize (H k1 Hi). destruct (lookup k1 cs); congruence. }
    split.
    { rewrite map_app. cbn [map fst]. apply ListX.nodup_snoc; [exact I1|]. now apply lookup_none_notin. }
    split; [split|].
    - intros k1 k2 c1 c2 a H1 H2 S1 S2.
      destruct (X _ _ H1) as [L1|[-> ->]]; [|congruence]. destruct (X _ _ H2) as [L2|[-> ->]]; [|congruence].
      exact (A1 _ _ _ _ _ L1 L2 S1 S2).
    - intros k1 k2 c1 c2 a H1 H2 R1 S2.
      destruct (X _ _ H1) as [L1|[-> ->]]; [|congruence]. destruct (X _ _ H2) as [L2|[-> ->]]; [|congruence].
      exact (A2 _ _ _ _ _ L1 L2 R1 S2).
    - split.
      { intros k1 c1 H1. destruct (X _ _ H1) as [L1|[-> ->]]; [auto|].
        split; [split; [intros a E; congruence|intros _ E; congruence]|].
        split; [intros Hi; exfalso; exact (I5 k Hi Hk)|]. split; [intros Hi; exfalso; exact (I6 k Hi Hk)|].
        intros p Hi. exact S0. }
      repeat (split; auto).
  Qed.

  (* an aio is submitted once at a time (not while it is pending as a send or a receive of some
     context); a cancellation carries an error; a pipe id is started once (it is neither ready nor
     has a send in flight); a send completion belongs to a send in flight; a context id is opened once *)
  Definition pending (a : aioid) (cs : list (N * rctx)) : bool :=
    existsb (fun kc => opt_is a (cx_send (snd kc)) || opt_is a (cx_recv (snd kc))) cs.
  Definition req_ok (s : req) (o : pop) : Prop :=
    match o with
    | PSend _ a _ _ | PRecv _ a _ => pending a (rq_ctxs s) = false
    | PCancel _ rv => rv <> 0%N
    | PPipeStart p _ => ~ In p (rq_ready s) /\ ~ In p (map fst (rq_sending s))
    | PSendDone p _ => In p (map fst (rq_sending s))
    | PCtxOpen c => ctx_get s (c + 1)%N = None
    | _ => True
    end.

  Lemma pending_fresh a cs : pending a cs = false -> fresh a cs.
  Proof.
    intros H k c Hk. apply lookup_in in Hk.
    assert (X : opt_is a (cx_send c) || opt_is a (cx_recv c) = false).
    { destruct (opt_is a (cx_send c) || opt_is a (cx_recv c)) eqn:E; [|reflexivity].
      assert (pending a cs = true) by (apply existsb_exists; exists (k, c); auto). congruence. }
    apply orb_false_iff in X. destruct X as [X1 X2].
    split; intros E; [rewrite (proj2 (opt_is_true a _) E) in X1|rewrite (proj2 (opt_is_true a _) E) in X2]; discriminate.
  Qed.

  Notation ctx_atts cs := (flat_map (fun kc : N * rctx => VReq.ctx_att (snd kc)) cs).
  Lemma att_key_app a (l1 l2 : list (aioid * pmsg)) :
    att_key a (l1 ++ l2) = match att_key a l1 with Some x => Some x | None => att_key a l2 end.
  Proof. induction l1 as [|[b m] l1 IH]; cbn [app att_key]; [reflexivity|]. destruct (N.eqb b a); auto. Qed.
  Lemma att_key_some {cs a k0} : att_key a (ctx_atts cs) = Some k0 ->
    exists k c m, In (k, c) cs /\ cx_send c = Some a /\ cx_req c = Some m /\ k0 = body m.
  Proof.
    induction cs as [|[k c] cs IH]; cbn [flat_map snd]; [discriminate|]. rewrite att_key_app.
    destruct (att_key a (VReq.ctx_att c)) eqn:E.
    - intros X. inversion X; subst. unfold VReq.ctx_att in E.
      destruct (cx_send c) as [b|] eqn:E1; [|discriminate]. destruct (cx_req c) as [m|] eqn:E2; [|discriminate].
      cbn [att_key] in E. destruct (N.eqb_spec b a); [|discriminate]. inversion E; subst.
      exists k, c, m. repeat split; auto. left. reflexivity.
    - intros X. destruct (IH X) as (k1 & c1 & m1 & Hi & R). exists k1, c1, m1. split; [right; exact Hi|exact R].
  Qed.
  Lemma att_key_none cs a k c m : att_key a (ctx_atts cs) = None -> In (k, c) cs -> cx_send c = Some a -> cx_req c = Some m -> False.
  Proof.
    induction cs as [|[k1 c1] cs IH]; cbn [flat_map snd]; intros H Hi S R; [destruct Hi|]. rewrite att_key_app in H.
    destruct (att_key a (VReq.ctx_att c1)) eqn:E; [discriminate|]. destruct Hi as [X|Hi]; [|eauto].
    inversion X; subst. unfold VReq.ctx_att in E. rewrite S, R in E. cbn [att_key] in E. rewrite N.eqb_refl in E. discriminate.
  Qed.
  Lemma att_key_ctx cs k c a m :
    NoDup (map fst cs) -> aio_ok cs -> lookup k cs = Some c -> cx_send c = Some a -> cx_req c = Some m ->
    att_key a (ctx_atts cs) = Some (body m).
  Proof.
    intros Hn [A1 _] Hk S R. destruct (att_key a (ctx_atts cs)) as [k0|] eqn:E.
    - destruct (att_key_some E) as (k1 & c1 & m1 & Hi & S1 & R1 & ->).
      apply (nodup_in_lookup _ _ _ Hn) in Hi. assert (k1 = k) by (eapply A1; eauto). subst k1.
      rewrite Hk in Hi. inversion Hi; subst. congruence.
    - exfalso. exact (att_key_none cs a k c m E (lookup_in _ _ _ Hk) S R).
  Qed.
  Lemma att_key_idle cs a : NoDup (map fst cs) -> (forall k c, lookup k cs = Some c -> cx_send c <> Some a) -> att_key a (ctx_atts cs) = None.
  Proof.
    intros Hn H. destruct (att_key a (ctx_atts cs)) as [k0|] eqn:E; [|reflexivity].
    destruct (att_key_some E) as (k1 & c1 & m1 & Hi & S1 & _). apply (nodup_in_lookup _ _ _ Hn) in Hi.
    exfalso. exact (H _ _ Hi S1).
  Qed.

  (* what links an intermediate state of a step to its first state s0.  A message that may be cloned:
     s0 holds it, or it was taken from a send aio that this step completes.
     acc stands for the outputs of the whole step: every segment shows incl outs acc, so a clone in one
     segment may cite a send completion that another segment emits *)
  Definition good (s0 : req) (o : pop) (acc : list pout) (m : pmsg) : Prop :=
    In (body m) (map body (v_held V s0)) \/
    exists a, In (Complete a E_OK None) acc /\ send_key V s0 o a = Some (body m).
  Definition rel (s0 : req) (o : pop) (acc : list pout) (cs : list (N * rctx)) : Prop :=
    (forall k c m, lookup k cs = Some c -> cx_req c = Some m -> cx_owned c = true ->
       match cx_send c with Some a => send_key V s0 o a = Some (body m) | None => good s0 o acc m end) /\
    (forall k c ra, lookup k cs = Some c -> cx_recv c = Some ra -> send_key V s0 o ra = None).

  Lemma rel_put s0 o acc cs k c' :
    rel s0 o acc cs ->
    (forall m, cx_req c' = Some m -> cx_owned c' = true ->
       match cx_send c' with Some a => send_key V s0 o a = Some (body m) | None => good s0 o acc m end) ->
    (forall ra, cx_recv c' = Some ra -> send_key V s0 o ra = None) ->
    rel s0 o acc (assoc_set k c' cs).
  Proof.
    intros [R1 R2] H1 H2. split.
    - intros k1 c1 m Hk. destruct (lookup_aset_cases Hk) as [[-> ->]|[_ L]]; [apply H1|eapply R1; eauto].
    - intros k1 c1 ra Hk. destruct (lookup_aset_cases Hk) as [[-> ->]|[_ L]]; [apply H2|eapply R2; eauto].
  Qed.

  Lemma send_key_ne s o a : (forall c0 nb m0, o <> PSend c0 a nb m0) -> send_key V s o a = att_key a (ctx_atts (rq_ctxs s)).
  Proof.
    intros Ho. unfold send_key. destruct o; try reflexivity.
    destruct (N.eqb_spec a0 a); [|reflexivity]. subst. exfalso. eapply Ho. reflexivity.
  Qed.

  Lemma rel_init s o acc : ReqInv s -> req_ok s o -> rel s o acc (rq_ctxs s).
  Proof.
    intros (I1 & I2 & _) Hok.
    assert (Hne : forall k c a, lookup k (rq_ctxs s) = Some c -> cx_send c = Some a \/ cx_recv c = Some a ->
                    forall c0 nb m0, o <> PSend c0 a nb m0).
    { intros k c a Hk Ha c0 nb m0 ->. cbn [req_ok] in Hok. destruct (pending_fresh _ _ Hok k c Hk). destruct Ha; congruence. }
    split.
    - intros k c m Hk R O. destruct (cx_send c) as [a|] eqn:S.
      + rewrite send_key_ne by (apply (Hne k c); auto). eapply att_key_ctx; eauto.
      + left. apply in_map. cbn [v_held VReq.view]. apply in_flat_map. exists (k, c). split; [now apply lookup_in|].
        cbn [snd]. unfold VReq.ctx_held. rewrite S, O, R. left. reflexivity.
    - intros k c ra Hk R. rewrite send_key_ne by (apply (Hne k c); auto). apply att_key_idle; [exact I1|].
      intros k1 c1 H1 S1. destruct I2 as [_ A2]. exact (A2 _ _ _ _ _ Hk H1 R S1).
  Qed.

  (* outputs that move no reference *)
  Definition quiet (s : req) (o : pop) (l : list pout) : Prop :=
    forall F, s_take F V s o l = 0 /\ s_del F V s o l = 0 /\ o_tx F l = 0 /\ o_rel F l = 0.
  Lemma quiet_nil s o : quiet s o [].
  Proof. intros F. cbn. auto. Qed.
  Lemma arm_quiet s o d : quiet s o (arm_out d).
  Proof. intros F. destruct d; repeat split; reflexivity. Qed.
  (* completing the context's pending receive moves no reference *)
  Lemma rc_quiet0 s o (r : option aioid) rv :
    (forall ra, r = Some ra -> send_key V s o ra = None) ->
    quiet s o (match r with Some ra => [Complete ra rv None] | None => [] end).
  Proof. intros H F. destruct r as [ra|]; cbn; [|auto]. rewrite (H ra eq_refl). auto. Qed.

  (* req0_ctx_reset *)
  Definition reset_msgs (c : rctx) : list pmsg :=
    (match cx_req c with Some m => if retry_on fx c then [m] else [] | None => [] end) ++ opt_list (cx_rep c).
  Definition reset_ctx (c : rctx) : rctx :=
    mkRctx 0 (cx_recv c) (cx_send c) None None (cx_retry c) (cx_sretry c) (cx_rtime c) false false.
  (* the name k is on no queue; what the invariant and the weight read once k has left the queues *)
  Definition off (k : N) (s : req) : Prop :=
    ~ In k (rq_sendq s) /\ ~ In k (rq_retryq s) /\ ~ In k (map snd (rq_plist s)).
  Definition dropq (k : N) (s : req) :=
    (rq_ctxs s, remove_id k (rq_sendq s), remove_id k (rq_retryq s), plist_del k (rq_plist s), rq_ready s, rq_sending s).
  Lemma ctx_reset_spec s k c :
    exists s2, ctx_reset fx s k c = (s2, reset_ctx c, map Free (reset_msgs c)) /\ rq_core s2 = dropq k s.
  Proof.
    unfold ctx_reset. cbv zeta.
    match goal with |- exists s2, (?S, _, _) = _ /\ _ => exists S end.
    split.
    - f_equal. unfold reset_msgs, opt_list. destruct (cx_req c); [destruct (retry_on fx c)|]; destruct (cx_rep c); reflexivity.
    - destruct (cx_rid c =? 0)%N;
        match goal with |- context [if ?b then set_readable _ false else _] => destruct b end; reflexivity.
  Qed.
  Lemma drop_inv {s s2 k} :
    ReqInv s -> rq_core s2 = dropq k s -> ReqInv s2 /\ off k s2 /\ rq_ctxs s2 = rq_ctxs s /\ rq_sending s2 = rq_sending s.
  Proof.
    intros HI Pc. pose proof Pc as Pc'. injection Pc' as P1 P2 P3 P4 _ P6. split; [|split; [|split; assumption]].
    - apply (core_inv Pc).
      eapply inv_shrink; [exact HI|apply nodup_remove_id, (inv_sendq HI)|apply incl_remove_id|apply incl_remove_id|apply incl_plist_del].
    - unfold off. rewrite P2, P3, P4. split; [apply notin_remove_id|split; [apply notin_remove_id|apply notin_plist_del]].
  Qed.
  Lemma off_rq {k s c} : off k s -> In k (rq_retryq s) -> retry_on fx c = true.
  Proof. intros (_ & N & _) X. destruct (N X). Qed.
  (* a context is stored without a request and without a queued send *)
  Lemma put_idle s k c c' :
    ReqInv s -> (In k (rq_retryq s) -> retry_on fx c' = true) -> lookup k (rq_ctxs s) = Some c ->
    cx_send c' = None -> cx_req c' = None -> (forall a, cx_recv c' = Some a -> cx_recv c = Some a) ->
    ReqInv (ctx_put s k c') /\ (forall F, SW F (ctx_put s k c') + CW F c = SW F s + rep_w F c') /\
    (forall s0 o acc, rel s0 o acc (rq_ctxs s) -> rel s0 o acc (rq_ctxs (ctx_put s k c'))).
  Proof.
    intros HI Hrq EG S' R' Rv. unfold ctx_put. split; [|split].
    - unfold ReqInv. rqproj. eapply inv_put; [exact HI|exact EG| | |].
      + split; [split; [intros a X; congruence|intros _ X; congruence]|].
        split; [intros _ X; congruence|]. split; [exact Hrq|]. intros p _. exact S'.
      + intros a X. congruence.
      + intros a X. left. auto.
    - intros F. unfold SW. rqproj. pose proof (CSW_put F k c c' (rq_ctxs s) EG) as K.
      rewrite (CW_eq F c') in K. unfold req_w in K. rewrite S', R' in K. lia.
    - intros s0 o acc HR. cbn [rq_ctxs set_ctxs]. apply rel_put; [exact HR| |].
      + intros m X. congruence.
      + intros a X. destruct HR as [_ R2]. exact (R2 k c a EG (Rv a X)).
  Qed.
  (* a new send is queued on a context whose name is on no queue *)
  Lemma submit_inv s s6 k c c3 a (rt : bool) :
    ReqInv s -> off k s -> lookup k (rq_ctxs s) = Some c -> fresh a (rq_ctxs s) ->
    cx_send c3 = Some a -> cx_recv c3 = None -> cx_req c3 <> None -> cx_owned c3 = true -> (rt = true -> retry_on fx c3 = true) ->
    rq_core s6 = (assoc_set k c3 (rq_ctxs s), rq_sendq s ++ [k], (if rt then rq_retryq s ++ [k] else rq_retryq s),
                  rq_plist s, rq_ready s, rq_sending s) ->
    ReqInv s6.
  Proof.
    intros HI (N1 & N2 & N3) EG Hf S3 Rv3 Q3 O3 Hrt Pc.
    assert (Hlk : lookup k (assoc_set k c3 (rq_ctxs s)) = Some c3) by apply lookup_assoc_set_same.
    apply (core_inv Pc).
    eapply inv_q; [eapply inv_put; [exact HI|exact EG| | |]| | | |].
    - split; [split; [intros b X; split; assumption|intros X; congruence]|].
      split; [intros X; contradiction|]. split; [intros X; contradiction|]. intros q X. exfalso. apply N3.
      apply in_map_iff. exists (q, k). auto.
    - intros b X. right. rewrite S3 in X. inversion X; subst b. split; [exact Hf|congruence].
    - intros b X. congruence.
    - apply ListX.nodup_snoc; [exact (inv_sendq HI)|exact N1].
    - intros k1 Hi. apply in_app_or in Hi. destruct Hi as [Hi|[<-|[]]]; [left; exact Hi|].
      right. exists c3. split; [exact Hlk|intros _; exact O3].
    - intros k1 Hi. destruct rt; [|left; exact Hi].
      apply in_app_or in Hi. destruct Hi as [Hi|[<-|[]]]; [left; exact Hi|]. right. exists c3. split; [exact Hlk|auto].
    - intros q k1 Hi. left. exact Hi.
  Qed.
  (* what it frees is what the context held (no send queued) *)
  Lemma reset_msgs_w F c : cx_send c = None -> CI c -> qs F (reset_msgs c) = CW F c.
  Proof.
    intros S [_ C2]. rewrite CW_eq. unfold reset_msgs, req_w, rep_w, opt_list. rewrite S.
    destruct (cx_req c) as [m|] eqn:R.
    - rewrite (C2 S) by discriminate. destruct (retry_on fx c), (cx_rep c); gnorm; lia.
    - destruct (cx_rep c); gnorm; lia.
  Qed.

  (* from state s the step goes on to s', emitting outs and making the clones cl: the invariant and
     the link to the first state are kept, the references balance, the clones have a holder *)
  Definition seg (s0 : req) (o : pop) (acc : list pout) (s : req) (outs : list pout) (cl : list pmsg) (s' : req) : Prop :=
    ReqInv s' /\ rel s0 o acc (rq_ctxs s') /\
    (forall F, SW F s + qs F cl + s_take F V s0 o outs + o_tx F outs = SW F s' + s_del F V s0 o outs + o_rel F outs) /\
    (forall m, In m cl -> good s0 o acc m).
  Lemma seg_refl s0 o acc s : ReqInv s -> rel s0 o acc (rq_ctxs s) -> seg s0 o acc s [] [] s.
  Proof. intros HI HR. split; [exact HI|]. split; [exact HR|]. split; [intros F; cbn [s_take s_del o_tx o_rel]; gnorm; lia|intros m []]. Qed.
  Lemma seg_trans s0 o acc s o1 cl1 s1 o2 cl2 s2 :
    seg s0 o acc s o1 cl1 s1 -> seg s0 o acc s1 o2 cl2 s2 -> seg s0 o acc s (o1 ++ o2) (cl1 ++ cl2) s2.
  Proof.
    intros (_ & _ & A3 & A4) (B1 & B2 & B3 & B4). split; [exact B1|]. split; [exact B2|]. split.
    - intros F. specialize (A3 F). specialize (B3 F). gnorm. lia.
    - intros m Hi. apply in_app_or in Hi. destruct Hi; auto.
  Qed.
  Lemma seg_pre {s0 o acc} s s1 {outs cl s'} :
    (forall F, SW F s = SW F s1) -> seg s0 o acc s1 outs cl s' -> seg s0 o acc s outs cl s'.
  Proof. intros E (J1 & J2 & J3 & J4). split; [exact J1|]. split; [exact J2|]. split; [|exact J4]. intros F. rewrite E. apply J3. Qed.
  (* a segment computed by X, then the rest of the step from where X stopped *)
  Lemma seg_then s0 o acc s (X : req * list pout * list pmsg) (rest : req -> req * list pout * list pmsg) s' outs cl :
    (let '(s1, o1, cl1) := X in let '(s2, o2, cl2) := rest s1 in (s2, o1 ++ o2, cl1 ++ cl2)) = (s', outs, cl) ->
    incl outs acc ->
    (forall s1 o1 cl1, X = (s1, o1, cl1) -> incl o1 acc -> seg s0 o acc s o1 cl1 s1) ->
    (forall s1 s2 o2 cl2, ReqInv s1 -> rel s0 o acc (rq_ctxs s1) -> incl o2 acc -> rest s1 = (s2, o2, cl2) -> seg s0 o acc s1 o2 cl2 s2) ->
    seg s0 o acc s outs cl s'.
  Proof.
    intros H Hacc H1 H2. destruct X as [[s1 o1] cl1]. destruct (rest s1) as [[s2 o2] cl2] eqn:E2. inversion H; subst s' outs cl.
    assert (S1 : seg s0 o acc s o1 cl1 s1) by (apply H1; [reflexivity|intros x Hx; apply Hacc, in_or_app; left; exact Hx]).
    eapply seg_trans; [exact S1|]. destruct S1 as (J1 & J2 & _). apply (H2 s1 s2 o2 cl2 J1 J2); [|exact E2].
    intros x Hx. apply Hacc, in_or_app. right. exact Hx.
  Qed.

  (* req0_run_send_queue *)
  Definition sent_ctx (c : rctx) : rctx :=
    mkRctx (cx_rid c) (cx_recv c) None (cx_req c) (cx_rep c) (cx_retry c) (cx_sretry c) (cx_rtime c) (cx_creset c)
           (if retry_on fx c then cx_owned c else false).

  (* one transmission: the context at the head of the send queue hands its request to the first ready
     pipe, completing the queued send; it keeps a reference (a clone) exactly when it can retry *)
  Lemma send_turn s0 o acc s s6 k sq p rd c m :
    ReqInv s -> rel s0 o acc (rq_ctxs s) -> rq_sendq s = k :: sq -> rq_ready s = p :: rd ->
    lookup k (rq_ctxs s) = Some c -> cx_req c = Some m ->
    rq_core s6 = (assoc_set k (sent_ctx c) (rq_ctxs s), sq,
                  (if retry_on fx c then remove_id k (rq_retryq s) ++ [k] else rq_retryq s),
                  plist_del k (rq_plist s) ++ [(p, k)], rd, (p, m) :: assoc_del p (rq_sending s)) ->
    incl (match cx_send c with Some a => [Complete a E_OK None] | None => [] end) acc ->
    seg s0 o acc s ((match cx_send c with Some a => [Complete a E_OK None] | None => [] end) ++ [TranSend p m])
        (if retry_on fx c then [m] else []) s6.
  Proof.
    intros HI HR ES ER EG EM Pc Hacc. pose proof Pc as Pc'. injection Pc' as P1 _ _ _ _ P6.
    pose proof HI as HI0. unfold ReqInv in HI0. rewrite ES, ER in HI0.
    destruct HI0 as (I1 & I2 & I3 & I4 & I5 & I6 & I7 & I8 & I9).
    inversion I4 as [|? ? Hk_sq Hn_sq]; subst. inversion I8 as [|? ? Hp_rd Hn_rd]; subst.
    destruct (I3 k c EG) as ([C1 C2] & C3 & C4 & C5).
    assert (Hown : cx_owned c = true) by (apply C3; [left; reflexivity|congruence]).
    assert (Hp : ~ In p (map fst (rq_sending s))) by (apply I9; left; reflexivity).
    assert (Hlk : lookup k (assoc_set k (sent_ctx c) (rq_ctxs s)) = Some (sent_ctx c)) by apply lookup_assoc_set_same.
    assert (Hgood : retry_on fx c = true -> good s0 o acc m).
    { intros _. destruct HR as [R1 _]. specialize (R1 k c m EG EM Hown). destruct (cx_send c) as [a|] eqn:S; [|exact R1].
      right. exists a. split; [|exact R1]. apply Hacc. left. reflexivity. }
    split; [|split; [|split]].
    - apply (core_inv Pc).
      eapply inv_rs; [eapply inv_q; [eapply inv_put; [|exact EG| | |]| | | |]| |].
      + eapply inv_shrink; [unfold ReqInv in HI; rewrite ES, ER in HI; exact HI|exact Hn_sq|apply incl_tl, incl_refl|apply incl_refl|apply incl_refl].
      + (* the rewritten context against the queues without k at the head *)
        split; [split|split; [|split]].
        * intros a E. discriminate E.
        * intros _ _. cbn [cx_owned sent_ctx]. change (retry_on fx (sent_ctx c)) with (retry_on fx c).
          rewrite Hown. destruct (retry_on fx c); reflexivity.
        * intros Hi. contradiction.
        * intros Hi. change (retry_on fx (sent_ctx c)) with (retry_on fx c). exact (C4 Hi).
        * intros q Hi. reflexivity.
      + intros a E. discriminate E.
      + intros a E. left. exact E.
      + exact Hn_sq.
      + intros k1 Hi. left. exact Hi.
      + intros k1 Hi. destruct (retry_on fx c) eqn:RT; [|left; exact Hi].
        apply in_app_or in Hi. destruct Hi as [Hi|[<-|[]]]; [left; apply in_remove_id in Hi; tauto|].
        right. exists (sent_ctx c). split; [exact Hlk|exact RT].
      + intros q k1 Hi. apply in_app_or in Hi. destruct Hi as [Hi|[E|[]]].
        * left. apply in_plist_del in Hi. tauto.
        * inversion E; subst. right. exists (sent_ctx c). split; [exact Hlk|reflexivity].
      + exact Hn_rd.
      + intros q Hq. cbn [map fst]. intros [E|Hi]; [subst; contradiction|].
        apply ListX.in_map_filter in Hi. revert Hi. apply I9. right. exact Hq.
    - rewrite P1. apply rel_put; [exact HR| |].
      + intros m1 E O. cbn [cx_send cx_req cx_owned sent_ctx] in *. rewrite EM in E. inversion E; subst m1.
        destruct (retry_on fx c); [auto|discriminate].
      + intros ra E. cbn [cx_recv sent_ctx] in E. destruct HR as [_ R2]. eapply R2; eauto.
    - intros F. unfold SW. rewrite P1, P6.
      pose proof (CSW_put F k c (sent_ctx c) (rq_ctxs s) EG) as K1.
      unfold TXW. rewrite wsum_cons. cbn [fst snd]. unfold assoc_del. rewrite (ListX.filter_keep_notin p _ Hp).
      rewrite !CW_eq in K1. unfold req_w, rep_w in K1. cbn [cx_send cx_req cx_rep cx_owned sent_ctx] in K1. rewrite EM, Hown in K1.
      destruct (cx_send c) as [a|] eqn:S.
      + assert (K : send_key V s0 o a = Some (body m)).
        { destruct HR as [R1 _]. specialize (R1 k c m EG EM Hown). now rewrite S in R1. }
        clear - K1 K. gnorm. cbn [s_take s_del o_tx o_rel]. rewrite K. change (E_OK =? 0)%N with true. cbn iota.
        destruct (retry_on fx c); gnorm; lia.
      + clear - K1. cbn [s_take s_del o_tx o_rel app]. destruct (retry_on fx c); gnorm; lia.
    - intros m1 Hi. destruct (retry_on fx c); [|destruct Hi]. destruct Hi as [<-|[]]. auto.
  Qed.

  Lemma run_sendq_ok s0 o acc : forall f s s' outs cl,
    ReqInv s -> rel s0 o acc (rq_ctxs s) -> incl outs acc -> run_sendq fx f s = (s', outs, cl) -> seg s0 o acc s outs cl s'.
  Proof.
    induction f as [|f IH]; intros s s' outs cl HI HR Hacc H; cbn [run_sendq] in H.
    { inversion H; subst. now apply seg_refl. }
    destruct (rq_sendq s) as [|k sq] eqn:ES. { inversion H; subst. now apply seg_refl. }
    destruct (rq_ready s) as [|p rd] eqn:ER. { inversion H; subst. now apply seg_refl. }
    assert (HIsq : ReqInv (set_sendq s sq)).
    { pose proof (inv_sendq HI) as I4. rewrite ES in I4. inversion I4; subst. unfold ReqInv. rqproj.
      eapply inv_shrink; [exact HI|assumption|rewrite ES; apply incl_tl, incl_refl|apply incl_refl|apply incl_refl]. }
    unfold ctx_get in H. destruct (lookup k (rq_ctxs s)) as [c|] eqn:EG; [|exact (IH _ _ _ _ HIsq HR Hacc H)].
    destruct (cx_req c) as [m|] eqn:EM; [|exact (IH _ _ _ _ HIsq HR Hacc H)].
    cbv zeta in H.
    match type of H with context [run_sendq fx f ?X] => set (s6 := X) in * end.
    destruct (run_sendq fx f s6) as [[s7 o7] cl7] eqn:E7. inversion H; subst s' outs cl; clear H.
    assert (S6 : seg s0 o acc s ((match cx_send c with Some a => [Complete a E_OK None] | None => [] end) ++ [TranSend p m])
                     (if retry_on fx c then [m] else []) s6).
    { apply (send_turn s0 o acc s s6 k sq p rd c m HI HR ES ER EG EM).
      - subst s6. unfold sent_ctx. rewrite EM. destruct (retry_on fx c); destruct (is_nil rd); reflexivity.
      - intros x Hx. apply Hacc, in_or_app. left. exact Hx. }
    change (TranSend p m :: o7) with ([TranSend p m] ++ o7). rewrite app_assoc. apply (seg_trans _ _ _ _ _ _ s6); [exact S6|].
    destruct S6 as (J1 & J2 & _). apply (IH _ _ _ _ J1 J2); [|exact E7].
    intros x Hx. apply Hacc, in_or_app. right. right. exact Hx.
  Qed.

  Lemma run_send_queue_seg s0 o acc s s' outs cl :
    ReqInv s -> rel s0 o acc (rq_ctxs s) -> incl outs acc -> run_send_queue fx s = (s', outs, cl) -> seg s0 o acc s outs cl s'.
  Proof. unfold run_send_queue. apply run_sendq_ok. Qed.

  Lemma CW_idle F c : cx_send c = None -> cx_req c = None -> cx_rep c = None -> CW F c = 0.
  Proof. intros E1 E2 E3. rewrite CW_eq. unfold req_w, rep_w. now rewrite E1, E2, E3. Qed.

  (* a context is rewritten in fields the invariant does not read (plus its receive aio, its reply) *)
  Lemma put_same s s'' k c c' :
    ReqInv s -> lookup k (rq_ctxs s) = Some c ->
    cx_send c' = cx_send c -> cx_req c' = cx_req c -> cx_owned c' = cx_owned c -> cx_sretry c' = cx_sretry c ->
    (forall a, cx_recv c' = Some a -> cx_recv c = Some a \/ (fresh a (rq_ctxs s) /\ cx_send c' <> Some a)) ->
    rq_core s'' = (assoc_set k c' (rq_ctxs s), rq_sendq s, rq_retryq s, rq_plist s, rq_ready s, rq_sending s) ->
    ReqInv s'' /\ (forall F, SW F s'' + rep_w F c = SW F s + rep_w F c').
  Proof.
    intros HI EG E1 E2 E3 E4 Hr Pc. pose proof Pc as Pc'. injection Pc' as P1 _ _ _ _ P6. split.
    - apply (core_inv Pc). eapply inv_put; [exact HI|exact EG| | |exact Hr].
      + eapply cok_ext; [exact E1|exact E2|exact E3|exact E4|]. exact (inv_cok HI EG).
      + intros a X. left. congruence.
    - intros F. unfold SW. rewrite P1, P6. pose proof (CSW_put F k c c' (rq_ctxs s) EG) as K.
      rewrite !CW_eq in K. unfold req_w in K. rewrite E1, E2, E3 in K. lia.
  Qed.

  (* context k, stored as c, is reset as cr once o0 has completed what cr no longer has, and is stored
     as c'; s1 is s with names taken off its queues *)
  Lemma reset_seg {s0 o acc} s s1 s2 k c cr c' o0 :
    ReqInv s1 -> rq_ctxs s1 = rq_ctxs s -> rq_sending s1 = rq_sending s ->
    rel s0 o acc (rq_ctxs s) -> lookup k (rq_ctxs s) = Some c -> rq_core s2 = dropq k s1 ->
    cx_send cr = None -> CI cr ->
    (forall F, s_take F V s0 o o0 = 0 /\ o_tx F o0 = 0 /\ o_rel F o0 = 0 /\ s_del F V s0 o o0 + CW F cr = CW F c) ->
    cx_send c' = None -> cx_req c' = None -> cx_rep c' = None -> (forall a, cx_recv c' = Some a -> cx_recv c = Some a) ->
    seg s0 o acc s (o0 ++ map Free (reset_msgs cr)) [] (ctx_put s2 k c').
  Proof.
    intros HI1 Ec Es HR EG Pc Sr Cr Hq0 S' R' Rp' Rv.
    destruct (drop_inv HI1 Pc) as (HI2 & Off & E1 & E6). rewrite Ec in E1. rewrite Es in E6.
    rewrite <- E1 in EG, HR. destruct (put_idle s2 k c c' HI2 (off_rq Off) EG S' R' Rv) as (J1 & J2 & J3).
    split; [exact J1|]. split; [exact (J3 _ _ _ HR)|]. split; [|intros x []].
    intros F. specialize (J2 F). unfold rep_w in J2. rewrite Rp' in J2.
    assert (X : SW F s2 = SW F s) by (unfold SW; now rewrite E1, E6).
    destruct (Hq0 F) as (U1 & U2 & U3 & U4). pose proof (reset_msgs_w F cr Sr Cr) as K. gnorm. lia.
  Qed.

  (* req0_pipe_close: the walk over the pipe's list *)
  Lemma pcl_ok s0 o acc p : forall f s s' outs cl,
    ReqInv s -> rel s0 o acc (rq_ctxs s) -> incl outs acc -> pipe_close_loop fx f s p = (s', outs, cl) ->
    seg s0 o acc s outs cl s'.
  Proof.
    induction f as [|f IH]; intros s s' outs cl HI HR Hacc H; cbn [pipe_close_loop] in H.
    { inversion H; subst. now apply seg_refl. }
    destruct (first_on p (rq_plist s)) as [k|] eqn:EF; [|inversion H; subst; now apply seg_refl].
    set (sa := set_plist s (plist_del k (rq_plist s))) in *.
    assert (HIa : ReqInv sa).
    { unfold ReqInv, sa. rqproj.
      eapply inv_shrink; [exact HI|exact (inv_sendq HI)|apply incl_refl|apply incl_refl|apply incl_plist_del]. }
    change (ctx_get sa k) with (lookup k (rq_ctxs s)) in H.
    destruct (lookup k (rq_ctxs s)) as [c|] eqn:EG; [|exact (IH _ _ _ _ HIa HR Hacc H)].
    destruct (inv_cok HI EG) as (CIc & C3 & C4 & C5).
    assert (ES : cx_send c = None) by (apply (C5 p), first_on_in, EF).
    (* one turn of the loop, then the rest of the walk *)
    apply (seg_then _ _ _ _ _ (fun s1 => pipe_close_loop fx f s1 p) _ _ _ H Hacc); [|intros s1 s2 o2 cl2; apply IH].
    clear H. intros s1 o1 cl1 H Ho1. apply (seg_pre s sa); [reflexivity|].
    destruct (retry_on fx c) eqn:RT; cbn [negb] in H.
    - (* the request can be retried: back to the send queue *)
      destruct (cx_req c) as [m|] eqn:EM; [|inversion H; subst; now apply seg_refl].
      set (c' := mkRctx (cx_rid c) (cx_recv c) (cx_send c) (Some m) (cx_rep c) (cx_retry c) (cx_sretry c)
                        (after (rq_now sa) (eff_retry fx c)) (cx_creset c) (cx_owned c)) in *.
      destruct (put_same sa (ctx_put sa k c') k c c' HIa EG) as [HIb Hsum]; try reflexivity.
      { cbn [cx_req c']. congruence. }
      { intros a X. left. exact X. }
      assert (HRb : rel s0 o acc (rq_ctxs (ctx_put sa k c'))).
      { unfold ctx_put. cbn [rq_ctxs set_ctxs]. destruct HR as [R1 R2]. apply rel_put; [split; assumption| |].
        - intros m1 E O. cbn [cx_req cx_owned cx_send c'] in *. apply (R1 k c m1 EG); congruence.
        - intros ra E. exact (R2 k c ra EG E). }
      apply (seg_pre sa (ctx_put sa k c')); [intros F; specialize (Hsum F); change (rep_w F c') with (rep_w F c) in Hsum; lia|].
      destruct (has_id k (rq_sendq (ctx_put sa k c'))) eqn:EH; [inversion H; subst; now apply seg_refl|].
      match type of H with run_send_queue fx ?X = _ => set (sb := X) in * end.
      apply (seg_pre _ sb); [reflexivity|]. apply run_send_queue_seg; [|exact HRb|exact Ho1|exact H].
      unfold ReqInv, sb. rqproj. eapply inv_q; [exact HIb| | | |].
      + apply ListX.nodup_snoc; [exact (inv_sendq HIb)|]. apply has_id_false. exact EH.
      + intros k1 Hi. apply in_app_or in Hi. destruct Hi as [Hi|[<-|[]]]; [left; exact Hi|].
        right. exists c'. split; [unfold ctx_put; cbn [rq_ctxs set_ctxs]; apply lookup_assoc_set_same|]. intros _.
        destruct CIc as [_ C2]. cbn [cx_owned c']. rewrite (C2 ES) by congruence. exact RT.
      + intros k1 Hi. left. exact Hi.
      + intros q k1 Hi. left. exact Hi.
    - (* no retry: the context is reset; a pending receive fails with NNG_ECONNRESET *)
      destruct (cx_recv c) as [ra|] eqn:ERv;
        match type of H with context [ctx_reset fx sa k ?C] =>
          set (cr := C) in *; destruct (ctx_reset_spec sa k cr) as (s2 & E & Pc); rewrite E in H end;
        inversion H; subst s1 o1 cl1; clear H.
      + apply (reset_seg sa sa s2 k c cr (reset_ctx cr) [Complete ra E_CONNRESET None]);
          [exact HIa|reflexivity|reflexivity|exact HR|exact EG|exact Pc|exact ES|exact CIc| |exact ES|reflexivity|reflexivity|].
        * intros F. cbn [s_take s_del o_tx o_rel]. destruct HR as [_ R2]. rewrite (R2 k c ra EG ERv).
          change (CW F cr) with (CW F c). auto.
        * intros a X. discriminate X.
      + apply (reset_seg sa sa s2 k c c _ []);
          [exact HIa|reflexivity|reflexivity|exact HR|exact EG|exact Pc|exact ES|exact CIc| |exact ES|reflexivity|reflexivity|].
        * intros F. cbn. auto.
        * intros a X. cbn [cx_recv reset_ctx] in X. congruence.
  Qed.

  Definition step_ok (s : req) (o : pop) (s' : req) (outs : list pout) (cl : list pmsg) : Prop :=
    ReqInv s' /\
    (forall F, SW F s + op_add F V s o + qs F cl + s_take F V s o outs + o_tx F outs
               = SW F s' + op_del F V s o + s_del F V s o outs + o_rel F outs) /\
    (forall m, In m cl -> good s o outs m).

  Lemma step_ok_core {s o s' s'' outs cl} : rq_core s'' = rq_core s' -> step_ok s o s' outs cl -> step_ok s o s'' outs cl.
  Proof.
    intros Pc (J1 & J2 & J3). pose proof Pc as Pc'. injection Pc' as P1 _ _ _ _ P6.
    split; [exact (core_inv Pc J1)|split; [|exact J3]]. intros F. unfold SW. rewrite P1, P6. apply J2.
  Qed.
  (* a segment from the first state of the step, then outputs that balance the operation itself *)
  Lemma step_of_seg s o s' o1 tail cl :
    seg s o (o1 ++ tail) s o1 cl s' ->
    (forall F, op_add F V s o + s_take F V s o tail + o_tx F tail = op_del F V s o + s_del F V s o tail + o_rel F tail) ->
    step_ok s o s' (o1 ++ tail) cl.
  Proof.
    intros (J1 & _ & J3 & J4) Ht. split; [exact J1|split; [|exact J4]].
    intros F. specialize (J3 F). specialize (Ht F). gnorm. lia.
  Qed.

  (* the step has come from s to s1 emitting pre and cloning nothing: the references balance, the operation's own included *)
  Definition bal (s : req) (o : pop) (pre : list pout) (s1 : req) : Prop :=
    forall F, SW F s + op_add F V s o + s_take F V s o pre + o_tx F pre = SW F s1 + op_del F V s o + s_del F V s o pre + o_rel F pre.
  Lemma step_bal {s o pre s1} : ReqInv s1 -> bal s o pre s1 -> step_ok s o s1 pre [].
  Proof. intros HI B. split; [exact HI|split; [|intros x []]]. intros F. specialize (B F). gnorm. lia. Qed.
  (* ... then a segment finishes the step *)
  Lemma step_bal_seg {s o} pre s1 {o2 cl s2} : bal s o pre s1 -> seg s o (pre ++ o2) s1 o2 cl s2 -> step_ok s o s2 (pre ++ o2) cl.
  Proof. intros B (J1 & _ & J3 & J4). split; [exact J1|split; [|exact J4]]. intros F. specialize (B F). specialize (J3 F). gnorm. lia. Qed.

  (* a request still waiting for a pipe goes back to its aio (supersede / cancel / close);
     r is what remains of the context's receive aio *)
  Definition unq_ctx (r : option aioid) (c : rctx) : rctx :=
    mkRctx (cx_rid c) r None None (cx_rep c) (cx_retry c) (cx_sretry c) (cx_rtime c) (cx_creset c) false.
  Lemma unq_core s0 s o acc k c rv r c1b c1 o2 :
    ReqInv s -> rel s0 o acc (rq_ctxs s) -> lookup k (rq_ctxs s) = Some c -> rv <> 0%N ->
    (cx_send c = None -> cx_send c1b = None) -> cx_req c1b = cx_req c -> cx_owned c1b = cx_owned c ->
    cx_rep c1b = cx_rep c -> cx_sretry c1b = cx_sretry c ->
    (c1, o2) = match cx_send c with Some sa => (unq_ctx r c, [Complete sa rv None]) | None => (c1b, []) end ->
    cx_send c1 = None /\ CI c1 /\ (c1 = unq_ctx r c \/ c1 = c1b) /\
    (forall F, s_take F V s0 o o2 = 0 /\ o_tx F o2 = 0 /\ o_rel F o2 = 0 /\ s_del F V s0 o o2 + CW F c1 = CW F c).
  Proof.
    intros HI [R1 _] EG Hrv B1 B2 B3 B4 B5 EX.
    destruct (inv_cok HI EG) as ([C1 C2] & _).
    destruct (cx_send c) as [sa|] eqn:ES; inversion EX; subst c1 o2.
    - destruct (C1 sa eq_refl) as [Hq Ho]. destruct (cx_req c) as [m0|] eqn:EM; [|congruence].
      specialize (R1 k c m0 EG EM Ho). rewrite ES in R1. split; [reflexivity|].
      split; [split; [intros a X; discriminate X|intros _ X; exfalso; exact (X eq_refl)]|]. split; [left; reflexivity|].
      intros F. cbn [s_take s_del o_tx o_rel]. rewrite R1. destruct (N.eqb_spec rv 0); [contradiction|].
      rewrite !CW_eq. unfold req_w, rep_w. cbn [cx_send cx_req cx_rep unq_ctx]. rewrite ES, EM. repeat split; lia.
    - split; [exact (B1 eq_refl)|]. split; [|split; [right; reflexivity|]].
      + split; [intros a X; rewrite (B1 eq_refl) in X; discriminate|].
        intros _ X. rewrite B3, !retry_on_eq, B5. rewrite <- retry_on_eq. apply C2; [reflexivity|congruence].
      + intros F. rewrite !CW_eq. unfold req_w, rep_w. rewrite (B1 eq_refl), B2, B3, B4, ES. repeat split; reflexivity.
  Qed.
  (* ... with the state, whose send queue loses the name *)
  Lemma unq_facts s0 s o acc k c rv r c1b s1 c1 o2 :
    ReqInv s -> rel s0 o acc (rq_ctxs s) -> lookup k (rq_ctxs s) = Some c -> rv <> 0%N ->
    (cx_send c = None -> cx_send c1b = None) -> cx_req c1b = cx_req c -> cx_owned c1b = cx_owned c ->
    cx_rep c1b = cx_rep c -> cx_sretry c1b = cx_sretry c ->
    (s1, c1, o2) = match cx_send c with
                   | Some sa => (set_sendq s (remove_id k (rq_sendq s)), unq_ctx r c, [Complete sa rv None])
                   | None => (s, c1b, [])
                   end ->
    ReqInv s1 /\ rq_ctxs s1 = rq_ctxs s /\ rq_sending s1 = rq_sending s /\
    cx_send c1 = None /\ CI c1 /\ (c1 = unq_ctx r c \/ c1 = c1b) /\
    (forall F, s_take F V s0 o o2 = 0 /\ o_tx F o2 = 0 /\ o_rel F o2 = 0 /\ s_del F V s0 o o2 + CW F c1 = CW F c).
  Proof.
    intros HI HR EG Hrv B1 B2 B3 B4 B5 EX.
    assert (EX' : (c1, o2) = match cx_send c with Some sa => (unq_ctx r c, [Complete sa rv None]) | None => (c1b, []) end)
      by (destruct (cx_send c); inversion EX; reflexivity).
    assert (Hs : ReqInv s1 /\ rq_ctxs s1 = rq_ctxs s /\ rq_sending s1 = rq_sending s).
    { destruct (cx_send c); inversion EX; subst s1; [|auto]. split; [|auto]. unfold ReqInv. rqproj.
      eapply inv_shrink; [exact HI|apply nodup_remove_id, (inv_sendq HI)|apply incl_remove_id|apply incl_refl|apply incl_refl]. }
    destruct Hs as (H1 & H2 & H3). split; [exact H1|]. split; [exact H2|]. split; [exact H3|].
    exact (unq_core s0 s o acc k c rv r c1b c1 o2 HI HR EG Hrv B1 B2 B3 B4 B5 EX').
  Qed.

  Lemma ok_send s c0 a nb m s' outs cl :
    ReqInv s -> req_ok s (PSend c0 a nb m) -> req_stepL fx s (PSend c0 a nb m) = (s', outs, cl) ->
    step_ok s (PSend c0 a nb m) s' outs cl.
  Proof.
    intros HI Hok H. pose proof (fun acc => rel_init s _ acc HI Hok) as HR. cbn [req_ok] in Hok. apply pending_fresh in Hok.
    cbn [req_stepL] in H. set (k := ckey c0) in *.
    assert (Fail : forall rv s1, rv <> 0%N -> s1 = s -> step_ok s (PSend c0 a nb m) s1 [Complete a rv None] []).
    { intros rv s1 Hrv ->. apply step_bal; [exact HI|]. intros F. cbn [op_add op_del s_take s_del o_tx o_rel].
      rewrite send_key_self. destruct (N.eqb_spec rv 0); [contradiction|]. lia. }
    unfold ctx_get in H. destruct (lookup k (rq_ctxs s)) as [c|] eqn:EG; [|inversion H; subst; apply Fail; [discriminate|reflexivity]].
    unfold req_ctx_send in H. destruct (rq_closed s); [inversion H; subst; apply Fail; [discriminate|reflexivity]|].
    clear Fail. cbv zeta in H.
    match type of H with (match ?X with _ => _ end) = _ => remember X as XX eqn:EX; destruct XX as [[s1 c1] o2] end.
    eapply unq_facts in EX; [|exact HI|exact (HR outs)|exact EG|discriminate|try reflexivity; auto..].
    destruct EX as (HI1 & Ec & Es & F8 & F9 & F10 & F11).
    assert (Rc1 : cx_recv c1 = None) by (destruct F10 as [->| ->]; reflexivity).
    destruct (ctx_reset_spec s1 k c1) as (s2 & E & Pc). rewrite E in H. cbv beta iota in H.
    set (o1 := match cx_recv c with Some ra => [Complete ra E_CANCELED None] | None => [] end) in *.
    (* the pending receive and the old request are given up *)
    assert (Hq0 : forall F, s_take F V s (PSend c0 a nb m) (o1 ++ o2) = 0 /\ o_tx F (o1 ++ o2) = 0 /\ o_rel F (o1 ++ o2) = 0 /\
                            s_del F V s (PSend c0 a nb m) (o1 ++ o2) + CW F c1 = CW F c).
    { intros F. destruct (rc_quiet0 s (PSend c0 a nb m) (cx_recv c) E_CANCELED) with (F := F) as (A1 & A2 & A3 & A4).
      { intros ra X. destruct (HR outs) as [_ R2]. exact (R2 k c ra EG X). }
      destruct (F11 F) as (D1 & D2 & D3 & D4). gnorm. unfold o1. rewrite A1, A2, A3, A4, D1, D2, D3. auto. }
    (* the send is refused after the old request has been dropped *)
    assert (Refuse : forall s'' c2' rv, rv <> 0%N -> rq_core s'' = rq_core (ctx_put s2 k c2') ->
              cx_send c2' = cx_send c1 -> cx_recv c2' = cx_recv c1 -> cx_req c2' = None -> cx_rep c2' = None ->
              step_ok s (PSend c0 a nb m) s'' (o1 ++ o2 ++ map Free (reset_msgs c1) ++ [Complete a rv None]) []).
    { intros s'' c2' rv Hrv Pc' S2 Rv2 R2 Rp2. rewrite F8 in S2. rewrite Rc1 in Rv2. apply (step_ok_core Pc'). rewrite !app_assoc. apply step_of_seg.
      - apply (reset_seg s s1 s2 k c c1 c2' (o1 ++ o2));
          [exact HI1|exact Ec|exact Es|apply HR|exact EG|exact Pc|exact F8|exact F9|exact Hq0|exact S2|exact R2|exact Rp2|].
        intros b X. congruence.
      - intros F. cbn [op_add op_del s_take s_del o_tx o_rel]. rewrite send_key_self. destruct (N.eqb_spec rv 0); [contradiction|]. lia. }
    destruct (REQ_ID_MAX - REQ_ID_MIN <? N.of_nat (length (rq_ids s2)))%N.
    - (* the id map is full *) inversion H; subst s' outs cl. eapply Refuse; [discriminate|reflexivity..].
    - destruct (id_alloc (S (length (rq_ids s2))) (rq_ids s2) (rq_cursor s2)) as [[id cur']|].
      + destruct (is_nil (rq_ready s2) && nb).
        * (* no pipe is ready and the caller does not wait *) inversion H; subst s' outs cl. eapply Refuse; [discriminate|reflexivity..].
        * clear Refuse.
          destruct (drop_inv HI1 Pc) as (HI2 & Off & E1 & E6). rewrite Ec in E1. rewrite Es in E6.
          rewrite <- E1 in EG, Hok, HR.
          set (c3 := mkRctx id None (Some a) (Some (req_send id m)) None (cx_retry (reset_ctx c1)) (cx_retry (reset_ctx c1))
                            (if (0 <? cx_retry (reset_ctx c1))%Z then after (rq_now s2) (cx_retry (reset_ctx c1)) else cx_rtime (reset_ctx c1))
                            false true) in *.
          assert (Accept : forall s6 o4 s7 o5 cl5,
                    rq_core s6 = (assoc_set k c3 (rq_ctxs s2), rq_sendq s2 ++ [k],
                                  (if (0 <? cx_retry (reset_ctx c1))%Z then rq_retryq s2 ++ [k] else rq_retryq s2),
                                  rq_plist s2, rq_ready s2, rq_sending s2) ->
                    quiet s (PSend c0 a nb m) o4 ->
                    run_send_queue fx s6 = (s7, o5, cl5) ->
                    outs = o1 ++ o2 ++ map Free (reset_msgs c1) ++ o4 ++ o5 ->
                    step_ok s (PSend c0 a nb m) s7 outs cl5).
          { intros s6 o4 s7 o5 cl5 Pc6 Hq4 E5 ->. pose proof Pc6 as Pc'. injection Pc' as P1 _ _ _ _ P6.
            rewrite !app_assoc. apply (step_bal_seg _ s6).
            - intros F. unfold SW. rewrite P1, P6, <- E1, <- E6.
              pose proof (CSW_put F k c c3 (rq_ctxs s2) EG) as K.
              assert (K3 : CW F c3 = F (OAio a, body m)) by (rewrite CW_eq; unfold c3, req_w, rep_w; cbn [cx_send cx_req cx_rep]; change (body (req_send id m)) with (body m); lia).
              destruct (Hq4 F) as (U1 & U2 & U3 & U4). destruct (Hq0 F) as (T1 & T2 & T3 & T4). pose proof (reset_msgs_w F c1 F8 F9) as T5.
              clear - K K3 U1 U2 U3 U4 T1 T2 T3 T4 T5. set (o12 := o1 ++ o2) in *. gnorm. cbn [op_add op_del]. lia.
            - apply run_send_queue_seg; [| |apply incl_appr, incl_refl|exact E5].
              + apply (submit_inv s2 s6 k c c3 a (0 <? cx_retry (reset_ctx c1))%Z HI2 Off EG Hok eq_refl eq_refl); [discriminate|reflexivity| |exact Pc6].
                intros RT. rewrite retry_on_eq. exact RT.
              + rewrite P1. apply rel_put; [apply HR| |].
                * intros m1 X _. cbn [cx_req cx_send c3] in *. inversion X; subst m1. change (body (req_send id m)) with (body m). apply send_key_self.
                * intros ra X. discriminate X. }
          destruct (0 <? cx_retry (reset_ctx c1))%Z eqn:RT; cbn [andb] in H.
          { match type of H with context [rq_active ?S] => destruct (rq_active S) end; cbn [negb] in H; cbv beta iota in H;
              match type of H with context [run_send_queue fx ?X] => destruct (run_send_queue fx X) as [[s7 o5] cl5] eqn:E5 end;
              injection H as E1' E2 E3; subst s' cl.
            - eapply (Accept _ []); [|apply quiet_nil|exact E5|]; try reflexivity. symmetry; exact E2.
            - eapply Accept; [|apply arm_quiet|exact E5|]; try reflexivity. symmetry; exact E2. }
          { cbv beta iota in H.
            match type of H with context [run_send_queue fx ?X] => destruct (run_send_queue fx X) as [[s7 o5] cl5] eqn:E5 end.
            injection H as E1' E2 E3; subst s' cl.
            eapply (Accept _ []); [|apply quiet_nil|exact E5|]; try reflexivity. symmetry; exact E2. }
      + (* no id is free *) inversion H; subst s' outs cl. eapply Refuse; [discriminate|reflexivity..].
  Qed.

  Lemma ok_recv s c0 a nb s' outs cl :
    ReqInv s -> req_ok s (PRecv c0 a nb) -> req_stepL fx s (PRecv c0 a nb) = (s', outs, cl) ->
    step_ok s (PRecv c0 a nb) s' outs cl.
  Proof.
    intros HI Hok H. cbn [req_ok] in Hok. apply pending_fresh in Hok.
    assert (K : send_key V s (PRecv c0 a nb) a = None).
    { rewrite send_key_ne by discriminate. apply att_key_idle; [exact (proj1 HI)|]. intros k c Hk. exact (proj1 (Hok k c Hk)). }
    cbn [req_stepL] in H. set (k := ckey c0) in *. unfold ctx_get in H.
    assert (Quiet : forall rv, step_ok s (PRecv c0 a nb) s [Complete a rv None] []).
    { intros rv. apply step_bal; [exact HI|]. intros F. cbn [op_add op_del s_take s_del o_tx o_rel]. rewrite K. lia. }
    destruct (lookup k (rq_ctxs s)) as [c|] eqn:EG; [|inversion H; subst; apply Quiet].
    destruct (req_ctx_recv s k c a nb) as [s1 o1] eqn:E. inversion H; subst s1 o1 cl. clear H.
    unfold req_ctx_recv in E.
    match type of E with (if ?b then _ else _) = _ => destruct b end.
    - destruct (cx_creset c); [|inversion E; subst; apply Quiet]. inversion E; subst s' outs; clear E.
      match goal with |- step_ok _ _ (ctx_put s k ?C) _ _ => set (c' := C) end.
      destruct (put_same s (ctx_put s k c') k c c' HI EG) as [J1 J2]; try reflexivity.
      { intros b X. left. exact X. }
      apply step_bal; [exact J1|]. intros F. specialize (J2 F).
      cbn [op_add op_del s_take s_del o_tx o_rel]. rewrite K. change (rep_w F c') with (rep_w F c) in J2. lia.
    - destruct (cx_rep c) as [mr|] eqn:ER.
      + inversion E; subst s' outs; clear E.
        match goal with |- context [ctx_put s k ?C] => set (c' := C) end.
        match goal with |- step_ok _ _ ?S _ _ => destruct (put_same s S k c c' HI EG) as [J1 J2]; try reflexivity end.
        { intros b X. discriminate X. }
        { destruct (k =? 0)%N; reflexivity. }
        apply step_bal; [exact J1|].
        intros F. specialize (J2 F). unfold rep_w in J2. rewrite ER in J2. cbn [cx_rep c'] in J2.
        cbn [op_add op_del s_take s_del o_tx o_rel]. change (E_OK =? 0)%N with true. cbn iota. lia.
      + destruct nb; [inversion E; subst; apply Quiet|]. inversion E; subst s' outs; clear E.
        match goal with |- step_ok _ _ (ctx_put s k ?C) _ _ => set (c' := C) end.
        destruct (put_same s (ctx_put s k c') k c c' HI EG) as [J1 J2]; try reflexivity.
        { intros b X. right. inversion X; subst b. split; [exact Hok|]. exact (proj1 (Hok k c EG)). }
        apply step_bal; [exact J1|]. intros F. specialize (J2 F).
        cbn [op_add op_del s_take s_del o_tx o_rel]. unfold rep_w in J2. cbn [cx_rep c'] in J2. rewrite ER in J2. lia.
  Qed.

  Lemma ok_setopt s c0 op s' outs cl :
    ReqInv s -> req_stepL fx s (PSetOpt c0 op) = (s', outs, cl) -> step_ok s (PSetOpt c0 op) s' outs cl.
  Proof.
    intros HI H.
    assert (Same : forall s1 rv, rq_core s1 = rq_core s -> step_ok s (PSetOpt c0 op) s1 [OptRv rv] []).
    { intros s1 rv Pc. apply (step_ok_core (s' := s) Pc). apply step_bal; [exact HI|].
      intros F. cbn [op_add op_del s_take s_del o_tx o_rel]. lia. }
    destruct op; destruct c0 as [k0|]; cbn [req_stepL] in H;
      repeat match type of H with (if ?b then _ else _) = _ => destruct b end;
      try (inversion H; subst s' outs cl; apply Same; reflexivity).
    all: unfold ctx_get in H; destruct (lookup _ (rq_ctxs s)) as [c|] eqn:EG; [|inversion H; subst s' outs cl; apply Same; reflexivity].
    all: inversion H; subst s' outs cl; clear H.
    all: match goal with |- context [ctx_put _ ?K ?C] => set (c' := C); set (k := K) in * end.
    all: destruct (put_same s (ctx_put s k c') k c c' HI EG) as [J1 J2]; try reflexivity; try (intros b X; left; exact X).
    all: apply step_bal; [exact J1|]; intros F; specialize (J2 F).
    all: cbn [op_add op_del s_take s_del o_tx o_rel]; change (rep_w F c') with (rep_w F c) in J2.
    - lia.
    - change (SW F (set_retry (ctx_put s k c') ms)) with (SW F (ctx_put s k c')). lia.
  Qed.

  Lemma ok_ctxopen s k0 s' outs cl :
    ReqInv s -> req_ok s (PCtxOpen k0) -> req_stepL fx s (PCtxOpen k0) = (s', outs, cl) -> step_ok s (PCtxOpen k0) s' outs cl.
  Proof.
    intros HI Hok H. cbn [req_stepL] in H. inversion H; subst; clear H. cbn [req_ok] in Hok. unfold ctx_get in Hok.
    apply step_bal.
    - unfold ReqInv. rqproj. apply inv_add; [exact HI|exact Hok|reflexivity..].
    - intros F. unfold SW. cbn [rq_ctxs rq_sending set_ctxs op_add op_del s_take s_del o_tx o_rel].
      rewrite CSW_add. rewrite CW_idle by reflexivity. lia.
  Qed.

  (* req0_ctx_fini (PCtxClose, PSockClose) *)
  Lemma fini_ok s0 s o acc k c s2 c2 outs :
    ReqInv s -> rel s0 o acc (rq_ctxs s) -> lookup k (rq_ctxs s) = Some c -> req_ctx_fini fx s k c = (s2, c2, outs) ->
    rq_core s2 = dropq k s /\ cx_send c2 = None /\ cx_req c2 = None /\ cx_rep c2 = None /\ cx_recv c2 = None /\
    (forall F, s_take F V s0 o outs = 0 /\ o_tx F outs = 0 /\ s_del F V s0 o outs + o_rel F outs = CW F c).
  Proof.
    intros HI HR EG H. unfold req_ctx_fini in H. cbv zeta in H.
    assert (Hrc : forall ra, cx_recv c = Some ra -> send_key V s0 o ra = None).
    { intros ra X. destruct HR as [_ R2]. exact (R2 k c ra EG X). }
    match type of H with (match ?X with _ => _ end) = _ => remember X as XX eqn:EX; destruct XX as [c1 o2] end.
    eapply unq_core in EX; [|exact HI|exact HR|exact EG|discriminate|try reflexivity; auto..].
    destruct EX as (S1 & CI1 & Hc1 & Q).
    destruct (ctx_reset_spec s k c1) as (s2' & E & Pc). rewrite E in H. inversion H; subst s2' c2 outs; clear H.
    split; [exact Pc|]. split; [exact S1|]. do 2 (split; [reflexivity|]). split; [destruct Hc1 as [->| ->]; reflexivity|].
    intros F. destruct (rc_quiet0 s0 o (cx_recv c) E_CLOSED Hrc F) as (A1 & A2 & A3 & A4). destruct (Q F) as (D1 & D2 & D3 & D4).
    pose proof (reset_msgs_w F c1 S1 CI1) as D5. gnorm. rewrite A1, A2, A3, A4, D1, D2, D3. repeat split; lia.
  Qed.

  Lemma ok_ctxclose s k0 s' outs cl :
    ReqInv s -> req_stepL fx s (PCtxClose k0) = (s', outs, cl) -> step_ok s (PCtxClose k0) s' outs cl.
  Proof.
    intros HI H. pose proof (rel_init s (PCtxClose k0) outs HI I) as HR.
    cbn [req_stepL] in H. set (k := (k0 + 1)%N) in *. unfold ctx_get in H.
    destruct (lookup k (rq_ctxs s)) as [c|] eqn:EG.
    2:{ inversion H; subst. apply step_bal; [exact HI|]. intros F. cbn [op_add op_del s_take s_del o_tx o_rel]. lia. }
    destruct (req_ctx_fini fx s k c) as [[s2 c2] o2] eqn:E. inversion H; subst s' outs cl. clear H.
    destruct (fini_ok s s _ _ k c s2 c2 o2 HI HR EG E) as (Pc & _ & _ & _ & _ & QF).
    destruct (drop_inv HI Pc) as (HI2 & (N1 & N2 & N3) & E1 & E6).
    apply step_bal.
    - unfold ReqInv. rqproj. apply inv_del; assumption.
    - intros F. destruct (QF F) as (T1 & T2 & T3). unfold SW. rqproj. rewrite E1, E6.
      pose proof (CSW_del F k c (rq_ctxs s) (proj1 HI) EG) as K. cbn [op_add op_del]. gnorm. lia.
  Qed.

  Lemma ok_sockclose s s' outs cl :
    ReqInv s -> req_stepL fx s PSockClose = (s', outs, cl) -> step_ok s PSockClose s' outs cl.
  Proof.
    intros HI H. pose proof (rel_init s PSockClose outs HI I) as HR.
    cbn [req_stepL] in H. set (sc := set_closed s true) in *.
    assert (HIc : ReqInv sc) by exact HI.
    change (ctx_get sc 0%N) with (lookup 0%N (rq_ctxs sc)) in H.
    destruct (lookup 0%N (rq_ctxs sc)) as [c|] eqn:EG.
    2:{ inversion H; subst. apply step_bal; [exact HI|]. intros F.
        change (SW F sc) with (SW F s). cbn [op_add op_del s_take s_del o_tx o_rel]. lia. }
    destruct (req_ctx_fini fx sc 0%N c) as [[s2 c2] o2] eqn:E. inversion H; subst s' outs cl. clear H.
    destruct (fini_ok s sc _ _ 0%N c s2 c2 o2 HIc HR EG E) as (Pc & S2 & R2 & Rp2 & Rv2 & QF).
    destruct (drop_inv HIc Pc) as (HI2 & Off & E1 & E6). rewrite <- E1 in EG.
    destruct (put_idle s2 0%N c c2 HI2 (off_rq Off) EG S2 R2) as (J1 & J2 & _); [intros b X; congruence|].
    apply step_bal; [exact J1|].
    intros F. destruct (QF F) as (T1 & T2 & T3). specialize (J2 F). unfold rep_w in J2. rewrite Rp2 in J2.
    assert (X : SW F s2 = SW F s) by (unfold SW; rewrite E1, E6; reflexivity).
    cbn [op_add op_del]. gnorm. lia.
  Qed.

  Lemma ok_cancel s a rv s' outs cl :
    ReqInv s -> req_ok s (PCancel a rv) -> req_stepL fx s (PCancel a rv) = (s', outs, cl) -> step_ok s (PCancel a rv) s' outs cl.
  Proof.
    intros HI Hok H. pose proof (rel_init s (PCancel a rv) outs HI Hok) as HR. cbn [req_ok] in Hok.
    pose proof (proj1 HI) as I1. cbn [req_stepL] in H.
    destruct (find_ctx (fun c => opt_is a (cx_recv c)) (rq_ctxs s)) as [[k c]|] eqn:EFr.
    - (* a pending receive *)
      apply find_ctx_in in EFr. destruct EFr as [Hin Hrv]. apply opt_is_true in Hrv. apply (nodup_in_lookup _ _ _ I1) in Hin. rename Hin into EG.
      destruct (req_cancel_recv fx s k c a rv) as [s1' o1'] eqn:E. inversion H; subst s1' o1' cl. clear H.
      unfold req_cancel_recv in E.
      match type of E with (match ?X with _ => _ end) = _ => remember X as XX eqn:EX; destruct XX as [[s1 c1] o2] end.
      eapply (unq_facts s) in EX; [|exact HI|exact HR|exact EG|discriminate|try reflexivity; auto..].
      destruct EX as (HI1 & Ec & Es & F8 & F9 & _ & F11).
      match type of E with context [ctx_reset fx s1 k ?C] =>
        set (c1' := C) in *; destruct (ctx_reset_spec s1 k c1') as (s2 & E2 & Pc); rewrite E2 in E end.
      inversion E; subst s' outs; clear E. rewrite app_assoc in HR |- *. apply step_of_seg.
      + apply (reset_seg s s1 s2 k c c1' (reset_ctx c1') o2);
          [exact HI1|exact Ec|exact Es|exact HR|exact EG|exact Pc|exact F8|exact F9|exact F11|exact F8|reflexivity|reflexivity|].
        intros b X. discriminate X.
      + intros F. cbn [op_add op_del s_take s_del o_tx o_rel]. destruct HR as [_ R2]. rewrite (R2 k c a EG Hrv). reflexivity.
    - destruct (find_ctx (fun c => opt_is a (cx_send c)) (rq_ctxs s)) as [[k c]|] eqn:EFs.
      2:{ inversion H; subst. apply step_bal; [exact HI|]. intros F. cbn [op_add op_del s_take s_del o_tx o_rel]. lia. }
      (* a queued send *)
      apply find_ctx_in in EFs. destruct EFs as [Hin Hsd]. apply opt_is_true in Hsd. apply (nodup_in_lookup _ _ _ I1) in Hin. rename Hin into EG.
      destruct (req_cancel_send fx s k c a rv) as [s1' o1'] eqn:E. inversion H; subst s1' o1' cl. clear H.
      unfold req_cancel_send in E.
      destruct (inv_cok HI EG) as ([C1 C2] & _). destruct (C1 a Hsd) as [Hq Ho]. destruct (cx_req c) as [m0|] eqn:EM; [|congruence].
      assert (Ka : send_key V s (PCancel a rv) a = Some (body m0)).
      { destruct HR as [R1 _]. specialize (R1 k c m0 EG EM Ho). now rewrite Hsd in R1. }
      assert (Hrc : forall ra, cx_recv c = Some ra -> send_key V s (PCancel a rv) ra = None).
      { intros ra X. destruct HR as [_ R2]. exact (R2 k c ra EG X). }
      assert (Fin : forall recv' o0, (recv' = None \/ recv' = cx_recv c) ->
                quiet s (PCancel a rv) o0 ->
                (let '(s2, c2, o2) := ctx_reset fx s k (unq_ctx recv' c) in (ctx_put s2 k c2, o0 ++ o2 ++ [Complete a rv None])) = (s', outs) ->
                step_ok s (PCancel a rv) s' outs []).
      { intros recv' o0 Hrv' Hq0 E'.
        match type of E' with context [ctx_reset fx s k ?C] =>
          set (c1 := C) in *; destruct (ctx_reset_spec s k c1) as (s2 & E2 & Pc); rewrite E2 in E' end.
        inversion E'; subst s' outs; clear E'.
        destruct (drop_inv HI Pc) as (HI2 & Off & E1 & E6). rewrite <- E1 in EG.
        destruct (put_idle s2 k c (reset_ctx c1) HI2 (off_rq Off) EG) as (J1 & J2 & _); try reflexivity.
        { cbn [cx_recv reset_ctx c1 unq_ctx]. intros b X. destruct Hrv' as [->| ->]; [discriminate|exact X]. }
        apply step_bal; [exact J1|].
        intros F. destruct (Hq0 F) as (U1 & U2 & U3 & U4). specialize (J2 F). change (rep_w F (reset_ctx c1)) with 0 in J2.
        assert (X : SW F s2 = SW F s) by (unfold SW; rewrite E1, E6; reflexivity).
        rewrite CW_eq in J2. unfold req_w in J2. rewrite Hsd, EM in J2.
        assert (D5 : qs F (reset_msgs c1) = rep_w F c).
        { unfold reset_msgs, rep_w, opt_list. cbn [cx_req cx_rep c1 unq_ctx]. destruct (cx_rep c); gnorm; lia. }
        gnorm. cbn [op_add op_del s_take s_del o_tx o_rel]. rewrite Ka, U1, U2, U3, U4.
        destruct (N.eqb_spec rv 0); [contradiction|]. lia. }
      destruct (fx_cancel fx).
      + apply (Fin None _ (or_introl eq_refl) (rc_quiet0 _ _ _ _ Hrc) E).
      + apply (Fin (cx_recv c) [] (or_intror eq_refl) (quiet_nil _ _) E).
  Qed.

  Lemma ok_pipestart s p peer s' outs cl :
    ReqInv s -> req_ok s (PPipeStart p peer) -> req_stepL fx s (PPipeStart p peer) = (s', outs, cl) ->
    step_ok s (PPipeStart p peer) s' outs cl.
  Proof.
    intros HI Hok H. pose proof (rel_init s (PPipeStart p peer) outs HI Hok) as HR. cbn [req_ok] in Hok. destruct Hok as [Hp1 Hp2].
    cbn [req_stepL] in H. destruct (negb (peer =? PROTO_REP)%N).
    { inversion H; subst. apply step_bal; [exact HI|]. intros F. cbn [op_add op_del s_take s_del o_tx o_rel]. lia. }
    match type of H with context [run_send_queue fx ?X] => set (s1 := X) in * end.
    destruct (run_send_queue fx s1) as [[s2 o2] cl2] eqn:E. injection H as <- <- <-.
    apply step_of_seg; [|reflexivity]. apply (seg_pre s s1); [reflexivity|].
    apply run_send_queue_seg; [|exact HR|apply incl_appl, incl_refl|exact E].
    destruct (inv_ready HI) as [I8 I9]. unfold ReqInv, s1. rqproj.
    eapply inv_rs; [exact HI|apply ListX.nodup_snoc; assumption|].
    intros q Hq. apply in_app_or in Hq. destruct Hq as [Hq|[<-|[]]]; auto.
  Qed.

  Lemma ok_pipeclose s p s' outs cl :
    ReqInv s -> req_stepL fx s (PPipeClose p) = (s', outs, cl) -> step_ok s (PPipeClose p) s' outs cl.
  Proof.
    intros HI H. pose proof (rel_init s (PPipeClose p) outs HI I) as HR.
    cbn [req_stepL] in H. cbv zeta in H.
    match type of H with pipe_close_loop fx _ ?X p = _ => set (s2 := X) in * end.
    assert (Pc : rq_core s2 = (rq_ctxs s, rq_sendq s, rq_retryq s, rq_plist s, remove_id p (rq_ready s), rq_sending s))
      by (unfold s2; match goal with |- context [if ?b then _ else _] => destruct b end; reflexivity).
    pose proof Pc as Pc'. injection Pc' as P1 _ _ _ _ P6. rewrite <- P1 in HR.
    rewrite <- (app_nil_r outs) in HR |- *. apply step_of_seg; [|reflexivity].
    apply (seg_pre s s2); [intros F; unfold SW; now rewrite P1, P6|].
    eapply pcl_ok; [|exact HR|apply incl_appl, incl_refl|exact H].
    apply (core_inv Pc). destruct (inv_ready HI) as [I8 I9].
    eapply inv_rs; [exact HI|apply nodup_remove_id; exact I8|]. intros q Hq. apply in_remove_id in Hq. apply I9. tauto.
  Qed.

  Lemma ok_senddone s p rv s' outs cl :
    ReqInv s -> req_ok s (PSendDone p rv) -> req_stepL fx s (PSendDone p rv) = (s', outs, cl) ->
    step_ok s (PSendDone p rv) s' outs cl.
  Proof.
    intros HI Hok H. pose proof (rel_init s (PSendDone p rv) outs HI Hok) as HR. cbn [req_ok] in Hok.
    destruct (inv_ready HI) as [I8 I9].
    cbn [req_stepL] in H. cbv zeta in H.
    set (s0 := set_sending s (assoc_del p (rq_sending s))) in *.
    assert (HI0 : ReqInv s0).
    { unfold ReqInv, s0. rqproj.
      eapply inv_rs; [exact HI|exact I8|]. intros q Hq Hi. apply ListX.in_map_filter in Hi. exact (I9 q Hq Hi). }
    assert (HS0 : forall F, SW F s = SW F s0 + wsum (fun m => F (OPipe p, body m)) (tx_of p (rq_sending s))).
    { intros F. unfold SW, s0, TXW. rqproj. rewrite (wsum_tx_split F p (rq_sending s)). unfold assoc_del. lia. }
    destruct (N.eqb_spec rv 0) as [->|Hrv]; cbn [negb] in H.
    - (* the transport took the message *)
      match type of H with (if ?b then _ else _) = _ => destruct b end.
      { inversion H; subst s' outs cl. apply step_bal; [exact HI0|]. intros F. rewrite (HS0 F).
        cbn [op_add op_del s_take s_del o_tx o_rel v_tx VReq.view]. change (0 =? 0)%N with true. cbn iota. lia. }
      match type of H with run_send_queue fx ?X = _ => set (s2 := X) in * end.
      assert (Pc : rq_core s2 = (rq_ctxs s, rq_sendq s, rq_retryq s, rq_plist s, rq_ready s ++ [p], assoc_del p (rq_sending s)))
        by (unfold s2; match goal with |- context [if ?b then _ else _] => destruct b end; reflexivity).
      pose proof Pc as Pc'. injection Pc' as P1 _ _ _ _ P6. rewrite <- P1 in HR.
      apply (step_bal_seg [] s2).
      + intros F. rewrite (HS0 F). replace (SW F s2) with (SW F s0) by (unfold SW; now rewrite P1, P6).
        cbn [op_add op_del s_take s_del o_tx o_rel v_tx VReq.view]. change (0 =? 0)%N with true. cbn iota. lia.
      + apply run_send_queue_seg; [|exact HR|apply incl_refl|exact H]. apply (core_inv Pc).
        eapply inv_rs; [exact HI|apply ListX.nodup_snoc; [exact I8|intros X; exact (I9 p X Hok)]|].
        intros q Hq. apply in_app_or in Hq. destruct Hq as [Hq|[<-|[]]]; [|apply ListX.notin_filter_self].
        intros Hi. apply ListX.in_map_filter in Hi. exact (I9 q Hq Hi).
    - (* the transport failed: the message is ours again, and freed *)
      inversion H; subst s' outs cl. apply step_bal; [exact HI0|]. intros F. rewrite (HS0 F).
      cbn [op_add op_del v_tx VReq.view]. destruct (N.eqb_spec rv 0); [contradiction|].
      change (map snd (filter (fun x => (fst x =? p)%N) (rq_sending s))) with (tx_of p (rq_sending s)).
      gnorm. cbn [s_take s_del o_tx o_rel]. lia.
  Qed.

  Lemma ok_recvdone s p rv m s' outs cl :
    ReqInv s -> req_stepL fx s (PRecvDone p rv m) = (s', outs, cl) -> step_ok s (PRecvDone p rv m) s' outs cl.
  Proof.
    intros HI H. pose proof (rel_init s (PRecvDone p rv m) outs HI I) as HR.
    cbn [req_stepL] in H.
    destruct (N.eqb_spec rv 0) as [->|Hrv]; cbn [negb] in H.
    2:{ inversion H; subst. apply step_bal; [exact HI|]. intros F. cbn [op_add op_del s_take s_del o_tx o_rel].
        destruct (N.eqb_spec rv 0); [contradiction|]. lia. }
    assert (Drop : forall m' l, VReq.rx s p m = body m' -> l = [TranRecv p; Free m'] \/ l = [Free m'; ClosePipe p] ->
              step_ok s (PRecvDone p 0 m) s l []).
    { intros m' l Hx Hl. apply step_bal; [exact HI|]. intros F. cbn [op_add op_del v_rx VReq.view].
      change (0 =? 0)%N with true. cbn iota. rewrite Hx. destruct Hl as [->| ->]; cbn [s_take s_del o_tx o_rel]; lia. }
    unfold VReq.rx in Drop.
    destruct (req_recv (pm_body m)) as [[id m']|] eqn:ERX; [|inversion H; subst; apply (Drop m); auto].
    destruct (lookup id (rq_ids s)) as [k|]; [|inversion H; subst; apply (Drop m'); auto].
    unfold ctx_get in H. destruct (lookup k (rq_ctxs s)) as [c|] eqn:EG; [|inversion H; subst; apply (Drop m'); auto].
    destruct (cx_send c) as [sa|] eqn:ES; cbn [orb] in H; [inversion H; subst; apply (Drop m'); auto|].
    destruct (cx_rep c) as [mr|] eqn:ERp; [inversion H; subst; apply (Drop m'); auto|].
    clear Drop. cbv zeta in H.
    destruct (inv_cok HI EG) as ([C1 C2] & C3 & C4 & C5).
    match type of H with context [set_ids (set_sendq ?S0 _) _ _] => set (sa := S0) in * end.
    match type of H with context [ctx_put ?S1 k _] => set (s1 := S1) in * end.
    (* the queues lose the name k (all of them or the send queue alone) *)
    assert (H1 : ReqInv s1 /\ incl (rq_retryq s1) (rq_retryq s) /\ rq_ctxs s1 = rq_ctxs s /\ rq_sending s1 = rq_sending s).
    { pose proof (nodup_remove_id k _ (inv_sendq HI)) as T3.
      unfold ReqInv, s1, sa. destruct (fx_stash fx); rqproj; (split; [eapply inv_shrink; [exact HI|exact T3|..]|repeat split]);
        first [apply incl_remove_id|apply incl_plist_del|apply incl_refl]. }
    destruct H1 as (HI1 & Hrq & E1 & E6). rewrite <- E1 in EG.
    (* the matched context gives up its request and takes the reply *)
    assert (Match : forall s'' c' tail,
              rq_core s'' = rq_core (ctx_put s1 k c') ->
              cx_send c' = None -> cx_req c' = None -> cx_recv c' = None -> cx_sretry c' = cx_sretry c ->
              (tail = [] /\ cx_rep c' = Some m') \/ (exists ra, tail = [Complete ra E_OK (Some m')] /\ cx_rep c' = None) ->
              step_ok s (PRecvDone p 0 m) s''
                (TranRecv p :: (match cx_req c with Some r => if retry_on fx c then [Free r] else [] | None => [] end) ++ tail) []).
    { intros s'' c' tail Pc S' R' Rv' Sr' Htail. apply (step_ok_core Pc).
      destruct (put_idle s1 k c c' HI1) as (J1 & J2 & _); [|exact EG|exact S'|exact R'|intros b X; congruence|].
      { intros Hi. rewrite retry_on_eq, Sr', <- retry_on_eq. apply C4, Hrq, Hi. }
      apply step_bal; [exact J1|].
      intros F. specialize (J2 F). assert (X : SW F s1 = SW F s) by (unfold SW; now rewrite E1, E6).
      rewrite CW_eq in J2. unfold req_w, rep_w in J2. rewrite ES, ERp in J2.
      set (o1 := match cx_req c with Some r => if retry_on fx c then [Free r] else [] | None => [] end).
      assert (Ko : o_rel F o1 = (match cx_req c with Some r => if cx_owned c then F (OProto, body r) else 0 | None => 0 end)
                   /\ o_tx F o1 = 0 /\ s_take F V s (PRecvDone p 0 m) o1 = 0 /\ s_del F V s (PRecvDone p 0 m) o1 = 0).
      { subst o1. destruct (cx_req c) as [r|] eqn:EM; [|cbn; auto]. rewrite (C2 ES) by discriminate.
        destruct (retry_on fx c); cbn; auto. }
      destruct Ko as (K1 & K2 & K3 & K4).
      cbn [op_add op_del v_rx VReq.view]. unfold VReq.rx. rewrite ERX. change (0 =? 0)%N with true. cbn iota.
      change (TranRecv p :: o1 ++ tail) with ([TranRecv p] ++ o1 ++ tail). gnorm. rewrite K1, K2, K3, K4.
      destruct Htail as [[-> Hr]|[ra [-> Hr]]]; rewrite Hr in J2; cbn [s_take s_del o_tx o_rel]; change (E_OK =? 0)%N with true; cbn iota; lia. }
    destruct (cx_recv c) as [ra|] eqn:ERv; inversion H; subst s' outs cl; clear H.
    - eapply Match; try reflexivity. right. exists ra. split; reflexivity.
    - match goal with |- step_ok _ _ _ ?L _ => replace L with (L ++ []) by apply app_nil_r end. rewrite <- app_comm_cons.
      match goal with |- context [ctx_put s1 k ?C] => set (c' := C) end.
      apply (Match _ c' []); try reflexivity; [destruct (k =? 0)%N; reflexivity|left; split; reflexivity].
  Qed.

  (* req0_retry_cb: the scan moves no message, it only names contexts of the retry queue that hold a request *)
  Lemma retry_scan_ok s now ks0 : forall ks sq sq' b, incl ks ks0 ->
    retry_scan s now ks sq = (sq', b) -> NoDup sq ->
    NoDup sq' /\ forall k, In k sq' -> In k sq \/ (In k ks0 /\ exists c, ctx_get s k = Some c /\ cx_req c <> None).
  Proof.
    induction ks as [|k0 ks IH]; intros sq sq' b Hin H Hn; cbn [retry_scan] in H.
    { inversion H; subst. split; [exact Hn|]. intros k Hi. left. exact Hi. }
    apply incl_cons_inv in Hin. destruct Hin as [Hk0 Hin].
    destruct (ctx_get s k0) as [c0|] eqn:EG; [|exact (IH _ _ _ Hin H Hn)].
    destruct ((now <? cx_rtime c0)%N || match cx_req c0 with None => true | Some _ => false end) eqn:EB; [exact (IH _ _ _ Hin H Hn)|].
    apply orb_false_iff in EB. destruct EB as [_ EB].
    assert (Hq : cx_req c0 <> None) by (destruct (cx_req c0); [discriminate|discriminate EB]).
    destruct (retry_scan s now ks (if has_id k0 sq then sq else sq ++ [k0])) as [sq1 b1] eqn:E1. inversion H; subst sq' b.
    assert (Hn1 : NoDup (if has_id k0 sq then sq else sq ++ [k0])).
    { destruct (has_id k0 sq) eqn:EH; [exact Hn|]. apply ListX.nodup_snoc; [exact Hn|]. now apply has_id_false. }
    destruct (IH _ _ _ Hin E1 Hn1) as [J1 J2]. split; [exact J1|]. intros k Hi.
    destruct (J2 k Hi) as [X|X]; [|right; exact X].
    destruct (has_id k0 sq); [left; exact X|]. apply in_app_or in X. destruct X as [X|[<-|[]]]; [left; exact X|].
    right. split; [exact Hk0|]. exists c0. split; [exact EG|exact Hq].
  Qed.

  Lemma ok_tick s now s' outs cl :
    ReqInv s -> req_stepL fx s (PTick now) = (s', outs, cl) -> step_ok s (PTick now) s' outs cl.
  Proof.
    intros HI H. pose proof (rel_init s (PTick now) outs HI I) as HR.
    cbn [req_stepL] in H. cbv zeta in H. set (s0 := set_now s now) in *.
    assert (Idle : step_ok s (PTick now) s0 [] []).
    { apply step_bal; [exact HI|]. intros F. change (SW F s0) with (SW F s). cbn [op_add op_del s_take s_del o_tx o_rel]. lia. }
    destruct (rq_closed s0 || negb (rq_active s0)); [inversion H; subst; exact Idle|].
    destruct (rq_tickdl s0) as [d|]; [|inversion H; subst; exact Idle].
    destruct (negb (d <? now)%N); [inversion H; subst; exact Idle|]. clear Idle.
    destruct (retry_scan s0 now (rq_retryq s0) (rq_sendq s0)) as [sq resched] eqn:ESc.
    destruct (retry_scan_ok s0 now _ _ _ _ _ (incl_refl _) ESc (inv_sendq HI)) as [Hn Hsq].
    (* the state with the rescanned send queue (and the timer re-armed or stopped) *)
    assert (HIx : InvC (rq_ctxs s) sq (rq_retryq s) (rq_plist s) (rq_ready s) (rq_sending s)).
    { eapply inv_q; [exact HI|exact Hn| | |].
      - intros k Hi. destruct (Hsq k Hi) as [X|[X [c [EG Hq]]]]; [left; exact X|]. right. exists c. split; [exact EG|]. intros _.
        destruct (inv_cok HI EG) as ([C1 C2] & _ & C4 & _). destruct (cx_send c) as [a|] eqn:ES; [exact (proj2 (C1 a eq_refl))|].
        rewrite (C2 eq_refl Hq). exact (C4 X).
      - intros k Hi. left. exact Hi.
      - intros q k Hi. left. exact Hi. }
    assert (Fin : forall s2 o1, rq_core s2 = (rq_ctxs s, sq, rq_retryq s, rq_plist s, rq_ready s, rq_sending s) ->
              quiet s (PTick now) o1 ->
              (if resched then let '(s3, o2, cl) := run_send_queue fx s2 in (s3, o1 ++ o2, cl) else (s2, o1, [])) = (s', outs, cl) ->
              step_ok s (PTick now) s' outs cl).
    { intros s2 o1 Pc Hq1 H2. pose proof (core_inv Pc HIx) as HI2. injection Pc as P1 _ _ _ _ P6.
      assert (B : bal s (PTick now) o1 s2).
      { intros F. unfold SW. rewrite P1, P6. destruct (Hq1 F) as (U1 & U2 & U3 & U4). rewrite U1, U2, U3, U4. cbn [op_add op_del]. lia. }
      destruct resched; [|inversion H2; subst s' outs cl; exact (step_bal HI2 B)].
      destruct (run_send_queue fx s2) as [[s3 o2] cl3] eqn:E3. injection H2 as <- <- <-.
      apply (step_bal_seg _ _ B), run_send_queue_seg; [exact HI2|rewrite P1; exact HR|apply incl_appr, incl_refl|exact E3]. }
    match type of H with context [is_nil ?L] => destruct (is_nil L) end; cbv beta iota in H.
    - eapply (Fin _ []); [|apply quiet_nil|exact H]; reflexivity.
    - eapply Fin; [|apply arm_quiet|exact H]; reflexivity.
  Qed.

  Lemma req_stepL_ok s o s' outs cl :
    ReqInv s -> req_ok s o -> req_stepL fx s o = (s', outs, cl) -> step_ok s o s' outs cl.
  Proof.
    intros HI Hok H. destruct o as [c a nb m|c a nb|a rv|p peer|p|p rv|p rv m|c op|c|c| |now].
    - apply ok_send; assumption.
    - apply ok_recv; assumption.
    - apply ok_cancel; assumption.
    - apply ok_pipestart; assumption.
    - apply ok_pipeclose; assumption.
    - apply ok_senddone; assumption.
    - apply ok_recvdone; assumption.
    - apply ok_setopt; assumption.
    - apply ok_ctxopen; assumption.
    - apply ok_ctxclose; assumption.
    - apply ok_sockclose; assumption.
    - apply ok_tick; assumption.
  Qed.

  Theorem req_proto_law_fx : proto_law V (req_step fx) ReqInv req_ok.
  Proof.
    intros s o s' outs HI Hok H. unfold req_step in H. destruct (req_stepL fx s o) as [[s1 o1] cl] eqn:E.
    inversion H; subst s1 o1; clear H. destruct (req_stepL_ok s o s' outs cl HI Hok E) as (A & B & C).
    split; [exact A|]. split.
    - apply law_sum_eq. intros F. cbv zeta. cbn [v_extra v_clones v_dups VReq.view]. unfold no_extra, no_keys. rewrite E.
      cbn [snd map]. rewrite !app_nil_r, wsum_map, !req_omega. specialize (B F). lia.
    - apply clones_held_intro. intros k Hk. cbn [v_clones VReq.view] in Hk. rewrite E in Hk. cbn [snd] in Hk.
      apply in_map_iff in Hk. destruct Hk as [m [<- Hm]]. destruct (C m Hm) as [X|X]; [left; exact X|right; left; exact X].
  Qed.
End Req.

(* the law of cooked REQ, for the repaired clone policy and every value of the other variant flags *)
Theorem req_proto_law : forall fx, fx_clone fx = true ->
  proto_law (VReq.view fx) (ReqModel.req_step fx) (ReqInv fx) req_ok.
Proof. intros fx Hfx. exact (req_proto_law_fx fx Hfx). Qed.

Lemma req_inv_init : forall fx, ReqInv fx req_init.
Proof.
  intros fx. unfold ReqInv, req_init, InvC. rqproj.
  assert (X : forall k c, lookup k [(0%N, ctx_init REQ_RESEND_DEFAULT)] = Some c -> c = ctx_init REQ_RESEND_DEFAULT).
  { intros k c H. cbn [lookup] in H. destruct (0 =? k)%N; [inversion H; reflexivity|discriminate]. }
  split; [cbn; constructor; [tauto|constructor]|]. split; [split|].
  - intros k k' c c' a H1 H2 S1. apply X in H1. subst c. discriminate S1.
  - intros k k' c c' a H1 H2 R1. apply X in H1. subst c. discriminate R1.
  - split.
    { intros k c H. apply X in H. subst c. split; [split; [intros a E; discriminate E|intros _ E; exfalso; apply E; reflexivity]|].
      split; [intros []|]. split; [intros []|]. intros p []. }
    split; [constructor|]. split; [intros k []|]. split; [intros k []|]. split; [intros k []|]. split; [constructor|intros p []].
Qed.

(* hence: on every history that respects the contract the ledger replay of the repaired REQ never fails *)
Theorem req_replay_never_fails : forall fx, fx_clone fx = true -> forall ops,
  ops_ok (req_step fx) req_ok req_init ops ->
  replay_run (VReq.view fx) (req_step fx) ls_init req_init ops <> None.
Proof.
  intros fx Hfx ops Hok.
  assert (L0 : linv (VReq.view fx) ls_init req_init).
  { split; [split; [split; constructor|intros e []]|]. apply mseq_refl. }
  destruct (replay_run_ok _ _ _ _ (req_proto_law fx Hfx) ops req_init ls_init (req_inv_init fx) L0 Hok) as [L' [E _]].
  rewrite E. discriminate.
Qed.

(* with the pinned clone policy (clone / free / requeue decisions read the current resend time)
   the law is false: the ledger rejects the run of ReqProofs.w_uaf (a request handed over
   un-cloned is freed again when its reply arrives) *)
Theorem req_law_refuted_pinned :
  exists ops, replay_run (VReq.view ReqProofs.fx_pinned) (req_step ReqProofs.fx_pinned) ls_init req_init ops = None.
Proof. exists ReqProofs.w_uaf. vm_compute. reflexivity. Qed.

(* a history on which the environment's contract holds: send before a pipe exists, pipe start,
   transport completion, reply arrives, receive, resend-time change, second request, a second pipe,
   loss of the first pipe with requeue, transport completion, tick, contexts, cancel, close *)
Definition req_hist : list pop :=
  [PSend None 1 false (mkPmsg [] [7%N]); PPipeStart 1 PROTO_REP; PSendDone 1 0;
   PRecvDone 1 0 (mkPmsg [] (be32 (REQ_ID_MIN + 1) ++ [9%N])); PRecv None 2 false;
   PSetOpt None (OResendTime 100); PSend None 3 false (mkPmsg [] [8%N]); PSendDone 1 0;
   PPipeStart 2 PROTO_REP; PPipeClose 1; PSendDone 2 0; PTick 5000; PSendDone 2 0;
   PCtxOpen 0; PSend (Some 0%N) 4 false (mkPmsg [] [10%N]); PRecv (Some 0%N) 5 false; PCancel 5 E_CANCELED;
   PCtxClose 0; PSockClose]%N.
Example req_ok_nonvacuous : forall fx, ops_ok (req_step fx) req_ok req_init req_hist.
Proof.
  intros [[] [] [] []]; vm_compute; repeat match goal with |- _ /\ _ => split end;
    first [reflexivity|exact I|left; reflexivity|(intros [X|[]]; discriminate X)|discriminate|intros []].
Qed.
Example req_replay_runs :
  replay_run (VReq.view ReqProofs.fx_repaired) (req_step ReqProofs.fx_repaired) ls_init req_init req_hist <> None.
Proof. vm_compute. discriminate. Qed.

Print Assumptions req_proto_law.
Print Assumptions req_inv_init.
Print Assumptions req_replay_never_fails.
Print Assumptions req_law_refuted_pinned.
Print Assumptions req_ok_nonvacuous.

(* After close the protocol owns nothing.
   The close sequence, computed from the state, in the order
     1. PCtxClose for every context other than the socket's own (key k <> 0 is context k - 1),
     2. PSockClose (req0_sock_close, then req0_ctx_fini of the master context),
     3. the failing transport completion PSendDone p E_CLOSED for every pipe with an entry in rq_sending,
     4. PPipeClose for every pipe the state knows (rq_ready, rq_busy, the keys of rq_sending).
   Contexts go first: req0_ctx_fini resets every context, so that req0_pipe_close finds nothing it
   could put back on the send queue (a requeue could transmit on another pipe that is still ready and
   create a new entry of rq_sending behind a script computed from the first state). *)

Definition req_close_script (s : req) : list pop :=
  map (fun k => PCtxClose (N.pred k)) (filter (fun k => negb (N.eqb k 0)) (map fst (rq_ctxs s)))
  ++ [PSockClose]
  ++ map (fun p => PSendDone p E_CLOSED) (nodup N.eq_dec (map fst (rq_sending s)))
  ++ map PPipeClose (rq_ready s ++ rq_busy s ++ nodup N.eq_dec (map fst (rq_sending s))).

(* a context that holds nothing; a state whose contexts hold nothing and that has nothing in flight *)
Definition idle (c : rctx) : Prop := cx_send c = None /\ cx_req c = None /\ cx_rep c = None.
Definition all_idle (s : req) : Prop := (forall k c, In (k, c) (rq_ctxs s) -> idle c) /\ rq_sending s = [].

Lemma idle_drained fx s : all_idle s -> drained (VReq.view fx) s.
Proof.
  intros [Hc Hs]. unfold drained. cbn [v_tx v_att v_held v_fini VReq.view]. split; [exact Hs|].
  assert (X : forall l : list (N * rctx), (forall k c, In (k, c) l -> idle c) ->
            flat_map (fun kc => VReq.ctx_att (snd kc)) l = [] /\ flat_map (fun kc => VReq.ctx_held (snd kc)) l = []).
  { induction l as [|[k c] l IH]; intros H; [split; reflexivity|]. cbn [flat_map snd].
    destruct (H k c (or_introl eq_refl)) as (E1 & E2 & E3). destruct IH as [I1 I2]; [intros k1 c1 Hi; apply (H k1 c1); right; exact Hi|].
    rewrite I1, I2. unfold VReq.ctx_att, VReq.ctx_held. rewrite E1, E2, E3. split; [reflexivity|]. destruct (cx_owned c); reflexivity. }
  destruct (X _ Hc) as [X1 X2]. rewrite X1, X2. split; [reflexivity|apply perm_nil].
Qed.

Lemma fini_core {fx s k c s2 c2 o} :
  req_ctx_fini fx s k c = (s2, c2, o) -> rq_ctxs s2 = rq_ctxs s /\ rq_sending s2 = rq_sending s /\ idle c2.
Proof.
  unfold req_ctx_fini. cbv zeta.
  destruct (cx_send c);
    match goal with |- context [ctx_reset fx s k ?C] =>
      destruct (ctx_reset_spec fx s k C) as (s2' & E & Pc); rewrite E end;
    intros H; inversion H; subst; injection Pc as Q1 _ _ _ _ Q6; repeat split; assumption.
Qed.

Lemma step_ctxclose fx s k : k <> 0%N ->
  rq_sending (fst (req_step fx s (PCtxClose (N.pred k)))) = rq_sending s /\
  (NoDup (map fst (rq_ctxs s)) -> NoDup (map fst (rq_ctxs (fst (req_step fx s (PCtxClose (N.pred k))))))) /\
  (forall k1 c1, In (k1, c1) (rq_ctxs (fst (req_step fx s (PCtxClose (N.pred k))))) -> In (k1, c1) (rq_ctxs s) /\ k1 <> k).
Proof.
  intros Hk. unfold req_step. cbn [req_stepL]. rewrite N.add_1_r, (N.succ_pred k Hk). unfold ctx_get.
  destruct (lookup k (rq_ctxs s)) as [c|] eqn:EG.
  - destruct (req_ctx_fini fx s k c) as [[s1 c2] o] eqn:E. destruct (fini_core E) as (Q1 & Q6 & _).
    cbn [fst rq_sending rq_ctxs set_ctxs]. rewrite Q1, Q6. split; [reflexivity|]. split; [apply ListX.nodup_filter|].
    intros k1 c1 Hi. unfold assoc_del in Hi. apply filter_In in Hi. cbn [fst] in Hi. destruct Hi as [Hi Hn].
    split; [exact Hi|]. apply negb_true_iff, N.eqb_neq in Hn. exact Hn.
  - cbn [fst]. split; [reflexivity|]. split; [auto|]. intros k1 c1 Hi. split; [exact Hi|]. intros ->.
    apply lookup_none_notin in EG. apply EG. apply in_map_iff. exists (k, c1). auto.
Qed.

Lemma close_ctxs fx : forall ks s, (forall k, In k ks -> k <> 0%N) ->
  ops_ok (req_step fx) req_ok s (map (fun k => PCtxClose (N.pred k)) ks) /\
  rq_sending (run (req_step fx) s (map (fun k => PCtxClose (N.pred k)) ks)) = rq_sending s /\
  (NoDup (map fst (rq_ctxs s)) -> NoDup (map fst (rq_ctxs (run (req_step fx) s (map (fun k => PCtxClose (N.pred k)) ks))))) /\
  (forall k1 c1, In (k1, c1) (rq_ctxs (run (req_step fx) s (map (fun k => PCtxClose (N.pred k)) ks))) ->
     In (k1, c1) (rq_ctxs s) /\ ~ In k1 ks).
Proof.
  induction ks as [|k ks IH]; intros s Hks; cbn [map run ops_ok].
  - split; [exact I|]. split; [reflexivity|]. split; [auto|]. intros k1 c1 Hi. split; [exact Hi|intros []].
  - destruct (step_ctxclose fx s k (Hks k (or_introl eq_refl))) as (A1 & A2 & A3).
    destruct (IH (fst (req_step fx s (PCtxClose (N.pred k)))) (fun k0 H => Hks k0 (or_intror H))) as (B1 & B2 & B3 & B4).
    split; [split; [exact I|exact B1]|]. split; [rewrite B2; exact A1|]. split; [auto|].
    intros k1 c1 Hi. destruct (B4 k1 c1 Hi) as [Hi1 Hn1]. destruct (A3 k1 c1 Hi1) as [Hi2 Hn2].
    split; [exact Hi2|]. intros [X|X]; [congruence|contradiction].
Qed.

Lemma step_sockclose fx s :
  NoDup (map fst (rq_ctxs s)) -> (forall k c, In (k, c) (rq_ctxs s) -> k = 0%N) ->
  rq_sending (fst (req_step fx s PSockClose)) = rq_sending s /\
  (forall k c, In (k, c) (rq_ctxs (fst (req_step fx s PSockClose))) -> idle c).
Proof.
  intros Hn Hz. unfold req_step. cbn [req_stepL].
  change (ctx_get (set_closed s true) 0%N) with (lookup 0%N (rq_ctxs s)).
  destruct (rq_ctxs s) as [|[k c] [|[k' c'] r]] eqn:EC.
  - cbn [lookup fst rq_sending rq_ctxs set_closed]. rewrite EC. split; [reflexivity|intros k c []].
  - assert (k = 0%N) by (apply (Hz k c); left; reflexivity). subst k. cbn [lookup N.eqb].
    destruct (req_ctx_fini fx (set_closed s true) 0%N c) as [[s2 c2] o] eqn:E.
    destruct (fini_core E) as (Q1 & Q6 & Q7).
    cbn [fst ctx_put rq_sending rq_ctxs set_ctxs]. rewrite Q1, Q6. cbn [rq_sending rq_ctxs set_closed]. rewrite EC.
    split; [reflexivity|]. cbn [assoc_set N.eqb]. intros k1 c1 [X|[]]. inversion X; subst. exact Q7.
  - exfalso. assert (k = 0%N) by (apply (Hz k c); left; reflexivity).
    assert (k' = 0%N) by (apply (Hz k' c'); right; left; reflexivity). subst. cbn [map fst] in Hn.
    inversion Hn as [|? ? X _]. apply X. left. reflexivity.
Qed.

Lemma step_senddone_closed fx s p :
  fst (req_step fx s (PSendDone p E_CLOSED)) = set_sending s (assoc_del p (rq_sending s)).
Proof. reflexivity. Qed.

(* req0_pipe_close on a state whose contexts hold nothing: nothing to requeue, nothing to free *)
Lemma idle_put s k c : all_idle s -> idle c -> all_idle (ctx_put s k c).
Proof.
  intros [H1 H2] Hc. split; [|exact H2]. unfold ctx_put. cbn [rq_ctxs set_ctxs]. intros k1 c1 Hi.
  destruct (in_assoc_set _ _ _ _ Hi) as [X|X]; [inversion X; subst; exact Hc|eauto].
Qed.
Lemma pcl_idle fx p : forall f s s' o cl, all_idle s -> pipe_close_loop fx f s p = (s', o, cl) -> all_idle s'.
Proof.
  induction f as [|f IH]; intros s s' o cl HI H; cbn [pipe_close_loop] in H; [inversion H; subst; exact HI|].
  destruct (first_on p (rq_plist s)) as [k|]; [|inversion H; subst; exact HI].
  set (sa := set_plist s (plist_del k (rq_plist s))) in *.
  assert (HIa : all_idle sa) by exact HI.
  unfold ctx_get in H. destruct (lookup k (rq_ctxs sa)) as [c|] eqn:EG; [|exact (IH _ _ _ _ HIa H)].
  assert (Hc : idle c) by (apply (proj1 HIa k c); now apply lookup_in). destruct Hc as (E1 & E2 & E3).
  assert (Hput : forall c' s2, rq_ctxs s2 = rq_ctxs sa -> rq_sending s2 = rq_sending sa -> idle c' -> all_idle (ctx_put s2 k c')).
  { intros c' s2 Q1 Q6 Hc. apply idle_put; [|exact Hc].
    destruct HIa as [A1 A2]. split; [rewrite Q1; exact A1|rewrite Q6; exact A2]. }
  destruct (retry_on fx c); cbn [negb] in H.
  - rewrite E2 in H. destruct (pipe_close_loop fx f sa p) as [[s2 o2] cl2] eqn:E. inversion H; subst. exact (IH _ _ _ _ HIa E).
  - destruct (cx_recv c) as [ra|];
      match type of H with context [ctx_reset fx sa k ?C] =>
        destruct (ctx_reset_spec fx sa k C) as (s2 & E & Pc); injection Pc as Q1 _ _ _ _ Q6; rewrite E in H end;
      cbv beta iota zeta in H;
      match type of H with context [pipe_close_loop fx f ?X p] =>
        destruct (pipe_close_loop fx f X p) as [[s3 o3] cl3] eqn:EL; assert (HIx : all_idle X) end.
    + apply Hput; [exact Q1|exact Q6|repeat split; exact E1].
    + inversion H; subst. exact (IH _ _ _ _ HIx EL).
    + apply Hput; [exact Q1|exact Q6|repeat split; exact E1].
    + inversion H; subst. exact (IH _ _ _ _ HIx EL).
Qed.
Lemma step_pipeclose_idle fx s p : all_idle s -> all_idle (fst (req_step fx s (PPipeClose p))).
Proof.
  intros HI. unfold req_step. cbn [req_stepL]. cbv zeta.
  match goal with |- context [pipe_close_loop fx ?F ?X p] => destruct (pipe_close_loop fx F X p) as [[s2 o2] cl2] eqn:E; assert (HIx : all_idle X) end.
  { match goal with |- context [if ?b then _ else _] => destruct b end; exact HI. }
  cbn [fst]. exact (pcl_idle fx p _ _ _ _ _ HIx E).
Qed.
Lemma close_pipes fx : forall ps s, all_idle s ->
  ops_ok (req_step fx) req_ok s (map PPipeClose ps) /\ all_idle (run (req_step fx) s (map PPipeClose ps)).
Proof.
  induction ps as [|p ps IH]; intros s HI; cbn [map run ops_ok]; [split; [exact I|exact HI]|].
  destruct (IH _ (step_pipeclose_idle fx s p HI)) as [B1 B2]. split; [split; [exact I|exact B1]|exact B2].
Qed.

(* the close script needs distinct context keys only, under every variant flag *)
Lemma close_drains_keys fx s : NoDup (map fst (rq_ctxs s)) ->
  ops_ok (req_step fx) req_ok s (req_close_script s) /\
  drained (VReq.view fx) (run (req_step fx) s (req_close_script s)).
Proof.
  intros I1. unfold req_close_script.
  set (ks := filter (fun k => negb (k =? 0)%N) (map fst (rq_ctxs s))).
  set (ps := nodup N.eq_dec (map fst (rq_sending s))).
  destruct (close_ctxs fx ks s) as (A1 & A2 & A3 & A4).
  { intros k Hk. apply filter_In in Hk. destruct Hk as [_ Hk]. apply negb_true_iff, N.eqb_neq in Hk. exact Hk. }
  set (s1 := run (req_step fx) s (map (fun k => PCtxClose (N.pred k)) ks)) in *.
  destruct (step_sockclose fx s1 (A3 I1)) as (B1 & B2).
  { intros k c Hi. destruct (A4 k c Hi) as [Hi0 Hn]. destruct (N.eq_dec k 0) as [E|E]; [exact E|]. exfalso. apply Hn.
    apply filter_In. split; [apply in_map_iff; exists (k, c); auto|]. apply negb_true_iff, N.eqb_neq. exact E. }
  set (s2 := fst (req_step fx s1 PSockClose)) in *.
  assert (Es2 : run (req_step fx) s1 [PSockClose] = s2) by reflexivity.
  assert (Sn2 : rq_sending s2 = rq_sending s) by (rewrite B1; exact A2).
  assert (Hdel : forall s0 p, rq_sending (fst (req_step fx s0 (PSendDone p E_CLOSED)))
                           = filter (fun x => negb (N.eqb (fst x) p)) (rq_sending s0)) by reflexivity.
  destruct (run_fail (req_step fx) (fun _ => True) req_ok (fun _ _ _ _ => I) rq_sending E_CLOSED) with (l := ps) (s := s2)
    as (C1 & _); [intros s0 p _ Hp; exact Hp|exact Hdel|apply NoDup_nodup|exact I| |].
  { intros p Hp. rewrite Sn2. apply nodup_In in Hp. exact Hp. }
  set (s3 := run (req_step fx) s2 (map (fun p => PSendDone p E_CLOSED) ps)) in *.
  assert (HI3 : all_idle s3).
  { split.
    - unfold s3. rewrite (run_keeps (req_step fx) rq_ctxs (fun o => exists p, o = PSendDone p E_CLOSED)); [exact B2|intros ? ? [p ->]; reflexivity|].
      apply Forall_forall. intros o Ho. apply in_map_iff in Ho. destruct Ho as [p [<- _]]. eauto.
    - apply (run_filter_clears (req_step fx) rq_sending (fun p => PSendDone p E_CLOSED) Hdel).
      intros x Hx. apply nodup_In. rewrite Sn2 in Hx. apply in_map. exact Hx. }
  destruct (close_pipes fx (rq_ready s ++ rq_busy s ++ ps) s3 HI3) as [D1 D2].
  split.
  - apply ops_ok_app; [exact A1|]. fold s1. apply (ops_ok_app _ _ [PSockClose] _ s1); [split; exact I|]. rewrite Es2.
    apply ops_ok_app; [exact C1|]. exact D1.
  - rewrite run_app. fold s1. rewrite (run_app _ [PSockClose] _ s1), Es2, run_app. apply idle_drained. exact D2.
Qed.

Theorem req_close_drains : forall fx s, fx_clone fx = true -> ReqInv fx s ->
  ops_ok (req_step fx) req_ok s (req_close_script s) /\
  drained (VReq.view fx) (run (req_step fx) s (req_close_script s)).
Proof. intros fx s _ HI. exact (close_drains_keys fx s (proj1 HI)). Qed.

Print Assumptions req_close_drains.
