(* OwnPipeline: the ledger law of PUSH and PULL (pipeline0/push.c, pull.c). *)
From Coq Require Import List Arith NArith Bool Lia.
From NngV Require Import Proto.Common Proto.PushModel Proto.PullModel Proto.PushProofs
  Ledger.Ledger Ledger.LedgerProofs Ledger.LawTac Ledger.Keyed Ledger.Views.
From NngV Require Base.ListX.
From NngV Require Proto.PushSubmit.
Import ListNotations.

Local Ltac fin := cbn; unfold no_rx, no_keys; gnorm; cbn; try lia.

Lemma pull_omega F s : w_omega F view_pull s = wsum (fun x => F (OProto, body (snd x))) (pl_pl s).
Proof. unfold w_omega. cbn [view_pull VPull.view v_held v_tx v_att]. rewrite wsum_map, !wsum_nil. lia. Qed.

Lemma pull_law_sum s o s' outs : pull_step s o = (s', outs) -> law_sum view_pull s o s' outs.
Proof.
  intros H. destruct o as [c a nb m|c a nb|a rv|p peer|p|p rv|p rv m|c op|c|c| |now]; cbn [pull_step] in H.
  2-12: apply law_sum_quiet; [reflexivity|intros; discriminate|reflexivity|reflexivity|reflexivity|intros F];
    rewrite !pull_omega; cbn [op_add op_del].
  - injection H as <- <-. apply law_sum_plain; try reflexivity. intros F.
    cbn [op_add op_del s_take s_del]. rewrite send_key_self. fin.
  - destruct (pl_pl s) as [|[p m] rest] eqn:E; [destruct nb|]; injection H as <- <-; rewrite ?E; fin.
  - destruct (has_id a (pl_rq s)); injection H as <- <-; fin.
  - destruct (negb (peer =? PROTO_PUSH)%N); injection H as <- <-; fin.
  - injection H as <- <-. cbn [pl_pl]. gnorm.
    pose proof (wsum_filter_key (fun x => F (OProto, body (snd x))) p (pl_pl s)). cbn. lia.
  - injection H as <- <-. destruct (rv =? 0)%N; fin.
  - destruct (rv =? 0)%N; cbn [negb] in H; [|injection H as <- <-; fin].
    destruct (has_id p (pl_closed s)); [|destruct (pl_rq s)]; injection H as <- <-; fin.
  - injection H as <- <-. fin.
  - injection H as <- <-. fin.
  - injection H as <- <-. fin.
  - injection H as <- <-. gnorm. cbn. lia.
  - injection H as <- <-. fin.
Qed.

Theorem pull_proto_law : proto_law view_pull pull_step (fun _ => True) (fun _ _ => True).
Proof.
  intros s o s' outs _ _ H. split; [exact I|]. split.
  - apply law_sum_eq, pull_law_sum, H.
  - apply clones_held_none. reflexivity.
Qed.

(* invariant and environment contract: those of PushProofs (pipes started once, a send
   completion only for a pipe with a send in flight, an aio submitted once at a time) *)
Lemma push_omega F s :
  w_omega F view_push s
  = wsum (fun m => F (OProto, body m)) (ps_wq s) + wsum (fun x => F (OPipe (fst x), body (snd x))) (ps_sending s)
    + wsum (fun x => F (OAio (fst x), body (snd x))) (ps_aq s).
Proof. reflexivity. Qed.

Lemma ready_sum F s p o s' outs :
  (forall c a nb m, o <> PSend c a nb m) ->
  ~ In p (map fst (ps_sending s)) ->
  push_pipe_ready s p = (s', outs) ->
  w_omega F view_push s + s_take F view_push s o outs + o_tx F outs
  = w_omega F view_push s' + s_del F view_push s o outs + o_rel F outs.
Proof.
  intros Ho Hp H. unfold push_pipe_ready in H. rewrite !push_omega.
  assert (K : forall a m l, ps_aq s = (a, m) :: l -> send_key view_push s o a = Some (body m)).
  { intros a m l E. rewrite send_key_other by exact Ho. change (v_att view_push s) with (ps_aq s). rewrite E. apply att_key_head. }
  destruct (ps_wq s) as [|m rest]; destruct (ps_aq s) as [|[a m2] aqr];
    injection H as <- <-; cbn [ps_wq ps_sending ps_aq s_take s_del o_tx o_rel];
    unfold set_sending; rewrite (ListX.filter_keep_notin p _ Hp);
    try rewrite (K a m2 aqr eq_refl); change (E_OK =? 0)%N with true; cbn iota; gnorm; cbn [fst snd]; lia.
Qed.

(* an aio is submitted once at a time: a receive is not posted on an aio whose send is still queued *)
Definition push_ok (s : push) (o : pop) : Prop :=
  op_ok s o /\ match o with PRecv _ a _ => ~ In a (map fst (ps_aq s)) | _ => True end.

Lemma push_law_sum s o s' outs :
  PInv s -> push_ok s o -> push_step s o = (s', outs) -> law_sum view_push s o s' outs.
Proof.
  intros (I1 & I2 & I3 & I4 & I5 & I6) [Hok Hrecv] H. apply law_sum_plain; try reflexivity. intros F.
  destruct o as [c a nb m|c a nb|a rv|p peer|p|p rv|p rv m|c op|c|c| |now];
    cbn [op_ok op_add op_del] in *; cbn [push_step] in H.
  - rewrite !push_omega. destruct (ps_pl s) as [|p rest].
    + destruct (wq_full s); cbn [negb] in H.
      * destruct nb; injection H as <- <-; cbn [s_take s_del ps_wq ps_sending ps_aq].
        -- rewrite send_key_self. fin.
        -- fin.
      * injection H as <- <-. cbn [s_take s_del ps_wq ps_sending ps_aq]. rewrite send_key_self. fin.
    + injection H as <- <-. cbn [s_take s_del ps_wq ps_sending ps_aq]. rewrite send_key_self.
      unfold set_sending. rewrite (ListX.filter_keep_notin p _ (I5 p (or_introl eq_refl))). fin.
  - injection H as <- <-. cbn [s_take s_del o_tx o_rel]. rewrite send_key_other by (intros; discriminate).
    change (v_att view_push s) with (ps_aq s). rewrite (att_key_notin _ _ Hrecv). lia.
  - rewrite !push_omega. destruct (has_aio a (ps_aq s)) eqn:E; injection H as <- <-; cbn [ps_wq ps_sending ps_aq o_tx o_rel].
    + pose proof (s_cancel_queued view_push F s (PCancel a rv) a rv I4 ltac:(intros; discriminate) E Hok) as L.
      change (v_att view_push s) with (ps_aq s) in L. lia.
    + cbn [s_take s_del]. lia.
  - destruct (negb (peer =? PROTO_PULL)%N); [injection H as <- <-; cbn; lia|].
    destruct (push_pipe_ready s p) as [s1 o1] eqn:R. injection H as <- <-.
    pose proof (ready_sum F s p (PPipeStart p peer) s1 o1 ltac:(intros; discriminate) (proj1 Hok) R) as L.
    cbn [s_take s_del o_tx o_rel]. lia.
  - destruct (has_id p (ps_pl s)); injection H as <- <-; rewrite !push_omega; cbn; lia.
  - change (v_tx view_push s) with (ps_sending s). pose proof (wsum_tx_split F p (ps_sending s)) as P.
    destruct (N.eqb_spec rv 0) as [->|Hrv]; cbn [negb] in H.
    + set (s0 := mkPush (ps_pl s) (ps_wq s) (ps_cap s) (ps_aq s) (set_sending s p None) (ps_writable s)) in *.
      pose proof (ready_sum F s0 p (PSendDone p 0) s' outs ltac:(intros; discriminate) (ListX.notin_filter_self p _) H) as L.
      destruct (s_att_ext view_push F s s0 (PSendDone p 0) outs eq_refl) as [E1 E2].
      rewrite E1, E2, (push_omega F s). rewrite (push_omega F s0) in L. unfold s0 at 1 2 3, set_sending in L.
      cbn [ps_wq ps_sending ps_aq] in L. lia.
    + injection H as <- <-. rewrite !push_omega. cbn [ps_wq ps_sending ps_aq]. unfold set_sending, tx_of in *.
      wnorm. cbn [s_take s_del o_tx o_rel]. lia.
  - destruct (rv =? 0)%N; cbn [negb] in H; injection H as <- <-; fin.
  - destruct op; try (injection H as <- <-; cbn; lia).
    destruct (8192 <? N.of_nat n)%N; injection H as <- <-; [cbn; lia|].
    rewrite !push_omega. cbn [ps_wq ps_sending ps_aq]. gnorm. cbn [s_take s_del o_tx o_rel].
    pose proof (wsum_firstn_skipn (fun m => F (OProto, body m)) n (ps_wq s)). lia.
  - injection H as <- <-. cbn. lia.
  - injection H as <- <-. cbn. lia.
  - injection H as <- <-. rewrite !push_omega. cbn [ps_wq ps_sending ps_aq].
    destruct (s_compl_sub view_push F s PSockClose E_CLOSED (ps_aq s) I4 ltac:(intros; discriminate) (incl_refl _)) as [A B].
    rewrite A, B. gnorm. cbn. lia.
  - injection H as <- <-. cbn. lia.
Qed.

Theorem push_proto_law : proto_law view_push push_step PInv push_ok.
Proof.
  intros s o s' outs HI Hok H. split.
  - destruct Hok as [Hok _]. exact (proj1 (push_step_law s o s' outs HI Hok H)).
  - split; [apply law_sum_eq, push_law_sum; assumption|apply clones_held_none; reflexivity].
Qed.

(* push0_set_send_buf_len with the repair of finding push-resize-overtakes-blocked (PushModel.push_step_r
        true): the blocked senders that fit move, in order, from s->aq into the resized buffer; each one's send
        completes with success, i.e. the reference on its aio becomes the protocol's *)
Lemma push_r_law_sum fr s o s' outs :
  PInv s -> push_ok s o -> push_step_r fr s o = (s', outs) -> law_sum view_push s o s' outs.
Proof.
  intros HI Hok H.
  destruct o as [c a nb m|c a nb|a rv|p peer|p|p rv|p rv m|c op|c|c| |now];
    try (cbn [push_step_r] in H; apply push_law_sum; assumption).
  destruct op; try (cbn [push_step_r] in H; apply push_law_sum; assumption).
  cbn [push_step_r] in H. destruct (fr && negb (8192 <? N.of_nat n)%N); [|apply push_law_sum; assumption].
  destruct HI as (_ & _ & _ & I4 & _). apply law_sum_plain; try reflexivity. intros F.
  unfold push_resize_takein in H. injection H as <- <-. rewrite !push_omega. cbn [op_add op_del ps_wq ps_sending ps_aq].
  set (room := n - length (firstn n (ps_wq s))).
  destruct (s_compl_sub view_push F s (PSetOpt c (OSendBuf n)) E_OK (firstn room (ps_aq s)) I4 ltac:(intros; discriminate))
    as [A B].
  { intros x Hx. change (In x (ps_aq s)). rewrite <- (firstn_skipn room (ps_aq s)). apply in_or_app. left. exact Hx. }
  rewrite <- (map_map fst (fun a => Complete a E_OK None)). fold (fail_aios E_OK (map fst (firstn room (ps_aq s)))).
  gnorm. rewrite A, B. cbn [s_take s_del o_tx o_rel N.eqb E_OK].
  pose proof (wsum_firstn_skipn (fun m => F (OProto, body m)) n (ps_wq s)) as FS.
  pose proof (wsum_firstn_skipn (fun x => F (OAio (fst x), body (snd x))) room (ps_aq s)) as FA.
  lia.
Qed.

Theorem push_proto_law_r fr : proto_law view_push (push_step_r fr) PInv push_ok.
Proof.
  intros s o s' outs HI Hok H. split.
  - destruct Hok as [Hok _]. exact (proj1 (PushSubmit.push_step_r_law fr s o s' outs HI Hok H)).
  - split; [apply law_sum_eq, (push_r_law_sum fr); assumption|apply clones_held_none; reflexivity].
Qed.
