(* ChunkAllocProofs.v -- C03: for every history of message operations (with any choice of failing
   allocations) the allocator events of Ledger/ChunkAlloc.v are acceptable to the allocator's
   books: every id is allocated once, every free / hand-over names a live block WITH THE SIZE IT
   WAS ALLOCATED WITH, and the books always equal what the application's slots hold -- so they
   are empty once every message has been freed or sent.  This needs the source's order in
   nni_chunk_grow (free, then overwrite the cap field); with the cap field overwritten first
   the statement is false (witness at the end). *)
From Coq Require Import List Arith NArith Bool Lia Permutation.
From NngV Require Import Ledger.ChunkAlloc.
Import ListNotations.
Local Open Scope N_scope.

Definition sane (cf : ccfg) : Prop := cf_early1 cf = false /\ cf_early2 cf = false.

Definition idlt (nx : nat) (t : tab) : Prop := Forall (fun p => (fst p < nx)%nat) t.

Definition buf_ok (nx : nat) (bf : option (nat * N)) (cp : N) : Prop :=
  match bf with Some (b, a) => (b < nx)%nat /\ cp = a /\ a <> 0 | None => True end.
Definition chunk_ok (nx : nat) (c : chunk) : Prop := buf_ok nx (k_buf c) (k_cap c).
Definition slot_ok (nx : nat) (o : option msg) : Prop :=
  match o with Some m => (g_sb m < nx)%nat /\ chunk_ok nx (g_body m) | None => True end.
Definition st_ok (st : mstate) : Prop := Forall (slot_ok (s_next st)) (s_slots st).

Definition evp (K : nat -> N -> aev) (p : nat * N) : aev := K (fst p) (snd p).

Lemma take_in : forall b n t, In (b, n) t -> exists t', take b n t = Some t' /\ Permutation t ((b, n) :: t').
Proof.
  induction t as [|[b' n'] r IH]; simpl; intros H; [contradiction|].
  destruct (Nat.eqb b b' && (n =? n')) eqn:E.
  - apply andb_true_iff in E. destruct E as [E1 E2].
    apply Nat.eqb_eq in E1. apply N.eqb_eq in E2. subst. eexists; split; [reflexivity|apply Permutation_refl].
  - destruct H as [H|H].
    + inversion H; subst. rewrite Nat.eqb_refl, N.eqb_refl in E. discriminate.
    + destruct (IH H) as [t' [Ht Hp]]. rewrite Ht. eexists; split; [reflexivity|].
      eapply perm_trans; [apply perm_skip; exact Hp|apply perm_swap].
Qed.

Lemma take_sound : forall b n t t', take b n t = Some t' -> In (b, n) t.
Proof.
  induction t as [|[b' n'] r IH]; simpl; intros t' H; [discriminate|].
  destruct (Nat.eqb b b' && (n =? n')) eqn:E.
  - apply andb_true_iff in E. destruct E as [E1 E2].
    apply Nat.eqb_eq in E1. apply N.eqb_eq in E2. subst. now left.
  - destruct (take b n r) eqn:Et; [|discriminate]. right. eapply IH; reflexivity.
Qed.

Lemma has_id_fresh : forall nx t, idlt nx t -> has_id nx t = false.
Proof.
  unfold idlt, has_id. induction t as [|p r IH]; simpl; intros H; [reflexivity|].
  inversion H; subst. rewrite (IH H3), orb_false_r. apply Nat.eqb_neq. lia.
Qed.

Lemma idlt_perm : forall nx t t', Permutation t t' -> idlt nx t -> idlt nx t'.
Proof. unfold idlt. intros nx t t' P H. rewrite Forall_forall in *. intros x Hx. apply H. eapply Permutation_in; [apply Permutation_sym; exact P|exact Hx]. Qed.

Lemma idlt_mono : forall nx nx' t, (nx <= nx')%nat -> idlt nx t -> idlt nx' t.
Proof. unfold idlt. intros nx nx' t L H. rewrite Forall_forall in *. intros x Hx. specialize (H x Hx). lia. Qed.

Lemma treplay_app : forall e1 e2 t, treplay t (e1 ++ e2) = match treplay t e1 with Some t' => treplay t' e2 | None => None end.
Proof. induction e1 as [|e r IH]; simpl; intros; [reflexivity|]. destruct (tstep t e); [apply IH|reflexivity]. Qed.

(* [moves nx A evs nx' B]: books that hold the blocks A beside any others R, all ids below nx,
   accept evs and then hold B beside R, all ids below nx' *)
Definition moves (nx : nat) (A : tab) (evs : list aev) (nx' : nat) (B : tab) : Prop :=
  (nx <= nx')%nat /\
  forall t R, Permutation t (A ++ R) -> idlt nx t ->
  exists t', treplay t evs = Some t' /\ Permutation t' (B ++ R) /\ idlt nx' t'.

Lemma moves_nil : forall nx A, moves nx A [] nx A.
Proof. intros nx A. split; [lia|]. intros t R P I. exists t. repeat split; assumption. Qed.

Lemma moves_seq : forall nx A e1 nx1 B e2 nx2 C,
  moves nx A e1 nx1 B -> moves nx1 B e2 nx2 C -> moves nx A (e1 ++ e2) nx2 C.
Proof.
  intros nx A e1 nx1 B e2 nx2 C [L1 M1] [L2 M2]. split; [lia|]. intros t R P I.
  destruct (M1 t R P I) as [t1 [R1 [P1 I1]]]. destruct (M2 t1 R P1 I1) as [t2 [R2 PI2]].
  exists t2. split; [rewrite treplay_app, R1; exact R2|exact PI2].
Qed.

Lemma moves_perm : forall nx A A' evs nx' B B',
  Permutation A' A -> Permutation B B' -> moves nx A evs nx' B -> moves nx A' evs nx' B'.
Proof.
  intros nx A A' evs nx' B B' PA PB [L M]. split; [exact L|]. intros t R P I.
  destruct (M t R) as [t' [Rp [Pp Ip]]]; [|exact I|].
  - eapply perm_trans; [exact P|apply Permutation_app_tail; exact PA].
  - exists t'. repeat split; [exact Rp| |exact Ip]. eapply perm_trans; [exact Pp|apply Permutation_app_tail; exact PB].
Qed.

(* blocks F that the events do not name *)
Lemma moves_frame : forall F nx A evs nx' B, moves nx A evs nx' B -> moves nx (F ++ A) evs nx' (F ++ B).
Proof.
  intros F nx A evs nx' B [L M]. split; [exact L|]. intros t R P I.
  destruct (M t (F ++ R)) as [t' [Rp [Pp Ip]]]; [|exact I|].
  - eapply perm_trans; [exact P|]. rewrite <- app_assoc. apply Permutation_app_swap_app.
  - exists t'. repeat split; [exact Rp| |exact Ip].
    eapply perm_trans; [exact Pp|]. rewrite <- app_assoc. apply Permutation_app_swap_app.
Qed.

(* an allocation with an unused id *)
Lemma moves_alloc : forall K nx n A,
  (forall b m t, tstep t (K b m) = if has_id b t then None else Some ((b, m) :: t)) ->
  moves nx A [K nx n] (S nx) ((nx, n) :: A).
Proof.
  intros K nx n A HK. split; [lia|]. intros t R P I. simpl. rewrite HK, (has_id_fresh _ _ I).
  eexists; split; [reflexivity|]. split; [apply perm_skip; exact P|].
  constructor; [simpl; lia|]. eapply idlt_mono; [|exact I]. lia.
Qed.

(* frees / hand-overs of blocks that are in the books with exactly those sizes *)
Lemma moves_release : forall K (HK : forall b m t, tstep t (K b m) = take b m t) nx A B C,
  Permutation A (B ++ C) -> moves nx A (map (evp K) B) nx C.
Proof.
  intros K HK nx A B C PA. split; [lia|]. intros t R P I.
  assert (P' : Permutation t (B ++ C ++ R)).
  { rewrite app_assoc. eapply perm_trans; [exact P|apply Permutation_app_tail; exact PA]. }
  clear P PA. revert t P' I. induction B as [|[b n] B IH]; simpl; intros t P I.
  - exists t. repeat split; assumption.
  - unfold evp at 1; simpl. rewrite HK.
    destruct (take_in b n t) as [t1 [Ht Hp]].
    { eapply Permutation_in; [apply Permutation_sym; exact P|now left]. }
    rewrite Ht. apply IH.
    + eapply Permutation_cons_inv with (a := (b, n)). eapply perm_trans; [apply Permutation_sym; exact Hp|exact P].
    + pose proof (idlt_perm _ _ _ Hp I) as H. inversion H; assumption.
Qed.

Lemma alloc_free : forall nx n, moves nx [] [EA nx n; EF nx n] (S nx) [].
Proof.
  intros nx n. eapply (moves_seq _ _ [EA nx n] _ [(nx, n)] [EF nx n]).
  - apply moves_alloc. reflexivity.
  - apply (moves_release EF (fun _ _ _ => eq_refl) _ _ [(nx, n)]), Permutation_refl.
Qed.

(* a message goes: its body, then its struct *)
Lemma moves_drop : forall K (HK : forall b m t, tstep t (K b m) = take b m t) nx s n B,
  moves nx ((s, n) :: B) (map (evp K) B ++ [K s n]) nx [].
Proof.
  intros K HK nx s n B. change [K s n] with (map (evp K) [(s, n)]). rewrite <- map_app.
  apply (moves_release K HK). rewrite app_nil_r. apply Permutation_cons_append.
Qed.

Definition blk (bf : option (nat * N)) : tab := match bf with Some (b, a) => [(b, a)] | None => [] end.

(* what a chunk operation may do: nothing to the buffer, or a new block and the old one freed
   with its own size *)
Definition cspec (nx : nat) (bf : option (nat * N)) (r : cres) : Prop :=
  match r with
  | COk c' evs nx' =>
      chunk_ok nx' c' /\
      ((evs = [] /\ k_buf c' = bf /\ nx' = nx) \/
       (exists asz, nx' = S nx /\ k_buf c' = Some (nx, asz) /\ evs = EA nx asz :: map (evp EF) (blk bf)))
  | _ => True
  end.

Lemma free_buf_blk : forall nx c, chunk_ok nx c -> free_buf c (k_cap c) = map (evp EF) (cblocks c).
Proof.
  unfold chunk_ok, buf_ok, free_buf, cblocks. intros nx c H. destruct (k_buf c) as [[b a]|]; [|reflexivity].
  destruct H as [_ [H _]]. rewrite H. reflexivity.
Qed.

(* a new buffer of asz bytes, the old one freed with the cap field as its size *)
Lemma realloc_spec : forall nx c asz fail p l, chunk_ok nx c ->
  cspec nx (k_buf c)
    (if (asz =? 0) || fail then CNomem
     else COk (mkChunk (Some (nx, asz)) asz p l) (EA nx asz :: free_buf c (k_cap c)) (S nx)).
Proof.
  intros nx c asz fail p l Hc. destruct ((asz =? 0) || fail) eqn:E; [exact I|].
  apply orb_false_iff in E. destruct E as [E _]. apply N.eqb_neq in E. split.
  - unfold chunk_ok, buf_ok; simpl. repeat split; [lia|exact E].
  - right. eexists; repeat split. f_equal. eapply free_buf_blk; exact Hc.
Qed.

(* operations that keep buffer and cap field *)
Lemma cspec_keep : forall nx c c', chunk_ok nx c -> k_buf c' = k_buf c -> k_cap c' = k_cap c -> cspec nx (k_buf c) (COk c' [] nx).
Proof. intros nx c c' H E1 E2. simpl. split; [unfold chunk_ok; rewrite E1, E2; exact H|left; repeat split; exact E1]. Qed.

Lemma grow_spec : forall cf nx fail c newsz hw, sane cf -> chunk_ok nx c -> cspec nx (k_buf c) (grow cf nx fail c newsz hw).
Proof.
  intros cf nx fail c newsz hw [S1 S2] Hc. unfold grow. rewrite S1, S2. cbv zeta.
  destruct (k_ptr c) as [off|]; [destruct (off <? k_cap c)|].
  1: destruct (_ && _); [apply cspec_keep; auto|apply realloc_spec; exact Hc].
  all: destruct (if cf_null_ge cf then _ else _); [apply realloc_spec; exact Hc|apply cspec_keep; auto].
Qed.

(* nni_chunk_dup allocates for a message that has no body yet *)
Lemma cdup_spec : forall nx fail src, cspec nx None (cdup nx fail src).
Proof. intros nx fail src. exact (realloc_spec nx chunk0 (k_cap src) fail _ _ I). Qed.

(* a result re-dressed in pointer and length only *)
Lemma cspec_same : forall nx bf r r',
  cspec nx bf r ->
  match r, r' with
  | COk c e n, COk c' e' n' => k_buf c' = k_buf c /\ k_cap c' = k_cap c /\ e' = e /\ n' = n
  | CNomem, CNomem | CInval, CInval => True
  | _, _ => False
  end -> cspec nx bf r'.
Proof.
  intros nx bf [c e n| |] [c' e' n'| |] H S; try contradiction; try exact I.
  destruct S as (E1 & E2 & -> & ->). destruct H as [Hc H].
  split; [unfold chunk_ok; rewrite E1, E2; exact Hc|rewrite E1; exact H].
Qed.

Lemma cappend_spec : forall cf nx fail c n, sane cf -> chunk_ok nx c -> cspec nx (k_buf c) (cappend cf nx fail c n).
Proof.
  intros cf nx fail c n Hs Hc. unfold cappend. destruct (n =? 0); [apply cspec_keep; auto|].
  eapply cspec_same; [exact (grow_spec cf nx fail c (n + k_len c) 0 Hs Hc)|].
  destruct (grow cf nx fail c (n + k_len c) 0); repeat split.
Qed.

Lemma cinsert_spec : forall cf nx fail c n, sane cf -> chunk_ok nx c -> cspec nx (k_buf c) (cinsert cf nx fail c n).
Proof.
  intros cf nx fail c n Hs Hc. unfold cinsert.
  set (off := match k_ptr c with Some o => o | None => 0 end).
  set (c0 := mkChunk (k_buf c) (k_cap c) (Some off) (k_len c)).
  assert (GP : cspec nx (k_buf c)
     match grow cf nx fail c0 0 n with
     | COk c' evs nx' => COk (mkChunk (k_buf c') (k_cap c') (match k_ptr c' with Some o => Some (o - n) | None => None end) (k_len c' + n)) evs nx'
     | r => r end).
  { eapply cspec_same; [exact (grow_spec cf nx fail c0 0 n Hs Hc)|]. destruct (grow cf nx fail c0 0 n); repeat split. }
  destruct (off <? k_cap c); [|exact GP].
  destruct (n <=? off); [apply cspec_keep; auto|].
  destruct (k_len c + n + cf_pad cf <=? k_cap c); [apply cspec_keep; auto|exact GP].
Qed.

Lemma ctrim_spec : forall nx c n, chunk_ok nx c -> cspec nx (k_buf c) (ctrim c n nx).
Proof. intros. unfold ctrim. destruct (k_len c <? n); [exact I|apply cspec_keep; auto]. Qed.
Lemma cchop_spec : forall nx c n, chunk_ok nx c -> cspec nx (k_buf c) (cchop c n nx).
Proof. intros. unfold cchop. destruct (k_len c <? n); [exact I|apply cspec_keep; auto]. Qed.

Lemma cfree_blk : forall nx c, chunk_ok nx c -> cfree c = map (evp EF) (cblocks c).
Proof.
  intros nx c H. unfold cfree. destruct (k_cap c =? 0) eqn:E; [|eapply free_buf_blk; exact H].
  unfold chunk_ok, buf_ok in H. unfold cblocks. destruct (k_buf c) as [[b a]|]; [|reflexivity].
  apply N.eqb_eq in E. destruct H as [_ [H1 H2]]. congruence.
Qed.

Lemma give_blk : forall nx c, chunk_ok nx c -> give_buf c = map (evp EX) (cblocks c).
Proof.
  unfold chunk_ok, buf_ok, give_buf, cblocks. intros nx c H. destruct (k_buf c) as [[b a]|]; [|reflexivity].
  destruct H as [_ [H _]]. rewrite H. reflexivity.
Qed.

(* the books follow a chunk operation *)
Lemma cspec_moves : forall nx bf c' evs nx',
  cspec nx bf (COk c' evs nx') -> moves nx (blk bf) evs nx' (cblocks c') /\ chunk_ok nx' c'.
Proof.
  intros nx bf c' evs nx' [Hc [[E1 [E2 E3]]|[asz [E1 [E2 E3]]]]]; (split; [|exact Hc]);
    change (cblocks c') with (blk (k_buf c')); rewrite E2; subst.
  - apply moves_nil.
  - eapply (moves_seq _ _ [EA nx asz] _ ((nx, asz) :: blk bf)).
    + apply moves_alloc. reflexivity.
    + apply (moves_release EF (fun _ _ _ => eq_refl)), Permutation_cons_append.
Qed.

Lemma owned_put : forall cf l k o v, nth_error l k = Some o ->
  Permutation (owned cf l) (owned cf (put k None l) ++ oblocks cf o) /\
  Permutation (owned cf (put k None l) ++ oblocks cf v) (owned cf (put k v l)).
Proof.
  intros cf. induction l as [|x r IH]; intros k o v H; destruct k; simpl in *; try discriminate.
  - inversion H; subst. split; apply Permutation_app_comm.
  - destruct (IH k o v H) as [P1 P2]. rewrite <- !app_assoc. split; apply Permutation_app_head; assumption.
Qed.

Lemma Forall_put : forall A (P : A -> Prop) l k v, Forall P l -> P v -> Forall P (put k v l).
Proof.
  induction l as [|x r IH]; intros k v H Hv; destruct k; simpl; auto; inversion H; subst; constructor; auto.
Qed.

Lemma buf_ok_mono : forall nx nx' bf cp, (nx <= nx')%nat -> buf_ok nx bf cp -> buf_ok nx' bf cp.
Proof. unfold buf_ok. intros nx nx' [[b a]|] cp L H; [|exact I]. destruct H as [H1 H2]. split; [lia|exact H2]. Qed.

Lemma slot_ok_mono : forall nx nx' o, (nx <= nx')%nat -> slot_ok nx o -> slot_ok nx' o.
Proof.
  unfold slot_ok, chunk_ok. intros nx nx' [m|] L H; [|exact I]. destruct H as [H1 H2].
  split; [lia|eapply buf_ok_mono; eauto].
Qed.

Lemma slots_mono : forall nx nx' l, (nx <= nx')%nat -> Forall (slot_ok nx) l -> Forall (slot_ok nx') l.
Proof. intros nx nx' l L H. rewrite Forall_forall in *. intros x Hx. eapply slot_ok_mono; eauto. Qed.

Lemma get_ok : forall st k m, st_ok st -> get k (s_slots st) = Some m ->
  nth_error (s_slots st) k = Some (Some m) /\ slot_ok (s_next st) (Some m).
Proof.
  unfold get, st_ok. intros st k m Hok H. destruct (nth_error (s_slots st) k) as [[x|]|] eqn:E; try discriminate.
  inversion H; subst. split; [reflexivity|]. rewrite Forall_forall in Hok. apply Hok. eapply nth_error_In; exact E.
Qed.

(* the invariant of a history: the slots are well formed, and books that hold what the slots
   held accept the events and then hold what the slots hold now *)
Definition step_ok (cf : ccfg) (st : mstate) (evs : list aev) (st' : mstate) : Prop :=
  st_ok st' /\ moves (s_next st) (owned cf (s_slots st)) evs (s_next st') (owned cf (s_slots st')).

Lemma step_ok_refl : forall cf st, st_ok st -> step_ok cf st [] st.
Proof. intros cf st H. split; [exact H|apply moves_nil]. Qed.

(* the events concern slot k alone *)
Lemma slot_step : forall cf st k o v evs nx',
  st_ok st -> nth_error (s_slots st) k = Some o -> slot_ok nx' v ->
  moves (s_next st) (oblocks cf o) evs nx' (oblocks cf v) ->
  step_ok cf st evs (mkSt (put k v (s_slots st)) nx').
Proof.
  intros cf st k o v evs nx' Hok Hn Hv M. destruct (owned_put cf _ k o v Hn) as [P1 P2]. split.
  - apply Forall_put; [eapply slots_mono; [apply M|exact Hok]|exact Hv].
  - eapply moves_perm; [exact P1|exact P2|]. apply moves_frame. exact M.
Qed.

(* ... or no slot at all *)
Lemma idle_step : forall cf st evs nx',
  st_ok st -> moves (s_next st) [] evs nx' [] -> step_ok cf st evs (mkSt (s_slots st) nx').
Proof.
  intros cf st evs nx' Hok M. split; [eapply slots_mono; [apply M|exact Hok]|].
  apply (moves_frame (owned cf (s_slots st))) in M. rewrite app_nil_r in M. exact M.
Qed.

Lemma body_op_ok : forall cf st k f st' rv evs,
  (forall m nx, chunk_ok nx (g_body m) -> cspec nx (k_buf (g_body m)) (f m nx)) ->
  st_ok st -> body_op st k f = (st', rv, evs) -> step_ok cf st evs st'.
Proof.
  intros cf st k f st' rv evs Hf Hok H. unfold body_op in H.
  destruct (get k (s_slots st)) as [m|] eqn:G; [|inversion H; subst; apply step_ok_refl, Hok].
  destruct (get_ok _ _ _ Hok G) as [Hn [Hsb Hc]]. specialize (Hf m (s_next st) Hc).
  destruct (f m (s_next st)) as [c' ev nx'| |]; inversion H; subst; clear H; [|apply step_ok_refl, Hok ..].
  destruct (cspec_moves _ _ _ _ _ Hf) as [M C].
  apply (slot_step cf st k _ _ _ _ Hok Hn); [split; [pose proof (proj1 M); simpl; lia|exact C]|].
  exact (moves_frame [(g_sb m, cf_ssz cf)] _ _ _ _ _ M).
Qed.

Lemma hdr_op_ok : forall cf st k f st' rv evs,
  st_ok st -> hdr_op st k f = (st', rv, evs) -> step_ok cf st evs st'.
Proof.
  intros cf st k f st' rv evs Hok H. unfold hdr_op in H.
  destruct (get k (s_slots st)) as [m|] eqn:G; [|inversion H; subst; apply step_ok_refl, Hok].
  destruct (get_ok _ _ _ Hok G) as [Hn Hs].
  destruct (f (g_hlen m)) as [h|]; inversion H; subst; clear H; [|apply step_ok_refl, Hok].
  apply (slot_step cf st k _ _ _ _ Hok Hn); [exact Hs|apply moves_nil].
Qed.

Theorem mstep_ok : forall cf st o f st' rv evs,
  sane cf -> st_ok st -> mstep cf st o f = (st', rv, evs) -> step_ok cf st evs st'.
Proof.
  intros cf st o f st' rv evs Hs Hok H.
  assert (KEEP : forall r, (st, r, @nil aev) = (st', rv, evs) -> step_ok cf st evs st').
  { intros r E. inversion E; subst. apply step_ok_refl, Hok. }
  pose proof (fun K HK => moves_alloc K (s_next st) (cf_ssz cf) [] HK) as M0.
  destruct o; simpl in H; set (nx := s_next st) in *; set (sb := [(nx, cf_ssz cf)]) in *.
  - (* MAlloc: the struct, then the chunk grown and filled *)
    destruct (nth_error (s_slots st) k) as [[x|]|] eqn:Hn; try (eapply KEEP; exact H).
    destruct (fails f 0); [eapply KEEP; exact H|].
    set (r := if big_aligned cf sz then grow cf (S nx) (fails f 1) chunk0 sz 0
              else grow cf (S nx) (fails f 1) chunk0 (sz + cf_tail cf) (cf_head cf)) in *.
    assert (Gs : cspec (S nx) None r).
    { unfold r. destruct (big_aligned cf sz); apply (grow_spec cf (S nx) _ chunk0); (assumption || exact I). }
    destruct r as [c ev nx2| |]; [|inversion H; subst; apply idle_step; [exact Hok|apply alloc_free] ..].
    destruct (cspec_moves _ _ _ _ _ Gs) as [M1 C1]. apply (moves_frame sb) in M1.
    pose proof (cappend_spec cf nx2 false c sz Hs C1) as As.
    (* the failure of cappend is not reached; the model releases everything *)
    assert (REL : step_ok cf st (EA nx (cf_ssz cf) :: ev ++ cfree c ++ [EF nx (cf_ssz cf)])
                    {| s_slots := s_slots st; s_next := nx2 |}).
    { apply idle_step; [exact Hok|]. rewrite (cfree_blk _ _ C1).
      apply (moves_seq _ _ [EA nx (cf_ssz cf)] _ _ (ev ++ _) _ _ (M0 EA (fun _ _ _ => eq_refl))).
      apply (moves_seq _ _ _ _ _ _ _ _ M1). apply (moves_drop EF). reflexivity. }
    destruct (cappend cf nx2 false c sz) as [c' ev' nx3| |]; inversion H; subst; clear H; [|exact REL ..].
    destruct (cspec_moves _ _ _ _ _ As) as [M2 C2].
    apply (slot_step cf st k None _ _ _ Hok Hn); [split; [pose proof (proj1 M1); pose proof (proj1 M2); simpl; lia|exact C2]|].
    apply (moves_seq _ _ [EA nx (cf_ssz cf)] _ _ (ev ++ ev') _ _ (M0 EA (fun _ _ _ => eq_refl))).
    apply (moves_seq _ _ _ _ _ _ _ _ M1). exact (moves_frame sb _ _ _ _ _ M2).
  - eapply body_op_ok; [|exact Hok|exact H]. intros; apply cappend_spec; assumption.
  - eapply body_op_ok; [|exact Hok|exact H]. intros; apply cinsert_spec; assumption.
  - eapply body_op_ok; [|exact Hok|exact H]. intros; apply ctrim_spec; assumption.
  - eapply body_op_ok; [|exact Hok|exact H]. intros; apply cchop_spec; assumption.
  - eapply body_op_ok; [|exact Hok|exact H]. intros m nx0 Hc. simpl.
    destruct (k_len (g_body m) <? n); [apply cappend_spec; assumption|].
    pose proof (cchop_spec nx0 (g_body m) (k_len (g_body m) - n) Hc) as C.
    destruct (cchop (g_body m) (k_len (g_body m) - n) nx0); try exact C. apply cspec_keep; auto.
  - eapply body_op_ok; [|exact Hok|exact H]. intros; apply grow_spec; assumption.
  - eapply body_op_ok; [|exact Hok|exact H]. intros; apply cspec_keep; auto.
  - eapply hdr_op_ok; eassumption.
  - eapply hdr_op_ok; eassumption.
  - eapply hdr_op_ok; eassumption.
  - eapply hdr_op_ok; eassumption.
  - eapply hdr_op_ok; eassumption.
  - destruct (get k (s_slots st)) as [m|] eqn:G; [|eapply KEEP; exact H].
    destruct (nth_error (s_slots st) j) as [[x|]|] eqn:Hn; try (eapply KEEP; exact H).
    destruct (fails f 0); [eapply KEEP; exact H|].
    pose proof (cdup_spec (S nx) (fails f 1) (g_body m)) as Ds.
    destruct (cdup (S nx) (fails f 1) (g_body m)) as [c ev nx2| |]; inversion H; subst; clear H;
      [|apply idle_step; [exact Hok|apply alloc_free] ..].
    destruct (cspec_moves _ _ _ _ _ Ds) as [M1 C1].
    apply (slot_step cf st j None _ _ _ Hok Hn); [split; [pose proof (proj1 M1); simpl; lia|exact C1]|].
    apply (moves_seq _ _ [EA nx (cf_ssz cf)] _ _ ev _ _ (M0 EA (fun _ _ _ => eq_refl))).
    exact (moves_frame sb _ _ _ _ _ M1).
  - destruct (get k (s_slots st)) as [m|] eqn:G; [|eapply KEEP; exact H].
    inversion H; subst; clear H. destruct (get_ok _ _ _ Hok G) as [Hn [_ Hc]].
    rewrite (cfree_blk _ _ Hc). apply (slot_step cf st k _ None _ _ Hok Hn I). apply (moves_drop EF). reflexivity.
  - destruct (get k (s_slots st)) as [m|] eqn:G; [|eapply KEEP; exact H].
    inversion H; subst; clear H. destruct (get_ok _ _ _ Hok G) as [Hn [_ Hc]].
    rewrite (give_blk _ _ Hc). apply (slot_step cf st k _ None _ _ Hok Hn I). apply (moves_drop EX). reflexivity.
  - destruct (nth_error (s_slots st) k) as [[x|]|] eqn:Hn; try (eapply KEEP; exact H).
    destruct (asz =? 0) eqn:E; [eapply KEEP; exact H|]. apply N.eqb_neq in E.
    inversion H; subst; clear H.
    apply (slot_step cf st k None _ _ _ Hok Hn).
    + simpl. split; [lia|]. unfold chunk_ok, buf_ok; simpl. repeat split; [lia|exact E].
    + apply (moves_seq _ _ [EI nx (cf_ssz cf)] _ _ [EI (S nx) asz] _ _ (M0 EI (fun _ _ _ => eq_refl))).
      apply (moves_perm _ _ _ _ _ _ _ (Permutation_refl _) (perm_swap _ _ _)), moves_alloc. reflexivity.
Qed.

Theorem mrun_ok : forall cf ops st st' evs,
  sane cf -> st_ok st -> mrun cf st ops = (st', evs) -> step_ok cf st evs st'.
Proof.
  intros cf. induction ops as [|[o f] r IH]; simpl; intros st st' evs Hs Hok H.
  - inversion H; subst. apply step_ok_refl, Hok.
  - destruct (mstep cf st o f) as [[st1 rv] ev1] eqn:E1.
    destruct (mrun cf st1 r) as [st2 ev2] eqn:E2. inversion H; subst; clear H.
    destruct (mstep_ok _ _ _ _ _ _ _ Hs Hok E1) as [Hok1 M1].
    destruct (IH _ _ _ Hs Hok1 E2) as [Hok2 M2].
    split; [exact Hok2|eapply moves_seq; eassumption].
Qed.

Definition all_empty (st : mstate) : Prop := Forall (fun o => o = None) (s_slots st).

Lemma owned_empty : forall cf l, Forall (fun o => o = None) l -> owned cf l = [].
Proof. intros cf. induction l as [|o r IH]; intros H; [reflexivity|]. inversion H; subst. simpl. apply IH. assumption. Qed.

(* every event of every history is acceptable to the allocator's books (ids allocated once, every
   free names a live block with the size it was allocated with), and the books equal what the
   slots hold *)
Theorem chunk_events_sized : forall cf n ops st evs,
  sane cf -> mrun cf (ms_init n) ops = (st, evs) ->
  exists t, treplay [] evs = Some t /\ Permutation t (owned cf (s_slots st)).
Proof.
  intros cf n ops st evs Hs H.
  assert (E : Forall (fun o : option msg => o = None) (repeat None n)).
  { apply Forall_forall. intros x Hx. exact (repeat_spec _ _ _ Hx). }
  destruct (mrun_ok cf ops (ms_init n) st evs Hs) as [_ [_ M]]; [|exact H|].
  - eapply Forall_impl; [|exact E]. simpl. intros o Ho. subst. exact I.
  - simpl in M. rewrite (owned_empty cf _ E) in M.
    destruct (M [] [] (Permutation_refl _) (Forall_nil _)) as [t [R [P _]]].
    rewrite app_nil_r in P. exists t. split; assumption.
Qed.

(* ... and empty once every message has been freed (or taken by a send) *)
Theorem chunk_books_empty_after_free : forall cf n ops st evs,
  sane cf -> mrun cf (ms_init n) ops = (st, evs) -> all_empty st -> treplay [] evs = Some [].
Proof.
  intros cf n ops st evs Hs H E.
  destruct (chunk_events_sized cf n ops st evs Hs H) as [t [R P]].
  rewrite (owned_empty cf _ E) in P. apply Permutation_sym, Permutation_nil in P. subst. exact R.
Qed.

(* what "acceptable" means for a free: the books hold that id with exactly that size, and (ids being
   unique in the books) with no other size *)
Definition ids_unique (t : tab) : Prop := NoDup (map fst t).

Lemma has_id_in : forall b t, has_id b t = false -> ~ In b (map fst t).
Proof.
  unfold has_id. induction t as [|p r IH]; simpl; intros H; [tauto|].
  apply orb_false_iff in H. destruct H as [H1 H2]. apply Nat.eqb_neq in H1. intros [X|X]; [congruence|]. exact (IH H2 X).
Qed.

Lemma take_sub : forall b n t t', take b n t = Some t' -> forall x, In x (map fst t') -> In x (map fst t).
Proof.
  induction t as [|[b' n'] r IH]; simpl; intros t' H x Hx; [discriminate|].
  destruct (Nat.eqb b b' && (n =? n')).
  - inversion H; subst. now right.
  - destruct (take b n r) eqn:Et; [|discriminate]. inversion H; subst. simpl in Hx.
    destruct Hx as [Hx|Hx]; [now left|right; eapply IH; eauto].
Qed.

Lemma take_unique : forall b n t t', take b n t = Some t' -> ids_unique t -> ids_unique t'.
Proof.
  unfold ids_unique. induction t as [|[b' n'] r IH]; simpl; intros t' H U; [discriminate|].
  inversion U; subst.
  destruct (Nat.eqb b b' && (n =? n')).
  - inversion H; subst. assumption.
  - destruct (take b n r) eqn:Et; [|discriminate]. inversion H; subst. simpl. constructor.
    + intros X. apply H2. eapply take_sub; eauto.
    + eapply IH; eauto.
Qed.

Lemma tstep_unique : forall t e t', tstep t e = Some t' -> ids_unique t -> ids_unique t'.
Proof.
  intros t e t' H U. destruct e; simpl in H.
  1, 3: destruct (has_id b t) eqn:E; [discriminate|]; inversion H; subst; unfold ids_unique; simpl; constructor; [apply has_id_in; exact E|exact U].
  all: eapply take_unique; eauto.
Qed.

Theorem free_names_allocated_size : forall t b n t',
  ids_unique t -> tstep t (EF b n) = Some t' -> In (b, n) t /\ (forall n', In (b, n') t -> n' = n).
Proof.
  intros t b n t' U H. simpl in H. pose proof (take_sound _ _ _ _ H) as Hin. split; [exact Hin|].
  intros n' Hn'. unfold ids_unique in U. clear H t'.
  induction t as [|[b0 n0] r IH]; simpl in *; [contradiction|]. inversion U; subst.
  destruct Hin as [E|Hin]; destruct Hn' as [E'|Hn'].
  - congruence.
  - inversion E; subst. exfalso. apply H1. change b with (fst (b, n')). apply in_map. exact Hn'.
  - inversion E'; subst. exfalso. apply H1. change b with (fst (b, n)). apply in_map. exact Hin.
  - apply IH; assumption.
Qed.

(* the variant with the cap field overwritten before the free: refuted *)
(* the numbers are those of Gen/Consts.v (MSG_HEADROOM, MSG_HEADROOM2, MSG_BIG, C03_CHUNK_INSERT_PAD,
   C03_MSG_HEADER_BYTES); 248 stands for sizeof(struct nng_msg) *)
Definition cfg_of (early1 : bool) : ccfg := mkCfg early1 false true 32 32 1024 8 64 248.

(* nng_msg_alloc(&m, 16); nng_msg_append(m, buf, 300) *)
Example grow_events_source_order :
  snd (mrun (cfg_of false) (ms_init 1) [(MAlloc 0 16, None); (MAppend 0 300, None); (MFree 0, None)])
  = [EA 0 248; EA 1 80; EA 2 348; EF 1 80; EF 2 348; EF 0 248].
Proof. reflexivity. Qed.

(* the same calls: the block of 80 bytes is freed as 348 *)
Example grow_events_cap_first :
  snd (mrun (cfg_of true) (ms_init 1) [(MAlloc 0 16, None); (MAppend 0 300, None); (MFree 0, None)])
  = [EA 0 248; EA 1 80; EA 2 348; EF 1 348; EF 2 348; EF 0 248].
Proof. reflexivity. Qed.

Theorem chunk_events_sized_refuted_cap_first :
  exists ops st evs, mrun (cfg_of true) (ms_init 1) ops = (st, evs) /\ treplay [] evs = None.
Proof.
  exists [(MAlloc 0 16, None); (MAppend 0 300, None)]. eexists. eexists. split; reflexivity.
Qed.

(* not vacuous: a history with many events whose books are non-empty at the end (slot 1 still holds
   a message: its struct and the 9000 byte body); the last append is refused (allocation fails) *)
Example chunk_books_nonvacuous :
  let '(st, evs) := mrun (cfg_of false) (ms_init 2)
     [(MAlloc 0 4, None); (MInsert 0 100, None); (MDup 0 1, None); (MReserve 1 4096, None);
      (MAlloc 0 1, None); (MFree 0, None); (MRealloc 1 9000, None); (MAppend 1 8, Some 0%nat)] in
  evs = [EA 0 248; EA 1 68; EA 2 136; EF 1 68; EA 3 248; EA 4 136; EA 5 4096; EF 4 136; EF 2 136;
         EF 0 248; EA 6 9000; EF 5 4096] /\
  treplay [] evs = Some [(6%nat, 9000); (3%nat, 248)] /\ mobs st 1 = Some (9000, 0, 9000, 9000, 0).
Proof. vm_compute. repeat split. Qed.
