(* OwnPubSub: the ledger law of PUB, SUB and raw SUB
   (src/sp/protocol/pubsub0/pub.c, sub.c, xsub.c + the socket's upper read queue).

   PUB  (pub.c):  invariant PubInv and environment contract pub_op_ok of Proto/PubSubProofs3.v
                  (a pipe id is started once); the view clones the caller's message once per
                  pipe on sock->pipes, and pub0_sock_send frees the caller's reference.
   SUB  (sub.c):  invariant SInv and environment contract sub_op_ok of Proto/PubSubProofs.v
                  (a context id is opened once); with more than one context every taker gets
                  an nni_msg_dup and the original is freed, with one it gets the original.
   XSUB (xsub.c): no invariant and no contract needed. *)
From Coq Require Import List Arith NArith Bool Lia Permutation.
From NngV Require Import Proto.Common Proto.SubModel Proto.PubModel Proto.XsubModel
  Proto.PubSubProofs Proto.PubSubProofs3
  Ledger.Ledger Ledger.LedgerProofs Ledger.LawTac Ledger.Keyed Ledger.Views.
From NngV Require Base.ListX.
From NngV Require Import Ledger.LedgerThms.
Import ListNotations.

Lemma wsum_const_map {A} (G : key -> nat) (k : key) (l : list A) :
  wsum G (map (fun _ => k) l) = length l * G k.
Proof. induction l as [|x l IH]; [reflexivity|]. cbn [map length]. rewrite wsum_cons, IH. lia. Qed.
Lemma wsum_map_same {A} (G : A -> nat) (f : A -> A) l : (forall x, G (f x) = G x) -> wsum G (map f l) = wsum G l.
Proof. intros E. rewrite wsum_map. apply wsum_ext. intros x _. apply E. Qed.
Lemma o_tx_Free_app F l r : o_tx F (map Free l ++ r) = o_tx F r.
Proof. now rewrite o_tx_app, o_tx_Free. Qed.

Definition Fp (F : owner * key -> nat) : pmsg -> nat := fun m => F (OProto, body m).
(* where the equation of a law goal is decided: sums pushed through app, cons and map everywhere, then lia *)
Ltac sums_lia := try unfold Fp in *; gnorm; rewrite ?wsum_app, ?wsum_cons, ?wsum_nil, ?wsum_map in *; lia.

(* what one pipe stands for: its send queue, and the message on its aio_send *)
Definition pW (F : owner * key -> nat) (p : ppipe) : nat :=
  wsum (Fp F) (pp_q p) + wsum (fun m => F (OPipe (pp_id p), body m)) (opt_list (pp_tx p)).

Definition pub_tx (l : list ppipe) : list (pid * pmsg) :=
  flat_map (fun p => map (fun m => (pp_id p, m)) (opt_list (pp_tx p))) l.

Lemma pub_w_omega F s : w_omega F view_pub s = wsum (pW F) (pb_pipes s).
Proof.
  unfold w_omega. cbn [view_pub VPub.view v_held v_tx v_att]. rewrite wsum_nil.
  induction (pb_pipes s) as [|p l IH]; [reflexivity|].
  cbn [flat_map]. rewrite !wsum_app, wsum_cons, wsum_map. cbn [fst snd]. unfold pW, Fp in *. lia.
Qed.

Lemma wsum_upd_pipe (G : ppipe -> nat) id f l x :
  NoDup (map pp_id l) -> find_pipe id l = Some x ->
  wsum G (upd_pipe id f l) + G x = wsum G l + G (f x).
Proof. apply (wsum_upd_found pp_id N.eqb). intros a b. apply N.eqb_eq. Qed.
Lemma find_pipe_none id l : find_pipe id l = None -> ~ In id (map pp_id l).
Proof.
  unfold find_pipe. induction l as [|y l IH]; cbn [find map]; intros Fd; [intros []|].
  destruct (N.eqb_spec (pp_id y) id) as [E|E]; [discriminate|]. intros [Hi|Hi]; [contradiction|]. now apply IH.
Qed.
Lemma pub_tx_of_none s p : find_pipe p (pb_pipes s) = None -> tx_of p (v_tx view_pub s) = [].
Proof.
  intros Fd. change (v_tx view_pub s) with (pub_tx (pb_pipes s)). unfold pub_tx.
  rewrite tx_of_flat_map, (find_none_filter _ _ Fd). reflexivity.
Qed.
Lemma pub_tx_of_some s p x : NoDup (map pp_id (pb_pipes s)) -> find_pipe p (pb_pipes s) = Some x ->
  tx_of p (v_tx view_pub s) = opt_list (pp_tx x).
Proof.
  intros ND Fd. change (v_tx view_pub s) with (pub_tx (pb_pipes s)). unfold pub_tx.
  rewrite tx_of_flat_map, (filter_find_unique pp_id N.eqb (fun a b => proj1 (N.eqb_eq a b)) p _ x ND Fd). apply app_nil_r.
Qed.

(* the loop body of pub0_sock_send for one pipe: the clone it takes is queued, sent, or pushes the oldest out *)
Lemma pipe_send_sum F p m : pipe_ok p ->
  pW F p + (if pp_closed p then 0 else F (OProto, body m)) + o_tx F (snd (pipe_send p m))
  = pW F (fst (pipe_send p m)) + o_rel F (snd (pipe_send p m)).
Proof.
  intros (A & B & C & D). unfold pipe_send. destruct (pp_closed p) eqn:CL; [cbn; lia|].
  destruct (pp_busy p) eqn:BS.
  - destruct (pq_full p).
    + destruct (pp_q p) as [|old r] eqn:Q; cbn [fst snd o_tx o_rel]; unfold pW; simp_p; rewrite ?Q; unfold Fp; gnorm; lia.
    + cbn [fst snd o_tx o_rel]. unfold pW. simp_p. unfold Fp. gnorm. lia.
  - destruct (A eq_refl) as [Q T]. cbn [fst snd o_tx o_rel]. unfold pW. simp_p. rewrite Q, T. cbn [opt_list]. unfold Fp. gnorm. lia.
Qed.
Lemma pipe_send_quiet p m : no_send_done (snd (pipe_send p m)) = true.
Proof.
  unfold pipe_send. destruct (pp_closed p); [reflexivity|]. destruct (pp_busy p); [|reflexivity].
  destruct (pq_full p); [|reflexivity]. destruct (pp_q p); reflexivity.
Qed.
Lemma no_send_done_app a b : no_send_done a = true -> no_send_done b = true -> no_send_done (a ++ b) = true.
Proof.
  induction a as [|x a IH]; intros Ha Hb; [exact Hb|]. cbn [app no_send_done] in *.
  destruct x; auto. destruct m; auto.
Qed.
Lemma fanout_quiet l m : no_send_done (flat_map snd (map (fun p => pipe_send p m) l)) = true.
Proof.
  induction l as [|p l IH]; [reflexivity|]. cbn [map flat_map]. apply no_send_done_app; [apply pipe_send_quiet|exact IH].
Qed.
Lemma fanout_sum F l m : Forall pipe_ok l ->
  wsum (pW F) l
    + wsum (fun k => F (OProto, k)) (map (fun _ => body m) (filter (fun p => negb (pp_closed p)) l))
    + o_tx F (flat_map snd (map (fun p => pipe_send p m) l))
  = wsum (pW F) (map fst (map (fun p => pipe_send p m) l))
    + o_rel F (flat_map snd (map (fun p => pipe_send p m) l)).
Proof.
  induction l as [|p l IH]; intros Hf; [reflexivity|]. inversion Hf as [|? ? Hp Hl]; subst.
  specialize (IH Hl). pose proof (pipe_send_sum F p m Hp) as P.
  cbn [map flat_map filter]. rewrite o_tx_app, o_rel_app, !wsum_cons.
  destruct (pp_closed p); cbn [negb map]; rewrite ?wsum_cons; lia.
Qed.
(* pub0_sock_set_sendbuf: nni_lmq_resize of every open pipe's queue *)
Lemma resize_sum F n l :
  wsum (pW F) l
  = wsum (pW F) (map (fun p => if pp_closed p then p
                               else mkPpipe (pp_id p) false (pp_busy p) (firstn n (pp_q p)) n (pp_tx p)) l)
    + wsum (Fp F) (flat_map (fun p => if pp_closed p then [] else skipn n (pp_q p)) l).
Proof.
  induction l as [|p l IH]; [reflexivity|]. cbn [map flat_map]. rewrite wsum_app, !wsum_cons, IH.
  destruct (pp_closed p); [rewrite wsum_nil; lia|].
  unfold pW. simp_p. rewrite (wsum_firstn_skipn (Fp F) n (pp_q p)). lia.
Qed.

Lemma pub_law_sum s o s' outs : PubInv s -> pub_step s o = (s', outs) -> law_sum view_pub s o s' outs.
Proof.
  intros (I1 & I2 & I3) H.
  destruct o as [k a nb m|k a nb|a rv|p peer|p|p rv|p rv m|k op|k|k| |now]; cbn [pub_step] in H.
  2-12: apply law_sum_quiet; [reflexivity|intros; discriminate|reflexivity|reflexivity|reflexivity|intros F];
    rewrite !pub_w_omega; cbn [op_add op_del v_rx view_pub VPub.view]; unfold no_rx.
  - (* PSend: one clone per pipe on sock->pipes, the caller's reference is freed *)
    intros F. cbv zeta. change (v_extra view_pub s (PSend k a nb m) outs) with (@nil pmsg).
    change (v_dups view_pub s (PSend k a nb m)) with (@nil key). cbn [map]. rewrite !app_nil_r, !pub_w_omega.
    injection H as <- <-. simp_p. cbn [view_pub VPub.view v_clones VPub.clones].
    destruct (s_quiet view_pub F s (PSend k a nb m) (flat_map snd (map (fun p => pipe_send p m) (pb_pipes s)))
                (fanout_quiet _ m)) as [A B].
    rewrite s_take_app, s_del_app, A, B. cbn [s_take s_del op_add op_del]. rewrite !send_key_self.
    change (E_OK =? 0)%N with true. cbn iota.
    rewrite o_tx_app, o_rel_app. cbn [o_tx o_rel].
    pose proof (fanout_sum F (pb_pipes s) m I1) as L. unfold Fp in *. sums_lia.
  - injection H as <- <-. cbn. sums_lia.
  - injection H as <- <-. cbn. sums_lia.
  - destruct (negb (peer =? PROTO_SUB)%N); injection H as <- <-; simp_p; cbn [op_add op_del o_tx o_rel]; gnorm.
    + sums_lia.
    + unfold pW. simp_p. cbn [opt_list]. sums_lia.
  - destruct (find_pipe p (pb_pipes s)) as [x|] eqn:Fd; injection H as <- <-; simp_p; gnorm; [|cbn; sums_lia].
    pose proof (wsum_upd_pipe (pW F) p (fun x => mkPpipe (pp_id x) true (pp_busy x) [] (pp_cap x) (pp_tx x)) _ x I2 Fd) as U.
    cbn beta in U. unfold pW in *. simp_p. unfold Fp in *. sums_lia.
  - destruct (find_pipe p (pb_pipes s)) as [x|] eqn:Fd.
    2: { rewrite (pub_tx_of_none s p Fd). injection H as <- <-. destruct (rv =? 0)%N; cbn; sums_lia. }
    rewrite (pub_tx_of_some s p x I2 Fd).
    pose proof (find_pipe_some _ _ _ Fd) as [Fin Fid].
    destruct (N.eqb_spec rv 0) as [->|Hrv]; cbn [negb] in H.
    + destruct (pp_closed x) eqn:CL.
      * injection H as <- <-. simp_p.
        pose proof (wsum_upd_pipe (pW F) p (fun x => mkPpipe (pp_id x) true (pp_busy x) (pp_q x) (pp_cap x) None) _ x I2 Fd) as U.
        cbn beta in U. unfold pW in *. simp_p. cbn [opt_list o_tx o_rel] in *. gnorm. subst p. sums_lia.
      * destruct (pp_q x) as [|m r] eqn:Q; injection H as <- <-; simp_p.
        -- pose proof (wsum_upd_pipe (pW F) p (fun x => mkPpipe (pp_id x) false false [] (pp_cap x) None) _ x I2 Fd) as U.
           cbn beta in U. unfold pW in *. simp_p. rewrite Q in U. cbn [opt_list o_tx o_rel] in *. gnorm. subst p. sums_lia.
        -- pose proof (wsum_upd_pipe (pW F) p (fun x => mkPpipe (pp_id x) false true r (pp_cap x) (Some m)) _ x I2 Fd) as U.
           cbn beta in U. unfold pW in *. simp_p. rewrite Q in U. cbn [opt_list o_tx o_rel] in *. unfold Fp in *. gnorm. subst p. sums_lia.
    + injection H as <- <-. simp_p.
      pose proof (wsum_upd_pipe (pW F) p (fun x => mkPpipe (pp_id x) (pp_closed x) (pp_busy x) (pp_q x) (pp_cap x) None) _ x I2 Fd) as U.
      cbn beta in U. unfold pW in *. simp_p. subst p.
      destruct (pp_tx x) as [m|]; cbn [opt_list app o_tx o_rel] in *; sums_lia.
  - (* PRecvDone: a publisher expects no data *)
    injection H as <- <-. cbn [op_add op_del]. gnorm.
    destruct (rv =? 0)%N; cbn [app o_tx o_rel]; sums_lia.
  - destruct k; [injection H as <- <-; cbn; sums_lia|]. destruct op; try (injection H as <- <-; cbn; sums_lia).
    + destruct (_ || _); injection H as <- <-; simp_p; [cbn; sums_lia|].
      rewrite o_tx_app, o_rel_app, o_tx_Free, o_rel_Free. cbn [o_tx o_rel].
      pose proof (resize_sum F n (pb_pipes s)) as R. unfold Fp in *. sums_lia.
    + destruct (_ <? _)%N; injection H as <- <-; cbn; sums_lia.
  - injection H as <- <-. cbn. sums_lia.
  - injection H as <- <-. cbn. sums_lia.
  - injection H as <- <-. cbn. sums_lia.
  - injection H as <- <-. cbn. sums_lia.
Qed.

Lemma pub_clones_held s o s' outs : pub_step s o = (s', outs) -> clones_held view_pub s o outs.
Proof.
  intros H. apply clones_held_intro. intros k Hk.
  destruct o as [c a nb m|c a nb|a rv|p peer|p|p rv|p rv m|c op|c|c| |now];
    cbn [view_pub VPub.view v_clones VPub.clones] in Hk; try (destruct Hk; fail).
  apply in_map_iff in Hk. destruct Hk as [p [<- _]].
  right. left. exists a. split; [|apply send_key_self].
  cbn [pub_step] in H. injection H as <- <-. apply in_or_app. right. right. left. reflexivity.
Qed.

Theorem pub_proto_law : proto_law view_pub pub_step PubInv pub_op_ok.
Proof.
  intros s o s' outs HI Hok H. split; [exact (pub_step_inv s o s' outs HI Hok H)|]. split.
  - apply law_sum_eq, pub_law_sum; assumption.
  - eapply pub_clones_held; eassumption.
Qed.

(* a history that satisfies the contract: two pipes start, three sends fan out (direct, queued),
   transport completions (success, then failure), a received message, a receive attempt,
   an option change, a pipe close, the socket close *)
Example pub_ok_nonvacuous :
  ops_ok pub_step pub_op_ok pub_init
    [PPipeStart 1 PROTO_SUB; PPipeStart 2 PROTO_SUB;
     PSend None 10 false (mkPmsg [] [1%N]); PSend None 11 true (mkPmsg [] [2%N]); PSend None 10 false (mkPmsg [] [3%N]);
     PSendDone 1 0; PSetOpt None (OSendBuf 1); PSendDone 1 0; PSendDone 2 E_CLOSED;
     PRecvDone 1 0 (mkPmsg [] [9%N]); PRecv None 12 false; PPipeClose 2; PPipeClose 1; PSockClose].
Proof. vm_compute. intuition discriminate. Qed.

(* what one context stands for: its receive buffer *)
Definition cW (F : owner * key -> nat) (c : sctx) : nat := wsum (Fp F) (sc_lmq c).

Lemma sub_w_omega F s : w_omega F view_sub s = wsum (cW F) (sb_ctxs s).
Proof.
  unfold w_omega. cbn [view_sub VSub.view v_held v_tx v_att]. rewrite !wsum_nil, wsum_flat_map.
  unfold cW, Fp. lia.
Qed.

Lemma wsum_upd_ctx (G : sctx -> nat) k f cs c :
  NoDup (map sc_id cs) -> find_ctx k cs = Some c ->
  wsum G (upd_ctx k f cs) + G c = wsum G cs + G (f c).
Proof. apply (wsum_upd_found sc_id cid_eqb). intros a b. apply cid_eqb_eq. Qed.
Lemma wsum_filter_ctx (G : sctx -> nat) k cs c :
  NoDup (map sc_id cs) -> find_ctx k cs = Some c ->
  wsum G cs = G c + wsum G (filter (fun c => negb (cid_eqb (sc_id c) k)) cs).
Proof. apply (wsum_del_found sc_id cid_eqb). intros a b. apply cid_eqb_eq. Qed.

(* the loop body of sub0_recv_cb for one context *)
Lemma ctx_arrive_sum F c m :
  cW F c + (if ctx_accepts c m then F (OProto, body m) else 0)
  = cW F (ctx_after c m) + wsum (Fp F) (ctx_dropped c m) + o_rel F (ctx_compl c m).
Proof.
  unfold ctx_after, ctx_dropped, ctx_compl. destruct (ctx_accepts c m); [|cbn; gnorm; lia].
  destruct (sc_rq c) as [|a rest].
  - destruct (lmq_full c).
    + destruct (sc_lmq c) as [|old r] eqn:Q; unfold cW; simp_c; rewrite ?Q; cbn [o_rel]; unfold Fp; gnorm; lia.
    + unfold cW; simp_c; cbn [o_rel]; unfold Fp; gnorm; lia.
  - unfold cW. simp_c. cbn [o_rel]. change (E_OK =? 0)%N with true. cbn iota. gnorm. lia.
Qed.
Lemma ctx_compl_tx F c m : o_tx F (ctx_compl c m) = 0.
Proof. unfold ctx_compl. destruct (ctx_accepts c m); [|reflexivity]. destruct (sc_rq c); reflexivity. Qed.
Lemma compl_tx F cs m : o_tx F (flat_map (fun c => ctx_compl c m) cs) = 0.
Proof. induction cs as [|c l IH]; [reflexivity|]. cbn [flat_map]. now rewrite o_tx_app, ctx_compl_tx, IH. Qed.
Lemma arrive_sum F cs m :
  wsum (cW F) cs + naccept cs m * F (OProto, body m)
  = wsum (cW F) (map (fun c => ctx_after c m) cs)
    + wsum (Fp F) (flat_map (fun c => ctx_dropped c m) cs)
    + o_rel F (flat_map (fun c => ctx_compl c m) cs).
Proof.
  unfold naccept. induction cs as [|c l IH]; [reflexivity|].
  pose proof (ctx_arrive_sum F c m) as P.
  cbn [map flat_map filter]. rewrite o_rel_app, wsum_app, !wsum_cons.
  destruct (ctx_accepts c m); cbn [length]; lia.
Qed.

Ltac unfold_cW := cbn beta in *; unfold cW in *; simp_c.

Lemma sub_law_sum fixed s o s' outs : SInv s -> sub_step fixed s o = (s', outs) -> law_sum view_sub s o s' outs.
Proof.
  intros (I1 & I2 & I3) H.
  destruct o as [k a nb m|k a nb|a rv|p peer|p|p rv|p rv m|k op|k|k| |now]; cbn [sub_step] in H.
  1: { (* PSend: not supported, the message stays the caller's *)
    injection H as <- <-. apply law_sum_plain; try reflexivity. intros F.
    cbn [s_take s_del op_add op_del o_tx o_rel]. rewrite !send_key_self.
    change (E_NOTSUP =? 0)%N with false. cbn iota. lia. }
  6: { (* PRecvDone: sub0_recv_cb; with more than one context every taker gets a duplicate *)
    intros F. cbv zeta. change (v_extra view_sub s (PRecvDone p rv m) outs) with (@nil pmsg).
    change (v_clones view_sub s (PRecvDone p rv m)) with (@nil key). cbn [map app]. rewrite !app_nil_r, !sub_w_omega.
    destruct (s_none view_sub F s (PRecvDone p rv m) outs eq_refl ltac:(intros; discriminate)) as [A0 B0]. rewrite A0, B0.
    cbn [op_add op_del view_sub VSub.view v_dups v_rx VSub.dups]. unfold no_rx.
    destruct (N.eqb_spec rv 0) as [->|Hrv]; cbn [negb andb] in *.
    2: { injection H as <- <-. cbn. sums_lia. }
    injection H as <- <-. simp_s.
    rewrite !o_tx_app, !o_rel_app, o_tx_Free, o_rel_Free, compl_tx. cbn [o_tx o_rel].
    pose proof (arrive_sum F (sb_ctxs s) m) as A.
    pose proof (ListX.filter_len_le (fun c => ctx_accepts c m) (sb_ctxs s)) as Hle. fold (naccept (sb_ctxs s) m) in Hle.
    destruct (1 <? length (sb_ctxs s)) eqn:L1; cbn [orb].
    + rewrite wsum_const_map. fold (naccept (sb_ctxs s) m). cbn [o_tx o_rel]. unfold Fp in *. sums_lia.
    + apply Nat.ltb_ge in L1. destruct (Nat.eqb_spec (naccept (sb_ctxs s) m) 0) as [N0|N0].
      * rewrite N0 in A. cbn [o_tx o_rel]. unfold Fp in *. sums_lia.
      * assert (N1 : naccept (sb_ctxs s) m = 1) by sums_lia. rewrite N1 in A. cbn [o_tx o_rel]. unfold Fp in *. sums_lia. }
  all: apply law_sum_quiet; [reflexivity|intros; discriminate|reflexivity|reflexivity|reflexivity|intros F];
    rewrite !sub_w_omega; cbn [op_add op_del].
  - destruct (find_ctx k (sb_ctxs s)) as [c|] eqn:Fd; [|injection H as <- <-; cbn; sums_lia].
    destruct (sc_lmq c) as [|m rest] eqn:Q.
    + destruct nb; injection H as <- <-; simp_s; cbn [o_tx o_rel]; [sums_lia|].
      pose proof (wsum_upd_ctx (cW F) k (fun c => set_rq c (sc_rq c ++ [a])) _ c I2 Fd) as U. unfold_cW. sums_lia.
    + injection H as <- <-; simp_s. cbn [o_tx o_rel]. change (E_OK =? 0)%N with true. cbn iota.
      pose proof (wsum_upd_ctx (cW F) k (fun c => set_lmq c rest) _ c I2 Fd) as U. unfold_cW. rewrite Q in U. unfold Fp in *. sums_lia.
  - destruct (existsb _ _); injection H as <- <-; simp_s; cbn [o_tx o_rel]; [|sums_lia].
    rewrite (wsum_map_same (cW F)) by reflexivity. sums_lia.
  - destruct (negb _); injection H as <- <-; cbn; sums_lia.
  - injection H as <- <-. cbn. sums_lia.
  - injection H as <- <-. cbn. gnorm. destruct (rv =? 0)%N; sums_lia.
  - destruct (find_ctx k (sb_ctxs s)) as [c|] eqn:Fd; [|injection H as <- <-; cbn; sums_lia].
    destruct op.
    + destruct k; [|destruct (_ <? _)%N]; injection H as <- <-; cbn; sums_lia.
    + destruct (_ || _); injection H as <- <-; simp_s; [cbn; sums_lia|].
      rewrite o_tx_app, o_rel_app, o_tx_Free, o_rel_Free. cbn [o_tx o_rel].
      pose proof (wsum_upd_ctx (cW F) k (fun c => mkSctx (sc_id c) (sc_topics c) (firstn n (sc_lmq c)) n (sc_rq c) (sc_prefnew c)) _ c I2 Fd) as U.
      unfold_cW. rewrite (wsum_firstn_skipn (Fp F) n (sc_lmq c)) in U. sums_lia.
    + injection H as <- <-; cbn; sums_lia.
    + injection H as <- <-; cbn; sums_lia.
    + injection H as <- <-; cbn; sums_lia.
    + injection H as <- <-; cbn; sums_lia.
    + injection H as <- <-; simp_s. cbn [o_tx o_rel].
      pose proof (wsum_upd_ctx (cW F) k (fun c => mkSctx (sc_id c) (sc_topics c) (sc_lmq c) (sc_cap c) (sc_rq c) b) _ c I2 Fd) as U.
      unfold_cW. sums_lia.
    + destruct (has_topic t (sc_topics c)); injection H as <- <-; simp_s; cbn [o_tx o_rel]; [sums_lia|].
      pose proof (wsum_upd_ctx (cW F) k (fun c => set_topics c (sc_topics c ++ [t])) _ c I2 Fd) as U. unfold_cW. sums_lia.
    + destruct (negb (has_topic t (sc_topics c))); injection H as <- <-; simp_s; [cbn; sums_lia|].
      rewrite o_tx_app, o_rel_app, o_tx_Free, o_rel_Free. cbn [o_tx o_rel].
      pose proof (wsum_upd_ctx (cW F) k
                    (fun c0 => set_lmq (set_topics c0 (remove_topic t (sc_topics c)))
                                 (filter (fun m => sub0_matches (remove_topic t (sc_topics c)) (pm_body m)) (sc_lmq c)))
                    _ c I2 Fd) as U.
      unfold_cW. rewrite (wsum_filter_split (Fp F) (fun m => sub0_matches (remove_topic t (sc_topics c)) (pm_body m)) (sc_lmq c)) in U.
      sums_lia.
  - injection H as <- <-. simp_s. cbn [op_add op_del o_tx o_rel]. gnorm.
    unfold_cW. sums_lia.
  - destruct (find_ctx (Some k) (sb_ctxs s)) as [c|] eqn:Fd; injection H as <- <-; simp_s; [|cbn; sums_lia].
    rewrite o_tx_app, o_rel_app, o_tx_Free, o_rel_Free, o_tx_fail, o_rel_fail.
    rewrite (wsum_filter_ctx (cW F) (Some k) _ c I2 Fd). unfold cW at 1. sums_lia.
  - destruct (find_ctx None (sb_ctxs s)) as [c|] eqn:Fd; injection H as <- <-; simp_s; [|cbn; sums_lia].
    rewrite o_tx_app, o_rel_app, o_tx_Free, o_rel_Free, o_tx_fail, o_rel_fail.
    pose proof (wsum_upd_ctx (cW F) None (fun c => set_lmq (set_rq c []) []) _ c I2 Fd) as U. unfold_cW. sums_lia.
  - injection H as <- <-. cbn. sums_lia.
Qed.

Theorem sub_proto_law : forall fixed, proto_law view_sub (sub_step fixed) SInv sub_op_ok.
Proof.
  intros fixed s o s' outs HI Hok H. split; [exact (sub_step_inv fixed s o s' outs HI Hok H)|]. split.
  - apply law_sum_eq. eapply sub_law_sum; eassumption.
  - apply clones_held_none. reflexivity.
Qed.

(* a history that satisfies the contract: subscriptions, a pipe, a waiting receiver served by an
   arrival, a second context (so arrivals are duplicated), buffered arrivals, receives, a refused
   send, option changes (resize, unsubscribe), a cancel, context close and socket close *)
Example sub_ok_nonvacuous : forall fixed,
  ops_ok (sub_step fixed) sub_op_ok sub_init
    [PSetOpt None (OSub [1%N]); PPipeStart 1 PROTO_PUB; PRecv None 10 false;
     PRecvDone 1 0 (mkPmsg [] [1%N; 2%N]); PCtxOpen 5; PSetOpt (Some 5%N) (OSub []);
     PRecvDone 1 0 (mkPmsg [] [1%N; 3%N]); PRecvDone 1 0 (mkPmsg [] [1%N; 4%N]); PRecvDone 1 0 (mkPmsg [] [7%N]);
     PRecv (Some 5%N) 11 true; PSend None 12 false (mkPmsg [] [8%N]);
     PSetOpt None (ORecvBuf 1); PSetOpt (Some 5%N) (OUnsub []); PRecv (Some 5%N) 13 false; PCancel 13 E_CANCELED;
     PCtxClose 5; PPipeClose 1; PSockClose].
Proof. intros []; vm_compute; intuition discriminate. Qed.

Lemma xsub_w_omega F s : w_omega F view_xsub s = wsum (Fp F) (xs_q s).
Proof. unfold w_omega. cbn [view_xsub VXsub.view v_held v_tx v_att]. rewrite !wsum_nil. unfold Fp. lia. Qed.

(* nni_msgq_run_getq: every message that leaves the queue is handed to a reader *)
Lemma run_getq_sum F : forall q rq q2 rq2 outs, run_getq q rq = (q2, rq2, outs) ->
  wsum (Fp F) q = wsum (Fp F) q2 + o_rel F outs /\ o_tx F outs = 0.
Proof.
  induction q as [|m q IH]; intros rq q2 rq2 outs H; cbn [run_getq] in H.
  - injection H as <- <- <-. cbn. split; lia.
  - destruct rq as [|a rq]; [injection H as <- <- <-; cbn; split; lia|].
    destruct (run_getq q rq) as [[q3 rq3] o3] eqn:E. injection H as <- <- <-.
    destruct (IH _ _ _ _ E) as [A B]. cbn [o_tx o_rel]. change (E_OK =? 0)%N with true. cbn iota.
    rewrite wsum_cons. unfold Fp at 1. split; lia.
Qed.

Lemma xsub_law_sum mf rf s o s' outs : xsub_step mf rf s o = (s', outs) -> law_sum view_xsub s o s' outs.
Proof.
  intros H.
  destruct o as [k a nb m|k a nb|a rv|p peer|p|p rv|p rv m|k op|k|k| |now]; cbn [xsub_step] in H.
  2-12: apply law_sum_quiet; [reflexivity|intros; discriminate|reflexivity|reflexivity|reflexivity|intros F];
    rewrite !xsub_w_omega; cbn [op_add op_del v_rx view_xsub VXsub.view]; unfold no_rx.
  - (* PSend: not supported, the message stays the caller's *)
    injection H as <- <-. apply law_sum_plain; try reflexivity. intros F.
    cbn [s_take s_del op_add op_del o_tx o_rel]. rewrite !send_key_self.
    change (E_NOTSUP =? 0)%N with false. cbn iota. lia.
  - (* PRecv: nni_msgq_aio_get *)
    destruct (nb && _); [injection H as <- <-; cbn; sums_lia|].
    destruct (run_getq (xs_q s) (xs_rq s ++ [a])) as [[q2 rq2] o2] eqn:E. injection H as <- <-. simp_x.
    destruct (run_getq_sum F _ _ _ _ _ E) as [A B]. sums_lia.
  - cbn [op_add op_del]. destruct (has_id a (xs_rq s)); injection H as <- <-; simp_x; cbn; sums_lia.
  - destruct (negb _); injection H as <- <-; cbn; sums_lia.
  - injection H as <- <-. cbn. sums_lia.
  - injection H as <- <-. cbn. gnorm. destruct (rv =? 0)%N; sums_lia.
  - (* PRecvDone: nni_msgq_tryput *)
    destruct (N.eqb_spec rv 0) as [->|Hrv]; cbn [negb] in H; [|injection H as <- <-; cbn; sums_lia].
    destruct (xs_closed s); [injection H as <- <-; cbn; sums_lia|].
    destruct (xs_rq s) as [|a rest].
    + destruct (length (xs_q s) <? xs_cap s); injection H as <- <-; simp_x; cbn [o_tx o_rel]; unfold Fp; sums_lia.
    + injection H as <- <-; simp_x. cbn [o_tx o_rel]. change (E_OK =? 0)%N with true. cbn iota. sums_lia.
  - destruct k; [injection H as <- <-; cbn; sums_lia|]. destruct op; try (injection H as <- <-; cbn; sums_lia).
    + destruct (_ <? _)%N; injection H as <- <-; cbn; sums_lia.
    + (* nni_msgq_resize *)
      destruct (_ <? _)%N; [injection H as <- <-; cbn; sums_lia|].
      pose proof (wsum_firstn_skipn (Fp F) (length (xs_q s) - (n + 1)) (xs_q s)) as S.
      destruct rf.
      * destruct (run_getq (skipn (length (xs_q s) - (n + 1)) (xs_q s)) (xs_rq s)) as [[q2 rq2] o2] eqn:E.
        injection H as <- <-. simp_x. destruct (run_getq_sum F _ _ _ _ _ E) as [A B].
        rewrite !o_tx_app, !o_rel_app, o_tx_Free, o_rel_Free. cbn [o_tx o_rel]. unfold Fp in *. sums_lia.
      * injection H as <- <-. simp_x.
        rewrite !o_tx_app, !o_rel_app, o_tx_Free, o_rel_Free. cbn [o_tx o_rel]. unfold Fp in *. sums_lia.
  - injection H as <- <-. cbn. sums_lia.
  - injection H as <- <-. cbn. sums_lia.
  - (* PSockClose: nni_msgq_close *)
    injection H as <- <-. simp_x. cbn [op_add op_del].
    rewrite !o_tx_app, !o_rel_app, o_tx_Free, o_rel_Free, o_tx_fail, o_rel_fail. unfold Fp. sums_lia.
  - injection H as <- <-. cbn. sums_lia.
Qed.

Definition XsubInv (s : xsub) : Prop := True.
Definition xsub_op_ok (s : xsub) (o : pop) : Prop := True.

Theorem xsub_proto_law : forall mq_fixed rs_fixed,
  proto_law view_xsub (xsub_step mq_fixed rs_fixed) XsubInv xsub_op_ok.
Proof.
  intros mf rf s o s' outs _ _ H. split; [exact I|]. split.
  - apply law_sum_eq. eapply xsub_law_sum; eassumption.
  - apply clones_held_none. reflexivity.
Qed.

Lemma xsub_inv_init : XsubInv xsub_init.
Proof. exact I. Qed.

(* the contract is empty: every history satisfies it; one with a pipe, a waiting reader served,
   buffered and discarded arrivals, receives, a refused send, a resize, a cancel and the close *)
Example xsub_ok_nonvacuous : forall mq_fixed rs_fixed,
  ops_ok (xsub_step mq_fixed rs_fixed) xsub_op_ok xsub_init
    [PPipeStart 1 PROTO_PUB; PRecv None 10 false; PRecvDone 1 0 (mkPmsg [] [1%N]);
     PRecvDone 1 0 (mkPmsg [] [2%N]); PRecvDone 1 0 (mkPmsg [] [3%N]); PSetOpt None (ORecvBuf 4);
     PRecvDone 1 0 (mkPmsg [] [4%N]); PRecv None 11 true; PSend None 12 false (mkPmsg [] [5%N]);
     PSetOpt None (ORecvBuf 0); PRecv None 13 false; PRecv None 14 false; PCancel 14 E_CANCELED;
     PPipeClose 1; PSockClose].
Proof. intros mf rf. cbn [ops_ok]. unfold xsub_op_ok. tauto. Qed.

Print Assumptions pub_proto_law.
Print Assumptions sub_proto_law.
Print Assumptions xsub_proto_law.

(* after close the protocol owns nothing *)

(* the socket core's close sequence as pub.c sees it: every pipe the state knows gets its
   pipe_close (the pipe stays in pb_pipes, flagged closed, and keeps the message on its aio_send),
   the transport send still in flight on it fails (PSendDone p E_CLOSED), then the socket's close *)
Definition pub_close_script (s : pub) : list pop :=
  flat_map (fun p => PPipeClose (pp_id p)
                     :: match pp_tx p with Some _ => [PSendDone (pp_id p) E_CLOSED] | None => [] end)
           (pb_pipes s)
  ++ [PSockClose].

Definition pub_closing (o : pop) : Prop :=
  match o with PPipeClose _ | PSockClose => True | PSendDone _ rv => rv = E_CLOSED | _ => False end.
(* pipe i has a message on its aio_send *)
Definition txp (s : pub) (i : pid) : Prop := exists p, In p (pb_pipes s) /\ pp_id p = i /\ pp_tx p <> None.

Lemma pub_closing_ok ops : Forall pub_closing ops -> forall s, ops_ok pub_step pub_op_ok s ops.
Proof.
  induction 1 as [|o ops Ho _ IH]; intros s; cbn [ops_ok]; [exact I|]. split; [|apply IH].
  destruct o; cbn [pub_closing pub_op_ok] in *; try exact I; contradiction.
Qed.
Lemma in_upd_pipe id f l p' : In p' (upd_pipe id f l) ->
  exists p, In p l /\ ((pp_id p <> id /\ p' = p) \/ (pp_id p = id /\ p' = f p)).
Proof.
  unfold upd_pipe. intros H. apply in_map_iff in H as (p & E & Hin). exists p. split; [exact Hin|].
  destruct (N.eqb_spec (pp_id p) id); [right|left]; auto.
Qed.
(* a closing step puts no message on any aio_send, and the failing completion takes it off *)
Lemma pub_closing_step s o i : pub_closing o -> txp (fst (pub_step s o)) i -> txp s i /\ o <> PSendDone i E_CLOSED.
Proof.
  intros Hc (p' & Hin & Hid & Htx).
  destruct o as [k a nb m|k a nb|a rv|p peer|p|p rv|p rv m|k op|k|k| |now]; cbn [pub_closing] in Hc; try contradiction;
    cbn [pub_step] in Hin.
  - destruct (find_pipe p (pb_pipes s)); cbn [fst pb_pipes] in Hin.
    + apply in_upd_pipe in Hin as (q & Hq & [[_ ->]|[_ ->]]); simp_p; (split; [exists q; auto|discriminate]).
    + split; [exists p'; auto|discriminate].
  - subst rv. change (negb (E_CLOSED =? 0)%N) with true in Hin.
    destruct (find_pipe p (pb_pipes s)) eqn:Fd; cbn [fst pb_pipes] in Hin.
    + apply in_upd_pipe in Hin as (q & Hq & [[Hne ->]|[_ ->]]); simp_p.
      * split; [exists q; auto|]. intros E. inversion E. congruence.
      * exfalso. apply Htx. reflexivity.
    + split; [exists p'; auto|]. intros E. inversion E as [Ep].
      apply (find_pipe_none _ _ Fd). rewrite Ep, <- Hid. apply in_map, Hin.
  - cbn [fst] in Hin. split; [exists p'; auto|discriminate].
Qed.
Lemma pub_tx_nil l : (forall p, In p l -> pp_tx p = None) -> pub_tx l = [].
Proof.
  induction l as [|p l IH]; intros H; [reflexivity|]. unfold pub_tx. cbn [flat_map]. fold (pub_tx l).
  rewrite (H p) by (left; reflexivity). rewrite IH by (intros q Hq; apply H; right; exact Hq). reflexivity.
Qed.
Lemma pub_script_closing s : Forall pub_closing (pub_close_script s).
Proof.
  apply Forall_forall. intros o Hin. unfold pub_close_script in Hin. apply in_app_or in Hin as [Hin|[<-|[]]]; [|exact I].
  apply in_flat_map in Hin as (p & _ & [<-|Hin]); [exact I|].
  destruct (pp_tx p); [destruct Hin as [<-|[]]; reflexivity|destruct Hin].
Qed.
Lemma pub_script_fails s i : txp s i -> In (PSendDone i E_CLOSED) (pub_close_script s).
Proof.
  intros (p & Hin & Hid & Htx). unfold pub_close_script. apply in_or_app. left. apply in_flat_map. exists p. split; [exact Hin|].
  right. destruct (pp_tx p); [left; now rewrite Hid|congruence].
Qed.

Theorem pub_close_drains : forall s, PubInv s ->
  ops_ok pub_step pub_op_ok s (pub_close_script s) /\ drained view_pub (run pub_step s (pub_close_script s)).
Proof.
  intros s _. split; [apply pub_closing_ok, pub_script_closing|].
  split; [|split; [reflexivity|apply Permutation_refl]].
  change (v_tx view_pub (run pub_step s (pub_close_script s))) with (pub_tx (pb_pipes (run pub_step s (pub_close_script s)))).
  apply pub_tx_nil. intros p Hp. destruct (pp_tx p) as [m|] eqn:T; [exfalso|reflexivity].
  assert (X : txp (run pub_step s (pub_close_script s)) (pp_id p)) by (exists p; rewrite T; repeat split; auto; discriminate).
  destruct (run_clears pub_step txp (fun o i => o = PSendDone i E_CLOSED) pub_closing pub_closing_step _ s _
              (pub_script_closing s) X) as [X1 X2].
  exact (X2 _ (pub_script_fails s _ X1) eq_refl).
Qed.

(* sub.c's state records no pipe and no transport send; every context other than the socket's own
   is closed (PCtxClose), then the socket's close, which closes and finishes the master context *)
Definition sub_close_script (s : sub) : list pop :=
  flat_map (fun c => match sc_id c with Some k => [PCtxClose k] | None => [] end) (sb_ctxs s) ++ [PSockClose].

Definition sub_closing (o : pop) : Prop := match o with PCtxClose _ | PSockClose => True | _ => False end.
Lemma sub_closing_ok fixed ops : Forall sub_closing ops -> forall s, ops_ok (sub_step fixed) sub_op_ok s ops.
Proof.
  induction 1 as [|o ops Ho _ IH]; intros s; cbn [ops_ok]; [exact I|]. split; [|apply IH].
  destruct o; cbn [sub_closing sub_op_ok] in *; try exact I; contradiction.
Qed.
Lemma sub_script_closing s : Forall sub_closing (sub_close_script s).
Proof.
  apply Forall_forall. intros o Hin. unfold sub_close_script in Hin. apply in_app_or in Hin as [Hin|[<-|[]]]; [|exact I].
  apply in_flat_map in Hin as (c & _ & Hin). destruct (sc_id c); [destruct Hin as [<-|[]]; exact I|destruct Hin].
Qed.

Theorem sub_close_drains : forall fixed s, SInv s ->
  ops_ok (sub_step fixed) sub_op_ok s (sub_close_script s) /\
  drained view_sub (run (sub_step fixed) s (sub_close_script s)).
Proof.
  intros fixed s _. split; [apply sub_closing_ok, sub_script_closing|].
  split; [reflexivity|split; [reflexivity|apply Permutation_refl]].
Qed.

(* xsub.c's state records no pipe, no transport send and no context: the socket's close (nni_msgq_close) *)
Definition xsub_close_script (s : xsub) : list pop := [PSockClose].

Theorem xsub_close_drains : forall mq_fixed rs_fixed s, XsubInv s ->
  ops_ok (xsub_step mq_fixed rs_fixed) xsub_op_ok s (xsub_close_script s) /\
  drained view_xsub (run (xsub_step mq_fixed rs_fixed) s (xsub_close_script s)).
Proof.
  intros mf rf s _. split; [cbn [xsub_close_script ops_ok]; unfold xsub_op_ok; tauto|].
  split; [reflexivity|split; [reflexivity|apply Permutation_refl]].
Qed.

Print Assumptions pub_close_drains.
Print Assumptions sub_close_drains.
Print Assumptions xsub_close_drains.
