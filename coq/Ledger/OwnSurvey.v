(* OwnSurvey: the ledger law (property C03) of
     cooked SURVEYOR   src/sp/protocol/survey0/survey.c    (Proto/SurveyModel.v,   view VSurv.view)
     raw SURVEYOR      src/sp/protocol/survey0/xsurvey.c   (Proto/XSurveyModel.v,  view VXsurv.view fx)
     raw RESPONDENT    src/sp/protocol/survey0/xrespond.c  (Proto/XRespondModel.v, view VXresp.view)
   For each: an invariant of the model's state (keys of the keyed lists unique; a pipe record
   that is not busy has nothing attached to its aio_send, so that a TranSend goes only to an
   idle pipe), the environment's contract, the sum lemmas of the model's loops, the law,
   and a history on which the contract holds. *)
From Coq Require Import List Arith NArith Bool ZArith Lia Permutation.
From NngV Require Import Proto.Common Proto.SurveyBacktrace Proto.SurveyModel Proto.XSurveyModel
  Proto.XRespondModel Proto.SurveyProofs
  Ledger.Ledger Ledger.LedgerProofs Ledger.LawTac Ledger.Keyed Ledger.Views.
From NngV Require Base.ListX.
From NngV Require Import Ledger.LedgerThms.
Import ListNotations.

Notation ts F p l := (wsum (fun m => F (OPipe p, body m)) l).

Section PipeSums.
  Context {A : Type}.
  Implicit Types (l : list (N * A)) (G : N * A -> nat).

  (* the references a keyed list of pipe records stands for *)
  Definition QH (q : A -> list pmsg) (F : owner * key -> nat) l : nat := wsum (fun px => qs F (q (snd px))) l.
  Definition TH (h : A -> list pmsg) (F : owner * key -> nat) l : nat := wsum (fun px => ts F (fst px) (h (snd px))) l.

  Lemma QH_kset q F k y l x : kget k l = Some x -> QH q F l + qs F (q y) = qs F (q x) + QH q F (kset k y l).
  Proof. intros H. exact (wsum_aset (fun px => qs F (q (snd px))) k y l x H). Qed.
  Lemma TH_kset h F k y l x : kget k l = Some x -> TH h F l + ts F k (h y) = ts F k (h x) + TH h F (kset k y l).
  Proof. intros H. exact (wsum_aset (fun px => ts F (fst px) (h (snd px))) k y l x H). Qed.
  (* a record replaced under its key: its queue and its send in flight change together *)
  Lemma QTH_kset q h F k y l x : kget k l = Some x ->
    QH q F l + TH h F l + qs F (q y) + ts F k (h y)
    = qs F (q x) + ts F k (h x) + QH q F (kset k y l) + TH h F (kset k y l).
  Proof. intros H. pose proof (QH_kset q F k y l x H). pose proof (TH_kset h F k y l x H). lia. Qed.
  Lemma QH_kset_none q F k y l : kget k l = None -> QH q F (kset k y l) = QH q F l + qs F (q y).
  Proof. intros H. exact (wsum_aset_none (fun px => qs F (q (snd px))) k y l H). Qed.
  Lemma QH_kdel q F k l x : NoDup (map fst l) -> kget k l = Some x -> QH q F l = qs F (q x) + QH q F (kdel k l).
  Proof. intros Hn H. exact (wsum_adel (fun px => qs F (q (snd px))) k l x Hn H). Qed.
  Lemma QH_snoc q F l k y : QH q F (l ++ [(k, y)]) = QH q F l + qs F (q y).
  Proof. unfold QH. now rewrite wsum_snoc. Qed.
  Lemma TH_snoc h F l k y : TH h F (l ++ [(k, y)]) = TH h F l + ts F k (h y).
  Proof. unfold TH. now rewrite wsum_snoc. Qed.
  Lemma QH_cons q F l k y : QH q F ((k, y) :: l) = qs F (q y) + QH q F l.
  Proof. reflexivity. Qed.
  Lemma TH_cons h F l k y : TH h F ((k, y) :: l) = ts F k (h y) + TH h F l.
  Proof. reflexivity. Qed.
  Lemma QH_nil q F : QH q F [] = 0. Proof. reflexivity. Qed.
  Lemma TH_nil h F : TH h F [] = 0. Proof. reflexivity. Qed.

  Lemma wsum_held q F l : qs F (flat_map (fun px => q (snd px)) l) = QH q F l.
  Proof. now rewrite wsum_flat_map. Qed.
  Lemma wsum_ptx h F l : wsum (fun x => F (OPipe (fst x), body (snd x))) (ptx h l) = TH h F l.
  Proof. apply Keyed.wsum_ptx. Qed.
End PipeSums.

(* normalise the sums of a law goal; closes it when lia can, leaves it normalised otherwise *)
Ltac snorm := gnorm; cbn [o_tx o_rel]; gnorm; cbn [o_tx o_rel]; gnorm; rewrite ?wsum_app, ?wsum_cons, ?wsum_nil in *; unfold body in *; cbn [pm_body pm_hdr fst snd] in *; try lia.

Definition sp_ok (x : spipe) : Prop := sp_busy x = false -> sp_held x = [].
Definition SLInv (s : surv) : Prop :=
  NoDup (map fst (sv_ctxs s)) /\ NoDup (map fst (sv_pipes s)) /\ Forall (fun px => sp_ok (snd px)) (sv_pipes s).

(* the environment: an aio is submitted once at a time (a send is not posted on an aio that
   waits in a receive queue), a pipe id is started once, a context id is opened once *)
Definition surv_ok (s : surv) (o : pop) : Prop :=
  match o with
  | PSend _ a _ _ => existsb (fun kc => has_id a (sc_rq (snd kc))) (sv_ctxs s) = false
  | PPipeStart p _ => has_id p (map fst (sv_pipes s)) = false
  | PCtxOpen c => kget (ckey (Some c)) (sv_ctxs s) = None
  | _ => True
  end.

Lemma surv_inv_init : SLInv surv_init.
Proof.
  split; [|split]; cbn.
  - constructor; [tauto|constructor].
  - constructor.
  - constructor.
Qed.

Lemma surv_omega F s :
  w_omega F view_surv s = QH sc_lmq F (sv_ctxs s) + QH sp_q F (sv_pipes s) + TH sp_held F (sv_pipes s).
Proof.
  unfold w_omega. cbn [view_surv VSurv.view v_held v_tx v_att].
  rewrite wsum_app, wsum_nil, !wsum_held.
  change (flat_map (fun px => map (fun m => (fst px, m)) (sp_held (snd px))) (sv_pipes s)) with (ptx sp_held (sv_pipes s)).
  rewrite wsum_ptx. lia.
Qed.

Lemma fanout_sum F m : forall l l' o,
  Forall (fun px => sp_ok (snd px)) l -> fanout m l = (l', o) ->
  (QH sp_q F l + TH sp_held F l
     + wsum (fun _ : pid * spipe => F (OProto, body m)) (filter (fun px => VSurv.pipe_takes (snd px)) l) + o_tx F o
   = QH sp_q F l' + TH sp_held F l' + o_rel F o)
  /\ no_send_done o = true /\ map fst l' = map fst l /\ Forall (fun px => sp_ok (snd px)) l'.
Proof.
  induction l as [|[p x] l IH]; intros l' o Hf H; cbn [fanout] in H.
  - injection H as <- <-. repeat split; auto.
  - inversion Hf as [|? ? Hx Hl]; subst. cbn [snd] in Hx.
    destruct (fanout m l) as [r' o'] eqn:E. destruct (IH r' o' Hl eq_refl) as (S1 & S2 & S3 & S4).
    cbn [filter snd]. unfold VSurv.pipe_takes at 1.
    destruct (sp_closed x) eqn:C; cbn [negb andb] in *.
    { injection H as <- <-. rewrite !QH_cons, !TH_cons. cbn [map fst].
      split; [lia|]. split; [auto|]. split; [now rewrite S3|]. constructor; auto. }
    destruct (sp_busy x) eqn:B; cbn [negb orb] in *.
    + destruct (length (sp_q x) <? SURV_SEND_BUF) eqn:L.
      * injection H as <- <-. rewrite !QH_cons, !TH_cons. cbn [map fst sp_q sp_held]. gnorm.
        split; [lia|]. split; [auto|]. split; [now rewrite S3|]. constructor; auto. intros X; discriminate X.
      * injection H as <- <-. rewrite !QH_cons, !TH_cons. cbn [map fst].
        split; [lia|]. split; [auto|]. split; [now rewrite S3|]. constructor; auto.
    + injection H as <- <-. rewrite !QH_cons, !TH_cons. cbn [map fst sp_q sp_held o_tx o_rel no_send_done]. gnorm.
      rewrite (Hx B). gnorm.
      split; [lia|]. split; [auto|]. split; [now rewrite S3|]. constructor; auto. intros X; discriminate X.
Qed.

Lemma cancel_ctxs_sum F a rv : forall l l' o, cancel_ctxs a rv l = (l', o) ->
  QH sc_lmq F l' = QH sc_lmq F l /\ o_tx F o = 0 /\ o_rel F o = 0.
Proof.
  induction l as [|[k c] l IH]; intros l' o H; cbn [cancel_ctxs] in H.
  - injection H as <- <-. auto.
  - destruct (has_id a (sc_rq c)).
    + injection H as <- <-. rewrite !QH_cons. cbn [sc_lmq o_tx o_rel]. auto.
    + destruct (cancel_ctxs a rv l) as [r' o'] eqn:E. destruct (IH r' o' eq_refl) as (S1 & S2 & S3).
      injection H as <- <-. rewrite !QH_cons. auto.
Qed.
Lemma expire_ctxs_sum F now : forall l l' o, expire_ctxs now l = (l', o) ->
  QH sc_lmq F l' = QH sc_lmq F l /\ o_tx F o = 0 /\ o_rel F o = 0.
Proof.
  induction l as [|[k c] l IH]; intros l' o H; cbn [expire_ctxs] in H.
  - injection H as <- <-. auto.
  - destruct (expire_ctxs now l) as [r' o'] eqn:E. destruct (IH r' o' eq_refl) as (S1 & S2 & S3).
    destruct (sc_rq c) eqn:R.
    + injection H as <- <-. rewrite !QH_cons. auto.
    + destruct (sc_expire c <? Z.of_N now)%Z; injection H as <- <-; rewrite !QH_cons; cbn [sc_lmq o_tx o_rel]; gnorm; repeat split; lia.
Qed.

Lemma surv_accepted_send s c a nb m cx :
  kget (ckey c) (sv_ctxs s) = Some cx ->
  VSurv.accepted s (PSend c a nb m) =
  let ctxs1 := kset (ckey c) (mkSctx 0 [] [] (sc_stime cx) (sc_expire cx)) (sv_ctxs s) in
  match id_alloc (S (length (live_ids ctxs1))) (live_ids ctxs1) (sv_cur s) with Some _ => [m] | None => [] end.
Proof. intros H. unfold VSurv.accepted. rewrite H. reflexivity. Qed.

Lemma in_ctx_idle a (l : list (N * sctx)) k cx :
  existsb (fun kc => has_id a (sc_rq (snd kc))) l = false -> kget k l = Some cx -> ~ In a (sc_rq cx).
Proof.
  intros H K Hi. apply kget_in in K.
  assert (X : existsb (fun kc => has_id a (sc_rq (snd kc))) l = true).
  { apply existsb_exists. exists (k, cx). split; auto. apply has_id_in. exact Hi. }
  congruence.
Qed.

Ltac sview := rewrite !surv_omega; cbn [sv_ctxs sv_pipes set_ctxs set_pipes set_readable set_cur].
Ltac sview_clones Hacc :=
  cbn [v_extra v_clones v_dups view_surv VSurv.view]; unfold VSurv.clones, no_keys; rewrite Hacc; cbn [flat_map map app].

Lemma surv_law_sum nbfix s o s' outs :
  SLInv s -> surv_ok s o -> surv_step nbfix s o = (s', outs) -> law_sum view_surv s o s' outs.
Proof.
  intros (I1 & I2 & I3) Hok H.
  destruct o as [c a nb m|c a nb|a rv|p peer|p|p rv|p rv m|c op|c|c| |now].
  2-12: apply law_sum_quiet; [reflexivity|intros; discriminate|reflexivity|reflexivity|reflexivity|intros F].
  - cbn [surv_ok] in Hok. cbn [surv_step ctx_abort] in H. intros F. cbv zeta.
    destruct (kget (ckey c) (sv_ctxs s)) as [cx|] eqn:KC.
    2:{ injection H as <- <-.
        assert (Hacc : VSurv.accepted s (PSend c a nb m) = []) by (unfold VSurv.accepted; rewrite KC; reflexivity).
        sview_clones Hacc. cbn [op_add op_del s_take s_del o_tx o_rel]. rewrite send_key_self.
        change (E_CLOSED =? 0)%N with false. cbn iota. snorm. }
    pose proof (surv_accepted_send s c a nb m cx KC) as Hacc. cbv zeta in Hacc.
    pose proof (in_ctx_idle a _ _ _ Hok KC) as Hna.
    destruct (s_fail_none view_surv F s (PSend c a nb m) E_CANCELED (sc_rq cx)) as [A1 B1].
    { intros b Hb. unfold send_key. destruct (N.eqb_spec a b); [subst; contradiction|reflexivity]. }
    pose proof (QH_kset sc_lmq F (ckey c) (mkSctx 0 [] [] (sc_stime cx) (sc_expire cx)) (sv_ctxs s) cx KC) as K1.
    cbn [sc_lmq] in K1.
    set (ctxs1 := kset (ckey c) (mkSctx 0 [] [] (sc_stime cx) (sc_expire cx)) (sv_ctxs s)) in *.
    destruct (id_alloc (S (length (live_ids ctxs1))) (live_ids ctxs1) (sv_cur s)) as [[id cur']|] eqn:IA.
    + destruct (fanout (mkPmsg (be32 id) (pm_body m)) (sv_pipes s)) as [pipes' tx] eqn:FO.
      injection H as <- <-.
      destruct (fanout_sum F _ _ _ _ I3 FO) as (S1 & S2 & S3 & S4).
      change (body (mkPmsg (be32 id) (pm_body m))) with (body m) in S1.
      destruct (s_quiet view_surv F s (PSend c a nb m) tx S2) as [A2 B2].
      pose proof (QH_kset sc_lmq F (ckey c)
                    (mkSctx id [] [] (sc_stime cx) (Z.of_N (sv_now s) + sc_stime cx)) ctxs1 _ (kget_kset_eq _ _ _)) as K2.
      cbn [sc_lmq] in K2.
      sview_clones Hacc. sview. cbn [op_add op_del]. gnorm. rewrite A1, B1, A2, B2.
      cbn [s_take s_del o_tx o_rel]. rewrite send_key_self. change (E_OK =? 0)%N with true. cbn iota. snorm.
    + injection H as <- <-. sview_clones Hacc. sview. cbn [op_add op_del]. gnorm. rewrite A1, B1.
      cbn [s_take s_del o_tx o_rel]. rewrite send_key_self. change (E_NOMEM =? 0)%N with false. cbn iota. snorm.
  - cbn [surv_step] in H. cbn [op_add op_del].
    destruct (kget (ckey c) (sv_ctxs s)) as [cx|] eqn:KC; [|injection H as <- <-; cbn [o_tx o_rel]; lia].
    destruct (N.eqb (sc_survey cx) 0 || (sc_expire cx <=? Z.of_N (sv_now s))%Z); [injection H as <- <-; cbn [o_tx o_rel]; lia|].
    destruct (sc_lmq cx) as [|m r] eqn:L.
    + destruct (nb && nbfix); [injection H as <- <-; cbn [o_tx o_rel]; lia|].
      injection H as <- <-.
      pose proof (QH_kset sc_lmq F (ckey c) (mkSctx (sc_survey cx) [] (sc_rq cx ++ [a]) (sc_stime cx) (sc_expire cx)) _ _ KC) as K1.
      cbn [sc_lmq] in K1. rewrite L in K1. sview. cbn [o_tx o_rel]. snorm.
    + injection H as <- <-.
      pose proof (QH_kset sc_lmq F (ckey c) (mkSctx (sc_survey cx) r (sc_rq cx) (sc_stime cx) (sc_expire cx)) _ _ KC) as K1.
      cbn [sc_lmq] in K1. rewrite L in K1.
      destruct (isnil r && N.eqb (ckey c) 0); sview; cbn [o_tx o_rel]; change (E_OK =? 0)%N with true; cbn iota; snorm.
  - cbn [surv_step] in H. cbn [op_add op_del].
    destruct (cancel_ctxs a rv (sv_ctxs s)) as [cs o] eqn:E. injection H as <- <-.
    destruct (cancel_ctxs_sum F _ _ _ _ _ E) as (S1 & S2 & S3). sview. lia.
  - cbn [surv_step] in H. cbn [op_add op_del].
    destruct (negb (peer =? PROTO_RESPONDENT)%N); injection H as <- <-; [cbn [o_tx o_rel]; lia|].
    sview. rewrite QH_snoc, TH_snoc. cbn [sp_q sp_held o_tx o_rel]. snorm.
  - cbn [surv_step] in H. cbn [op_add op_del].
    destruct (kget p (sv_pipes s)) as [x|] eqn:KP; injection H as <- <-; [|cbn [o_tx o_rel]; lia].
    pose proof (QTH_kset sp_q sp_held F p (mkSpipe [] (sp_busy x) (sp_held x) true) _ _ KP) as K1.
    cbn [sp_q sp_held] in K1. sview. snorm.
  - cbn [surv_step] in H. cbn [op_add op_del v_tx view_surv VSurv.view].
    change (flat_map (fun px => map (fun m => (fst px, m)) (sp_held (snd px))) (sv_pipes s)) with (ptx sp_held (sv_pipes s)).
    destruct (kget p (sv_pipes s)) as [x|] eqn:KP.
    2:{ injection H as <- <-. rewrite (tx_of_ptx_none sp_held p _ KP). destruct (rv =? 0)%N; cbn [o_tx o_rel]; snorm. }
    rewrite (tx_of_ptx_some sp_held p _ x I2 KP).
    destruct (N.eqb_spec rv 0) as [->|Hrv]; cbn [negb] in H.
    + destruct (sp_closed x).
      * injection H as <- <-.
        pose proof (QTH_kset sp_q sp_held F p (mkSpipe (sp_q x) (sp_busy x) [] true) _ _ KP) as K1.
        cbn [sp_q sp_held] in K1. sview. cbn [o_tx o_rel]. snorm.
      * destruct (sp_q x) as [|m r] eqn:Q; injection H as <- <-.
        -- pose proof (QTH_kset sp_q sp_held F p (mkSpipe [] false [] false) _ _ KP) as K1.
           cbn [sp_q sp_held] in K1. rewrite Q in K1. sview. cbn [o_tx o_rel]. snorm.
        -- pose proof (QTH_kset sp_q sp_held F p (mkSpipe r true [m] false) _ _ KP) as K1.
           cbn [sp_q sp_held] in K1. rewrite Q in K1. sview. cbn [o_tx o_rel]. snorm.
    + injection H as <- <-.
      pose proof (QTH_kset sp_q sp_held F p (mkSpipe (sp_q x) (sp_busy x) [] (sp_closed x)) _ _ KP) as K1.
      cbn [sp_q sp_held] in K1. sview. cbn [o_tx o_rel]. snorm.
  - cbn [surv_step] in H. cbn [op_add op_del v_rx view_surv VSurv.view]. unfold VSurv.rx.
    destruct (N.eqb_spec rv 0) as [->|Hrv]; cbn [negb] in H; [|injection H as <- <-; cbn [o_tx o_rel]; lia].
    destruct (surv_recv (pm_body m)) as [[[id hdr] rest]|] eqn:SR; [|injection H as <- <-; cbn [o_tx o_rel]; snorm].
    destruct (find_owner id (sv_ctxs s)) as [[k c]|] eqn:FO; [|injection H as <- <-; cbn [o_tx o_rel]; snorm].
    assert (KC : kget k (sv_ctxs s) = Some c) by (apply in_kget; [exact I1|]; apply (find_owner_some _ _ _ _ FO)).
    destruct (SURV_RECV_BUF <=? length (sc_lmq c)); [injection H as <- <-; cbn [o_tx o_rel]; snorm|].
    destruct (sc_rq c) as [|a r] eqn:R; injection H as <- <-.
    + pose proof (QH_kset sc_lmq F k (mkSctx (sc_survey c) (sc_lmq c ++ [mkPmsg (pm_hdr m ++ hdr) rest]) [] (sc_stime c) (sc_expire c)) _ _ KC) as K1.
      cbn [sc_lmq] in K1. destruct (N.eqb k 0); sview; cbn [o_tx o_rel]; snorm.
    + pose proof (QH_kset sc_lmq F k (mkSctx (sc_survey c) (sc_lmq c) r (sc_stime c) (sc_expire c)) _ _ KC) as K1.
      cbn [sc_lmq] in K1. sview. cbn [o_tx o_rel]. change (E_OK =? 0)%N with true. cbn iota. snorm.
  - cbn [op_add op_del].
    destruct op; destruct c; cbn [surv_step] in H;
      repeat match type of H with
             | context [if ?b then _ else _] => destruct b
             end;
      try (injection H as <- <-; cbn [o_tx o_rel]; sview; lia).
    all: destruct (kget _ (sv_ctxs s)) as [cx|] eqn:KC; injection H as <- <-; cbn [o_tx o_rel]; [|lia].
    all: match goal with |- context [kset ?k ?y _] => pose proof (QH_kset sc_lmq F k y _ _ KC) as K1 end;
      cbn [sc_lmq] in K1; sview; lia.
  - cbn [surv_step] in H. cbn [op_add op_del surv_ok] in *. injection H as <- <-. sview.
    rewrite (QH_kset_none sc_lmq F _ _ _ Hok). cbn [ctx_init sc_lmq o_tx o_rel]. snorm.
  - cbn [surv_step ctx_abort] in H. cbn [op_add op_del].
    destruct (kget (ckey (Some c)) (sv_ctxs s)) as [cx|] eqn:KC; injection H as <- <-; [|cbn [o_tx o_rel]; lia].
    pose proof (QH_kdel sc_lmq F _ _ _ I1 KC) as K1. cbn [ckey] in *. sview. snorm.
  - cbn [surv_step ctx_abort] in H. cbn [op_add op_del].
    destruct (kget 0%N (sv_ctxs s)) as [cx|] eqn:KC; injection H as <- <-; [|cbn [o_tx o_rel]; lia].
    pose proof (QH_kset sc_lmq F 0%N (mkSctx 0 [] [] (sc_stime cx) (sc_expire cx)) _ _ KC) as K1.
    cbn [sc_lmq] in K1. sview. snorm.
  - cbn [surv_step] in H. cbn [op_add op_del].
    destruct (expire_ctxs now (sv_ctxs s)) as [cs o] eqn:E. injection H as <- <-.
    destruct (expire_ctxs_sum F _ _ _ _ E) as (S1 & S2 & S3). sview. lia.
Qed.

Ltac split_step H :=
  repeat match type of H with
         | context [match ?b with _ => _ end] => destruct b eqn:?
         end;
  injection H as <- <-.
Ltac sinv := unfold SLInv; cbn [sv_ctxs sv_pipes set_ctxs set_pipes set_readable]; split; [|split];
             try assumption; try (repeat apply nodup_kset; assumption); try (apply nodup_kdel; assumption).

Lemma surv_linv_step nbfix s o s' outs : SLInv s -> surv_ok s o -> surv_step nbfix s o = (s', outs) -> SLInv s'.
Proof.
  intros (I1 & I2 & I3) Hok H.
  destruct o as [c a nb m|c a nb|a rv|p peer|p|p rv|p rv m|c op|c|c| |now]; cbn [surv_step ctx_abort] in H.
  - destruct (kget (ckey c) (sv_ctxs s)) as [cx|] eqn:KC; [|injection H as <- <-; sinv].
    destruct (id_alloc _ _ _) as [[id cur']|]; [|injection H as <- <-; sinv].
    destruct (fanout _ (sv_pipes s)) as [pipes' tx] eqn:FO. injection H as <- <-.
    destruct (fanout_sum (fun _ => 0) _ _ _ _ I3 FO) as (_ & _ & S3 & S4).
    sinv. now rewrite S3.
  - split_step H; sinv.
  - destruct (cancel_ctxs a rv (sv_ctxs s)) as [cs o] eqn:E. injection H as <- <-.
    pose proof (cancel_ctxs_keys a rv (sv_ctxs s)) as K. rewrite E in K. cbn [fst] in K. sinv. now rewrite K.
  - cbn [surv_ok] in Hok. destruct (negb (peer =? PROTO_RESPONDENT)%N); injection H as <- <-; sinv.
    + rewrite map_app. cbn [map fst]. apply ListX.nodup_snoc; [assumption|]. intros Hi. apply has_id_in in Hi. congruence.
    + apply Forall_app. split; [assumption|]. constructor; [|constructor]. intros _. reflexivity.
  - destruct (kget p (sv_pipes s)) as [x|] eqn:KP; injection H as <- <-; sinv.
    apply forall_aset; [assumption|]. cbn [snd]. unfold sp_ok. cbn [sp_busy sp_held].
    rewrite Forall_forall in I3. exact (I3 _ (kget_in _ _ _ KP)).
  - destruct (kget p (sv_pipes s)) as [x|] eqn:KP; [|injection H as <- <-; sinv].
    split_step H; sinv; (apply forall_aset; [assumption|]); cbn [snd]; unfold sp_ok; cbn [sp_busy sp_held]; auto; discriminate.
  - split_step H; sinv.
  - destruct op; destruct c; cbn [surv_step] in H; split_step H; sinv.
  - injection H as <- <-. sinv.
  - split_step H; sinv.
  - split_step H; sinv.
  - destruct (expire_ctxs now (sv_ctxs s)) as [cs o] eqn:E. injection H as <- <-.
    pose proof (expire_ctxs_keys now (sv_ctxs s)) as K. rewrite E in K. cbn [fst] in K.
    unfold SLInv. cbn [sv_ctxs sv_pipes]. rewrite K. auto.
Qed.

Lemma surv_accepted_out nbfix s o s' outs m0 :
  In m0 (VSurv.accepted s o) -> surv_step nbfix s o = (s', outs) ->
  exists c a nb, o = PSend c a nb m0 /\ In (Complete a E_OK None) outs.
Proof.
  intros Hi H. destruct o as [c a nb m| | | | | | | | | | | ]; try destruct Hi.
  cbn [surv_step ctx_abort] in H.
  destruct (kget (ckey c) (sv_ctxs s)) as [cx|] eqn:KC; [|unfold VSurv.accepted in Hi; rewrite KC in Hi; destruct Hi].
  rewrite (surv_accepted_send s c a nb m cx KC) in Hi. cbv zeta in Hi.
  destruct (id_alloc _ _ _) as [[id cur']|]; [|destruct Hi].
  destruct Hi as [<-|[]]. destruct (fanout _ (sv_pipes s)) as [pipes' tx]. injection H as <- <-.
  exists c, a, nb. split; [reflexivity|]. apply in_or_app. right. apply in_or_app. right. left. reflexivity.
Qed.

Theorem surv_proto_law : forall nbfix, proto_law view_surv (surv_step nbfix) SLInv surv_ok.
Proof.
  intros nbfix s o s' outs HI Hok H. split; [exact (surv_linv_step nbfix s o s' outs HI Hok H)|]. split.
  - apply law_sum_eq. exact (surv_law_sum nbfix s o s' outs HI Hok H).
  - apply clones_held_intro. intros k Hk. right. left.
    cbn [v_clones view_surv VSurv.view] in Hk. unfold VSurv.clones in Hk.
    apply in_flat_map in Hk. destruct Hk as [m0 [Hm Hk]].
    apply in_map_iff in Hk. destruct Hk as [px [<- _]].
    destruct (surv_accepted_out nbfix s o s' outs m0 Hm H) as (c & a & nb & -> & Hin).
    exists a. split; [exact Hin|apply send_key_self].
Qed.

(* a history on which the environment's contract holds: pipe start, survey, transport
   completion, response delivered, receive, option change, context open, tick, pipe close, close *)
Example surv_ok_nonvacuous :
  ops_ok (surv_step false) surv_ok surv_init
    [PPipeStart 1 PROTO_RESPONDENT; PSend None 1 false (mkPmsg [] [7%N]); PSendDone 1 0;
     PRecvDone 1 0 (mkPmsg [] [128; 0; 0; 1; 9]%N); PRecv None 2 false;
     PSetOpt None (OSurveyTime 500); PCtxOpen 5; PSend (Some 5%N) 3 false (mkPmsg [] [8%N]);
     PTick 10; PPipeClose 1; PSockClose].
Proof. vm_compute. repeat split. Qed.

(* raw SURVEYOR and raw RESPONDENT: the upper read queue and the pipe records they share *)
Definition xp_ok (x : xpipe) : Prop := xp_busy x = false -> xp_held x = [].
Definition pipes_inv (l : list (pid * xpipe)) : Prop := NoDup (map fst l) /\ Forall (fun px => xp_ok (snd px)) l.

(* the references the upper read queue stands for: queued messages and those of the blocked writers *)
Definition US (F : owner * key -> nat) (u : urq) : nat :=
  qs F (uq_q u) + wsum (fun x : pid * pmsg => F (OProto, body (snd x))) (uq_writers u).

Lemma raw_omega F pipes u :
  qs F (VXsurv.pipes_held pipes ++ VXsurv.urq_held u)
  + wsum (fun x => F (OPipe (fst x), body (snd x))) (VXsurv.pipes_tx pipes)
  = QH xp_q F pipes + US F u + TH xp_held F pipes.
Proof.
  unfold VXsurv.pipes_held, VXsurv.urq_held, US. rewrite !wsum_app, wsum_map, wsum_held.
  change (VXsurv.pipes_tx pipes) with (ptx xp_held pipes). rewrite wsum_ptx. lia.
Qed.

Ltac inj H := injection H as <- <-.

Lemma run_putq_sum F : forall fuel u u' o, run_putq fuel u = (u', o) -> US F u = US F u' + o_rel F o /\ o_tx F o = 0.
Proof.
  induction fuel as [|f IH]; intros u u' o H; cbn [run_putq] in H; [inj H; cbn [o_tx o_rel]; lia|].
  destruct (uq_writers u) as [|[p m] ws] eqn:W; [inj H; cbn [o_tx o_rel]; lia|].
  destruct (uq_readers u) as [|a rs] eqn:R.
  - destruct (length (uq_q u) <? uq_cap u); [|inj H; cbn [o_tx o_rel]; lia].
    destruct (run_putq f _) as [u1 o1] eqn:E. destruct (IH _ _ _ E) as [S1 S2]. inj H.
    unfold US in *. cbn [uq_q uq_writers] in S1. rewrite W. cbn [o_tx o_rel]. snorm.
  - destruct (run_putq f _) as [u1 o1] eqn:E. destruct (IH _ _ _ E) as [S1 S2]. inj H.
    unfold US in *. cbn [uq_q uq_writers] in S1. rewrite W. cbn [o_tx o_rel]. change (E_OK =? 0)%N with true. cbn iota. snorm.
Qed.
Lemma run_getq_sum F : forall fuel u u' o, run_getq fuel u = (u', o) -> US F u = US F u' + o_rel F o /\ o_tx F o = 0.
Proof.
  induction fuel as [|f IH]; intros u u' o H; cbn [run_getq] in H; [inj H; cbn [o_tx o_rel]; lia|].
  destruct (uq_readers u) as [|a rs] eqn:R; [inj H; cbn [o_tx o_rel]; lia|].
  destruct (uq_q u) as [|m q'] eqn:Q.
  - destruct (uq_writers u) as [|[p m] ws] eqn:W; [inj H; cbn [o_tx o_rel]; lia|].
    destruct (run_getq f _) as [u1 o1] eqn:E. destruct (IH _ _ _ E) as [S1 S2]. inj H.
    unfold US in *. cbn [uq_q uq_writers] in S1. rewrite W, Q. cbn [o_tx o_rel]. change (E_OK =? 0)%N with true. cbn iota. snorm.
  - destruct (run_getq f _) as [u1 o1] eqn:E. destruct (IH _ _ _ E) as [S1 S2]. inj H.
    unfold US in *. cbn [uq_q uq_writers] in S1. rewrite Q. cbn [o_tx o_rel]. change (E_OK =? 0)%N with true. cbn iota. snorm.
Qed.
Lemma urq_put_sum F u p m u' o : urq_put u p m = (u', o) -> US F u + F (OProto, body m) = US F u' + o_rel F o /\ o_tx F o = 0.
Proof.
  unfold urq_put. intros H. destruct (run_putq_sum F _ _ _ _ H) as [S1 S2]. split; [|exact S2].
  unfold US in *. cbn [uq_q uq_writers] in S1. snorm.
Qed.
Lemma urq_get_sum F u a u' o : urq_get u a = (u', o) -> US F u = US F u' + o_rel F o /\ o_tx F o = 0.
Proof. unfold urq_get. intros H. exact (run_getq_sum F _ _ _ _ H). Qed.
Lemma urq_get_fx_sum F fx u a u' o : urq_get_fx fx u a = (u', o) -> US F u = US F u' + o_rel F o /\ o_tx F o = 0.
Proof.
  unfold urq_get_fx. destruct (urq_get u a) as [u1 o1] eqn:E. destruct (urq_get_sum F _ _ _ _ E) as [S1 S2].
  destruct (mf_getput fx); intros H.
  - destruct (run_putq _ u1) as [u2 o2] eqn:E2. destruct (run_putq_sum F _ _ _ _ E2) as [P1 P2]. inj H. snorm.
  - inj H. auto.
Qed.
Lemma urq_user_recv_sum F fx u a nb u' o : urq_user_recv fx u a nb = (u', o) -> US F u = US F u' + o_rel F o /\ o_tx F o = 0.
Proof.
  unfold urq_user_recv. destruct (nb && (negb (mf_nb fx) || urq_get_waits u)); intros H.
  - inj H. cbn [o_tx o_rel]. lia.
  - exact (urq_get_fx_sum F _ _ _ _ _ H).
Qed.
Lemma urq_cancel_sum F u a rv u' o : urq_cancel u a rv = (u', o) -> US F u = US F u' + o_rel F o /\ o_tx F o = 0.
Proof. unfold urq_cancel. destruct (has_id a (uq_readers u)); intros H; inj H; unfold US; cbn [uq_q uq_writers o_tx o_rel]; lia. Qed.
Lemma urq_drop_writer_sum F u p u' o : urq_drop_writer u p = (u', o) -> US F u = US F u' + o_rel F o /\ o_tx F o = 0.
Proof.
  unfold urq_drop_writer. intros H. inj H. unfold US. cbn [uq_q uq_writers].
  pose proof (wsum_filter_key (fun x : N * pmsg => F (OProto, body (snd x))) p (uq_writers u)) as K.
  rewrite o_tx_Free, o_rel_Free, wsum_map. lia.
Qed.
Lemma urq_close_sum F u u' o : urq_close u = (u', o) -> US F u = US F u' + o_rel F o /\ o_tx F o = 0.
Proof. unfold urq_close. intros H. inj H. unfold US. cbn [uq_q uq_writers]. snorm. Qed.
Lemma urq_resize_sum F fx u n u' o : urq_resize fx u n = (u', o) -> US F u = US F u' + o_rel F o /\ o_tx F o = 0.
Proof.
  unfold urq_resize. intros H.
  set (ex := length (uq_q u) - (n + 1)) in *.
  assert (S0 : US F u = US F (mkUrq (skipn ex (uq_q u)) n (uq_readers u) (uq_writers u)) + qs F (firstn ex (uq_q u))).
  { unfold US. cbn [uq_q uq_writers]. rewrite <- (firstn_skipn ex (uq_q u)) at 1. gnorm. lia. }
  destruct (mf_resize fx).
  - destruct (run_putq _ _) as [u2 o2] eqn:E2. destruct (run_getq _ u2) as [u3 o3] eqn:E3. inj H.
    destruct (run_putq_sum F _ _ _ _ E2) as [P1 P2]. destruct (run_getq_sum F _ _ _ _ E3) as [G1 G2]. snorm.
  - inj H. snorm.
Qed.
Lemma raw_setopt_sum F fx ttl u uw c op t u' w o :
  raw_setopt fx ttl u uw c op = (t, u', w, o) -> US F u = US F u' + o_rel F o /\ o_tx F o = 0.
Proof.
  unfold raw_setopt. intros H.
  destruct c; destruct op;
    repeat match type of H with context [if ?b then _ else _] => destruct b end;
    try (injection H as <- <- <- <-; cbn [o_tx o_rel]; lia).
  destruct (urq_resize fx u n) as [u1 o1] eqn:E. destruct (urq_resize_sum F _ _ _ _ _ E) as [S1 S2].
  injection H as <- <- <- <-. snorm.
Qed.

(* nni_msgq_tryput on a pipe's send queue: the offered reference goes to the pipe, into the queue, or is freed *)
Lemma xpipe_tryput_sum F cap p x m x' o :
  xp_ok x -> xpipe_tryput cap p x m = (x', o) ->
  (qs F (xp_q x) + ts F p (xp_held x) + F (OProto, body m) + o_tx F o
   = qs F (xp_q x') + ts F p (xp_held x') + o_rel F o)
  /\ no_send_done o = true /\ xp_ok x'.
Proof.
  unfold xpipe_tryput, xp_ok. intros Hx H.
  destruct (xp_closed x); [inj H; cbn [o_tx o_rel no_send_done]; repeat split; auto; lia|].
  destruct (xp_busy x) eqn:B; cbn [negb] in H.
  - destruct (length (xp_q x) <? cap); inj H; cbn [o_tx o_rel no_send_done xp_q xp_held xp_busy]; gnorm;
      (split; [lia|split; [reflexivity|]]).
    + (* queued: the new record is busy *)
      intros X. discriminate X.
    + (* no room: freed; the record is unchanged, and busy *)
      intros X. rewrite B in X. discriminate X.
  - inj H. cbn [o_tx o_rel no_send_done xp_q xp_held xp_busy]. rewrite (Hx eq_refl). gnorm.
    split; [lia|split; [reflexivity|]]. intros X; discriminate X.
Qed.
(* xsurv0_send_cb / xresp0_send_cb *)
Lemma xpipe_sent_sum F p x rv x' o :
  xpipe_sent p x rv = (x', o) ->
  (qs F (xp_q x) + (if N.eqb rv 0 then 0 else qs F (xp_held x)) + o_tx F o
   = qs F (xp_q x') + ts F p (xp_held x') + o_rel F o)
  /\ xp_ok x'.
Proof.
  unfold xpipe_sent, xp_ok. intros H. destruct (N.eqb rv 0); cbn [negb] in H.
  - destruct (xp_closed x); [inj H; cbn [o_tx o_rel xp_q xp_held xp_busy]; gnorm; split; [lia|auto]|].
    destruct (xp_q x) as [|m r]; inj H; cbn [o_tx o_rel xp_q xp_held xp_busy]; gnorm; (split; [lia|auto]).
    intros X; discriminate X.
  - inj H. cbn [xp_q xp_held xp_busy]. snorm. split; [lia|auto].
Qed.

(* xsurv0_sock_getq_cb *)
Lemma xfanout_sum F m : forall l l' o,
  Forall (fun px => xp_ok (snd px)) l -> xfanout m l = (l', o) ->
  (QH xp_q F l + TH xp_held F l
     + wsum (fun _ : pid * xpipe => F (OProto, body m)) (filter (fun px => negb (xp_closed (snd px))) l) + o_tx F o
   = QH xp_q F l' + TH xp_held F l' + o_rel F o)
  /\ no_send_done o = true /\ map fst l' = map fst l /\ Forall (fun px => xp_ok (snd px)) l'.
Proof.
  induction l as [|[p x] l IH]; intros l' o Hf H; cbn [xfanout] in H.
  - inj H. repeat split; auto.
  - inversion Hf as [|? ? Hx Hl]; subst. cbn [snd] in Hx.
    destruct (xfanout m l) as [r' o'] eqn:E. destruct (IH r' o' Hl eq_refl) as (S1 & S2 & S3 & S4).
    cbn [filter snd].
    destruct (xp_closed x) eqn:C; cbn [negb].
    + inj H. rewrite !QH_cons, !TH_cons. cbn [map fst].
      split; [lia|]. split; [auto|]. split; [now rewrite S3|]. constructor; auto.
    + destruct (xpipe_tryput XSURV_SENDQ p x m) as [x' o1] eqn:T. inj H.
      destruct (xpipe_tryput_sum F _ _ _ _ _ _ Hx T) as (T1 & T2 & T3).
      rewrite !QH_cons, !TH_cons. cbn [map fst]. gnorm.
      split; [lia|]. split.
      { clear - T2 S2. induction o1 as [|y o1 IHo]; [exact S2|]. cbn [app no_send_done] in *.
        destruct y; auto. destruct m; [auto|discriminate]. }
      split; [now rewrite S3|]. constructor; auto.
Qed.

Definition XSInv (s : xsurv) : Prop := pipes_inv (xs_pipes s).
(* the environment: a pipe id is started once *)
Definition raw_ok (pipes : list (pid * xpipe)) (o : pop) : Prop :=
  match o with PPipeStart p _ => has_id p (map fst pipes) = false | _ => True end.
Definition xsurv_ok (s : xsurv) (o : pop) : Prop := raw_ok (xs_pipes s) o.

Lemma xsurv_inv_init : XSInv xsurv_init.
Proof. split; cbn; constructor. Qed.

Lemma xsurv_omega fx F s :
  w_omega F (VXsurv.view fx) s = QH xp_q F (xs_pipes s) + US F (xs_urq s) + TH xp_held F (xs_pipes s).
Proof.
  unfold w_omega. cbn [VXsurv.view v_held v_tx v_att]. rewrite wsum_nil.
  pose proof (raw_omega F (xs_pipes s) (xs_urq s)). lia.
Qed.

Lemma pipes_inv_kset l p y : pipes_inv l -> xp_ok y -> pipes_inv (kset p y l).
Proof. intros [H1 H2] Hy. split; [now apply nodup_kset|]. apply forall_aset; auto. Qed.
Lemma pipes_inv_start l p : pipes_inv l -> has_id p (map fst l) = false -> pipes_inv (l ++ [(p, xpipe_init)]).
Proof.
  intros [H1 H2] Hp. split.
  - rewrite map_app. cbn [map fst]. apply ListX.nodup_snoc; [assumption|]. intros Hi. apply has_id_in in Hi. congruence.
  - apply Forall_app. split; [assumption|]. constructor; [|constructor]. intros _. reflexivity.
Qed.
Lemma pipes_inv_get l p x : pipes_inv l -> kget p l = Some x -> xp_ok x.
Proof. intros [_ H2] K. rewrite Forall_forall in H2. exact (H2 _ (kget_in _ _ _ K)). Qed.

Ltac xview fx := rewrite !(xsurv_omega fx); cbn [xs_pipes xs_urq].

(* any operation but a send: no output concerns a user's send, the law is the balance of the
   state's references with the outputs' *)
Lemma xsurv_quiet_sum fx F s o s' outs :
  XSInv s -> xsurv_ok s o -> (forall c a nb m, o <> PSend c a nb m) -> xsurv_step fx s o = (s', outs) ->
  w_omega F (VXsurv.view fx) s + op_add F (VXsurv.view fx) s o + o_tx F outs
  = w_omega F (VXsurv.view fx) s' + op_del F (VXsurv.view fx) s o + o_rel F outs.
Proof.
  intros [I1 I2] Hok Ho H.
  destruct o as [c a nb m|c a nb|a rv|p peer|p|p rv|p rv m|c op|c|c| |now]; [destruct (Ho c a nb m eq_refl)|..].
  - cbn [xsurv_step] in H. cbn [op_add op_del].
    destruct (urq_user_recv fx (xs_urq s) a nb) as [u' o1] eqn:E. inj H.
    destruct (urq_user_recv_sum F _ _ _ _ _ _ E) as [S1 S2]. xview fx. lia.
  - cbn [xsurv_step] in H. cbn [op_add op_del].
    destruct (urq_cancel (xs_urq s) a rv) as [u' o1] eqn:E. inj H.
    destruct (urq_cancel_sum F _ _ _ _ _ E) as [S1 S2]. xview fx. lia.
  - cbn [xsurv_step] in H. cbn [op_add op_del].
    destruct (negb (peer =? PROTO_RESPONDENT)%N); inj H; [cbn [o_tx o_rel]; lia|].
    xview fx. rewrite QH_snoc, TH_snoc. cbn [xpipe_init xp_q xp_held]. snorm.
  - cbn [xsurv_step] in H. cbn [op_add op_del].
    destruct (kget p (xs_pipes s)) as [x|] eqn:KP; [|inj H; cbn [o_tx o_rel]; lia].
    destruct (urq_drop_writer (xs_urq s) p) as [u' o1] eqn:E. inj H.
    destruct (urq_drop_writer_sum F _ _ _ _ E) as [S1 S2].
    pose proof (QTH_kset xp_q xp_held F p (mkXpipe [] (xp_busy x) (xp_held x) true) _ _ KP) as K1.
    cbn [xp_q xp_held] in K1. xview fx. snorm.
  - cbn [xsurv_step] in H. cbn [op_add op_del v_tx VXsurv.view].
    change (VXsurv.pipes_tx (xs_pipes s)) with (ptx xp_held (xs_pipes s)).
    destruct (kget p (xs_pipes s)) as [x|] eqn:KP.
    2:{ inj H. rewrite (tx_of_ptx_none xp_held p _ KP). destruct (rv =? 0)%N; snorm. }
    rewrite (tx_of_ptx_some xp_held p _ x I1 KP).
    destruct (xpipe_sent p x rv) as [x' o1] eqn:E. inj H.
    destruct (xpipe_sent_sum F _ _ _ _ _ E) as [S1 S2].
    pose proof (QTH_kset xp_q xp_held F p x' _ _ KP) as K1.
    xview fx. destruct (rv =? 0)%N; snorm.
  - cbn [xsurv_step] in H. cbn [op_add op_del v_rx VXsurv.view]. unfold VXsurv.rx.
    destruct (N.eqb_spec rv 0) as [->|Hrv]; cbn [negb] in H; [|inj H; cbn [o_tx o_rel]; lia].
    destruct (xsurv_recv (pm_body m)) as [hdr bd| |] eqn:SR; try (inj H; snorm).
    destruct (kget p (xs_pipes s)) as [x|] eqn:KP; [|inj H; snorm].
    destruct (xp_closed x); [inj H; snorm|].
    destruct (urq_put (xs_urq s) p _) as [u' o1] eqn:E. inj H.
    destruct (urq_put_sum F _ _ _ _ _ E) as [S1 S2]. xview fx. snorm.
  - cbn [xsurv_step] in H. cbn [op_add op_del].
    destruct (raw_setopt fx (xs_ttl s) (xs_urq s) (xs_uwcap s) c op) as [[[t u] w] o1] eqn:E. inj H.
    destruct (raw_setopt_sum F _ _ _ _ _ _ _ _ _ _ E) as [S1 S2]. xview fx. lia.
  - cbn [xsurv_step] in H. inj H. cbn [op_add op_del o_tx o_rel]. lia.
  - cbn [xsurv_step] in H. inj H. cbn [op_add op_del o_tx o_rel]. lia.
  - cbn [xsurv_step] in H. cbn [op_add op_del].
    destruct (urq_close (xs_urq s)) as [u' o1] eqn:E. inj H.
    destruct (urq_close_sum F _ _ _ E) as [S1 S2]. xview fx. lia.
  - cbn [xsurv_step] in H. inj H. cbn [op_add op_del o_tx o_rel]. lia.
Qed.

Lemma xsurv_law_sum fx s o s' outs :
  XSInv s -> xsurv_ok s o -> xsurv_step fx s o = (s', outs) -> law_sum (VXsurv.view fx) s o s' outs.
Proof.
  intros HI Hok H.
  destruct o as [c a nb m|c a nb|a rv|p peer|p|p rv|p rv m|c op|c|c| |now].
  2-12: apply law_sum_quiet; [reflexivity|intros; discriminate|reflexivity|reflexivity|reflexivity|intros F];
    apply (xsurv_quiet_sum fx F _ _ _ _ HI Hok); [intros; discriminate|exact H].
  cbn [xsurv_step] in H. intros F. cbv zeta.
  cbn [v_extra v_clones v_dups VXsurv.view]. unfold VXsurv.clones, VXsurv.accepted, no_keys.
  destruct (nb && negb (mf_nb fx)).
  - inj H. cbn [flat_map map app op_add op_del s_take s_del]. rewrite send_key_self.
    change (E_AGAIN =? 0)%N with false. cbn iota. snorm.
  - destruct (xfanout m (xs_pipes s)) as [ps o1] eqn:X. inj H.
    destruct (xfanout_sum F _ _ _ _ (proj2 HI) X) as (S1 & S2 & S3 & S4).
    destruct (s_quiet (VXsurv.view fx) F s (PSend c a nb m) o1 S2) as [A B].
    cbn [flat_map map app]. xview fx. cbn [op_add op_del s_take s_del]. rewrite send_key_self.
    change (E_OK =? 0)%N with true. cbn iota. rewrite A, B. snorm.
Qed.

Lemma xsurv_inv_step fx s o s' outs : XSInv s -> xsurv_ok s o -> xsurv_step fx s o = (s', outs) -> XSInv s'.
Proof.
  unfold XSInv. intros HI Hok H.
  destruct o as [c a nb m|c a nb|a rv|p peer|p|p rv|p rv m|c op|c|c| |now]; cbn [xsurv_step] in H.
  - destruct (nb && negb (mf_nb fx)); [inj H; exact HI|].
    destruct (xfanout m (xs_pipes s)) as [ps o1] eqn:X. inj H. destruct HI as [I1 I2].
    destruct (xfanout_sum (fun _ => 0) _ _ _ _ I2 X) as (_ & _ & S3 & S4). split; cbn [xs_pipes]; [now rewrite S3|exact S4].
  - destruct (urq_user_recv _ _ _ _). inj H. exact HI.
  - destruct (urq_cancel _ _ _). inj H. exact HI.
  - destruct (negb (peer =? PROTO_RESPONDENT)%N); inj H; [exact HI|]. apply pipes_inv_start; assumption.
  - destruct (kget p (xs_pipes s)) as [x|] eqn:KP; [|inj H; exact HI].
    destruct (urq_drop_writer _ _). inj H. cbn [xs_pipes]. apply pipes_inv_kset; [exact HI|].
    pose proof (pipes_inv_get _ _ _ HI KP) as Hx. unfold xp_ok in *. cbn [xp_busy xp_held]. exact Hx.
  - destruct (kget p (xs_pipes s)) as [x|] eqn:KP; [|inj H; exact HI].
    destruct (xpipe_sent p x rv) as [x' o1] eqn:E. inj H. cbn [xs_pipes].
    apply pipes_inv_kset; [exact HI|]. exact (proj2 (xpipe_sent_sum (fun _ => 0) _ _ _ _ _ E)).
  - split_step H; exact HI.
  - destruct (raw_setopt _ _ _ _ _ _) as [[[t u] w] o1]. inj H. exact HI.
  - inj H. exact HI.
  - inj H. exact HI.
  - destruct (urq_close _). inj H. exact HI.
  - inj H. exact HI.
Qed.

Theorem xsurv_proto_law : forall fx, proto_law (VXsurv.view fx) (xsurv_step fx) XSInv xsurv_ok.
Proof.
  intros fx s o s' outs HI Hok H. split; [exact (xsurv_inv_step fx s o s' outs HI Hok H)|]. split.
  - apply law_sum_eq. exact (xsurv_law_sum fx s o s' outs HI Hok H).
  - apply clones_held_intro. intros k Hk. right. left.
    cbn [v_clones VXsurv.view] in Hk. unfold VXsurv.clones in Hk.
    apply in_flat_map in Hk. destruct Hk as [m0 [Hm Hk]].
    apply in_map_iff in Hk. destruct Hk as [px [<- _]].
    destruct o as [c a nb m| | | | | | | | | | | ]; try destruct Hm.
    cbn [VXsurv.accepted] in Hm. cbn [xsurv_step] in H.
    destruct (nb && negb (mf_nb fx)); [destruct Hm|]. destruct Hm as [<-|[]].
    destruct (xfanout m (xs_pipes s)) as [ps o1]. inj H.
    exists a. split; [left; reflexivity|apply send_key_self].
Qed.

(* survey sent to two pipes, transport completion, a response queued and received, a blocked
   receive served by the next response, receive buffer resized, pipe close, socket close *)
Example xsurv_ok_nonvacuous :
  ops_ok (xsurv_step mqfix_none) xsurv_ok xsurv_init
    [PPipeStart 1 PROTO_RESPONDENT; PPipeStart 2 PROTO_RESPONDENT;
     PSend None 1 false (mkPmsg [128; 0; 0; 1]%N [7%N]); PSendDone 1 0; PSendDone 2 0;
     PRecvDone 1 0 (mkPmsg [] [128; 0; 0; 1; 9]%N); PRecv None 2 false; PRecv None 3 false;
     PRecvDone 2 0 (mkPmsg [] [128; 0; 0; 1; 10]%N);
     PSetOpt None (ORecvBuf 4); PCancel 4 20; PPipeClose 1; PSockClose].
Proof. vm_compute. repeat split. Qed.

Definition XRInv (s : xresp) : Prop := pipes_inv (xr_pipes s).
Definition xresp_ok (s : xresp) (o : pop) : Prop := raw_ok (xr_pipes s) o.

Lemma xresp_inv_init : XRInv xresp_init.
Proof. split; cbn; constructor. Qed.

Lemma xresp_omega F s :
  w_omega F view_xresp s = QH xp_q F (xr_pipes s) + US F (xr_urq s) + TH xp_held F (xr_pipes s).
Proof.
  unfold w_omega. cbn [view_xresp VXresp.view v_held v_tx v_att]. rewrite wsum_nil.
  pose proof (raw_omega F (xr_pipes s) (xr_urq s)). lia.
Qed.

Ltac rview := rewrite !xresp_omega; cbn [xr_pipes xr_urq].

(* raw RESPONDENT keeps raw SURVEYOR's state and differs from it in three operations: the peer
   it accepts, where a send is routed, how an arrival is decoded *)
Definition as_xsurv (s : xresp) : xsurv := mkXsurv (xr_pipes s) (xr_urq s) (xr_uwcap s) (xr_ttl s).
Definition as_xresp (s : xsurv) : xresp := mkXresp (xs_pipes s) (xs_urq s) (xs_uwcap s) (xs_ttl s).
Definition xresp_own (o : pop) : bool :=
  match o with PSend _ _ _ _ | PPipeStart _ _ | PRecvDone _ _ _ => true | _ => false end.
Lemma xresp_as_xsurv fx s o : xresp_own o = false ->
  xresp_step fx s o = (as_xresp (fst (xsurv_step fx (as_xsurv s) o)), snd (xsurv_step fx (as_xsurv s) o)).
Proof.
  intros Ho. destruct s as [ps u w t].
  destruct o as [c a nb m|c a nb|a rv|p peer|p|p rv|p rv m|c op|c|c| |now]; try discriminate Ho;
    cbn [xresp_step xsurv_step as_xsurv xr_pipes xr_urq xr_uwcap xr_ttl xs_pipes xs_urq xs_uwcap xs_ttl].
  - destruct (urq_user_recv fx u a nb). reflexivity.
  - destruct (urq_cancel u a rv). reflexivity.
  - destruct (kget p ps); [|reflexivity]. destruct (urq_drop_writer u p). reflexivity.
  - destruct (kget p ps); [|reflexivity]. destruct (xpipe_sent p x rv). reflexivity.
  - destruct (raw_setopt fx t u w c op) as [[[t' u'] w'] o1]. reflexivity.
  - reflexivity.
  - reflexivity.
  - reflexivity.
  - reflexivity.
Qed.

Lemma xresp_law_sum fx s o s' outs :
  XRInv s -> xresp_ok s o -> xresp_step fx s o = (s', outs) -> law_sum view_xresp s o s' outs.
Proof.
  intros HI Hok H.
  destruct o as [c a nb m|c a nb|a rv|p peer|p|p rv|p rv m|c op|c|c| |now].
  2-12: apply law_sum_quiet; [reflexivity|intros; discriminate|reflexivity|reflexivity|reflexivity|intros F].
  2,3,5,6,8-12: rewrite xresp_as_xsurv in H by reflexivity; inj H;
    exact (xsurv_quiet_sum fx F (as_xsurv s) _ _ _ HI Hok ltac:(intros; discriminate) (surjective_pairing _)).
  - cbn [xresp_step] in H. intros F. cbv zeta.
    change (v_extra view_xresp s (PSend c a nb m) outs) with (@nil pmsg).
    change (v_clones view_xresp s (PSend c a nb m) ++ v_dups view_xresp s (PSend c a nb m)) with (@nil key).
    cbn [map]. rewrite app_nil_r, wsum_nil. cbn [op_add op_del].
    destruct (nb && negb (mf_nb fx)).
    { inj H. cbn [s_take s_del]. rewrite send_key_self. change (E_AGAIN =? 0)%N with false. cbn iota. snorm. }
    destruct (xresp_send (pm_hdr m)) as [[id hdr']|].
    2:{ inj H. cbn [s_take s_del]. rewrite send_key_self. change (E_OK =? 0)%N with true. cbn iota. snorm. }
    destruct (kget id (xr_pipes s)) as [x|] eqn:KP.
    2:{ inj H. cbn [s_take s_del]. rewrite send_key_self. change (E_OK =? 0)%N with true. cbn iota. snorm. }
    destruct (xp_closed x).
    { inj H. cbn [s_take s_del]. rewrite send_key_self. change (E_OK =? 0)%N with true. cbn iota. snorm. }
    destruct (xpipe_tryput XRESP_SENDQ id x _) as [x' o1] eqn:T. inj H.
    destruct (xpipe_tryput_sum F _ _ _ _ _ _ (pipes_inv_get _ _ _ HI KP) T) as (T1 & T2 & T3).
    destruct (s_quiet view_xresp F s (PSend c a nb m) o1 T2) as [A B].
    pose proof (QTH_kset xp_q xp_held F id x' _ _ KP) as K1.
    rview. cbn [s_take s_del]. rewrite send_key_self. change (E_OK =? 0)%N with true. cbn iota. rewrite A, B. snorm.
  - cbn [xresp_step] in H. cbn [op_add op_del].
    destruct (negb (peer =? PROTO_SURVEYOR)%N); inj H; [cbn [o_tx o_rel]; lia|].
    rview. rewrite QH_snoc, TH_snoc. cbn [xpipe_init xp_q xp_held]. snorm.
  - cbn [xresp_step] in H. cbn [op_add op_del v_rx view_xresp VXresp.view]. unfold VXresp.rx.
    destruct (N.eqb_spec rv 0) as [->|Hrv]; cbn [negb] in H; [|inj H; cbn [o_tx o_rel]; lia].
    destruct (xresp_recv p (xr_ttl s) (pm_body m)) as [hdr bd| |] eqn:SR; try (inj H; snorm).
    destruct (kget p (xr_pipes s)) as [x|] eqn:KP; [|inj H; snorm].
    destruct (xp_closed x); [inj H; snorm|].
    destruct (urq_put (xr_urq s) p _) as [u' o1] eqn:E. inj H.
    destruct (urq_put_sum F _ _ _ _ _ E) as [S1 S2]. rview. snorm.
Qed.

Lemma xresp_inv_step fx s o s' outs : XRInv s -> xresp_ok s o -> xresp_step fx s o = (s', outs) -> XRInv s'.
Proof.
  unfold XRInv. intros HI Hok H.
  destruct o as [c a nb m|c a nb|a rv|p peer|p|p rv|p rv m|c op|c|c| |now].
  2,3,5,6,8-12: rewrite xresp_as_xsurv in H by reflexivity; inj H;
    exact (xsurv_inv_step fx (as_xsurv s) _ _ _ HI Hok (surjective_pairing _)).
  all: cbn [xresp_step] in H.
  - destruct (nb && negb (mf_nb fx)); [inj H; exact HI|].
    destruct (xresp_send (pm_hdr m)) as [[id hdr']|]; [|inj H; exact HI].
    destruct (kget id (xr_pipes s)) as [x|] eqn:KP; [|inj H; exact HI].
    destruct (xp_closed x); [inj H; exact HI|].
    destruct (xpipe_tryput XRESP_SENDQ id x _) as [x' o1] eqn:T. inj H. cbn [xr_pipes].
    apply pipes_inv_kset; [exact HI|].
    exact (proj2 (proj2 (xpipe_tryput_sum (fun _ => 0) _ _ _ _ _ _ (pipes_inv_get _ _ _ HI KP) T))).
  - destruct (negb (peer =? PROTO_SURVEYOR)%N); inj H; [exact HI|]. apply pipes_inv_start; assumption.
  - split_step H; exact HI.
Qed.

Theorem xresp_proto_law : forall fx, proto_law view_xresp (xresp_step fx) XRInv xresp_ok.
Proof.
  intros fx s o s' outs HI Hok H. split; [exact (xresp_inv_step fx s o s' outs HI Hok H)|]. split.
  - apply law_sum_eq. exact (xresp_law_sum fx s o s' outs HI Hok H).
  - apply clones_held_none. reflexivity.
Qed.

(* a survey arrives (ttl word, id word, body), is received, the reply is routed back by the
   pipe id in its header; a reply for an unknown pipe is discarded; a second survey waits in
   the queue; buffer resize, cancel, pipe close, socket close *)
Example xresp_ok_nonvacuous :
  ops_ok (xresp_step mqfix_none) xresp_ok xresp_init
    [PPipeStart 1 PROTO_SURVEYOR; PRecv None 1 false;
     PRecvDone 1 0 (mkPmsg [] [128; 0; 0; 1; 9]%N);
     PSend None 2 false (mkPmsg [0; 0; 0; 1; 128; 0; 0; 1]%N [5%N]); PSendDone 1 0;
     PSend None 3 false (mkPmsg [0; 0; 0; 9; 128; 0; 0; 1]%N [6%N]);
     PRecvDone 1 0 (mkPmsg [] [128; 0; 0; 2; 10]%N);
     PSetOpt None (ORecvBuf 4); PCancel 4 20; PPipeClose 1; PSockClose].
Proof. vm_compute. repeat split. Qed.

Print Assumptions surv_proto_law.
Print Assumptions xsurv_proto_law.
Print Assumptions xresp_proto_law.

(* after the close sequence the protocol owns nothing but queue contents
   that its fini functions free (Ledger/LedgerThms.v: drained) *)

(* the operations of a close sequence *)
Definition closing (o : pop) : bool :=
  match o with PPipeClose _ | PSendDone _ _ | PCtxClose _ | PSockClose => true | _ => false end.

Section CloseGeneric.
  Context {St : Type} (step : St -> pop -> St * list pout).

  Lemma ops_ok_closing (ok : St -> pop -> Prop) :
    (forall s o, closing o = true -> ok s o) -> forall ops s, forallb closing ops = true -> ops_ok step ok s ops.
  Proof.
    intros Hok. induction ops as [|o ops IH]; intros s H; cbn [ops_ok forallb] in *; [exact I|].
    apply andb_true_iff in H. destruct H as [H1 H2]. split; [apply Hok, H1|apply IH, H2].
  Qed.
  (* per pipe record the state knows: pipe_close, then the failing completion of the send in flight *)
  Context {A : Type} (pipes : St -> list (N * A)) (held : A -> list pmsg) (cl dn : A -> A).
  Definition pipe_script (l : list (N * A)) : list pop :=
    flat_map (fun px => PPipeClose (fst px) :: if isnil (held (snd px)) then [] else [PSendDone (fst px) E_CLOSED]) l.
  Hypothesis Hcl : forall s p x, kget p (pipes s) = Some x -> pipes (fst (step s (PPipeClose p))) = kset p (cl x) (pipes s).
  Hypothesis Hdn : forall s p x, kget p (pipes s) = Some x -> pipes (fst (step s (PSendDone p E_CLOSED))) = kset p (dn x) (pipes s).
  Hypothesis held_cl : forall x, held (cl x) = held x.
  Hypothesis held_dn : forall x, held (dn x) = [].

  Lemma closing_pipe_script l : forallb closing (pipe_script l) = true.
  Proof.
    induction l as [|[p x] l IH]; [reflexivity|]. cbn [pipe_script flat_map fst snd]. fold (pipe_script l).
    destruct (isnil (held x)); cbn [app forallb closing andb]; exact IH.
  Qed.

  Lemma kget_app_notin p (a b : list (N * A)) : ~ In p (map fst a) -> kget p (a ++ b) = kget p b.
  Proof. intros H. exact (ReqRepProofs.lookup_app_none p a b (ReqRepProofs.lookup_notin_none p a H)). Qed.
  Lemma kset_app_notin p y (a b : list (N * A)) : ~ In p (map fst a) -> kset p y (a ++ b) = a ++ kset p y b.
  Proof.
    induction a as [|[k v] a IH]; cbn [app kset map fst]; intros H; [reflexivity|].
    destruct (N.eqb_spec k p); [exfalso; apply H; left; assumption|]. f_equal. apply IH. intros Hi. apply H. right. exact Hi.
  Qed.

  Lemma pipe_script_run : forall todo done s,
    pipes s = done ++ todo -> NoDup (map fst (done ++ todo)) -> Forall (fun px => held (snd px) = []) done ->
    Forall (fun px => held (snd px) = []) (pipes (run step s (pipe_script todo))).
  Proof.
    induction todo as [|[p x] todo IH]; intros done s E ND FD.
    - cbn [pipe_script flat_map run]. rewrite E, app_nil_r. exact FD.
    - cbn [pipe_script flat_map fst snd]. fold (pipe_script todo).
      assert (Hp : ~ In p (map fst done)).
      { rewrite map_app in ND. cbn [map fst] in ND. apply NoDup_remove_2 in ND. intros Hi. apply ND. apply in_or_app. left. exact Hi. }
      assert (K0 : kget p (pipes s) = Some x).
      { rewrite E, (kget_app_notin p done _ Hp). cbn [kget]. now rewrite N.eqb_refl. }
      assert (E1 : pipes (fst (step s (PPipeClose p))) = (done ++ [(p, cl x)]) ++ todo).
      { rewrite (Hcl s p x K0), E, (kset_app_notin p _ done _ Hp). cbn [kset]. rewrite N.eqb_refl, <- app_assoc. reflexivity. }
      assert (NDk : forall y, NoDup (map fst ((done ++ [(p, y)]) ++ todo))).
      { intros y. rewrite <- app_assoc. cbn [app]. rewrite map_app in *. exact ND. }
      destruct (held x) as [|m0 r0] eqn:Hx; cbn [isnil app run].
      + apply (IH (done ++ [(p, cl x)]) _ E1 (NDk _)).
        apply Forall_app. split; [exact FD|]. constructor; [|constructor]. cbn [snd]. now rewrite held_cl.
      + set (s1 := fst (step s (PPipeClose p))) in *.
        assert (K1 : kget p (pipes s1) = Some (cl x)).
        { rewrite E1, <- app_assoc, (kget_app_notin p done _ Hp). cbn [app kget]. now rewrite N.eqb_refl. }
        assert (E2 : pipes (fst (step s1 (PSendDone p E_CLOSED))) = (done ++ [(p, dn (cl x))]) ++ todo).
        { rewrite (Hdn s1 p _ K1), E1, <- !app_assoc, (kset_app_notin p _ done _ Hp). cbn [app kset]. now rewrite N.eqb_refl. }
        apply (IH (done ++ [(p, dn (cl x))]) _ E2 (NDk _)).
        apply Forall_app. split; [exact FD|]. constructor; [|constructor]. cbn [snd]. apply held_dn.
  Qed.
End CloseGeneric.

(* the socket core's close sequence as the protocol sees it: every pipe the state knows gets its
   pipe_close, every transport send still in flight fails (PSendDone p E_CLOSED), every open context
   is closed (context c has key c + 1; key 0 is the socket's own), then the socket's own close *)
Definition surv_ctx_script (l : list (N * sctx)) : list pop :=
  map (fun kc => PCtxClose (fst kc - 1)) (filter (fun kc => negb (N.eqb (fst kc) 0)) l).
Definition surv_close_script (s : surv) : list pop :=
  pipe_script sp_held (sv_pipes s) ++ surv_ctx_script (sv_ctxs s) ++ [PSockClose].

Theorem surv_close_drains : forall nbfix s, SLInv s ->
  ops_ok (surv_step nbfix) surv_ok s (surv_close_script s) /\
  drained view_surv (run (surv_step nbfix) s (surv_close_script s)).
Proof.
  intros nbfix s (I1 & I2 & I3). split.
  - apply ops_ok_closing; [intros s0 o; destruct o; cbn; intros; try exact I; discriminate|].
    unfold surv_close_script. rewrite !forallb_app, closing_pipe_script. cbn [andb forallb closing].
    rewrite andb_true_r. unfold surv_ctx_script. induction (filter _ (sv_ctxs s)); cbn; auto.
  - unfold surv_close_script. rewrite run_app.
    set (s1 := run (surv_step nbfix) s (pipe_script sp_held (sv_pipes s))).
    assert (F1 : Forall (fun px => sp_held (snd px) = []) (sv_pipes s1)).
    { apply (pipe_script_run (surv_step nbfix) sv_pipes sp_held
               (fun x => mkSpipe [] (sp_busy x) (sp_held x) true)
               (fun x => mkSpipe (sp_q x) (sp_busy x) [] (sp_closed x))) with (done := []).
      - intros s0 p x K. cbn [surv_step]. rewrite K. reflexivity.
      - intros s0 p x K. cbn [surv_step]. rewrite K. reflexivity.
      - reflexivity.
      - reflexivity.
      - reflexivity.
      - exact I2.
      - constructor. }
    assert (E2 : sv_pipes (run (surv_step nbfix) s1 (surv_ctx_script (sv_ctxs s) ++ [PSockClose])) = sv_pipes s1).
    { apply (run_keeps (surv_step nbfix) sv_pipes (fun o => (exists c, o = PCtxClose c) \/ o = PSockClose)).
      - intros s0 o [[c ->]| ->]; cbn [surv_step ctx_abort].
        + destruct (kget (ckey (Some c)) (sv_ctxs s0)); reflexivity.
        + destruct (kget 0%N (sv_ctxs s0)); reflexivity.
      - apply Forall_app. split; [|constructor; [right; reflexivity|constructor]].
        unfold surv_ctx_script. apply Forall_forall. intros o Hi. apply in_map_iff in Hi. destruct Hi as [kc [<- _]]. left. eauto. }
    split; [|split].
    + cbn [v_tx view_surv VSurv.view]. rewrite E2. exact (ptx_all_empty sp_held _ F1).
    + reflexivity.
    + apply Permutation_refl.
Qed.

Definition xsurv_close_script (s : xsurv) : list pop := pipe_script xp_held (xs_pipes s) ++ [PSockClose].
Definition xresp_close_script (s : xresp) : list pop := pipe_script xp_held (xr_pipes s) ++ [PSockClose].

Lemma raw_ok_closing pipes o : closing o = true -> raw_ok pipes o.
Proof. destruct o; cbn; intros; try exact I; discriminate. Qed.
Lemma closing_raw_script (l : list (N * xpipe)) : forallb closing (pipe_script xp_held l ++ [PSockClose]) = true.
Proof. rewrite forallb_app, closing_pipe_script. reflexivity. Qed.

Theorem xsurv_close_drains : forall fx s, XSInv s ->
  ops_ok (xsurv_step fx) xsurv_ok s (xsurv_close_script s) /\
  drained (VXsurv.view fx) (run (xsurv_step fx) s (xsurv_close_script s)).
Proof.
  intros fx s [I1 I2]. split.
  - apply ops_ok_closing; [intros s0 o; apply raw_ok_closing|apply closing_raw_script].
  - unfold xsurv_close_script. rewrite run_app.
    set (s1 := run (xsurv_step fx) s (pipe_script xp_held (xs_pipes s))).
    assert (F1 : Forall (fun px => xp_held (snd px) = []) (xs_pipes s1)).
    { apply (pipe_script_run (xsurv_step fx) xs_pipes xp_held
               (fun x => mkXpipe [] (xp_busy x) (xp_held x) true)
               (fun x => mkXpipe (xp_q x) (xp_busy x) [] (xp_closed x))) with (done := []).
      - intros s0 p x K. cbn [xsurv_step]. rewrite K. destruct (urq_drop_writer (xs_urq s0) p). reflexivity.
      - intros s0 p x K. cbn [xsurv_step]. rewrite K. reflexivity.
      - reflexivity.
      - reflexivity.
      - reflexivity.
      - exact I1.
      - constructor. }
    cbn [run xsurv_step urq_close fst]. unfold drained.
    cbn [v_tx v_att v_held v_fini VXsurv.view xs_pipes xs_urq]. split; [|split].
    + exact (ptx_all_empty xp_held _ F1).
    + reflexivity.
    + unfold VXsurv.urq_held. cbn [uq_q uq_writers map app]. rewrite !app_nil_r. apply Permutation_refl.
Qed.

Lemma xresp_run_as_xsurv fx : forall ops s, forallb closing ops = true ->
  run (xresp_step fx) s ops = as_xresp (run (xsurv_step fx) (as_xsurv s) ops).
Proof.
  induction ops as [|o ops IH]; intros s H; cbn [run forallb] in *; [destruct s; reflexivity|].
  apply andb_true_iff in H. destruct H as [Ho H].
  rewrite xresp_as_xsurv by (destruct o; try discriminate Ho; reflexivity). cbn [fst].
  rewrite (IH _ H). destruct (fst (xsurv_step fx (as_xsurv s) o)). reflexivity.
Qed.

Theorem xresp_close_drains : forall fx s, XRInv s ->
  ops_ok (xresp_step fx) xresp_ok s (xresp_close_script s) /\
  drained view_xresp (run (xresp_step fx) s (xresp_close_script s)).
Proof.
  intros fx s HI. split.
  - apply ops_ok_closing; [intros s0 o; apply raw_ok_closing|apply closing_raw_script].
  - unfold xresp_close_script. rewrite xresp_run_as_xsurv by apply closing_raw_script.
    exact (proj2 (xsurv_close_drains fx (as_xsurv s) HI)).
Qed.

Print Assumptions surv_close_drains.
Print Assumptions xsurv_close_drains.
Print Assumptions xresp_close_drains.
