(* OwnXReqRep: the ledger law of raw REQ and raw REP
   (src/sp/protocol/reqrep0/xreq.c, src/sp/protocol/reqrep0/xrep.c) together with the
   socket core's upper queues they use (src/core/msgqueue.c: nni_msgq_run_putq,
   nni_msgq_run_getq, nni_msgq_aio_put / _get, nni_msgq_resize, nni_msgq_close).

   Models: Proto/XReqModel.v (xreq_step, the generic msgq [mq G T]) and Proto/XRepModel.v
   (xrep_step).  Views: Ledger/Views.v (VXreq.view = view_xreq, VXrep.view = view_xrep). *)
From Coq Require Import List Arith NArith Bool Lia Permutation.
From NngV Require Import Proto.Common Proto.ReqRepBacktrace Proto.ReqModel Proto.XReqModel Proto.XRepModel
  Ledger.Ledger Ledger.LedgerProofs Ledger.LawTac Ledger.Keyed Ledger.Views Ledger.LedgerThms.
From NngV Require Proto.ReqRepProofs.
From NngV Require Base.ListX.
Import ListNotations.

Lemma nodup_app_r {A} (a b : list A) : NoDup (a ++ b) -> NoDup b.
Proof. induction a; cbn; intros H; [exact H|]. inversion H; auto. Qed.
Lemma map_free_snd {A} (l : list (A * pmsg)) : map (fun x => Free (snd x)) l = map Free (map snd l).
Proof. now rewrite map_map. Qed.

(* the generic msgq: every run of the waiter queues serves a prefix of the blocked putters
   and a prefix of the getters, and the messages of the served putters are those that
   were handed to getters or have come to stay in the queue *)
Section MqCons.
  Context {G T : Type}.
  Fixpoint puts (ev : list (mqev G T)) : list T :=
    match ev with [] => [] | EvPut t :: r => t :: puts r | _ :: r => puts r end.
  Fixpoint gots (ev : list (mqev G T)) : list pmsg :=
    match ev with [] => [] | EvGot _ m :: r => m :: gots r | _ :: r => gots r end.
  Lemma puts_app a b : puts (a ++ b) = puts a ++ puts b.
  Proof. induction a as [|[g m|t] a IH]; cbn [app puts]; now rewrite ?IH. Qed.
  Lemma gots_app a b : gots (a ++ b) = gots a ++ gots b.
  Proof. induction a as [|[g m|t] a IH]; cbn [app gots]; now rewrite ?IH. Qed.

  Definition mq_cons (q q' : mq G T) (ev : list (mqev G T)) : Prop :=
    exists l gl, mq_putq q = l ++ mq_putq q' /\ mq_getq q = gl ++ mq_getq q' /\ puts ev = map fst l /\
      forall W : pmsg -> nat, wsum W (mq_q q) + wsum (fun x => W (snd x)) l = wsum W (mq_q q') + wsum W (gots ev).

  Lemma mq_cons_refl q : mq_cons q q [].
  Proof. exists [], []. repeat split. Qed.
  Lemma mq_cons_trans q1 q2 q3 e1 e2 : mq_cons q1 q2 e1 -> mq_cons q2 q3 e2 -> mq_cons q1 q3 (e1 ++ e2).
  Proof.
    intros (l1 & g1 & A1 & B1 & C1 & D1) (l2 & g2 & A2 & B2 & C2 & D2). exists (l1 ++ l2), (g1 ++ g2).
    rewrite A1, A2, B1, B2, puts_app, gots_app, C1, C2, map_app, !app_assoc. repeat split.
    intros W. specialize (D1 W). specialize (D2 W). rewrite !wsum_app. lia.
  Qed.
  (* one more putter served in front: its message stays (no getter) or goes to the first getter *)
  Lemma mq_cons_put q q1 q' ev t m pr gs qq :
    mq_putq q = (t, m) :: pr -> mq_putq q1 = pr -> mq_getq q = gs ++ mq_getq q1 ->
    (forall W : pmsg -> nat, wsum W (mq_q q) + W m = wsum W (mq_q q1) + wsum W qq) ->
    mq_cons q1 q' ev -> forall ev0, puts ev0 = [t] -> gots ev0 = qq -> mq_cons q q' (ev0 ++ ev).
  Proof.
    intros EP E1 EG HW (l & gl & A & B & C & D) ev0 P0 G0. exists ((t, m) :: l), (gs ++ gl).
    rewrite EP, EG, <- E1, A, B, puts_app, gots_app, P0, G0, C, app_assoc. repeat split.
    intros W. specialize (D W). specialize (HW W). rewrite wsum_cons, wsum_app. cbn [snd]. lia.
  Qed.

  Lemma run_putq_cons f : forall q q' ev, mq_run_putq G T f q = (q', ev) -> mq_cons q q' ev.
  Proof.
    induction f as [|f IH]; intros q q' ev H; cbn [mq_run_putq] in H; [injection H as <- <-; apply mq_cons_refl|].
    destruct (mq_putq q) as [|[t m] pr] eqn:EP; [injection H as <- <-; apply mq_cons_refl|].
    destruct (mq_getq q) as [|g gr] eqn:EG.
    - destruct (length (mq_q q) <? mq_cap q); [|injection H as <- <-; apply mq_cons_refl].
      destruct (mq_run_putq G T f _) as [q1 e1] eqn:R. injection H as <- <-.
      refine (mq_cons_put q _ _ _ t m pr [] [] EP _ _ _ (IH _ _ _ R) [EvPut t] eq_refl eq_refl); [reflexivity|exact EG|].
      intros W. cbn [mq_q]. rewrite wsum_app, wsum_cons, !wsum_nil. lia.
    - destruct (mq_run_putq G T f _) as [q1 e1] eqn:R. injection H as <- <-.
      refine (mq_cons_put q _ _ _ t m pr [g] [m] EP _ _ _ (IH _ _ _ R) [EvGot g m; EvPut t] eq_refl eq_refl);
        [reflexivity|exact EG|].
      intros W. cbn [mq_q]. rewrite wsum_cons, wsum_nil. lia.
  Qed.
  Lemma run_getq_cons f : forall q q' ev, mq_run_getq G T f q = (q', ev) -> mq_cons q q' ev.
  Proof.
    induction f as [|f IH]; intros q q' ev H; cbn [mq_run_getq] in H; [injection H as <- <-; apply mq_cons_refl|].
    destruct (mq_getq q) as [|g gr] eqn:EG; [injection H as <- <-; apply mq_cons_refl|].
    destruct (mq_q q) as [|m rest] eqn:EQ.
    - destruct (mq_putq q) as [|[t m] pr] eqn:EP; [injection H as <- <-; apply mq_cons_refl|].
      destruct (mq_run_getq G T f _) as [q1 e1] eqn:R. injection H as <- <-.
      refine (mq_cons_put q _ _ _ t m pr [g] [m] EP _ _ _ (IH _ _ _ R) [EvPut t; EvGot g m] eq_refl eq_refl);
        [reflexivity|exact EG|].
      intros W. cbn [mq_q]. rewrite EQ, wsum_cons, !wsum_nil. lia.
    - destruct (mq_run_getq G T f _) as [q1 e1] eqn:R. injection H as <- <-.
      destruct (IH _ _ _ R) as (l & gl & A & B & C & D). cbn [mq_q mq_putq mq_getq] in A, B, D.
      exists l, (g :: gl). rewrite EG, B. repeat split; [exact A|exact C|].
      intros W. specialize (D W). rewrite EQ. cbn [gots]. rewrite !wsum_cons. lia.
  Qed.

  Lemma mq_put_cons (q q' : mq G T) t m ev : mq_put q t m = (q', ev) ->
    mq_cons (mkMq (mq_q q) (mq_cap q) (mq_getq q) (mq_putq q ++ [(t, m)])) q' ev.
  Proof. apply run_putq_cons. Qed.
  Lemma mq_rerun_cons (q q' : mq G T) ev : mq_rerun q = (q', ev) -> mq_cons q q' ev.
  Proof.
    unfold mq_rerun. destruct (mq_run_putq G T _ q) as [q1 e1] eqn:R1.
    destruct (mq_run_getq G T _ q1) as [q2 e2] eqn:R2. intros H. injection H as <- <-.
    exact (mq_cons_trans _ _ _ _ _ (run_putq_cons _ _ _ _ R1) (run_getq_cons _ _ _ _ R2)).
  Qed.
  Lemma mq_get_cons b (q q' : mq G T) g ev : mq_get b q g = (q', ev) ->
    mq_cons (mkMq (mq_q q) (mq_cap q) (mq_getq q ++ [g]) (mq_putq q)) q' ev.
  Proof.
    unfold mq_get. destruct (mq_run_getq G T _ _) as [q1 e1] eqn:R1. apply run_getq_cons in R1.
    destruct b; [destruct (mq_run_putq G T _ q1) as [q2 e2] eqn:R2|]; intros H; injection H as <- <-; [|exact R1].
    exact (mq_cons_trans _ _ _ _ _ R1 (run_putq_cons _ _ _ _ R2)).
  Qed.
  (* nni_msgq_resize runs the waiter queues again only with the repair *)
  Lemma maybe_rerun_cons (b : bool) (q q' : mq G T) ev :
    (if b then mq_rerun q else (q, [])) = (q', ev) -> mq_cons q q' ev.
  Proof. destruct b; [apply mq_rerun_cons|]. intros H. injection H as <- <-. apply mq_cons_refl. Qed.
End MqCons.

(* the upper write queue (getters = pipes, putters = user aios with their message):
   what its runners do to the references, in terms of the events they emit *)
Section UwqSums.
  Variable F : owner * key -> nat.
  Context {St : Type} (V : view St) (s : St) (o : pop).

  Lemma o_tx_uwq ev : o_tx F (flat_map uwq_out ev) = wsum (fun x => F (OPipe (fst x), body (snd x))) (uwq_sent ev).
  Proof.
    induction ev as [|e ev IH]; [reflexivity|]. destruct e; cbn [flat_map uwq_out app uwq_sent o_tx].
    - rewrite wsum_cons, IH. reflexivity.
    - exact IH.
  Qed.
  Lemma uwq_outs ev :
    s_take F V s o (flat_map uwq_out ev) = s_take F V s o (fail_aios E_OK (puts ev)) /\
    s_del F V s o (flat_map uwq_out ev) = s_del F V s o (fail_aios E_OK (puts ev)) /\
    o_rel F (flat_map uwq_out ev) = wsum (fun m => F (OProto, body m)) (gots ev).
  Proof.
    induction ev as [|[g m|t] ev (I1 & I2 & I3)].
    - repeat split.
    - (* EvGot g m: a TranSend, which completes no send and releases the protocol's reference *)
      cbn [flat_map uwq_out app puts gots s_take s_del o_rel]. rewrite wsum_cons, I3. repeat split; assumption.
    - (* EvPut t: the completion of t's send *)
      cbn [flat_map uwq_out app puts gots fail_aios map s_take s_del o_rel]. fold (fail_aios E_OK (puts ev)).
      rewrite I1, I2. repeat split. exact I3.
  Qed.

  (* every blocked putter's aio still carries its message *)
  Definition putq_attached (l : list (aioid * pmsg)) : Prop :=
    forall t m, In (t, m) l -> send_key V s o t = Some (body m).

  Definition uwq_bal (q q' : mq pid aioid) (ev : list (mqev pid aioid)) : Prop :=
    wsum (fun m => F (OProto, body m)) (mq_q q) + wsum (fun x => F (OAio (fst x), body (snd x))) (mq_putq q)
      + s_take F V s o (flat_map uwq_out ev)
    = wsum (fun m => F (OProto, body m)) (mq_q q') + wsum (fun x => F (OAio (fst x), body (snd x))) (mq_putq q')
      + s_del F V s o (flat_map uwq_out ev) + o_rel F (flat_map uwq_out ev).

  Lemma uwq_cons_bal q q' ev : putq_attached (mq_putq q) -> mq_cons q q' ev -> uwq_bal q q' ev.
  Proof.
    intros K (l & gl & A & _ & C & D). unfold uwq_bal. destruct (uwq_outs ev) as (E1 & E2 & E3).
    destruct (s_compl_keyed V F s o E_OK l) as [S1 S2].
    { intros a m Hi. apply K. rewrite A. apply in_or_app. left. exact Hi. }
    rewrite E1, E2, E3, C, S1, S2, A, wsum_app. specialize (D (fun m => F (OProto, body m))).
    change (E_OK =? 0)%N with true. cbn iota. lia.
  Qed.
End UwqSums.

(* the upper read queue (getters = user aios, putters = pipes with their message) *)
Section UrqSums.
  Variable F : owner * key -> nat.

  Lemma urq_quiet ev : no_send_done (map urq_out ev) = true.
  Proof. induction ev as [|e ev IH]; [reflexivity|]. destruct e; cbn; exact IH. Qed.
  Lemma o_tx_urq ev : o_tx F (map urq_out ev) = 0.
  Proof. induction ev as [|e ev IH]; [reflexivity|]. destruct e; cbn; exact IH. Qed.
  Lemma o_rel_urq ev : o_rel F (map urq_out ev) = wsum (fun m => F (OProto, body m)) (gots ev).
  Proof.
    induction ev as [|[a m|p] ev IH]; [reflexivity| |]; cbn [map urq_out o_rel gots]; [|exact IH].
    change (E_OK =? 0)%N with true. cbn iota. rewrite wsum_cons, IH. reflexivity.
  Qed.

  Definition urq_bal (q q' : urq) (ev : list (mqev aioid pid)) : Prop :=
    wsum (fun m => F (OProto, body m)) (mq_q q) + wsum (fun x => F (OProto, body (snd x))) (mq_putq q)
    = wsum (fun m => F (OProto, body m)) (mq_q q') + wsum (fun x => F (OProto, body (snd x))) (mq_putq q')
      + o_rel F (map urq_out ev).

  Lemma urq_cons_bal q q' ev : mq_cons q q' ev -> urq_bal q q' ev.
  Proof.
    intros (l & gl & A & _ & _ & D). unfold urq_bal. specialize (D (fun m => F (OProto, body m))).
    rewrite o_rel_urq, A, wsum_app. lia.
  Qed.
  (* nni_msgq_resize: what is dropped is freed *)
  Lemma resize_sum {G T} (q q' : mq G T) n fr : mq_resize q n = (q', fr) ->
    wsum (fun m => F (OProto, body m)) (mq_q q)
    = wsum (fun m => F (OProto, body m)) (mq_q q') + wsum (fun m => F (OProto, body m)) fr
    /\ mq_putq q' = mq_putq q /\ mq_getq q' = mq_getq q.
  Proof.
    unfold mq_resize. intros H. injection H as <- <-. cbn [mq_q mq_putq mq_getq]. split; [|split; reflexivity].
    rewrite (wsum_firstn_skipn _ (length (mq_q q) - (n + 1)) (mq_q q)). lia.
  Qed.
End UrqSums.

(* Invariant: the user aios blocked in nni_msgq_aio_put on the upper write queue are
   pairwise distinct, and none of them is at the same time blocked in nni_msgq_aio_get
   on the upper read queue. *)
Definition xreq_inv (s : xreq) : Prop :=
  NoDup (map fst (mq_putq (xq_uwq s))) /\
  (forall a, In a (mq_getq (xq_urq s)) -> ~ In a (map fst (mq_putq (xq_uwq s)))).

(* Environment contract: a user aio is submitted once at a time (not while it is still
   pending in a queued send; a send not while it is pending in a receive either); an
   abort carries an error. *)
Definition xreq_ok (s : xreq) (o : pop) : Prop :=
  match o with
  | PSend _ a _ _ => ~ In a (map fst (mq_putq (xq_uwq s))) /\ ~ In a (mq_getq (xq_urq s))
  | PRecv _ a _ => ~ In a (map fst (mq_putq (xq_uwq s)))
  | PCancel _ rv => rv <> 0%N
  | _ => True
  end.

Lemma xreq_inv_init : xreq_inv xreq_init.
Proof. split; [constructor|intros a []]. Qed.

Lemma xreq_omega F s :
  w_omega F view_xreq s
  = qs F (mq_q (xq_uwq s)) + qs F (mq_q (xq_urq s)) + wsum (fun x => F (OProto, body (snd x))) (mq_putq (xq_urq s))
    + wsum (fun x => F (OPipe (fst x), body (snd x))) (xq_sending s)
    + wsum (fun x => F (OAio (fst x), body (snd x))) (mq_putq (xq_uwq s)).
Proof. unfold w_omega. cbn [view_xreq VXreq.view v_held v_tx v_att]. rewrite !wsum_app, wsum_map. lia. Qed.

Lemma putq_attached_att s o :
  NoDup (map fst (mq_putq (xq_uwq s))) -> (forall c a nb m, o <> PSend c a nb m) ->
  putq_attached view_xreq s o (mq_putq (xq_uwq s)).
Proof.
  intros Hn Ho t m Hi. rewrite (send_key_other view_xreq s o t Ho).
  cbn [view_xreq VXreq.view v_att]. apply att_key_in; assumption.
Qed.
Lemma putq_attached_send s c a nb m :
  NoDup (map fst (mq_putq (xq_uwq s))) -> ~ In a (map fst (mq_putq (xq_uwq s))) ->
  putq_attached view_xreq s (PSend c a nb m) (mq_putq (xq_uwq s) ++ [(a, m)]).
Proof.
  intros Hn Ha t m' Hi. apply in_app_or in Hi. destruct Hi as [Hi|[E|[]]].
  - unfold send_key. destruct (N.eqb_spec a t) as [->|_].
    + exfalso. apply Ha. apply in_map_iff. exists (t, m'). auto.
    + cbn [view_xreq VXreq.view v_att]. apply att_key_in; assumption.
  - inversion E; subst. apply send_key_self.
Qed.

Lemma xreq_law_sum mf s o s' outs :
  xreq_inv s -> xreq_ok s o -> xreq_step mf s o = (s', outs) -> law_sum view_xreq s o s' outs.
Proof.
  intros [I1 I2] Hok H. apply law_sum_plain; try reflexivity. intros F.
  destruct o as [c a nb m|c a nb|a rv|p peer|p|p rv|p rv m|c op|c|c| |now]; cbn [xreq_ok op_add op_del] in *;
    cbn [xreq_step] in H.
  - destruct Hok as [Ha Hg].
    destruct (nb_refused mf nb (mq_put_waits (xq_uwq s))).
    + injection H as <- <-. cbn [s_take s_del o_tx o_rel]. rewrite send_key_self.
      change (E_AGAIN =? 0)%N with false. cbn iota. lia.
    + destruct (mq_put (xq_uwq s) a m) as [q ev] eqn:R. injection H as <- <-.
      apply mq_put_cons, (uwq_cons_bal F view_xreq s (PSend c a nb m)) in R; [|apply putq_attached_send; assumption].
      unfold uwq_bal in R. cbn [mq_q mq_putq] in R. rewrite !xreq_omega. cbn [xq_uwq xq_urq xq_sending].
      rewrite o_tx_uwq, wsum_app. rewrite wsum_snoc in R. cbn [fst snd] in R. lia.
  - destruct (nb_refused mf nb (mq_get_waits (xq_urq s))).
    + injection H as <- <-. cbn [s_take s_del o_tx o_rel].
      rewrite send_key_other by (intros; discriminate). change (v_att view_xreq s) with (mq_putq (xq_uwq s)).
      rewrite (att_key_notin _ _ Hok). lia.
    + destruct (mq_get (mf_getput mf) (xq_urq s) a) as [q ev] eqn:R. injection H as <- <-.
      apply mq_get_cons, (urq_cons_bal F) in R. unfold urq_bal in R. cbn [mq_q mq_putq] in R.
      destruct (s_quiet view_xreq F s (PRecv c a nb) (map urq_out ev) (urq_quiet ev)) as [A B].
      rewrite A, B, o_tx_urq, !xreq_omega. cbn [xq_uwq xq_urq xq_sending]. lia.
  - destruct (has_aio a (mq_putq (xq_uwq s))) eqn:E.
    + injection H as <- <-.
      pose proof (s_cancel_queued view_xreq F s (PCancel a rv) a rv I1 ltac:(intros; discriminate) E Hok) as L.
      change (v_att view_xreq s) with (mq_putq (xq_uwq s)) in L.
      rewrite !xreq_omega. cbn [xq_uwq xq_urq xq_sending mq_q mq_putq o_tx o_rel]. lia.
    + destruct (has_id a (mq_getq (xq_urq s))); injection H as <- <-; [|cbn; lia].
      rewrite !xreq_omega. cbn [xq_uwq xq_urq xq_sending mq_q mq_putq s_take s_del o_tx o_rel].
      rewrite send_key_other by (intros; discriminate). change (v_att view_xreq s) with (mq_putq (xq_uwq s)).
      rewrite (att_key_notin _ _ (has_aio_false_notin _ _ E)). lia.
  - destruct (negb (peer =? PROTO_REP)%N); [injection H as <- <-; cbn; lia|].
    destruct (mq_get (mf_getput mf) (xq_uwq s) p) as [q ev] eqn:R. injection H as <- <-.
    apply mq_get_cons, (uwq_cons_bal F view_xreq s (PPipeStart p peer)) in R;
      [|apply putq_attached_att; [assumption|intros; discriminate]].
    unfold uwq_bal in R. cbn [mq_q mq_putq] in R. rewrite !xreq_omega. cbn [xq_uwq xq_urq xq_sending].
    gnorm. rewrite o_tx_uwq. cbn [s_take s_del o_tx o_rel]. lia.
  - unfold urq_pipe_close in H. injection H as <- <-. rewrite !xreq_omega.
    cbn [xq_uwq xq_urq xq_sending mq_q mq_putq]. rewrite map_free_snd. gnorm.
    pose proof (wsum_filter_key (fun x => F (OProto, body (snd x))) p (mq_putq (xq_urq s))). lia.
  - change (v_tx view_xreq s) with (xq_sending s). pose proof (wsum_tx_split F p (xq_sending s)) as P.
    destruct (N.eqb_spec rv 0) as [->|Hrv]; cbn [negb] in H.
    + destruct (mq_get (mf_getput mf) (xq_uwq s) p) as [q ev] eqn:R. injection H as <- <-.
      apply mq_get_cons, (uwq_cons_bal F view_xreq s (PSendDone p 0)) in R;
        [|apply putq_attached_att; [assumption|intros; discriminate]].
      unfold uwq_bal in R. cbn [mq_q mq_putq] in R. rewrite !xreq_omega. cbn [xq_uwq xq_urq xq_sending].
      gnorm. rewrite o_tx_uwq. lia.
    + injection H as <- <-. rewrite !xreq_omega. cbn [xq_uwq xq_urq xq_sending]. unfold tx_of in *.
      rewrite wsum_map in P. gnorm. cbn [s_take s_del o_tx o_rel]. lia.
  - cbn [view_xreq VXreq.view v_rx]. unfold VXreq.rx.
    destruct (N.eqb_spec rv 0) as [->|Hrv]; cbn [negb] in H; [|injection H as <- <-; cbn; lia].
    destruct (xreq_recv (pm_body m)) as [m'| |].
    + destruct (mq_put (xq_urq s) p m') as [q ev] eqn:R. injection H as <- <-.
      apply mq_put_cons, (urq_cons_bal F) in R. unfold urq_bal in R. cbn [mq_q mq_putq] in R.
      destruct (s_quiet view_xreq F s (PRecvDone p 0 m) (map urq_out ev) (urq_quiet ev)) as [A B].
      rewrite A, B, o_tx_urq, !xreq_omega. cbn [xq_uwq xq_urq xq_sending]. rewrite wsum_snoc in R. cbn [fst snd] in R. lia.
    + injection H as <- <-. cbn. lia.
    + injection H as <- <-. cbn. lia.
  - destruct c as [c|]; [injection H as <- <-; cbn; lia|].
    destruct op; try (injection H as <- <-; cbn; lia).
    + destruct (8192 <? N.of_nat n)%N; [injection H as <- <-; cbn; lia|].
      destruct (mq_resize (xq_uwq s) n) as [q fr] eqn:RS. destruct (resize_sum F _ _ _ _ RS) as [S1 [S2 S3]].
      destruct (if mf_resize mf then mq_rerun q else (q, [])) as [q' ev] eqn:RR. injection H as <- <-.
      apply maybe_rerun_cons, (uwq_cons_bal F view_xreq s (PSetOpt None (OSendBuf n))) in RR;
        [|rewrite S2; apply putq_attached_att; [assumption|intros; discriminate]].
      unfold uwq_bal in RR. rewrite S2 in RR. rewrite !xreq_omega. cbn [xq_uwq xq_urq xq_sending].
      gnorm. rewrite o_tx_uwq. cbn [s_take s_del o_tx o_rel]. lia.
    + destruct (8192 <? N.of_nat n)%N; [injection H as <- <-; cbn; lia|].
      destruct (mq_resize (xq_urq s) n) as [q fr] eqn:RS. destruct (resize_sum F _ _ _ _ RS) as [S1 [S2 S3]].
      destruct (if mf_resize mf then mq_rerun q else (q, [])) as [q' ev] eqn:RR. injection H as <- <-.
      apply maybe_rerun_cons, (urq_cons_bal F) in RR. unfold urq_bal in RR. rewrite S2 in RR.
      destruct (s_quiet view_xreq F s (PSetOpt None (ORecvBuf n)) (map urq_out ev) (urq_quiet ev)) as [A B].
      rewrite !xreq_omega. cbn [xq_uwq xq_urq xq_sending]. gnorm. rewrite A, B, o_tx_urq. cbn [s_take s_del o_tx o_rel]. lia.
    + destruct ((n <? BT_TTL_MIN) || (BT_TTL_MAX <? n)); injection H as <- <-; [cbn; lia|]. rewrite !xreq_omega. cbn. lia.
  - injection H as <- <-. cbn. lia.
  - injection H as <- <-. cbn. lia.
  - unfold urq_close in H. injection H as <- <-. rewrite !xreq_omega. cbn [xq_uwq xq_urq xq_sending mq_q mq_putq].
    rewrite map_free_snd.
    destruct (s_compl_sub view_xreq F s PSockClose E_CLOSED (mq_putq (xq_uwq s)) I1 ltac:(intros; discriminate) (incl_refl _)) as [A B].
    change (E_CLOSED =? 0)%N with false in A.
    destruct (s_fail_none view_xreq F s PSockClose E_CLOSED (mq_getq (xq_urq s))) as [C D].
    { intros a Ha. rewrite send_key_other by (intros; discriminate). apply att_key_notin. apply I2. exact Ha. }
    gnorm. rewrite A, B, C, D. lia.
  - injection H as <- <-. cbn. lia.
Qed.

(* the invariant only ever loses waiters from the front of the two lists *)
Lemma xinv_sub (pq pq' : list (aioid * pmsg)) (gq gq' : list aioid) l1 l2 :
  NoDup (map fst pq) -> (forall a, In a gq -> ~ In a (map fst pq)) ->
  pq = l1 ++ pq' -> gq = l2 ++ gq' ->
  NoDup (map fst pq') /\ (forall a, In a gq' -> ~ In a (map fst pq')).
Proof.
  intros Hn Hd -> ->. rewrite map_app in *. split.
  - eapply nodup_app_r. exact Hn.
  - intros a Ha Hi. apply (Hd a); apply in_or_app; right; assumption.
Qed.

Lemma xreq_inv_step mf s o s' outs :
  xreq_inv s -> xreq_ok s o -> xreq_step mf s o = (s', outs) -> xreq_inv s'.
Proof.
  intros [I1 I2] Hok H. unfold xreq_inv.
  destruct o as [c a nb m|c a nb|a rv|p peer|p|p rv|p rv m|c op|c|c| |now]; cbn [xreq_ok] in *;
    cbn [xreq_step] in H.
  - destruct Hok as [Ha Hg].
    destruct (nb_refused mf nb (mq_put_waits (xq_uwq s))); [injection H as <- <-; split; assumption|].
    destruct (mq_put (xq_uwq s) a m) as [q ev] eqn:R. injection H as <- <-. cbn [xq_uwq xq_urq].
    destruct (mq_put_cons _ _ _ _ _ R) as (l & gl & A & _). cbn [mq_putq] in A.
    apply (xinv_sub (mq_putq (xq_uwq s) ++ [(a, m)]) _ (mq_getq (xq_urq s)) _ l []); [| |exact A|reflexivity].
    + rewrite map_app. cbn [map fst]. apply ListX.nodup_snoc; assumption.
    + intros b Hb Hi. rewrite map_app in Hi. apply in_app_or in Hi. destruct Hi as [Hi|[E|[]]].
      * exact (I2 b Hb Hi).
      * cbn in E. subst. exact (Hg Hb).
  - destruct (nb_refused mf nb (mq_get_waits (xq_urq s))); [injection H as <- <-; split; assumption|].
    destruct (mq_get (mf_getput mf) (xq_urq s) a) as [q ev] eqn:R. injection H as <- <-. cbn [xq_uwq xq_urq].
    destruct (mq_get_cons _ _ _ _ _ R) as (l & gl & _ & B & _). cbn [mq_getq] in B.
    apply (xinv_sub (mq_putq (xq_uwq s)) _ (mq_getq (xq_urq s) ++ [a]) _ [] gl); [exact I1| |reflexivity|exact B].
    intros b Hb. apply in_app_or in Hb. destruct Hb as [Hb|[E|[]]]; [exact (I2 b Hb)|subst; exact Hok].
  - destruct (has_aio a (mq_putq (xq_uwq s))).
    + injection H as <- <-. cbn [xq_uwq xq_urq mq_putq]. unfold remove_aio. split.
      * exact (ListX.nodup_filter fst _ _ I1).
      * intros b Hb Hi. apply ListX.in_map_filter in Hi. exact (I2 b Hb Hi).
    + destruct (has_id a (mq_getq (xq_urq s))); injection H as <- <-; [|split; assumption].
      cbn [xq_uwq xq_urq mq_getq]. split; [exact I1|]. intros b Hb. apply ReqRepProofs.in_remove_id in Hb. exact (I2 b (proj1 Hb)).
  - destruct (negb (peer =? PROTO_REP)%N); [injection H as <- <-; split; assumption|].
    destruct (mq_get (mf_getput mf) (xq_uwq s) p) as [q ev] eqn:R. injection H as <- <-. cbn [xq_uwq xq_urq].
    destruct (mq_get_cons _ _ _ _ _ R) as (l & gl & A & _). exact (xinv_sub _ _ _ _ l [] I1 I2 A eq_refl).
  - unfold urq_pipe_close in H. injection H as <- <-. cbn [xq_uwq xq_urq mq_putq mq_getq]. split; assumption.
  - destruct (negb (rv =? 0)%N); [injection H as <- <-; split; assumption|].
    destruct (mq_get (mf_getput mf) (xq_uwq s) p) as [q ev] eqn:R. injection H as <- <-. cbn [xq_uwq xq_urq].
    destruct (mq_get_cons _ _ _ _ _ R) as (l & gl & A & _). exact (xinv_sub _ _ _ _ l [] I1 I2 A eq_refl).
  - destruct (negb (rv =? 0)%N); [injection H as <- <-; split; assumption|].
    destruct (xreq_recv (pm_body m)) as [m'| |]; [|injection H as <- <-; split; assumption..].
    destruct (mq_put (xq_urq s) p m') as [q ev] eqn:R. injection H as <- <-. cbn [xq_uwq xq_urq].
    destruct (mq_put_cons _ _ _ _ _ R) as (l & gl & _ & B & _). exact (xinv_sub _ _ _ _ [] gl I1 I2 eq_refl B).
  - destruct c as [c|]; [injection H as <- <-; split; assumption|].
    destruct op; try (injection H as <- <-; split; assumption).
    + destruct (8192 <? N.of_nat n)%N; [injection H as <- <-; split; assumption|].
      destruct (mq_resize (xq_uwq s) n) as [q fr] eqn:RS. destruct (resize_sum (fun _ => 0) _ _ _ _ RS) as [_ [S2 S3]].
      destruct (if mf_resize mf then mq_rerun q else (q, [])) as [q' ev] eqn:RR. injection H as <- <-. cbn [xq_uwq xq_urq].
      destruct (maybe_rerun_cons _ _ _ _ RR) as (l & gl & A & _). rewrite S2 in A.
      exact (xinv_sub _ _ _ _ l [] I1 I2 A eq_refl).
    + destruct (8192 <? N.of_nat n)%N; [injection H as <- <-; split; assumption|].
      destruct (mq_resize (xq_urq s) n) as [q fr] eqn:RS. destruct (resize_sum (fun _ => 0) _ _ _ _ RS) as [_ [S2 S3]].
      destruct (if mf_resize mf then mq_rerun q else (q, [])) as [q' ev] eqn:RR. injection H as <- <-. cbn [xq_uwq xq_urq].
      destruct (maybe_rerun_cons _ _ _ _ RR) as (l & gl & _ & B & _). rewrite S3 in B.
      exact (xinv_sub _ _ _ _ [] gl I1 I2 eq_refl B).
    + destruct ((n <? BT_TTL_MIN) || (BT_TTL_MAX <? n)); injection H as <- <-; split; assumption.
  - injection H as <- <-; split; assumption.
  - injection H as <- <-; split; assumption.
  - unfold urq_close in H. injection H as <- <-. cbn [xq_uwq xq_urq mq_putq mq_getq map]. split; [constructor|intros a []].
  - injection H as <- <-; split; assumption.
Qed.

Theorem xreq_proto_law : forall mf, proto_law view_xreq (xreq_step mf) xreq_inv xreq_ok.
Proof.
  intros mf s o s' outs HI Hok H. split.
  - eapply xreq_inv_step; eassumption.
  - split; [apply law_sum_eq; eapply xreq_law_sum; eassumption|apply clones_held_none; reflexivity].
Qed.

(* The view of raw REP has no queued user sends (v_att = []: xrep0_sock_send hands the
   message to xrep0_sock_getq_cb at once), so no completion of a user aio concerns a
   pending send and the law needs neither an invariant nor a contract. *)
Definition xrep_inv (s : xrep) : Prop := True.
Definition xrep_ok (s : xrep) (o : pop) : Prop := True.

Lemma xrep_inv_init : xrep_inv xrep_init.
Proof. exact I. Qed.

Lemma xrep_omega F s :
  w_omega F view_xrep s
  = wsum (fun x => F (OProto, body (snd x))) (xp_sendq s) + qs F (mq_q (xp_urq s))
    + wsum (fun x => F (OProto, body (snd x))) (mq_putq (xp_urq s))
    + wsum (fun x => F (OPipe (fst x), body (snd x))) (xp_sending s).
Proof. unfold w_omega. cbn [view_xrep VXrep.view v_held v_tx v_att]. rewrite !wsum_app, !wsum_map, wsum_nil. lia. Qed.

Lemma first_msg_sum (G : pid * pmsg -> nat) p l m :
  first_msg p l = Some m -> wsum G l = G (p, m) + wsum G (del_first p l).
Proof.
  induction l as [|[q m'] l IH]; cbn [first_msg del_first]; intros H; [discriminate|].
  destruct (N.eqb_spec q p) as [->|_].
  - inversion H; subst. rewrite wsum_cons. reflexivity.
  - rewrite !wsum_cons, (IH H). lia.
Qed.

Lemma xrep_send_body m p m' : xrep_send m = Some (p, m') -> body m' = body m.
Proof. unfold xrep_send. destruct (length (pm_hdr m) <? 4); intros H; inversion H; subst. reflexivity. Qed.

(* xrep0_sock_getq_cb: the message taken from the application is sent, queued for its pipe, or freed *)
Lemma xrep_route_sum F s m s1 outs : xrep_route s m = (s1, outs) ->
  w_omega F view_xrep s + F (OProto, body m) + o_tx F outs = w_omega F view_xrep s1 + o_rel F outs
  /\ no_send_done outs = true.
Proof.
  unfold xrep_route. intros H. destruct (xrep_send m) as [[p m']|] eqn:E.
  - apply xrep_send_body in E. rewrite <- E.
    destruct (negb (has_id p (xp_pipes s))); [injection H as <- <-; cbn; split; [lia|reflexivity]|].
    destruct (has_id p (xp_idle s)).
    { (* the pipe is idle: the message goes to the transport *)
      injection H as <- <-. rewrite !xrep_omega. cbn [xp_sendq xp_urq xp_sending o_tx o_rel]. rewrite wsum_cons.
      cbn [fst snd]. split; [lia|reflexivity]. }
    destruct (pipe_qlen s p <? XREP_PIPE_SENDQ_CAP); injection H as <- <-.
    + (* queued behind the send in flight *)
      rewrite !xrep_omega. cbn [xp_sendq xp_urq xp_sending o_tx o_rel]. rewrite wsum_snoc.
      cbn [fst snd]. split; [lia|reflexivity].
    + (* the pipe's queue is full: freed *)
      cbn [o_tx o_rel]. split; [lia|reflexivity].
  - injection H as <- <-. cbn. split; [lia|reflexivity].
Qed.

Lemma xrep_law_sum mf s o s' outs : xrep_step mf s o = (s', outs) -> law_sum view_xrep s o s' outs.
Proof.
  intros H. destruct o as [c a nb m|c a nb|a rv|p peer|p|p rv|p rv m|c op|c|c| |now]; cbn [xrep_step] in H.
  2-12: apply law_sum_quiet; [reflexivity|intros; discriminate|reflexivity|reflexivity|reflexivity|intros F];
    cbn [op_add op_del].
  - apply law_sum_plain; try reflexivity. intros F. cbn [op_add op_del].
    destruct (nb_refused mf nb false).
    + injection H as <- <-. cbn [s_take s_del o_tx o_rel]. rewrite send_key_self.
      change (E_AGAIN =? 0)%N with false. cbn iota. lia.
    + destruct (xrep_route s m) as [s1 o1] eqn:R. injection H as <- <-.
      destruct (xrep_route_sum F _ _ _ _ R) as [L Q].
      destruct (s_quiet view_xrep F s (PSend c a nb m) o1 Q) as [A B].
      cbn [s_take s_del o_tx o_rel]. rewrite send_key_self, A, B. change (E_OK =? 0)%N with true. cbn iota. lia.
  - destruct (nb_refused mf nb (mq_get_waits (xp_urq s))); [injection H as <- <-; cbn [o_tx o_rel]; lia|].
    destruct (mq_get (mf_getput mf) (xp_urq s) a) as [q ev] eqn:R. injection H as <- <-.
    apply mq_get_cons, (urq_cons_bal F) in R. unfold urq_bal in R. cbn [mq_q mq_putq] in R.
    rewrite o_tx_urq, !xrep_omega. unfold xp_set_urq. cbn [xp_sendq xp_urq xp_sending]. lia.
  - destruct (has_id a (mq_getq (xp_urq s))); injection H as <- <-; rewrite !xrep_omega; unfold xp_set_urq;
      cbn [xp_sendq xp_urq xp_sending mq_q mq_putq o_tx o_rel]; lia.
  - destruct (negb (peer =? PROTO_REQ)%N); injection H as <- <-; rewrite !xrep_omega; cbn [xp_sendq xp_urq xp_sending o_tx o_rel]; lia.
  - unfold urq_pipe_close in H. injection H as <- <-. rewrite !xrep_omega. cbn [xp_sendq xp_urq xp_sending mq_q mq_putq].
    rewrite !map_free_snd. gnorm.
    pose proof (wsum_filter_key (fun x => F (OProto, body (snd x))) p (mq_putq (xp_urq s))).
    pose proof (wsum_filter_key (fun x => F (OProto, body (snd x))) p (xp_sendq s)). lia.
  - change (v_tx view_xrep s) with (xp_sending s). pose proof (wsum_tx_split F p (xp_sending s)) as P.
    unfold tx_of in *. rewrite wsum_map in P.
    destruct (N.eqb_spec rv 0) as [->|Hrv]; cbn [negb] in H.
    + destruct (first_msg p (xp_sendq s)) as [m|] eqn:E; injection H as <- <-.
      * (* the pipe's next queued reply goes to the transport *)
        pose proof (first_msg_sum (fun x => F (OProto, body (snd x))) p _ m E) as Q. cbn [fst snd] in Q.
        rewrite !xrep_omega. cbn [xp_sendq xp_urq xp_sending o_tx o_rel]. gnorm. cbn [fst snd]. lia.
      * (* nothing queued for it: the pipe becomes idle *)
        rewrite !xrep_omega. cbn [xp_sendq xp_urq xp_sending o_tx o_rel]. gnorm. lia.
    + injection H as <- <-. rewrite !xrep_omega. cbn [xp_sendq xp_urq xp_sending]. gnorm. cbn [o_tx o_rel]. lia.
  - cbn [view_xrep VXrep.view v_rx]. unfold VXrep.rx.
    destruct (N.eqb_spec rv 0) as [->|Hrv]; cbn [negb] in H; [|injection H as <- <-; cbn; lia].
    destruct (xrep_recv p (xp_ttl s) (pm_body m)) as [m'| |].
    + destruct (mq_put (xp_urq s) p m') as [q ev] eqn:R. injection H as <- <-.
      apply mq_put_cons, (urq_cons_bal F) in R. unfold urq_bal in R. cbn [mq_q mq_putq] in R.
      rewrite o_tx_urq, !xrep_omega. unfold xp_set_urq. cbn [xp_sendq xp_urq xp_sending]. rewrite wsum_snoc in R. cbn [fst snd] in R. lia.
    + injection H as <- <-. cbn. lia.
    + injection H as <- <-. cbn. lia.
  - destruct c as [c|]; [injection H as <- <-; cbn; lia|].
    destruct op; try (injection H as <- <-; cbn; lia).
    + destruct (8192 <? N.of_nat n)%N; injection H as <- <-; cbn; lia.
    + destruct (8192 <? N.of_nat n)%N; [injection H as <- <-; cbn; lia|].
      destruct (mq_resize (xp_urq s) n) as [q fr] eqn:RS. destruct (resize_sum F _ _ _ _ RS) as [S1 [S2 S3]].
      destruct (if mf_resize mf then mq_rerun q else (q, [])) as [q' ev] eqn:RR. injection H as <- <-.
      apply maybe_rerun_cons, (urq_cons_bal F) in RR. unfold urq_bal in RR. rewrite S2 in RR.
      rewrite !xrep_omega. unfold xp_set_urq. cbn [xp_sendq xp_urq xp_sending]. gnorm. rewrite o_tx_urq. cbn [o_tx o_rel]. lia.
    + destruct ((n <? BT_TTL_MIN) || (BT_TTL_MAX <? n)); injection H as <- <-; [cbn; lia|]. rewrite !xrep_omega. cbn. lia.
  - injection H as <- <-. cbn. lia.
  - injection H as <- <-. cbn. lia.
  - unfold urq_close in H. injection H as <- <-. rewrite !xrep_omega. cbn [xp_sendq xp_urq xp_sending mq_q mq_putq].
    rewrite map_free_snd. gnorm. lia.
  - injection H as <- <-. cbn. lia.
Qed.

Theorem xrep_proto_law : forall mf, proto_law view_xrep (xrep_step mf) xrep_inv xrep_ok.
Proof.
  intros mf s o s' outs _ _ H. split; [exact I|]. split.
  - apply law_sum_eq. eapply xrep_law_sum. exact H.
  - apply clones_held_none. reflexivity.
Qed.

(* the contracts are satisfiable: concrete histories *)
Ltac ok_fin :=
  vm_compute; repeat (match goal with |- _ /\ _ => split end);
  try exact I; try (let Hc := fresh in intro Hc; repeat (destruct Hc as [Hc|Hc]); try discriminate; contradiction).

Definition mf_none : mqfix := mkMqfix false false false.
Definition mf_all : mqfix := mkMqfix true true true.
Definition xw_req : pmsg := mkPmsg (be32 2147483649) [5%N].
Definition xw_rep : pmsg := mkPmsg [] (be32 2147483649 ++ [9%N]).

(* a blocking send that waits, a pipe that takes it, the transport's completion, a reply
   coming up, a receive that gets it, a buffer resize, a second (non-blocking) send, a
   receive that waits and is aborted, pipe close, socket close *)
Definition xreq_hist : list pop :=
  [PSend None 1%N false xw_req; PPipeStart 7%N PROTO_REP; PSendDone 7%N 0%N;
   PRecvDone 7%N 0%N xw_rep; PRecv None 2%N false; PSetOpt None (OSendBuf 2);
   PSend None 1%N true xw_req; PSend None 3%N false xw_req; PRecv None 2%N false; PCancel 2%N E_CANCELED;
   PSendDone 7%N 0%N; PPipeClose 7%N; PSockClose].
Example xreq_ok_nonvacuous :
  ops_ok (xreq_step mf_none) xreq_ok xreq_init xreq_hist /\ ops_ok (xreq_step mf_all) xreq_ok xreq_init xreq_hist.
Proof. split; ok_fin. Qed.
(* and the ledger, replayed along it, never fails *)
Example xreq_replay_runs :
  replay_run view_xreq (xreq_step mf_none) ls_init xreq_init xreq_hist <> None /\
  replay_run view_xreq (xreq_step mf_all) ls_init xreq_init xreq_hist <> None.
Proof. split; vm_compute; discriminate. Qed.

(* a request coming up, a receive that gets it, the reply routed to its pipe (sent at once),
   a second reply queued behind it, the transport's completions, a resize, closes *)
Definition xw_wire : pmsg := mkPmsg [] (be32 2147483649 ++ [9%N]).
Definition xw_reply : pmsg := mkPmsg (be32 7 ++ be32 2147483649) [6%N].
Definition xrep_hist : list pop :=
  [PPipeStart 7%N PROTO_REQ; PRecvDone 7%N 0%N xw_wire; PRecv None 2%N false;
   PSend None 1%N false xw_reply; PSend None 1%N true xw_reply; PSendDone 7%N 0%N; PSendDone 7%N 0%N;
   PSetOpt None (ORecvBuf 4); PRecv None 2%N false; PCancel 2%N E_CANCELED; PPipeClose 7%N; PSockClose].
Example xrep_ok_nonvacuous :
  ops_ok (xrep_step mf_none) xrep_ok xrep_init xrep_hist /\ ops_ok (xrep_step mf_all) xrep_ok xrep_init xrep_hist.
Proof. split; ok_fin. Qed.
Example xrep_replay_runs :
  replay_run view_xrep (xrep_step mf_none) ls_init xrep_init xrep_hist <> None /\
  replay_run view_xrep (xrep_step mf_all) ls_init xrep_init xrep_hist <> None.
Proof. split; vm_compute; discriminate. Qed.

Print Assumptions xreq_proto_law.
Print Assumptions xrep_proto_law.

(* after the close sequence the protocol owns nothing that its fini functions
   do not free *)
(* the pipes the state knows: idle on the upper write queue, with a send in flight, blocked
   in a put on the upper read queue *)
Definition xreq_pipes (s : xreq) : list pid :=
  mq_getq (xq_uwq s) ++ map fst (xq_sending s) ++ map fst (mq_putq (xq_urq s)).
(* the socket core's close sequence as the protocol sees it: every pipe the state knows gets its
   pipe_close, every transport send still in flight fails (PSendDone p E_CLOSED, one per message
   in flight), then the socket's own close (raw mode has no contexts) *)
Definition xreq_close_script (s : xreq) : list pop :=
  map PPipeClose (xreq_pipes s) ++ map (fun x => PSendDone (fst x) E_CLOSED) (xq_sending s) ++ [PSockClose].

Lemma is_pclose l : Forall (fun o => exists p, o = PPipeClose p) (map PPipeClose l).
Proof. apply Forall_forall. intros o Ho. apply in_map_iff in Ho. destruct Ho as [p [<- _]]. eauto. Qed.

Theorem xreq_close_drains : forall mf s, xreq_inv s ->
  ops_ok (xreq_step mf) xreq_ok s (xreq_close_script s) /\
  drained view_xreq (run (xreq_step mf) s (xreq_close_script s)).
Proof.
  intros mf s _. split.
  - apply ops_ok_all. intros o Ho t. unfold xreq_close_script in Ho. rewrite !in_app_iff, !in_map_iff in Ho.
    destruct Ho as [[p [<- _]]|[[x [<- _]]|[<-|[]]]]; exact I.
  - unfold xreq_close_script. rewrite !run_app.
    set (s1 := run (xreq_step mf) s (map PPipeClose (xreq_pipes s))).
    assert (E1 : xq_sending s1 = xq_sending s).
    { apply (run_keeps _ xq_sending (fun o => exists p, o = PPipeClose p)); [intros s0 o [p ->]; reflexivity|apply is_pclose]. }
    rewrite <- E1, <- (map_map fst (fun p => PSendDone p E_CLOSED)).
    set (s2 := run (xreq_step mf) s1 _).
    assert (E2 : xq_sending s2 = []).
    { apply (run_filter_clears _ xq_sending); [reflexivity|]. intros x Hx. apply in_map. exact Hx. }
    cbn [run xreq_step]. unfold urq_close. cbn [fst].
    unfold drained. cbn [view_xreq VXreq.view v_tx v_att v_held v_fini xq_uwq xq_urq xq_sending mq_q mq_putq map app].
    split; [exact E2|]. split; [reflexivity|constructor].
Qed.

(* the pipes the state knows: the id map, the owners of queued replies, of sends in flight, of
   blocked puts on the upper read queue *)
Definition xrep_pipes (s : xrep) : list pid :=
  xp_pipes s ++ map fst (xp_sendq s) ++ map fst (xp_sending s) ++ map fst (mq_putq (xp_urq s)).
Definition xrep_close_script (s : xrep) : list pop :=
  map PPipeClose (xrep_pipes s) ++ map (fun x => PSendDone (fst x) E_CLOSED) (xp_sending s) ++ [PSockClose].

Lemma xrep_sdfail_step mf s p :
  fst (xrep_step mf s (PSendDone p E_CLOSED))
  = mkXrep (xp_pipes s) (xp_idle s) (xp_sendq s) (filter (fun x => negb (fst x =? p)%N) (xp_sending s))
           (xp_urq s) (xp_ttl s) (xp_closed s).
Proof. cbn [xrep_step]. change (negb (E_CLOSED =? 0)%N) with true. reflexivity. Qed.

Theorem xrep_close_drains : forall mf s, xrep_inv s ->
  ops_ok (xrep_step mf) xrep_ok s (xrep_close_script s) /\
  drained view_xrep (run (xrep_step mf) s (xrep_close_script s)).
Proof.
  intros mf s _. split.
  - apply ops_ok_all. intros o _ t. exact I.
  - unfold xrep_close_script. rewrite !run_app.
    set (s1 := run (xrep_step mf) s (map PPipeClose (xrep_pipes s))).
    assert (E1 : xp_sending s1 = xp_sending s).
    { apply (run_keeps _ xp_sending (fun o => exists p, o = PPipeClose p)); [intros s0 o [p ->]; reflexivity|apply is_pclose]. }
    rewrite <- E1, <- (map_map fst (fun p => PSendDone p E_CLOSED)).
    set (s2 := run (xrep_step mf) s1 _).
    assert (E2 : xp_sending s2 = []).
    { apply (run_filter_clears _ xp_sending); [intros; rewrite xrep_sdfail_step; reflexivity|].
      intros x Hx. apply in_map. exact Hx. }
    cbn [run xrep_step]. unfold urq_close. cbn [fst].
    unfold drained. cbn [view_xrep VXrep.view v_tx v_att v_held v_fini xp_sendq xp_urq xp_sending mq_q mq_putq map].
    split; [exact E2|]. split; [reflexivity|]. rewrite !app_nil_r. apply Permutation_refl.
Qed.
(* moreover the per-pipe send queues are empty by then (every pipe owning a queued reply got its
   pipe_close): nothing at all is left in a protocol slot, v_fini lists nothing *)
Theorem xrep_close_empties : forall mf s,
  v_held view_xrep (run (xrep_step mf) s (xrep_close_script s)) = [] /\
  v_fini view_xrep (run (xrep_step mf) s (xrep_close_script s)) = [].
Proof.
  intros mf s. unfold xrep_close_script. rewrite !run_app.
  set (s1 := run (xrep_step mf) s (map PPipeClose (xrep_pipes s))).
  assert (Q1 : xp_sendq s1 = []).
  { apply (run_filter_clears _ xp_sendq); [reflexivity|]. intros x Hx. unfold xrep_pipes.
    apply in_or_app. right. apply in_or_app. left. apply in_map. exact Hx. }
  set (s2 := run (xrep_step mf) s1 _).
  assert (Q2 : xp_sendq s2 = []).
  { unfold s2. rewrite (run_keeps _ xp_sendq (fun o => exists p, o = PSendDone p E_CLOSED)); [exact Q1| |].
    - intros s0 o [p ->]. rewrite xrep_sdfail_step. reflexivity.
    - apply Forall_forall. intros o Ho. apply in_map_iff in Ho. destruct Ho as [x [<- _]]. eauto. }
  cbn [run xrep_step]. unfold urq_close. cbn [fst].
  cbn [view_xrep VXrep.view v_held v_fini xp_sendq xp_urq mq_q mq_putq map]. rewrite Q2. split; reflexivity.
Qed.

Print Assumptions xreq_close_drains.
Print Assumptions xrep_close_drains.
Print Assumptions xrep_close_empties.
