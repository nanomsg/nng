(* OwnRepResp: the ledger law of cooked REP and cooked RESPONDENT
   (src/sp/protocol/reqrep0/rep.c, src/sp/protocol/survey0/respond.c).

   Both protocols have the same architecture: a parsed request / survey is parked in the
   pipe (v_held); a reply whose pipe is busy stays on the user's aio, recorded in the
   context (ctx->saio, v_att); one message per pipe is in flight (v_tx).
   The law is proved for the sources that refuse a second send of a context whose
   previous reply is still queued (RepModel.pf_saio / RespondModel.rf_sbusy = true, the
   current source): without that repair the queued reply is overwritten, the reference
   is lost and the law is false. *)
From Coq Require Import List Arith NArith Bool Lia Permutation.
From NngV Require Import Proto.ReqRepProofs Proto.Common Ledger.Ledger Ledger.LedgerProofs Ledger.LawTac Ledger.Keyed Ledger.Views.
From NngV Require Base.ListX.
From NngV Require Proto.ReqRepBacktrace Proto.ReqModel Proto.RepModel Proto.ReqRepProofs Proto.RepProofs
  Proto.SurveyBacktrace Proto.SurveyModel Proto.RespondModel Proto.SurveyProofs.
From NngV Require Import Ledger.LedgerThms.
Import ListNotations.

Lemma nodup_mid_swap {A} (X P Q : list A) : NoDup (P ++ X ++ Q) <-> NoDup (X ++ P ++ Q).
Proof.
  split; apply Permutation_NoDup; [|apply Permutation_sym]; apply Permutation_app_swap_app.
Qed.
Lemma nodup_mid_drop {A} (X P Q : list A) : NoDup (P ++ X ++ Q) -> NoDup (P ++ Q).
Proof. intros H. exact (proj1 (ListX.nodup_mid_remove P X Q H)). Qed.
Lemma filter_mid_key {A} (k : N) (l1 : list (N * A)) c l2 :
  NoDup (map fst (l1 ++ (k, c) :: l2)) ->
  filter (fun x => negb (N.eqb (fst x) k)) (l1 ++ (k, c) :: l2) = l1 ++ l2.
Proof.
  intros H. rewrite map_app in H. cbn [map fst] in H.
  pose proof (NoDup_remove_2 _ _ _ H) as Hn. rewrite in_app_iff in Hn.
  rewrite filter_app. cbn [filter fst]. rewrite N.eqb_refl. cbn [negb].
  rewrite !ListX.filter_keep_notin by tauto. reflexivity.
Qed.

(* PSend: the message is refused, or dropped because its pipe is gone *)
Definition unsent (a : aioid) (m : pmsg) (outs : list pout) : Prop :=
  (exists rv, rv <> 0%N /\ outs = [Complete a rv None]) \/
  (exists m', pm_body m' = pm_body m /\ outs = [Complete a E_OK None; Free m']).
Lemma unsent_sum {St} (V : view St) F s c a nb m outs : unsent a m outs ->
  op_add F V s (PSend c a nb m) + s_take F V s (PSend c a nb m) outs + o_tx F outs
  = op_del F V s (PSend c a nb m) + s_del F V s (PSend c a nb m) outs + o_rel F outs.
Proof.
  intros [[rv [Hrv ->]]|[m' [Em ->]]]; cbn [op_add op_del s_take s_del o_tx o_rel]; rewrite send_key_self.
  - destruct (N.eqb_spec rv 0); [contradiction|lia].
  - unfold body. rewrite Em. cbn. lia.
Qed.

Section Ctxs.
  Context {A : Type} (sa : A -> option (aioid * pmsg)) (ra : A -> option aioid).

  Definition attl (l : list (N * A)) : list (aioid * pmsg) := flat_map (fun kc => opt_list (sa (snd kc))) l.
  Definition aids (l : list (N * A)) : list aioid := map fst (attl l).

  Lemma attl_app a b : attl (a ++ b) = attl a ++ attl b.
  Proof. apply flat_map_app. Qed.
  Lemma attl_mid l1 k c l2 : attl (l1 ++ (k, c) :: l2) = attl l1 ++ opt_list (sa c) ++ attl l2.
  Proof. rewrite attl_app. reflexivity. Qed.
  Lemma aids_mid l1 k c l2 : aids (l1 ++ (k, c) :: l2) = aids l1 ++ map fst (opt_list (sa c)) ++ aids l2.
  Proof. unfold aids. now rewrite attl_mid, !map_app. Qed.
  Lemma in_attl a m l : In (a, m) (attl l) <-> exists k c, In (k, c) l /\ sa c = Some (a, m).
  Proof.
    unfold attl. rewrite in_flat_map. split.
    - intros [[k c] [Hi Ho]]. cbn [snd] in Ho. destruct (sa c) as [x|] eqn:E; cbn in Ho; [|tauto].
      destruct Ho as [->|[]]. eauto.
    - intros [k [c [Hi E]]]. exists (k, c). split; auto. cbn [snd]. rewrite E. left. reflexivity.
  Qed.

  (* keys unique; an aio queued as a send at most once; no aio both a queued send and a pending receive *)
  Definition CInv (l : list (N * A)) : Prop :=
    NoDup (map fst l) /\ NoDup (aids l) /\ (forall k c a, In (k, c) l -> ra c = Some a -> ~ In a (aids l)).

  Lemma cinv_att_key l k c a m : CInv l -> In (k, c) l -> sa c = Some (a, m) -> att_key a (attl l) = Some (body m).
  Proof. intros (_ & N & _) Hi E. apply att_key_in; [exact N|]. apply in_attl. eauto. Qed.

  (* the record of context k replaced *)
  Lemma cinv_put l k c c' :
    CInv l -> ReqModel.lookup k l = Some c ->
    (sa c' = sa c \/ sa c' = None \/
     (exists a m, sa c' = Some (a, m) /\ sa c = None /\ ~ In a (aids l) /\ (forall k0 c0, In (k0, c0) l -> ra c0 <> Some a))) ->
    (ra c' = ra c \/ ra c' = None \/ (exists a, ra c' = Some a /\ ~ In a (aids l) /\ sa c' = sa c)) ->
    CInv (ReqModel.assoc_set k c' l).
  Proof.
    intros HC EL. destruct (lookup_split _ _ _ EL) as (l1 & l2 & -> & _ & ES). rewrite ES. clear ES EL. revert HC.
    intros (K & N & R) HS HR.
    assert (Hin : forall k0 c0, In (k0, c0) (l1 ++ (k, c') :: l2) ->
                    (k0 = k /\ c0 = c') \/ In (k0, c0) (l1 ++ (k, c) :: l2)).
    { intros k0 c0. rewrite !in_app_iff. cbn [In]. intros [H|[H|H]]; auto. inversion H; auto. }
    (* the new ids: the old ones, or the freshly queued send *)
    assert (Hsub : forall x, In x (aids (l1 ++ (k, c') :: l2)) ->
                     In x (aids (l1 ++ (k, c) :: l2)) \/
                     (exists m, sa c' = Some (x, m) /\ sa c = None /\ ~ In x (aids (l1 ++ (k, c) :: l2)) /\
                                (forall k0 c0, In (k0, c0) (l1 ++ (k, c) :: l2) -> ra c0 <> Some x))).
    { intros x Hx. rewrite (aids_mid l1 k c' l2), !in_app_iff in Hx.
      assert (Ho : forall y, In y (aids l1) \/ In y (aids l2) -> In y (aids (l1 ++ (k, c) :: l2))).
      { intros y Hy. rewrite aids_mid, !in_app_iff. clear - Hy. tauto. }
      destruct Hx as [H|[H|H]]; auto.
      destruct HS as [E|[E|[a [m [E [E0 [Hn Hr]]]]]]].
      - rewrite E in H. left. rewrite aids_mid, !in_app_iff. auto.
      - rewrite E in H. destruct H.
      - rewrite E in H. cbn in H. destruct H as [<-|[]]. right. exists m. auto. }
    split; [|split].
    - rewrite map_app in *. exact K.
    - rewrite aids_mid in *. destruct HS as [E|[E|[a [m [E [E0 [Hn Hr]]]]]]].
      + rewrite E. exact N.
      + rewrite E. cbn [opt_list map app]. eapply nodup_mid_drop. exact N.
      + rewrite E. rewrite E0 in N, Hn. cbn [opt_list map app] in *.
        apply (nodup_mid_swap [a]). cbn [app]. constructor; assumption.
    - intros k0 c0 a Hi Ha Hx. apply Hin in Hi. apply Hsub in Hx.
      destruct Hi as [[-> ->]|Hi].
      + destruct HR as [E|[E|[a1 [E [Hn E1]]]]].
        * rewrite E in Ha. assert (Hk : In (k, c) (l1 ++ (k, c) :: l2)) by (apply in_or_app; right; left; reflexivity).
          destruct Hx as [Hx|[m [_ [_ [_ Hr]]]]]; [exact (R k c a Hk Ha Hx)|exact (Hr k c Hk Ha)].
        * congruence.
        * assert (a1 = a) by congruence. subst a1.
          destruct Hx as [Hx|[m [E2 [E3 _]]]]; [tauto|congruence].
      + destruct Hx as [Hx|[m [_ [_ [_ Hr]]]]]; [exact (R k0 c0 a Hi Ha Hx)|exact (Hr k0 c0 Hi Ha)].
  Qed.

  Lemma cinv_snoc l k c : CInv l -> ~ In k (map fst l) -> sa c = None -> ra c = None -> CInv (l ++ [(k, c)]).
  Proof.
    intros (K & N & R) Hk Es Er.
    assert (E : aids (l ++ [(k, c)]) = aids l).
    { unfold aids. rewrite attl_app. unfold attl at 2. cbn [flat_map snd]. rewrite Es. cbn. now rewrite !app_nil_r. }
    split; [|split].
    - rewrite map_app. cbn. apply ListX.nodup_snoc; auto.
    - now rewrite E.
    - intros k0 c0 a Hi Ha. rewrite E. apply in_app_or in Hi. destruct Hi as [Hi|[Hi|[]]]; [eauto|].
      inversion Hi; subst. congruence.
  Qed.

  Lemma attl_put (G : aioid * pmsg -> nat) l k c c' : ReqModel.lookup k l = Some c ->
    wsum G (attl (ReqModel.assoc_set k c' l)) + wsum G (opt_list (sa c)) = wsum G (attl l) + wsum G (opt_list (sa c')).
  Proof.
    intros EL. unfold attl. rewrite !wsum_flat_map.
    pose proof (wsum_aset (fun kc => wsum G (opt_list (sa (snd kc)))) k c' l c EL) as P. cbn [snd] in P. lia.
  Qed.
  Lemma cinv_remove l k : CInv l -> CInv (ReqModel.assoc_del k l).
  Proof.
    intros HC. unfold ReqModel.assoc_del. destruct (ReqModel.lookup k l) as [c|] eqn:EL.
    2:{ rewrite ListX.filter_keep_notin; [exact HC|]. apply lookup_none_notin, EL. }
    destruct (lookup_split _ _ _ EL) as (l1 & l2 & -> & _). rewrite filter_mid_key by apply HC.
    destruct HC as (K & N & R). split; [|split].
    - rewrite map_app in *. cbn [map fst] in K. eapply NoDup_remove_1; eauto.
    - rewrite aids_mid in N. unfold aids in *. rewrite attl_app, map_app. eapply nodup_mid_drop; eauto.
    - intros k0 c0 a Hi Ha Hx. apply (R k0 c0 a); auto.
      + apply in_app_or in Hi. apply in_or_app. destruct Hi; [left|right; right]; auto.
      + rewrite aids_mid, !in_app_iff. unfold aids in Hx. rewrite attl_app, map_app, in_app_iff in Hx. tauto.
  Qed.
  Lemma attl_remove (G : aioid * pmsg -> nat) l k c : NoDup (map fst l) -> ReqModel.lookup k l = Some c ->
    wsum G (attl (ReqModel.assoc_del k l)) + wsum G (opt_list (sa c)) = wsum G (attl l).
  Proof.
    intros K EL. unfold attl. rewrite !wsum_flat_map.
    pose proof (wsum_adel (fun kc => wsum G (opt_list (sa (snd kc)))) k l c K EL) as P. cbn [snd] in P. lia.
  Qed.
  Lemma attl_put_none l k c0 x : sa c0 = None -> In x (attl (ReqModel.assoc_set k c0 l)) -> In x (attl l).
  Proof.
    destruct x as [a m]. rewrite !in_attl. intros E [k' [c' [Hi Es]]]. apply ReqRepProofs.in_assoc_set in Hi.
    destruct Hi as [Hi|Hi]; [inversion Hi; subst; congruence|eauto].
  Qed.

  (* the contexts that still have a queued reply *)
  Definition has_saio (kc : N * A) : bool := match sa (snd kc) with Some _ => true | None => false end.
  Definition sal (l : list (N * A)) : list (N * A) := filter has_saio l.
  Lemma attl_sal_nil l : sal l = [] -> attl l = [].
  Proof.
    induction l as [|[k c] l IH]; [reflexivity|]. unfold sal, attl. cbn [filter flat_map snd]. unfold has_saio at 1. cbn [snd].
    destruct (sa c); [discriminate|]. intros H. cbn [opt_list app]. apply IH, H.
  Qed.
  Lemma sal_set k c0 l kc : sa c0 = None -> In kc (sal (ReqModel.assoc_set k c0 l)) -> In kc (sal l).
  Proof.
    intros E H. unfold sal in *. apply filter_In in H. destruct H as [H P]. apply filter_In.
    apply ReqRepProofs.in_assoc_set in H. destruct H as [->|H]; [|auto]. unfold has_saio in P. cbn in P. rewrite E in P. discriminate.
  Qed.
  Lemma sal_remove l k kc : In kc (sal (ReqModel.assoc_del k l)) -> In kc (sal l) /\ fst kc <> k.
  Proof. unfold sal. rewrite !filter_In, ReqRepProofs.in_assoc_del. tauto. Qed.
  Lemma sal_absent l k kc : ReqModel.lookup k l = None -> In kc (sal l) -> fst kc <> k.
  Proof. intros EL Hk <-. apply (lookup_none_notin _ _ EL), in_map. apply filter_In in Hk. apply Hk. Qed.
  (* a record without a queued send put under key k: no context of that key has one *)
  Lemma sal_put_clear l k c c0 kc : NoDup (map fst l) -> ReqModel.lookup k l = Some c -> sa c0 = None ->
    In kc (sal (ReqModel.assoc_set k c0 l)) -> In kc (sal l) /\ fst kc <> k.
  Proof.
    intros K EL E Hk. split; [eapply sal_set; eauto|]. intros <-.
    apply filter_In in Hk. destruct Hk as [Hk P]. destruct kc as [k c1]. cbn [fst] in *.
    apply ReqRepProofs.nodup_in_lookup in Hk;
      [|rewrite (ReqRepProofs.map_fst_assoc_set_present _ _ _ _ EL); exact K].
    rewrite ReqRepProofs.lookup_assoc_set_same in Hk.
    inversion Hk; subst. unfold has_saio in P. cbn in P. rewrite E in P. discriminate.
  Qed.
End Ctxs.

(* the loop of rep0_pipe_close / resp0_pipe_close over a pipe's send queue: each context queued on the
   pipe has its send completed (successfully) and its reply freed; clr clears the record's queued send *)
Section Flush.
  Import ReqModel.
  Context {A : Type} (sa : A -> option (aioid * pmsg)) (ra : A -> option aioid) (clr : A -> A).
  Hypothesis clr_sa : forall c, sa (clr c) = None.
  Hypothesis clr_ra : forall c, ra (clr c) = ra c.

  Fixpoint flushq (ks : list N) (cs : list (N * A)) : list (N * A) * list pout :=
    match ks with
    | [] => (cs, [])
    | k :: r =>
        match lookup k cs with
        | Some c =>
            match sa c with
            | Some (a, m) => let (cs', o) := flushq r (assoc_set k (clr c) cs) in (cs', Complete a E_OK None :: Free m :: o)
            | None => flushq r cs
            end
        | None => flushq r cs
        end
    end.

  Lemma flushq_spec {St} (V : view St) F s0 o ks : forall cs cs' outs,
    flushq ks cs = (cs', outs) -> CInv sa ra cs ->
    (forall a m, In (a, m) (attl sa cs) -> send_key V s0 o a = Some (body m)) ->
    CInv sa ra cs' /\
    wsum (fun x => F (OAio (fst x), body (snd x))) (attl sa cs) + s_take F V s0 o outs + o_tx F outs
    = wsum (fun x => F (OAio (fst x), body (snd x))) (attl sa cs') + s_del F V s0 o outs + o_rel F outs.
  Proof.
    induction ks as [|k r IH]; intros cs cs' outs H HC HK; cbn [flushq] in H.
    - inversion H; subst. cbn. auto.
    - destruct (lookup k cs) as [c|] eqn:EL; [|eauto]. destruct (sa c) as [[a m]|] eqn:ES; [|eauto].
      destruct (flushq r (assoc_set k (clr c) cs)) as [cs3 o3] eqn:EC. inversion H; subst; clear H.
      destruct (IH _ _ _ EC) as [H4 H5].
      + eapply cinv_put; [exact HC|exact EL|rewrite clr_sa; auto|rewrite clr_ra; auto].
      + intros a0 m0 Hi. apply HK. eapply (attl_put_none sa ra); [apply clr_sa|exact Hi].
      + split; [exact H4|]. cbn [s_take s_del o_tx o_rel].
        rewrite (HK a m) by (apply (in_attl sa ra); exists k, c; split; [apply lookup_in|]; assumption).
        change (E_OK =? 0)%N with true. cbv iota.
        pose proof (attl_put sa (fun x => F (OAio (fst x), body (snd x))) _ _ _ (clr c) EL) as P.
        rewrite ES, clr_sa in P. cbn [opt_list] in P. rewrite wsum_cons, !wsum_nil in P. cbn [fst snd] in P. lia.
  Qed.
  Lemma flushq_frame ks : forall cs cs' outs, flushq ks cs = (cs', outs) ->
    forall kc, In kc (sal sa cs') -> In kc (sal sa cs).
  Proof.
    induction ks as [|k r IH]; intros cs cs' outs H; cbn [flushq] in H.
    - inversion H; subst. auto.
    - destruct (lookup k cs) as [c|]; [|eauto]. destruct (sa c) as [[a m]|]; [|eauto].
      destruct (flushq r (assoc_set k (clr c) cs)) as [cs3 o3] eqn:EC. inversion H; subst; clear H.
      intros kc Hk. apply (IH _ _ _ EC) in Hk. eapply (sal_set sa); [apply clr_sa|exact Hk].
  Qed.
End Flush.

Lemma adel_aset {A} k (v : A) l : ReqModel.assoc_del k (ReqModel.assoc_set k v l) = ReqModel.assoc_del k l.
Proof.
  unfold ReqModel.assoc_del. induction l as [|[k0 v0] l IH]; cbn; [now rewrite N.eqb_refl|].
  destruct (N.eqb_spec k0 k) as [->|Hk]; cbn; [now rewrite N.eqb_refl|].
  destruct (N.eqb_spec k0 k); [contradiction|]. cbn. now rewrite IH.
Qed.

(* What the two protocols share: the sends the view shows attached to aios are the queued sends of a table
   of contexts.  Nearly every step leaves the table alone, replaces one record or removes one (sv_same, sv_put,
   sv_del); opening a context and the flush of a closing pipe go through sv_law.  The parked and in-flight
   messages (wrest) and the rest of the invariant (Q) are each protocol's own: REP keeps them in lists keyed
   by pipe, RESPONDENT in one record per pipe, and the two step functions share no code, so the case
   analysis of a step is done once for each. *)
Definition served {St A} (V : view St) (ctxs : St -> list (N * A)) (sa : A -> option (aioid * pmsg)) : Prop :=
  (forall s, v_att V s = attl sa (ctxs s)) /\
  (forall s o outs, v_clones V s o = [] /\ v_dups V s o = [] /\ v_extra V s o outs = []).
Definition wrest {St} (V : view St) (F : owner * key -> nat) (s : St) : nat :=
  wsum (fun m => F (OProto, body m)) (v_held V s) + wsum (fun x => F (OPipe (fst x), body (snd x))) (v_tx V s).
Definition watt (F : owner * key -> nat) (x : option (aioid * pmsg)) : nat :=
  wsum (fun x => F (OAio (fst x), body (snd x))) (opt_list x).
Definition is_send (o : pop) : bool := match o with PSend _ _ _ _ => true | _ => false end.
(* rep0_ctx_close / resp0_ctx_close abort the queued send and the pending receive of a context *)
Definition close_outs {A} (sa : A -> option (aioid * pmsg)) (ra : A -> option aioid) (c : A) : list pout :=
  match sa c with Some (a, _) => [Complete a E_CLOSED None] | None => [] end ++
  match ra c with Some a => [Complete a E_CLOSED None] | None => [] end.

Section Served.
  Import ReqModel.
  Context {St A : Type} {V : view St} {ctxs : St -> list (N * A)}
          {sa : A -> option (aioid * pmsg)} {ra : A -> option aioid} {Q : St -> Prop} (SV : served V ctxs sa).

  Lemma sv_law s o s' outs :
    (forall F, wrest V F s + wsum (fun x => F (OAio (fst x), body (snd x))) (attl sa (ctxs s))
               + op_add F V s o + s_take F V s o outs + o_tx F outs
             = wrest V F s' + wsum (fun x => F (OAio (fst x), body (snd x))) (attl sa (ctxs s'))
               + op_del F V s o + s_del F V s o outs + o_rel F outs) ->
    law_sum V s o s' outs.
  Proof.
    intros H. destruct SV as [Ea P]. destruct (P s o outs) as (Hc & Hd & He). apply law_sum_plain; auto.
    intros F. unfold w_omega. rewrite !Ea. exact (H F).
  Qed.

  Lemma sv_same s o s' outs :
    CInv sa ra (ctxs s) /\ Q s -> ctxs s' = ctxs s -> Q s' ->
    (forall F, wrest V F s + op_add F V s o + s_take F V s o outs + o_tx F outs
             = wrest V F s' + op_del F V s o + s_del F V s o outs + o_rel F outs) ->
    (CInv sa ra (ctxs s') /\ Q s') /\ law_sum V s o s' outs.
  Proof.
    intros [HC _] E HQ H. split; [split; [rewrite E; exact HC|exact HQ]|].
    apply sv_law. intros F. rewrite E. specialize (H F). lia.
  Qed.
  (* the record of context k replaced: its queued send stays, goes, or is a fresh one *)
  Lemma sv_put s o s' outs k c c' :
    CInv sa ra (ctxs s) /\ Q s -> lookup k (ctxs s) = Some c -> ctxs s' = assoc_set k c' (ctxs s) -> Q s' ->
    (sa c' = sa c \/ sa c' = None \/
     (exists a m, sa c' = Some (a, m) /\ sa c = None /\ ~ In a (aids sa (ctxs s)) /\
                  (forall k0 c0, In (k0, c0) (ctxs s) -> ra c0 <> Some a))) ->
    (ra c' = ra c \/ ra c' = None \/ (exists a, ra c' = Some a /\ ~ In a (aids sa (ctxs s)) /\ sa c' = sa c)) ->
    (forall F, wrest V F s + watt F (sa c) + op_add F V s o + s_take F V s o outs + o_tx F outs
             = wrest V F s' + watt F (sa c') + op_del F V s o + s_del F V s o outs + o_rel F outs) ->
    (CInv sa ra (ctxs s') /\ Q s') /\ law_sum V s o s' outs.
  Proof.
    intros [HC _] EL E HQ Hs Hr H. split.
    - split; [|exact HQ]. rewrite E. eapply cinv_put; eassumption.
    - apply sv_law. intros F. rewrite E. specialize (H F). unfold watt in H.
      pose proof (attl_put sa (fun x => F (OAio (fst x), body (snd x))) _ _ _ c' EL). lia.
  Qed.
  Lemma sv_del s o s' outs k c :
    CInv sa ra (ctxs s) /\ Q s -> lookup k (ctxs s) = Some c -> ctxs s' = assoc_del k (ctxs s) -> Q s' ->
    (forall F, wrest V F s + watt F (sa c) + op_add F V s o + s_take F V s o outs + o_tx F outs
             = wrest V F s' + op_del F V s o + s_del F V s o outs + o_rel F outs) ->
    (CInv sa ra (ctxs s') /\ Q s') /\ law_sum V s o s' outs.
  Proof.
    intros [HC _] EL E HQ H. split.
    - split; [|exact HQ]. rewrite E. apply cinv_remove, HC.
    - apply sv_law. intros F. rewrite E. specialize (H F). unfold watt in H.
      pose proof (attl_remove sa (fun x => F (OAio (fst x), body (snd x))) _ _ _ (proj1 HC) EL). lia.
  Qed.

  (* the completion of an aio that is no queued send / of a queued send *)
  Lemma sv_skey s o a : is_send o = false -> send_key V s o a = att_key a (attl sa (ctxs s)).
  Proof. intros H. rewrite send_key_other, (proj1 SV); [reflexivity|]. intros c b nb m ->. discriminate. Qed.
  Lemma sv_compl_none F s o a rv : is_send o = false -> ~ In a (aids sa (ctxs s)) ->
    s_take F V s o [Complete a rv None] = 0 /\ s_del F V s o [Complete a rv None] = 0.
  Proof. intros Ho Hn. cbn [s_take s_del]. rewrite sv_skey by exact Ho. rewrite (att_key_notin _ _ Hn). auto. Qed.
  Lemma sv_skey_queued s o k c a m :
    is_send o = false -> CInv sa ra (ctxs s) -> In (k, c) (ctxs s) -> sa c = Some (a, m) -> send_key V s o a = Some (body m).
  Proof. intros Ho HC Hi E. rewrite sv_skey by exact Ho. eapply cinv_att_key; eassumption. Qed.

  Lemma close_outs_sum F s o k c : is_send o = false -> CInv sa ra (ctxs s) -> In (k, c) (ctxs s) ->
    watt F (sa c) + s_take F V s o (close_outs sa ra c) + o_tx F (close_outs sa ra c)
    = s_del F V s o (close_outs sa ra c) + o_rel F (close_outs sa ra c).
  Proof.
    intros Ho HC Hin. unfold close_outs, watt.
    destruct (sa c) as [[a m]|] eqn:ES; destruct (ra c) as [b|] eqn:ER; cbn [app s_take s_del o_tx o_rel];
      rewrite ?(sv_skey s o _ Ho), ?(cinv_att_key sa ra _ _ _ _ _ HC Hin ES),
        ?(att_key_notin _ _ (proj2 (proj2 HC) _ _ _ Hin ER));
      change (E_CLOSED =? 0)%N with false; cbv iota; cbn [opt_list]; gnorm; cbn [fst snd]; lia.
  Qed.
End Served.

(* projections and setters of the REP / RESPONDENT state, computed away in hypotheses and goal *)
Ltac rproj := cbn [RepModel.rp_ctxs RepModel.rp_pipes RepModel.rp_busy RepModel.rp_pclosed RepModel.rp_holding RepModel.rp_recvq RepModel.rp_sendq RepModel.rp_sending RepModel.rp_readable
  RepModel.rp_writable RepModel.rp_ttl RepModel.rp_set_ctxs RepModel.rp_set_pipes RepModel.rp_set_holding RepModel.rp_set_recvq RepModel.rp_set_sendq
  RepModel.rp_set_sending RepModel.rp_set_readable RepModel.rp_set_writable RepModel.rp_set_ttl RepModel.rp_put] in *.
Ltac rsproj := cbn [RespondModel.rs_ctxs RespondModel.rs_pipes RespondModel.rs_recvpipes RespondModel.rs_recvq RespondModel.rs_ttl RespondModel.rs_readable RespondModel.rs_writable
  RespondModel.rset_ctxs RespondModel.rset_pipes RespondModel.rset_w RespondModel.rset_r RespondModel.rset_recvpipes RespondModel.rset_recvq] in *.

Section RepSec.
  Import ReqRepBacktrace ReqModel RepModel ReqRepProofs.

  Lemma in_fst_del {B} p q (l : list (N * B)) : In q (map fst (assoc_del p l)) -> q <> p /\ In q (map fst l).
  Proof.
    rewrite !in_map_iff. intros [x [E Hi]]. apply in_assoc_del in Hi. subst q. split; [|exists x]; tauto.
  Qed.
  Lemma find_pctx_some f l k c : find_pctx f l = Some (k, c) -> f c = true /\ In (k, c) l.
  Proof.
    induction l as [|[k0 c0] l IH]; cbn; [discriminate|]. destruct (f c0) eqn:E.
    - intros H. inversion H; subst. auto.
    - intros H. destruct (IH H). auto.
  Qed.
  Lemma rep_find_saio_none a l : find_pctx (saio_is a) l = None -> ~ In a (aids rc_saio l).
  Proof.
    induction l as [|[k0 c0] l IH]; cbn; [tauto|]. destruct (saio_is a c0) eqn:E; [discriminate|].
    intros H. unfold aids, attl. cbn [flat_map snd]. fold (attl rc_saio l). rewrite map_app, in_app_iff.
    intros [Hi|Hi]; [|exact (IH H Hi)]. unfold saio_is in E. destruct (rc_saio c0) as [[b m]|]; cbn in Hi; [|tauto].
    destruct Hi as [<-|[]]. now rewrite N.eqb_refl in E.
  Qed.

  (* the invariant: contexts well keyed (CInv), and a pipe with a send in flight is busy
     (so a direct send goes to a pipe with nothing in flight) *)
  Definition RQ (s : rep) : Prop := forall p, In p (map fst (rp_sending s)) -> In p (rp_busy s).
  Definition RInv (s : rep) : Prop := CInv rc_saio rc_raio (rp_ctxs s) /\ RQ s.
  (* the environment: an aio is submitted once at a time; cancel with an error; a context id is opened once *)
  Definition rep_ok (s : rep) (o : pop) : Prop :=
    match o with
    | PSend _ a _ _ => ~ In a (aids rc_saio (rp_ctxs s)) /\ (forall k c, In (k, c) (rp_ctxs s) -> rc_raio c <> Some a)
    | PRecv _ a _ => ~ In a (aids rc_saio (rp_ctxs s))
    | PCancel _ rv => rv <> 0%N
    | PCtxOpen k => ~ In (k + 1)%N (map fst (rp_ctxs s))
    | _ => True
    end.

  Lemma rep_inv_init : RInv rep_init.
  Proof.
    split; [split; [|split]|]; cbn.
    - constructor; [tauto|constructor].
    - constructor.
    - tauto.
    - intros p [].
  Qed.

  Lemma rep_served : served view_rep rp_ctxs rc_saio.
  Proof. split; [reflexivity|repeat split]. Qed.

  (* the pollable flags are read by neither the view nor the invariant.  A conditional update of one is an
     update by a computed value, so the result of a step is a nest of setters whatever the flags say *)
  Lemma if_set_writable (b : bool) s v :
    (if b then rp_set_writable s v else s) = rp_set_writable s (if b then v else rp_writable s).
  Proof. destruct b, s; reflexivity. Qed.
  Lemma if_set_readable (b : bool) s v :
    (if b then rp_set_readable s v else s) = rp_set_readable s (if b then v else rp_readable s).
  Proof. destruct b, s; reflexivity. Qed.
  Lemma rep_take_put pf s k c p m ra :
    rep_take pf s k c p m ra
    = rp_set_writable (rp_put s k (mkPctx p (pm_hdr m) (rc_saio c) ra))
        (if N.eqb k 0 then if negb (has_id p (rp_busy s)) then true else if pf_wbusy pf then false else rp_writable s
         else rp_writable s).
  Proof. unfold rep_take. destruct (N.eqb k 0), (negb (has_id p (rp_busy s))), (pf_wbusy pf), s; reflexivity. Qed.

  (* closes the equation of a law: the sums of the goal pushed through the step's lists, then lia.  It works on the
     goal only (a rewrite in every hypothesis is slow under these contexts): a fact it is to use is put in front
     of the goal first (generalize); slawnorm below does the same for RESPONDENT *)
  Ltac lawnorm := unfold wrest, watt; cbn [op_add op_del s_take s_del o_tx o_rel rc_saio opt_list]; unfold tx_of, assoc_del;
    cbn [view_rep VRep.view v_held v_tx]; rproj; rewrite ?send_key_self;
    gnorm; unfold body; cbn [fst snd rep_send rep_deliver pm_body pm_hdr N.eqb E_OK E_STATE E_AGAIN E_CLOSED].
  Ltac lawfin := lawnorm; lia.

  (* what the invariant and the view read of a state *)
  Definition rcore (s : rep) := (rp_ctxs s, rp_holding s, rp_sending s, rp_busy s).
  Lemma rcore_ext s1 s2 : rcore s1 = rcore s2 ->
    rp_ctxs s1 = rp_ctxs s2 /\ (RQ s2 -> RQ s1) /\ forall F, wrest view_rep F s1 = wrest view_rep F s2.
  Proof.
    intros E. injection E as E1 E2 E3 E4. unfold RQ, wrest. cbn [view_rep VRep.view v_held v_tx].
    rewrite E1, E2, E3, E4. auto.
  Qed.
  (* nothing of it moves *)
  Lemma rep_same s o s0 outs0 s' outs :
    RInv s -> (s0, outs0) = (s', outs) -> rcore s0 = rcore s ->
    (forall F, op_add F view_rep s o + s_take F view_rep s o outs0 + o_tx F outs0
             = op_del F view_rep s o + s_del F view_rep s o outs0 + o_rel F outs0) ->
    RInv s' /\ law_sum view_rep s o s' outs.
  Proof.
    intros HI [= <- <-] E H. destruct (rcore_ext _ _ E) as (E1 & E2 & E3).
    apply (sv_same rep_served); [exact HI|exact E1|apply E2, HI|]. intros F. rewrite E3. specialize (H F). lia.
  Qed.

  Lemma rep_send_ok pf s c a nb m s' outs :
    pf_saio pf = true -> RInv s -> rep_ok s (PSend c a nb m) -> rep_step pf s (PSend c a nb m) = (s', outs) ->
    RInv s' /\ law_sum view_rep s (PSend c a nb m) s' outs.
  Proof.
    intros Hpf HI [Hok1 Hok2] H. cbn [rep_step] in H. unfold rp_get in H.
    assert (REF : forall rv, (s, [Complete a rv None]) = (s', outs) -> rv <> 0%N -> RInv s' /\ law_sum view_rep s (PSend c a nb m) s' outs).
    { intros rv E Hrv. eapply rep_same; [exact HI|exact E|reflexivity|intros F; apply unsent_sum; left; eauto]. }
    destruct (lookup (ckey c) (rp_ctxs s)) as [cx|] eqn:EL; [|apply (REF _ H); discriminate].
    unfold rep_ctx_send in H. rewrite Hpf in H. cbn [andb] in H.
    destruct (rc_saio cx) as [sx|] eqn:ES; [apply (REF _ H); discriminate|].
    rewrite !if_set_writable in H. rproj.
    (* the slot is consumed and the reply not sent: the context's record changes, its queued send does not *)
    assert (BACK : forall s'' outs'' c', (s'', outs'') = (s', outs) -> rcore s'' = rcore (rp_put s (ckey c) c') ->
              rc_saio c' = None -> rc_raio c' = rc_raio cx -> unsent a m outs'' ->
              RInv s' /\ law_sum view_rep s (PSend c a nb m) s' outs).
    { intros s'' outs'' c' [= -> ->] Ec Esa Era Hu. destruct (rcore_ext _ _ Ec) as (E1 & E2 & E3).
      eapply (sv_put rep_served); [exact HI|exact EL|exact E1|apply E2, HI|left; congruence|auto|].
      intros F. rewrite E3, Esa, ES. generalize (unsent_sum view_rep F s c a nb m outs Hu). lawfin. }
    destruct (is_nil (rc_bt cx)).
    { eapply BACK; [exact H|reflexivity|reflexivity|reflexivity|left; exists E_STATE; split; [discriminate|reflexivity]]. }
    destruct (has_id (rc_pipe cx) (rp_pipes s)); cbn [negb] in H.
    2:{ eapply BACK; [exact H|reflexivity|reflexivity|reflexivity|right; eexists; split; [|reflexivity]; reflexivity]. }
    destruct (has_id (rc_pipe cx) (rp_busy s)) eqn:EBusy; cbn [negb] in H.
    - destruct nb.
      { destruct (pf_nbsend pf); (eapply BACK; [exact H|unfold rcore; rproj; rewrite ?ReqRepProofs.assoc_set_twice; reflexivity|try exact ES; try reflexivity..|
                                               left; exists E_AGAIN; split; [discriminate|reflexivity]]). }
      (* queued behind the busy pipe: the reply stays on the aio *)
      injection H as <- <-.
      eapply (sv_put rep_served); [exact HI|exact EL|rproj; apply ReqRepProofs.assoc_set_twice|apply HI| |left; reflexivity|intros F; rewrite ES; lawfin].
      right; right. exists a, (rep_send (rc_bt cx) m). rewrite ES. auto.
    - (* handed to the idle pipe *)
      injection H as <- <-. apply has_id_false in EBusy.
      assert (EP : ~ In (rc_pipe cx) (map fst (rp_sending s))) by (intros Hx; apply EBusy, HI, Hx).
      eapply (sv_put rep_served); [exact HI|exact EL|reflexivity| |right; left; reflexivity|left; reflexivity|].
      + intros q. rproj. cbn [map fst]. rewrite in_app_iff. intros [<-|Hq]; [right; left; reflexivity|].
        left. apply HI. eapply ListX.in_map_filter. exact Hq.
      + intros F. rewrite ES. rproj. unfold assoc_del. rewrite (ListX.filter_keep_notin _ _ EP). lawfin.
  Qed.

  Lemma rep_recv_ok pf s c a nb s' outs :
    RInv s -> rep_ok s (PRecv c a nb) -> rep_step pf s (PRecv c a nb) = (s', outs) ->
    RInv s' /\ law_sum view_rep s (PRecv c a nb) s' outs.
  Proof.
    intros HI Hok H. cbn [rep_step rep_ok] in *. unfold rp_get in H.
    assert (REF : forall rv, (s, [Complete a rv None]) = (s', outs) -> RInv s' /\ law_sum view_rep s (PRecv c a nb) s' outs).
    { intros rv E. eapply rep_same; [exact HI|exact E|reflexivity|]. intros F.
      destruct (sv_compl_none rep_served F s (PRecv c a nb) a rv eq_refl Hok) as [-> ->].
      reflexivity. }
    destruct (lookup (ckey c) (rp_ctxs s)) as [cx|] eqn:EL; [|exact (REF _ H)].
    unfold rep_ctx_recv in H. destruct (rp_holding s) as [|[p m] rest] eqn:EH.
    - destruct nb; [exact (REF _ H)|].
      destruct (rc_raio cx) eqn:ER; [exact (REF _ H)|].
      injection H as <- <-.
      eapply (sv_put rep_served); [exact HI|exact EL|reflexivity|apply HI|left; reflexivity| |intros F; lawnorm; rewrite EH; lia].
      right; right. exists a. auto.
    - rewrite if_set_readable, rep_take_put in H. injection H as <- <-.
      eapply (sv_put rep_served); [exact HI|exact EL|reflexivity|apply HI|left; reflexivity|left; reflexivity|].
      intros F. lawnorm. rewrite EH. lawfin.
  Qed.

  Lemma rep_cancel_ok pf s a rv s' outs :
    RInv s -> rv <> 0%N -> rep_step pf s (PCancel a rv) = (s', outs) ->
    RInv s' /\ law_sum view_rep s (PCancel a rv) s' outs.
  Proof.
    intros HI Hrv H. cbn [rep_step] in H. pose proof HI as [HC HB].
    destruct (find_pctx (saio_is a) (rp_ctxs s)) as [[k cx]|] eqn:EF.
    - (* a queued send: its message stays on the aio *)
      destruct (find_pctx_some _ _ _ _ EF) as [Hf Hin]. pose proof (ReqRepProofs.nodup_in_lookup _ _ _ (proj1 HC) Hin) as EL.
      unfold saio_is in Hf. destruct (rc_saio cx) as [[a' m0]|] eqn:ES; [|discriminate].
      apply N.eqb_eq in Hf. subst a'. injection H as <- <-.
      eapply (sv_put rep_served); [exact HI|exact EL|reflexivity|exact HB|right; left; reflexivity|left; reflexivity|].
      intros F. cbn [s_take s_del].
      rewrite (sv_skey_queued rep_served s (PCancel a rv) k cx a m0 eq_refl HC Hin ES), ES.
      destruct (N.eqb_spec rv 0); [contradiction|]. lawfin.
    - pose proof (rep_find_saio_none _ _ EF) as Hn.
      destruct (find_pctx (fun c => opt_is a (rc_raio c)) (rp_ctxs s)) as [[k cx]|] eqn:EF2.
      2:{ eapply rep_same; [exact HI|exact H|reflexivity|reflexivity]. }
      destruct (find_pctx_some _ _ _ _ EF2) as [Hf Hin]. pose proof (ReqRepProofs.nodup_in_lookup _ _ _ (proj1 HC) Hin) as EL.
      injection H as <- <-. eapply (sv_put rep_served); [exact HI|exact EL|reflexivity|exact HB|left; reflexivity|right; left; reflexivity|].
      intros F.
      destruct (sv_compl_none rep_served F s (PCancel a rv) a rv eq_refl Hn) as [-> ->].
      reflexivity.
  Qed.

  Definition rep_clr_saio (c : pctx) : pctx := mkPctx (rc_pipe c) (rc_bt c) None (rc_raio c).
  (* rep0_pipe_close's loop over the pipe's send queue changes the contexts only, as flushq does *)
  Lemma close_sendq_flushq ks : forall s,
    close_sendq s ks = (rp_set_ctxs s (fst (flushq rc_saio rep_clr_saio ks (rp_ctxs s))), snd (flushq rc_saio rep_clr_saio ks (rp_ctxs s))).
  Proof.
    induction ks as [|k r IH]; intros s; cbn [close_sendq flushq]; [destruct s; reflexivity|].
    unfold rp_get. destruct (lookup k (rp_ctxs s)) as [c|]; [|apply IH]. destruct (rc_saio c) as [[a m]|]; [|apply IH].
    rewrite IH. unfold rp_put. cbn [rp_ctxs rp_set_ctxs]. fold (rep_clr_saio c).
    destruct (flushq rc_saio rep_clr_saio r (assoc_set k (rep_clr_saio c) (rp_ctxs s))). reflexivity.
  Qed.

  (* rep0_ctx_close *)
  Lemma rep_ctx_close_spec s k cx s1 o1 : rep_ctx_close s k cx = (s1, o1) ->
    rcore s1 = rcore (rp_put s k (mkPctx (rc_pipe cx) (rc_bt cx) None None)) /\ o1 = close_outs rc_saio rc_raio cx.
  Proof.
    unfold rep_ctx_close, close_outs. destruct (rc_saio cx) as [[a m]|], (rc_raio cx); intros H; injection H as <- <-; split; reflexivity.
  Qed.

  Lemma rep_pipeclose_ok pf s p s' outs :
    RInv s -> rep_step pf s (PPipeClose p) = (s', outs) -> RInv s' /\ law_sum view_rep s (PPipeClose p) s' outs.
  Proof.
    intros [HC HB] H. cbn [rep_step] in H. cbv zeta in H. rewrite if_set_readable in H. rproj.
    rewrite close_sendq_flushq in H. rproj. rewrite if_set_writable in H. injection H as <- <-.
    match goal with |- context [flushq ?sa ?cl ?ks ?cs] => destruct (flushq sa cl ks cs) as [cs' o1] eqn:EC end.
    assert (SP : forall F, _) by
      (intros F; refine (flushq_spec rc_saio rc_raio rep_clr_saio (fun _ => eq_refl) (fun _ => eq_refl) view_rep F s (PPipeClose p) _ _ _ _ EC HC _);
       intros a m Hi; rewrite (sv_skey rep_served) by reflexivity; apply att_key_in; [apply HC|exact Hi]).
    cbn [fst snd]. split.
    - split; rproj; [apply (SP (fun _ => 0))|exact HB].
    - apply (sv_law rep_served). intros F. destruct (SP F) as [_ S5]. lawnorm.
      pose proof (wsum_filter_key (fun x => F (OProto, body (snd x))) p (rp_holding s)) as P.
      unfold body in S5, P. lia.
  Qed.

  Lemma rep_senddone_ok pf s p rv s' outs :
    RInv s -> rep_step pf s (PSendDone p rv) = (s', outs) -> RInv s' /\ law_sum view_rep s (PSendDone p rv) s' outs.
  Proof.
    intros HI H. cbn [rep_step] in H. cbv zeta in H. pose proof HI as [HC HB].
    assert (BD : forall q, In q (map fst (assoc_del p (rp_sending s))) -> In q (remove_id p (rp_busy s))).
    { intros q Hq. apply in_fst_del in Hq. apply in_remove_id. split; [apply HB|]; tauto. }
    pose proof (fun F => senddone_split F view_rep s p rv) as LW.
    destruct (N.eqb_spec rv 0) as [->|Hrv]; cbn [negb] in H.
    2:{ (* the transport failed: the message in flight is freed *)
        injection H as <- <-. apply (sv_same rep_served); [exact HI|reflexivity| |].
        - intros q Hq. apply HB. eapply ListX.in_map_filter. exact Hq.
        - intros F. generalize (LW F). lawnorm. cbn [s_take s_del o_tx o_rel]. lia. }
    rproj.
    (* no reply waits for the pipe *)
    assert (IDLE : forall s'', (s'', []) = (s', outs) ->
              rcore s'' = (rp_ctxs s, rp_holding s, assoc_del p (rp_sending s), remove_id p (rp_busy s)) ->
              RInv s' /\ law_sum view_rep s (PSendDone p 0) s' outs).
    { intros s'' [= -> <-] Ec. injection Ec as E1 E2 E3 E4.
      apply (sv_same rep_served); [exact HI|exact E1|red; rewrite E3, E4; exact BD|].
      intros F. generalize (LW F). lawnorm. rewrite E2, E3. unfold assoc_del. lia. }
    destruct (first_on p (rp_sendq s)) as [k|] eqn:EFO.
    2:{ rewrite if_set_writable in H. eapply IDLE; [exact H|reflexivity]. }
    unfold rp_get in H. rproj. destruct (lookup k (rp_ctxs s)) as [cx|] eqn:EL; [|eapply IDLE; [exact H|reflexivity]].
    destruct (rc_saio cx) as [[a m]|] eqn:ES; [|eapply IDLE; [exact H|reflexivity]].
    (* the oldest queued reply goes to the pipe *)
    clear IDLE. injection H as <- <-.
    eapply (sv_put rep_served); [exact HI|exact EL|reflexivity| |right; left; reflexivity|left; reflexivity|].
    - intros q. rproj. cbn [map fst]. rewrite in_app_iff. intros [<-|Hq]; [right; left; reflexivity|left; auto].
    - intros F. generalize (LW F). cbn [s_take s_del].
      rewrite (sv_skey_queued rep_served s (PSendDone p 0) k cx a m eq_refl HC (lookup_in _ _ _ EL) ES), ES.
      lawfin.
  Qed.

  Lemma rep_recvdone_ok pf s p rv m s' outs :
    RInv s -> rep_step pf s (PRecvDone p rv m) = (s', outs) -> RInv s' /\ law_sum view_rep s (PRecvDone p rv m) s' outs.
  Proof.
    intros HI H. cbn [rep_step] in H.
    destruct (N.eqb_spec rv 0) as [->|Hrv]; cbn [negb] in H.
    2:{ eapply rep_same; [exact HI|exact H|reflexivity|]. intros F. cbn [op_add]. destruct (N.eqb_spec rv 0); [contradiction|reflexivity]. }
    assert (RX : forall F, op_add F view_rep s (PRecvDone p 0 m)
                 = F (OProto, match rep_recv (rp_ttl s) (pm_body m) with BtDeliver m' => body m' | _ => body m end)) by reflexivity.
    destruct (rep_recv (rp_ttl s) (pm_body m)) as [m'| |] eqn:ER.
    2,3: eapply rep_same; [exact HI|exact H|reflexivity|]; intros F; rewrite RX; lawfin.
    destruct (has_id p (rp_pclosed s)).
    { eapply rep_same; [exact HI|exact H|reflexivity|]; intros F; rewrite RX; lawfin. }
    destruct (rp_recvq s) as [|k rest].
    { (* parked in the pipe *)
      injection H as <- <-. apply (sv_same rep_served); [exact HI|reflexivity|apply HI|]. intros F. rewrite RX. lawfin. }
    unfold rp_get in H. destruct (lookup k (rp_ctxs s)) as [cx|] eqn:EL.
    2:{ eapply rep_same; [exact HI|exact H|reflexivity|]; intros F; rewrite RX; lawfin. }
    destruct (rc_raio cx) as [ra|] eqn:ERA.
    2:{ eapply rep_same; [exact HI|exact H|reflexivity|]; intros F; rewrite RX; lawfin. }
    (* handed to the waiting context *)
    rewrite rep_take_put in H. injection H as <- <-.
    eapply (sv_put rep_served); [exact HI|exact EL|reflexivity|apply HI|left; reflexivity|right; left; reflexivity|].
    intros F. rewrite RX. lawfin.
  Qed.

  Lemma rep_ctxclose_ok pf s c s' outs :
    RInv s -> rep_step pf s (PCtxClose c) = (s', outs) -> RInv s' /\ law_sum view_rep s (PCtxClose c) s' outs.
  Proof.
    intros HI H. cbn [rep_step] in H. unfold rp_get in H. destruct (lookup (c + 1)%N (rp_ctxs s)) as [cx|] eqn:EL.
    2:{ eapply rep_same; [exact HI|exact H|reflexivity|reflexivity]. }
    destruct (rep_ctx_close s (c + 1)%N cx) as [s1 o1] eqn:ECL. destruct (rep_ctx_close_spec _ _ _ _ _ ECL) as [Ec ->].
    destruct (rcore_ext _ _ Ec) as (E1 & E2 & E3). injection H as <- <-.
    eapply (sv_del rep_served); [exact HI|exact EL|rproj; rewrite E1; apply adel_aset|apply E2, HI|].
    intros F. change (wrest view_rep F (rp_set_ctxs s1 _)) with (wrest view_rep F s1). rewrite E3.
    generalize (close_outs_sum rep_served F s (PCtxClose c) _ cx eq_refl (proj1 HI) (lookup_in _ _ _ EL)).
    lawfin.
  Qed.

  Lemma rep_sockclose_ok pf s s' outs :
    RInv s -> rep_step pf s PSockClose = (s', outs) -> RInv s' /\ law_sum view_rep s PSockClose s' outs.
  Proof.
    intros HI H. cbn [rep_step] in H. unfold rp_get in H. destruct (lookup 0%N (rp_ctxs s)) as [cx|] eqn:EL.
    2:{ eapply rep_same; [exact HI|exact H|reflexivity|reflexivity]. }
    destruct (rep_ctx_close_spec _ _ _ _ _ H) as [Ec ->]. destruct (rcore_ext _ _ Ec) as (E1 & E2 & E3).
    eapply (sv_put rep_served); [exact HI|exact EL|exact E1|apply E2, HI|right; left; reflexivity|right; left; reflexivity|].
    intros F. rewrite E3.
    generalize (close_outs_sum rep_served F s PSockClose _ cx eq_refl (proj1 HI) (lookup_in _ _ _ EL)).
    lawfin.
  Qed.

  Lemma rep_step_main pf s o s' outs :
    pf_saio pf = true -> RInv s -> rep_ok s o -> rep_step pf s o = (s', outs) ->
    RInv s' /\ law_sum view_rep s o s' outs.
  Proof.
    intros Hpf HI Hok H.
    destruct o as [c a nb m|c a nb|a rv|p peer|p|p rv|p rv m|c op|c|c| |now].
    - eapply rep_send_ok; eassumption.
    - eapply rep_recv_ok; eassumption.
    - eapply rep_cancel_ok; eassumption.
    - cbn [rep_step] in H. destruct (negb (peer =? PROTO_REQ)%N);
        (eapply rep_same; [exact HI|exact H|reflexivity|reflexivity]).
    - eapply rep_pipeclose_ok; eassumption.
    - eapply rep_senddone_ok; eassumption.
    - eapply rep_recvdone_ok; eassumption.
    - cbn [rep_step] in H. destruct c; [eapply rep_same; [exact HI|exact H|reflexivity|reflexivity]|].
      destruct op; try (eapply rep_same; [exact HI|exact H|reflexivity|reflexivity]).
      all: match type of H with (if ?b then _ else _) = _ => destruct b end;
           (eapply rep_same; [exact HI|exact H|reflexivity|reflexivity]).
    - cbn [rep_step rep_ok] in *. injection H as <- <-. destruct HI as [HC HB]. split.
      + split; rproj; [|exact HB]. apply cinv_snoc; auto.
      + apply (sv_law rep_served). intros F. lawnorm. rewrite attl_app. gnorm. cbn. gnorm. lia.
    - eapply rep_ctxclose_ok; eassumption.
    - eapply rep_sockclose_ok; eassumption.
    - eapply rep_same; [exact HI|exact H|reflexivity|reflexivity].
  Qed.

  Theorem rep_proto_law : forall pf, pf_saio pf = true -> proto_law view_rep (rep_step pf) RInv rep_ok.
  Proof.
    intros pf Hpf s o s' outs HI Hok H. destruct (rep_step_main pf s o s' outs Hpf HI Hok H) as [A B].
    split; [exact A|]. split; [apply law_sum_eq, B|apply clones_held_none; reflexivity].
  Qed.

  (* a history the contract allows: a request arrives and is received, the reply goes out at once
     (pipe idle); a second request is received and its reply is queued behind the busy pipe; the
     transport completion sends the queued reply; option change, a context, a cancelled receive,
     pipe close, socket close *)
  Definition rep_hist : list pop :=
    [PPipeStart 1%N PROTO_REQ;
     PRecvDone 1%N 0%N (mkPmsg [] [128; 0; 0; 1; 7]%N);
     PRecv None 10%N false;
     PSend None 11%N false (mkPmsg [] [42%N]);
     PRecvDone 1%N 0%N (mkPmsg [] [128; 0; 0; 2; 8]%N);
     PRecv None 12%N false;
     PSend None 13%N false (mkPmsg [] [43%N]);
     PSendDone 1%N 0%N;
     PSetOpt None (OMaxTtl 5);
     PCtxOpen 0%N;
     PRecv (Some 0%N) 14%N false;
     PCancel 14%N E_CANCELED;
     PRecvDone 1%N 0%N (mkPmsg [] [128; 0; 0; 3; 9]%N);
     PRecv None 15%N false;
     PSend None 16%N false (mkPmsg [] [44%N]);
     PPipeClose 1%N;
     PSockClose].
  Definition pf_all : pfix := RepProofs.pf_repaired.
  Example rep_ok_nonvacuous :
    ops_ok (rep_step pf_all) rep_ok rep_init rep_hist /\
    snd (rep_step pf_all (run (rep_step pf_all) rep_init (firstn 3 rep_hist)) (nth 3 rep_hist PSockClose))
      = [TranSend 1%N (mkPmsg [128; 0; 0; 1]%N [42%N]); Complete 11%N E_OK None] /\
    snd (rep_step pf_all (run (rep_step pf_all) rep_init (firstn 6 rep_hist)) (nth 6 rep_hist PSockClose)) = [] /\
    snd (rep_step pf_all (run (rep_step pf_all) rep_init (firstn 7 rep_hist)) (nth 7 rep_hist PSockClose))
      = [TranSend 1%N (mkPmsg [128; 0; 0; 2]%N [43%N]); Complete 13%N E_OK None] /\
    snd (rep_step pf_all (run (rep_step pf_all) rep_init (firstn 15 rep_hist)) (nth 15 rep_hist PSockClose))
      = [Complete 16%N E_OK None; Free (mkPmsg [128; 0; 0; 3]%N [44%N])].
  Proof.
    split; [|vm_compute; repeat split].
    vm_compute.
    repeat match goal with |- _ /\ _ => split end; try exact I; try discriminate.
    all: try (intros HH; intuition discriminate).
    all: intros k c HH; repeat (destruct HH as [HH|HH]; [inversion HH; subst; discriminate|]); destruct HH.
  Qed.
End RepSec.

Section RespSec.
  Import SurveyBacktrace SurveyModel RespondModel.

  (* the pipes: parked surveys and messages in flight *)
  Definition pheld (l : list (pid * rpipe)) : list pmsg := flat_map (fun px => rp_rmsg (snd px)) l.
  Lemma pheld_app a b : pheld (a ++ b) = pheld a ++ pheld b. Proof. apply flat_map_app. Qed.

  Definition pgood (x : rpipe) : Prop := (rp_busy x = false -> rp_held x = []) /\ length (rp_rmsg x) <= 1.
  Definition PInv (l : list (pid * rpipe)) : Prop := NoDup (map fst l) /\ forall p x, In (p, x) l -> pgood x.
  Lemma pinv_snoc l p x : PInv l -> ~ In p (map fst l) -> pgood x -> PInv (l ++ [(p, x)]).
  Proof.
    intros [K G] Hp Hx. split; [rewrite map_app; cbn; apply ListX.nodup_snoc; auto|].
    intros q y Hi. apply in_app_or in Hi. destruct Hi as [Hi|[Hi|[]]]; [eauto|inversion Hi; subst; exact Hx].
  Qed.
  Lemma pinv_put l p x x' : PInv l -> kget p l = Some x -> pgood x' -> PInv (kset p x' l).
  Proof.
    intros [K G] EP Hx. split; [rewrite (ReqRepProofs.map_fst_assoc_set_present _ _ _ _ EP); exact K|].
    intros q y Hi. apply ReqRepProofs.in_assoc_set in Hi. destruct Hi as [E|Hi]; [inversion E; subst; exact Hx|exact (G q y Hi)].
  Qed.
  (* the record of pipe p replaced: what the view shows of the pipes moves by the two fields of that record *)
  Lemma pipes_put F l p x x' : kget p l = Some x ->
    (wsum (fun m => F (OProto, body m)) (pheld (kset p x' l)) + wsum (fun m => F (OProto, body m)) (rp_rmsg x)
     = wsum (fun m => F (OProto, body m)) (pheld l) + wsum (fun m => F (OProto, body m)) (rp_rmsg x')) /\
    (wsum (fun y => F (OPipe (fst y), body (snd y))) (ptx rp_held (kset p x' l)) + wsum (fun m => F (OPipe p, body m)) (rp_held x)
     = wsum (fun y => F (OPipe (fst y), body (snd y))) (ptx rp_held l) + wsum (fun m => F (OPipe p, body m)) (rp_held x')).
  Proof.
    intros EP. unfold pheld. rewrite !wsum_flat_map, !wsum_ptx.
    pose proof (wsum_aset (fun px => wsum (fun m => F (OProto, body m)) (rp_rmsg (snd px))) p x' l x EP) as P1.
    pose proof (wsum_aset (fun px => wsum (fun m => F (OPipe (fst px), body m)) (rp_held (snd px))) p x' l x EP) as P2.
    cbn [fst snd] in P1, P2. change (@kset rpipe) with (@ReqModel.assoc_set rpipe). lia.
  Qed.

  Lemma unqueue_keys k l : map fst (unqueue_ctx k l) = map fst l.
  Proof. unfold unqueue_ctx. rewrite map_map. reflexivity. Qed.
  Lemma pheld_ptx l : pheld l = map snd (ptx rp_rmsg l).
  Proof.
    induction l as [|[p x] l IH]; [reflexivity|]. unfold pheld. cbn [flat_map snd]. fold (pheld l).
    rewrite ptx_cons, map_app, map_map, map_id, IH. reflexivity.
  Qed.
  Lemma unqueue_parked k l : ptx rp_rmsg (unqueue_ctx k l) = ptx rp_rmsg l.
  Proof. unfold ptx, unqueue_ctx. induction l as [|[q x] l IH]; [reflexivity|]. cbn [map flat_map fst snd rp_rmsg]. now rewrite IH. Qed.
  Lemma unqueue_ptx k l : ptx rp_held (unqueue_ctx k l) = ptx rp_held l.
  Proof. unfold ptx, unqueue_ctx. induction l as [|[q x] l IH]; [reflexivity|]. cbn [map flat_map fst snd rp_held]. now rewrite IH. Qed.
  Lemma pinv_unqueue k l : PInv l -> PInv (unqueue_ctx k l).
  Proof.
    intros [K G]. split; [now rewrite unqueue_keys|]. intros p x Hi. unfold unqueue_ctx in Hi.
    apply in_map_iff in Hi. destruct Hi as [[q y] [E Hi]]. inversion E; subst. exact (G _ _ Hi).
  Qed.
  Lemma resp_find_saio_none a l : find_saio a l = None -> ~ In a (aids rc_saio l).
  Proof.
    intros H Hi. unfold aids in Hi. apply in_map_iff in Hi. destruct Hi as [[a' m] [E Hi]]. cbn in E. subst a'.
    apply (in_attl rc_saio rc_raio) in Hi. destruct Hi as [k [c [Hi Es]]].
    pose proof (find_none _ _ H _ Hi) as Hf. cbn in Hf. rewrite Es, N.eqb_refl in Hf. discriminate.
  Qed.
  Definition SQ (s : resp) : Prop := PInv (rs_pipes s).
  Definition SInv (s : resp) : Prop := CInv rc_saio rc_raio (rs_ctxs s) /\ SQ s.
  (* the environment: an aio is submitted once at a time; cancel with an error; a context id is opened
     once; a pipe id is started once; the transport completes a receive only when one is posted on the
     pipe -- the model posts the next one (TranRecv p) exactly when it hands the parked survey on, so
     "a receive is posted on p" is "p parks no survey" *)
  Definition resp_ok (s : resp) (o : pop) : Prop :=
    match o with
    | PSend _ a _ _ => ~ In a (aids rc_saio (rs_ctxs s)) /\ (forall k c, In (k, c) (rs_ctxs s) -> rc_raio c <> Some a)
    | PRecv _ a _ => ~ In a (aids rc_saio (rs_ctxs s))
    | PCancel _ rv => rv <> 0%N
    | PCtxOpen c => ~ In (c + 1)%N (map fst (rs_ctxs s))
    | PPipeStart p _ => ~ In p (map fst (rs_pipes s))
    | PRecvDone p _ _ => match kget p (rs_pipes s) with Some x => rp_rmsg x = [] | None => True end
    | _ => True
    end.

  Lemma resp_inv_init : SInv resp_init.
  Proof.
    split; [split; [|split]|split]; cbn.
    - constructor; [tauto|constructor].
    - constructor.
    - tauto.
    - constructor.
    - tauto.
  Qed.

  Lemma resp_served : served view_resp rs_ctxs rc_saio.
  Proof. split; [reflexivity|repeat split]. Qed.
  Lemma wrest_resp F s : wrest view_resp F s =
    wsum (fun m => F (OProto, body m)) (pheld (rs_pipes s))
    + wsum (fun x => F (OPipe (fst x), body (snd x))) (ptx rp_held (rs_pipes s)).
  Proof. reflexivity. Qed.

  Definition resp_clr_saio (c : rctx) : rctx := mkRctx (rc_pipe c) (rc_bt c) None (rc_raio c).
  Lemma flush_sendq_flushq ks : forall cs, flush_sendq ks cs = flushq rc_saio resp_clr_saio ks cs.
  Proof.
    induction ks as [|k r IH]; intros cs; cbn [flush_sendq flushq]; [reflexivity|].
    change (ReqModel.lookup k cs) with (kget k cs). destruct (kget k cs) as [c|]; [|apply IH].
    destruct (rc_saio c) as [[a m]|]; [|apply IH]. rewrite IH. reflexivity.
  Qed.

  (* resp0_ctx_close: beside the context's record only the pipes' lists of waiting contexts change *)
  Lemma rctx_close_spec s k cx s1 o1 : rctx_close s k cx = (s1, o1) ->
    o1 = close_outs rc_saio rc_raio cx /\ rs_ctxs s1 = kset k (mkRctx (rc_pipe cx) (rc_bt cx) None None) (rs_ctxs s) /\
    (SQ s -> SQ s1) /\ ptx rp_rmsg (rs_pipes s1) = ptx rp_rmsg (rs_pipes s) /\ ptx rp_held (rs_pipes s1) = ptx rp_held (rs_pipes s).
  Proof.
    unfold rctx_close, close_outs. destruct (rc_saio cx) as [[a m]|], (rc_raio cx); intros H; injection H as <- <-;
      (split; [reflexivity|]); (split; [reflexivity|]); (split; [try exact (pinv_unqueue k _); auto|]);
      cbn [rs_pipes rset_pipes rset_recvq rset_ctxs]; rewrite ?unqueue_parked, ?unqueue_ptx; split; reflexivity.
  Qed.

  (* the send descriptor is read by neither the view nor the invariant: a conditional update of it is an
     update by a computed value *)
  Lemma if_rset_w (b : bool) s v : (if b then rset_w s v else s) = rset_w s (if b then v else rs_writable s).
  Proof. destruct b, s; reflexivity. Qed.

  Ltac slawnorm := rewrite ?wrest_resp; unfold watt; rsproj;
    cbn [op_add op_del s_take s_del o_tx o_rel rp_held rp_rmsg rc_saio opt_list]; rewrite ?send_key_self;
    gnorm; unfold body; cbn [fst snd pm_body pm_hdr N.eqb E_OK E_STATE E_AGAIN E_CLOSED].
  Ltac slawfin := slawnorm; lia.

  (* what the invariant and the view read of a state *)
  Definition rscore (s : resp) := (rs_ctxs s, rs_pipes s).

  Lemma resp_same s o s0 outs0 s' outs :
    SInv s -> (s0, outs0) = (s', outs) -> rscore s0 = rscore s ->
    (forall F, op_add F view_resp s o + s_take F view_resp s o outs0 + o_tx F outs0
             = op_del F view_resp s o + s_del F view_resp s o outs0 + o_rel F outs0) ->
    SInv s' /\ law_sum view_resp s o s' outs.
  Proof.
    intros HI [= <- <-] E H. injection E as E1 E2. apply (sv_same resp_served); [exact HI|exact E1|red; rewrite E2; apply HI|].
    intros F. rewrite !wrest_resp, E2. specialize (H F). lia.
  Qed.

  Lemma resp_send_ok fx s c a nb m s' outs :
    rf_sbusy fx = true -> SInv s -> resp_ok s (PSend c a nb m) -> resp_step fx s (PSend c a nb m) = (s', outs) ->
    SInv s' /\ law_sum view_resp s (PSend c a nb m) s' outs.
  Proof.
    intros Hfx HI [Hok1 Hok2] H. cbn [resp_step] in H. cbv zeta in H.
    assert (REF : forall s'' rv, (s'', [Complete a rv None]) = (s', outs) -> rv <> 0%N -> rscore s'' = rscore s ->
                    SInv s' /\ law_sum view_resp s (PSend c a nb m) s' outs).
    { intros s'' rv E Hrv Ec. eapply resp_same; [exact HI|exact E|exact Ec|].
      intros F. apply unsent_sum. left. eauto. }
    destruct (kget (ckey c) (rs_ctxs s)) as [cx|] eqn:EL; [|eapply REF; [exact H|discriminate|reflexivity]].
    rewrite Hfx in H. cbn [andb] in H. rewrite !if_rset_w in H. rsproj.
    destruct (nb && negb (rf_nb fx)); [eapply REF; [exact H|discriminate|reflexivity]|].
    destruct (rc_bt cx) as [|b0 bt] eqn:EB; [eapply REF; [exact H|discriminate|reflexivity]|].
    destruct (rc_saio cx) as [sx|] eqn:ES; [eapply REF; [exact H|discriminate|reflexivity]|].
    match type of H with (if ?b then _ else _) = _ => destruct b end; [eapply REF; [exact H|discriminate|reflexivity]|].
    clear REF. destruct (live_pipe (rc_pipe cx) (rs_pipes s)) as [x|] eqn:LP.
    2:{ (* the survey's pipe is gone: the response is dropped *)
        injection H as <- <-.
        eapply (sv_put resp_served); [exact HI|exact EL|reflexivity|apply HI|left; symmetry; exact ES|left; reflexivity|].
        intros F. pose proof (unsent_sum view_resp F s c a nb m [Complete a E_OK None; Free (mkPmsg (b0 :: bt) (pm_body m))]) as P.
        lapply P; [rewrite ES; slawfin|]. right. eexists. split; [|reflexivity]. reflexivity. }
    unfold live_pipe in LP. destruct (kget (rc_pipe cx) (rs_pipes s)) as [x0|] eqn:EP; [|discriminate].
    destruct (rp_closed x0) eqn:ECL; [discriminate|]. injection LP as ->.
    pose proof (proj2 (proj2 HI) _ _ (lookup_in _ _ _ EP)) as [GX1 GX2].
    destruct (rp_busy x) eqn:EBU; cbn [negb] in H; injection H as <- <-.
    - (* queued behind the busy pipe: the response stays on the aio *)
      eapply (sv_put resp_served); [exact HI|exact EL|reflexivity| | |left; reflexivity|].
      + eapply pinv_put; [apply HI|exact EP|split; cbn; auto; discriminate].
      + right; right. exists a, (mkPmsg (b0 :: bt) (pm_body m)). rewrite ES. auto.
      + intros F. rewrite ES.
        generalize (pipes_put F _ _ _ (mkRpipe true false (rp_sendq x ++ [ckey c]) (rp_held x) (rp_rmsg x)) EP). slawfin.
    - (* handed to the idle pipe *)
      eapply (sv_put resp_served); [exact HI|exact EL|reflexivity| |right; left; reflexivity|left; reflexivity|].
      + eapply pinv_put; [apply HI|exact EP|split; cbn; auto; discriminate].
      + intros F. rewrite ES.
        generalize (pipes_put F _ _ _ (mkRpipe true false (rp_sendq x) [mkPmsg (b0 :: bt) (pm_body m)] (rp_rmsg x)) EP).
        rewrite (GX1 eq_refl). slawfin.
  Qed.

  Lemma resp_recv_ok fx s c a nb s' outs :
    SInv s -> resp_ok s (PRecv c a nb) -> resp_step fx s (PRecv c a nb) = (s', outs) ->
    SInv s' /\ law_sum view_resp s (PRecv c a nb) s' outs.
  Proof.
    intros HI Hok H. cbn [resp_step resp_ok] in *. cbv zeta in H.
    assert (REF : forall s'' rv, (s'', [Complete a rv None]) = (s', outs) -> rscore s'' = rscore s ->
                    SInv s' /\ law_sum view_resp s (PRecv c a nb) s' outs).
    { intros s'' rv E Ec. eapply resp_same; [exact HI|exact E|exact Ec|]. intros F.
      destruct (sv_compl_none resp_served F s (PRecv c a nb) a rv eq_refl Hok) as [-> ->]. reflexivity. }
    destruct (kget (ckey c) (rs_ctxs s)) as [cx|] eqn:EL; [|eapply REF; [exact H|reflexivity]].
    destruct (rs_recvpipes s) as [|p rest] eqn:ERP.
    - destruct nb; [eapply REF; [exact H|reflexivity]|].
      destruct (rc_raio cx) eqn:ER; [eapply REF; [exact H|reflexivity]|].
      injection H as <- <-.
      eapply (sv_put resp_served); [exact HI|exact EL|reflexivity|apply HI|left; reflexivity| |intros F; reflexivity].
      right; right. exists a. auto.
    - destruct (kget p (rs_pipes s)) as [x|] eqn:EP; [|eapply REF; [exact H|reflexivity]].
      destruct (rp_rmsg x) as [|msg tl] eqn:ERM; [eapply REF; [exact H|reflexivity]|].
      (* the survey parked in the first pipe goes to the context *)
      clear REF. pose proof (proj2 (proj2 HI) _ _ (lookup_in _ _ _ EP)) as [GX1 GX2]. rewrite ERM in GX2.
      assert (tl = []) by (destruct tl; [reflexivity|cbn in GX2; lia]). subst tl.
      injection H as <- <-.
      eapply (sv_put resp_served); [exact HI|exact EL|reflexivity| |left; reflexivity|left; reflexivity|].
      + eapply pinv_put; [apply HI|exact EP|split; cbn; auto; lia].
      + intros F.
        generalize (pipes_put F _ _ _ (mkRpipe (rp_busy x) (rp_closed x) (rp_sendq x) (rp_held x) []) EP).
        rewrite ERM. slawfin.
  Qed.

  Lemma resp_cancel_ok fx s a rv s' outs :
    SInv s -> rv <> 0%N -> resp_step fx s (PCancel a rv) = (s', outs) ->
    SInv s' /\ law_sum view_resp s (PCancel a rv) s' outs.
  Proof.
    intros HI Hrv H. cbn [resp_step] in H. pose proof HI as [HC HP].
    destruct (find_saio a (rs_ctxs s)) as [[k cx]|] eqn:EF.
    - (* a queued send: its message stays on the aio *)
      unfold find_saio in EF. apply find_some in EF. destruct EF as [Hin Hf]. cbn [snd] in Hf.
      pose proof (ReqRepProofs.nodup_in_lookup _ _ _ (proj1 HC) Hin) as EL.
      destruct (rc_saio cx) as [[a' m0]|] eqn:ES; [|discriminate]. apply N.eqb_eq in Hf. subst a'.
      injection H as <- <-.
      eapply (sv_put resp_served); [exact HI|exact EL|reflexivity|apply pinv_unqueue, HP|right; left; reflexivity|left; reflexivity|].
      intros F. cbn [s_take s_del]. rewrite (sv_skey_queued resp_served s (PCancel a rv) k cx a m0 eq_refl HC Hin ES), ES.
      destruct (N.eqb_spec rv 0); [contradiction|]. slawnorm. rewrite !pheld_ptx, unqueue_parked, unqueue_ptx. lia.
    - pose proof (resp_find_saio_none _ _ EF) as Hn.
      destruct (find_raio a (rs_ctxs s)) as [[k cx]|] eqn:EF2.
      2:{ eapply resp_same; [exact HI|exact H|reflexivity|reflexivity]. }
      unfold find_raio in EF2. apply find_some in EF2. destruct EF2 as [Hin Hf].
      pose proof (ReqRepProofs.nodup_in_lookup _ _ _ (proj1 HC) Hin) as EL.
      injection H as <- <-.
      eapply (sv_put resp_served); [exact HI|exact EL|reflexivity|exact HP|left; reflexivity|right; left; reflexivity|].
      intros F. destruct (sv_compl_none resp_served F s (PCancel a rv) a rv eq_refl Hn) as [-> ->]. reflexivity.
  Qed.

  Lemma resp_pipeclose_ok fx s p s' outs :
    SInv s -> resp_step fx s (PPipeClose p) = (s', outs) -> SInv s' /\ law_sum view_resp s (PPipeClose p) s' outs.
  Proof.
    intros HI H. cbn [resp_step] in H.
    destruct (kget p (rs_pipes s)) as [x|] eqn:EP; [|eapply resp_same; [exact HI|exact H|reflexivity|reflexivity]].
    destruct HI as [HC HP]. pose proof (proj2 HP _ _ (lookup_in _ _ _ EP)) as [GX1 GX2]. rewrite flush_sendq_flushq in H.
    destruct (flushq rc_saio resp_clr_saio (rp_sendq x) (rs_ctxs s)) as [cs' o1] eqn:EFL. injection H as <- <-.
    assert (SP : forall F, _) by
      (intros F; refine (flushq_spec rc_saio rc_raio resp_clr_saio (fun _ => eq_refl) (fun _ => eq_refl) view_resp F s (PPipeClose p) _ _ _ _ EFL HC _);
       intros a m Hi; rewrite (sv_skey resp_served) by reflexivity; apply att_key_in; [apply HC|exact Hi]).
    split.
    - split; rsproj; [apply (SP (fun _ => 0))|]. eapply pinv_put; [exact HP|exact EP|split; cbn; auto].
    - apply (sv_law resp_served). intros F.
      generalize (proj2 (SP F)) (pipes_put F _ _ _ (mkRpipe (rp_busy x) true [] (rp_held x) []) EP). slawfin.
  Qed.

  Lemma resp_senddone_ok fx s p rv s' outs :
    SInv s -> resp_step fx s (PSendDone p rv) = (s', outs) -> SInv s' /\ law_sum view_resp s (PSendDone p rv) s' outs.
  Proof.
    intros HI H. cbn [resp_step] in H.
    assert (OPS : forall F,
              op_add F view_resp s (PSendDone p rv)
              = (if (rv =? 0)%N then 0 else wsum (fun m => F (OProto, body m)) (tx_of p (ptx rp_held (rs_pipes s)))) /\
              op_del F view_resp s (PSendDone p rv) = wsum (fun m => F (OPipe p, body m)) (tx_of p (ptx rp_held (rs_pipes s))))
      by (intros; split; reflexivity).
    destruct (kget p (rs_pipes s)) as [x|] eqn:EP.
    2:{ eapply resp_same; [exact HI|exact H|reflexivity|]. intros F. destruct (OPS F) as [-> ->].
        rewrite (tx_of_ptx_none rp_held _ _ EP). destruct (rv =? 0)%N; reflexivity. }
    pose proof HI as [HC HP]. pose proof (proj2 HP _ _ (lookup_in _ _ _ EP)) as [GX1 GX2].
    rewrite (tx_of_ptx_some rp_held _ _ _ (proj1 HP) EP) in OPS.
    (* the pipe's record becomes x', with nothing in flight *)
    assert (IDLE : forall s'' x', rscore s'' = (rs_ctxs s, kset p x' (rs_pipes s)) ->
                  rp_held x' = [] -> rp_rmsg x' = rp_rmsg x ->
                  SInv s'' /\ law_sum view_resp s (PSendDone p rv) s'' (if (rv =? 0)%N then [] else map Free (rp_held x) ++ [ClosePipe p])).
    { intros s'' x' Ec Eh Er. injection Ec as E1 E2.
      apply (sv_same resp_served); [exact HI|exact E1| |].
      - red. rewrite E2. eapply pinv_put; [exact HP|exact EP|]. split; [auto|rewrite Er; exact GX2].
      - intros F. destruct (OPS F) as [-> ->]. generalize (pipes_put F _ _ _ x' EP). rewrite !wrest_resp, E2, Eh, Er.
        destruct (rv =? 0)%N; slawnorm; cbn [s_take s_del o_tx o_rel]; lia. }
    destruct (N.eqb_spec rv 0) as [->|Hrv]; cbn [negb] in H.
    2:{ (* the transport failed: the message in flight is freed *)
        injection H as <- <-. eapply IDLE; reflexivity. }
    change (0 =? 0)%N with true in OPS. cbv iota in OPS.
    destruct (rp_sendq x) as [|k rest] eqn:ESQ.
    { rewrite if_rset_w in H. injection H as <- <-. eapply IDLE; reflexivity. }
    destruct (kget k (rs_ctxs s)) as [cx|] eqn:EL; [|injection H as <- <-; eapply IDLE; reflexivity].
    destruct (rc_saio cx) as [[a m]|] eqn:ES; [|injection H as <- <-; eapply IDLE; reflexivity].
    (* the oldest queued response goes to the pipe *)
    clear IDLE. injection H as <- <-.
    eapply (sv_put resp_served); [exact HI|exact EL|reflexivity| |right; left; reflexivity|left; reflexivity|].
    - eapply pinv_put; [exact HP|exact EP|split; cbn; auto; discriminate].
    - intros F. destruct (OPS F) as [-> ->]. cbn [s_take s_del].
      rewrite (sv_skey_queued resp_served s (PSendDone p 0) k cx a m eq_refl HC (lookup_in _ _ _ EL) ES), ES.
      generalize (pipes_put F _ _ _ (mkRpipe true (rp_closed x) rest [m] (rp_rmsg x)) EP). slawfin.
  Qed.

  Lemma resp_recvdone_ok fx s p rv m s' outs :
    SInv s -> resp_ok s (PRecvDone p rv m) -> resp_step fx s (PRecvDone p rv m) = (s', outs) ->
    SInv s' /\ law_sum view_resp s (PRecvDone p rv m) s' outs.
  Proof.
    intros HI Hok H. cbn [resp_step resp_ok] in *.
    destruct (N.eqb_spec rv 0) as [->|Hrv]; cbn [negb] in H.
    2:{ eapply resp_same; [exact HI|exact H|reflexivity|]. intros F. cbn [op_add]. destruct (N.eqb_spec rv 0); [contradiction|reflexivity]. }
    assert (RX : forall F, op_add F view_resp s (PRecvDone p 0 m)
                 = F (@pair owner key OProto (match resp_recv (rs_ttl s) (pm_body m) with BtDeliver _ b => b | _ => body m end))) by reflexivity.
    destruct (resp_recv (rs_ttl s) (pm_body m)) as [hdr bdy| |] eqn:ER.
    2,3: eapply resp_same; [exact HI|exact H|reflexivity|]; intros F; rewrite RX; slawfin.
    cbv zeta in H. destruct (live_pipe p (rs_pipes s)) as [x|] eqn:LP.
    2:{ eapply resp_same; [exact HI|exact H|reflexivity|]; intros F; rewrite RX; slawfin. }
    unfold live_pipe in LP. destruct (kget p (rs_pipes s)) as [x0|] eqn:EP; [|discriminate].
    destruct (rp_closed x0) eqn:ECL; [discriminate|]. injection LP as ->.
    destruct (rs_recvq s) as [|k rest].
    { (* parked in the pipe *)
      injection H as <- <-. pose proof (proj2 (proj2 HI) _ _ (lookup_in _ _ _ EP)) as [GX1 GX2].
      apply (sv_same resp_served); [exact HI|reflexivity| |].
      - eapply pinv_put; [apply HI|exact EP|split; cbn; auto].
      - intros F. rewrite RX.
        generalize (pipes_put F _ _ _ (mkRpipe (rp_busy x) false (rp_sendq x) (rp_held x) [mkPmsg (pm_hdr m ++ hdr) bdy]) EP).
        rewrite Hok. slawfin. }
    destruct (kget k (rs_ctxs s)) as [cx|] eqn:EL.
    2:{ eapply resp_same; [exact HI|exact H|reflexivity|]; intros F; rewrite RX; slawfin. }
    destruct (rc_raio cx) as [ra|] eqn:ERA.
    2:{ eapply resp_same; [exact HI|exact H|reflexivity|]; intros F; rewrite RX; slawfin. }
    (* handed to the waiting context *)
    injection H as <- <-.
    eapply (sv_put resp_served); [exact HI|exact EL|reflexivity|apply HI|left; reflexivity|right; left; reflexivity|].
    intros F. rewrite RX. slawfin.
  Qed.

  Lemma resp_ctxclose_ok fx s c s' outs :
    SInv s -> resp_step fx s (PCtxClose c) = (s', outs) -> SInv s' /\ law_sum view_resp s (PCtxClose c) s' outs.
  Proof.
    intros HI H. cbn [resp_step ckey] in H. destruct (kget (c + 1)%N (rs_ctxs s)) as [cx|] eqn:EL.
    2:{ eapply resp_same; [exact HI|exact H|reflexivity|reflexivity]. }
    destruct (rctx_close s (c + 1)%N cx) as [s1 o1] eqn:ECL. destruct (rctx_close_spec _ _ _ _ _ ECL) as (-> & E1 & E2 & E3 & E4).
    injection H as <- <-.
    eapply (sv_del resp_served); [exact HI|exact EL|rsproj; rewrite E1; apply adel_aset|apply E2, HI|].
    intros F. rewrite !wrest_resp. rsproj. rewrite !pheld_ptx, E3, E4.
    pose proof (close_outs_sum resp_served F s (PCtxClose c) _ cx eq_refl (proj1 HI) (lookup_in _ _ _ EL)). cbn [op_add op_del]. lia.
  Qed.

  Lemma resp_sockclose_ok fx s s' outs :
    SInv s -> resp_step fx s PSockClose = (s', outs) -> SInv s' /\ law_sum view_resp s PSockClose s' outs.
  Proof.
    intros HI H. cbn [resp_step] in H. destruct (kget 0%N (rs_ctxs s)) as [cx|] eqn:EL.
    2:{ eapply resp_same; [exact HI|exact H|reflexivity|reflexivity]. }
    destruct (rctx_close_spec _ _ _ _ _ H) as (-> & E1 & E2 & E3 & E4).
    eapply (sv_put resp_served); [exact HI|exact EL|exact E1|apply E2, HI|right; left; reflexivity|right; left; reflexivity|].
    intros F. rewrite !wrest_resp, !pheld_ptx, E3, E4.
    pose proof (close_outs_sum resp_served F s PSockClose _ cx eq_refl (proj1 HI) (lookup_in _ _ _ EL)).
    unfold watt at 2. cbn [rc_saio opt_list op_add op_del]. rewrite wsum_nil. lia.
  Qed.

  Lemma resp_step_main fx s o s' outs :
    rf_sbusy fx = true -> SInv s -> resp_ok s o -> resp_step fx s o = (s', outs) ->
    SInv s' /\ law_sum view_resp s o s' outs.
  Proof.
    intros Hfx HI Hok H.
    destruct o as [c a nb m|c a nb|a rv|p peer|p|p rv|p rv m|c op|c|c| |now].
    - eapply resp_send_ok; eassumption.
    - eapply resp_recv_ok; eassumption.
    - eapply resp_cancel_ok; eassumption.
    - cbn [resp_step resp_ok] in *.
      destruct (negb (peer =? PROTO_SURVEYOR)%N); injection H as <- <-; [eapply resp_same; [exact HI|reflexivity|reflexivity|reflexivity]|].
      apply (sv_same resp_served); [exact HI|reflexivity|apply pinv_snoc; [apply HI|exact Hok|split; cbn; auto]|].
      intros F. slawnorm. rewrite pheld_app, ptx_app. gnorm. cbn. gnorm. lia.
    - eapply resp_pipeclose_ok; eassumption.
    - eapply resp_senddone_ok; eassumption.
    - eapply resp_recvdone_ok; eassumption.
    - cbn [resp_step] in H. destruct c; [eapply resp_same; [exact HI|exact H|reflexivity|reflexivity]|].
      destruct op; try (eapply resp_same; [exact HI|exact H|reflexivity|reflexivity]).
      all: match type of H with (if ?b then _ else _) = _ => destruct b end;
           (eapply resp_same; [exact HI|exact H|reflexivity|reflexivity]).
    - cbn [resp_step resp_ok ckey] in *.
      injection H as <- <-.
      rewrite (ReqRepProofs.assoc_set_absent _ _ _ Hok : kset _ _ _ = _).
      destruct HI as [HC HP].
      split.
      + split; rsproj; [|exact HP]. apply cinv_snoc; auto.
      + apply (sv_law resp_served). intros F. slawnorm. rewrite attl_app. gnorm. cbn. gnorm. lia.
    - eapply resp_ctxclose_ok; eassumption.
    - eapply resp_sockclose_ok; eassumption.
    - eapply resp_same; [exact HI|exact H|reflexivity|reflexivity].
  Qed.

  Theorem resp_proto_law : forall fx, rf_sbusy fx = true -> proto_law view_resp (resp_step fx) SInv resp_ok.
  Proof.
    intros fx Hfx s o s' outs HI Hok H. destruct (resp_step_main fx s o s' outs Hfx HI Hok H) as [A B].
    split; [exact A|]. split; [apply law_sum_eq, B|apply clones_held_none; reflexivity].
  Qed.

  (* a history the contract allows: a survey arrives and is received, the response goes out at once
     (pipe idle); a second survey is received and its response is queued behind the busy pipe; the
     transport completion sends the queued response; option change, a context, a cancelled receive;
     a third response queued, flushed by the pipe close; socket close *)
  Definition resp_hist : list pop :=
    [PPipeStart 1%N PROTO_SURVEYOR;
     PRecvDone 1%N 0%N (mkPmsg [] [128; 0; 0; 1; 7]%N);
     PRecv None 10%N false;
     PSend None 11%N false (mkPmsg [] [42%N]);
     PRecvDone 1%N 0%N (mkPmsg [] [128; 0; 0; 2; 8]%N);
     PRecv None 12%N false;
     PSend None 13%N false (mkPmsg [] [43%N]);
     PSendDone 1%N 0%N;
     PSetOpt None (OMaxTtl 5);
     PCtxOpen 0%N;
     PRecv (Some 0%N) 14%N false;
     PCancel 14%N E_CANCELED;
     PRecvDone 1%N 0%N (mkPmsg [] [128; 0; 0; 3; 9]%N);
     PRecv None 15%N false;
     PSend None 16%N false (mkPmsg [] [44%N]);
     PPipeClose 1%N;
     PSockClose].
  Example resp_ok_nonvacuous :
    ops_ok (resp_step rfix_all) resp_ok resp_init resp_hist /\
    snd (resp_step rfix_all (run (resp_step rfix_all) resp_init (firstn 3 resp_hist)) (nth 3 resp_hist PSockClose))
      = [TranSend 1%N (mkPmsg [128; 0; 0; 1]%N [42%N]); Complete 11%N E_OK None] /\
    snd (resp_step rfix_all (run (resp_step rfix_all) resp_init (firstn 6 resp_hist)) (nth 6 resp_hist PSockClose)) = [] /\
    snd (resp_step rfix_all (run (resp_step rfix_all) resp_init (firstn 7 resp_hist)) (nth 7 resp_hist PSockClose))
      = [TranSend 1%N (mkPmsg [128; 0; 0; 2]%N [43%N]); Complete 13%N E_OK None] /\
    snd (resp_step rfix_all (run (resp_step rfix_all) resp_init (firstn 15 resp_hist)) (nth 15 resp_hist PSockClose))
      = [Complete 16%N E_OK None; Free (mkPmsg [128; 0; 0; 3]%N [44%N])].
  Proof.
    split; [|vm_compute; repeat split].
    vm_compute.
    repeat match goal with |- _ /\ _ => split end; try exact I; try reflexivity; try discriminate.
    all: try (intros HH; intuition discriminate).
    all: intros k c HH; repeat (destruct HH as [HH|HH]; [inversion HH; subst; discriminate|]); destruct HH.
  Qed.
End RespSec.

Print Assumptions rep_proto_law.
Print Assumptions resp_proto_law.

(* After the close sequence REP and RESPONDENT own nothing (their fini functions
   free nothing: v_fini = []; rep0_pipe_close / resp0_pipe_close free the parked request /
   survey and complete the replies queued on the pipe) *)

(* the operations of a close sequence *)
Definition rclosing (o : pop) : bool :=
  match o with
  | PPipeClose _ | PCtxClose _ | PSockClose => true
  | PSendDone _ rv => N.eqb rv E_CLOSED
  | _ => false
  end.

Section RunGen.
  Context {St : Type} (step : St -> pop -> St * list pout).
  Lemma run_app_rr a : forall b s, run step s (a ++ b) = run step (run step s a) b.
  Proof. exact (run_app step a). Qed.
  (* closing operations only remove items, each item has an operation that removes it, and the history
     names that operation for every item of its first state: no item is left *)
  Lemma run_kills (Inv : St -> Prop) {X} (items : St -> list X) (killer : X -> pop) (P : pop -> Prop) :
    (forall s o, Inv s -> P o -> Inv (fst (step s o))) ->
    (forall s o x, Inv s -> P o -> In x (items (fst (step s o))) -> In x (items s) /\ o <> killer x) ->
    forall ops s, Inv s -> Forall P ops -> (forall x, In x (items s) -> In (killer x) ops) -> items (run step s ops) = [].
  Proof.
    intros HI HS. induction ops as [|o ops IH]; intros s Hi HP Hall; cbn [run].
    - destruct (items s) as [|x r]; [reflexivity|]. destruct (Hall x (or_introl eq_refl)).
    - inversion HP; subst. apply IH; [apply HI; assumption|assumption|]. intros x Hx.
      destruct (HS s o x Hi H1 Hx) as [Hx0 Hne]. destruct (Hall x Hx0) as [E|Hin]; [congruence|exact Hin].
  Qed.
End RunGen.
(* the operation that closes the context of key k (context c has key c + 1, the socket's own key 0) *)
Definition ckill (k : N) : pop := if N.eqb k 0 then PSockClose else PCtxClose (k - 1).
Lemma ckill_succ c : PCtxClose c = ckill (c + 1).
Proof. unfold ckill. destruct (N.eqb_spec (c + 1) 0); [lia|]. f_equal. lia. Qed.
Lemma ckill_ne k k' : k' <> k -> ckill k <> ckill k'.
Proof. unfold ckill. destruct (N.eqb_spec k 0), (N.eqb_spec k' 0); intros H E; try discriminate; [lia|injection E; lia]. Qed.
Lemma ckill_pipe k p : PPipeClose p <> ckill k /\ PSendDone p E_CLOSED <> ckill k.
Proof. unfold ckill. destruct (N.eqb k 0); split; discriminate. Qed.
(* the close scripts name the closing operation of every context *)
Lemma ckill_in_script {A} (l : list (N * A)) kc : In kc l ->
  In (ckill (fst kc)) (map (fun kc => PCtxClose (fst kc - 1)) (filter (fun kc => negb (N.eqb (fst kc) 0)) l) ++ [PSockClose]).
Proof.
  intros Hi. unfold ckill. apply in_or_app. destruct (N.eqb_spec (fst kc) 0) as [E0|E0]; [right; left; reflexivity|left].
  apply (in_map (fun kc => PCtxClose (fst kc - 1))). apply filter_In. split; [exact Hi|]. destruct (N.eqb_spec (fst kc) 0); [contradiction|reflexivity].
Qed.
(* a list of items that the operation o leaves alone and that o does not remove *)
Lemma kept {X} (l : list X) (o : pop) (kill : X -> pop) : (forall x, o <> kill x) -> forall x, In x l -> In x l /\ o <> kill x.
Proof. auto. Qed.
Lemma forallb_map_true {A} (f : A -> pop) (l : list A) : (forall x, rclosing (f x) = true) -> forallb rclosing (map f l) = true.
Proof. intros H. induction l; cbn; [reflexivity|]. now rewrite H, IHl. Qed.

Section RepClose.
  Import ReqRepBacktrace ReqModel RepModel ReqRepProofs.

  Lemma rep_ok_closing s o : rclosing o = true -> rep_ok s o.
  Proof. destruct o; cbn; intros; try exact I; discriminate. Qed.

  (* one step of a close sequence: the invariant stays, nothing is added, the target is emptied *)
  Lemma rep_close_step pf s o : pf_saio pf = true -> RInv s -> rclosing o = true ->
    let s' := fst (rep_step pf s o) in
    RInv s' /\
    (forall x, In x (rp_holding s') -> In x (rp_holding s) /\ o <> PPipeClose (fst x)) /\
    (forall x, In x (rp_sending s') -> In x (rp_sending s) /\ o <> PSendDone (fst x) E_CLOSED) /\
    (forall kc, In kc (sal rc_saio (rp_ctxs s')) -> In kc (sal rc_saio (rp_ctxs s)) /\ o <> ckill (fst kc)).
  Proof.
    intros Hpf HI Hcl s'. split.
    { subst s'. destruct (rep_step pf s o) as [s1 o1] eqn:E.
      exact (proj1 (rep_step_main pf s o s1 o1 Hpf HI (rep_ok_closing s o Hcl) E)). }
    destruct HI as [HC HB].
    destruct o as [c a nb m|c a nb|a rv|p peer|p|p rv|p rv m|c op|c|c| |now]; try discriminate Hcl; subst s'; cbn [rep_step].
    - cbv zeta. rewrite if_set_readable. rproj. rewrite close_sendq_flushq. rproj. rewrite if_set_writable.
      match goal with |- context [flushq ?sa ?cl ?ks ?cs] => destruct (flushq sa cl ks cs) as [cs' o1] eqn:EC end.
      cbn [fst snd]. rproj.
      split; [intros x Hx; apply in_assoc_del in Hx; split; [tauto|destruct Hx; congruence]|].
      split; [apply kept; discriminate|].
      intros kc Hk. split; [|apply ckill_pipe].
      exact (flushq_frame rc_saio rep_clr_saio (fun _ => eq_refl) _ _ _ _ EC kc Hk).
    - (* PSendDone p E_CLOSED *)
      cbn [rclosing] in Hcl. apply N.eqb_eq in Hcl. subst rv. cbv zeta.
      change (negb (E_CLOSED =? 0)%N) with true. cbv iota. cbn [fst]. rproj.
      split; [apply kept; discriminate|].
      split; [|apply kept; intros kc; apply ckill_pipe].
      intros x Hx. apply in_assoc_del in Hx. split; [tauto|destruct Hx; congruence].
    - unfold rp_get. destruct (lookup (c + 1)%N (rp_ctxs s)) as [cx|] eqn:EL.
      2:{ cbn [fst]. do 2 (split; [apply kept; discriminate|]). intros kc Hk. split; [exact Hk|].
          rewrite ckill_succ. apply ckill_ne. exact (sal_absent rc_saio _ _ _ EL Hk). }
      destruct (rep_ctx_close s (c + 1)%N cx) as [s1 o1] eqn:ECL.
      destruct (rep_ctx_close_spec _ _ _ _ _ ECL) as [E1 _]. injection E1 as E1 E2 E3 E4.
      cbn [fst]. rproj. rewrite E1, E2, E3, adel_aset. do 2 (split; [apply kept; discriminate|]).
      intros kc Hk. apply sal_remove in Hk. split; [apply Hk|]. rewrite ckill_succ. apply ckill_ne, Hk.
    - unfold rp_get. destruct (lookup 0%N (rp_ctxs s)) as [cx|] eqn:EL.
      2:{ cbn [fst]. do 2 (split; [apply kept; discriminate|]). intros kc Hk. split; [exact Hk|].
          apply (ckill_ne 0). exact (sal_absent rc_saio _ _ _ EL Hk). }
      destruct (rep_ctx_close s 0%N cx) as [s1 o1] eqn:ECL.
      destruct (rep_ctx_close_spec _ _ _ _ _ ECL) as [E1 _]. injection E1 as E1 E2 E3 E4.
      cbn [fst]. rewrite E1, E2, E3. do 2 (split; [apply kept; discriminate|]).
      intros kc Hk. eapply sal_put_clear in Hk; [|apply HC|exact EL|reflexivity].
      split; [apply Hk|apply (ckill_ne 0), Hk].
  Qed.

  (* the socket core's close sequence as rep0 sees it: every pipe the state knows (the id map, the pipes
     parking a request, with a send in flight, with queued replies) gets its pipe_close; every transport
     send still in flight fails (NNG_ECLOSED); every context other than the socket's own (context c has
     key c + 1) is closed; then the socket's own close, which closes the socket's context (key 0) *)
  Definition rep_close_script (s : rep) : list pop :=
    map PPipeClose (rp_pipes s ++ map fst (rp_holding s) ++ map fst (rp_sending s) ++ map fst (rp_sendq s))
    ++ map (fun p => PSendDone p E_CLOSED) (map fst (rp_sending s))
    ++ map (fun kc => PCtxClose (fst kc - 1)) (filter (fun kc => negb (N.eqb (fst kc) 0)) (rp_ctxs s))
    ++ [PSockClose].

  Lemma rep_script_closing s : forallb rclosing (rep_close_script s) = true.
  Proof.
    unfold rep_close_script. rewrite !forallb_app.
    rewrite !forallb_map_true by (intros; reflexivity). reflexivity.
  Qed.

  (* closing operations that name, for every item the state owns, the operation that removes it leave nothing *)
  Theorem rep_drains pf s ops : pf_saio pf = true -> RInv s -> Forall (fun o => rclosing o = true) ops ->
    (forall x, In x (rp_holding s) -> In (PPipeClose (fst x)) ops) ->
    (forall x, In x (rp_sending s) -> In (PSendDone (fst x) E_CLOSED) ops) ->
    (forall kc, In kc (sal rc_saio (rp_ctxs s)) -> In (ckill (fst kc)) ops) ->
    drained view_rep (run (rep_step pf) s ops).
  Proof.
    intros Hpf HI CL KH KS KC.
    assert (INV : forall s o, RInv s -> rclosing o = true -> RInv (fst (rep_step pf s o))) by (intros; apply rep_close_step; assumption).
    unfold drained. cbn [view_rep VRep.view v_tx v_att v_held v_fini].
    rewrite (run_kills (rep_step pf) RInv rp_holding (fun x => PPipeClose (fst x)) _ INV) by
      (try assumption; intros s0 o x H0 Ho; apply rep_close_step; assumption).
    rewrite (run_kills (rep_step pf) RInv rp_sending (fun x => PSendDone (fst x) E_CLOSED) _ INV) by
      (try assumption; intros s0 o x H0 Ho; apply rep_close_step; assumption).
    split; [reflexivity|]. split; [|apply Permutation_refl]. apply attl_sal_nil.
    apply (run_kills (rep_step pf) RInv (fun s => sal rc_saio (rp_ctxs s)) (fun kc => ckill (fst kc)) _ INV); try assumption.
    intros s0 o x H0 Ho. apply rep_close_step; assumption.
  Qed.

  Theorem rep_close_drains : forall pf s, pf_saio pf = true -> RInv s ->
    ops_ok (rep_step pf) rep_ok s (rep_close_script s) /\ drained view_rep (run (rep_step pf) s (rep_close_script s)).
  Proof.
    intros pf s Hpf HI. split.
    - apply ops_ok_all. intros o Ho s0. apply rep_ok_closing. exact (proj1 (forallb_forall _ _) (rep_script_closing s) o Ho).
    - apply rep_drains; [exact Hpf|exact HI|apply Forall_forall, forallb_forall, rep_script_closing| | |]; unfold rep_close_script.
      + intros x A. apply in_or_app. left. apply in_map. apply in_or_app. right. apply in_or_app. left. apply in_map. exact A.
      + intros x A. apply in_or_app. right. apply in_or_app. left. apply (in_map (fun p => PSendDone p E_CLOSED)). apply in_map. exact A.
      + intros kc A. apply in_or_app. right. apply in_or_app. right. apply ckill_in_script. apply filter_In in A. apply A.
  Qed.

  (* the pinned form of rep0_ctx_send (no NNG_ESTATE while ctx->saio is pending): the second queued
     reply overwrites ctx->saio; the first reply's reference is gone from the state and the ledger
     check fails at that step *)
  Definition pf_bad : pfix := mkPfix true true false true.
  Definition rep_bad_hist : list pop :=
    [PPipeStart 1%N PROTO_REQ;
     PRecvDone 1%N 0%N (mkPmsg [] [128; 0; 0; 1; 7]%N);
     PRecv None 10%N false;
     PSend None 11%N false (mkPmsg [] [42%N]);
     PRecvDone 1%N 0%N (mkPmsg [] [128; 0; 0; 2; 8]%N);
     PRecv None 12%N false;
     PSend None 13%N false (mkPmsg [] [43%N]);
     PRecvDone 1%N 0%N (mkPmsg [] [128; 0; 0; 3; 9]%N);
     PRecv None 14%N false;
     PSend None 15%N false (mkPmsg [] [44%N])].
  Theorem rep_law_refuted_pinned_saio : exists ops, replay_run view_rep (rep_step pf_bad) ls_init rep_init ops = None.
  Proof. exists rep_bad_hist. vm_compute. reflexivity. Qed.
  (* ... while the history up to the last send replays, and with the repair all of it does *)
  Lemma rep_bad_hist_prefix_ok :
    (exists r, replay_run view_rep (rep_step pf_bad) ls_init rep_init (removelast rep_bad_hist) = Some r) /\
    (exists r, replay_run view_rep (rep_step pf_all) ls_init rep_init rep_bad_hist = Some r).
  Proof. split; vm_compute; eexists; reflexivity. Qed.
End RepClose.

Section RespClose.
  Import SurveyBacktrace SurveyModel RespondModel.

  Lemma resp_ok_closing s o : rclosing o = true -> resp_ok s o.
  Proof. destruct o; cbn; intros; try exact I; discriminate. Qed.

  (* the entries (pipe, message) of a field of the pipe records, and how they move when the record of
     one pipe is replaced *)
  Lemma in_ptx (h : rpipe -> list pmsg) q m l : In (q, m) (ptx h l) <-> exists x, In (q, x) l /\ In m (h x).
  Proof.
    unfold ptx. rewrite in_flat_map. split.
    - intros [[q' x] [Hi Hm]]. apply in_map_iff in Hm. destruct Hm as [m' [E Hm]]. inversion E; subst. eauto.
    - intros [x [Hi Hm]]. exists (q, x). split; [exact Hi|]. apply in_map_iff. exists m. auto.
  Qed.
  Lemma ptx_put_in (h : rpipe -> list pmsg) p x x' l y : NoDup (map fst l) -> kget p l = Some x ->
    (h x' = h x \/ h x' = []) -> In y (ptx h (kset p x' l)) -> In y (ptx h l) /\ (h x' = [] -> fst y <> p).
  Proof.
    intros ND EP Hh Hi. destruct y as [q m]. apply in_ptx in Hi. destruct Hi as [x0 [Hi Hm]].
    apply ReqRepProofs.nodup_in_lookup in Hi; [|rewrite (ReqRepProofs.map_fst_assoc_set_present _ _ _ _ EP); exact ND]. cbn [fst].
    destruct (N.eq_dec q p) as [->|Hq].
    - rewrite ReqRepProofs.lookup_assoc_set_same in Hi. inversion Hi; subst x0.
      destruct Hh as [E|E]; rewrite E in Hm; [|destruct Hm].
      split; [apply in_ptx; exists x; split; [apply lookup_in, EP|exact Hm]|]. intros E2. rewrite <- E, E2 in Hm. destruct Hm.
    - rewrite ReqRepProofs.lookup_assoc_set_other in Hi by exact Hq.
      split; [apply in_ptx; exists x0; split; [apply lookup_in, Hi|exact Hm]|auto].
  Qed.
  Lemma ptx_none_in (h : rpipe -> list pmsg) p l y : kget p l = None -> In y (ptx h l) -> fst y <> p.
  Proof.
    intros EP Hi. destruct y as [q m]. apply in_ptx in Hi. destruct Hi as [x [Hi _]]. intros E. cbn [fst] in E. subst q.
    apply (lookup_none_notin _ _ EP). apply in_map_iff. exists (p, x). auto.
  Qed.
  (* one step of a close sequence: the invariant stays, nothing is added, the target is emptied *)
  Lemma resp_close_step fx s o : rf_sbusy fx = true -> SInv s -> rclosing o = true ->
    let s' := fst (resp_step fx s o) in
    SInv s' /\
    (forall y, In y (ptx rp_rmsg (rs_pipes s')) -> In y (ptx rp_rmsg (rs_pipes s)) /\ o <> PPipeClose (fst y)) /\
    (forall y, In y (ptx rp_held (rs_pipes s')) -> In y (ptx rp_held (rs_pipes s)) /\ o <> PSendDone (fst y) E_CLOSED) /\
    (forall kc, In kc (sal rc_saio (rs_ctxs s')) -> In kc (sal rc_saio (rs_ctxs s)) /\ o <> ckill (fst kc)).
  Proof.
    intros Hfx HI Hcl s'. split.
    { subst s'. destruct (resp_step fx s o) as [s1 o1] eqn:E.
      exact (proj1 (resp_step_main fx s o s1 o1 Hfx HI (resp_ok_closing s o Hcl) E)). }
    destruct HI as [HC [KP GP]].
    destruct o as [c a nb m|c a nb|a rv|p peer|p|p rv|p rv m|c op|c|c| |now]; try discriminate Hcl; subst s'; cbn [resp_step].
    - destruct (kget p (rs_pipes s)) as [x|] eqn:EP.
      2:{ cbn [fst]. split; [intros y Hy; split; [exact Hy|]; pose proof (ptx_none_in _ _ _ _ EP Hy); congruence|].
          split; [apply kept; discriminate|]. apply kept. intros kc. apply ckill_pipe. }
      rewrite flush_sendq_flushq. destruct (flushq rc_saio resp_clr_saio (rp_sendq x) (rs_ctxs s)) as [cs' o1] eqn:EFL.
      cbn [fst rs_pipes rs_ctxs]. split; [|split].
      + intros y Hy. eapply ptx_put_in in Hy; [|exact KP|exact EP|right; reflexivity].
        split; [apply Hy|]. pose proof (proj2 Hy eq_refl). congruence.
      + intros y Hy. eapply ptx_put_in in Hy; [|exact KP|exact EP|left; reflexivity]. split; [apply Hy|discriminate].
      + intros kc Hk. split; [|apply ckill_pipe]. exact (flushq_frame rc_saio resp_clr_saio (fun _ => eq_refl) _ _ _ _ EFL kc Hk).
    - (* PSendDone p E_CLOSED *)
      cbn [rclosing] in Hcl. apply N.eqb_eq in Hcl. subst rv.
      destruct (kget p (rs_pipes s)) as [x|] eqn:EP.
      2:{ cbn [fst]. split; [apply kept; discriminate|].
          split; [intros y Hy; split; [exact Hy|]; pose proof (ptx_none_in _ _ _ _ EP Hy); congruence|].
          apply kept. intros kc. apply ckill_pipe. }
      change (negb (E_CLOSED =? 0)%N) with true. cbv iota. cbn [fst]. rsproj. split; [|split].
      + intros y Hy. eapply ptx_put_in in Hy; [|exact KP|exact EP|left; reflexivity]. split; [apply Hy|discriminate].
      + intros y Hy. eapply ptx_put_in in Hy; [|exact KP|exact EP|right; reflexivity].
        split; [apply Hy|]. pose proof (proj2 Hy eq_refl). congruence.
      + apply kept. intros kc. apply ckill_pipe.
    - cbn [ckey]. destruct (kget (c + 1)%N (rs_ctxs s)) as [cx|] eqn:EL.
      2:{ cbn [fst]. do 2 (split; [apply kept; discriminate|]).
          intros kc Hk. split; [exact Hk|]. rewrite ckill_succ. apply ckill_ne. exact (sal_absent rc_saio _ _ _ EL Hk). }
      destruct (rctx_close s (c + 1)%N cx) as [s1 o1] eqn:ECL.
      destruct (rctx_close_spec _ _ _ _ _ ECL) as (_ & E1 & _ & E3 & E4).
      cbn [fst]. rsproj. rewrite E1, E3, E4. change (@kdel rctx) with (@ReqModel.assoc_del rctx). rewrite adel_aset.
      do 2 (split; [apply kept; discriminate|]).
      intros kc Hk. apply (sal_remove rc_saio) in Hk. split; [apply Hk|]. rewrite ckill_succ. apply ckill_ne, Hk.
    - destruct (kget 0%N (rs_ctxs s)) as [cx|] eqn:EL.
      2:{ cbn [fst]. do 2 (split; [apply kept; discriminate|]).
          intros kc Hk. split; [exact Hk|]. apply (ckill_ne 0). exact (sal_absent rc_saio _ _ _ EL Hk). }
      destruct (rctx_close s 0%N cx) as [s1 o1] eqn:ECL.
      destruct (rctx_close_spec _ _ _ _ _ ECL) as (_ & E1 & _ & E3 & E4).
      cbn [fst]. rewrite E1, E3, E4.
      do 2 (split; [apply kept; discriminate|]).
      intros kc Hk. eapply (sal_put_clear rc_saio) in Hk; [|apply HC|exact EL|reflexivity].
      split; [apply Hk|apply (ckill_ne 0), Hk].
  Qed.

  (* the socket core's close sequence as resp0 sees it: every pipe the state knows gets its pipe_close
     and, if it has a message in flight, the failing completion of that send (NNG_ECLOSED); every
     context other than the socket's own (context c has key c + 1) is closed; then the socket's own
     close, which closes the socket's context (key 0) *)
  Definition resp_close_script (s : resp) : list pop :=
    flat_map (fun px => PPipeClose (fst px) :: if isnil (rp_held (snd px)) then [] else [PSendDone (fst px) E_CLOSED]) (rs_pipes s)
    ++ map (fun kc => PCtxClose (fst kc - 1)) (filter (fun kc => negb (N.eqb (fst kc) 0)) (rs_ctxs s))
    ++ [PSockClose].

  Lemma resp_script_closing s : forallb rclosing (resp_close_script s) = true.
  Proof.
    unfold resp_close_script. rewrite !forallb_app.
    rewrite forallb_map_true by (intros; reflexivity). cbn [forallb rclosing andb]. rewrite andb_true_r.
    induction (rs_pipes s) as [|[p x] l IH]; [reflexivity|]. cbn [flat_map fst snd].
    destruct (isnil (rp_held x)); cbn [app forallb rclosing andb]; [exact IH|]. change (E_CLOSED =? E_CLOSED)%N with true. exact IH.
  Qed.
  Theorem resp_drains fx s ops : rf_sbusy fx = true -> SInv s -> Forall (fun o => rclosing o = true) ops ->
    (forall y, In y (ptx rp_rmsg (rs_pipes s)) -> In (PPipeClose (fst y)) ops) ->
    (forall y, In y (ptx rp_held (rs_pipes s)) -> In (PSendDone (fst y) E_CLOSED) ops) ->
    (forall kc, In kc (sal rc_saio (rs_ctxs s)) -> In (ckill (fst kc)) ops) ->
    drained view_resp (run (resp_step fx) s ops).
  Proof.
    intros Hfx HI CL KH KS KC. set (s' := run (resp_step fx) s ops).
    assert (INV : forall s o, SInv s -> rclosing o = true -> SInv (fst (resp_step fx s o))) by (intros; apply resp_close_step; assumption).
    unfold drained. cbn [view_resp VResp.view v_tx v_att v_held v_fini].
    change (flat_map (fun px => rp_rmsg (snd px)) (rs_pipes s')) with (pheld (rs_pipes s')).
    change (flat_map (fun px => map (fun m => (fst px, m)) (rp_held (snd px))) (rs_pipes s')) with (ptx rp_held (rs_pipes s')).
    rewrite pheld_ptx. subst s'.
    rewrite (run_kills (resp_step fx) SInv (fun s => ptx rp_rmsg (rs_pipes s)) (fun y => PPipeClose (fst y)) _ INV) by
      (try assumption; intros s0 o y H0 Ho; apply resp_close_step; assumption).
    rewrite (run_kills (resp_step fx) SInv (fun s => ptx rp_held (rs_pipes s)) (fun y => PSendDone (fst y) E_CLOSED) _ INV) by
      (try assumption; intros s0 o y H0 Ho; apply resp_close_step; assumption).
    split; [reflexivity|]. split; [|apply Permutation_refl]. apply attl_sal_nil.
    apply (run_kills (resp_step fx) SInv (fun s => sal rc_saio (rs_ctxs s)) (fun kc => ckill (fst kc)) _ INV); try assumption.
    intros s0 o x H0 Ho. apply resp_close_step; assumption.
  Qed.

  Theorem resp_close_drains : forall fx s, rf_sbusy fx = true -> SInv s ->
    ops_ok (resp_step fx) resp_ok s (resp_close_script s) /\ drained view_resp (run (resp_step fx) s (resp_close_script s)).
  Proof.
    intros fx s Hfx HI. split.
    - apply ops_ok_all. intros o Ho s0. apply resp_ok_closing. exact (proj1 (forallb_forall _ _) (resp_script_closing s) o Ho).
    - apply resp_drains; [exact Hfx|exact HI|apply Forall_forall, forallb_forall, resp_script_closing| | |]; unfold resp_close_script.
      + intros [p m] A. apply in_ptx in A. destruct A as [x [A _]]. apply in_or_app. left.
        apply in_flat_map. exists (p, x). split; [exact A|]. left. reflexivity.
      + intros [p m] A. apply in_ptx in A. destruct A as [x [A Hm]]. apply in_or_app. left.
        apply in_flat_map. exists (p, x). split; [exact A|]. cbn [fst snd]. destruct (rp_held x); [destruct Hm|]. right. left. reflexivity.
      + intros kc A. apply in_or_app. right. apply ckill_in_script. apply filter_In in A. apply A.
  Qed.

  (* the pinned form of resp0_ctx_send (no NNG_ESTATE while ctx->saio is queued): the second queued
     response overwrites ctx->saio (and enters the context twice in the pipe's list); the first
     response's reference is gone from the state and the ledger check fails at that step *)
  Definition rf_bad : resp_fix := mkRfix true true true false true true.
  Definition resp_bad_hist : list pop :=
    [PPipeStart 1%N PROTO_SURVEYOR;
     PRecvDone 1%N 0%N (mkPmsg [] [128; 0; 0; 1; 7]%N);
     PRecv None 10%N false;
     PSend None 11%N false (mkPmsg [] [42%N]);
     PRecvDone 1%N 0%N (mkPmsg [] [128; 0; 0; 2; 8]%N);
     PRecv None 12%N false;
     PSend None 13%N false (mkPmsg [] [43%N]);
     PRecvDone 1%N 0%N (mkPmsg [] [128; 0; 0; 3; 9]%N);
     PRecv None 14%N false;
     PSend None 15%N false (mkPmsg [] [44%N])].
  Theorem resp_law_refuted_pinned_sbusy : exists ops, replay_run view_resp (resp_step rf_bad) ls_init resp_init ops = None.
  Proof. exists resp_bad_hist. vm_compute. reflexivity. Qed.
  Lemma resp_bad_hist_prefix_ok :
    (exists r, replay_run view_resp (resp_step rf_bad) ls_init resp_init (removelast resp_bad_hist) = Some r) /\
    (exists r, replay_run view_resp (resp_step rfix_all) ls_init resp_init resp_bad_hist = Some r).
  Proof. split; vm_compute; eexists; reflexivity. Qed.
End RespClose.

Print Assumptions rep_close_drains.
Print Assumptions resp_close_drains.
Print Assumptions rep_law_refuted_pinned_saio.
Print Assumptions resp_law_refuted_pinned_sbusy.
