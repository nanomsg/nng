(* LawTac: the step law of LedgerProofs in a form that computes, and the small lemmas
   and tactics the per-protocol proofs (Ledger/Own*.v) share. *)
From Coq Require Import List Arith NArith Bool Lia.
From NngV Require Import Proto.Common Ledger.Ledger Ledger.LedgerProofs.
From NngV Require Base.ListX.
Import ListNotations.

Global Arguments wsum {A} F l : simpl never.
Global Arguments cnt x l : simpl never.

Section Sums.
  Variable F : owner * key -> nat.

  (* what the outputs of a step hand to pipes / take out of the protocol *)
  Fixpoint o_tx (outs : list pout) : nat :=
    match outs with
    | [] => 0
    | TranSend p m :: r => F (OPipe p, body m) + o_tx r
    | _ :: r => o_tx r
    end.
  Fixpoint o_rel (outs : list pout) : nat :=
    match outs with
    | [] => 0
    | Free m :: r => F (OProto, body m) + o_rel r
    | TranSend _ m :: r => F (OProto, body m) + o_rel r
    | Complete _ rv (Some m) :: r => (if N.eqb rv 0 then F (OProto, body m) else 0) + o_rel r
    | _ :: r => o_rel r
    end.
  Lemma o_tx_app a b : o_tx (a ++ b) = o_tx a + o_tx b.
  Proof. induction a as [|x a IH]; cbn; [reflexivity|]. destruct x; rewrite ?IH; lia. Qed.
  Lemma o_rel_app a b : o_rel (a ++ b) = o_rel a + o_rel b.
  Proof. induction a as [|x a IH]; cbn; [reflexivity|]. destruct x; try destruct m; rewrite ?IH; lia. Qed.
  Lemma o_tx_Free l : o_tx (map Free l) = 0.
  Proof. induction l; cbn; auto. Qed.
  Lemma o_rel_Free l : o_rel (map Free l) = wsum (fun m => F (OProto, body m)) l.
  Proof. induction l; cbn; [reflexivity|]. rewrite wsum_cons, IHl. reflexivity. Qed.
  Lemma o_tx_fail rv l : o_tx (fail_aios rv l) = 0.
  Proof. induction l; cbn; auto. Qed.
  Lemma o_rel_fail rv l : o_rel (fail_aios rv l) = 0.
  Proof. induction l; cbn; auto. Qed.

  Context {St : Type} (V : view St).

  (* completions of pending sends: taken by the library / leaving the aio *)
  Fixpoint s_take (s : St) (o : pop) (outs : list pout) : nat :=
    match outs with
    | [] => 0
    | Complete a rv None :: r =>
        match send_key V s o a with
        | Some k => (if N.eqb rv 0 then F (OProto, k) else 0) + s_take s o r
        | None => s_take s o r
        end
    | _ :: r => s_take s o r
    end.
  Fixpoint s_del (s : St) (o : pop) (outs : list pout) : nat :=
    match outs with
    | [] => 0
    | Complete a rv None :: r =>
        match send_key V s o a with
        | Some k => F (OAio a, k) + s_del s o r
        | None => s_del s o r
        end
    | _ :: r => s_del s o r
    end.
  Lemma s_take_app s o a b : s_take s o (a ++ b) = s_take s o a + s_take s o b.
  Proof. induction a as [|x a IH]; cbn; [reflexivity|]. destruct x; try destruct m; try destruct (send_key V s o a0); rewrite ?IH; lia. Qed.
  Lemma s_del_app s o a b : s_del s o (a ++ b) = s_del s o a + s_del s o b.
  Proof. induction a as [|x a IH]; cbn; [reflexivity|]. destruct x; try destruct m; try destruct (send_key V s o a0); rewrite ?IH; lia. Qed.
  Lemma s_take_Free s o l : s_take s o (map Free l) = 0.
  Proof. induction l; cbn; auto. Qed.
  Lemma s_del_Free s o l : s_del s o (map Free l) = 0.
  Proof. induction l; cbn; auto. Qed.

  Definition op_add (s : St) (o : pop) : nat :=
    match o with
    | PSend _ a _ m => F (OAio a, body m)
    | PRecvDone p rv m => if N.eqb rv 0 then F (OProto, v_rx V s p m) else 0
    | PSendDone p rv => if N.eqb rv 0 then 0 else wsum (fun m => F (OProto, body m)) (tx_of p (v_tx V s))
    | _ => 0
    end.
  Definition op_del (s : St) (o : pop) : nat :=
    match o with
    | PSendDone p rv => wsum (fun m => F (OPipe p, body m)) (tx_of p (v_tx V s))
    | _ => 0
    end.
  Definition w_omega (s : St) : nat :=
    wsum (fun m => F (OProto, body m)) (v_held V s)
    + wsum (fun x => F (OPipe (fst x), body (snd x))) (v_tx V s)
    + wsum (fun x => F (OAio (fst x), body (snd x))) (v_att V s).

  Lemma w_omega_eq s : wsum F (omega V s) = w_omega s.
  Proof. unfold omega, w_omega. rewrite !wsum_app, !wsum_map. lia. Qed.

  Lemma adds_op s o : wsum F (flat_map aev_adds (evs_op V s o)) = op_add s o.
  Proof.
    destruct o; cbn [evs_op op_add]; try reflexivity.
    - cbn. rewrite wsum_cons, wsum_nil. lia.
    - destruct (N.eqb rv 0).
      + induction (tx_of p (v_tx V s)); cbn; auto.
      + induction (tx_of p (v_tx V s)) as [|m l IH]; [reflexivity|]. cbn [map flat_map aev_adds lib_owner].
        rewrite wsum_app, IH, !wsum_cons, wsum_nil. lia.
    - destruct (N.eqb rv 0); cbn; rewrite ?wsum_cons, ?wsum_nil; lia.
  Qed.
  Lemma dels_op s o : wsum F (flat_map aev_dels (evs_op V s o)) = op_del s o.
  Proof.
    destruct o; cbn [evs_op op_del]; try reflexivity.
    - destruct (N.eqb rv 0); induction (tx_of p (v_tx V s)) as [|m l IH]; try reflexivity;
        cbn [map flat_map aev_dels lib_owner]; rewrite wsum_app, IH, !wsum_cons, wsum_nil; lia.
    - destruct (N.eqb rv 0); reflexivity.
  Qed.
  Lemma adds_sends s o outs : wsum F (flat_map aev_adds (evs_sends V s o outs)) = s_take s o outs.
  Proof.
    induction outs as [|x r IH]; [reflexivity|]. cbn [evs_sends s_take].
    destruct x; auto. destruct m; auto. destruct (send_key V s o a); auto.
    cbn [flat_map]. rewrite wsum_app, IH.
    destruct (N.eqb rv 0); [|destruct (has_id a (v_detach V s o))]; cbn; rewrite ?wsum_cons, ?wsum_nil; lia.
  Qed.
  Lemma dels_sends s o outs : wsum F (flat_map aev_dels (evs_sends V s o outs)) = s_del s o outs.
  Proof.
    induction outs as [|x r IH]; [reflexivity|]. cbn [evs_sends s_del].
    destruct x; auto. destruct m; auto. destruct (send_key V s o a); auto.
    cbn [flat_map]. rewrite wsum_app, IH.
    destruct (N.eqb rv 0); [|destruct (has_id a (v_detach V s o))]; cbn; rewrite ?wsum_cons, ?wsum_nil; lia.
  Qed.
  Lemma adds_outs outs : wsum F (flat_map aev_adds (evs_outs outs)) = o_tx outs.
  Proof.
    induction outs as [|x r IH]; [reflexivity|]. cbn [evs_outs o_tx].
    destruct x; auto.
    - destruct m; auto. destruct (N.eqb rv 0); auto.
    - cbn [flat_map]. rewrite wsum_app, IH. cbn. rewrite ?wsum_cons, ?wsum_nil. lia.
  Qed.
  Lemma dels_outs outs : wsum F (flat_map aev_dels (evs_outs outs)) = o_rel outs.
  Proof.
    induction outs as [|x r IH]; [reflexivity|]. cbn [evs_outs o_rel].
    destruct x; auto.
    - destruct m; auto. destruct (N.eqb rv 0); auto. cbn [flat_map]. rewrite wsum_app, IH. cbn. rewrite ?wsum_cons, ?wsum_nil. lia.
    - cbn [flat_map]. rewrite wsum_app, IH. cbn. rewrite ?wsum_cons, ?wsum_nil. lia.
    - cbn [flat_map]. rewrite wsum_app, IH. cbn. rewrite ?wsum_cons, ?wsum_nil. lia.
  Qed.
  Lemma adds_mid s o :
    wsum F (flat_map aev_adds (map (AClone OProto) (v_clones V s o) ++ map (AAlloc OProto) (v_dups V s o)))
    = wsum (fun k => F (OProto, k)) (v_clones V s o ++ v_dups V s o).
  Proof.
    rewrite flat_map_app, !wsum_app. f_equal.
    - induction (v_clones V s o); cbn; [reflexivity|]. rewrite !wsum_cons. cbn in IHl. cbn. lia.
    - induction (v_dups V s o); cbn; [reflexivity|]. rewrite !wsum_cons. cbn in IHl. cbn. lia.
  Qed.
  Lemma dels_mid s o :
    wsum F (flat_map aev_dels (map (AClone OProto) (v_clones V s o) ++ map (AAlloc OProto) (v_dups V s o))) = 0.
  Proof.
    rewrite flat_map_app, wsum_app.
    assert (flat_map aev_dels (map (AClone OProto) (v_clones V s o)) = []) by (induction (v_clones V s o); cbn; auto).
    assert (flat_map aev_dels (map (AAlloc OProto) (v_dups V s o)) = []) by (induction (v_dups V s o); cbn; auto).
    rewrite H, H0. reflexivity.
  Qed.
End Sums.

(* the first sum of w_omega: what the protocol's own slots hold *)
Notation qs F l := (wsum (fun m => F (OProto, body m)) l).

(* the law as an equation between computed sums *)
Definition law_sum {St} (V : view St) (s : St) (o : pop) (s' : St) (outs : list pout) : Prop :=
  forall F : owner * key -> nat,
    let outs' := outs ++ map Free (v_extra V s o outs) in
    w_omega F V s + op_add F V s o + s_take F V s o outs
      + wsum (fun k => F (OProto, k)) (v_clones V s o ++ v_dups V s o) + o_tx F outs'
    = w_omega F V s' + op_del F V s o + s_del F V s o outs + o_rel F outs'.

Lemma law_sum_eq {St} (V : view St) s o s' outs : law_sum V s o s' outs -> law_eq V s o s' outs.
Proof.
  intros H F. specialize (H F). cbv zeta in *. unfold step_evs.
  rewrite !flat_map_app, !wsum_app.
  rewrite adds_op, dels_op, adds_sends, dels_sends, adds_outs, dels_outs, !w_omega_eq.
  pose proof (adds_mid F V s o) as A. pose proof (dels_mid F V s o) as D.
  rewrite flat_map_app, wsum_app in A, D. lia.
Qed.

(* a clone is of something held: the send just taken, or a reference the state already has *)
Lemma clones_held_intro {St} (V : view St) s o outs :
  (forall k, In k (v_clones V s o) ->
     In k (map body (v_held V s)) \/
     (exists a, In (Complete a E_OK None) outs /\ send_key V s o a = Some k) \/
     (exists p rv, o = PSendDone p rv /\ rv <> 0%N /\ In k (map body (tx_of p (v_tx V s))))) ->
  clones_held V s o outs.
Proof.
  intros H k Hk. rewrite cnt_app. destruct (H k Hk) as [Hh|[[a [Hin Hs]]|[p [rv [-> [Hrv Hin]]]]]].
  - assert (0 < cnt (OProto, k) (omega V s)); [|lia].
    apply cnt_pos_in. unfold omega. apply in_or_app. left. apply in_map_iff in Hh. destruct Hh as [m [<- Hm]].
    apply in_map_iff. exists m. split; auto.
  - assert (0 < cnt (OProto, k) (flat_map aev_adds (evs_op V s o ++ evs_sends V s o outs))); [|lia].
    apply cnt_pos_in. rewrite flat_map_app. apply in_or_app. right. clear H Hk.
    induction outs as [|x r IH]; [destruct Hin|]. destruct Hin as [->|Hin].
    + cbn [evs_sends]. rewrite Hs. change (E_OK =? 0)%N with true. cbn. left. reflexivity.
    + cbn [evs_sends]. destruct x; auto. destruct m; auto. destruct (send_key V s o a0); auto.
      cbn [flat_map]. apply in_or_app. right. auto.
  - assert (0 < cnt (OProto, k) (flat_map aev_adds (evs_op V s (PSendDone p rv) ++ evs_sends V s (PSendDone p rv) outs))); [|lia].
    apply cnt_pos_in. rewrite flat_map_app. apply in_or_app. left. cbn [evs_op].
    destruct (N.eqb_spec rv 0); [contradiction|].
    apply in_map_iff in Hin. destruct Hin as [m [<- Hm]]. clear H Hk.
    induction (tx_of p (v_tx V s)) as [|y l IH]; [destruct Hm|]. destruct Hm as [->|Hm]; cbn; auto.
Qed.
Lemma clones_held_none {St} (V : view St) s o outs : v_clones V s o = [] -> clones_held V s o outs.
Proof. intros H k Hk. rewrite H in Hk. destruct Hk. Qed.

(* wsum_filter_split for keyed lists, stated so that p can be given *)
Lemma wsum_filter_key {A} (G : N * A -> nat) (p : N) (l : list (N * A)) :
  wsum G l = wsum G (filter (fun x => N.eqb (fst x) p) l) + wsum G (filter (fun x => negb (N.eqb (fst x) p)) l).
Proof. apply wsum_filter_split. Qed.
Lemma wsum_tx_of (G : owner * key -> nat) p l :
  wsum (fun m => G (OPipe p, body m)) (tx_of p l)
  = wsum (fun x => G (OPipe (fst x), body (snd x))) (filter (fun x => N.eqb (fst x) p) l).
Proof.
  unfold tx_of. induction l as [|[q m] l IH]; [reflexivity|]. cbn [filter fst].
  destruct (N.eqb_spec q p); cbn [map snd]; rewrite ?wsum_cons, IH; cbn [fst snd]; [subst; reflexivity|reflexivity].
Qed.
Lemma wsum_tx_split (G : owner * key -> nat) p l :
  wsum (fun x => G (OPipe (fst x), body (snd x))) l
  = wsum (fun m => G (OPipe p, body m)) (tx_of p l)
    + wsum (fun x => G (OPipe (fst x), body (snd x))) (filter (fun x => negb (fst x =? p)%N) l).
Proof. rewrite wsum_tx_of. apply wsum_filter_key. Qed.
Lemma filter_eq_notin' {A} (p : N) (l : list (N * A)) :
  ~ In p (map fst l) -> filter (fun x => N.eqb (fst x) p) l = [].
Proof. exact (ListX.filter_eq_notin p l). Qed.
Lemma att_key_head a m (l : list (aioid * pmsg)) : att_key a ((a, m) :: l) = Some (body m).
Proof. cbn. now rewrite N.eqb_refl. Qed.
Lemma att_key_notin a (l : list (aioid * pmsg)) : ~ In a (map fst l) -> att_key a l = None.
Proof.
  induction l as [|[b m] l IH]; cbn; intros H; [reflexivity|].
  destruct (N.eqb_spec b a); [exfalso; apply H; auto|]. apply IH. tauto.
Qed.
Lemma att_key_in a m (l : list (aioid * pmsg)) : NoDup (map fst l) -> In (a, m) l -> att_key a l = Some (body m).
Proof.
  induction l as [|[b m'] l IH]; cbn; intros Hn Hi; [destruct Hi|]. inversion Hn; subst.
  destruct Hi as [E|Hi].
  - inversion E; subst. now rewrite N.eqb_refl.
  - destruct (N.eqb_spec b a); [subst; exfalso; apply H1; apply in_map_iff; exists (a, m); auto|]. apply IH; auto.
Qed.

(* push wsum, o_tx, o_rel, s_take, s_del through app, cons and Free, everywhere *)
Ltac wnorm :=
  repeat (rewrite ?wsum_app, ?wsum_cons, ?wsum_nil, ?wsum_map, ?o_tx_app, ?o_rel_app, ?o_tx_Free, ?o_rel_Free,
          ?o_tx_fail, ?o_rel_fail, ?s_take_app, ?s_del_app, ?s_take_Free, ?s_del_Free, ?app_nil_r in *).
(* on the goal only: `in *` rewrites every hypothesis again and is slow under a long context *)
Ltac gnorm :=
  repeat (rewrite ?wsum_app, ?wsum_cons, ?wsum_nil, ?wsum_map, ?o_tx_app, ?o_rel_app, ?o_tx_Free, ?o_rel_Free,
          ?o_tx_fail, ?o_rel_fail, ?s_take_app, ?s_del_app, ?s_take_Free, ?s_del_Free, ?app_nil_r).

(* no queued user sends and the operation is not a send: no completion concerns the ledger *)
Lemma s_none {St} (V : view St) F s o outs :
  v_att V s = [] -> (forall c a nb m, o <> PSend c a nb m) ->
  s_take F V s o outs = 0 /\ s_del F V s o outs = 0.
Proof.
  intros Ha Ho. assert (K : forall a, send_key V s o a = None).
  { intros a. unfold send_key. rewrite Ha. destruct o; try reflexivity. exfalso. eapply Ho. reflexivity. }
  induction outs as [|x r [IH1 IH2]]; [split; reflexivity|]. cbn [s_take s_del].
  destruct x; auto. destruct m; auto. rewrite K. auto.
Qed.
(* outputs that complete no send *)
Fixpoint no_send_done (outs : list pout) : bool :=
  match outs with
  | [] => true
  | Complete _ _ None :: _ => false
  | _ :: r => no_send_done r
  end.
Lemma s_quiet {St} (V : view St) F s o outs : no_send_done outs = true ->
  s_take F V s o outs = 0 /\ s_del F V s o outs = 0.
Proof.
  induction outs as [|x r IH]; intros H; [split; reflexivity|]. cbn [s_take s_del no_send_done] in *.
  destruct x; auto. destruct m; auto. discriminate.
Qed.

Lemma wsum_remove_aio (G : aioid * pmsg -> nat) a (l : list (aioid * pmsg)) m :
  NoDup (map fst l) -> In (a, m) l -> wsum G l = G (a, m) + wsum G (remove_aio a l).
Proof.
  unfold remove_aio. induction l as [|[b m'] l IH]; intros Hn Hi; [destruct Hi|]. inversion Hn; subst.
  cbn [filter fst]. destruct Hi as [E|Hi].
  - inversion E; subst. rewrite N.eqb_refl. cbn [negb]. rewrite wsum_cons.
    rewrite (ListX.filter_keep_notin a l H1). reflexivity.
  - destruct (N.eqb_spec b a).
    + subst. exfalso. apply H1. apply in_map_iff. exists (a, m). auto.
    + cbn [negb]. rewrite !wsum_cons, (IH H2 Hi). lia.
Qed.
Lemma has_aio_in {A} a (l : list (aioid * A)) : has_aio a l = true -> exists m, In (a, m) l.
Proof.
  unfold has_aio. rewrite existsb_exists. intros [[b m] [Hi He]]. cbn in He. apply N.eqb_eq in He. subst. eauto.
Qed.
Lemma has_aio_false_notin {A} a (l : list (aioid * A)) : has_aio a l = false -> ~ In a (map fst l).
Proof.
  unfold has_aio. intros H Hi. apply in_map_iff in Hi. destruct Hi as [[b m] [E Hi]]. cbn in E. subst b.
  assert (existsb (fun x => (fst x =? a)%N) l = true) by (apply existsb_exists; exists (a, m); split; [auto|apply N.eqb_refl]).
  congruence.
Qed.
Lemma send_key_self {St} (V : view St) s c a nb m : send_key V s (PSend c a nb m) a = Some (body m).
Proof. unfold send_key. now rewrite N.eqb_refl. Qed.
Lemma send_key_other {St} (V : view St) s o a :
  (forall c a' nb m, o <> PSend c a' nb m) -> send_key V s o a = att_key a (v_att V s).
Proof. intros H. unfold send_key. destruct o; auto. exfalso. eapply H. reflexivity. Qed.
Lemma s_att_ext {St} (V : view St) F s s2 o outs : v_att V s = v_att V s2 ->
  s_take F V s o outs = s_take F V s2 o outs /\ s_del F V s o outs = s_del F V s2 o outs.
Proof.
  intros E. assert (K : forall a, send_key V s o a = send_key V s2 o a) by (intros a; unfold send_key; now rewrite E).
  induction outs as [|y r [I1 I2]]; [split; reflexivity|]. cbn [s_take s_del].
  destruct y; auto. destruct m; auto. rewrite K, I1, I2. auto.
Qed.

(* a view that clones, duplicates and frees nothing on this step: the law is the balance of
   the state's references, the operation's, the completed sends' and the outputs' *)
Lemma law_sum_plain {St} (V : view St) s o s' outs :
  v_clones V s o = [] -> v_dups V s o = [] -> v_extra V s o outs = [] ->
  (forall F, w_omega F V s + op_add F V s o + s_take F V s o outs + o_tx F outs
           = w_omega F V s' + op_del F V s o + s_del F V s o outs + o_rel F outs) ->
  law_sum V s o s' outs.
Proof.
  intros Hc Hd He H F. cbv zeta. rewrite Hc, Hd, He. cbn [map app]. rewrite app_nil_r, wsum_nil.
  specialize (H F). lia.
Qed.
(* law_sum_plain where s_none applies *)
Lemma law_sum_quiet {St} (V : view St) s o s' outs :
  v_att V s = [] -> (forall c a nb m, o <> PSend c a nb m) ->
  v_clones V s o = [] -> v_dups V s o = [] -> v_extra V s o outs = [] ->
  (forall F, w_omega F V s + op_add F V s o + o_tx F outs = w_omega F V s' + op_del F V s o + o_rel F outs) ->
  law_sum V s o s' outs.
Proof.
  intros Ha Ho Hc Hd He H. apply law_sum_plain; auto. intros F.
  destruct (s_none V F s o outs Ha Ho) as [A B]. rewrite A, B. specialize (H F). lia.
Qed.

(* PSendDone p rv: what was in flight on p leaves the pipe; on failure the protocol's share
   of it is given up as well *)
Lemma senddone_split F {St} (V : view St) s p rv :
  wsum (fun x => F (OPipe (fst x), body (snd x))) (v_tx V s) + op_add F V s (PSendDone p rv)
  = wsum (fun x => F (OPipe (fst x), body (snd x))) (filter (fun x => negb (fst x =? p)%N) (v_tx V s))
    + op_del F V s (PSendDone p rv)
    + (if (rv =? 0)%N then 0 else wsum (fun m => F (OProto, body m)) (tx_of p (v_tx V s))).
Proof.
  cbn [op_add op_del]. rewrite (wsum_tx_split F p (v_tx V s)). lia.
Qed.

(* a queued user send is found under its aio *)
Lemma send_key_att {St} (V : view St) s o a m :
  NoDup (map fst (v_att V s)) -> (forall c a' nb m', o <> PSend c a' nb m') ->
  In (a, m) (v_att V s) -> send_key V s o a = Some (body m).
Proof. intros Hn Ho Hi. rewrite send_key_other by exact Ho. apply att_key_in; assumption. Qed.

(* completing a set of pending sends with one result: each message leaves its aio, and goes
   to the protocol when the result is success *)
Lemma s_compl_keyed {St} (V : view St) F s o rv (l' : list (aioid * pmsg)) :
  (forall a m, In (a, m) l' -> send_key V s o a = Some (body m)) ->
  s_take F V s o (fail_aios rv (map fst l'))
    = (if (rv =? 0)%N then wsum (fun x => F (OProto, body (snd x))) l' else 0) /\
  s_del F V s o (fail_aios rv (map fst l')) = wsum (fun x => F (OAio (fst x), body (snd x))) l'.
Proof.
  intros K. induction l' as [|[a m] l' IH]; [destruct (rv =? 0)%N; split; reflexivity|].
  destruct IH as [I1 I2]; [intros b m' Hi; apply K; right; exact Hi|].
  cbn [map fst fail_aios s_take s_del]. fold (fail_aios rv (map fst l')).
  rewrite (K a m (or_introl eq_refl)), I1, I2, !wsum_cons. cbn [fst snd].
  destruct (rv =? 0)%N; split; reflexivity.
Qed.
Lemma s_compl_sub {St} (V : view St) F s o rv (l' : list (aioid * pmsg)) :
  NoDup (map fst (v_att V s)) -> (forall c a nb m, o <> PSend c a nb m) -> incl l' (v_att V s) ->
  s_take F V s o (fail_aios rv (map fst l'))
    = (if (rv =? 0)%N then wsum (fun x => F (OProto, body (snd x))) l' else 0) /\
  s_del F V s o (fail_aios rv (map fst l')) = wsum (fun x => F (OAio (fst x), body (snd x))) l'.
Proof. intros Hn Ho Hi. apply s_compl_keyed. intros a m Hm. apply send_key_att; auto. Qed.

(* cancelling a queued send: it completes with the (non-zero) result and leaves the queue *)
Lemma s_cancel_queued {St} (V : view St) F s o a rv :
  NoDup (map fst (v_att V s)) -> (forall c a' nb m, o <> PSend c a' nb m) ->
  has_aio a (v_att V s) = true -> rv <> 0%N ->
  wsum (fun x => F (OAio (fst x), body (snd x))) (v_att V s) + s_take F V s o [Complete a rv None]
  = wsum (fun x => F (OAio (fst x), body (snd x))) (remove_aio a (v_att V s)) + s_del F V s o [Complete a rv None].
Proof.
  intros Hn Ho Ha Hrv. destruct (has_aio_in _ _ Ha) as [m Hm]. cbn [s_take s_del].
  rewrite (send_key_att V s o a m Hn Ho Hm), (wsum_remove_aio _ a _ m Hn Hm).
  destruct (N.eqb_spec rv 0); [contradiction|]. cbn [fst snd]. lia.
Qed.

(* completions of aios under which no send is found *)
Lemma s_fail_none {St} (V : view St) F s o rv l :
  (forall a, In a l -> send_key V s o a = None) ->
  s_take F V s o (fail_aios rv l) = 0 /\ s_del F V s o (fail_aios rv l) = 0.
Proof.
  induction l as [|a l IH]; intros H; [split; reflexivity|]. cbn [fail_aios map s_take s_del].
  rewrite (H a (or_introl eq_refl)). apply IH. intros b Hb. apply H. right. exact Hb.
Qed.
