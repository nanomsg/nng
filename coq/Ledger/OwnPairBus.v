(* OwnPairBus: the ledger law (Ledger/LedgerProofs.proto_law) of
     PAIR0 / PAIR1  -- src/sp/protocol/pair0/pair.c, src/sp/protocol/pair1/pair.c
                       (Proto/PairModel.pair_step behind Proto/PairGuard.pair_step_g, view VPair.view k)
     BUS            -- src/sp/protocol/bus0/bus.c, cooked and raw
                       (Proto/BusModel.bus_step, view VBus.view fixed keep).
   PAIR reuses the invariant PInv, the contract op_ok and the step law of Proto/PairProofs
   (plus: an aio is pending as a send or as a receive, not both); BUS reuses BInv / op_ok /
   bus_step_inv of Proto/BusProofs -- its weighted equation needs no hypothesis at all. *)
From Coq Require Import List Arith NArith Bool Lia Permutation.
From NngV Require Import Proto.Common Proto.PairModel Proto.PairGuard Proto.BusModel
  Ledger.Ledger Ledger.LedgerProofs Ledger.LawTac Ledger.Keyed Ledger.Views Ledger.LedgerThms.
From NngV Require Proto.PairProofs Proto.PairGuardProofs Proto.BusProofs.
Import ListNotations.

Lemma body_bump m : body (bump m) = body m.
Proof. unfold bump. destruct (get32 (pm_hdr m)) as [[v r]|]; reflexivity. Qed.
Lemma body_wire k m : body (wire_form k m) = body m.
Proof. destruct k; [reflexivity|apply body_bump]. Qed.
Lemma body_norm k m m' : norm_send k m = Some m' -> body m' = body m.
Proof.
  destruct k as [|[|]]; cbn [norm_send]; intros H.
  - inversion H; reflexivity.
  - destruct (get32 (pm_hdr m)) as [[v [|x r]]|]; try discriminate.
    destruct (255 <=? v)%N; [discriminate|]. inversion H; reflexivity.
  - inversion H; reflexivity.
Qed.

Ltac pfin := cbn [s_take s_del o_tx o_rel opt_list]; change (E_OK =? 0)%N with true;
             change (E_AGAIN =? 0)%N with false; change (E_PROTO =? 0)%N with false; cbn iota;
             gnorm; cbn [s_take s_del o_tx o_rel opt_list fst snd]; gnorm; rewrite ?body_wire; try lia.

Lemma pair_omega F k s :
  w_omega F (VPair.view k) s
  = qs F (pr_wmq s) + qs F (pr_rmq s) + qs F (opt_list (pr_rd s))
    + wsum (fun x => F (OPipe (fst x), body (snd x))) (pr_sending s) + wsum (fun x => F (OAio (fst x), body (snd x))) (pr_waq s).
Proof. unfold w_omega. cbn [VPair.view v_held v_tx v_att]. rewrite !wsum_app. lia. Qed.
(* what leaves the list of sends in flight when pipe p's entry is taken out *)
Lemma txs_set_snd_none (F : owner * key -> nat) l p :
  wsum (fun x => F (OPipe (fst x), body (snd x))) l
  = wsum (fun m => F (OPipe p, body m)) (snd_of l p) + wsum (fun x => F (OPipe (fst x), body (snd x))) (set_snd l p None).
Proof.
  (* Proto/PairProofs.v makes set_snd and snd_of Opaque; their bodies are needed here only *)
  Transparent set_snd snd_of. exact (wsum_tx_split F p l). Opaque set_snd snd_of.
Qed.

(* pairX_send_sched with a peer attached whose aio_send is idle.  PairModel.lmq_put keeps the
   queue unchanged when it is full (the C ignores nni_lmq_put's failure: the message would leak);
   both call sites put into a queue from which one message has just been taken, so with
   |wmq| <= wcap / |rmq| <= rcap (PInv) the put succeeds: PairProofs.lmq_put_ok. *)
Lemma sched_sum k F s p o s' outs :
  (forall c a nb m, o <> PSend c a nb m) ->
  pr_p s = Some p -> ~ In p (map fst (pr_sending s)) -> length (pr_wmq s) <= pr_wcap s ->
  pair_send_sched k s = (s', outs) ->
  w_omega F (VPair.view k) s + s_take F (VPair.view k) s o outs + o_tx F outs
  = w_omega F (VPair.view k) s' + s_del F (VPair.view k) s o outs + o_rel F outs.
Proof.
  intros Ho Hp Hfr Hlen H. unfold pair_send_sched in H. rewrite Hp in H. rewrite !pair_omega.
  assert (K : forall a m l, pr_waq s = (a, m) :: l -> send_key (VPair.view k) s o a = Some (body m)).
  { intros a m l E. rewrite send_key_other by exact Ho. change (v_att (VPair.view k) s) with (pr_waq s).
    rewrite E. apply att_key_head. }
  destruct (pr_wmq s) as [|m rest]; destruct (pr_waq s) as [|[a m2] aqr]; injection H as <- <-;
    cbn [pr_wmq pr_rmq pr_rd pr_sending pr_waq s_take s_del];
    rewrite ?(PairProofs.set_snd_some_fresh _ _ _ Hfr), ?(K a m2 aqr eq_refl).
  - pfin.
  - pfin.
  - pfin.
  - cbn [length] in Hlen. rewrite PairProofs.lmq_put_ok by lia. pfin.
Qed.

Lemma sched_frame k s s' outs : pair_send_sched k s = (s', outs) ->
  pr_raq s' = pr_raq s /\ incl (pr_waq s') (pr_waq s).
Proof.
  unfold pair_send_sched. destruct (pr_p s) as [p|]; [|intros H; injection H as <- <-; split; [reflexivity|apply incl_refl]].
  destruct (pr_wmq s) as [|m rest]; destruct (pr_waq s) as [|[a m2] aqr]; intros H; injection H as <- <-;
    cbn [pr_raq pr_waq]; (split; [reflexivity|]); try apply incl_refl; apply incl_tl, incl_refl.
Qed.

(* pairX_set_send_buf_len since 7c956d7 (PairModel's waiter loop after nni_lmq_resize): the blocked
   senders that fit move, in order, from waq into wmq; each one's send completes with success,
   i.e. the reference on its aio becomes the protocol's *)
Lemma waiters_shape cap : forall q w w' q' d, takein_waiters cap w q = (w', q', d) ->
  exists l, q = l ++ q' /\ w' = w ++ map snd l /\ d = map fst l.
Proof.
  induction q as [|[a m] r IH]; intros w w' q' d H; cbn [takein_waiters] in H.
  - injection H as <- <- <-. exists []. cbn [map app]. rewrite app_nil_r. auto.
  - destruct (lmq_full w cap); [injection H as <- <- <-; exists []; cbn [map app]; rewrite app_nil_r; auto|].
    destruct (takein_waiters cap (w ++ [m]) r) as [[w1 q1] d1] eqn:E. injection H as <- <- <-.
    destruct (IH _ _ _ _ E) as (l & -> & -> & ->). exists ((a, m) :: l). cbn [map fst snd app].
    rewrite <- app_assoc. auto.
Qed.
Lemma waiters_frame cap q w w' q' d : takein_waiters cap w q = (w', q', d) -> incl q' q.
Proof. intros H. destruct (waiters_shape _ _ _ _ _ _ H) as (l & -> & _). apply incl_appr, incl_refl. Qed.

(* an aio is pending as a blocked send or as a blocked receive, not both *)
Definition pair_disj (s : pair) : Prop := forall a, In a (pr_raq s) -> ~ In a (map fst (pr_waq s)).
Definition pair_inv (s : pair) : Prop := PairProofs.PInv s /\ pair_disj s.
(* the environment: PairProofs.op_ok (fresh pipe ids; a completion belongs to an operation in
   flight of the attached peer; a send aio is not already queued; a cancel has rv <> 0), and an
   aio is submitted once at a time across the two directions as well *)
Definition pair_ok (s : pair) (o : pop) : Prop :=
  PairProofs.op_ok s o /\
  match o with
  | PSend _ a _ _ => ~ In a (pr_raq s)
  | PRecv _ a _ => ~ In a (map fst (pr_waq s))
  | _ => True
  end.

Lemma pair_inv_init : pair_inv pair_init.
Proof. split; [apply PairProofs.pair_init_inv|]. intros a []. Qed.

Lemma disj_sub (s s' : pair) :
  incl (pr_raq s') (pr_raq s) -> incl (pr_waq s') (pr_waq s) -> pair_disj s -> pair_disj s'.
Proof.
  intros H1 H2 HD a Ha Hw. apply (HD a (H1 a Ha)). apply in_map_iff in Hw. destruct Hw as [x [<- Hx]].
  apply in_map. apply H2. exact Hx.
Qed.

Lemma pair_disj_step k fx fr s o s' outs :
  pair_inv s -> pair_ok s o -> pair_step k fx fr s o = (s', outs) -> pair_disj s'.
Proof.
  intros [HI HD] [Hok Hx] H. pose proof HI as (I1 & I2 & I3 & I4 & I5 & I6 & I7).
  destruct o as [c a nb m|c a nb|a rv|p peer|p|p rv|p rv m|c op|c|c| |now]; cbn [pair_step] in H.
  - destruct (norm_send k m) as [m'|]; [|injection H as <- <-; exact HD].
    destruct (pr_wr s).
    + destruct (pr_p s); injection H as <- <-; exact HD.
    + destruct (negb (lmq_full (pr_wmq s) (pr_wcap s))); [injection H as <- <-; exact HD|].
      destruct nb; injection H as <- <-; [exact HD|]. intros b Hb. PairProofs.simp_r. rewrite map_app, in_app_iff. cbn [map fst In].
      intros [Hw|[E|[]]]; [exact (HD b Hb Hw)|]. subst b. exact (Hx Hb).
  - destruct (pr_rmq s) as [|m rest].
    + destruct (pr_rd s); [injection H as <- <-; exact HD|].
      destruct nb; injection H as <- <-; [exact HD|]. intros b Hb. PairProofs.simp_r. apply in_app_or in Hb.
      destruct Hb as [Hb|[E|[]]]; [exact (HD b Hb)|]. subst b. exact Hx.
    + destruct (pr_rd s); injection H as <- <-; exact HD.
  - destruct (has_aio a (pr_waq s)); [|destruct (has_id a (pr_raq s))]; injection H as <- <-; try exact HD.
    + apply (disj_sub s); PairProofs.simp_r; [apply incl_refl|apply incl_filter|exact HD].
    + apply (disj_sub s); PairProofs.simp_r; [apply incl_filter|apply incl_refl|exact HD].
  - destruct (negb (peer =? pair_peer k)%N); [injection H as <- <-; exact HD|].
    destruct (pr_p s); [injection H as <- <-; exact HD|].
    match type of H with context [pair_send_sched k ?s1] => destruct (pair_send_sched k s1) as [s2 o2] eqn:SS end.
    injection H as <- <-. destruct (sched_frame _ _ _ _ SS) as [E1 E2]. PairProofs.simp_r.
    apply (disj_sub s); [rewrite E1; apply incl_refl|exact E2|exact HD].
  - destruct (pr_p s) as [q|]; [destruct (q =? p)%N|]; injection H as <- <-; exact HD.
  - destruct (negb (rv =? 0)%N).
    + injection H as <- <-. exact HD.
    + destruct (sched_frame _ _ _ _ H) as [E1 E2]. PairProofs.simp_r.
      apply (disj_sub s); [rewrite E1; apply incl_refl|exact E2|exact HD].
  - destruct (negb (rv =? 0)%N); [injection H as <- <-; exact HD|].
    destruct (rx_decode k (pr_ttl s) m); try (injection H as <- <-; exact HD).
    destruct (pr_raq s) as [|a rest] eqn:ER.
    + destruct (negb (lmq_full (pr_rmq s) (pr_rcap s))); injection H as <- <-; intros b [].
    + injection H as <- <-. apply (disj_sub s); PairProofs.simp_r; [rewrite ER; apply incl_tl, incl_refl|apply incl_refl|exact HD].
  - destruct op; try (injection H as <- <-; exact HD).
    + destruct (PAIR_BUF_MAX <? N.of_nat n)%N; [injection H as <- <-; exact HD|].
      destruct fr; [|injection H as <- <-; exact HD].
      destruct (takein_waiters n (firstn n (pr_wmq s)) (pr_waq s)) as [[w1 q1] d1] eqn:E. injection H as <- <-.
      apply (disj_sub s); PairProofs.simp_r; [apply incl_refl|exact (waiters_frame _ _ _ _ _ _ E)|exact HD].
    + destruct (PAIR_BUF_MAX <? N.of_nat n)%N; injection H as <- <-; exact HD.
    + destruct k; [injection H as <- <-; exact HD|].
      destruct ((n <? PAIR_TTL_MIN) || (PAIR_TTL_MAX <? n)); injection H as <- <-; exact HD.
  - injection H as <- <-; exact HD.
  - injection H as <- <-; exact HD.
  - injection H as <- <-. intros b [].
  - injection H as <- <-; exact HD.
Qed.

Lemma pair_law_sum k fx fr s o s' outs :
  pair_inv s -> pair_ok s o -> pair_step k fx fr s o = (s', outs) -> law_sum (VPair.view k) s o s' outs.
Proof.
  intros [(I1 & I2 & I3 & I4 & I5 & I6 & I7) HD] [Hok Hx] H. apply law_sum_plain; try reflexivity. intros F.
  destruct o as [c a nb m|c a nb|a rv|p peer|p|p rv|p rv m|c op|c|c| |now];
    cbn [PairProofs.op_ok op_add op_del] in *; cbn [pair_step] in H.
  - (* PSend: pairX_sock_send *)
    destruct (norm_send k m) as [m'|] eqn:EN.
    2:{ injection H as <- <-. cbn [s_take s_del]. rewrite send_key_self. pfin. }
    pose proof (body_norm _ _ _ EN) as Bm. destruct (pr_wr s).
    + destruct (I1 eq_refl) as (A & _). destruct (pr_p s) as [p|]; [|destruct A].
      injection H as <- <-. rewrite !pair_omega. cbn [pr_wmq pr_rmq pr_rd pr_sending pr_waq s_take s_del].
      rewrite (PairProofs.set_snd_some_fresh _ _ _ A), !send_key_self. pfin. rewrite ?Bm. lia.
    + destruct (lmq_full (pr_wmq s) (pr_wcap s)); cbn [negb] in H.
      * destruct nb; injection H as <- <-.
        -- (* the queue is full, non-blocking: refused, the message stays the caller's *)
           cbn [s_take s_del]. rewrite send_key_self. pfin.
        -- (* the queue is full, blocking: the aio waits with its message, nothing completes *)
           rewrite !pair_omega. cbn [pr_wmq pr_rmq pr_rd pr_sending pr_waq]. pfin. rewrite Bm. lia.
      * (* room in the queue: the send completes, the message is the protocol's *)
        injection H as <- <-. rewrite !pair_omega. cbn [pr_wmq pr_rmq pr_rd pr_sending pr_waq s_take s_del].
        rewrite send_key_self. pfin. rewrite Bm. lia.
  - (* PRecv: pairX_sock_recv *)
    assert (K : send_key (VPair.view k) s (PRecv c a nb) a = None).
    { cbn [send_key VPair.view v_att]. apply att_key_notin. exact Hx. }
    destruct (pr_rmq s) as [|m rest] eqn:ER; destruct (pr_rd s) as [h|] eqn:RD.
    + injection H as <- <-. rewrite !pair_omega, ER, RD. cbn [pr_wmq pr_rmq pr_rd pr_sending pr_waq]. destruct (pr_p s); pfin.
    + destruct nb; injection H as <- <-.
      * (* nothing to receive, non-blocking: refused; a is not the aio of a queued send *)
        cbn [s_take s_del]. rewrite K. pfin.
      * (* the receiver waits *)
        rewrite !pair_omega, ER, RD. cbn [pr_wmq pr_rmq pr_rd pr_sending pr_waq]. pfin.
    + cbn [length] in I5. rewrite PairProofs.lmq_put_ok in H by lia. injection H as <- <-.
      rewrite !pair_omega, ER, RD. cbn [pr_wmq pr_rmq pr_rd pr_sending pr_waq]. destruct (pr_p s); pfin.
    + injection H as <- <-. rewrite !pair_omega, ER, RD. cbn [pr_wmq pr_rmq pr_rd pr_sending pr_waq]. pfin.
  - (* PCancel: pairX_cancel *)
    destruct (has_aio a (pr_waq s)) eqn:E; [|destruct (has_id a (pr_raq s))]; injection H as <- <-;
      rewrite !pair_omega; cbn [pr_wmq pr_rmq pr_rd pr_sending pr_waq].
    + pose proof (s_cancel_queued (VPair.view k) F s (PCancel a rv) a rv I6 ltac:(intros; discriminate) E Hok) as L.
      change (v_att (VPair.view k) s) with (pr_waq s) in L. cbn [o_tx o_rel]. lia.
    + cbn [s_take s_del send_key VPair.view v_att]. rewrite (att_key_notin _ _ (has_aio_false_notin _ _ E)). pfin.
    + pfin.
  - (* PPipeStart: pairX_pipe_start *)
    destruct (negb (peer =? pair_peer k)%N); [injection H as <- <-; cbn; lia|].
    destruct (pr_p s) as [q|] eqn:EP; [injection H as <- <-; cbn; lia|].
    assert (RD : pr_rd s = None).
    { destruct (pr_rd s) eqn:R; auto. destruct I2 as [A _]; [discriminate|]. congruence. }
    match type of H with context [pair_send_sched k ?t] => set (s1 := t) in *; destruct (pair_send_sched k s1) as [s2 o2] eqn:SS end.
    injection H as <- <-.
    pose proof (sched_sum k F s1 p (PPipeStart p peer) s2 o2 ltac:(intros; discriminate) eq_refl Hok I4 SS) as L.
    destruct (s_att_ext (VPair.view k) F s s1 (PPipeStart p peer) (o2 ++ [TranRecv p]) eq_refl) as [E1 E2].
    rewrite E1, E2. gnorm. cbn [s_take s_del o_tx o_rel].
    assert (W : w_omega F (VPair.view k) s = w_omega F (VPair.view k) s1).
    { rewrite !pair_omega. unfold s1. cbn [pr_wmq pr_rmq pr_rd pr_sending pr_waq]. rewrite RD. reflexivity. }
    lia.
  - (* PPipeClose: pairX_pipe_close ; pairX_pipe_stop *)
    destruct (pr_p s) as [q|]; [destruct (q =? p)%N|]; injection H as <- <-; try (cbn; lia).
    rewrite !pair_omega. cbn [pr_wmq pr_rmq pr_rd pr_sending pr_waq]. destruct (pr_rd s); pfin.
  - (* PSendDone: pairX_pipe_send_cb *)
    change (tx_of p (v_tx (VPair.view k) s)) with (snd_of (pr_sending s) p).
    pose proof (txs_set_snd_none F (pr_sending s) p) as P.
    destruct (N.eqb_spec rv 0) as [->|Hrv]; cbn [negb] in H.
    + match type of H with context [pair_send_sched k ?t] => set (s0 := t) in * end.
      pose proof (sched_sum k F s0 p (PSendDone p 0) s' outs ltac:(intros; discriminate) (proj2 Hok eq_refl)
                    (PairProofs.set_snd_none_notin _ _) I4 H) as L.
      destruct (s_att_ext (VPair.view k) F s s0 (PSendDone p 0) outs eq_refl) as [E1 E2].
      rewrite E1, E2, (pair_omega F k s). rewrite (pair_omega F k s0) in L. subst s0.
      cbn [pr_wmq pr_rmq pr_rd pr_sending pr_waq] in L. lia.
    + injection H as <- <-. rewrite !pair_omega. cbn [pr_wmq pr_rmq pr_rd pr_sending pr_waq]. pfin.
  - (* PRecvDone: pairX_pipe_recv_cb *)
    destruct (N.eqb_spec rv 0) as [->|Hrv]; cbn [negb] in H.
    2:{ injection H as <- <-. pfin. }
    destruct (Hok eq_refl) as [_ HR]. cbn [v_rx VPair.view]. unfold VPair.rx.
    destruct (rx_decode k (pr_ttl s) m) as [| |m'].
    + injection H as <- <-. pfin.
    + injection H as <- <-. pfin.
    + destruct (pr_raq s) as [|a rest].
      * destruct (lmq_full (pr_rmq s) (pr_rcap s)); cbn [negb] in H; injection H as <- <-;
          rewrite !pair_omega; cbn [pr_wmq pr_rmq pr_rd pr_sending pr_waq].
        -- (* no receiver and the queue is full: parked in the pipe's aio_recv slot, which is empty *)
           rewrite HR. pfin.
        -- (* no receiver: queued *)
           pfin.
      * (* handed to the receiver that waits *)
        injection H as <- <-. rewrite !pair_omega. cbn [pr_wmq pr_rmq pr_rd pr_sending pr_waq]. pfin.
  - destruct op; try (injection H as <- <-; cbn; lia).
    + destruct (PAIR_BUF_MAX <? N.of_nat n)%N; [injection H as <- <-; cbn; lia|].
      pose proof (wsum_firstn_skipn (fun m => F (OProto, body m)) n (pr_wmq s)) as FS.
      destruct fr.
      * destruct (takein_waiters n (firstn n (pr_wmq s)) (pr_waq s)) as [[w1 q1] d1] eqn:E.
        destruct (waiters_shape _ _ _ _ _ _ E) as (l & Eq & -> & ->).
        destruct (s_compl_sub (VPair.view k) F s (PSetOpt c (OSendBuf n)) E_OK l I6 ltac:(intros; discriminate)) as [A B].
        { change (incl l (pr_waq s)). rewrite Eq. apply incl_appl, incl_refl. }
        injection H as <- <-. rewrite !pair_omega. cbn [pr_wmq pr_rmq pr_rd pr_sending pr_waq].
        fold (fail_aios E_OK (map fst l)). gnorm. rewrite A, B, Eq. pfin.
      * injection H as <- <-. rewrite !pair_omega. cbn [pr_wmq pr_rmq pr_rd pr_sending pr_waq]. pfin.
    + destruct (PAIR_BUF_MAX <? N.of_nat n)%N; [injection H as <- <-; cbn; lia|].
      injection H as <- <-. rewrite !pair_omega. cbn [pr_wmq pr_rmq pr_rd pr_sending pr_waq].
      pose proof (wsum_firstn_skipn (fun m => F (OProto, body m)) n (pr_rmq s)). pfin.
    + destruct k; [injection H as <- <-; cbn; lia|].
      destruct ((n <? PAIR_TTL_MIN) || (PAIR_TTL_MAX <? n)); injection H as <- <-; [cbn; lia|].
      rewrite !pair_omega. cbn [pr_wmq pr_rmq pr_rd pr_sending pr_waq]. pfin.
  - injection H as <- <-. cbn. lia.
  - injection H as <- <-. cbn. lia.
  - (* PSockClose: pairX_sock_close *)
    injection H as <- <-. rewrite !pair_omega. cbn [pr_wmq pr_rmq pr_rd pr_sending pr_waq].
    destruct (s_compl_sub (VPair.view k) F s PSockClose E_CLOSED (pr_waq s) I6 ltac:(intros; discriminate) (incl_refl _)) as [A B].
    change (E_CLOSED =? 0)%N with false in A.
    destruct (s_fail_none (VPair.view k) F s PSockClose E_CLOSED (pr_raq s)) as [A0 B0].
    { intros a Ha. cbn [send_key VPair.view v_att]. apply att_key_notin. apply HD. exact Ha. }
    gnorm. rewrite A, B, A0, B0. pfin.
  - injection H as <- <-. cbn. lia.
Qed.

Theorem pair_proto_law : forall k fx fr fs, proto_law (VPair.view k) (pair_step_g k fx fr fs) pair_inv pair_ok.
Proof.
  intros k fx fr fs s o s' outs HI Hok H.
  rewrite (PairGuardProofs.pair_step_g_contract k fx fr fs s o (proj1 Hok)) in H.
  split; [split|split].
  - exact (proj1 (PairProofs.pair_step_law k fx fr s o s' outs (proj1 HI) (proj1 Hok) H)).
  - eapply pair_disj_step; eauto.
  - apply law_sum_eq. eapply pair_law_sum; eauto.
  - apply clones_held_none. reflexivity.
Qed.

Ltac bfin := cbn [s_take s_del o_tx o_rel]; change (E_OK =? 0)%N with true;
             change (E_AGAIN =? 0)%N with false; cbn iota;
             gnorm; cbn [s_take s_del o_tx o_rel fst snd]; gnorm; try lia.

Lemma bus_omega F fixed keep s :
  w_omega F (VBus.view fixed keep) s
  = qs F (bs_rq s) + qs F (flat_map bp_q (bs_pipes s)) + wsum (fun x => F (OPipe (fst x), body (snd x))) (bs_sending s).
Proof. unfold w_omega. cbn [VBus.view v_held v_tx v_att]. rewrite wsum_app, wsum_nil. lia. Qed.

Lemma body_prep raw m : body (snd (bus_prep raw m)) = body m.
Proof. unfold bus_prep. destruct raw; [destruct (4 <=? length (pm_hdr m))|]; reflexivity. Qed.

(* the NNI_LIST_FOREACH of bus0_sock_send: one clone per pipe that takes the message, handed
   to the transport (idle pipe) or put on the pipe's send queue *)
Lemma fan_sum (F : owner * key -> nat) raw sd m l :
  wsum (fun x => F (OProto, body x)) (flat_map bp_q l)
  + wsum (fun k => F (OProto, k)) (map (fun _ => body m) (filter (VBus.takes raw sd) l))
  + o_tx F (flat_map (offer_outs raw sd m) l)
  = wsum (fun x => F (OProto, body x)) (flat_map bp_q (map (offer_pipe raw sd m) l))
    + wsum (fun x => F (OPipe (fst x), body (snd x))) (flat_map (offer_sending raw sd m) l)
    + o_rel F (flat_map (offer_outs raw sd m) l).
Proof.
  induction l as [|bp l IH]; [reflexivity|]. rewrite wsum_map in IH. cbn [flat_map map filter].
  unfold VBus.takes at 1, offer_pipe at 1, offer_outs at 1 3, offer_sending at 1.
  destruct (offer_kind raw sd bp); cbn [bp_q]; gnorm; cbn [o_tx o_rel fst snd]; gnorm; lia.
Qed.
Lemma fan_quiet raw sd m l : no_send_done (flat_map (offer_outs raw sd m) l) = true.
Proof.
  induction l as [|bp l IH]; [reflexivity|]. cbn [flat_map]. unfold offer_outs at 1.
  destruct (offer_kind raw sd bp); cbn; exact IH.
Qed.
(* bus0_pipe_send_cb: the head of the pipe's send queue goes to the transport *)
Lemma next_sum (P : pmsg -> nat) p l :
  wsum P (flat_map bp_q l)
  = wsum P (flat_map bp_q (map (fun bp => if is_pipe p bp then fst (pipe_next bp) else bp) l))
    + wsum P (flat_map (fun bp => if is_pipe p bp then snd (pipe_next bp) else []) l).
Proof.
  induction l as [|bp l IH]; [reflexivity|]. cbn [flat_map map]. gnorm. rewrite IH.
  destruct (is_pipe p bp); [|gnorm; lia]. unfold pipe_next. destruct (bp_q bp); cbn [fst snd bp_q]; gnorm; lia.
Qed.
Lemma o_tx_TranSend F p l : o_tx F (map (TranSend p) l) = wsum (fun m => F (OPipe p, body m)) l.
Proof. induction l; cbn; [reflexivity|]. rewrite wsum_cons, IHl. reflexivity. Qed.
Lemma o_rel_TranSend F p l : o_rel F (map (TranSend p) l) = wsum (fun m => F (OProto, body m)) l.
Proof. induction l; cbn; [reflexivity|]. rewrite wsum_cons, IHl. reflexivity. Qed.
(* bus0_pipe_close: the pipe's send queue is flushed *)
Lemma close_sum (P : pmsg -> nat) p l :
  wsum P (flat_map bp_q l)
  = wsum P (flat_map bp_q (filter (fun bp => negb (is_pipe p bp)) l))
    + wsum P (flat_map (fun bp => if is_pipe p bp then bp_q bp else []) l).
Proof.
  induction l as [|bp l IH]; [reflexivity|]. cbn [flat_map filter]. gnorm. rewrite IH.
  destruct (is_pipe p bp); cbn [negb flat_map]; gnorm; lia.
Qed.
(* NNG_OPT_SENDBUF: every send queue is cut to the new depth *)
Lemma shrink_sum (P : pmsg -> nat) n l :
  wsum P (flat_map bp_q l)
  = wsum P (flat_map bp_q (map (fun bp => mkBP (bp_id bp) (bp_busy bp) (firstn n (bp_q bp)) n) l))
    + wsum P (flat_map (fun bp => skipn n (bp_q bp)) l).
Proof.
  induction l as [|bp l IH]; [reflexivity|]. cbn [flat_map map bp_q]. gnorm. rewrite IH.
  rewrite (wsum_firstn_skipn P n (bp_q bp)). lia.
Qed.

Lemma bus_law_sum fixed keep s o s' outs :
  bus_step fixed s o = (s', outs) -> law_sum (VBus.view fixed keep) s o s' outs.
Proof.
  intros H. destruct o as [c a nb m|c a nb|a rv|p peer|p|p rv|p rv m|c op|c|c| |now]; cbn [bus_step] in H.
  2-12: apply law_sum_quiet; [reflexivity|intros; discriminate|reflexivity|reflexivity|reflexivity|intros F];
    cbn [op_add op_del].
  - (* PSend: bus0_sock_send; one clone per pipe that takes the message *)
    intros F. cbv zeta. change (v_extra (VBus.view fixed keep) s (PSend c a nb m) outs) with (@nil pmsg).
    change (v_dups (VBus.view fixed keep) s (PSend c a nb m)) with (@nil key).
    change (v_clones (VBus.view fixed keep) s (PSend c a nb m)) with (VBus.clones fixed s (PSend c a nb m)).
    unfold VBus.clones. cbn [map op_add op_del]. rewrite !app_nil_r.
    destruct (negb fixed && nb); injection H as <- <-; rewrite !bus_omega; cbn [bs_rq bs_pipes bs_sending].
    + cbn [s_take s_del]. rewrite send_key_self. bfin.
    + pose proof (fan_sum F (bs_raw s) (fst (bus_prep (bs_raw s) m)) (snd (bus_prep (bs_raw s) m)) (bs_pipes s)) as L.
      rewrite body_prep, wsum_map in L.
      destruct (s_quiet (VBus.view fixed keep) F s (PSend c a nb m) _ (fan_quiet (bs_raw s) (fst (bus_prep (bs_raw s) m))
                  (snd (bus_prep (bs_raw s) m)) (bs_pipes s))) as [A B].
      rewrite s_take_app, s_del_app, A, B. cbn [s_take s_del]. rewrite send_key_self.
      bfin. rewrite ?body_prep. lia.
  - (* PRecv: bus0_sock_recv *)
    destruct (bs_rq s) as [|m rest] eqn:E.
    + destruct nb; injection H as <- <-.
      * bfin.
      * (* the receiver waits *)
        rewrite !bus_omega, E. cbn [bs_rq bs_pipes bs_sending]. bfin.
    + (* the head of the receive queue goes to the caller *)
      injection H as <- <-. rewrite !bus_omega, E. cbn [bs_rq bs_pipes bs_sending]. bfin.
  - (* PCancel: bus0_recv_cancel *)
    destruct (has_id a (bs_wait s)); injection H as <- <-; rewrite !bus_omega; cbn [bs_rq bs_pipes bs_sending]; bfin.
  - (* PPipeStart: bus0_pipe_start *)
    destruct (negb (peer =? PROTO_BUS)%N); injection H as <- <-; rewrite !bus_omega; cbn [bs_rq bs_pipes bs_sending]; bfin.
    rewrite flat_map_app. cbn [flat_map bp_q]. bfin.
  - (* PPipeClose: bus0_pipe_close *)
    injection H as <- <-. rewrite !bus_omega. cbn [bs_rq bs_pipes bs_sending].
    pose proof (close_sum (fun m => F (OProto, body m)) p (bs_pipes s)). bfin.
  - (* PSendDone: bus0_pipe_send_cb *)
    change (tx_of p (v_tx (VBus.view fixed keep) s)) with (held_of p (bs_sending s)).
    pose proof (wsum_tx_split F p (bs_sending s)) as P. change (tx_of p (bs_sending s)) with (held_of p (bs_sending s)) in P.
    destruct (N.eqb_spec rv 0) as [->|Hrv]; cbn [negb] in H; injection H as <- <-; rewrite !bus_omega;
      cbn [bs_rq bs_pipes bs_sending]; unfold drop_sending.
    + pose proof (next_sum (fun m => F (OProto, body m)) p (bs_pipes s)). rewrite o_tx_TranSend, o_rel_TranSend. bfin.
    + bfin.
  - (* PRecvDone: bus0_pipe_recv_cb *)
    destruct (N.eqb_spec rv 0) as [->|Hrv]; cbn [negb] in H.
    2:{ injection H as <- <-. bfin. }
    assert (Bm : body (if bs_raw s then mkPmsg (pm_hdr m ++ enc32 p) (pm_body m) else m) = body m) by (destruct (bs_raw s); reflexivity).
    cbn [v_rx VBus.view]. unfold no_rx.
    destruct (bs_wait s) as [|a rest].
    + destruct (length (bs_rq s) <? bs_rcap s); injection H as <- <-.
      * (* no receiver waits: queued *)
        rewrite !bus_omega. cbn [bs_rq bs_pipes bs_sending]. bfin. rewrite Bm. lia.
      * (* no room: dropped *)
        bfin. rewrite Bm. lia.
    + (* handed to the receiver that waits *)
      injection H as <- <-. rewrite !bus_omega. cbn [bs_rq bs_pipes bs_sending]. bfin. rewrite Bm. lia.
  - destruct op; try (injection H as <- <-; bfin; fail).
    + destruct (buf_bad n); injection H as <- <-; [bfin|]. rewrite !bus_omega. cbn [bs_rq bs_pipes bs_sending].
      pose proof (shrink_sum (fun m => F (OProto, body m)) n (bs_pipes s)). bfin.
    + destruct (buf_bad n); injection H as <- <-; [bfin|]. rewrite !bus_omega. cbn [bs_rq bs_pipes bs_sending].
      pose proof (wsum_firstn_skipn (fun m => F (OProto, body m)) n (bs_rq s)). bfin.
  - injection H as <- <-. bfin.
  - injection H as <- <-. bfin.
  - (* PSockClose: bus0_sock_close *)
    injection H as <- <-. rewrite !bus_omega. cbn [bs_rq bs_pipes bs_sending]. bfin.
  - injection H as <- <-. bfin.
Qed.

(* every clone of bus0_sock_send is a clone of the message just taken from the sending aio *)
Lemma bus_clones_held fixed keep s o s' outs :
  bus_step fixed s o = (s', outs) -> clones_held (VBus.view fixed keep) s o outs.
Proof.
  intros H. apply clones_held_intro. intros k0 Hk. right. left.
  cbn [v_clones VBus.view] in Hk. unfold VBus.clones in Hk.
  destruct o as [c a nb m|c a nb|a rv|p peer|p|p rv|p rv m|c op|c|c| |now]; try destruct Hk.
  cbn [bus_step] in H. destruct (negb fixed && nb); [destruct Hk|].
  apply in_map_iff in Hk. destruct Hk as [bp [<- _]].
  exists a. split; [|apply send_key_self].
  inversion H; subst. apply in_or_app. right. right. left. reflexivity.
Qed.

Lemma bus_inv_init raw : BusProofs.BInv (bus_init raw).
Proof. apply BusProofs.bus_init_inv. Qed.

Theorem bus_proto_law : forall fixed keep,
  proto_law (VBus.view fixed keep) (bus_step fixed) BusProofs.BInv BusProofs.op_ok.
Proof.
  intros fixed keep s o s' outs HI Hok H. split; [|split].
  - exact (BusProofs.bus_step_inv fixed s o s' outs HI Hok H).
  - apply law_sum_eq. apply bus_law_sum. exact H.
  - eapply bus_clones_held. exact H.
Qed.

(* the contracts are satisfiable *)
(* a send that blocks (buffer depth 0), option change (the buffer grows: with the resize repair the
   blocked sender moves in), peer attaches (the message goes out), transport completion, a direct send,
   a message arrives and is parked, a receive takes it, the peer goes, the socket closes *)
Example pair0_ok_nonvacuous : forall fx fr fs,
  ops_ok (pair_step_g K0 fx fr fs) pair_ok pair_init
    [PSend None 1%N false (mkPmsg [] [1%N]); PSetOpt None (OSendBuf 1); PPipeStart 5%N PROTO_PAIR0;
     PSendDone 5%N 0%N; PSend None 3%N false (mkPmsg [] [2%N]); PSendDone 5%N 0%N;
     PRecvDone 5%N 0%N (mkPmsg [] [9%N]); PRecv None 2%N false; PRecv None 4%N false; PCancel 4%N E_CANCELED;
     PPipeClose 5%N; PSockClose].
Proof. intros [|] [|] [|]; vm_compute; intuition (try discriminate; try congruence). Qed.

Example pair1_ok_nonvacuous : forall fx fr fs,
  ops_ok (pair_step_g (K1 false) fx fr fs) pair_ok pair_init
    [PSetOpt None (OMaxTtl 4); PSetOpt None (OSendBuf 1); PSend None 1%N false (mkPmsg [] [1%N]);
     PPipeStart 5%N PROTO_PAIR1; PSendDone 5%N 0%N; PSend None 3%N false (mkPmsg [] [2%N]); PSendDone 5%N 0%N;
     PRecvDone 5%N 0%N (mkPmsg [] [0%N; 0%N; 0%N; 1%N; 9%N]); PRecv None 2%N false;
     PRecv None 4%N false; PCancel 4%N E_CANCELED; PPipeClose 5%N; PSockClose].
Proof. intros [|] [|] [|]; vm_compute; intuition (try discriminate; try congruence). Qed.

(* option change, two pipes, a send fanned out to both, transport completion, a message arrives,
   a receive takes it, a pipe goes, the socket closes *)
Example bus_ok_nonvacuous : forall fixed raw,
  ops_ok (bus_step fixed) BusProofs.op_ok (bus_init raw)
    [PSetOpt None (ORecvBuf 4); PPipeStart 1%N PROTO_BUS; PPipeStart 2%N PROTO_BUS;
     PSend None 7%N false (mkPmsg [0%N; 0%N; 0%N; 1%N] [3%N]); PSendDone 2%N 0%N;
     PRecvDone 2%N 0%N (mkPmsg [] [4%N]); PRecv None 8%N false; PRecv None 9%N false; PCancel 9%N E_CANCELED;
     PPipeClose 1%N; PSockClose].
Proof. intros [|] [|]; vm_compute; intuition (try discriminate; try congruence). Qed.

(* after the close sequence the protocol owns nothing but what its fini frees *)

(* the socket core's close sequence as pairX sees it: the peer pipe (s->p) gets its pipe_close /
   pipe_stop (which frees the message parked in its aio_recv); every transport send still in
   flight -- of the peer or of a pipe replaced earlier -- fails with NNG_ECLOSED; there are no
   contexts; then pairX_sock_close *)
Definition pair_close_script (s : pair) : list pop :=
  map PPipeClose (opt_list (pr_p s))
  ++ map (fun p => PSendDone p E_CLOSED) (map fst (pr_sending s))
  ++ [PSockClose].

Lemma pair_inv_step k fx fr fs s o : pair_inv s -> pair_ok s o -> pair_inv (fst (pair_step_g k fx fr fs s o)).
Proof.
  intros Hi Ho. destruct (pair_step_g k fx fr fs s o) as [s' outs] eqn:E.
  exact (proj1 (pair_proto_law k fx fr fs s o s' outs Hi Ho E)).
Qed.
Lemma pair_fail_step k fx fr fs s p :
  fst (pair_step_g k fx fr fs s (PSendDone p E_CLOSED)) =
  mkPair (pr_p s) (pr_ttl s) (pr_wmq s) (pr_wcap s) (pr_waq s) (pr_rmq s) (pr_rcap s) (pr_raq s)
         (pr_rd s) (pr_wr s) (set_snd (pr_sending s) p None) (pr_readable s) (pr_writable s).
Proof.
  cbn [pair_step_g]. change (E_CLOSED =? 0)%N with false. rewrite andb_false_r. cbn [andb pair_step].
  change (negb false) with true. cbn iota. reflexivity.
Qed.

Theorem pair_close_drains : forall k fx fr fs s, pair_inv s ->
  ops_ok (pair_step_g k fx fr fs) pair_ok s (pair_close_script s) /\
  drained (VPair.view k) (run (pair_step_g k fx fr fs) s (pair_close_script s)).
Proof.
  intros k fx fr fs s Hi. set (step := pair_step_g k fx fr fs).
  pose proof (pair_inv_step k fx fr fs) as Hinv. fold step in Hinv.
  unfold pair_close_script.
  (* 1: the peer's pipe_close *)
  destruct (run_frame step pair_inv pair_ok Hinv pr_sending (map PPipeClose (opt_list (pr_p s)))) with (s := s)
    as (A1 & J1 & F1); [|exact Hi|].
  { intros s0 o Hin _. apply in_map_iff in Hin. destruct Hin as [p [<- _]]. split; [split; exact I|].
    unfold step. cbn [pair_step_g pair_step]. destruct (pr_p s0) as [q|]; [destruct (q =? p)%N|]; reflexivity. }
  assert (R1 : pr_rd (run step s (map PPipeClose (opt_list (pr_p s)))) = None).
  { destruct (pr_p s) as [p|] eqn:EP; cbn [opt_list map run].
    - unfold step. cbn [pair_step_g pair_step]. rewrite EP, N.eqb_refl. reflexivity.
    - destruct (pr_rd s) eqn:R; [|reflexivity]. destruct Hi as [(_ & I2 & _) _].
      destruct I2 as [X _]; [rewrite R; discriminate|]. congruence. }
  set (s1 := run step s (map PPipeClose (opt_list (pr_p s)))) in *.
  (* 2: the transport fails the sends in flight *)
  destruct (run_fail_all step pair_inv pair_ok Hinv pr_rd pr_sending E_CLOSED) with (s := s1)
    as (A2 & J2 & F2 & S2); [| | | |exact J1|].
  { intros s0 p _ Hin. split; [split; [exact Hin|intros; discriminate]|exact I]. }
  { intros s0 p. unfold step. rewrite pair_fail_step. reflexivity. }
  { intros s0 p. unfold step. rewrite pair_fail_step. reflexivity. }
  { destruct J1 as [(_ & _ & _ & _ & _ & _ & I7) _]. exact I7. }
  rewrite F1 in A2, J2, F2, S2.
  set (s2 := run step s1 (map (fun p => PSendDone p E_CLOSED) (map fst (pr_sending s)))) in *.
  split.
  - apply ops_ok_app; [exact A1|]. fold s1. apply ops_ok_app; [exact A2|]. fold s2.
    cbn [ops_ok]. split; [split; exact I|exact I].
  - rewrite !run_app. fold s1. fold s2. cbn [run]. unfold step. cbn [pair_step_g pair_step fst].
    unfold drained. cbn [VPair.view v_tx v_att v_held v_fini]. PairProofs.simp_r.
    split; [exact S2|]. split; [reflexivity|]. rewrite F2, R1. cbn [opt_list app]. apply perm_nil.
Qed.

(* every pipe on s->pipes gets bus0_pipe_close (its send queue is flushed); every transport send
   still in flight fails with NNG_ECLOSED; there are no contexts; then bus0_sock_close *)
Definition bus_close_script (s : bus) : list pop :=
  map PPipeClose (map bp_id (bs_pipes s))
  ++ map (fun p => PSendDone p E_CLOSED) (map fst (bs_sending s))
  ++ [PSockClose].

Theorem bus_close_drains : forall fixed keep s, BusProofs.BInv s ->
  ops_ok (bus_step fixed) BusProofs.op_ok s (bus_close_script s) /\
  drained (VBus.view fixed keep) (run (bus_step fixed) s (bus_close_script s)).
Proof.
  intros fixed keep s Hi. set (step := bus_step fixed).
  assert (Hinv : forall s o, BusProofs.BInv s -> BusProofs.op_ok s o -> BusProofs.BInv (fst (step s o))).
  { intros s0 o Hi0 Ho. destruct (step s0 o) as [s' outs] eqn:E. exact (BusProofs.bus_step_inv fixed s0 o s' outs Hi0 Ho E). }
  unfold bus_close_script.
  destruct (run_frame step BusProofs.BInv BusProofs.op_ok Hinv bs_sending (map PPipeClose (map bp_id (bs_pipes s)))) with (s := s)
    as (A1 & J1 & F1); [|exact Hi|].
  { intros s0 o Hin _. apply in_map_iff in Hin. destruct Hin as [p [<- _]]. split; [exact I|reflexivity]. }
  set (s1 := run step s (map PPipeClose (map bp_id (bs_pipes s)))) in *.
  destruct (run_fail_all step BusProofs.BInv BusProofs.op_ok Hinv (fun _ : bus => tt) bs_sending E_CLOSED) with (s := s1)
    as (A2 & J2 & _ & S2); [| | | |exact J1|].
  { intros s0 p _ Hin. exact Hin. }
  { intros s0 p. reflexivity. }
  { intros s0 p. reflexivity. }
  { destruct J1 as (_ & _ & I3 & _). exact I3. }
  rewrite F1 in A2, J2, S2.
  set (s2 := run step s1 (map (fun p => PSendDone p E_CLOSED) (map fst (bs_sending s)))) in *.
  split.
  - apply ops_ok_app; [exact A1|]. fold s1. apply ops_ok_app; [exact A2|]. fold s2.
    cbn [ops_ok]. split; exact I.
  - rewrite !run_app. fold s1. fold s2. cbn [run]. unfold step. cbn [bus_step fst].
    unfold drained. cbn [VBus.view v_tx v_att v_held v_fini bs_sending bs_rq bs_pipes].
    split; [exact S2|]. split; [reflexivity|]. apply Permutation_refl.
Qed.

Print Assumptions pair_proto_law.
Print Assumptions bus_proto_law.
Print Assumptions pair_close_drains.
Print Assumptions bus_close_drains.
